(* The bus level (Properties/BusLevel.v): soundness of the boolean trace monitors of Model/BusOracle.v w.r.t. the
   predicates of Model/Bus.v (C01 gaps and who-may-transmit, C02 rotations, C13 hold rule with its link to the
   rotation bound of RotationBound.v), and the abstract composition theorem for collision freedom (C01_compose). *)
From PB Require Import Bus BusOracle RotationBound.

(* the transmission before position j of a suffix whose predecessor is pv *)
Definition prev_of' (pv : option btx) (tr : trace) (j : nat) : option btx :=
  match j with O => pv | S k => nth_error tr k end.

Lemma prev_of'_cons pv y0 r k : prev_of' pv (y0 :: r) (S k) = prev_of' (Some y0) r k.
Proof. destruct k; reflexivity. Qed.

Lemma gaps_go_sound need slack : forall tr me pv, gaps_go need slack me pv tr = true ->
  (forall j y m, nth_error tr j = Some y -> me = Some m ->
     m + need (prev_of' pv tr j) y <= start_sc y + slack) /\
  (forall i j x y, (i < j)%nat -> nth_error tr i = Some x -> nth_error tr j = Some y ->
     end_sc x + need (prev_of' pv tr j) y <= start_sc y + slack).
Proof.
  induction tr as [|y0 r IH]; intros me pv H.
  - split; intros; destruct j; discriminate.
  - cbn [gaps_go] in H. apply andb_true_iff in H. destruct H as [H0 Hr].
    destruct (IH _ _ Hr) as [IH1 IH2]. split.
    + intros j y m Hj Hm. destruct j as [|k].
      * cbn in Hj. inversion Hj; subst y. subst me. cbn [prev_of']. apply Z.leb_le in H0. exact H0.
      * cbn [nth_error] in Hj. rewrite prev_of'_cons. subst me.
        specialize (IH1 k y (Z.max m (end_sc y0)) Hj eq_refl). lia.
    + intros i j x y Hij Hi Hj. destruct j as [|k]; [lia|]. cbn [nth_error] in Hj.
      rewrite prev_of'_cons. destruct i as [|i'].
      * cbn in Hi. inversion Hi; subst x.
        destruct me as [m|].
        -- specialize (IH1 k y (Z.max m (end_sc y0)) Hj eq_refl). lia.
        -- specialize (IH1 k y (end_sc y0) Hj eq_refl). lia.
      * cbn [nth_error] in Hi. apply (IH2 i' k x y); [lia|exact Hi|exact Hj].
Qed.

Lemma prev_of'_none tr j : prev_of' None tr j = prev_of tr j.
Proof. destruct j; reflexivity. Qed.

Lemma ordered_no_overlap tr :
  (forall i j x y, (i < j)%nat -> nth_error tr i = Some x -> nth_error tr j = Some y -> end_sc x <= start_sc y) ->
  no_overlap tr.
Proof.
  intros G i j x y Hne Hi Hj. unfold disjoint, interval. cbn [fst snd].
  destruct (Nat.lt_total i j) as [L|[E|L]]; [left; exact (G i j x y L Hi Hj)|contradiction|right; exact (G j i y x L Hj Hi)].
Qed.

Lemma c01_no_overlap_sound tr : c01_no_overlap_b tr = true -> no_overlap tr.
Proof.
  intros H. unfold c01_no_overlap_b in H. destruct (gaps_go_sound _ _ _ _ _ H) as [_ G].
  apply ordered_no_overlap. intros i j x y L Hi Hj. specialize (G i j x y L Hi Hj). unfold need0 in G. lia.
Qed.

Lemma c01_idle_sound c tr : c01_idle_b c tr = true -> idle_times c tr.
Proof.
  intros H. unfold c01_idle_b in H. destruct (gaps_go_sound _ _ _ _ _ H) as [_ G].
  intros i j x y Hij Hi Hj. specialize (G i j x y Hij Hi Hj). rewrite prev_of'_none in G. exact G.
Qed.

(* idle times imply that nothing overlaps as long as 1 us is not more than 11 bit times (every
   bit rate up to 6 Mbit/s; at 12 Mbit/s one microsecond is 12 bit times, so there the overlap
   monitor is the stronger of the two for replies) *)
Lemma idle_need_ge prev y : 11 * M <= idle_need prev y.
Proof. unfold idle_need, M. destruct prev as [x|]; [destruct (is_reply_to x y)|]; lia. Qed.

Lemma idle_times_no_overlap c tr : rate c <= 11 * M -> idle_times c tr -> no_overlap tr.
Proof.
  intros R G. apply ordered_no_overlap. intros i j x y L Hi Hj.
  specialize (G i j x y L Hi Hj). pose proof (idle_need_ge (prev_of tr j) y). lia.
Qed.

Lemma opt_eqb_some (o : option Z) (s : Z) : opt_eqb o (Some s) = true -> o = Some s.
Proof. destruct o as [x|]; cbn; [|discriminate]. intros H. apply Z.eqb_eq in H. now subst. Qed.

Lemma silent_forb_sound c st y bits : silent_forb c st y bits = true -> silent_for c st y bits.
Proof.
  unfold silent_forb, silent_for. intros H m Hm. rewrite Hm in H. now apply Z.leb_le in H.
Qed.

Lemma online_forb_sound c y bits : online_forb c y bits = true -> online_for c y bits.
Proof. unfold online_forb, online_for. intros H. now apply Z.leb_le in H. Qed.

Lemma own_token_before_sound st s : own_token_before st s = true ->
  exists x da', w_prev st = Some x /\ tx_sender x = s /\ tel_of x = Some (TToken da' s).
Proof.
  unfold own_token_before. destruct (w_prev st) as [x|]; [|discriminate]. intros H.
  apply andb_true_iff in H. destruct H as [Hs Ht]. apply Z.eqb_eq in Hs.
  destruct (tel_of x) as [[h p|da sa|]|] eqn:Et; try discriminate.
  apply Z.eqb_eq in Ht. subst sa. exists x, da. auto.
Qed.

Lemma reply_before_sound st y : reply_before st y = true ->
  exists x, w_prev st = Some x /\ is_reply_to x y = true.
Proof. unfold reply_before. destruct (w_prev st) as [x|]; [|discriminate]. intros H. eauto. Qed.

Lemma classify_sound c st y cl : classify c st y = Some cl -> justified c st y cl.
Proof.
  unfold classify. destruct (tel_of y) as [[h p|da sa|]|] eqn:Et; [| | |discriminate].
  - destruct (h_sa h =? tx_sender y) eqn:Es; cbn [negb]; [|discriminate]. apply Z.eqb_eq in Es.
    destruct (h_fc h) as [f r|rs st'] eqn:Ef.
    + destruct (opt_eqb (w_holder st) (Some (tx_sender y))) eqn:Eh; [|discriminate].
      intros H; inversion H; subst cl. apply opt_eqb_some in Eh.
      eapply J_holder; eauto.
    + destruct (reply_before st y) eqn:Er; [|discriminate]. intros H; inversion H; subst cl.
      destruct (reply_before_sound _ _ Er) as (x & Hx & Hr). eapply J_reply; eauto.
  - destruct (sa =? tx_sender y) eqn:Es; cbn [negb]; [|discriminate]. apply Z.eqb_eq in Es. subst sa.
    destruct (opt_eqb (w_holder st) (Some (tx_sender y))) eqn:Eh.
    { intros H; inversion H; subst cl. apply opt_eqb_some in Eh. eapply J_pass; eauto. }
    destruct (own_token_before st (tx_sender y) && silent_forb c st y (c_slot c)) eqn:Eo.
    { intros H; inversion H; subst cl. apply andb_true_iff in Eo. destruct Eo as [Eo Esl].
      destruct (own_token_before_sound _ _ Eo) as (x & da' & Hx & Hs & Ht).
      eapply J_retry; eauto using silent_forb_sound. }
    destruct ((da =? tx_sender y) && silent_forb c st y (t_lost_bits c (tx_sender y))
              && online_forb c y (t_lost_bits c (tx_sender y))) eqn:Ec; [|discriminate].
    intros H; inversion H; subst cl.
    apply andb_true_iff in Ec. destruct Ec as [Ec Eon]. apply andb_true_iff in Ec. destruct Ec as [Ed Esl].
    apply Z.eqb_eq in Ed. subst da.
    apply J_claim; auto using silent_forb_sound, online_forb_sound.
  - destruct (reply_before st y) eqn:Er; [|discriminate]. intros H; inversion H; subst cl.
    destruct (reply_before_sound _ _ Er) as (x & Hx & Hr). eapply J_reply; eauto.
Qed.

Lemma who_go_sound c : forall tr st, who_go c st tr = true ->
  forall k y, nth_error tr k = Some y ->
  exists cl, justified c (fold_left w_step (firstn k tr) st) y cl.
Proof.
  induction tr as [|y0 r IH]; intros st H k y Hk.
  - destruct k; discriminate.
  - cbn [who_go] in H. destruct (classify c st y0) as [cl0|] eqn:Ec; [|discriminate].
    destruct k as [|k'].
    + cbn in Hk. inversion Hk; subst y. cbn. exists cl0. now apply classify_sound.
    + cbn [nth_error] in Hk. cbn [firstn fold_left]. apply (IH _ H k' y Hk).
Qed.

Lemma c01_who_sound c tr : c01_who_b c tr = true -> who_may_transmit c tr.
Proof. intros H k y Hk. unfold w_after. apply (who_go_sound c tr w0 H k y Hk). Qed.

Lemma unsynchronisedb_sound st y : unsynchronisedb st y = true -> unsynchronised st y.
Proof.
  unfold unsynchronisedb, unsynchronised. intros H m Hm. rewrite Hm in H. now apply Z.ltb_lt in H.
Qed.

Lemma claim_raceb_sound c st x y : claim_raceb c st x y = true -> claim_race c st x y.
Proof.
  unfold claim_raceb, claim_race. rewrite !andb_true_iff, orb_true_iff, negb_true_iff, Z.eqb_neq, Z.leb_le, Z.ltb_lt.
  intros (((((((((Cx & Cy) & Hne) & Hle) & Hlt) & Sx) & Ox) & Sy) & Oy) & U).
  repeat split; auto using silent_forb_sound, online_forb_sound.
  destruct U as [U|U]; [left|right]; now apply unsynchronisedb_sound.
Qed.

Lemma w_after_snoc tr x : w_after (tr ++ [x]) = w_step (w_after tr) x.
Proof. unfold w_after. rewrite fold_left_app. reflexivity. Qed.

Lemma cut_go_sound c : forall tr stx x acc pre b,
  stx = w_after (rev acc) -> cut_go c stx x acc tr = (pre, b) ->
  (b = false -> pre = rev acc ++ x :: tr) /\
  (b = true -> exists x' y' post, rev acc ++ x :: tr = pre ++ x' :: y' :: post /\
                                 claim_race c (w_after pre) x' y').
Proof.
  induction tr as [|y r IH]; intros stx x acc pre b Hst H.
  - cbn [cut_go] in H. rewrite <- rev_alt in H. injection H as Hp Hb. subst pre b. cbn [rev].
    split; [reflexivity|discriminate].
  - cbn [cut_go] in H. destruct (claim_raceb c stx x y) eqn:Er.
    + rewrite <- rev_alt in H. injection H as Hp Hb. subst pre b. split; [discriminate|].
      intros _. exists x, y, r. split; [reflexivity|]. rewrite <- Hst. now apply claim_raceb_sound.
    + specialize (IH (w_step stx x) y (x :: acc) pre b).
      assert (Hst' : w_step stx x = w_after (rev (x :: acc))).
      { cbn [rev]. rewrite w_after_snoc. now rewrite Hst. }
      destruct (IH Hst' H) as [I1 I2]. cbn [rev] in I1, I2. rewrite <- app_assoc in I1, I2.
      cbn [app] in I1, I2. split; assumption.
Qed.

Lemma c01_cut_sound c tr pre b : c01_cut c tr = (pre, b) ->
  (b = false -> pre = tr) /\
  (b = true -> exists x y post, tr = pre ++ x :: y :: post /\ claim_race c (w_after pre) x y).
Proof.
  unfold c01_cut. destruct tr as [|x r].
  - intros H; inversion H; subst. split; [reflexivity|discriminate].
  - intros H. destruct (cut_go_sound c r w0 x [] pre b eq_refl H) as [I1 I2]. cbn in I1, I2.
    split; assumption.
Qed.

Lemma index_of_some a : forall l k, index_of a l = Some k -> nth_error l k = Some a.
Proof.
  induction l as [|x r IH]; intros k H; [discriminate|].
  cbn [index_of] in H. destruct (x =? a) eqn:E.
  - inversion H; subst k. apply Z.eqb_eq in E. now subst.
  - destruct (index_of a r) as [k'|]; [|discriminate]. cbn in H. inversion H; subst k.
    cbn. now apply IH.
Qed.

Lemma ascb_cons a t : ascb (a :: t) = true -> Forall (fun b => a < b) t /\ ascb t = true.
Proof.
  revert a. induction t as [|b r IH]; intros a H.
  - split; [constructor|reflexivity].
  - cbn [ascb] in H. apply andb_true_iff in H. destruct H as [H1 H2]. apply Z.ltb_lt in H1.
    split; [|exact H2]. constructor; [exact H1|].
    destruct (IH b H2) as [F _]. eapply Forall_impl; [|exact F]. intros z Hz. cbn in Hz. lia.
Qed.

Lemma ascb_nodup R : ascb R = true -> NoDup R.
Proof.
  induction R as [|a t IH]; intros H; [constructor|].
  destruct (ascb_cons a t H) as [F H2]. constructor; [|now apply IH].
  intros Hin. rewrite Forall_forall in F. specialize (F a Hin). cbn in F. lia.
Qed.

Lemma succ_in_spec R k a d : NoDup R -> nth_error R k = Some a -> succ_in R a = Some d ->
  nth_error R ((k + 1) mod length R) = Some d.
Proof.
  intros ND Hk Hs. unfold succ_in in Hs. destruct (index_of a R) as [k'|] eqn:Ei; [|discriminate].
  apply index_of_some in Ei.
  assert (k = k').
  { assert (Hlt : (k < length R)%nat) by (apply nth_error_Some; congruence).
    rewrite NoDup_nth_error in ND. apply ND; [exact Hlt|congruence]. }
  subst k'. exact Hs.
Qed.

Lemma rot_go_from R : NoDup R -> forall ps k e, rot_go R e ps = true ->
  (forall sa da r, ps = (sa, da) :: r -> nth_error R (k mod length R) = Some sa) ->
  forall i sa da, nth_error ps i = Some (sa, da) ->
    nth_error R ((k + i) mod length R) = Some sa /\ nth_error R ((k + i + 1) mod length R) = Some da.
Proof.
  intros ND. induction ps as [|[sa0 da0] r IH]; intros k e H Hfirst i sa da Hi; [destruct i; discriminate|].
  cbn [rot_go] in H. apply andb_true_iff in H. destruct H as [H Hr].
  apply andb_true_iff in H. destruct H as [_ Hsucc]. apply opt_eqb_some in Hsucc.
  pose proof (Hfirst sa0 da0 r eq_refl) as Hk0.
  assert (Hn : length R <> 0%nat) by (destruct R; [cbn [length] in Hk0; destruct (k mod 0)%nat; discriminate Hk0|discriminate]).
  pose proof (succ_in_spec R _ sa0 da0 ND Hk0 Hsucc) as Hd. rewrite Nat.add_mod_idemp_l in Hd by exact Hn.
  destruct i as [|i'].
  - cbn in Hi. inversion Hi; subst sa da. rewrite Nat.add_0_r. auto.
  - cbn [nth_error] in Hi. replace (k + S i')%nat with (k + 1 + i')%nat by lia.
    apply (IH (k + 1)%nat (Some da0) Hr); [|exact Hi].
    intros sa1 da1 r1 ->. cbn [rot_go] in Hr. apply andb_true_iff in Hr. destruct Hr as [Hr _].
    apply andb_true_iff in Hr. destruct Hr as [He _]. apply Z.eqb_eq in He. subst sa1. exact Hd.
Qed.

Lemma c02_rot_sound R ps : c02_rot_b R ps = true -> NoDup R /\ rotations_of R ps.
Proof.
  unfold c02_rot_b. intros H. apply andb_true_iff in H. destruct H as [Ha Hr].
  pose proof (ascb_nodup R Ha) as ND. split; [exact ND|].
  destruct ps as [|[sa0 da0] r]; [now left|right].
  assert (Hs : exists k0, nth_error R k0 = Some sa0).
  { cbn [rot_go] in Hr. apply andb_true_iff in Hr. destruct Hr as [Hr _].
    apply andb_true_iff in Hr. destruct Hr as [_ Hs]. apply opt_eqb_some in Hs.
    unfold succ_in in Hs. destruct (index_of sa0 R) as [k0|] eqn:Ei; [|discriminate].
    exists k0. now apply index_of_some. }
  destruct Hs as [k0 Hk0]. exists k0. apply (rot_go_from R ND ((sa0, da0) :: r) k0 None Hr).
  intros sa da r' E. inversion E; subst. rewrite Nat.mod_small; [exact Hk0|]. apply nth_error_Some. congruence.
Qed.

Lemma list_eqb_eq : forall a b, list_eqb a b = true -> a = b.
Proof.
  induction a as [|x a IH]; destruct b as [|y b]; cbn; intros H; try discriminate; [reflexivity|].
  apply andb_true_iff in H. destruct H as [E H]. apply Z.eqb_eq in E. subst. f_equal. now apply IH.
Qed.

Lemma succ_in_cyc R a d : succ_in R a = Some d -> cyc_succ R a d.
Proof.
  unfold succ_in. destruct (index_of a R) as [k|] eqn:Ei; [|discriminate]. intros H.
  exists k. split; [now apply index_of_some|exact H].
Qed.

Lemma view_okb_sound R v : view_okb R v = true -> view_agrees R v.
Proof.
  unfold view_okb, view_agrees. rewrite !andb_true_iff. intros (((Hin & Hlas) & Hns) & Hps).
  apply opt_eqb_some in Hns, Hps. apply list_eqb_eq in Hlas. repeat split; auto using succ_in_cyc.
Qed.

Lemma first_self_in : forall ps a, first_self ps = Some a -> In (a, a) ps.
Proof.
  induction ps as [|[sa da] r IH]; intros a H; [discriminate|]. cbn [first_self] in H.
  destruct (sa =? da) eqn:E.
  - inversion H; subst. apply Z.eqb_eq in E. subst. now left.
  - right. now apply IH.
Qed.

Lemma two_self_holders_sound ps : two_self_holders_b ps = true -> two_self_holders ps.
Proof.
  unfold two_self_holders_b, two_self_holders. destruct (first_self ps) as [a|] eqn:Ef; [|discriminate].
  intros H. apply existsb_exists in H. destruct H as [[sa da] [Hin H]]. cbn [fst snd] in H.
  apply andb_true_iff in H. destruct H as [E N]. apply Z.eqb_eq in E. subst da.
  apply negb_true_iff in N. apply Z.eqb_neq in N.
  exists a, sa. split; [congruence|]. split; [now apply first_self_in|exact Hin].
Qed.

Lemma hold_go_spec TTR C O : forall old cur, hold_go TTR C O old cur = true ->
  forall v so eo s1 e1 s2 e2,
    nth_error old v = Some (so, eo) -> nth_error cur v = Some (s1, e1) ->
    nth_error cur (S v) = Some (s2, e2) -> hold_check TTR C O eo e1 s2 e2 = true.
Proof.
  induction old as [|[so0 eo0] old' IH]; intros cur H v so eo s1 e1 s2 e2 Ho H1 H2.
  - destruct v; discriminate.
  - destruct cur as [|[s10 e10] cur']; [destruct v; discriminate|].
    cbn [hold_go] in H. destruct cur' as [|[s20 e20] cur'']; [destruct v as [|[|v]]; discriminate|].
    apply andb_true_iff in H. destruct H as [Hc Hr].
    destruct v as [|v'].
    + cbn in Ho, H1, H2. inversion Ho; inversion H1; inversion H2; subst. exact Hc.
    + cbn [nth_error] in Ho, H1, H2. eapply IH; eauto.
Qed.

Lemma wf_go_spec : forall vs, wf_go vs = true ->
  forall v s1 e1 s2 e2, nth_error vs v = Some (s1, e1) -> nth_error vs (S v) = Some (s2, e2) ->
  e1 <= s2 <= e2.
Proof.
  induction vs as [|[s10 e10] r IH]; intros H v s1 e1 s2 e2 H1 H2.
  - destruct v; discriminate.
  - destruct r as [|[s20 e20] r']; [destruct v as [|[|v]]; discriminate|].
    cbn [wf_go] in H. apply andb_true_iff in H. destruct H as [Hc Hr].
    apply andb_true_iff in Hc. destruct Hc as [Ha Hb]. apply Z.leb_le in Ha, Hb.
    destruct v as [|v'].
    + cbn in H1, H2. inversion H1; inversion H2; subst. lia.
    + cbn [nth_error] in H1, H2. eapply IH; eauto.
Qed.

Lemma nth_error_skipn' {A} : forall n (l : list A) i, nth_error (skipn n l) i = nth_error l (n + i).
Proof.
  induction n as [|n IH]; intros l i; [reflexivity|].
  destruct l as [|x r]; [now destruct i|]. cbn [skipn Nat.add nth_error]. apply IH.
Qed.

Lemma nth_error_visit (vs : list visit) v : (v < length vs)%nat ->
  nth_error vs v = Some (v_start vs v, v_end vs v).
Proof.
  intros H. unfold v_start, v_end. destruct (nth_error vs v) as [p|] eqn:E.
  - rewrite (nth_error_nth vs v (0, 0) E). now destruct p.
  - apply nth_error_None in E. lia.
Qed.

Lemma c13_hold_wf n TTR C O vs : c13_hold_b n TTR C O vs = true -> trace_wf (rt_of n vs).
Proof.
  unfold c13_hold_b. intros H. apply andb_true_iff in H. destruct H as [H _].
  apply andb_true_iff in H. destruct H as [Hn Hwf]. apply Nat.leb_le in Hn.
  split; [exact Hn|]. intros v. cbn [rt_of rt_t rt_h rt_o].
  destruct (Nat.ltb (S v) (length vs)) eqn:El.
  - apply Nat.ltb_lt in El.
    rewrite (Nat.min_l (S v)) by lia. rewrite (Nat.min_l v) by lia.
    pose proof (wf_go_spec vs Hwf v _ _ _ _ (nth_error_visit vs v ltac:(lia)) (nth_error_visit vs (S v) El)).
    lia.
  - apply Nat.ltb_ge in El.
    rewrite (Nat.min_r (S v)) by lia. rewrite (Nat.min_r v) by lia. lia.
Qed.

Lemma c13_hold_obeys n TTR C O vs : 0 <= C -> 0 <= O -> c13_hold_b n TTR C O vs = true ->
  obeys_hold_rule (rt_of n vs) TTR C O.
Proof.
  intros HC HO H. unfold c13_hold_b in H. apply andb_true_iff in H. destruct H as [_ Hh].
  intros v Hv. cbn [rt_of rt_t rt_h rt_o rt_n] in *.
  destruct (Nat.ltb (S v) (length vs)) eqn:El.
  - apply Nat.ltb_lt in El.
    rewrite (Nat.min_l v) by lia. rewrite (Nat.min_l (v - n)) by lia.
    assert (H1 : nth_error (skipn n vs) (v - n) = Some (v_start vs v, v_end vs v)).
    { rewrite nth_error_skipn'. replace (n + (v - n))%nat with v by lia. apply nth_error_visit. lia. }
    assert (H2 : nth_error (skipn n vs) (S (v - n)) = Some (v_start vs (S v), v_end vs (S v))).
    { rewrite nth_error_skipn'. replace (n + S (v - n))%nat with (S v) by lia. now apply nth_error_visit. }
    pose proof (hold_go_spec TTR C O vs (skipn n vs) Hh (v - n)%nat _ _ _ _ _ _
                  (nth_error_visit vs (v - n) ltac:(lia)) H1 H2) as Hc.
    unfold hold_check in Hc. apply andb_true_iff in Hc. destruct Hc as [Ha Hb].
    apply Z.leb_le in Ha, Hb. split; assumption.
  - split; lia.
Qed.

Lemma c13_hold_hops_bounded n TTR C O vs : 0 <= TTR -> 0 <= C -> 0 <= O ->
  c13_hold_b n TTR C O vs = true ->
  forall v m, (n <= v)%nat -> (m <= n)%nat -> (v + m < length vs)%nat ->
  v_end vs (v + m) - v_end vs v <= TTR + Z.of_nat m * (C + O).
Proof.
  intros HT HC HO H v m Hv Hm Hlen.
  pose proof (rotation_prefix (rt_of n vs) TTR C O (c13_hold_wf _ _ _ _ _ H)
                (c13_hold_obeys _ _ _ _ _ HC HO H) HT HC HO v Hv m Hm) as B.
  cbn [rt_of rt_t rt_n] in B.
  rewrite (Nat.min_l (v + m)) in B by lia. rewrite (Nat.min_l v) in B by lia. lia.
Qed.

Lemma c13_hold_rotation_bounded n TTR C O vs : 0 <= TTR -> 0 <= C -> 0 <= O ->
  c13_hold_b n TTR C O vs = true -> rotation_bounded n vs TTR C O.
Proof. intros HT HC HO H v Hv Hlen. exact (c13_hold_hops_bounded n TTR C O vs HT HC HO H v n Hv (le_n n) Hlen). Qed.

Lemma bound_go_complete B : forall old cur,
  (forall v so eo s1 e1, nth_error old v = Some (so, eo) -> nth_error cur v = Some (s1, e1) -> e1 - eo <= B) ->
  bound_go B old cur = true.
Proof.
  induction old as [|[so eo] old' IH]; intros cur H; [reflexivity|].
  destruct cur as [|[s1 e1] cur']; [reflexivity|]. cbn [bound_go]. apply andb_true_iff. split.
  - apply Z.leb_le. apply (H 0%nat so eo s1 e1); reflexivity.
  - apply IH. intros v so' eo' s1' e1' Ho Hc. apply (H (S v) so' eo' s1' e1'); assumption.
Qed.

Lemma c13_hold_implies_bound_b n TTR C O vs : 0 <= TTR -> 0 <= C -> 0 <= O ->
  c13_hold_b n TTR C O vs = true -> c13_bound_b n (TTR + Z.of_nat n * (C + O)) vs = true.
Proof.
  intros HT HC HO H. pose proof (c13_hold_rotation_bounded n TTR C O vs HT HC HO H) as RB.
  unfold c13_bound_b. apply bound_go_complete. intros v so eo s1 e1 Ho Hc.
  rewrite nth_error_skipn' in Ho, Hc.
  assert (L1 : (n + n + v < length vs)%nat) by (apply (proj1 (nth_error_Some vs (n + n + v)%nat)); intro E; unfold visit in *; congruence).
  specialize (RB (n + v)%nat ltac:(lia) ltac:(lia)).
  pose proof (nth_error_visit vs (n + v) ltac:(lia)) as Eo.
  pose proof (nth_error_visit vs (n + n + v) ltac:(lia)) as Ec.
  unfold visit in *. rewrite Eo in Ho. rewrite Ec in Hc.
  inversion Ho; inversion Hc; subst. replace (n + v + n)%nat with (n + n + v)%nat in RB by lia. exact RB.
Qed.

(* An abstract timed trace: transmissions of type T with sender, start and end; `tr` lists them in
   the order of their starts.  For the k-th transmission, `seen k` is the number of transmissions of
   the trace whose BEGINNING its sender had noticed when it decided to transmit (a ghost value: what
   the station knew).  `entitled pre t s`: according to the prefix `pre` of transmissions it has
   noticed, station s may transmit at time t (token holder, designated replier, or its time-out
   window for a retry / a claim is open) - the abstract entitlement function.

   Hypotheses about the STATIONS (not discharged in this development; the single-station theorems
   named are where they would come from):
     S_entitled  a station transmits only when entitled by what it has noticed, inside the time
                 window of that entitlement (C01_who_may_transmit, C11_accept_iff, C11_supervise,
                 C12_status_reply_truth; the window part needs the poll-period bound)
     S_idle      it leaves its idle time after the end of every transmission it has noticed
                 (C01_sync_pause, C01_not_while_busy)
     S_own       it has noticed its own earlier transmissions (mark_tx)
   about the PROTOCOL (the entitlement function itself):
     E_unique    at one instant one prefix entitles at most one station
     E_windows   entitlements of two different stations by the same prefix are separated by at
                 least `react` (slot time / staggered claim time-outs against reaction times)
   about the MEDIUM and the SCHEDULE:
     T_sorted    the trace is in the order of the starts
     M_causal    a station notices only transmissions that began before its own
     M_visible   a transmission that began `react` earlier has been noticed (every completed byte
                 is delivered before the next poll, and polls are frequent enough). *)
Section Compose.
  Variable T : Type.
  Variables (sender : T -> Z) (start fin : T -> Z).
  Variable idle : nat -> Z.
  Variable entitled : list T -> Z -> Z -> Prop.
  Variable react : Z.
  Variable tr : list T.
  Variable seen : nat -> nat.

  Hypothesis T_sorted : forall i j x y, (i < j)%nat -> nth_error tr i = Some x -> nth_error tr j = Some y ->
    start x <= start y.
  Hypothesis S_entitled : forall k y, nth_error tr k = Some y ->
    entitled (firstn (seen k) tr) (start y) (sender y).
  Hypothesis S_idle : forall k y j x, nth_error tr k = Some y -> (j < seen k)%nat -> nth_error tr j = Some x ->
    fin x + idle k <= start y.
  Hypothesis S_own : forall j k x y, (j < k)%nat -> nth_error tr j = Some x -> nth_error tr k = Some y ->
    sender x = sender y -> (j < seen k)%nat.
  Hypothesis E_unique : forall pre t a b, entitled pre t a -> entitled pre t b -> a = b.
  Hypothesis E_windows : forall pre t t' a b, entitled pre t a -> entitled pre t' b -> a <> b -> t < t' ->
    t + react <= t'.
  Hypothesis M_causal : forall k y, nth_error tr k = Some y -> (seen k <= k)%nat.
  Hypothesis M_visible : forall j k x y, (j < k)%nat -> nth_error tr j = Some x -> nth_error tr k = Some y ->
    start x + react <= start y -> (j < seen k)%nat.

  (* every transmitter is up to date: it has noticed ALL earlier transmissions *)
  Lemma compose_up_to_date : forall k y, nth_error tr k = Some y -> seen k = k.
  Proof.
    intros k. induction k as [k IH] using (well_founded_induction lt_wf). intros y Hk.
    pose proof (M_causal k y Hk) as Hle.
    destruct (Nat.eq_dec (seen k) k) as [E|NE]; [exact E|exfalso].
    assert (Hm : (seen k < k)%nat) by lia.
    destruct (nth_error tr (seen k)) as [x|] eqn:Ex.
    2:{ apply nth_error_None in Ex. assert ((k < length tr)%nat) by (apply nth_error_Some; congruence). lia. }
    pose proof (IH (seen k) Hm x Ex) as Hup.
    pose proof (S_entitled k y Hk) as Ey.
    pose proof (S_entitled (seen k) x Ex) as Exx. rewrite Hup in Exx.
    destruct (Z.eq_dec (sender x) (sender y)) as [Es|Ns].
    - pose proof (S_own (seen k) k x y Hm Ex Hk Es). lia.
    - pose proof (T_sorted (seen k) k x y Hm Ex Hk) as Hs.
      destruct (Z.eq_dec (start x) (start y)) as [Et|Nt].
      + rewrite Et in Exx. apply Ns. exact (E_unique _ _ _ _ Exx Ey).
      + assert (Hlt : start x < start y) by lia.
        pose proof (E_windows _ _ _ _ _ Exx Ey Ns Hlt) as Hr.
        pose proof (M_visible (seen k) k x y Hm Ex Hk Hr). lia.
  Qed.

  Theorem compose_idle : forall i j x y, (i < j)%nat -> nth_error tr i = Some x -> nth_error tr j = Some y ->
    fin x + idle j <= start y.
  Proof.
    intros i j x y Hij Hi Hj. apply (S_idle j y i x Hj); [|exact Hi].
    rewrite (compose_up_to_date j y Hj). exact Hij.
  Qed.

  Theorem compose_no_overlap : (forall k, 0 <= idle k) ->
    forall i j x y, i <> j -> nth_error tr i = Some x -> nth_error tr j = Some y ->
    fin x <= start y \/ fin y <= start x.
  Proof.
    intros Hpos i j x y Hne Hi Hj. destruct (Nat.lt_total i j) as [L|[E|L]]; [left| contradiction |right].
    - pose proof (compose_idle i j x y L Hi Hj). pose proof (Hpos j). lia.
    - pose proof (compose_idle j i y x L Hj Hi). pose proof (Hpos i). lia.
  Qed.
End Compose.

Lemma compose_bus (c : buscfg) (entitled : trace -> Z -> Z -> Prop) (react : Z) (tr : trace) (seen : nat -> nat) :
  (forall i j x y, (i < j)%nat -> nth_error tr i = Some x -> nth_error tr j = Some y -> start_sc x <= start_sc y) ->
  (forall k y, nth_error tr k = Some y -> entitled (firstn (seen k) tr) (start_sc y) (tx_sender y)) ->
  (forall k y j x, nth_error tr k = Some y -> (j < seen k)%nat -> nth_error tr j = Some x ->
     end_sc x + (idle_need (prev_of tr k) y - rate c) <= start_sc y) ->
  (forall j k x y, (j < k)%nat -> nth_error tr j = Some x -> nth_error tr k = Some y ->
     tx_sender x = tx_sender y -> (j < seen k)%nat) ->
  (forall pre t a b, entitled pre t a -> entitled pre t b -> a = b) ->
  (forall pre t t' a b, entitled pre t a -> entitled pre t' b -> a <> b -> t < t' -> t + react <= t') ->
  (forall k y, nth_error tr k = Some y -> (seen k <= k)%nat) ->
  (forall j k x y, (j < k)%nat -> nth_error tr j = Some x -> nth_error tr k = Some y ->
     start_sc x + react <= start_sc y -> (j < seen k)%nat) ->
  idle_times c tr /\ (rate c <= 11 * M -> no_overlap tr).
Proof.
  intros Hsort Hent Hidle Hown Hu Hw Hc Hv.
  assert (I : idle_times c tr).
  { intros i j x y Hij Hi Hj.
    pose proof (compose_up_to_date btx tx_sender start_sc entitled react tr seen
                  Hsort Hent Hown Hu Hw Hc Hv j y Hj) as Up.
    specialize (Hidle j y i x Hj ltac:(lia) Hi). lia. }
  split; [exact I|]. intros R. exact (idle_times_no_overlap c tr R I).
Qed.

(* non-vacuity of the hypotheses of the composition theorem: a two-station ping-pong *)
Definition ex_T := (Z * Z * Z)%type.    (* sender, start, end *)
Definition ex_tr : list ex_T := [(0, 0, 10); (1, 20, 30); (0, 40, 50)].
Definition ex_entitled (pre : list ex_T) (t : Z) (s : Z) : Prop := s = Z.of_nat (length pre) mod 2.

Lemma compose_example :
  let sender := fun x : ex_T => fst (fst x) in
  let start := fun x : ex_T => snd (fst x) in
  let fin := fun x : ex_T => snd x in
  (forall i j x y, (i < j)%nat -> nth_error ex_tr i = Some x -> nth_error ex_tr j = Some y -> start x <= start y) /\
  (forall k y, nth_error ex_tr k = Some y -> ex_entitled (firstn k ex_tr) (start y) (sender y)) /\
  (forall k y j x, nth_error ex_tr k = Some y -> (j < k)%nat -> nth_error ex_tr j = Some x -> fin x + 5 <= start y) /\
  (forall pre t a b, ex_entitled pre t a -> ex_entitled pre t b -> a = b) /\
  (forall pre t t' a b, ex_entitled pre t a -> ex_entitled pre t' b -> a <> b -> t < t' -> t + 1 <= t').
Proof.
  assert (B : forall k (y : ex_T), nth_error ex_tr k = Some y ->
            (k = 0%nat /\ y = (0, 0, 10)) \/ (k = 1%nat /\ y = (1, 20, 30)) \/ (k = 2%nat /\ y = (0, 40, 50))).
  { intros [|[|[|k]]] y Hk; cbn in Hk; [inversion Hk; auto..|destruct k; discriminate Hk]. }
  cbn zeta. repeat split.
  - intros i j x y Hij Hi Hj.
    destruct (B i x Hi) as [(-> & ->)|[(-> & ->)|(-> & ->)]], (B j y Hj) as [(-> & ->)|[(-> & ->)|(-> & ->)]]; cbn; lia.
  - intros k y Hk. destruct (B k y Hk) as [(-> & ->)|[(-> & ->)|(-> & ->)]]; reflexivity.
  - intros k y j x Hk Hjk Hj.
    destruct (B k y Hk) as [(-> & ->)|[(-> & ->)|(-> & ->)]], (B j x Hj) as [(-> & ->)|[(-> & ->)|(-> & ->)]]; cbn; lia.
  - unfold ex_entitled. intros; congruence.
  - unfold ex_entitled. intros; congruence.
Qed.

Lemma nth_error_firstn' {A} : forall n (l : list A) i, (i < n)%nat -> nth_error (firstn n l) i = nth_error l i.
Proof.
  induction n as [|n IH]; intros l i Hi; [lia|].
  destruct l as [|x r]; [now destruct i|]. destruct i as [|i']; [reflexivity|].
  cbn [firstn nth_error]. apply IH. lia.
Qed.

Lemma rot_nth (R : list Z) k j : (k < length R)%nat -> (j < length R)%nat ->
  nth_error (skipn k R ++ firstn k R) j = nth_error R ((k + j) mod length R).
Proof.
  intros Hk Hj. pose proof (skipn_length k R) as Ls.
  destruct (Nat.lt_ge_cases j (length R - k)) as [L|G].
  - rewrite nth_error_app1 by lia. rewrite nth_error_skipn'. rewrite Nat.mod_small by lia. reflexivity.
  - rewrite nth_error_app2 by lia. rewrite Ls. rewrite nth_error_firstn' by lia.
    f_equal. replace (k + j)%nat with ((j - (length R - k)) + 1 * length R)%nat by lia.
    rewrite Nat.mod_add by lia. rewrite Nat.mod_small by lia. reflexivity.
Qed.

Lemma nth_error_ext {A} : forall (l1 l2 : list A),
  (forall j, nth_error l1 j = nth_error l2 j) -> l1 = l2.
Proof.
  induction l1 as [|x r IH]; intros l2 H.
  - destruct l2 as [|y r2]; [reflexivity|]. specialize (H 0%nat). discriminate.
  - destruct l2 as [|y r2]; [specialize (H 0%nat); discriminate|].
    pose proof (H 0%nat) as H0. cbn in H0. inversion H0; subst y. f_equal.
    apply IH. intros j. exact (H (S j)).
Qed.

Lemma rotations_windows (R : list Z) (ps : list (Z * Z)) : rotations_of R ps -> ps <> [] ->
  exists k0, forall i, (i + length R <= length ps)%nat ->
    map fst (firstn (length R) (skipn i ps)) =
    skipn ((k0 + i) mod length R) R ++ firstn ((k0 + i) mod length R) R.
Proof.
  intros [E|[k0 H]] Hne; [contradiction|]. exists k0. intros i Hi.
  assert (Hn : length R <> 0%nat).
  { destruct ps as [|[sa da] r]; [contradiction|]. destruct (H 0%nat sa da eq_refl) as [A _].
    intros Z0. destruct R as [|r0 R']; [|cbn in Z0; discriminate]. cbn [length] in A.
    remember ((k0 + 0) mod 0)%nat as q. destruct q; discriminate. }
  apply nth_error_ext. intros j.
  destruct (Nat.lt_ge_cases j (length R)) as [Lj|Gj].
  - rewrite rot_nth by (try apply Nat.mod_upper_bound; lia).
    rewrite Nat.add_mod_idemp_l by exact Hn.
    rewrite nth_error_map, nth_error_firstn' by exact Lj. rewrite nth_error_skipn'.
    destruct (nth_error ps (i + j)) as [[sa da]|] eqn:Ep.
    + cbn. destruct (H (i + j)%nat sa da Ep) as [A _]. rewrite <- A. f_equal. f_equal. lia.
    + apply nth_error_None in Ep. lia.
  - assert (L1 : length (map fst (firstn (length R) (skipn i ps))) = length R).
    { rewrite map_length, firstn_length, skipn_length. lia. }
    assert (L2 : length (skipn ((k0 + i) mod length R) R ++ firstn ((k0 + i) mod length R) R) = length R).
    { pose proof (Nat.mod_upper_bound (k0 + i) (length R) Hn).
      rewrite app_length, skipn_length, firstn_length. lia. }
    transitivity (@None Z); [|symmetry]; apply nth_error_None; lia.
Qed.
