(* Facts about bytes and their bits, about byte lists, and the list surgery (prefix / suffix /
   element at a known length) that the codec proofs share. *)
From PB Require Import Common.

Definition range256 : list Z := map Z.of_nat (seq 0 256).

Lemma in_range256 b : 0 <= b < 256 -> In b range256.
Proof.
  intros H. unfold range256. apply in_map_iff. exists (Z.to_nat b). split.
  - apply Z2Nat.id; lia.
  - apply in_seq. lia.
Qed.

(* for a property that is a table by nature: checked on all 256 bytes by evaluation *)
Lemma sweep256 (P : Z -> bool) : forallb P range256 = true -> forall b, 0 <= b < 256 -> P b = true.
Proof. intros H b Hb. rewrite forallb_forall in H. apply H, in_range256, Hb. Qed.

Lemma in_bits8 k : 0 <= k < 8 -> In k [0; 1; 2; 3; 4; 5; 6; 7].
Proof. intros H. cbn [In]. lia. Qed.

Lemma testbit_concat n lo hi k : 0 <= lo < 2 ^ n -> 0 <= n -> 0 <= k ->
  Z.testbit (lo + 2 ^ n * hi) k = if k <? n then Z.testbit lo k else Z.testbit hi (k - n).
Proof.
  intros Hlo Hn Hk. rewrite (Z.mul_comm (2 ^ n)). destruct (Z.ltb_spec k n) as [Hl|Hh].
  - rewrite <- (Z.mod_pow2_bits_low _ n) by exact Hl.
    rewrite Z_mod_plus_full, Z.mod_small by exact Hlo. reflexivity.
  - replace k with (k - n + n) at 1 by lia. rewrite <- Z.div_pow2_bits by lia.
    rewrite Z.div_add, Z.div_small by lia. reflexivity.
Qed.

Lemma testbit_small n x k : 0 <= x < 2 ^ n -> 0 <= n <= k -> Z.testbit x k = false.
Proof.
  intros Hx Hk. rewrite <- (Z.add_0_r x), <- (Z.mul_0_r (2 ^ n)), testbit_concat by lia.
  destruct (Z.ltb_spec k n); [lia|apply Z.testbit_0_l].
Qed.

Lemma small_of_bits n y : 0 <= n -> 0 <= y -> (forall k, n <= k -> Z.testbit y k = false) -> y < 2 ^ n.
Proof.
  intros Hn Hy H. replace y with (y mod 2 ^ n); [apply Z.mod_pos_bound; lia|].
  apply Z.bits_inj'. intros k Hk. destruct (Z.lt_ge_cases k n) as [Hl|Hh].
  - apply Z.mod_pow2_bits_low, Hl.
  - rewrite Z.mod_pow2_bits_high, H by lia. reflexivity.
Qed.

Lemma testbit_top n x : 0 <= n -> 0 <= x < 2 * 2 ^ n -> Z.testbit x n = (2 ^ n <=? x).
Proof.
  intros Hn Hx. rewrite Z.testbit_odd, Z.shiftr_div_pow2 by exact Hn.
  destruct (Z.leb_spec (2 ^ n) x) as [Hge|Hlt].
  - replace (x / 2 ^ n) with 1; [reflexivity|]. apply Z.div_unique with (x - 2 ^ n); lia.
  - rewrite Z.div_small by lia. reflexivity.
Qed.

Lemma land_pow2 x k : 0 <= k -> Z.land x (2 ^ k) = if Z.testbit x k then 2 ^ k else 0.
Proof.
  intros Hk. apply Z.bits_inj'. intros j _. rewrite Z.land_spec, Z.pow2_bits_eqb by exact Hk.
  destruct (Z.eqb_spec k j) as [<-|N].
  - destruct (Z.testbit x k); [rewrite Z.pow2_bits_eqb, Z.eqb_refl by exact Hk|rewrite Z.testbit_0_l]; reflexivity.
  - rewrite andb_false_r. destruct (Z.testbit x k); [rewrite Z.pow2_bits_false by exact N|rewrite Z.testbit_0_l]; reflexivity.
Qed.

Lemma land_pow2_eqb0 x k : 0 <= k -> (Z.land x (2 ^ k) =? 0) = negb (Z.testbit x k).
Proof.
  intros Hk. rewrite land_pow2 by exact Hk. pose proof (Z.pow_pos_nonneg 2 k ltac:(lia) Hk).
  destruct (Z.testbit x k); [apply Z.eqb_neq; lia|reflexivity].
Qed.

Lemma lor_disjoint a b : Z.land a b = 0 -> Z.lor a b = a + b.
Proof. intros H. rewrite <- Z.lxor_lor, Z.add_nocarry_lxor by exact H. reflexivity. Qed.

Lemma ldiff_add_land a b : Z.ldiff a b + Z.land a b = a.
Proof.
  rewrite <- lor_disjoint; [apply Z.lor_ldiff_and|].
  apply Z.bits_inj'. intros k _. rewrite !Z.land_spec, Z.ldiff_spec, Z.testbit_0_l.
  destruct (Z.testbit a k), (Z.testbit b k); reflexivity.
Qed.

(* lor0 and land127 hold without their range hypotheses *)
Lemma lor0 b : 0 <= b -> Z.lor b 0 = b.
Proof. intros _. apply Z.lor_0_r. Qed.

Lemma land128_test b : 0 <= b < 256 -> (Z.land b 128 =? 0) = (b <? 128).
Proof.
  intros H. change 128 with (2 ^ 7). rewrite land_pow2_eqb0, testbit_top by lia.
  symmetry. apply Z.ltb_antisym.
Qed.

Lemma land127 b : 0 <= b < 256 -> Z.land b 127 = b mod 128.
Proof. intros _. change 127 with (Z.ones 7). apply Z.land_ones. lia. Qed.

Lemma lor128 b : 0 <= b < 128 -> Z.lor b 128 = b + 128.
Proof.
  intros H. apply lor_disjoint. apply Z.eqb_eq. rewrite land128_test by lia. apply Z.ltb_lt, H.
Qed.

Lemma sum8_range l : 0 <= sum8 l < 256.
Proof.
  unfold sum8. assert (G : forall a, 0 <= a < 256 -> 0 <= fold_left (fun acc b => (acc + b) mod 256) l a < 256).
  { induction l as [|x l IH]; cbn [fold_left]; intros a Ha; [exact Ha|]. apply IH. apply Z.mod_pos_bound. lia. }
  apply G. lia.
Qed.

Lemma is_byteb_iff b : is_byteb b = true <-> is_byte b.
Proof. unfold is_byteb, is_byte. rewrite andb_true_iff, Z.leb_le, Z.ltb_lt. reflexivity. Qed.

Lemma all_bytesb_iff l : all_bytesb l = true <-> all_bytes l.
Proof.
  unfold all_bytesb, all_bytes. rewrite forallb_forall, Forall_forall.
  split; intros H x Hx; apply is_byteb_iff, H, Hx.
Qed.

Lemma all_bytes_firstn (l : bytes) n : all_bytes l -> all_bytes (firstn n l).
Proof. unfold all_bytes. intros H. rewrite <- (firstn_skipn n l) in H. apply Forall_app in H. apply H. Qed.

Lemma all_bytes_skipn (l : bytes) n : all_bytes l -> all_bytes (skipn n l).
Proof. unfold all_bytes. intros H. rewrite <- (firstn_skipn n l) in H. apply Forall_app in H. apply H. Qed.

(* also beyond the end, where nth yields the default 0 *)
Lemma all_bytes_nth (l : bytes) i : all_bytes l -> is_byte (nth i l 0).
Proof.
  intros H. destruct (Nat.lt_ge_cases i (length l)) as [Hi|Hi].
  - unfold all_bytes in H. rewrite Forall_forall in H. apply H, nth_In, Hi.
  - rewrite nth_overflow by exact Hi. unfold is_byte. lia.
Qed.

Lemma bytes_eqb_refl l : bytes_eqb l l = true.
Proof. induction l as [|x l IH]; cbn [bytes_eqb]; [reflexivity|]. rewrite Z.eqb_refl, IH. reflexivity. Qed.

Lemma opt_eqb_refl o : opt_eqb o o = true.
Proof. destruct o; [apply Z.eqb_refl|reflexivity]. Qed.

Lemma flat_map_nil {A B} (f : A -> list B) (l : list A) :
  (forall x, In x l -> f x = []) -> flat_map f l = [].
Proof.
  induction l as [|x l IH]; intros H; [reflexivity|]. cbn [flat_map].
  rewrite (H x (or_introl eq_refl)). cbn [app]. apply IH. intros y I. apply H. right. exact I.
Qed.

Lemma firstn_app_exact {A} (a b : list A) n : n = length a -> firstn n (a ++ b) = a.
Proof. intros ->. rewrite firstn_app, Nat.sub_diag, firstn_O, firstn_all, app_nil_r. reflexivity. Qed.

Lemma skipn_app_exact {A} (a b : list A) n : n = length a -> skipn n (a ++ b) = b.
Proof. intros ->. rewrite skipn_app, Nat.sub_diag, skipn_all. reflexivity. Qed.

Lemma skipn_skipn' {A} (l : list A) : forall x y, skipn x (skipn y l) = skipn (y + x) l.
Proof.
  induction l as [|a l IH]; intros x y.
  - rewrite !skipn_nil. reflexivity.
  - destruct y as [|y]; [reflexivity|]. cbn [skipn Nat.add]. apply IH.
Qed.

Lemma skipn_cons_nth {A} (l : list A) d i : (i < length l)%nat -> skipn i l = nth i l d :: skipn (S i) l.
Proof.
  revert i. induction l as [|a l IH]; intros i H; cbn [length] in H; [lia|].
  destruct i as [|i]; [reflexivity|]. cbn [skipn nth]. apply IH. lia.
Qed.

Lemma nth_skipn_add {A} (l : list A) d : forall n i, nth i (skipn n l) d = nth (n + i) l d.
Proof.
  induction l as [|a l IH]; intros n i.
  - rewrite skipn_nil. destruct i, n; reflexivity.
  - destruct n as [|n]; [reflexivity|]. cbn [skipn Nat.add nth]. apply IH.
Qed.

Lemma get_app_r (a b : bytes) n i : n = (length a + i)%nat -> get (a ++ b) n = get b i.
Proof.
  intros ->. unfold get. rewrite nth_error_app2 by lia.
  replace (length a + i - length a)%nat with i by lia. reflexivity.
Qed.

Lemma slice_to_app_exact (a b : bytes) n : n = length a -> slice_to (a ++ b) n = Ok a.
Proof.
  intros ->. unfold slice_to. rewrite app_length.
  destruct (Nat.leb_spec (length a) (length a + length b)) as [_|H]; [|lia].
  rewrite firstn_app_exact by reflexivity. reflexivity.
Qed.
