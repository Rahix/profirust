(* C01, single-station half: who may transmit, the claim after the station's own time-out and its
   stagger by address, replies after min Tsdr, at most one transmission per poll.
   The station lemmas are one-step facts about `poll` for ALL station states (not only reachable ones),
   all inputs and all applications (status_request_is_addressed: about the two receive closures);
   C01_at_most_one_tx_per_poll alone uses the representation invariant of C05Proofs.v. *)
From PB Require Import Common Tables FdlTables Telegram Phy TokenRing Params Fdl FdlProofs FdlStepProofs C05Proofs.
From PB Require C06Proofs.

Lemma rate_pos b : 1 <= baud_to_rate b.
Proof. destruct b; cbn; lia. Qed.

Lemma btt_mono b x y : x <= y -> bits_to_time b x <= bits_to_time b y.
Proof.
  intros H. unfold bits_to_time. pose proof (rate_pos b). apply Z.div_le_mono; lia.
Qed.

Lemma btt_nonneg b x : 0 <= x -> 0 <= bits_to_time b x.
Proof. intros H. unfold bits_to_time. pose proof (rate_pos b). apply Z.div_pos; lia. Qed.

Lemma div_add_bounds x y r : 0 < r -> x / r + y / r <= (x + y) / r <= x / r + y / r + 1.
Proof.
  intros Hr.
  pose proof (Z.div_mod x r ltac:(lia)). pose proof (Z.mod_pos_bound x r Hr).
  pose proof (Z.div_mod y r ltac:(lia)). pose proof (Z.mod_pos_bound y r Hr).
  split.
  - apply Z.div_le_lower_bound; [lia|]. nia.
  - apply Z.lt_succ_r. apply Z.div_lt_upper_bound; [lia|]. nia.
Qed.

Definition tlt (b : baudrate) (slot_bits a : Z) : Z :=
  bits_to_time b (slot_bits * (token_lost_base + token_lost_per_addr * a)).

Lemma token_lost_timeout_is_tlt p : token_lost_timeout p = tlt (p_baud p) (p_slot_bits p) (p_address p).
Proof. reflexivity. Qed.

(* stagger: one address more = 2 slot times more (up to the 1 us rounding of bits_to_time) *)
Lemma tlt_stagger b s a :
  bits_to_time b (2 * s) <= tlt b s (a + 1) - tlt b s a <= bits_to_time b (2 * s) + 1.
Proof.
  unfold tlt, bits_to_time, token_lost_base, token_lost_per_addr.
  pose proof (rate_pos b) as Hr.
  replace (s * (6 + 2 * (a + 1)) * 1000000) with (s * (6 + 2 * a) * 1000000 + 2 * s * 1000000) by ring.
  pose proof (div_add_bounds (s * (6 + 2 * a) * 1000000) (2 * s * 1000000) (baud_to_rate b) ltac:(lia)). lia.
Qed.

Lemma two_slots_pos b s : min_slot_bits b <= s -> 1 <= bits_to_time b (2 * s).
Proof.
  intros H. unfold bits_to_time. apply Z.div_le_lower_bound; [pose proof (rate_pos b); lia|].
  destruct b; cbn [baud_to_rate min_slot_bits] in *; lia.
Qed.

Lemma tlt_strictly_increasing b s a : min_slot_bits b <= s -> tlt b s a < tlt b s (a + 1).
Proof. intros H. pose proof (tlt_stagger b s a). pose proof (two_slots_pos b s H). lia. Qed.

Lemma bv_timeouts p : builder_valid p -> 0 <= slot_time p /\ 0 < token_lost_timeout p.
Proof.
  intros B. pose proof (bv_ranges _ B) as R. destruct B as (_ & (Hs & _) & _).
  split; [apply btt_nonneg; lia|].
  unfold token_lost_timeout, p_bits_to_time, bits_to_time, token_lost_base, token_lost_per_addr.
  apply Z.lt_le_trans with 1; [lia|].
  apply Z.div_le_lower_bound; [pose proof (rate_pos (p_baud p)); lia|].
  assert (6 * p_slot_bits p <= p_slot_bits p * (6 + 2 * p_address p)) by nia.
  destruct (p_baud p); cbn [baud_to_rate min_slot_bits] in *; lia.
Qed.

Section WithApps.
Variable A : Type.
Variable ops : app_ops A.
Notation W := (world A).

Lemma do_listen_token_who f now (w : W) f' w' :
  do_listen_token A f now w = Ok (f', w') -> sends A w w' ->
  (exists src cc, f_state f = ListenToken (Some src) cc) \/
  token_lost_timeout (f_p f) <= Z.abs (now - goi_val f now).
Proof.
  intros H (Hn & Hs). apply do_listen_token_inv in H as (sr & cc & Es & [(Hto & _)|H]); [right; exact Hto|].
  destruct sr as [src|]; [eauto|]. destruct H as (T & _). congruence.
Qed.

Lemma do_active_idle_who f now (w : W) f' w' :
  do_active_idle A f now w = Ok (f', w') ->
  (sends A w w' ->
     (exists src nps cc, f_state f = ActiveIdle (Some src) nps cc) \/
     token_lost_timeout (f_p f) <= Z.abs (now - goi_val f now)) /\
  (kind_of (f_state f') = KClaimToken -> token_lost_timeout (f_p f) <= Z.abs (now - goi_val f now)).
Proof.
  intros H. apply do_active_idle_inv in H as (sr & nps & cc & Es & [(Hto & _)|(K & H)]); [auto|].
  split; [|contradiction]. intros (Hn & Hs). destruct H as [T|(_ & N)]; [congruence|].
  destruct sr as [src|]; [eauto|contradiction].
Qed.

Lemma do_check_token_pass_who f now (w : W) f' w' :
  do_check_token_pass A f now w = Ok (f', w') -> sends A w w' ->
  goi_val f now + slot_time (f_p f) < now.
Proof. intros H (Hn & Hs). apply do_check_token_pass_tx in H as [(H & _)|(_ & T)]; [exact H|congruence]. Qed.

(* who may transmit, in terms of the state the dispatch sees *)
Definition may_transmit_at (f : fdl) (now : Z) : Prop :=
  have_token_kind (kind_of (f_state f)) = true \/
  kind_of (f_state f) = KPassToken \/
  (kind_of (f_state f) = KCheckTokenPass /\ goi_val f now + slot_time (f_p f) < now) \/
  (exists src cc, f_state f = ListenToken (Some src) cc) \/
  (exists src nps cc, f_state f = ActiveIdle (Some src) nps cc) \/
  ((kind_of (f_state f) = KListenToken \/ kind_of (f_state f) = KActiveIdle) /\
   token_lost_timeout (f_p f) <= Z.abs (now - goi_val f now)).

Lemma dispatch_who f now (w : W) f' w' :
  dispatch A ops f now w = Ok (f', w') -> sends A w w' -> may_transmit_at f now.
Proof.
  unfold dispatch, may_transmit_at. intros E Hs.
  destruct (kind_of (f_state f)) eqn:K; cbn [poll_dispatch] in E; try discriminate E; cbn; auto.
  - destruct (do_listen_token_who _ _ _ _ _ E Hs); auto 10.
  - destruct (proj1 (do_active_idle_who _ _ _ _ _ E) Hs); auto 10.
  - pose proof (do_check_token_pass_who _ _ _ _ _ E Hs). auto.
Qed.

(* C01_who_may_transmit, in terms of the station before the poll *)
Definition may_transmit (f : fdl) (now : Z) : Prop :=
  have_token_kind (kind_of (f_state f)) = true \/
  kind_of (f_state f) = KPassToken \/
  (kind_of (f_state f) = KCheckTokenPass /\ exists l, f_lba f = Some l /\ l + slot_time (f_p f) < now) \/
  (exists src cc, f_state f = ListenToken (Some src) cc) \/
  (exists src nps cc, f_state f = ActiveIdle (Some src) nps cc) \/
  ((kind_of (f_state f) = KListenToken \/ kind_of (f_state f) = KActiveIdle \/
    online_entry_kind (kind_of (f_state f)) = true) /\
   exists l, f_lba f = Some l /\ l < now /\ token_lost_timeout (f_p f) <= now - l).

Lemma poll_tx_who f now pin (apps : list A) f' o a c wire :
  poll ops f now pin apps = Ok (f', o, a, c) -> tx o = Some wire -> may_transmit f now.
Proof.
  intros H Htx.
  apply (poll_tx_inv _ _ _ _ _ _ _ _ _ _ _ H) in Htx as ((l & El & Hlt) & f2 & w2 & w' & P & Ed & Hs).
  pose proof (sync_nonneg f) as Hsn. apply (dispatch_who _ _ _ _ _ Ed) in Hs.
  assert (G : goi_val f now = l) by (unfold goi_val; rewrite El; reflexivity).
  assert (Ab : Z.abs (now - l) = now - l) by lia.
  unfold may_transmit. rewrite El.
  destruct P as [(-> & _)|(s' & -> & _ & [(_ & Eo & ->)|(_ & _ & ->)])]; unfold may_transmit_at in Hs;
    cbn [f_state set_st kind_of f_p] in Hs; change (goi_val (set_st f _) now) with (goi_val f now) in Hs;
    rewrite G, ?Ab in Hs.
  - destruct Hs as [H1|[H1|[(H1 & H2)|[H1|[H1|(H1 & H2)]]]]]; [auto|auto|right; right; left; eauto|auto 6|auto 7|].
    do 5 right. split; [tauto|]. exists l. split; [reflexivity|lia].
  - destruct Hs as [H1|[H1|[(H1 & H2)|[(? & ? & H1)|[(? & ? & ? & H1)|(H1 & H2)]]]]]; try discriminate H1.
    do 5 right. split; [tauto|]. exists l. split; [reflexivity|lia].
  - destruct Hs as [H1|[H1|[(H1 & H2)|[(? & ? & H1)|[(? & ? & ? & H1)|([H1|H1] & H2)]]]]]; discriminate H1.
Qed.

Lemma poll_who f now pin (apps : list A) f' o a c wire :
  poll ops f now pin apps = Ok (f', o, a, c) -> tx o = Some wire ->
  0 <= slot_time (f_p f) -> 0 < token_lost_timeout (f_p f) ->
  may_transmit f now.
Proof. intros H Htx _ _. exact (poll_tx_who _ _ _ _ _ _ _ _ _ H Htx). Qed.

(* C01_claim_stagger, first half: the station enters ClaimToken from ListenToken / ActiveIdle (or in the
   poll in which it goes online) only when its last_bus_activity is at least its token-lost time-out old *)
Lemma poll_claim_needs_timeout f now pin (apps : list A) f' o a c :
  poll ops f now pin apps = Ok (f', o, a, c) ->
  kind_of (f_state f) = KListenToken \/ kind_of (f_state f) = KActiveIdle \/
    online_entry_kind (kind_of (f_state f)) = true ->
  kind_of (f_state f') = KClaimToken ->
  0 < token_lost_timeout (f_p f) ->
  exists l, f_lba f = Some l /\ l < now /\ token_lost_timeout (f_p f) <= now - l.
Proof.
  intros H Hk Hk' Hto. refine (proj2 (C06Proofs.claim_needs_silence A ops f now pin apps f' o a c Hto _ H Hk')).
  destruct Hk as [K|[K|K]]; intros C; rewrite C in K; discriminate K.
Qed.

(* C01_reply_after_min_tsdr: every transmission - status replies included - happens later than
   last_bus_activity + 33 bit times, hence later than last_bus_activity + min Tsdr (11 bit times) *)
Lemma poll_tx_after_min_tsdr f now pin (apps : list A) f' o a c wire :
  poll ops f now pin apps = Ok (f', o, a, c) -> tx o = Some wire ->
  exists l, f_lba f = Some l /\
    l + p_bits_to_time (f_p f) sync_pause_bits < now /\
    l + p_bits_to_time (f_p f) builder_min_tsdr < now /\
    (p_min_tsdr_bits (f_p f) <= sync_pause_bits -> l + min_tsdr_time (f_p f) < now).
Proof.
  intros H Htx. destruct (poll_tx_sync_pause A ops f now pin apps f' o a c wire H Htx) as (l & El & Hlt).
  exists l. split; [exact El|]. split; [exact Hlt|]. unfold p_bits_to_time, min_tsdr_time in *. split.
  - pose proof (btt_mono (p_baud (f_p f)) builder_min_tsdr sync_pause_bits ltac:(unfold builder_min_tsdr, sync_pause_bits; lia)). lia.
  - intros Hm. pose proof (btt_mono (p_baud (f_p f)) _ _ Hm). unfold p_bits_to_time. lia.
Qed.

Lemma phy_transmit_second_panics (w : W) wire x : w_tx w = Some x -> phy_transmit A w wire = Panic SiteAssert.
Proof. unfold phy_transmit. intros ->. reflexivity. Qed.

Lemma phy_transmit_first (w : W) wire : w_tx w = None -> exists w', phy_transmit A w wire = Ok w' /\ w_tx w' = Some wire.
Proof. unfold phy_transmit. intros ->. eexists. split; reflexivity. Qed.

(* C01_at_most_one_tx_per_poll: the PHY of the model accepts one transmission per poll, every
   transmission of the station and of the applications goes through phy_transmit, a second one is a
   panic - and poll does not panic (C05) *)
Lemma at_most_one_tx (Happs : apps_total A ops) f now pin (apps : list A) :
  Rep (length apps) f -> time_ok now -> all_bytes (rx pin) ->
  (forall (w : W) wire x, w_tx w = Some x -> phy_transmit A w wire = Panic SiteAssert) /\
  exists f' o apps' c, poll ops f now pin apps = Ok (f', o, apps', c).
Proof.
  intros R Tn Hb. split; [exact phy_transmit_second_panics|].
  destruct (poll_rep_step A ops Happs f now pin apps R Tn Hb) as (f' & o & apps' & c & E & _).
  exists f', o, apps', c. exact E.
Qed.

(* "a pending status request addressed to this station": the status_request field of ListenToken /
   ActiveIdle is only ever set from an FDL status request whose destination is TS, received as the last
   telegram of the buffer; its value is the requester *)
Definition pending_sr (s : state) : option Z :=
  match s with ListenToken sr _ => sr | ActiveIdle sr _ _ => sr | _ => None end.

Definition is_request_to (tsa src : Z) (t : telegram) : Prop :=
  exists h pdu, t = TData h pdu /\ is_fdl_status_request h = true /\ h_da h = tsa /\ h_sa h = src.

End WithApps.

Lemma status_request_is_addressed (A : Type) now f (w : world A) t il f' w' src :
  (forall u, listen_token_telegram A now (f, w) t il = Ok (f', w', u) -> pending_sr (f_state f') = Some src ->
     pending_sr (f_state f) = Some src \/ (is_request_to (ts f) src t /\ il = true)) /\
  (handle_telegram A now f w t il = Ok (f', w') -> pending_sr (f_state f') = Some src ->
     pending_sr (f_state f) = Some src \/ (is_request_to (ts f) src t /\ il = true)).
Proof.
  split.
  - intros u H Hsr.
    apply listen_token_telegram_inv in H as (_ & [E|[E|(sr & cc & sr' & cc' & Es & E & [-> |(s & -> & Hil & R)])]]);
      rewrite E in Hsr; [auto|discriminate|rewrite Es; auto|].
    injection Hsr as <-. right. exact (conj R Hil).
  - intros H Hsr.
    apply handle_telegram_inv in H as (_ & [(_ & E)|(sr & nps & cc & Es & [E|[E|(sr' & nps' & cc' & E & [-> |(s & -> & Hil & R)])]])]);
      rewrite E in Hsr; [auto|discriminate|discriminate|rewrite Es; auto|].
    injection Hsr as <-. right. exact (conj R Hil).
Qed.

Lemma claim_stagger_by_address (p : params) (b : baudrate) (s a : Z) :
  token_lost_timeout p = bits_to_time (p_baud p) (p_slot_bits p * (token_lost_base + token_lost_per_addr * p_address p)) /\
  (bits_to_time b (2 * s) <= tlt b s (a + 1) - tlt b s a <= bits_to_time b (2 * s) + 1) /\
  (min_slot_bits b <= s -> tlt b s a < tlt b s (a + 1)).
Proof. split; [reflexivity|]. split; [apply tlt_stagger|apply tlt_strictly_increasing]. Qed.
