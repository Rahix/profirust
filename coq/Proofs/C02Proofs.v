(* Proofs of the C02 data-structure theorems about Model/TokenRing.v. *)
From PB Require Import Common TokenRing LasOracle LasRep.
From Coq Require Import Sorted.

Definition wf (r : ring) : Prop := length (r_las r) = 128%nat.

(* the LAS bit array after update_las_from_token_pass(sa, da) *)
Definition las_after (las : list bool) (sa da : Z) : list bool :=
  set_nth
    (if sa <? da then fill_from las (Z.to_nat sa) (Z.to_nat (da - sa)) false
     else fill_from (fill_from las (Z.to_nat sa) (Z.to_nat (128 - sa)) false)
                    (Z.to_nat 0) (Z.to_nat (da - 0)) false)
    (Z.to_nat sa) true.

Definition upd (r : ring) (sa da : Z) : ring :=
  update_next_previous (mkRing (las_after (r_las r) sa da) (r_state r) (r_ts r) (r_ns r) (r_ps r)).

Lemma las_after_length : forall las sa da, length (las_after las sa da) = length las.
Proof.
  intros. unfold las_after. rewrite set_nth_length.
  destruct (sa <? da); rewrite ?fill_from_length; reflexivity.
Qed.

Lemma activeb_las_after : forall las sa da a,
  length las = 128%nat -> 0 <= sa < 128 -> 0 <= da <= 128 ->
  activeb (las_after las sa da) a = (a =? sa) || (activeb las a && negb (in_gapb sa da a)).
Proof.
  intros las sa da a HL Hs Hd. unfold las_after, in_gapb.
  destruct (Z.ltb_spec sa da) as [L|L].
  - rewrite activeb_set, activeb_fill by (rewrite ?fill_from_length; lia).
    destruct (Z.eqb_spec a sa); simpl; auto.
    destruct ((sa <=? a) && (a <? da)); simpl; [rewrite andb_false_r|rewrite andb_true_r]; reflexivity.
  - rewrite activeb_set, (activeb_fill _ 0 da), (activeb_fill _ sa 128) by (rewrite ?fill_from_length; lia).
    destruct (Z.eqb_spec a sa); simpl; auto.
    (* outside 0..127 nothing is active, so the two fills together clear [sa, 128) and [0, da) *)
    destruct (activeb las a) eqn:A.
    + apply active_range in A. rewrite (proj2 (Z.leb_le 0 a)), (proj2 (Z.ltb_lt a 128)) by lia.
      destruct (sa <=? a); destruct (a <? da); reflexivity.
    + destruct ((0 <=? a) && (a <? da)); destruct ((sa <=? a) && (a <? 128)); reflexivity.
Qed.

Lemma las_fill_ok : forall las lo hi v, 0 <= lo -> lo <= hi -> hi <= 128 ->
  las_fill las lo hi v = Ok (fill_from las (Z.to_nat lo) (Z.to_nat (hi - lo)) v).
Proof.
  intros. unfold las_fill.
  destruct (Z.leb_spec 0 lo); destruct (Z.leb_spec lo hi); destruct (Z.leb_spec hi 128); try lia. reflexivity.
Qed.

Lemma las_set_ok : forall las i v, 0 <= i < 128 -> las_set las i v = Ok (set_nth las (Z.to_nat i) v).
Proof.
  intros. unfold las_set. destruct (Z.leb_spec 0 i); destruct (Z.ltb_spec i 128); try lia. reflexivity.
Qed.

Lemma update_las_ok : forall r sa da, wf r -> 0 <= sa < 128 -> 0 <= da <= 128 ->
  update_las r sa da = Ok (upd r sa da).
Proof.
  intros r sa da W Hs Hd. unfold update_las, upd, las_after.
  destruct (Z.ltb_spec sa da); repeat (rewrite las_fill_ok by lia; cbn [bind]); rewrite las_set_ok by lia; reflexivity.
Qed.

Lemma upd_wf : forall r sa da, wf r -> wf (upd r sa da).
Proof. intros r sa da W. unfold wf, upd. simpl. rewrite las_after_length. exact W. Qed.

Lemma upd_fields : forall r sa da,
  r_las (upd r sa da) = las_after (r_las r) sa da /\ r_state (upd r sa da) = r_state r /\
  r_ts (upd r sa da) = r_ts r /\
  r_ns (upd r sa da) = next_of (las_ones (las_after (r_las r) sa da)) (r_ts r) /\
  r_ps (upd r sa da) = prev_of (las_ones (las_after (r_las r) sa da)) (r_ts r).
Proof. intros. unfold upd, update_next_previous. simpl. auto. Qed.

Lemma upd_las : forall r sa da, r_las (upd r sa da) = las_after (r_las r) sa da.
Proof. reflexivity. Qed.

Lemma upd_state : forall r sa da, r_state (upd r sa da) = r_state r.
Proof. reflexivity. Qed.

Lemma in_gapb_spec : forall sa da x, in_gapb sa da x = true <-> in_gap sa da x.
Proof.
  intros. unfold in_gapb, in_gap. destruct (sa <? da).
  - rewrite andb_true_iff, Z.leb_le, Z.ltb_lt. tauto.
  - rewrite orb_true_iff, Z.leb_le, Z.ltb_lt. tauto.
Qed.

Lemma strictly_betweenb_spec : forall sa da x, strictly_betweenb sa da x = true <-> strictly_between sa da x.
Proof.
  intros. unfold strictly_betweenb, strictly_between. destruct (sa <? da).
  - rewrite andb_true_iff, !Z.ltb_lt. tauto.
  - rewrite orb_true_iff, !Z.ltb_lt. tauto.
Qed.

Lemma gap_strict : forall sa da x, x <> sa -> (in_gap sa da x <-> strictly_between sa da x).
Proof. intros. unfold in_gap, strictly_between. destruct (sa <? da); lia. Qed.

Lemma not_strict_self : forall sa da, ~ strictly_between sa da sa \/ da <= sa.
Proof. intros. unfold strictly_between. destruct (Z.ltb_spec sa da); [left; lia|right; lia]. Qed.

Lemma active_las_after : forall las sa da x,
  length las = 128%nat -> 0 <= sa < 128 -> 0 <= da <= 128 ->
  (active (las_after las sa da) x <-> x = sa \/ (active las x /\ ~ in_gap sa da x)).
Proof.
  intros las sa da x HL Hs Hd. unfold active. rewrite activeb_las_after by auto.
  rewrite orb_true_iff, andb_true_iff, negb_true_iff, Z.eqb_eq, <- in_gapb_spec.
  destruct (in_gapb sa da x); intuition congruence.
Qed.

(* las_ones las is the strictly increasing list of the members of las: address-list equalities are
   proved membership-wise *)
Lemma las_ones_ext : forall las (S : list Z),
  StronglySorted Z.lt S -> (forall x, active las x <-> In x S) -> las_ones las = S.
Proof.
  intros las S HS H. apply sorted_ext; [apply las_ones_sorted|exact HS|].
  intros x. rewrite In_las_ones. apply H.
Qed.

Lemma ones_las_after : forall las sa da,
  length las = 128%nat -> 0 <= sa < 128 -> 0 <= da <= 128 ->
  las_ones (las_after las sa da) = las_after_pass (las_ones las) sa da.
Proof.
  intros las sa da HL Hs Hd. unfold las_after_pass.
  apply las_ones_ext; [apply sorted_insert, sorted_filter, las_ones_sorted|].
  intros x. rewrite active_las_after by auto.
  rewrite In_insert_sorted, filter_In, In_las_ones, negb_true_iff, <- in_gapb_spec.
  destruct (in_gapb sa da x); intuition congruence.
Qed.

Lemma ones_set_true : forall las a, 0 <= a < Z.of_nat (length las) ->
  las_ones (set_nth las (Z.to_nat a) true) = insert_sorted a (las_ones las).
Proof.
  intros las a Ha. apply las_ones_ext; [apply sorted_insert, las_ones_sorted|].
  intros x. rewrite In_insert_sorted, In_las_ones. unfold active.
  rewrite activeb_set by auto. destruct (Z.eqb_spec x a); intuition congruence.
Qed.

Lemma ones_set_false : forall las a, 0 <= a < Z.of_nat (length las) ->
  las_ones (set_nth las (Z.to_nat a) false) = filter (fun x => negb (x =? a)) (las_ones las).
Proof.
  intros las a Ha. apply las_ones_ext; [apply sorted_filter, las_ones_sorted|].
  intros x. rewrite filter_In, In_las_ones, negb_true_iff. unfold active.
  rewrite activeb_set by auto. destruct (Z.eqb_spec x a); intuition congruence.
Qed.

Lemma las_ext : forall l l', length l = length l' -> (forall x, activeb l x = activeb l' x) -> l = l'.
Proof.
  intros l l' HL H. apply (nth_ext l l' false false HL). intros n _.
  specialize (H (Z.of_nat n)). unfold activeb in H. rewrite Nat2Z.id in H.
  destruct (Z.leb_spec 0 (Z.of_nat n)); [exact H|lia].
Qed.

Lemma las_after_verified : forall las sa da,
  length las = 128%nat -> 0 <= sa < 128 -> 0 <= da < 128 -> verifies las sa da ->
  las_after las sa da = las.
Proof.
  intros las sa da HL Hs Hd [A [B C]]. apply las_ext; [apply las_after_length|].
  intros x. rewrite activeb_las_after by (auto; lia).
  destruct (Z.eqb_spec x sa) as [E|E]; [subst; simpl; symmetry; exact A|]. simpl.
  destruct (activeb las x) eqn:X; auto. simpl.
  apply negb_true_iff. destruct (in_gapb sa da x) eqn:G; auto.
  exfalso. apply (C x X). apply gap_strict; auto. apply in_gapb_spec. exact G.
Qed.

Lemma verifiesb_spec : forall las sa da, verifiesb (las_ones las) sa da = true <-> verifies las sa da.
Proof.
  intros las sa da. unfold verifiesb, verifies.
  rewrite !andb_true_iff, !existsb_eqb_In, !In_las_ones,
    (forallb_iff (fun x => ~ strictly_between sa da x)).
  - split; [intros [[A B] C]|intros [A [B C]]]; repeat split; auto; intros x Hx; apply C, In_las_ones, Hx.
  - intros x. rewrite negb_true_iff, <- strictly_betweenb_spec. destruct (strictly_betweenb sa da x); intuition congruence.
Qed.

Lemma las_get_ok : forall las i, 0 <= i < 128 -> las_get las i = Ok (activeb las i).
Proof. intros las i H. unfold las_get, activeb. zb; try lia; reflexivity. Qed.

Lemma verify_las_spec : forall r sa da, wf r -> 0 <= sa < 128 -> 0 <= da < 128 ->
  exists b, verify_las r sa da = Ok b /\ (b = true <-> verifies (r_las r) sa da).
Proof.
  intros r sa da W Hs Hd. unfold verify_las, verifies, strictly_between, active.
  rewrite !las_get_ok by lia. simpl bind.
  destruct (activeb (r_las r) sa) eqn:A; simpl; [|exists false; intuition congruence].
  destruct (activeb (r_las r) da) eqn:B; simpl; [|exists false; intuition congruence].
  destruct (Z.ltb_spec sa da) as [L|L].
  - destruct (las_any_spec (r_las r) (sa + 1) da) as [x [-> X]]; try lia; auto.
    simpl. exists (negb x). split; auto. rewrite negb_true_iff. split.
    + intros N. repeat split; auto.
      intros y Hy Q. assert (x = true) by (apply X; exists y; split; [lia|auto]). congruence.
    + intros [_ [_ H]]. destruct x; auto.
      destruct (proj1 X eq_refl) as [y [Hy1 Hy2]]. exfalso. apply (H y Hy2). lia.
  - destruct (las_any_spec (r_las r) (sa + 1) 128) as [x [-> X]]; try lia; auto.
    simpl. destruct x.
    + exists false. split; auto. split; [discriminate|]. intros [_ [_ H]].
      destruct (proj1 X eq_refl) as [y [Hy1 Hy2]]. exfalso. apply (H y Hy2). lia.
    + destruct (las_any_spec (r_las r) 0 da) as [z [-> Z2]]; try lia; auto.
      simpl. exists (negb z). split; auto. rewrite negb_true_iff. split.
      * intros N. repeat split; auto.
        intros y Hy Q. pose proof (active_range _ _ Hy) as Ry. rewrite W in Ry.
        destruct Q as [Q|Q].
        -- assert (false = true) by (apply X; exists y; split; [lia|auto]). discriminate.
        -- assert (z = true) by (apply Z2; exists y; split; [lia|auto]). congruence.
      * intros [_ [_ H]]. destruct z; auto.
        destruct (proj1 Z2 eq_refl) as [y [Hy1 Hy2]]. exfalso. apply (H y Hy2). lia.
Qed.

Lemma verify_las_true : forall r sa da, wf r -> 0 <= sa < 128 -> 0 <= da < 128 ->
  verifies (r_las r) sa da -> verify_las r sa da = Ok true.
Proof.
  intros r sa da W Hs Hd V. destruct (verify_las_spec r sa da W Hs Hd) as [b [E B]].
  rewrite E. f_equal. apply B. exact V.
Qed.

Lemma verify_las_false : forall r sa da, wf r -> 0 <= sa < 128 -> 0 <= da < 128 ->
  ~ verifies (r_las r) sa da -> verify_las r sa da = Ok false.
Proof.
  intros r sa da W Hs Hd V. destruct (verify_las_spec r sa da W Hs Hd) as [b [E B]].
  rewrite E. f_equal. destruct b; auto. exfalso. apply V. apply B. reflexivity.
Qed.

Lemma witness_bad : forall r sa da, 125 < sa \/ 125 < da -> witness r sa da = Ok r.
Proof.
  intros r sa da H. unfold witness.
  destruct (Z.ltb_spec 125 sa); auto. destruct (Z.ltb_spec 125 da); auto. lia.
Qed.

Lemma witness_good : forall r sa da, wf r -> 0 <= sa <= 125 -> 0 <= da <= 125 ->
  witness r sa da =
  match r_state r with
  | LasUninitialized => if da <=? sa then Ok (with_state r LasDiscovery) else Ok r
  | LasDiscovery => Ok (if da <=? sa then with_state (upd r sa da) LasVerification else upd r sa da)
  | LasVerification =>
      match verify_las r sa da with
      | Ok true => if da <=? sa then Ok (with_state r LasValid) else Ok r
      | Ok false => Ok (with_state (upd r sa da) LasDiscovery)
      | Panic s => Panic s
      | OutOfFuel => OutOfFuel
      end
  | LasValid => Ok (upd r sa da)
  end.
Proof.
  intros r sa da W Hs Hd. unfold witness.
  destruct (Z.ltb_spec 125 sa); try lia. destruct (Z.ltb_spec 125 da); try lia.
  rewrite update_las_ok by (auto; lia).
  destruct (r_state r); auto; simpl.
  - destruct (da <=? sa); reflexivity.
  - destruct (verify_las r sa da) as [[|]| |]; reflexivity.
Qed.

Lemma witness_cases : forall r sa da r', wf r -> 0 <= sa -> 0 <= da -> witness r sa da = Ok r' ->
  (bad_addrb (sa, da) = true /\ r' = r) \/
  (bad_addrb (sa, da) = false /\
   match r_state r with
   | LasUninitialized => r' = if is_wrapb (sa, da) then with_state r LasDiscovery else r
   | LasDiscovery => r' = if is_wrapb (sa, da) then with_state (upd r sa da) LasVerification else upd r sa da
   | LasVerification =>
       (verifies (r_las r) sa da /\ r' = if is_wrapb (sa, da) then with_state r LasValid else r) \/
       (~ verifies (r_las r) sa da /\ r' = with_state (upd r sa da) LasDiscovery)
   | LasValid => r' = upd r sa da
   end).
Proof.
  intros r sa da r' W Hs Hd E. unfold bad_addrb, is_wrapb.
  destruct (Z.ltb_spec 125 sa) as [A|A]; [left; rewrite witness_bad in E by lia; inversion E; auto|].
  destruct (Z.ltb_spec 125 da) as [B|B]; [left; rewrite witness_bad in E by lia; inversion E; auto|].
  right. split; auto. rewrite witness_good in E by (auto; lia).
  destruct (Z.leb_spec sa 125); try lia. destruct (Z.leb_spec da 125); try lia. cbn [andb].
  destruct (r_state r).
  - destruct (da <=? sa); inversion E; auto.
  - inversion E; auto.
  - destruct (verify_las_spec r sa da W) as [b [Eb Vb]]; try lia. rewrite Eb in E. destruct b.
    + left. split; [apply Vb; auto|]. destruct (da <=? sa); inversion E; auto.
    + right. split; [intro Q; apply Vb in Q; discriminate|]. inversion E; auto.
  - inversion E; auto.
Qed.

Lemma witness_total : forall r sa da, wf r -> 0 <= sa -> 0 <= da ->
  exists r', witness r sa da = Ok r' /\ wf r' /\ r_ts r' = r_ts r.
Proof.
  intros r sa da W Hs Hd.
  destruct (Z.ltb_spec 125 sa) as [A|A]; [rewrite witness_bad by lia; eauto|].
  destruct (Z.ltb_spec 125 da) as [B|B]; [rewrite witness_bad by lia; eauto|].
  rewrite witness_good by (auto; lia).
  destruct (verify_las_spec r sa da W) as [b [-> _]]; try lia.
  pose proof (upd_wf r sa da W) as U.
  (* with_state only changes r_state, so wf and r_ts of the results are those of r or upd r *)
  destruct (r_state r), b, (da <=? sa); eexists; (split; [reflexivity|split; [assumption|reflexivity]]).
Qed.

Lemma witness_wf : forall r sa da r', wf r -> 0 <= sa -> 0 <= da -> witness r sa da = Ok r' -> wf r'.
Proof.
  intros r sa da r' W Hs Hd E. destruct (witness_total r sa da W Hs Hd) as [q [Eq [Wq _]]]. congruence.
Qed.

Lemma las_set_panic : forall las i v, ~ 0 <= i < 128 -> las_set las i v = Panic SiteIndex.
Proof.
  intros. unfold las_set. destruct (Z.leb_spec 0 i); destruct (Z.ltb_spec i 128); try lia; reflexivity.
Qed.

Lemma ones_repeat_false : forall n i, ones_from (repeat false n) i = [].
Proof. induction n; intros i; simpl; auto. Qed.

Lemma ring_new_ok : forall a, 0 <= a < 128 ->
  exists r, ring_new a = Ok r /\ wf r /\ r_ts r = a /\ r_state r = LasUninitialized /\
            r_ns r = a /\ r_ps r = a /\ las_ones (r_las r) = [a].
Proof.
  intros a H. unfold ring_new. rewrite las_set_ok by lia. cbn [bind].
  eexists. split; [reflexivity|]. unfold wf. cbn [r_las r_ts r_state r_ns r_ps].
  rewrite set_nth_length, repeat_length, ones_set_true by (rewrite repeat_length; unfold las_size; lia).
  unfold las_ones. rewrite ones_repeat_false. repeat split.
Qed.

Lemma set_nth_wf : forall las st ts ns ps i v,
  length las = 128%nat -> wf (mkRing (set_nth las i v) st ts ns ps).
Proof. intros. unfold wf. simpl. rewrite set_nth_length. assumption. Qed.

Lemma set_next_station_ok : forall r a, wf r -> 0 <= r_ts r < 128 -> 0 <= a < 128 ->
  set_next_station r a =
  Ok (upd (mkRing (set_nth (r_las r) (Z.to_nat a) true) (r_state r) (r_ts r) (r_ns r) (r_ps r)) (r_ts r) a).
Proof.
  intros r a W Ht Ha. unfold set_next_station. rewrite las_set_ok by lia. simpl.
  apply update_las_ok; [apply set_nth_wf, W|simpl; lia ..].
Qed.

Lemma remove_station_ok : forall r a, 0 <= a < 128 ->
  remove_station r a =
  Ok (update_next_previous (mkRing (set_nth (r_las r) (Z.to_nat a) false) (r_state r) (r_ts r) (r_ns r) (r_ps r))).
Proof. intros r a Ha. unfold remove_station. rewrite las_set_ok by lia. reflexivity. Qed.

Lemma set_next_station_panics : forall r a, ~ 0 <= a < 128 -> set_next_station r a = Panic SiteIndex.
Proof. intros. unfold set_next_station. rewrite las_set_panic by auto. reflexivity. Qed.

Lemma remove_station_panics : forall r a, ~ 0 <= a < 128 -> remove_station r a = Panic SiteIndex.
Proof. intros. unfold remove_station. rewrite las_set_panic by auto. reflexivity. Qed.

Lemma ring_new_panics : forall a, ~ 0 <= a < 128 -> ring_new a = Panic SiteIndex.
Proof. intros. unfold ring_new. rewrite las_set_panic by auto. reflexivity. Qed.

Lemma set_next_station_inv : forall r a r', wf r -> 0 <= r_ts r < 128 -> set_next_station r a = Ok r' ->
  0 <= a < 128 /\
  r' = upd (mkRing (set_nth (r_las r) (Z.to_nat a) true) (r_state r) (r_ts r) (r_ns r) (r_ps r)) (r_ts r) a.
Proof.
  intros r a r' W Ht E. destruct (Z_le_dec 0 a); [destruct (Z_lt_dec a 128)|].
  - rewrite set_next_station_ok in E by (auto; lia). inversion E. split; [lia|reflexivity].
  - rewrite set_next_station_panics in E by lia. discriminate.
  - rewrite set_next_station_panics in E by lia. discriminate.
Qed.

Lemma remove_station_inv : forall r a r', remove_station r a = Ok r' ->
  0 <= a < 128 /\
  r' = update_next_previous (mkRing (set_nth (r_las r) (Z.to_nat a) false) (r_state r) (r_ts r) (r_ns r) (r_ps r)).
Proof.
  intros r a r' E. destruct (Z_le_dec 0 a); [destruct (Z_lt_dec a 128)|].
  - rewrite remove_station_ok in E by lia. inversion E. split; [lia|reflexivity].
  - rewrite remove_station_panics in E by lia. discriminate.
  - rewrite remove_station_panics in E by lia. discriminate.
Qed.

Lemma step_total : forall r o, wf r -> 0 <= r_ts r < 128 ->
  match o with
  | OpW sa da => 0 <= sa /\ 0 <= da
  | OpC => True
  | OpN a | OpR a => 0 <= a < 128
  end ->
  exists r', step r o = Ok r' /\ wf r' /\ r_ts r' = r_ts r.
Proof.
  intros r o W Ht Ho. destruct o as [sa da| |a|a]; simpl.
  - apply witness_total; tauto.
  - eexists; split; eauto.
  - rewrite set_next_station_ok by auto. eexists; split; eauto. split; [|reflexivity].
    apply upd_wf, set_nth_wf, W.
  - rewrite remove_station_ok by auto. eexists; split; eauto. split; [|reflexivity].
    apply set_nth_wf, W.
Qed.

Lemma run_total : forall ops r, wf r -> 0 <= r_ts r < 128 ->
  Forall (fun o => match o with
                   | OpW sa da => 0 <= sa /\ 0 <= da
                   | OpC => True
                   | OpN a | OpR a => 0 <= a < 128
                   end) ops ->
  exists r', run r ops = Ok r' /\ wf r' /\ r_ts r' = r_ts r.
Proof.
  induction ops as [|o t IH]; intros r W Ht F; simpl.
  - eauto.
  - inversion F as [|? ? Fo Ft]; subst.
    destruct (step_total r o W Ht Fo) as [r1 [E [W1 T1]]]. rewrite E. simpl.
    destruct (IH r1 W1) as [r' [E' [W' T']]]; auto; try lia.
    exists r'. split; auto. split; auto. lia.
Qed.

Lemma no_panic_run : forall ts ops, c02_nopanic_dom ts ops = true ->
  exists r0 r, ring_new ts = Ok r0 /\ run r0 ops = Ok r /\ r_ts r = ts /\ length (r_las r) = 128%nat.
Proof.
  intros ts ops H. unfold c02_nopanic_dom in H.
  apply andb_true_iff in H. destruct H as [H F]. apply andb_true_iff in H. destruct H as [H1 H2].
  apply Z.leb_le in H1. apply Z.ltb_lt in H2.
  destruct (ring_new_ok ts) as [r0 [E [W [T _]]]]; [lia|].
  destruct (run_total ops r0 W) as [r [E' [W' T']]]; [lia| |].
  - rewrite forallb_forall in F. apply Forall_forall. intros o Ho. specialize (F o Ho).
    destruct o; auto; zb; try discriminate; lia.
  - exists r0, r. repeat split; auto. lia.
Qed.

Lemma no_panic_all : forall r, length (r_las r) = 128%nat ->
  (forall sa da, 0 <= sa < 256 -> 0 <= da < 256 ->
     exists r', witness r sa da = Ok r' /\ length (r_las r') = 128%nat /\ r_ts r' = r_ts r) /\
  (0 <= r_ts r < 128 -> forall a, 0 <= a < 128 ->
     (exists r', set_next_station r a = Ok r' /\ length (r_las r') = 128%nat /\ r_ts r' = r_ts r) /\
     (exists r', remove_station r a = Ok r' /\ length (r_las r') = 128%nat /\ r_ts r' = r_ts r)) /\
  (exists r', step r OpC = Ok r' /\ length (r_las r') = 128%nat /\ r_ts r' = r_ts r).
Proof.
  intros r W. split; [|split].
  - intros sa da Hs Hd. apply witness_total; auto; lia.
  - intros Ht a Ha. split.
    + exact (step_total r (OpN a) W Ht Ha).
    + exact (step_total r (OpR a) W Ht Ha).
  - simpl. eexists. split; [reflexivity|]. split; [exact W|reflexivity].
Qed.

Lemma panics_outside : forall r a, ~ 0 <= a < 128 ->
  ring_new a = Panic SiteIndex /\ set_next_station r a = Panic SiteIndex /\ remove_station r a = Panic SiteIndex.
Proof.
  intros r a H. split; [apply ring_new_panics; auto|].
  split; [apply set_next_station_panics; auto|apply remove_station_panics; auto].
Qed.

(* NS / PS are what update_next_previous computes from the current LAS (equivalent to being the cyclic
   neighbours: nsps_neighbours); the form in which the invariant is carried through the operations *)
Definition nsps_ok (r : ring) : Prop :=
  r_ns r = next_of (las_ones (r_las r)) (r_ts r) /\ r_ps r = prev_of (las_ones (r_las r)) (r_ts r).

Lemma unp_nsps : forall r, nsps_ok (update_next_previous r).
Proof. intros r. split; reflexivity. Qed.

Lemma next_previous_spec : forall r,
  let r' := update_next_previous r in
  r_las r' = r_las r /\ r_state r' = r_state r /\ r_ts r' = r_ts r /\
  cyc_next (las_ones (r_las r)) (r_ts r) (r_ns r') /\
  cyc_prev (las_ones (r_las r)) (r_ts r) (r_ps r').
Proof.
  intros r. cbv zeta. unfold update_next_previous. cbn [r_las r_state r_ts r_ns r_ps].
  repeat split; auto; [apply next_of_spec|apply prev_of_spec]; apply las_ones_sorted.
Qed.

Definition neighbours (r : ring) : Prop :=
  cyc_next (las_ones (r_las r)) (r_ts r) (r_ns r) /\ cyc_prev (las_ones (r_las r)) (r_ts r) (r_ps r).

Lemma nsps_neighbours : forall r, nsps_ok r <-> neighbours r.
Proof.
  intros r. unfold nsps_ok, neighbours. split.
  - intros [A B]. rewrite A, B. split; [apply next_of_spec|apply prev_of_spec]; apply las_ones_sorted.
  - intros [A B]. split.
    + eapply cyc_next_unique; [exact A|]. apply next_of_spec, las_ones_sorted.
    + eapply cyc_prev_unique; [exact B|]. apply prev_of_spec, las_ones_sorted.
Qed.

(* Whatever an operation returns keeps TS, and has NS / PS freshly computed by update_next_previous
   unless LAS, NS and PS are all untouched.  No hypothesis on addresses or on the LAS length: the
   operations that would index outside the bit array do not return. *)
Definition keeps (r r' : ring) : Prop := r_ts r' = r_ts r /\ (nsps_ok r -> nsps_ok r').

Lemma keeps_refl : forall r, keeps r r.
Proof. intros r. split; auto. Qed.

Lemma update_las_fresh : forall r sa da q, update_las r sa da = Ok q -> r_ts q = r_ts r /\ nsps_ok q.
Proof.
  intros r sa da q Q. unfold update_las in Q.
  destruct (if sa <? da then las_fill (r_las r) sa da false
            else (let* l1 := las_fill (r_las r) sa 128 false in las_fill l1 0 da false)) as [l| |];
    try discriminate.
  cbn [bind] in Q. destruct (las_set l sa true); try discriminate.
  injection Q as <-. split; [reflexivity|apply unp_nsps].
Qed.

Lemma step_keeps : forall r o r', step r o = Ok r' -> keeps r r'.
Proof.
  (* `keeps r (with_state q s)` is `keeps r q` by computation: `exact` closes those cases *)
  intros r o r' E. destruct o as [sa da| |a|a]; simpl in E.
  - unfold witness in E.
    destruct (125 <? sa); [injection E as <-; apply keeps_refl|].
    destruct (125 <? da); [injection E as <-; apply keeps_refl|].
    assert (U : forall q, update_las r sa da = Ok q -> keeps r q).
    { intros q Q. destruct (update_las_fresh _ _ _ _ Q). split; auto. }
    destruct (r_state r).
    + destruct (da <=? sa); injection E as <-; exact (keeps_refl r).
    + destruct (update_las r sa da) as [q| |]; try discriminate.
      destruct (da <=? sa); injection E as <-; exact (U q eq_refl).
    + destruct (verify_las r sa da) as [[|]| |]; try discriminate; cbn [bind negb] in E.
      * destruct (da <=? sa); injection E as <-; exact (keeps_refl r).
      * destruct (update_las r sa da) as [q| |]; try discriminate. injection E as <-. exact (U q eq_refl).
    + exact (U r' E).
  - injection E as <-. exact (keeps_refl r).
  - unfold set_next_station in E. destruct (las_set (r_las r) a true); try discriminate.
    destruct (update_las_fresh _ _ _ _ E). split; auto.
  - unfold remove_station in E. destruct (las_set (r_las r) a false); try discriminate.
    injection E as <-. split; [reflexivity|intros _; apply unp_nsps].
Qed.

Lemma step_nsps : forall r o r', nsps_ok r -> step r o = Ok r' -> nsps_ok r'.
Proof. intros r o r' N E. exact (proj2 (step_keeps r o r' E) N). Qed.

Lemma run_nsps : forall ops r r', nsps_ok r -> run r ops = Ok r' -> nsps_ok r' /\ r_ts r' = r_ts r.
Proof.
  induction ops as [|o t IH]; intros r r' N E; simpl in E.
  - inversion E; subst. auto.
  - destruct (step r o) as [r1| |] eqn:S; try discriminate.
    destruct (step_keeps _ _ _ S) as [T1 N1]. destruct (IH r1 r' (N1 N) E) as [A B]. split; [exact A|congruence].
Qed.

Lemma run_neighbours : forall ops r r', neighbours r -> run r ops = Ok r' -> r_ts r' = r_ts r /\ neighbours r'.
Proof.
  intros ops r r' N E. apply nsps_neighbours in N. destruct (run_nsps ops r r' N E) as [A B].
  split; [exact B|apply nsps_neighbours, A].
Qed.

Lemma ns_ps_invariant : forall ts ops r0 r, ring_new ts = Ok r0 -> run r0 ops = Ok r ->
  r_ts r = ts /\ cyc_next (las_ones (r_las r)) ts (r_ns r) /\ cyc_prev (las_ones (r_las r)) ts (r_ps r).
Proof.
  intros ts ops r0 r E0 E.
  destruct (Z_lt_le_dec ts 0) as [L|L]; [rewrite ring_new_panics in E0 by lia; discriminate|].
  destruct (Z_lt_le_dec ts 128) as [L2|L2]; [|rewrite ring_new_panics in E0 by lia; discriminate].
  destruct (ring_new_ok ts) as [q [Eq [W [T [S [N [P O]]]]]]]; [lia|].
  rewrite Eq in E0. inversion E0; subst q.
  assert (N0 : nsps_ok r0).
  { unfold nsps_ok. rewrite O, N, P, T. unfold next_of, prev_of. simpl.
    destruct (Z.ltb_spec ts ts); [lia|auto]. }
  destruct (run_neighbours ops r0 r (proj1 (nsps_neighbours _) N0) E) as [B A]. rewrite T in B.
  unfold neighbours in A. rewrite B in A. split; auto.
Qed.

Lemma is_ring_inv : forall R, is_ring R ->
  exists r0 t, R = r0 :: t /\ StronglySorted Z.lt R /\ Forall (fun a => 0 <= a <= 125) R.
Proof.
  intros R H. unfold is_ring, ringb in H.
  apply andb_true_iff in H. destruct H as [H H3]. apply andb_true_iff in H. destruct H as [H1 H2].
  destruct R as [|r0 t]; [discriminate|]. exists r0, t. split; auto. split; [apply sortedb_sorted; auto|].
  apply Forall_forall. intros a Ha. rewrite forallb_forall in H3. specialize (H3 a Ha). zb; try discriminate; lia.
Qed.

Lemma sorted_head_lt : forall a l x, StronglySorted Z.lt (a :: l) -> In x l -> a < x.
Proof.
  intros a l x S H. inversion S as [|? ? _ F]; subst. rewrite Forall_forall in F. auto.
Qed.

Lemma sorted_tail : forall a l, StronglySorted Z.lt (a :: l) -> StronglySorted Z.lt l.
Proof. intros a l S. inversion S; auto. Qed.

Lemma chain_head : forall a b l, StronglySorted Z.lt (a :: b :: l) -> Forall (fun x => 0 <= x <= 125) (a :: b :: l) ->
  0 <= a <= 125 /\ 0 <= b <= 125 /\ a < b /\
  StronglySorted Z.lt (b :: l) /\ Forall (fun x => 0 <= x <= 125) (b :: l).
Proof.
  intros a b l S F. inversion F as [|? ? Fa F']; subst. inversion F'; subst.
  repeat split; auto; try lia; [|apply (sorted_tail a), S].
  apply (sorted_head_lt a (b :: l)); [exact S|left; reflexivity].
Qed.

Lemma chain_update : forall l a r0 r,
  wf r -> r_state r = LasDiscovery \/ r_state r = LasValid ->
  StronglySorted Z.lt (a :: l) -> 0 <= r0 <= a -> Forall (fun x => 0 <= x <= 125) (a :: l) ->
  exists r', run_w r (chain a l r0) = Ok r' /\ wf r' /\
             r_state r' = match r_state r with LasDiscovery => LasVerification | s => s end /\
             r_ts r' = r_ts r /\ nsps_ok r' /\
             forall x, active (r_las r') x <-> In x (a :: l) \/ (active (r_las r) x /\ r0 <= x < a).
Proof.
  induction l as [|b l IH]; intros a r0 r W St S H0 F; cbn [chain run_w].
  - assert (Ha : 0 <= a <= 125) by (inversion F; auto).
    assert (A : forall x, active (las_after (r_las r) a r0) x <-> In x [a] \/ (active (r_las r) x /\ r0 <= x < a)).
    { intros x. rewrite active_las_after by (auto; lia).
      unfold in_gap. destruct (Z.ltb_spec a r0); [exfalso; lia |]. simpl. split.
      - intros [->|[Q1 Q2]]; [left; left; reflexivity | right; split; [exact Q1|lia]].
      - intros [[<-|[]]|[Q1 Q2]]; [left; reflexivity | right; split; [exact Q1|lia]]. }
    rewrite witness_good by (auto; lia). destruct (Z.leb_spec r0 a); try lia.
    (* in both states the new LAS is las_after (r_las r) a r0 *)
    destruct St as [St|St]; rewrite St; cbn [bind];
      (eexists; split; [reflexivity|]; split; [apply upd_wf, W|]; split; [rewrite ?upd_state, ?St; reflexivity|];
       split; [reflexivity|]; split; [apply unp_nsps|exact A]).
  - destruct (chain_head a b l S F) as [Ha [Hb [Hab [S' F']]]].
    assert (E1 : witness r a b = Ok (upd r a b)).
    { rewrite witness_good by (auto; lia). destruct St as [St|St]; rewrite St; [|reflexivity].
      destruct (Z.leb_spec b a); [lia|reflexivity]. }
    rewrite E1. cbn [bind].
    destruct (IH b r0 (upd r a b)) as [r' [E [W' [S2 [T' [N' A']]]]]]; auto; try lia.
    { apply upd_wf, W. }
    rewrite upd_state in S2.
    exists r'. split; [exact E|]. split; [exact W'|]. split; [exact S2|]. split; [exact T'|]. split; [exact N'|].
    intros x. rewrite A', upd_las, active_las_after by (auto; lia).
    unfold in_gap. destruct (Z.ltb_spec a b); [| exfalso; lia]. simpl. split.
    + intros [Q|[[->|[Q1 Q2]] Q3]]; [tauto | tauto | right; split; [exact Q1|lia]].
    + intros [[<-|Q]|[Q1 Q2]]; [right; split; [left; reflexivity|lia] | tauto |].
      right. split; [right; split; [exact Q1|lia]|lia].
Qed.

Lemma chain_pass : forall (R : list Z) (r0 : Z) l a,
  StronglySorted Z.lt (a :: l) -> r0 <= a ->
  (forall x, In x R -> x <= a \/ In x l) -> (forall x, In x R -> r0 <= x) ->
  forall sa da, In (sa, da) (chain a l r0) ->
  In sa (a :: l) /\ (In da l \/ da = r0) /\ forall x, In x R -> ~ strictly_between sa da x.
Proof.
  induction l as [|b l IH]; intros a S H0 HA HR sa da HI; unfold strictly_between.
  - destruct HI as [E|[]]. injection E as <- <-. split; [left; auto|]. split; [right; auto|].
    intros x Hx. destruct (Z.ltb_spec a r0); try lia.
    destruct (HA x Hx) as [Q|[]]. specialize (HR x Hx). lia.
  - assert (Hab : a < b) by (apply (sorted_head_lt a (b :: l)); auto; left; auto).
    pose proof (sorted_tail _ _ S) as S'. destruct HI as [E|HI].
    + injection E as <- <-. split; [left; auto|]. split; [left; left; auto|].
      intros x Hx. destruct (Z.ltb_spec a b); try lia.
      destruct (HA x Hx) as [Q|[Q|Q]]; try lia. pose proof (sorted_head_lt b l x S' Q). lia.
    + destruct (IH b S') with (sa := sa) (da := da) as [I1 [I2 I3]]; auto; try lia.
      { intros y Hy. destruct (HA y Hy) as [Q|[Q|Q]]; [left; lia|left; lia|right; auto]. }
      split; [right; exact I1|]. split; [|exact I3]. destruct I2; [left; right; auto|right; auto].
Qed.

Lemma rotation_pass : forall R sa da, is_ring R -> In (sa, da) (rotation R) ->
  In sa R /\ In da R /\ forall x, In x R -> ~ strictly_between sa da x.
Proof.
  intros R sa da HR HI. destruct (is_ring_inv R HR) as [r0 [t [E [S F]]]]. subst R.
  destruct (chain_pass (r0 :: t) r0 t r0) with (sa := sa) (da := da) as [I1 [I2 I3]]; auto; try lia.
  - intros x [Q|Q]; [left; lia|right; auto].
  - intros x [Q|Q]; [lia|]. pose proof (sorted_head_lt r0 t x S Q). lia.
  - split; auto. split; auto. destruct I2; [right; auto|left; auto].
Qed.

Lemma rotation_in_range : forall R sa da, is_ring R -> In (sa, da) (rotation R) ->
  0 <= sa <= 125 /\ 0 <= da <= 125.
Proof.
  intros R sa da HR HI. destruct (rotation_pass R sa da HR HI) as [A [B _]].
  destruct (is_ring_inv R HR) as [r0 [t [E [S F]]]]. rewrite Forall_forall in F. split; apply F; auto.
Qed.

Lemma verifies_of_ring : forall las R sa da, is_ring R ->
  (forall x, active las x <-> In x R) -> In (sa, da) (rotation R) -> verifies las sa da.
Proof.
  intros las R sa da HR HA HI. destruct (rotation_pass R sa da HR HI) as [A [B C]].
  split; [apply HA; auto|]. split; [apply HA; auto|]. intros x Hx. apply C. apply HA. exact Hx.
Qed.

Lemma chain_verification : forall l a r0 r,
  wf r -> r_state r = LasVerification -> StronglySorted Z.lt (a :: l) -> 0 <= r0 <= a ->
  Forall (fun x => 0 <= x <= 125) (a :: l) ->
  (forall sa da, In (sa, da) (chain a l r0) -> verifies (r_las r) sa da) ->
  run_w r (chain a l r0) = Ok (with_state r LasValid).
Proof.
  induction l as [|b l IH]; intros a r0 r W St S H0 F V; cbn [chain run_w].
  - assert (Ha : 0 <= a <= 125) by (inversion F; auto).
    rewrite witness_good, St, verify_las_true by (auto; try lia; apply V; left; auto).
    destruct (Z.leb_spec r0 a); try lia. reflexivity.
  - destruct (chain_head a b l S F) as [Ha [Hb [Hab [S' F']]]].
    rewrite witness_good, St, verify_las_true by (auto; try lia; apply V; left; auto).
    destruct (Z.leb_spec b a); try lia. cbn [bind].
    apply IH; auto; try lia. intros sa da HI. apply V. right. exact HI.
Qed.

Lemma run_w_app : forall p1 p2 r, run_w r (p1 ++ p2) = (let* r' := run_w r p1 in run_w r' p2).
Proof.
  induction p1 as [|[sa da] t IH]; intros p2 r; simpl; auto.
  destruct (witness r sa da); simpl; auto.
Qed.

Lemma witness_uninit : forall r sa da, r_state r = LasUninitialized ->
  witness r sa da = Ok (if is_wrapb (sa, da) then with_state r LasDiscovery else r).
Proof. intros r sa da St. unfold witness, is_wrapb. rewrite St. zb; try lia; reflexivity. Qed.

Lemma run_w_uninit_ignored : forall pre r, r_state r = LasUninitialized ->
  Forall (fun p => is_wrapb p = false) pre -> run_w r pre = Ok r.
Proof.
  induction pre as [|[sa da] t IH]; intros r St F; simpl; auto.
  inversion F as [|? ? F1 F2]; subst. rewrite witness_uninit, F1 by exact St. simpl. apply IH; auto.
Qed.

Lemma two_rotations : forall R r, is_ring R -> wf r -> r_state r = LasDiscovery ->
  exists r', run_w r (rotation R ++ rotation R) = Ok r' /\ wf r' /\ r_state r' = LasValid /\
             r_ts r' = r_ts r /\ nsps_ok r' /\ las_ones (r_las r') = R.
Proof.
  intros R r HR W St. destruct (is_ring_inv R HR) as [r0 [t [E [S F]]]].
  assert (H0 : 0 <= r0) by (subst R; inversion F; lia).
  rewrite run_w_app. subst R. cbn [rotation].
  destruct (chain_update t r0 r0 r W (or_introl St) S) as [r1 [E1 [W1 [S1 [T1 [N1 A1]]]]]]; auto; try lia.
  rewrite St in S1.
  rewrite E1. cbn [bind].
  assert (M : forall x, active (r_las r1) x <-> In x (r0 :: t)) by (intros x; rewrite A1; intuition lia).
  rewrite chain_verification; auto; try lia.
  - eexists. split; [reflexivity|]. split; [exact W1|]. split; [reflexivity|].
    split; [exact T1|]. split; [exact N1|]. apply las_ones_ext; auto.
  - intros sa da HI. apply (verifies_of_ring _ (r0 :: t)); auto.
Qed.

Lemma las_discovery : forall (R : list Z) (r : ring) (pre : list (Z * Z)) (d : Z * Z),
  is_ring R -> length (r_las r) = 128%nat -> r_state r = LasUninitialized ->
  Forall (fun p => is_wrapb p = false) pre -> is_wrapb d = true ->
  exists r', run_w r (pre ++ d :: rotation R ++ rotation R) = Ok r' /\
             r_state r' = LasValid /\ ready_for_ring r' = true /\
             las_ones (r_las r') = R /\ r_ts r' = r_ts r /\
             cyc_next R (r_ts r) (r_ns r') /\ cyc_prev R (r_ts r) (r_ps r') /\
             length (r_las r') = 128%nat.
Proof.
  intros R r pre [sa da] HR W St F D.
  rewrite run_w_app, run_w_uninit_ignored by auto. cbn [bind run_w].
  rewrite witness_uninit, D by auto. cbn [bind].
  destruct (two_rotations R (with_state r LasDiscovery) HR) as [r' [E [W' [S' [T' [N' L']]]]]]; auto.
  apply nsps_neighbours in N'. destruct N' as [N1 N2]. rewrite L', T' in N1, N2.
  exists r'. unfold ready_for_ring. rewrite S'. repeat split; auto.
Qed.

Lemma ring_eta : forall r, mkRing (r_las r) (r_state r) (r_ts r) (r_ns r) (r_ps r) = r.
Proof. intros []. reflexivity. Qed.

Lemma unp_fix : forall r, nsps_ok r -> update_next_previous r = r.
Proof. intros [l s t n p] [A B]. unfold update_next_previous. simpl in *. congruence. Qed.

Lemma witness_verified : forall r sa da,
  wf r -> r_state r = LasValid -> 0 <= sa <= 125 -> 0 <= da <= 125 -> verifies (r_las r) sa da ->
  witness r sa da = Ok (update_next_previous r).
Proof.
  intros r sa da W St Hs Hd V. rewrite witness_good, St by auto. unfold upd.
  rewrite las_after_verified, ring_eta by (auto; lia). reflexivity.
Qed.

Lemma las_stable_step : forall R r sa da,
  is_ring R -> length (r_las r) = 128%nat -> r_state r = LasValid -> las_ones (r_las r) = R ->
  In (sa, da) (rotation R) -> witness r sa da = Ok (update_next_previous r).
Proof.
  intros R r sa da HR W St L HI. destruct (rotation_in_range R sa da HR HI) as [Hs Hd].
  apply witness_verified; auto. apply (verifies_of_ring _ R); auto.
  intros x. rewrite <- In_las_ones, L. tauto.
Qed.

Lemma run_w_verified : forall passes r, wf r -> r_state r = LasValid -> nsps_ok r ->
  Forall (fun p => 0 <= fst p <= 125 /\ 0 <= snd p <= 125 /\ verifies (r_las r) (fst p) (snd p)) passes ->
  run_w r passes = Ok r.
Proof.
  intros passes r W St N F. induction F as [|[sa da] t [Hs [Hd V]] _ IH]; simpl in *; auto.
  rewrite witness_verified, unp_fix by auto. exact IH.
Qed.

Lemma las_stable : forall R r passes,
  is_ring R -> length (r_las r) = 128%nat -> r_state r = LasValid -> las_ones (r_las r) = R ->
  cyc_next R (r_ts r) (r_ns r) -> cyc_prev R (r_ts r) (r_ps r) ->
  Forall (fun p => In p (rotation R)) passes -> run_w r passes = Ok r.
Proof.
  intros R r passes HR W St L N P F. apply run_w_verified; auto.
  - apply nsps_neighbours. unfold neighbours. rewrite L. auto.
  - eapply Forall_impl; [|exact F]. intros [sa da] HI. destruct (rotation_in_range R sa da HR HI) as [Hs Hd].
    split; [exact Hs|]. split; [exact Hd|]. apply (verifies_of_ring _ R); auto.
    intros x. rewrite <- In_las_ones, L. tauto.
Qed.

(* update_las_from_token_pass in any state: the GAP [sa, da) is cleared, sa entered, NS / PS recomputed *)
Lemma update_las_spec : forall r sa da,
  length (r_las r) = 128%nat -> 0 <= sa < 128 -> 0 <= da <= 128 ->
  exists r', update_las r sa da = Ok r' /\ r_state r' = r_state r /\ length (r_las r') = 128%nat /\
             r_ts r' = r_ts r /\
             cyc_next (las_ones (r_las r')) (r_ts r) (r_ns r') /\
             cyc_prev (las_ones (r_las r')) (r_ts r) (r_ps r') /\
             las_ones (r_las r') = las_after_pass (las_ones (r_las r)) sa da /\
             forall x, active (r_las r') x <-> x = sa \/ (active (r_las r) x /\ ~ in_gap sa da x).
Proof.
  intros r sa da W Hs Hd. exists (upd r sa da). split; [apply update_las_ok; auto|].
  split; [reflexivity|]. split; [apply upd_wf; auto|]. split; [reflexivity|].
  destruct (proj1 (nsps_neighbours _) (unp_nsps (mkRing (las_after (r_las r) sa da) (r_state r) (r_ts r) (r_ns r) (r_ps r)))) as [N P].
  split; [exact N|]. split; [exact P|]. rewrite upd_las.
  split; [apply ones_las_after; auto|]. intros x. apply active_las_after; auto.
Qed.

Lemma valid_pass_spec : forall r sa da,
  length (r_las r) = 128%nat -> r_state r = LasValid -> 0 <= sa <= 125 -> 0 <= da <= 125 ->
  exists r', witness r sa da = Ok r' /\ r_state r' = LasValid /\ length (r_las r') = 128%nat /\
             r_ts r' = r_ts r /\
             cyc_next (las_ones (r_las r')) (r_ts r) (r_ns r') /\
             cyc_prev (las_ones (r_las r')) (r_ts r) (r_ps r') /\
             las_ones (r_las r') = las_after_pass (las_ones (r_las r)) sa da /\
             forall x, active (r_las r') x <-> x = sa \/ (active (r_las r) x /\ ~ in_gap sa da x).
Proof.
  intros r sa da W St Hs Hd. unfold witness. destruct (Z.ltb_spec 125 sa); try lia. destruct (Z.ltb_spec 125 da); try lia.
  rewrite St. destruct (update_las_spec r sa da W) as [r' [E [S R]]]; try lia.
  exists r'. split; [exact E|]. split; [congruence|exact R].
Qed.

Lemma las_leave : forall r a c,
  length (r_las r) = 128%nat -> r_state r = LasValid -> 0 <= a <= 125 -> 0 <= c <= 125 ->
  active (r_las r) a -> active (r_las r) c ->
  exists r', witness r a c = Ok r' /\ r_state r' = LasValid /\
             las_ones (r_las r') = filter (fun x => negb (strictly_betweenb a c x)) (las_ones (r_las r)) /\
             (forall b, active (r_las r) b -> strictly_between a c b ->
                        (forall x, active (r_las r) x -> strictly_between a c x -> x = b) ->
                        las_ones (r_las r') = filter (fun x => negb (x =? b)) (las_ones (r_las r))) /\
             cyc_next (las_ones (r_las r')) (r_ts r) (r_ns r') /\
             cyc_prev (las_ones (r_las r')) (r_ts r) (r_ps r').
Proof.
  intros r a c W St Ha Hc Aa Ac.
  destruct (valid_pass_spec r a c W St Ha Hc) as [r' [E [S' [W' [T' [N [P [L M]]]]]]]].
  exists r'. split; auto. split; auto.
  assert (Q : las_ones (r_las r') = filter (fun x => negb (strictly_betweenb a c x)) (las_ones (r_las r))).
  { apply las_ones_ext; [apply sorted_filter, las_ones_sorted|].
    intros x. rewrite M, filter_In, In_las_ones, negb_true_iff.
    destruct (Z.eq_dec x a) as [E1|E1].
    - subst x. split; [|tauto]. intros _. split; auto.
      destruct (strictly_betweenb a c a) eqn:G; auto. apply strictly_betweenb_spec in G.
      unfold strictly_between in G. destruct (Z.ltb_spec a c); lia.
    - rewrite (gap_strict a c x E1), <- strictly_betweenb_spec, Bool.not_true_iff_false. tauto. }
  split; auto. split; auto.
  intros b Ab Sb U. rewrite Q. apply filter_ext_in. intros x Hx. apply In_las_ones in Hx. f_equal.
  destruct (Z.eqb_spec x b) as [E1|E1].
  - subst x. apply strictly_betweenb_spec. exact Sb.
  - destruct (strictly_betweenb a c x) eqn:G; auto. apply strictly_betweenb_spec in G.
    exfalso. apply E1. apply U; auto.
Qed.

Lemma las_join : forall r a b c,
  length (r_las r) = 128%nat -> r_state r = LasValid ->
  0 <= a <= 125 -> 0 <= b <= 125 -> 0 <= c <= 125 ->
  active (r_las r) a -> ~ active (r_las r) b ->
  (forall x, active (r_las r) x -> ~ strictly_between a b x) ->
  (forall x, active (r_las r) x -> ~ strictly_between b c x) ->
  exists r1 r2, witness r a b = Ok r1 /\ r_state r1 = LasValid /\
                las_ones (r_las r1) = las_ones (r_las r) /\
                witness r1 b c = Ok r2 /\ r_state r2 = LasValid /\
                las_ones (r_las r2) = insert_sorted b (las_ones (r_las r)) /\
                cyc_next (las_ones (r_las r2)) (r_ts r) (r_ns r2) /\
                cyc_prev (las_ones (r_las r2)) (r_ts r) (r_ps r2).
Proof.
  intros r a b c W St Ha Hb Hc Aa Nb G1 G2.
  destruct (valid_pass_spec r a b W St Ha Hb) as [r1 [E1 [S1 [W1 [T1 [_ [_ [_ M1]]]]]]]].
  assert (A1 : forall x, active (r_las r1) x <-> active (r_las r) x).
  { intros x. rewrite M1. destruct (Z.eq_dec x a) as [E|E]; [subst; tauto|].
    rewrite (gap_strict a b x E). split; [tauto|]. intros Hx. right. split; auto. }
  destruct (valid_pass_spec r1 b c W1 S1 Hb Hc) as [r2 [E2 [S2 [W2 [T2 [N2 [P2 [_ M2]]]]]]]].
  exists r1, r2. rewrite T1 in N2, P2. repeat split; auto.
  - apply las_ones_ext; [apply las_ones_sorted|]. intros x. rewrite In_las_ones. apply A1.
  - apply las_ones_ext; [apply sorted_insert, las_ones_sorted|].
    intros x. rewrite M2, In_insert_sorted, In_las_ones, A1.
    destruct (Z.eq_dec x b) as [E|E]; [subst; tauto|].
    rewrite (gap_strict b c x E). split; [tauto|]. intros [Q|Hx]; [tauto|]. right. split; auto.
Qed.

Definition nonneg (p : Z * Z) : Prop := 0 <= fst p /\ 0 <= snd p.
Definition ver_ok (las : list bool) (p : Z * Z) : Prop :=
  bad_addrb p = true \/ (is_wrapb p = false /\ verifies las (fst p) (snd p)).

Lemma witness_to_verification : forall r sa da r', wf r -> 0 <= sa -> 0 <= da ->
  witness r sa da = Ok r' -> r_state r' = LasVerification ->
  (r' = r /\ ver_ok (r_las r) (sa, da)) \/ (r_state r = LasDiscovery /\ is_wrapb (sa, da) = true).
Proof.
  intros r sa da r' W Hs Hd E S'. unfold ver_ok.
  destruct (witness_cases r sa da r' W Hs Hd E) as [[B ->]|[B Q]]; [left; auto|].
  destruct (r_state r) eqn:S; [| |destruct Q as [[V Q]|[V Q]]|];
    destruct (is_wrapb (sa, da)); subst r'; cbn [with_state r_state] in S'; rewrite ?upd_state in S';
    try congruence; auto.
Qed.

Lemma witness_to_valid : forall r sa da r', wf r -> 0 <= sa -> 0 <= da ->
  witness r sa da = Ok r' -> r_state r <> LasValid -> r_state r' = LasValid ->
  r_state r = LasVerification /\ is_wrapb (sa, da) = true /\ verifies (r_las r) sa da /\
  r' = with_state r LasValid.
Proof.
  intros r sa da r' W Hs Hd E S S'.
  destruct (witness_cases r sa da r' W Hs Hd E) as [[B ->]|[B Q]]; [congruence|].
  destruct (r_state r) eqn:St; [| |destruct Q as [[V Q]|[V Q]]|];
    destruct (is_wrapb (sa, da)); subst r'; cbn [with_state r_state] in S'; rewrite ?upd_state in S';
    try congruence; auto.
Qed.

Lemma run_w_wf : forall passes r r', wf r -> Forall nonneg passes -> run_w r passes = Ok r' -> wf r'.
Proof.
  induction passes as [|[sa da] t IH]; intros r r' W F E; simpl in E.
  - inversion E; subst; auto.
  - inversion F as [|? ? [F1 F2] Ft]; subst. simpl in F1, F2.
    destruct (witness r sa da) as [r1| |] eqn:E1; try discriminate.
    apply (IH r1 r'); auto. apply (witness_wf r sa da r1); auto.
Qed.

Lemma run_w_snoc : forall ps p r r', run_w r (ps ++ [p]) = Ok r' ->
  exists r1, run_w r ps = Ok r1 /\ witness r1 (fst p) (snd p) = Ok r'.
Proof.
  intros ps [sa da] r r' E. rewrite run_w_app in E.
  destruct (run_w r ps) as [r1| |]; try discriminate. cbn [bind run_w] in E.
  exists r1. split; auto. simpl. destruct (witness r1 sa da); try discriminate. exact E.
Qed.

Lemma ver_history : forall passes r r',
  wf r -> (r_state r = LasUninitialized \/ r_state r = LasDiscovery) -> Forall nonneg passes ->
  run_w r passes = Ok r' -> r_state r' = LasVerification ->
  exists pre d ver rD,
    passes = pre ++ d :: ver /\ run_w r pre = Ok rD /\ r_state rD = LasDiscovery /\
    is_wrapb d = true /\ witness rD (fst d) (snd d) = Ok r' /\
    Forall (ver_ok (r_las r')) ver /\ run_w r' ver = Ok r'.
Proof.
  induction passes as [|[sa da] ps IH] using rev_ind; intros r r' W St F E S'.
  - simpl in E. inversion E; subst. destruct St; congruence.
  - apply Forall_app in F. destruct F as [Fps Fp]. inversion Fp as [|? ? [P1 P2] _]; subst.
    destruct (run_w_snoc _ _ _ _ E) as [r1 [E1 E2]]. simpl in P1, P2, E2.
    assert (W1 : wf r1) by (apply (run_w_wf ps r r1); auto).
    destruct (witness_to_verification r1 sa da r' W1 P1 P2 E2 S') as [[-> V]|[S1 Wr]].
    + destruct (IH r r1 W St Fps E1 S') as [pre [d [ver [rD [A1 [A2 [A3 [A4 [A5 [A6 A7]]]]]]]]]].
      exists pre, d, (ver ++ [(sa, da)]), rD. rewrite A1, <- app_assoc. repeat split; auto.
      * apply Forall_app. split; auto.
      * rewrite run_w_app, A7. cbn [bind run_w]. rewrite E2. reflexivity.
    + exists ps, (sa, da), [], r1. repeat split; auto.
Qed.

Lemma las_state_eq_dec : forall a b : las_state, {a = b} + {a <> b}.
Proof. decide equality. Qed.

Lemma first_valid : forall passes r r',
  r_state r <> LasValid -> run_w r passes = Ok r' -> r_state r' = LasValid ->
  exists ps p post r1 r2,
    passes = ps ++ p :: post /\ run_w r ps = Ok r1 /\ r_state r1 <> LasValid /\
    witness r1 (fst p) (snd p) = Ok r2 /\ r_state r2 = LasValid.
Proof.
  induction passes as [|[sa da] t IH]; intros r r' St E S'; simpl in E.
  - inversion E; subst. congruence.
  - destruct (witness r sa da) as [r1| |] eqn:E1; try discriminate. cbn [bind] in E.
    destruct (las_state_eq_dec (r_state r1) LasValid) as [V|V].
    + exists [], (sa, da), t, r, r1. repeat split; auto.
    + destruct (IH r1 r' V E S') as [ps [p [post [q1 [q2 [A1 [A2 [A3 [A4 A5]]]]]]]]].
      exists ((sa, da) :: ps), p, post, q1, q2. split; [rewrite A1; reflexivity|].
      split; [simpl; rewrite E1; exact A2|]. auto.
Qed.

Lemma las_two_identical : forall (r : ring) (passes : list (Z * Z)) (r' : ring),
  length (r_las r) = 128%nat -> (r_state r = LasUninitialized \/ r_state r = LasDiscovery) ->
  Forall (fun p => 0 <= fst p /\ 0 <= snd p) passes ->
  run_w r passes = Ok r' -> r_state r' = LasValid ->
  exists pre d ver v post rD rV,
    passes = pre ++ d :: ver ++ v :: post /\
    run_w r pre = Ok rD /\ r_state rD = LasDiscovery /\
    is_wrapb d = true /\ witness rD (fst d) (snd d) = Ok rV /\ r_state rV = LasVerification /\
    Forall (fun p => bad_addrb p = true \/ (is_wrapb p = false /\ verifies (r_las rV) (fst p) (snd p))) ver /\
    is_wrapb v = true /\ verifies (r_las rV) (fst v) (snd v) /\
    run_w r (pre ++ d :: ver ++ [v]) = Ok (with_state rV LasValid).
Proof.
  intros r passes r' W St F E S'.
  assert (NV : r_state r <> LasValid) by (destruct St; congruence).
  destruct (first_valid passes r r' NV E S') as [ps [[sa da] [post [r1 [r2 [A1 [A2 [A3 [A4 A5]]]]]]]]].
  subst passes. apply Forall_app in F. destruct F as [Fps Fv].
  inversion Fv as [|? ? [P1 P2] _]; subst. simpl in P1, P2, A4.
  assert (W1 : wf r1) by (apply (run_w_wf ps r r1); auto).
  destruct (witness_to_valid r1 sa da r2 W1 P1 P2 A4 A3 A5) as [S1 [Wr [V ->]]].
  destruct (ver_history ps r r1 W St Fps A2 S1) as [pre [[sd dd] [ver [rD [C1 [C2 [C3 [C4 [C5 [C6 C7]]]]]]]]]].
  exists pre, (sd, dd), ver, (sa, da), post, rD, r1.
  rewrite C1, <- app_assoc. repeat (split; [solve [auto]|]).
  simpl in C5. rewrite run_w_app, C2. cbn [bind run_w]. rewrite C5. cbn [bind].
  rewrite run_w_app, C7. cbn [bind run_w]. rewrite A4. reflexivity.
Qed.

Lemma sorted_length_bound : forall l lo hi, StronglySorted Z.lt l -> lo <= hi + 1 ->
  (forall x, In x l -> lo <= x <= hi) -> Z.of_nat (length l) <= hi - lo + 1.
Proof.
  induction l as [|a t IH]; intros lo hi S H B; simpl length; [lia|].
  assert (Ba : lo <= a <= hi) by (apply B; left; auto).
  assert (Q : Z.of_nat (length t) <= hi - (a + 1) + 1).
  { apply IH; [apply sorted_tail in S; auto|lia|].
    intros x Hx. pose proof (sorted_head_lt a t x S Hx). pose proof (B x (or_intror Hx)). lia. }
  lia.
Qed.

(* all active stations are <= 125: then there are at most 126 of them *)
Definition low (r : ring) : Prop := forall x, active (r_las r) x -> x <= 125.

Lemma upd_low : forall r sa da, wf r -> 0 <= sa <= 125 -> 0 <= da <= 128 -> low r -> low (upd r sa da).
Proof.
  intros r sa da W Hs Hd L x Hx. rewrite upd_las in Hx.
  apply active_las_after in Hx; auto; try lia. destruct Hx as [Q|[Q _]]; [lia|apply L; auto].
Qed.

Lemma set_nth_low : forall r a v st ts ns ps, wf r -> 0 <= a < 128 -> (v = true -> a <= 125) -> low r ->
  low (mkRing (set_nth (r_las r) (Z.to_nat a) v) st ts ns ps).
Proof.
  intros r a v st ts ns ps W Ha Hv L x Hx. unfold active in Hx. simpl in Hx.
  rewrite activeb_set in Hx by (rewrite W; lia). destruct (Z.eqb_spec x a); [subst; auto|apply L; auto].
Qed.

Definition op_dbg_dom (o : op) : Prop :=
  match o with
  | OpW sa da => 0 <= sa /\ 0 <= da
  | OpC => True
  | OpN a => 0 <= a <= 125
  | OpR a => True
  end.

Lemma step_low : forall r o r', wf r -> 0 <= r_ts r <= 125 -> low r -> op_dbg_dom o -> step r o = Ok r' ->
  wf r' /\ r_ts r' = r_ts r /\ low r'.
Proof.
  intros r o r' W Ht L D E. destruct o as [sa da| |a|a]; simpl in E, D.
  - destruct D as [D1 D2]. destruct (witness_total r sa da W D1 D2) as [q [Eq [Wq Tq]]].
    rewrite Eq in E. injection E as ->. split; auto. split; auto.
    destruct (witness_cases r sa da r' W D1 D2 Eq) as [[B ->]|[B Q]]; auto.
    assert (U : low (upd r sa da)) by (apply upd_low; auto; unfold bad_addrb in B; zb; try discriminate; lia).
    (* low (with_state q s) is low q *)
    destruct (r_state r); [| |destruct Q as [[_ Q]|[_ Q]]|]; subst r'; destruct (is_wrapb (sa, da)); assumption.
  - injection E as <-. auto.
  - destruct (set_next_station_inv r a r' W) as [Ha ->]; auto; try lia.
    split; [apply upd_wf, set_nth_wf, W|]. split; [reflexivity|].
    apply upd_low; try (simpl; lia); [apply set_nth_wf, W|]. apply set_nth_low; auto; lia.
  - destruct (remove_station_inv r a r' E) as [Ha ->].
    split; [apply set_nth_wf, W|]. split; [reflexivity|]. apply set_nth_low; auto. discriminate.
Qed.

Lemma run_low : forall ops r r', wf r -> 0 <= r_ts r <= 125 -> low r -> Forall op_dbg_dom ops -> run r ops = Ok r' ->
  wf r' /\ r_ts r' = r_ts r /\ low r'.
Proof.
  intros ops r r' W T L F. revert r W T L. induction F as [|o t Fo Ft IH]; intros r W T L E; simpl in E.
  - injection E as <-. auto.
  - destruct (step r o) as [r1| |] eqn:S1; try discriminate.
    destruct (step_low r o r1 W) as [W1 [T1 L1]]; auto.
    destruct (IH r1 W1) as [A [B C]]; auto; try lia. split; auto. split; auto. lia.
Qed.

(* Debug copies the stations into 127 entries *)
Lemma low_debug : forall r, wf r -> low r -> debug_active r = Ok (las_ones (r_las r)).
Proof.
  intros r W L. unfold debug_active.
  assert (B : Z.of_nat (length (las_ones (r_las r))) <= 125 - 0 + 1).
  { apply sorted_length_bound; [apply las_ones_sorted|lia|].
    intros x Hx. apply In_las_ones in Hx. pose proof (active_range _ _ Hx). specialize (L x Hx). lia. }
  destruct (Nat.leb_spec (length (las_ones (r_las r))) 127); [reflexivity|lia].
Qed.

Lemma debug_no_panic : forall ts ops r0 r, 0 <= ts <= 125 -> ring_new ts = Ok r0 ->
  Forall op_dbg_dom ops -> run r0 ops = Ok r ->
  debug_active r = Ok (las_ones (r_las r)).
Proof.
  intros ts ops r0 r Ht E0 F E.
  destruct (ring_new_ok ts) as [q [Eq [W [T [_ [_ [_ O]]]]]]]; [lia|].
  rewrite Eq in E0. injection E0 as ->.
  assert (L0 : low r0).
  { intros x Hx. apply In_las_ones in Hx. rewrite O in Hx. destruct Hx as [Q|[]]. lia. }
  destruct (run_low ops r0 r W) as [Wr [_ Lr]]; auto; try lia. apply low_debug; auto.
Qed.

(* the 128-station witness: Debug does panic when set_next_station is given 126 / 127 *)
Lemma debug_panic_witness :
  exists ops r0 r, ring_new 125 = Ok r0 /\ run r0 ops = Ok r /\ debug_active r = Panic SiteIndex.
Proof.
  exists ([OpN 127; OpN 126; OpC] ++ map (fun i => OpW (Z.of_nat i) (Z.of_nat i + 1)) (seq 0 125)).
  do 2 eexists. split; [reflexivity|]. split; vm_compute; reflexivity.
Qed.

Lemma ready_state : forall r, ready_for_ring r = state_eqb (r_state r) LasValid.
Proof. intros r. unfold ready_for_ring. destruct (r_state r); reflexivity. Qed.

Lemma list_eqb_refl : forall l, list_eqb l l = true.
Proof. intros. apply list_eqb_eq. reflexivity. Qed.

Lemma state_eqb_refl : forall s, state_eqb s s = true.
Proof. destruct s; reflexivity. Qed.

Lemma obs_eqb_refl : forall o, obs_eqb o o = true.
Proof.
  intros [s rd n p l]. unfold obs_eqb. simpl.
  rewrite !Z.eqb_refl, list_eqb_refl, Bool.eqb_reflx. destruct s as [s|]; simpl; [rewrite state_eqb_refl|]; reflexivity.
Qed.

Definition op_dom (o : op) : Prop :=
  match o with OpW sa da => 0 <= sa /\ 0 <= da | _ => True end.

(* the executable oracles of Model/LasOracle.v (c02_step_ok, c02_nsps_ok) are sound for the model: every step
   of the model passes them, so an ORACLE-FAIL on the crate's output is a deviation from the proved behaviour *)
Lemma step_oracle_sound : forall r o r',
  length (r_las r) = 128%nat -> 0 <= r_ts r < 128 -> op_dom o -> step r o = Ok r' ->
  c02_step_ok (r_ts r) (observe r) o (observe r') = true.
Proof.
  intros r o r' W Ht D E. unfold c02_step_ok, observe. cbn [o_state o_ready o_las o_ns o_ps].
  destruct (debug_active r) as [l1| |]; auto. destruct (debug_active r') as [l2| |]; auto.
  rewrite !ready_state, Bool.eqb_reflx. cbn [andb].
  destruct o as [sa da| |a|a]; simpl in E, D.
  - destruct D as [D1 D2].
    destruct (witness_cases r sa da r' W D1 D2 E) as [[B Q]|[B Q]].
    + subst r'. rewrite B. destruct (r_state r); try apply obs_eqb_refl; reflexivity.
    + rewrite B. unfold bad_addrb in B. apply orb_false_iff in B. destruct B as [B1 B2].
      apply Z.ltb_ge in B1. apply Z.ltb_ge in B2.
      assert (Wr : is_wrapb (sa, da) = (da <=? sa)).
      { unfold is_wrapb. destruct (Z.leb_spec sa 125); destruct (Z.leb_spec da 125); try lia; reflexivity. }
      rewrite Wr in Q.
      assert (LA : las_ones (r_las (upd r sa da)) = las_after_pass (las_ones (r_las r)) sa da).
      { rewrite upd_las. apply ones_las_after; auto; lia. }
      pose proof (upd_state r sa da) as SU.
      destruct (r_state r) eqn:St.
      * subst r'. destruct (da <=? sa); simpl; rewrite ?St; reflexivity.
      * subst r'. destruct (da <=? sa); cbn [with_state r_las r_state]; rewrite LA, list_eqb_refl, ?SU; reflexivity.
      * destruct Q as [[V Q]|[V Q]].
        -- rewrite (proj2 (verifiesb_spec _ _ _) V). subst r'.
           destruct (da <=? sa); cbn [with_state r_las r_state]; rewrite list_eqb_refl, ?St; reflexivity.
        -- destruct (verifiesb (las_ones (r_las r)) sa da) eqn:VB;
             [exfalso; apply V; apply verifiesb_spec; exact VB|].
           subst r'. cbn [with_state r_las r_state]. rewrite LA, list_eqb_refl. reflexivity.
      * subst r'. rewrite SU, LA, list_eqb_refl. cbn [state_eqb andb].
        destruct (verifiesb (las_ones (r_las r)) sa da) eqn:VB; auto. cbn [negb orb].
        apply verifiesb_spec in VB. rewrite <- LA, upd_las.
        rewrite las_after_verified by (auto; lia). apply list_eqb_refl.
  - injection E as <-. cbn [claim_token with_state r_state r_las].
    destruct (r_state r); cbn [state_eqb andb]; try reflexivity; apply list_eqb_refl.
  - destruct (set_next_station_inv r a r' W Ht E) as [Ha ->].
    rewrite upd_state, upd_las. cbn [r_state r_las].
    rewrite ones_las_after, ones_set_true by (rewrite ?set_nth_length; lia).
    destruct (r_state r); cbn [state_eqb andb]; try reflexivity; apply list_eqb_refl.
  - destruct (remove_station_inv r a r' E) as [Ha ->].
    unfold update_next_previous. cbn [r_state r_las].
    rewrite ones_set_false by (rewrite W; lia).
    destruct (r_state r); cbn [state_eqb andb]; try reflexivity; apply list_eqb_refl.
Qed.

Lemma nsps_oracle_sound : forall ts ops r0 r, ring_new ts = Ok r0 -> run r0 ops = Ok r ->
  c02_nsps_ok ts (observe r) = true.
Proof.
  intros ts ops r0 r E0 E. destruct (ns_ps_invariant ts ops r0 r E0 E) as [_ [N P]].
  unfold c02_nsps_ok, observe. cbn [o_state o_las o_ns o_ps].
  apply cyc_nextb_spec in N. apply cyc_prevb_spec in P. rewrite N, P.
  destruct (debug_active r); auto. destruct (r_state r); auto.
Qed.
