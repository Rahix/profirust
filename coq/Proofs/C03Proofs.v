(* C03: bring-up order and request contents in every history of a peripheral (on top of DpHistory.v).  The
   bring-up monitors `bringup_phase` (DpOracle.c03_step per peripheral) and `strict_phase` are functions of the
   wire trace and equal the ghost fields of DpHistory.Inv; every theorem is a reading of `request_facts`. *)
From PB Require Import Peripheral DpOracle DpStepProofs DpHistory DpMaster DpMasterHistory.

(* monitor state: phase and the service of the last request (SvOther: none) *)
Record bu : Set := mkBu { bu_phase : phase; bu_sv : service }.
Definition bu0 : bu := mkBu PhNeedDiag SvOther.

(* TEXT monitor = DpOracle.c03_step per peripheral: an accepted reply moves the phase as text_phase says
   (Prm_Req -> DiagAnswered from everywhere; NeedDiag -> DiagAnswered; DiagAnswered -Set_Prm acked-> PrmAcked
   -Chk_Cfg acked-> CfgAcked -diagnostics without Prm_Fault/Cfg_Fault/Station_Not_Ready-> Ready); the events
   Offline, ParameterError, ConfigError ("considered offline") reset it to NeedDiag *)
Definition bu_step (b : bu) (e : wev) : bu :=
  match e with
  | WReq h _ => mkBu (bu_phase b) (classify h)
  | WReply t ev =>
      let ph := if reply_accepted (bu_sv b) t then text_phase (bu_phase b) (bu_sv b) t else bu_phase b in
      mkBu (if offline_event ev then PhNeedDiag else ph) (bu_sv b)
  | WEvent ev =>
      mkBu (if offline_event (Some ev) then PhNeedDiag else bu_phase b)
           (match ev with EvOffline => SvOther | _ => bu_sv b end)
  | _ => b
  end.
Definition bringup_phase (tr : list wev) : phase := bu_phase (fold_left bu_step tr bu0).

(* STRICT monitor: the wire and the Offline event only (parameter / configuration faults are read from the
   diagnostics flags), see DpHistory.next_phase *)
Definition su_step (b : bu) (e : wev) : bu :=
  match e with
  | WReq h _ => mkBu (bu_phase b) (classify h)
  | WReply t _ =>
      if reply_accepted (bu_sv b) t then mkBu (next_phase (bu_phase b) (bu_sv b) t) (bu_sv b) else b
  | WEvent EvOffline => mkBu PhNeedDiag SvOther
  | _ => b
  end.
Definition strict_phase (tr : list wev) : phase := bu_phase (fold_left su_step tr bu0).

Definition last_sv (g : ghost) : service := match gh_last g with Some h => classify h | None => SvOther end.

Lemma bringup_is_ghost : forall tr,
  fold_left bu_step tr bu0 = mkBu (gh_text (ghost_of tr)) (last_sv (ghost_of tr)).
Proof.
  induction tr as [|e tr IH] using rev_ind; [reflexivity|].
  unfold ghost_of in *. rewrite !fold_left_app. cbn [fold_left]. rewrite IH.
  set (g := fold_left gstep tr ghost0).
  destruct e as [h pdu| |ev|t ev| |]; unfold last_sv; cbn [bu_step gstep bu_phase bu_sv]; try reflexivity.
  - destruct ev; reflexivity.
  - fold (last_sv g). destruct (reply_accepted (last_sv g) t); reflexivity.
Qed.

Lemma strict_is_ghost : forall tr,
  fold_left su_step tr bu0 = mkBu (gh_phase (ghost_of tr)) (last_sv (ghost_of tr)).
Proof.
  induction tr as [|e tr IH] using rev_ind; [reflexivity|].
  unfold ghost_of in *. rewrite !fold_left_app. cbn [fold_left]. rewrite IH.
  set (g := fold_left gstep tr ghost0).
  destruct e as [h pdu| |ev|t ev| |]; unfold last_sv; cbn [su_step gstep bu_phase bu_sv]; try reflexivity.
  - destruct ev; reflexivity.
  - fold (last_sv g). destruct (reply_accepted (last_sv g) t); reflexivity.
Qed.

Lemma bringup_phase_ghost : forall tr, bringup_phase tr = gh_text (ghost_of tr).
Proof. intro tr. unfold bringup_phase. rewrite bringup_is_ghost. reflexivity. Qed.
Lemma strict_phase_ghost : forall tr, strict_phase tr = gh_phase (ghost_of tr).
Proof. intro tr. unfold strict_phase. rewrite strict_is_ghost. reflexivity. Qed.

Lemma request_facts : forall pa a o tr,
  1 <= p_max_retry pa -> history pa a o tr ->
  forall pre h pdu post,
  tr = pre ++ WReq h pdu :: post ->
  (exists f, std_request pa a o f (classify h) h pdu) /\
  phase_service_ok (strict_phase pre) (classify h) /\
  (classify h = SvDx -> bringup_phase pre = PhReady).
Proof.
  intros pa a o tr Hmax Hh pre h pdu post Htr.
  pose proof (history_new pa a o tr Hmax Hh _ _ _ Htr) as Hok.
  cbn [ev_ok] in Hok. destruct Hok as (f & Hstd & _ & _ & _ & _ & _ & Hord & Htxt).
  rewrite strict_phase_ghost, bringup_phase_ghost. split; [exists f; exact Hstd|]. split; assumption.
Qed.

Lemma default_sap_is_dx : forall pa a o f h pdu,
  std_request pa a o f (classify h) h pdu -> h_dsap h = None -> classify h = SvDx.
Proof.
  intros pa a o f h pdu Hstd Hd. destruct (classify h) eqn:Hc; cbn in Hstd; try contradiction; try reflexivity.
  - destruct Hstd as (-> & _). discriminate Hd.
  - destruct Hstd as (u & _ & -> & _). discriminate Hd.
  - destruct Hstd as (u & _ & -> & _). discriminate Hd.
Qed.

Lemma order : forall pa a o tr,
  1 <= p_max_retry pa -> history pa a o tr ->
  forall pre h pdu post,
  tr = pre ++ WReq h pdu :: post ->
  h_dsap h = None ->
  bringup_phase pre = PhReady /\ strict_phase pre = PhReady /\
  h = mkHeader a (p_address pa) None None (h_fc h) /\ (exists f, h_fc h = FcRequest f RqSrdHigh).
Proof.
  intros pa a o tr Hmax Hh pre h pdu post Htr Hd.
  destruct (request_facts pa a o tr Hmax Hh _ _ _ _ Htr) as ((f & Hstd) & Hord & Htxt).
  pose proof (default_sap_is_dx _ _ _ _ _ _ Hstd Hd) as Hdx.
  rewrite Hdx in Hstd, Hord. cbn in Hstd, Hord.
  split; [apply Htxt; exact Hdx|]. split; [exact Hord|].
  rewrite Hstd. cbn. split; [reflexivity|exists f; reflexivity].
Qed.

Lemma each_request_in_order : forall pa a o tr,
  1 <= p_max_retry pa -> history pa a o tr ->
  forall pre h pdu post,
  tr = pre ++ WReq h pdu :: post ->
  match h_dsap h with
  | None => strict_phase pre = PhReady
  | Some d =>
      (d = 60 /\ (strict_phase pre = PhNeedDiag \/ strict_phase pre = PhCfgAcked \/ strict_phase pre = PhReady)) \/
      (d = 61 /\ strict_phase pre = PhDiagAnswered) \/
      (d = 62 /\ strict_phase pre = PhPrmAcked)
  end.
Proof.
  intros pa a o tr Hmax Hh pre h pdu post Htr.
  destruct (request_facts pa a o tr Hmax Hh _ _ _ _ Htr) as ((f & Hstd) & Hord & _).
  destruct (classify h) eqn:Hc; cbn in Hstd, Hord; try contradiction.
  - destruct Hstd as (-> & _). cbn. left. auto.
  - destruct Hstd as (u & _ & -> & _). cbn. right. left. auto.
  - destruct Hstd as (u & _ & -> & _). cbn. right. right. auto.
  - rewrite Hstd. cbn. exact Hord.
Qed.

Lemma history_saps : forall pa a o tr,
  1 <= p_max_retry pa -> history pa a o tr ->
  forall pre h pdu post,
  tr = pre ++ WReq h pdu :: post ->
  h_da h = a /\ h_sa h = p_address pa /\
  exists f,
    (h_dsap h = Some 60 /\ h_ssap h = Some 62 /\ h_fc h = FcRequest f RqSrdLow /\ pdu = []) \/
    (h_dsap h = Some 61 /\ h_ssap h = Some 62 /\ h_fc h = FcRequest f RqSrdLow) \/
    (h_dsap h = Some 62 /\ h_ssap h = Some 62 /\ h_fc h = FcRequest f RqSrdLow) \/
    (h_dsap h = None /\ h_ssap h = None /\ h_fc h = FcRequest f RqSrdHigh).
Proof.
  intros pa a o tr Hmax Hh pre h pdu post Htr.
  destruct (request_facts pa a o tr Hmax Hh _ _ _ _ Htr) as ((f & Hstd) & _ & _).
  destruct (std_request_classify _ _ _ _ _ _ _ Hstd) as (_ & Hda & Hsa & _).
  split; [exact Hda|]. split; [exact Hsa|]. exists f.
  destruct (classify h); cbn in Hstd; try contradiction.
  - destruct Hstd as (-> & ->). left. cbn. auto.
  - destruct Hstd as (u & _ & -> & _). right. left. cbn. auto.
  - destruct Hstd as (u & _ & -> & _). right. right. left. cbn. auto.
  - rewrite Hstd. right. right. right. cbn. auto.
Qed.

(* C03_requests_use_standard_saps, one-step form over ALL peripheral states (reachable or not) *)
Lemma transmit_saps : forall pa op p p' h pdu,
  p_transmit pa op p = Ok (p', PtxSend h pdu) ->
  h_da h = pe_addr p /\ h_sa h = p_address pa /\
  match pe_state p with
  | PsOffline | PsValidateConfig =>
      h_dsap h = Some 60 /\ h_ssap h = Some 62 /\ h_fc h = FcRequest (pe_fcb p) RqSrdLow /\ pdu = []
  | PsWaitForParam => h_dsap h = Some 61 /\ h_ssap h = Some 62 /\ h_fc h = FcRequest (pe_fcb p) RqSrdLow
  | PsWaitForConfig => h_dsap h = Some 62 /\ h_ssap h = Some 62 /\ h_fc h = FcRequest (pe_fcb p) RqSrdLow
  | PsPreDataExchange | PsDataExchange =>
      (h_dsap h = Some 60 /\ h_ssap h = Some 62 /\ h_fc h = FcRequest (pe_fcb p) RqSrdLow /\ pdu = []) \/
      (h_dsap h = None /\ h_ssap h = None /\ h_fc h = FcRequest (pe_fcb p) RqSrdHigh)
  end.
Proof.
  intros pa op p p' h pdu H. apply p_transmit_inv in H. destruct H as [_ T].
  inversion T as [|p1 h' pdu' _ R _|]; subst.
  inversion R as [Hs _|u Hs _|c Hs _|Hs|[Hs|Hs] _|[Hs|Hs] _]; subst; rewrite Hs; cbn; auto 10.
Qed.

Lemma gc_saps : forall pa,
  gc_header pa = mkHeader 127 (p_address pa) (Some 58) (Some 62) (FcRequest FcbInactive RqSdnLow).
Proof. reflexivity. Qed.

Lemma diag_reply_saps : forall p t p1 d,
  p_handle_diag p t = Ok (p1, Some d) ->
  exists h pdu, t = TData h pdu /\ h_dsap h = Some 62 /\ h_ssap h = Some 60 /\ (6 <= length pdu)%nat.
Proof.
  intros p t p1 d H. apply handle_diag_inv in H. destruct H as (f & x & (Hacc & _ & h & pdu & -> & _) & _).
  exists h, pdu. split; [reflexivity|]. cbn [is_diag_reply] in Hacc.
  apply andb_true_iff in Hacc. destruct Hacc as (Hacc & Hlen).
  apply andb_true_iff in Hacc. destruct Hacc as (Hd & Hs).
  unfold opt_eqb in Hd, Hs.
  destruct (h_dsap h) as [y|]; [|discriminate Hd]. destruct (h_ssap h) as [z|]; [|discriminate Hs].
  apply Z.eqb_eq in Hd. apply Z.eqb_eq in Hs. subst. repeat split.
  apply negb_true_iff, Nat.ltb_ge in Hlen. exact Hlen.
Qed.

Lemma set_prm_layout : forall pa o user,
  set_prm_pdu pa o user =
  [128 + (if o_sync o then 32 else 0) + (if o_freeze o then 16 else 0)
       + (match p_watchdog pa with Some _ => 8 | None => 0 end);
   match p_watchdog pa with Some (f1, _) => f1 | None => 0 end;
   match p_watchdog pa with Some (_, f2) => f2 | None => 0 end;
   p_min_tsdr_bits pa; o_ident o / 256; o_ident o mod 256; o_groups o] ++ user.
Proof. intros. rewrite set_prm_std. reflexivity. Qed.

Lemma options_faithful : forall pa a o tr,
  1 <= p_max_retry pa -> history pa a o tr ->
  forall pre h pdu post,
  tr = pre ++ WReq h pdu :: post ->
  (h_dsap h = Some 61 ->
     exists user, o_user_prm o = Some user /\
       pdu = [128 + (if o_sync o then 32 else 0) + (if o_freeze o then 16 else 0)
                  + (match p_watchdog pa with Some _ => 8 | None => 0 end);
              match p_watchdog pa with Some (f1, _) => f1 | None => 0 end;
              match p_watchdog pa with Some (_, f2) => f2 | None => 0 end;
              p_min_tsdr_bits pa; o_ident o / 256; o_ident o mod 256; o_groups o] ++ user) /\
  (h_dsap h = Some 62 -> exists cfg, o_config o = Some cfg /\ pdu = cfg) /\
  (h_dsap h = Some 60 -> pdu = []).
Proof.
  intros pa a o tr Hmax Hh pre h pdu post Htr.
  destruct (request_facts pa a o tr Hmax Hh _ _ _ _ Htr) as ((f & Hstd) & _ & _).
  destruct (classify h); cbn in Hstd; try contradiction.
  - destruct Hstd as (-> & ->). cbn. repeat split; intro Hx; try discriminate Hx; reflexivity.
  - destruct Hstd as (u & Hu & -> & ->). cbn. repeat split; intro Hx; try discriminate Hx.
    exists u. split; [exact Hu|reflexivity].
  - destruct Hstd as (c & Hc & -> & ->). cbn. repeat split; intro Hx; try discriminate Hx.
    exists c. split; [exact Hc|reflexivity].
  - rewrite Hstd. cbn. repeat split; intro Hx; discriminate Hx.
Qed.

Lemma set_prm_is_bytes : forall pa o user,
  0 <= o_ident o < 65536 -> is_byte (o_groups o) -> is_byte (p_min_tsdr_bits pa) ->
  match p_watchdog pa with Some (f1, f2) => is_byte f1 /\ is_byte f2 | None => True end ->
  all_bytes user ->
  all_bytes (set_prm_pdu pa o user).
Proof.
  intros pa o user Hid Hg Ht Hw Hu. rewrite set_prm_layout. unfold all_bytes.
  assert (H1 : is_byte (o_ident o / 256)).
  { unfold is_byte. split; [apply Z.div_pos; lia|apply Z.div_lt_upper_bound; lia]. }
  assert (H2 : is_byte (o_ident o mod 256)) by (unfold is_byte; apply Z.mod_pos_bound; lia).
  repeat (apply Forall_cons); try assumption.
  - unfold is_byte. destruct (o_sync o); destruct (o_freeze o); destruct (p_watchdog pa); lia.
  - destruct (p_watchdog pa) as [[f1 f2]|]; [apply Hw|unfold is_byte; lia].
  - destruct (p_watchdog pa) as [[f1 f2]|]; [apply Hw|unfold is_byte; lia].
Qed.

Lemma order_master : forall pa bufsize m0 cs m' outs log,
  1 <= p_max_retry pa ->
  d_run pa bufsize m0 cs [] = Ok (m', outs, log) ->
  contract_m None outs = true ->
  forall k a o i q d, slot m0 k = Some (periph_new a o i q d) ->
  forall pre h pdu post,
  proj k log = pre ++ WReq h pdu :: post ->
  h_dsap h = None ->
  bringup_phase pre = PhReady /\ strict_phase pre = PhReady /\
  h = mkHeader a (p_address pa) None None (h_fc h) /\ (exists f, h_fc h = FcRequest f RqSrdHigh).
Proof.
  intros pa bufsize m0 cs m' outs log Hm H C k a o i q d Hk.
  apply (order pa a o (proj k log) Hm). apply (master_history pa bufsize m0 cs m' outs log H C k a o i q d Hk).
Qed.

(* the next two restate facts above in the shape Properties/C03.v cites *)
Lemma monitors_are_ghost : forall tr,
  bringup_phase tr = gh_text (ghost_of tr) /\ strict_phase tr = gh_phase (ghost_of tr).
Proof. intro tr. split; [apply bringup_phase_ghost|apply strict_phase_ghost]. Qed.

Lemma state_phase_invariant : forall pa a o p g,
  Inv pa a o p g ->
  gh_phase g = match pe_state p with
               | PsOffline => PhNeedDiag
               | PsWaitForParam => PhDiagAnswered
               | PsWaitForConfig => PhPrmAcked
               | PsValidateConfig => PhCfgAcked
               | PsPreDataExchange | PsDataExchange => PhReady
               end /\
  (gh_text g = gh_phase g \/ (gh_phase g = PhCfgAcked /\ gh_text g = PhReady)).
Proof. intros pa a o p g I. split; [exact (inv_phase _ _ _ _ _ I)|exact (inv_text _ _ _ _ _ I)]. Qed.
