(* C04: process images.  One reply changes exactly the input image of the peripheral whose turn it is, and only
   when it is a well-formed Data_Exchange reply (`dx_accepts`; DataExchanged is reported iff so); transmit_telegram
   touches no image; every Data_Exchange request carries the output image the user wrote last (`q_item`, by the
   history machinery of C14History.v); the FDL station delivers only admissible replies (C15), so this holds
   for whatever arrives on the bus. *)
From PB Require Import Fdl FdlProofs C15Proofs.
From PB Require Import DpMaster DpOracle DpStepProofs C14Proofs C14History ByteFacts.

Definition in_dx (p : periph) : bool :=
  match pe_state p with PsPreDataExchange | PsDataExchange => true | _ => false end.

Definition dx_payload_ok (p : periph) (t : telegram) : bool :=
  match dx_reply_payload (length (pe_pi_i p)) t with
  | Some _ => true
  | None => is_sc t && Nat.eqb (length (pe_pi_i p)) 0
  end.

Definition dx_accepts (p : periph) (t : telegram) : bool :=
  in_dx p && negb (pe_diag_in_flight p) && dx_payload_ok p t.

Definition dx_new_pi_i (p : periph) (t : telegram) : bytes :=
  match dx_reply_payload (length (pe_pi_i p)) t with Some d => d | None => pe_pi_i p end.

(* the code's test (DpStepProofs.dx_data) is the oracle's (DpOracle.dx_reply_payload) *)
Lemma dx_data_payload : forall p t,
  dx_data p t = if dx_payload_ok p t then Some (dx_new_pi_i p t) else None.
Proof.
  intros p t. unfold dx_data, dx_payload_ok, dx_new_pi_i, dx_reply_payload, resp_status_of.
  destruct t as [h pdu| |]; cbn [is_sc andb]; [|reflexivity|].
  - destruct (h_fc h) as [|st s]; [reflexivity|]. destruct s; try reflexivity; destruct (Nat.eqb _ _); reflexivity.
  - destruct (pe_pi_i p); reflexivity.
Qed.

Lemma receive_dx_exact : forall p t p1 ev,
  p_receive_dx p t = Ok (p1, ev) ->
  (ev = Some EvDataExchanged <-> dx_payload_ok p t = true) /\
  (ev = None \/ ev = Some EvDataExchanged) /\
  pe_pi_i p1 = (if dx_payload_ok p t then dx_new_pi_i p t else pe_pi_i p) /\
  pe_pi_q p1 = pe_pi_q p.
Proof.
  intros p t p1 ev H. destruct (receive_dx_inv _ _ _ _ H) as (_ & n & Hi). rewrite dx_data_payload in Hi.
  destruct (dx_payload_ok p t); destruct Hi as [-> ->]; repeat split; auto; discriminate.
Qed.

(* C04_event_iff at the peripheral, from EVERY peripheral state *)
Lemma reply_event_iff : forall p t p' ev,
  p_receive_reply p t = Ok (p', ev) ->
  (ev = Some EvDataExchanged <-> dx_accepts p t = true) /\
  pe_pi_i p' = (if dx_accepts p t then dx_new_pi_i p t else pe_pi_i p) /\
  pe_pi_q p' = pe_pi_q p.
Proof.
  intros p t p' ev H. apply p_receive_reply_inv in H. unfold dx_accepts, in_dx.
  destruct H as [Hrej|f di x Hs _|f Hs _ _|f di x Hs _|f di x Hx Hfl _|p1 ev f Hx Hfl Hd _].
  - assert (E : in_dx p && negb (pe_diag_in_flight p) = false).
    { unfold rejects, in_dx in *. destruct (pe_state p); try reflexivity; destruct Hrej as [-> _]; reflexivity. }
    unfold in_dx in E. rewrite E. repeat split; auto; discriminate.
  - rewrite Hs. repeat split; auto; discriminate.
  - destruct Hs as [-> | ->]; repeat split; auto; discriminate.
  - rewrite Hs. repeat split; auto; try discriminate.
    destruct (validate_outcome (d_flags di)) as [s [[]|]] eqn:E; try discriminate.
    exfalso. unfold validate_outcome in E.
    repeat match type of E with context [if ?c then _ else _] => destruct c end; discriminate E.
  - rewrite Hfl, andb_false_r. cbv zeta. destruct (flags_contains _ _); repeat split; auto; discriminate.
  - rewrite Hfl. replace (match pe_state p with PsPreDataExchange | PsDataExchange => true | _ => false end) with true
      by (destruct Hx as [-> | ->]; reflexivity).
    destruct (receive_dx_exact _ _ _ _ Hd) as (Hiff & _ & Hi & Hq). auto.
Qed.

Definition images (m : dpm) (j : nat) : option (bytes * bytes) :=
  match slot m j with Some p => Some (pe_pi_i p, pe_pi_q p) | None => None end.

(* C04_event_iff + C04_others_untouched for receive_reply, from EVERY master state: the reply goes to the
   peripheral whose turn is in progress (slot i = head of pos_rem, address = addr); no other slot changes at
   all; pi_q of slot i is unchanged; pi_i of slot i is the payload if dx_accepts and unchanged otherwise;
   DataExchanged is reported (with the handle of slot i) iff dx_accepts *)
Definition reply_spec (m : dpm) (addr : Z) (t : telegram) (m' : dpm) : Prop :=
  exists i r p p',
    pos_rem m = i :: r /\ slot m i = Some p /\ pe_addr p = addr /\ slot m' i = Some p' /\
    (forall j, j <> i -> nth_error (dm_slots m') j = nth_error (dm_slots m) j) /\
    pe_pi_q p' = pe_pi_q p /\
    pe_pi_i p' = (if dx_accepts p t then dx_new_pi_i p t else pe_pi_i p) /\
    ((exists h, ev_peripheral (dm_events m') = Some (h, EvDataExchanged)) <-> dx_accepts p t = true) /\
    (forall h e, ev_peripheral (dm_events m') = Some (h, e) -> hd_index h = i /\ hd_addr h = addr).

Lemma reply_effect : forall m addr t m',
  dp_receive_reply m addr t = Ok m' -> reply_spec m addr t m'.
Proof.
  intros m addr t m' H. unfold reply_spec. rewrite <- dp_receive_reply_erase in H.
  destruct (dp_receive_reply_g m addr t) as [[m1 log]| |] eqn:Hg; inversion H; subst m1. clear H.
  destruct (rx_turn _ _ _ _ _ Hg) as (hd & p & rest & p1 & ev & cy & (Hr & Hsl & Hadr & _) & -> & Hrx & _ & -> & _).
  destruct (reply_event_iff _ _ _ _ Hrx) as (Hiff & Hpi & Hpq).
  exists (hd_index hd), rest, p, p1. rewrite <- Hiff. cbn [dm_events set_events ev_peripheral].
  repeat split; auto.
  - eapply slot_put_same. exact Hsl.
  - intros j Hj. apply put_slot_other. auto.
  - intros [h Hh]. destruct ev as [e|]; inversion Hh; reflexivity.
  - intros ->. exists hd. reflexivity.
  - destruct ev as [e'|]; inversion H; reflexivity.
  - destruct ev as [e'|]; inversion H. subst h. exact Hadr.
Qed.

Lemma wrong_reply_images : forall m addr t m',
  dp_receive_reply m addr t = Ok m' ->
  (forall i r p, pos_rem m = i :: r -> slot m i = Some p -> dx_accepts p t = false) ->
  forall j, images m' j = images m j.
Proof.
  intros m addr t m' H Hno j.
  destruct (reply_effect _ _ _ _ H) as (i & r & p & p' & Hr & Hs & _ & Hs' & Hoth & Hq & Hi & _).
  rewrite (Hno _ _ _ Hr Hs) in Hi. unfold images.
  destruct (Nat.eq_dec j i) as [->|Hne].
  - rewrite Hs, Hs', Hi, Hq. reflexivity.
  - unfold slot. rewrite (Hoth _ Hne). reflexivity.
Qed.

Lemma images_put : forall m i p p1 j,
  slot m i = Some p -> pe_pi_i p1 = pe_pi_i p -> pe_pi_q p1 = pe_pi_q p ->
  images (set_slots m (put_slot (dm_slots m) i p1)) j = images m j.
Proof.
  intros m i p p1 j Hs Hi Hq. unfold images. destruct (Nat.eq_dec i j) as [->|Hne].
  - rewrite (slot_put_same _ _ p1 _ Hs), Hs, Hi, Hq. reflexivity.
  - rewrite slot_put_other by exact Hne. reflexivity.
Qed.

Lemma tx_rel_images : forall pa bufsize m m' o log,
  tx_rel pa bufsize m m' o log ->
  (forall j, images m' j = images m j) /\
  (forall h e, ev_peripheral (dm_events m') = Some (h, e) -> e = EvOffline).
Proof.
  intros pa bufsize m m' o log H.
  by_turns H;
    try (split; [reflexivity|discriminate]);
    destruct Ht as (_ & Hsl & _); destruct (transmit_keeps _ _ _ _ _ Hp) as (_ & Hi & Hq & _);
    pose proof (fun j => images_put m _ p p1 j Hsl Hi Hq) as Him.
  - split; [exact Him|discriminate].
  - split; [exact Him|]. intros h0 e E. destruct ev as [e'|]; inversion E; subst.
    destruct (transmit_spec _ _ _ _ _ Hp) as [-> _]. reflexivity.
  - destruct IH as [IHi IHe]. split; [|exact IHe]. intro j. rewrite IHi. apply Him.
Qed.

Lemma tx_images : forall pa bufsize m now hp m' o,
  dp_transmit pa bufsize m now hp = Ok (m', o) ->
  (forall j, images m' j = images m j) /\
  (forall h e, ev_peripheral (dm_events m') = Some (h, e) -> e = EvOffline).
Proof.
  intros pa bufsize m now hp m' o H. rewrite <- dp_transmit_erase in H.
  destruct (dp_transmit_g pa bufsize m now hp) as [[[m1 o1] log]| |] eqn:Hg; cbn [drop_log] in H; try discriminate H.
  inversion H; subst m1 o1. clear H.
  destruct (dp_transmit_g_cases _ _ _ _ _ _ _ _ Hg) as
    [(_ & -> & _)|[(_ & _ & _ & -> & _)|(_ & _ & Hrel)]].
  - split; [intro j; reflexivity|]. intros h e E; discriminate E.
  - split; [intro j; reflexivity|]. intros h e E; discriminate E.
  - eapply tx_rel_images. exact Hrel.
Qed.

(* per callback, from EVERY master state: pi_i of a slot changes only in receive_reply for the slot whose turn
   it is, by a reply with dx_accepts (reply_effect); pi_q of a slot changes only by the user's write to that
   slot and then equals what was written *)
Definition image_step_ok (it : item) : Prop :=
  match it_cb it with
  | CRx a t =>
      exists i r p, pos_rem (it_pre it) = i :: r /\ slot (it_pre it) i = Some p /\ pe_addr p = a /\
        (forall j, j <> i -> images (it_post it) j = images (it_pre it) j) /\
        images (it_post it) i = Some (if dx_accepts p t then dx_new_pi_i p t else pe_pi_i p, pe_pi_q p)
  | CWriteQ h q =>
      exists p, slot (it_pre it) (hd_index h) = Some p /\ length q = length (pe_pi_q p) /\
        (forall j, j <> hd_index h -> images (it_post it) j = images (it_pre it) j) /\
        images (it_post it) (hd_index h) = Some (pe_pi_i p, q)
  | _ => forall j, images (it_post it) j = images (it_pre it) j
  end /\
  forall j, images (it_m it) j = images (it_post it) j.

Lemma images_take : forall auto c m j, images (fst (auto_take_m auto c m)) j = images m j.
Proof. intros auto c m j. unfold auto_take_m. destruct (auto && is_bus c); reflexivity. Qed.

Lemma image_step : forall auto pa bufsize m c x log,
  cstep_g pa bufsize m c = Ok (x, log) -> image_step_ok (mk_item auto m c x log).
Proof.
  intros auto pa bufsize m c [m1 o] log H. apply cstep_g_inv in H.
  unfold image_step_ok, mk_item. cbn [it_cb it_pre it_post it_m fst snd].
  split; [|intro j; apply images_take].
  by_callback H;
    try (intro j; reflexivity).
  - apply (tx_rel_images _ _ _ _ _ _ Hrel).
  - destruct Ht as (Hr & Hsl & _). destruct (reply_event_iff _ _ _ _ Hrx) as (_ & Hi & Hq).
    exists (hd_index hd), rest, p. repeat split; auto.
    + intros j Hj. change (images (put_cur m hd p1) j = images m j). unfold images, put_cur.
      rewrite slot_put_other by auto. reflexivity.
    + change (images (put_cur m hd p1) (hd_index hd) =
              Some (if dx_accepts p t then dx_new_pi_i p t else pe_pi_i p, pe_pi_q p)).
      unfold images, put_cur. rewrite (slot_put_same _ _ p1 _ Hsl), Hi, Hq. reflexivity.
  - intro j. eapply images_put; [exact Hs| |]; reflexivity.
  - exists p. repeat split; auto.
    + intros j Hj. unfold images, put_cur. rewrite slot_put_other by auto. reflexivity.
    + unfold images, put_cur. rewrite (slot_put_same _ _ (set_pi_q p q) _ Hs). reflexivity.
Qed.

Theorem images_history : forall auto pa bufsize m0 cbs tr,
  run_g auto pa bufsize m0 cbs = Ok tr -> Forall image_step_ok tr.
Proof.
  intros auto pa bufsize m0 cbs tr H.
  destruct (liftP auto pa bufsize (fun _ => True) image_step_ok
              (fun m c x log _ Hc => conj (image_step auto pa bufsize m c x log Hc) I) cbs m0 tr I H) as [HF _].
  exact HF.
Qed.

(* monitor state qs: per slot the output image as the USER last wrote it (initially what the peripheral was
   constructed with).  Every Data_Exchange request (no DSAP) in the log must carry exactly qs of its slot when
   the master is in Operate at the time of the transmit callback, and zeros of that length otherwise
   (Clear).  A successful user write updates qs. *)
Definition updq (f : nat -> bytes) (i : nat) (q : bytes) : nat -> bytes :=
  fun j => if Nat.eqb j i then q else f j.

Definition is_dx_req (h : header) : bool := match h_dsap h with None => true | Some _ => false end.

Definition q_entry (op : opstate) (qs : nat -> bytes) (e : gent) : bool :=
  match e with
  | GSend i _ _ h pdu =>
      if is_dx_req h
      then bytes_eqb pdu (if opstate_eqb op OpOperate then qs i else repeat 0 (length (qs i)))
      else true
  | _ => true
  end.

Definition q_item (qs : nat -> bytes) (it : item) : option (nat -> bytes) :=
  if forallb (q_entry (dm_op (it_pre it)) qs) (it_log it)
  then Some (match it_cb it with CWriteQ h q => updq qs (hd_index h) q | _ => qs end)
  else None.

Definition q_inv (m : dpm) (qs : nat -> bytes) : Prop := forall i p, slot m i = Some p -> pe_pi_q p = qs i.

Lemma tx_rel_q : forall pa bufsize m m' o log,
  tx_rel pa bufsize m m' o log -> forall qs, q_inv m qs ->
  forallb (q_entry (dm_op m) qs) log = true /\ q_inv m' qs.
Proof.
  intros pa bufsize m m' o log H.
  by_turns H;
    intros qs HI; try (split; [reflexivity|exact HI]);
    destruct Ht as (_ & Hsl & _); destruct (transmit_keeps _ _ _ _ _ Hp) as (_ & _ & Hq & _);
    assert (HI1 : q_inv (put_cur m hd p1) qs)
      by (apply (all_slots_put_same (fun i q => pe_pi_q q = qs i) m _ p p1 HI Hsl); rewrite Hq; apply HI; exact Hsl).
  - split; [|exact HI1]. cbn [forallb q_entry]. rewrite andb_true_r. unfold is_dx_req.
    destruct (h_dsap h) as [d|] eqn:Hd; [reflexivity|].
    destruct (dx_request_only_when_ready _ _ _ _ _ _ Hp Hd) as (_ & _ & _ & ->).
    rewrite (HI _ _ Hsl). apply bytes_eqb_refl.
  - split; [reflexivity|exact HI1].
  - apply (IH qs HI1).
Qed.

Lemma q_step : forall auto pa bufsize m qs c x log,
  q_inv m qs -> cstep_g pa bufsize m c = Ok (x, log) ->
  exists qs', q_item qs (mk_item auto m c x log) = Some qs' /\ q_inv (it_m (mk_item auto m c x log)) qs'.
Proof.
  intros auto pa bufsize m qs c [m1 o] log HI H. apply cstep_g_inv in H.
  unfold q_item, mk_item. cbn [it_cb it_log it_pre it_m fst snd].
  assert (Take : forall qs', q_inv m1 qs' -> q_inv (fst (auto_take_m auto c m1)) qs')
    by (intros qs' Hx; apply take_inv; auto).
  by_callback H;
    try (exists qs; split; [reflexivity|apply Take; exact HI]).
  - destruct (tx_rel_q _ _ _ _ _ _ Hrel qs HI) as [-> HI']. exists qs. auto.
  - destruct Ht as (_ & Hsl & _). destruct (reply_event_iff _ _ _ _ Hrx) as (_ & _ & Hq).
    exists qs. split; [reflexivity|]. apply Take.
    apply (all_slots_put_same (fun i q => pe_pi_q q = qs i) m _ p p1 HI Hsl). rewrite Hq. apply HI. exact Hsl.
  - exists qs. split; [reflexivity|]. apply Take.
    exact (all_slots_put_same (fun i q => pe_pi_q q = qs i) m _ p (p_request_diagnostics p) HI Hs (HI _ _ Hs)).
  - eexists. split; [reflexivity|]. apply Take.
    apply (all_slots_put (fun i p' => pe_pi_q p' = qs i) (fun i p' => pe_pi_q p' = updq qs (hd_index h) q i) m _ p _ HI Hs);
      unfold updq; [rewrite Nat.eqb_refl; reflexivity|].
    intros j p' Hj Hp'. apply Nat.eqb_neq in Hj. rewrite Hj. exact Hp'.
Qed.

Theorem pi_q_history : forall auto pa bufsize m0 qs0 cbs tr,
  q_inv m0 qs0 -> run_g auto pa bufsize m0 cbs = Ok tr ->
  accepts (nat -> bytes) q_inv q_item qs0 m0 tr.
Proof.
  intros auto pa bufsize m0 qs0 cbs tr. exact (lift auto pa bufsize _ _ _ (q_step auto pa bufsize) cbs m0 qs0 tr).
Qed.

(* the initial shadow: what the peripherals hold *)
Definition q_of (m : dpm) : nat -> bytes := fun i => match slot m i with Some p => pe_pi_q p | None => [] end.
Lemma q_inv_init : forall m, q_inv m (q_of m).
Proof. intros m i p H. unfold q_of. rewrite H. reflexivity. Qed.

(* the DP master as an application of the FDL station model *)
Definition dp_app_ops (bufsize : nat) : app_ops dpm :=
  mkAppOps dpm
    (fun m now pa hp => dp_transmit pa bufsize m now hp)
    (fun m now pa addr t => dp_receive_reply m addr t)
    (fun m now pa addr => dp_handle_timeout m addr).

Lemma reply_ok_admissible : forall own a t, reply_ok own a t <-> admissible own a t = true.
Proof.
  intros own a t. unfold reply_ok. destruct t as [h pdu|da sa|]; cbn [admissible].
  - split.
    + intros [E|(h' & pdu' & st & s & E & Hfc & Hsa & Hda)]; [discriminate E|]. inversion E; subst h' pdu'.
      rewrite Hfc. apply andb_true_iff. split; [|reflexivity]. apply andb_true_iff. split; apply Z.eqb_eq; assumption.
    + intro H. right. apply andb_true_iff in H. destruct H as [H Hfc]. apply andb_true_iff in H. destruct H as [Hs Hd].
      apply Z.eqb_eq in Hs. apply Z.eqb_eq in Hd. destruct (h_fc h) as [|st s] eqn:E; [discriminate Hfc|].
      exists h, pdu, st, s. repeat split; assumption.
  - split; [intros [E|(h & pdu & st & s & E & _)]; discriminate E|intro E; discriminate E].
  - split; [reflexivity|intros _; left; reflexivity].
Qed.

(* whatever arrives on the bus (pin: any receive buffer contents, any time, any station state f): what the
   FDL hands to a DP master's receive_reply is admissible -- a short confirmation or a response from the
   addressed station to this master; a telegram from the wrong source / to another destination / a request /
   a token never reaches receive_reply *)
Theorem end_to_end : forall bufsize (f : fdl) (now : Z) (pin : phy_in) (apps : list dpm)
    (f' : fdl) (o : phy_out) (apps' : list dpm) (calls : list call) (i : nat) (a : Z) (t : telegram),
  poll (dp_app_ops bufsize) f now pin apps = Ok (f', o, apps', calls) ->
  In (CallReceiveReply i a t) calls -> admissible (ts f) a t = true.
Proof.
  intros bufsize f now pin apps f' o apps' calls i a t H Hin.
  apply reply_ok_admissible. eapply poll_reply_shape; eassumption.
Qed.

(* the composition: a reply the FDL delivers to a DP master that is waiting for it (safe_inv: the invariant
   of contract-respecting histories, C14_contract_safe) is processed without panic and with the effect
   reply_spec *)
Theorem end_to_end_effect : forall bufsize (f : fdl) (now : Z) (pin : phy_in) (apps : list dpm)
    (f' : fdl) (o : phy_out) (apps' : list dpm) (calls : list call) (i : nat) (a : Z) (t : telegram),
  poll (dp_app_ops bufsize) f now pin apps = Ok (f', o, apps', calls) ->
  In (CallReceiveReply i a t) calls ->
  forall m, safe_inv m (Some a) -> exists m', dp_receive_reply m a t = Ok m' /\ reply_spec m a t m'.
Proof.
  intros bufsize f now pin apps f' o apps' calls i a t H Hin m Hs.
  pose proof (end_to_end _ _ _ _ _ _ _ _ _ _ _ _ H Hin) as Ha.
  destruct (reply_total m a t (ts f) Hs Ha) as (m' & Hm). exists m'. split; [exact Hm|].
  apply reply_effect. exact Hm.
Qed.
