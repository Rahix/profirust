(* C05, application side: the DP master, the live list and the DP scanner never panic under the calls the FDL
   active station makes, and `Fdl.poll` with these applications attached is total.
   `apps_contract AI AW`: an application with representation invariant AI and a "waiting for the reply from da"
   predicate AW is total UNDER THE FdlApplication CONTRACT: transmit is called at any time; receive_reply(addr, t) /
   handle_timeout(addr) only while the application waits for addr and t is a short confirmation or a response
   from addr to this station.  `AppsInv f apps` ties the station to the application list; Rep /\ Winv /\ AppsInv
   is preserved by poll_inner (do_use_token and do_await_data_response under the contract: Proofs/C05Proofs.v,
   there contract_of / contract_inv / contract_post; the other six `do_*` make no callback).
   Then: DP master (DpRep; DpRepD for add at any time), live list and scanner, any_app, user calls, the
   composition. *)
From PB Require Import Common Tables FdlTables Telegram Phy TokenRing Params Fdl FdlProofs FdlStepProofs.
From PB Require Import C09Proofs C16Proofs C05Proofs C15Proofs.

Section Contract.
Variable A : Type.
Variable ops : app_ops A.
Variable AI : A -> Prop.
Variable AW : A -> Z -> Prop.

Definition apps_contract : Prop :=
  (forall a now p hp, AI a -> builder_valid p -> time_ok now ->
     exists a' r, a_tx ops a now p hp = Ok (a', r) /\ AI a' /\
       match r with
       | Some (wire, er) => Z.of_nat (length wire) <= 65536 /\ (forall da, er = Some da -> AW a' da)
       | None => True
       end) /\
  (forall a now p addr t, AI a -> AW a addr -> builder_valid p -> time_ok now -> reply_ok (p_address p) addr t ->
     exists a', a_rx ops a now p addr t = Ok a' /\ AI a') /\
  (forall a now p addr, AI a -> AW a addr -> builder_valid p -> time_ok now ->
     exists a', a_to ops a now p addr = Ok a' /\ AI a').

Definition AppsInv (f : fdl) (apps : list A) : Prop :=
  Forall AI apps /\
  forall addr tk fa, f_state f = AwaitDataResponse addr tk fa ->
    exists a, nth_error apps (f_next_app f) = Some a /\ AW a addr.

Lemma quiet_AppsInv now f (w : world A) f' w' : quiet A now f w f' w' -> AppsInv f (w_apps w) -> AppsInv f' (w_apps w').
Proof.
  intros ((_ & Ea) & _ & Q) (F & H). rewrite Ea. split; [exact F|].
  intros addr tk fa E. destruct Q as [(K & Q)|R].
  - rewrite E in Q. cbn in Q. destruct K as (_ & -> & _). apply (H addr tk fa). symmetry. exact Q.
  - destruct R as (R & _). rewrite R in E. discriminate E.
Qed.

Section WithN.
Variable n : nat.
Hypothesis Happs : apps_contract.
Notation W := (world A).
Notation Winv := (Winv A n).

Definition PostA (x : fdl * W) : Prop := Rep n (fst x) /\ Winv (snd x) /\ AppsInv (fst x) (w_apps (snd x)).

Lemma wp_quiet (r : res (fdl * W)) now f w :
  wp r (PostRW A n) -> (forall f' w', r = Ok (f', w') -> quiet A now f w f' w') ->
  AppsInv f (w_apps w) -> wp r PostA.
Proof.
  destruct r as [[f' w']| |]; cbn; intros H Q I; try contradiction.
  destruct H as (R & Wi). split; [exact R|]. split; [exact Wi|].
  eapply quiet_AppsInv; [apply Q; reflexivity|exact I].
Qed.

(* the two functions that call the applications: Proofs/C05Proofs.v *)
Lemma do_use_token_wpA f now (w : W) : Rep n f -> time_ok now -> w_tx w = None -> Winv w ->
  kind_of (f_state f) = KUseToken -> Forall AI (w_apps w) ->
  wp (do_use_token A ops f now w) PostA.
Proof. exact (C05Proofs.do_use_token_wpA A ops AI AW n Happs f now w). Qed.

Lemma do_await_data_response_wpA f now (w : W) : Rep n f -> time_ok now -> w_tx w = None -> Winv w ->
  kind_of (f_state f) = KAwaitDataResponse -> AppsInv f (w_apps w) ->
  wp (do_await_data_response A ops f now w) PostA.
Proof. exact (C05Proofs.do_await_data_response_wpA A ops AI AW n Happs f now w). Qed.

Lemma dispatch_wpA f now (w : W) : Rep n f -> time_ok now -> w_tx w = None -> Winv w ->
  f_conn f = ConnOnline -> kind_of (f_state f) <> KOffline -> AppsInv f (w_apps w) ->
  wp (dispatch A ops f now w) PostA.
Proof.
  intros R Tn Hw Wi Hc Hk AIv. pose proof (rep_st _ _ R) as St. unfold dispatch.
  destruct (kind_of (f_state f)) eqn:K; cbn [poll_dispatch].
  - contradiction Hk. reflexivity.
  - destruct (f_state f); try discriminate K. contradiction St.
  - eapply wp_quiet; [apply do_listen_token_wp; assumption|intros; apply do_listen_token_quiet; eassumption|exact AIv].
  - eapply wp_quiet; [apply do_active_idle_wp; assumption|intros; apply do_active_idle_quiet; eassumption|exact AIv].
  - apply do_use_token_wpA; try assumption. apply AIv.
  - eapply wp_quiet; [apply do_claim_token_wp; assumption|intros; apply do_claim_token_quiet; eassumption|exact AIv].
  - apply do_await_data_response_wpA; assumption.
  - eapply wp_quiet; [apply do_pass_token_wp; assumption|intros; apply squiet_quiet, do_pass_token_squiet; eassumption|exact AIv].
  - eapply wp_quiet; [apply do_check_token_pass_wp; assumption|intros; apply squiet_quiet, do_check_token_pass_squiet; eassumption|exact AIv].
  - eapply wp_quiet; [apply do_await_status_response_wp; assumption|intros; apply squiet_quiet, do_await_status_response_squiet; eassumption|exact AIv].
Qed.

Lemma poll_inner_wpA f now busy (w : W) : Rep n f -> time_ok now -> w_tx w = None -> Winv w -> AppsInv f (w_apps w) ->
  wp (poll_inner ops f now busy w) PostA.
Proof.
  intros R Tn Hw Wi AIv. unfold poll_inner.
  pose proof (rep_conn _ _ R) as C. pose proof (rep_st _ _ R) as St.
  eapply wp_bind with (P := fun x => let '(f1, w1, off) := x in
     Rep n f1 /\ Winv w1 /\ AppsInv f1 (w_apps w1) /\
     (off = false -> w_tx w1 = None /\ f_conn f1 = ConnOnline /\ kind_of (f_state f1) <> KOffline)).
  - destruct (f_conn f) eqn:Ec.
    + destruct (f_state f); cbn in C; try (exfalso; congruence); try contradiction.
      cbn. split; [exact R|]. split; [exact Wi|]. split; [exact AIv|discriminate].
    + exfalso. destruct (f_state f); cbn in C; try congruence; try contradiction.
    + destruct (online_entry_kind (kind_of (f_state f))) eqn:Eo.
      * destruct (f_state f) eqn:Hs; try discriminate Eo; [|contradiction St].
        rewrite (trans_ok A f _ _ (ListenToken None 0)) by (rewrite Hs; reflexivity).
        cbn. split; [apply Rep_set_st; [exact R|exact Ec|cbn; lia]|]. split; [apply Winv_note, Wi|].
        split; [cbn [fst snd w_apps note]; apply AppsInv_idle; [apply AIv|discriminate]|].
        intros _. split; [exact Hw|]. split; [exact Ec|discriminate].
      * cbn. split; [exact R|]. split; [exact Wi|]. split; [exact AIv|]. intros _. split; [exact Hw|]. split; [exact Ec|].
        intros K. rewrite K in Eo. discriminate Eo.
  - intros [[f1 w1] off] (R1 & W1 & I1 & Ho). destruct off; [exact (conj R1 (conj W1 I1))|].
    destruct (Ho eq_refl) as (Hw1 & Hc1 & Hk1). clear Ho.
    unfold check_for_ongoing_transmision.
    destruct (mark_bus_activity_rep n f1 now R1 Tn) as (Rm & Sm).
    match goal with |- context [if ?c then _ else _] => destruct c end.
    + cbn. split; [exact Rm|]. split; [destruct busy; apply Winv_note, W1|].
      destruct busy; cbn; eapply AppsInv_sb; eassumption.
    + unfold check_for_bus_activity.
      destruct (Nat.ltb (f_pending f1) (length (w_rx w1))).
      * apply dispatch_wpA.
        -- apply Rep_set_pending, Rm.
        -- exact Tn.
        -- exact Hw1.
        -- apply Winv_note, W1.
        -- cbn [f_conn set_pending]. rewrite (sb_conn _ _ Sm). exact Hc1.
        -- cbn [f_state set_pending]. rewrite (sb_state _ _ Sm). exact Hk1.
        -- cbn [w_apps note]. apply (AppsInv_same A AI AW f1); [cbn; apply Sm|cbn; apply Sm|exact I1].
      * apply dispatch_wpA; assumption.
Qed.

End WithN.

Theorem poll_rep_stepA (Happs : apps_contract) (f : fdl) (now : Z) (pin : phy_in) (apps : list A) :
  Rep (length apps) f -> AppsInv f apps -> time_ok now -> all_bytes (rx pin) ->
  exists f' o apps' c, poll ops f now pin apps = Ok (f', o, apps', c) /\
                       Rep (length apps) f' /\ AppsInv f' apps' /\ length apps' = length apps.
Proof.
  intros R AIv Tn Hb. unfold poll, poll_traced.
  pose proof (poll_inner_wpA (length apps) Happs f now (tx_busy pin) (mkWorld (rx pin) None apps [] []) R Tn eq_refl) as H.
  destruct (wp_ok _ _ (H (conj Hb eq_refl) AIv)) as ([f' w'] & E & (R' & (_ & Wa) & I')).
  rewrite E. cbn [bind]. eexists. eexists. eexists. eexists. split; [reflexivity|]. exact (conj R' (conj I' Wa)).
Qed.

(* histories: polls, set_online / set_offline, and user calls on one application object between polls
   (any function that keeps the application's invariant and, if the application is waiting for a reply,
   keeps it waiting for it) *)
Inductive app_ev : Type :=
| AePoll (now : Z) (pin : phy_in)
| AeOnline
| AeOffline
| AeUser (i : nat) (g : A -> A).

Definition user_ok (g : A -> A) : Prop :=
  (forall a, AI a -> AI (g a)) /\ (forall a da, AI a -> AW a da -> AW (g a) da).

Definition app_ev_ok (e : app_ev) : Prop :=
  match e with
  | AePoll now pin => time_ok now /\ all_bytes (rx pin)
  | AeUser _ g => user_ok g
  | _ => True
  end.

Definition user_call (apps : list A) (i : nat) (g : A -> A) : list A :=
  match nth_error apps i with Some a => replace_nth apps i (g a) | None => apps end.

Fixpoint run_app_events (f : fdl) (apps : list A) (evs : list app_ev) : res (fdl * list A) :=
  match evs with
  | [] => Ok (f, apps)
  | AePoll now pin :: t =>
      let* (f', _, apps', _) := poll ops f now pin apps in run_app_events f' apps' t
  | AeOnline :: t => let* f' := set_online f in run_app_events f' apps t
  | AeOffline :: t => let* f' := set_offline f in run_app_events f' apps t
  | AeUser i g :: t => run_app_events f (user_call apps i g) t
  end.

Lemma nth_error_replace_nth_other (l : list A) : forall i j x, i <> j -> nth_error (replace_nth l i x) j = nth_error l j.
Proof.
  induction l as [|h t IH]; intros [|i] [|j] x Hij; cbn; try reflexivity; try congruence.
  apply IH. congruence.
Qed.

Lemma user_call_inv f apps i g : user_ok g -> AppsInv f apps ->
  AppsInv f (user_call apps i g) /\ length (user_call apps i g) = length apps.
Proof.
  intros (G1 & G2) (F & H). unfold user_call.
  destruct (nth_error apps i) as [a|] eqn:En; [|split; [split; assumption|reflexivity]].
  assert (Ha : AI a) by (rewrite Forall_forall in F; apply F; eapply nth_error_In; exact En).
  split; [|apply replace_nth_length]. split; [apply Forall_replace_nth; [exact F|apply G1, Ha]|].
  intros addr tk fa E. destruct (H addr tk fa E) as (b & Eb & Wb).
  destruct (Nat.eq_dec i (f_next_app f)) as [Ei|Ne].
  - rewrite <- Ei in *. rewrite En in Eb. injection Eb as <-. exists (g a). split; [|apply G2; assumption].
    apply nth_error_replace_nth. apply nth_error_Some. congruence.
  - exists b. split; [|exact Wb]. rewrite nth_error_replace_nth_other by exact Ne. exact Eb.
Qed.

Lemma run_app_events_rep (Happs : apps_contract) evs : forall f apps,
  Rep (length apps) f -> AppsInv f apps -> Forall app_ev_ok evs ->
  exists f' apps', run_app_events f apps evs = Ok (f', apps') /\ Rep (length apps) f' /\ AppsInv f' apps' /\
                   length apps' = length apps.
Proof.
  induction evs as [|e t IH]; intros f apps R AIv F.
  - exists f, apps. cbn. tauto.
  - inversion F as [|? ? He Ft]; subst. destruct e as [now pin| | |i g]; cbn [run_app_events].
    + destruct He as (Tn & Hb).
      destruct (poll_rep_stepA Happs f now pin apps R AIv Tn Hb) as (f' & o & apps' & c & E & R' & I' & L).
      rewrite E. cbn [bind]. rewrite <- L in R'.
      destruct (IH f' apps' R' I' Ft) as (f2 & apps2 & E2 & R2 & I2 & L2).
      exists f2, apps2. split; [exact E2|]. rewrite <- L. exact (conj R2 (conj I2 L2)).
    + destruct (Rep_set_online _ f R) as (f' & E & R'). rewrite E. cbn [bind]. apply IH; try assumption.
      unfold set_online, set_state in E. injection E as <-. eapply AppsInv_same; [| |exact AIv]; reflexivity.
    + destruct (Rep_set_offline _ f R) as (f' & E & R'). rewrite E. cbn [bind]. apply IH; try assumption.
      unfold set_offline, set_state in E. apply fdl_new_spec in E. destruct E as ((Es & _) & _).
      cbn [fst snd w_apps note]; apply AppsInv_idle; [apply AIv|rewrite Es; discriminate].
    + destruct (user_call_inv f apps i g He AIv) as (I' & L).
      rewrite <- L in R. destruct (IH f (user_call apps i g) R I' Ft) as (f2 & apps2 & E2 & R2 & I2 & L2).
      exists f2, apps2. rewrite <- L. exact (conj E2 (conj R2 (conj I2 L2))).
Qed.

Theorem no_panic_contract (Happs : apps_contract) p (apps : list A) (evs : list app_ev) :
  builder_valid p -> Forall AI apps -> Forall app_ev_ok evs ->
  exists f0 f' apps', fdl_new p = Ok f0 /\ run_app_events f0 apps evs = Ok (f', apps') /\
                      Rep (length apps) f' /\ AppsInv f' apps' /\ length apps' = length apps.
Proof.
  intros B Fa F. destruct (fdl_new_rep (length apps) p B) as [f0 (E & R0 & _)].
  assert (I0 : AppsInv f0 apps).
  { cbn [fst snd w_apps note]; apply AppsInv_idle; [exact Fa|]. apply fdl_new_spec in E. destruct E as ((Es & _) & _). rewrite Es. discriminate. }
  destruct (run_app_events_rep Happs evs f0 apps R0 I0 F) as (f' & apps' & E' & R' & I' & L).
  exists f0, f', apps'. tauto.
Qed.

(* a station with one application: poll(now, phy, &mut app) *)
Corollary no_panic_contract1 (Happs : apps_contract) p (a : A) (evs : list app_ev) :
  builder_valid p -> AI a -> Forall app_ev_ok evs ->
  exists f0 f' a', fdl_new p = Ok f0 /\ run_app_events f0 [a] evs = Ok (f', [a']) /\ Rep 1 f' /\ AI a'.
Proof.
  intros B Ha F.
  destruct (no_panic_contract Happs p [a] evs B (Forall_cons _ Ha (Forall_nil _)) F)
    as (f0 & f' & apps' & E0 & E & R & (Fa' & _) & L).
  destruct apps' as [|a' [|x t]]; try discriminate L. inversion Fa'; subst. exists f0, f', a'. tauto.
Qed.

End Contract.

From PB Require Import DpMaster DpStepProofs C14Proofs ScanBase LiveList Scan C18Proofs AppsGlue.

(* What the master needs of a peripheral.  These are the (undocumented) preconditions of
   `Peripheral::new` / `PeripheralOptions`: a 7-bit address; an output image, Chk_Cfg data and user
   parameters that fit one telegram: `fits dsap ssap n` is the serializer's assertion length_byte <= 249
   for a PDU of n bytes with the SAPs of that service (Generated/DpTables.v), i.e. at most 246 bytes of
   outputs (Data_Exchange uses no SAP bytes), 244 bytes of configuration, 237 bytes of user parameters
   (Set_Prm has 7 fixed bytes).  The bounds are tight (oversize_output_panics; on the crate: an output
   image of 247 bytes panics at telegram.rs `assert!(length_byte <= 249)`, 246 bytes do not).
   The frame count bit of a peripheral is never Inactive (the code only ever assigns First / High / Low).
   Nothing is required of the retry counter, the input image, the diagnostics storage or the state. *)
Definition fits (ds ss : option Z) (n : nat) : Prop := (n + has_sap ds + has_sap ss + 3 <= 249)%nat.

Definition periph_ok (p : periph) : Prop :=
  0 <= pe_addr p < 128 /\ pe_fcb p <> FcbInactive /\ fits dp_dx_dsap dp_dx_ssap (length (pe_pi_q p)) /\
  match o_user_prm (pe_opts p) with Some u => fits dp_prm_dsap dp_prm_ssap (7 + length u) | None => True end /\
  match o_config (pe_opts p) with Some c => fits dp_cfg_dsap dp_cfg_ssap (length c) | None => True end.

Definition slots_ok (l : list (option periph)) : Prop :=
  forall i p, nth_error l i = Some (Some p) -> (i <= 255)%nat /\ periph_ok p.

(* DpRep: every occupied slot has an index that fits the u8 of a handle (PeripheralSet::add panics
   before it would create another one) and holds a peripheral satisfying periph_ok; the time of the last
   global control telegram is a time the station passed in.  ANY number of slots (including none), any
   occupancy pattern, any cycle state, any operating state (Stop included), any pending events. *)
Definition DpRep (m : dpm) : Prop :=
  slots_ok (dm_slots m) /\ match dm_last_gc m with Some t => time_ok t | None => True end.

Definition dp_waiting (m : dpm) (da : Z) : Prop :=
  exists index hd p, dm_cycle m = CyDataExchange index /\
    get_at_index (dm_slots m) index = Ok (Some (hd, p)) /\ pe_addr p = da.

(* what the station delivers as a reply: never a token, never a request *)
Definition reply_shape (t : telegram) : Prop :=
  match t with
  | TToken _ _ => False
  | TShortConf => True
  | TData h _ => exists st s, h_fc h = FcResponse st s
  end.

Lemma reply_ok_shape tsa addr t : reply_ok tsa addr t -> reply_shape t.
Proof.
  intros [->|(h & pdu & st & s & -> & Hfc & _)]; [exact I|]. exists st, s. exact Hfc.
Qed.

Lemma nth_error_put_slot (l : list (option periph)) : forall i p j,
  nth_error (put_slot l i p) j =
  if (Nat.eqb j i && Nat.ltb i (length l))%bool then Some (Some p) else nth_error l j.
Proof.
  induction l as [|x l IH]; intros [|i] p [|j]; cbn [put_slot nth_error length]; try reflexivity.
  - rewrite andb_false_r. reflexivity.
  - rewrite IH. cbn [Nat.eqb]. replace (Nat.ltb (S i) (S (length l))) with (Nat.ltb i (length l)); [reflexivity|].
    destruct (Nat.ltb_spec i (length l)), (Nat.ltb_spec (S i) (S (length l))); try reflexivity; lia.
Qed.

Lemma slots_ok_put l i p : slots_ok l -> (i <= 255)%nat -> periph_ok p -> slots_ok (put_slot l i p).
Proof.
  intros S Hi Hp j q E. rewrite nth_error_put_slot in E.
  destruct (Nat.eqb_spec j i) as [->|Ne]; cbn [andb] in E.
  - destruct (Nat.ltb i (length l)); [injection E as <-; split; assumption|apply S; exact E].
  - apply S; exact E.
Qed.

Lemma find_occupied_spec (l : list (option periph)) : forall j i p,
  find_occupied l j = Some (i, p) <->
  exists k, i = (j + k)%nat /\ nth_error l k = Some (Some p) /\ forall k', (k' < k)%nat -> nth_error l k' = Some None.
Proof.
  induction l as [|x l IH]; intros j i p.
  - cbn. split; [discriminate|]. intros (k & _ & E & _). destruct k; discriminate E.
  - destruct x as [q|]; cbn [find_occupied].
    + split.
      * intros E. injection E as <- <-. exists 0%nat. split; [lia|]. split; [reflexivity|]. intros k' L; lia.
      * intros (k & -> & E & Hb). destruct k as [|k].
        -- cbn in E. injection E as <-. f_equal. f_equal. lia.
        -- specialize (Hb 0%nat ltac:(lia)). discriminate Hb.
    + rewrite IH. split.
      * intros (k & -> & E & Hb). exists (S k). split; [lia|]. split; [exact E|].
        intros [|k'] L; [reflexivity|]. cbn. apply Hb. lia.
      * intros (k & -> & E & Hb). destruct k as [|k]; [discriminate E|].
        exists k. split; [lia|]. split; [exact E|]. intros k' L. apply (Hb (S k')). lia.
Qed.

Lemma find_occupied_none (l : list (option periph)) : forall j,
  find_occupied l j = None -> forall k p, nth_error l k <> Some (Some p).
Proof.
  induction l as [|x l IH]; intros j E k p; [destruct k; discriminate|].
  destruct x as [q|]; cbn in E; [discriminate E|].
  destruct k as [|k]; cbn; [discriminate|]. eapply IH. exact E.
Qed.

(* get_at_index finds the first occupied slot at or after index, if its number fits a u8 *)
Lemma get_at_index_spec l index hd p :
  get_at_index l index = Ok (Some (hd, p)) <->
  exists k, hd = mkHandle (index + k) (pe_addr p) /\ (index + k <= 255)%nat /\
    nth_error l (index + k) = Some (Some p) /\ forall k', (k' < k)%nat -> nth_error l (index + k') = Some None.
Proof.
  unfold get_at_index, u8_index. split.
  - destruct (find_occupied (skipn index l) index) as [[i q]|] eqn:Ef; [|discriminate].
    destruct (Nat.ltb_spec 255 i); [discriminate|]. cbn [bind]. intros E. injection E as <- <-.
    apply find_occupied_spec in Ef. destruct Ef as (k & -> & Hn & Hb). exists k.
    rewrite <- nth_error_skipn'. repeat split; try assumption. intros k' L. rewrite <- nth_error_skipn'. exact (Hb k' L).
  - intros (k & -> & Hi & Hn & Hb).
    assert (Ef : find_occupied (skipn index l) index = Some ((index + k)%nat, p)).
    { apply find_occupied_spec. exists k. rewrite nth_error_skipn'. repeat split; try assumption.
      intros k' L. rewrite nth_error_skipn'. exact (Hb k' L). }
    rewrite Ef. destruct (Nat.ltb_spec 255 (index + k)); [lia|]. reflexivity.
Qed.

Lemma get_at_index_ok l index : slots_ok l ->
  get_at_index l index = Ok None \/
  exists i p, get_at_index l index = Ok (Some (mkHandle i (pe_addr p), p)) /\
              nth_error l i = Some (Some p) /\ (i <= 255)%nat /\ periph_ok p /\ (i < length l)%nat.
Proof.
  intros S. unfold get_at_index.
  destruct (find_occupied (skipn index l) index) as [[i p]|] eqn:Ef; [right|left; reflexivity].
  destruct (find_occupied_nth _ _ _ _ Ef) as (k & -> & Hn). rewrite nth_error_skipn' in Hn.
  destruct (S _ _ Hn) as (Hi & Hp). exists (index + k)%nat, p.
  unfold u8_index. destruct (Nat.ltb_spec 255 (index + k)) as [L|_]; [lia|]. cbn [bind].
  split; [reflexivity|]. split; [exact Hn|]. split; [exact Hi|]. split; [exact Hp|].
  apply nth_error_Some. congruence.
Qed.

Lemma get_at_index_put l index i p p1 :
  get_at_index l index = Ok (Some (mkHandle i (pe_addr p), p)) ->
  get_at_index (put_slot l i p1) index = Ok (Some (mkHandle i (pe_addr p1), p1)).
Proof.
  intros E. apply get_at_index_spec in E. destruct E as (k & Eh & Hi & Hn & Hb). injection Eh as ->.
  assert (Hl : (index + k < length l)%nat) by (apply nth_error_Some; congruence).
  apply get_at_index_spec. exists k. split; [reflexivity|]. split; [exact Hi|]. split.
  - rewrite nth_error_put_slot, Nat.eqb_refl. destruct (Nat.ltb_spec (index + k) (length l)); [reflexivity|lia].
  - intros k' L. rewrite nth_error_put_slot. destruct (Nat.eqb_spec (index + k') (index + k)); [lia|]. exact (Hb k' L).
Qed.

Lemma occupied_from_in (l : list (option periph)) : forall j i,
  In i (occupied_from l j) -> exists k p, i = (j + k)%nat /\ nth_error l k = Some (Some p).
Proof.
  induction l as [|x l IH]; intros j i H; [contradiction H|].
  destruct x as [q|]; cbn [occupied_from] in H.
  - destruct H as [<-|H].
    + exists 0%nat, q. split; [lia|reflexivity].
    + destruct (IH _ _ H) as (k & p & -> & E). exists (S k), p. split; [lia|exact E].
  - destruct (IH _ _ H) as (k & p & -> & E). exists (S k), p. split; [lia|exact E].
Qed.

Lemma increment_cycle_ok m index : slots_ok (dm_slots m) ->
  exists c comp, increment_cycle m index = Ok (set_cycle m c, comp).
Proof.
  intros S. unfold increment_cycle, get_next_index.
  destruct (occupied_from (skipn index (dm_slots m)) index) as [|a [|b r]] eqn:Eo; cbn [bind].
  - eexists; eexists; reflexivity.
  - eexists; eexists; reflexivity.
  - assert (Hb : In b (occupied_from (skipn index (dm_slots m)) index)) by (rewrite Eo; right; left; reflexivity).
    destruct (occupied_from_in _ _ _ Hb) as (k & p & -> & E). rewrite nth_error_skipn' in E.
    destruct (S _ _ E) as (Hi & _). unfold u8_index. destruct (Nat.ltb_spec 255 (index + k)); [lia|].
    cbn [bind]. eexists; eexists; reflexivity.
Qed.

Lemma send_data_ok h pdu : wf_header h -> (length_byte h (length pdu) <= 249)%nat ->
  send_data tx_buffer_size h pdu = Ok (frame_spec h pdu, tx_expects_reply h) /\
  Z.of_nat (length (frame_spec h pdu)) <= 65536.
Proof.
  intros Wf Hlb.
  assert (Htl : (telegram_len_data h (length pdu) <= 255)%nat).
  { unfold telegram_len_data. destruct (_ || _)%bool; lia. }
  unfold send_data. rewrite encode_data_in_spec; [|exact Wf|exact Hlb|unfold tx_buffer_size; lia].
  cbn [bind]. split; [reflexivity|]. rewrite frame_spec_length. lia.
Qed.

Lemma expects_reply_da h da : tx_expects_reply h = Some da -> da = h_da h.
Proof.
  unfold tx_expects_reply. destruct (h_fc h) as [fcb r|]; [|discriminate].
  destruct (req_expects_reply r); [|discriminate]. intros E. injection E as <-. reflexivity.
Qed.

Lemma bv_addr_retry pa : builder_valid pa -> 0 <= p_address pa <= 125 /\ p_max_retry pa <= 15.
Proof.
  unfold builder_valid, builder_max_address, builder_max_retry. intros (Ha & _ & _ & _ & _ & Hr & _). lia.
Qed.

Definition request_ok (p : periph) (r : ptx) : Prop :=
  match r with
  | PtxSend h pdu => wf_header h /\ (length_byte h (length pdu) <= 249)%nat /\ h_da h = pe_addr p
  | PtxSkip _ => True
  end.

Lemma select_total pa op p :
  (exists q h pdu, requests pa op p q (PtxSend h pdu)) \/ (exists q, idles p q).
Proof.
  destruct (pe_state p) eqn:Hst.
  5,6: left; destruct (latched p) eqn:E; do 3 eexists; [apply RqDiag|apply RqDx]; unfold in_exchange; auto.
  - destruct (Z.eq_dec (pe_retry p) 0); [left; do 3 eexists; apply RqProbe|right; eexists; apply IdProbed]; assumption.
  - destruct (o_user_prm (pe_opts p)) eqn:E; [left; do 3 eexists; eapply RqPrm|right; eexists; apply IdNoPrm]; eassumption.
  - destruct (o_config (pe_opts p)) eqn:E; [left; do 3 eexists; eapply RqCfg|right; eexists; apply IdNoCfg]; eassumption.
  - left; do 3 eexists; apply RqValidate; assumption.
Qed.

Lemma requests_ok pa op p q r : 0 <= p_address pa <= 125 -> periph_ok p -> requests pa op p q r ->
  periph_ok q /\ pe_addr q = pe_addr p /\ request_ok p r.
Proof.
  intros Hts Pok R. pose proof Pok as (Ha & Hf & Hq & Hu & Hc). unfold fits in Hq, Hu, Hc. cbn in Hq, Hu, Hc.
  assert (Wf : forall ds ss fc, wf_sap ds -> wf_sap ss -> wf_header (mkHeader (pe_addr p) (p_address pa) ds ss fc)).
  { intros ds ss fc W1 W2. unfold wf_header, is_addr7. cbn. repeat split; try assumption; lia. }
  destruct R as [_ _|user _ Eu|cfg _ Ec|_|_ _|_ _]; (split; [exact Pok|]); (split; [reflexivity|]);
    (split; [apply Wf; cbv; split; congruence|]); (split; [|reflexivity]); unfold length_byte; cbn [h_dsap h_ssap].
  - cbn. lia.
  - rewrite Eu in Hu. unfold set_prm_pdu. rewrite app_length. cbn. lia.
  - rewrite Ec in Hc. cbn. lia.
  - cbn. lia.
  - cbn. lia.
  - unfold dx_pdu. destruct (opstate_eqb op OpOperate); rewrite ?repeat_length; cbn; lia.
Qed.

(* Peripheral::transmit_telegram: total for every state of the peripheral and every retry counter *)
Lemma p_transmit_total pa op p : builder_valid pa -> op <> OpStop -> periph_ok p ->
  exists p1 r, p_transmit pa op p = Ok (p1, r) /\ periph_ok p1 /\ pe_addr p1 = pe_addr p /\ request_ok p r.
Proof.
  intros B Hop Pok. destruct (bv_addr_retry pa B) as (Hts & Hmr).
  destruct (dp_retry_exhausted (pe_retry p) (p_max_retry pa)) eqn:Hex.
  { do 2 eexists. split; [apply p_transmit_inv; split; [exact Hop|apply TrOffline; exact Hex]|].
    split; [|split; [reflexivity|exact I]]. destruct Pok as (Ha & _ & Hq & Hu & Hc). unfold periph_ok. cbn. repeat split; try assumption; try lia. discriminate. }
  assert (Hr : pe_retry p < 255) by (apply Z.ltb_ge in Hex; lia).
  destruct (select_total pa op p) as [(q & h & pdu & R)|(q & Id)].
  - destruct (requests_ok pa op p q _ Hts Pok R) as (Qok & Qa & Rq).
    do 2 eexists. split; [apply p_transmit_inv; split; [exact Hop|apply TrSend; eassumption]|].
    split; [|split; [exact Qa|exact Rq]]. exact Qok.
  - do 2 eexists. split; [apply p_transmit_inv; split; [exact Hop|apply TrIdle; eassumption]|].
    split; [|split; [|exact I]]; destruct Id; try exact Pok; try reflexivity.
    destruct Pok as (Ha & _ & Hq & Hu & Hc). unfold periph_ok. cbn. repeat split; try assumption; try lia. discriminate.
Qed.

Lemma periph_ok_frame p q : periph_ok p -> pe_addr q = pe_addr p -> pe_fcb q = pe_fcb p ->
  pe_pi_q q = pe_pi_q p -> pe_opts q = pe_opts p -> periph_ok q.
Proof. unfold periph_ok. intros H -> -> -> ->. exact H. Qed.

Lemma replies_ok p t p1 ev : periph_ok p -> replies p t p1 ev -> periph_ok p1 /\ pe_addr p1 = pe_addr p.
Proof.
  intros Pok R. pose proof Pok as (Ha & _ & Hq & Ho).
  destruct R as [_|f di x _ (_ & Hf & _)|f _ _ Hf|f di x _ (_ & Hf & _)|f di x _ _ (_ & Hf & _)|p2 ev f _ _ Hd Hf];
    [split; [exact Pok|reflexivity]|apply cycle_active in Hf..].
  5: destruct (receive_dx_inv _ _ _ _ Hd) as (_ & n & Hi); destruct (dx_data p t); destruct Hi as [-> _].
  4: cbv zeta; destruct (flags_contains _ _).
  all: unfold periph_ok; cbn; auto.
Qed.

(* Peripheral::receive_reply: total on every reply the station delivers, in every state *)
Lemma p_receive_reply_total p t : periph_ok p -> reply_shape t ->
  exists p1 ev, p_receive_reply p t = Ok (p1, ev) /\ periph_ok p1 /\ pe_addr p1 = pe_addr p.
Proof.
  intros Pok Sh. destruct (p_receive_reply_defined p t (proj1 (proj2 Pok)) Sh) as ([p1 ev] & E).
  exists p1, ev. split; [exact E|]. apply (replies_ok p t p1 ev Pok), p_receive_reply_inv, E.
Qed.

Lemma DpRep_slots m l : DpRep m -> slots_ok l -> DpRep (set_slots m l).
Proof. intros (_ & G) S. split; [exact S|exact G]. Qed.
Lemma DpRep_cycle m c : DpRep m -> DpRep (set_cycle m c).
Proof. intros H. exact H. Qed.
Lemma DpRep_events m e : DpRep m -> DpRep (set_events m e).
Proof. intros H. exact H. Qed.

Definition tx_post (m' : dpm) (r : DpMaster.txout) : Prop :=
  DpRep m' /\
  match r with
  | Some (wire, er) => Z.of_nat (length wire) <= 65536 /\ forall da, er = Some da -> dp_waiting m' da
  | None => True
  end.

(* the slot loop of transmit_telegram never panics (dp_tx_fuel suffices: C14Proofs.tx_loop_ends) *)
Lemma dp_tx_loop_no_panic pa : builder_valid pa -> forall fuel m, DpRep m -> dm_op m <> OpStop ->
  match dp_tx_loop fuel pa tx_buffer_size m None with
  | Ok (m', r) => tx_post m' r
  | Panic _ => False
  | OutOfFuel => True
  end.
Proof.
  intros B. induction fuel as [|fuel IH]; intros m D Hop; [exact I|].
  cbn [dp_tx_loop]. pose proof D as (S & G).
  destruct (dm_cycle m) as [index|] eqn:Hc.
  2:{ split; [exact D|exact I]. }
  destruct (get_at_index_ok (dm_slots m) index S) as [E|(i & p & E & Hn & Hi & Pok & Hl)]; rewrite E; cbn [bind].
  { split; [exact D|exact I]. }
  destruct (p_transmit_total pa (dm_op m) p B Hop Pok) as (p1 & r & Et & P1 & A1 & Rq). rewrite Et. cbn [bind hd_index].
  assert (S1 : slots_ok (put_slot (dm_slots m) i p1)) by (apply slots_ok_put; assumption).
  destruct r as [h pdu|ev].
  - destruct Rq as (Wf & Hlb & Hda). destruct (send_data_ok h pdu Wf Hlb) as (Es & Hlen). rewrite Es. cbn [bind].
    split; [apply DpRep_events, DpRep_slots; assumption|]. split; [exact Hlen|].
    intros da Eda. apply expects_reply_da in Eda. exists index, (mkHandle i (pe_addr p1)), p1.
    split; [exact Hc|]. split; [|congruence].
    cbn [dm_slots set_events set_slots]. eapply get_at_index_put; eassumption.
  - assert (Ev : (match ev with Some e => Ok (Some (mkHandle i (pe_addr p), e)) | None => Ok (@None (handle * pevent)) end)
                 = Ok (match ev with Some e => Some (mkHandle i (pe_addr p), e) | None => None end))
      by (destruct ev; reflexivity).
    rewrite Ev. cbn [bind]. clear Ev.
    set (m1 := set_slots m (put_slot (dm_slots m) i p1)).
    assert (D1 : DpRep m1) by (apply DpRep_slots; assumption).
    destruct (increment_cycle_ok m1 index S1) as (c & comp & Ei). rewrite Ei. cbn [bind].
    destruct comp; [split; [exact D1|exact I]|].
    destruct ev as [e|]; [split; [exact D1|exact I]|].
    apply IH; [exact D1|exact Hop].
Qed.

Lemma instant_diff_ok a b : time_ok a -> time_ok b -> instant_diff a b = Ok (Z.abs (a - b)).
Proof.
  unfold time_ok, instant_diff. intros Ha Hb.
  destruct (Z.ltb_spec (a - b) (-9223372036854775808)); [lia|].
  destruct (Z.ltb_spec 9223372036854775807 (a - b)); [lia|]. reflexivity.
Qed.

(* <DpMaster as FdlApplication>::transmit_telegram *)
Theorem dp_transmit_total pa m now hp : builder_valid pa -> time_ok now -> DpRep m ->
  exists m' r, dp_transmit pa tx_buffer_size m now hp = Ok (m', r) /\ tx_post m' r.
Proof.
  intros B Tn D. pose proof D as (S & G). unfold dp_transmit.
  destruct (opstate_eqb (dm_op m) OpStop) eqn:Eop.
  { eexists; eexists. split; [reflexivity|]. split; [exact D|exact I]. }
  assert (Hop : dm_op m <> OpStop) by (intros E; rewrite E in Eop; discriminate Eop).
  assert (Due : exists due, (if hp then Ok false else gc_due pa m now) = Ok due).
  { destruct hp; [exists false; reflexivity|]. unfold gc_due. destruct (dm_last_gc m) as [t|]; [|exists true; reflexivity].
    rewrite (instant_diff_ok now t Tn G). cbn [bind]. eexists; reflexivity. }
  destruct Due as (due & Edue). rewrite Edue. cbn [bind]. destruct due.
  - assert (Eb : exists b, (match dm_op m with OpClear => Ok dp_gc_clear | OpOperate => Ok dp_gc_operate | OpStop => Panic SiteUnreachable end) = Ok b)
      by (destruct (dm_op m); [contradiction Hop; reflexivity|eexists; reflexivity|eexists; reflexivity]).
    destruct Eb as (b & Eb). rewrite Eb. cbn [bind].
    destruct (bv_addr_retry pa B) as (Hts & _).
    assert (Wf : wf_header (gc_header pa)).
    { unfold wf_header, gc_header, is_addr7. cbn. split; [unfold dp_gc_da; lia|]. split; [lia|]. split; cbv; split; congruence. }
    destruct (send_data_ok (gc_header pa) [b; dp_gc_groups] Wf ltac:(unfold length_byte; cbn; lia)) as (Es & Hlen).
    rewrite Es. cbn [bind]. eexists; eexists. split; [reflexivity|].
    split; [split; [exact S|exact Tn]|]. split; [exact Hlen|].
    intros da Eda. discriminate Eda.
  - pose proof (dp_tx_loop_no_panic pa B (dp_tx_fuel m) m D Hop) as H.
    pose proof (tx_loop_ends (dp_tx_fuel m) pa tx_buffer_size m None) as Hf.
    destruct (dp_tx_loop (dp_tx_fuel m) pa tx_buffer_size m None) as [[m' r]| |].
    + exists m', r. split; [reflexivity|exact H].
    + contradiction H.
    + exfalso. apply Hf; [|reflexivity]. unfold dp_tx_fuel. pose proof (mu_le m). lia.
Qed.

(* <DpMaster as FdlApplication>::receive_reply, for the reply the master waits for *)
Theorem dp_receive_reply_total m addr t : DpRep m -> dp_waiting m addr -> reply_shape t ->
  exists m', dp_receive_reply m addr t = Ok m' /\ DpRep m'.
Proof.
  intros D (index & hd & p & Hc & Eg & Ea) Sh. pose proof D as (S & G).
  unfold dp_receive_reply. rewrite Hc, Eg. cbn [bind]. rewrite <- Ea, Z.eqb_refl.
  destruct (get_at_index_ok (dm_slots m) index S) as [E|(i & q & E & Hn & Hi & Pok & Hl)]; rewrite E in Eg; [discriminate Eg|].
  injection Eg as <- <-.
  destruct (p_receive_reply_total q t Pok Sh) as (p1 & ev & Er & P1 & A1). rewrite Er. cbn [bind hd_index].
  assert (S1 : slots_ok (put_slot (dm_slots m) i p1)) by (apply slots_ok_put; assumption).
  destruct (increment_cycle_ok (set_slots m (put_slot (dm_slots m) i p1)) index S1) as (c & comp & Ei). rewrite Ei. cbn [bind].
  eexists. split; [reflexivity|]. split; [exact S1|exact G].
Qed.

Theorem dp_handle_timeout_total m addr : DpRep m -> exists m', dp_handle_timeout m addr = Ok m' /\ DpRep m'.
Proof. intros D. exists m. split; [reflexivity|exact D]. Qed.

Theorem dp_contract : apps_contract dpm dp_app_ops DpRep dp_waiting.
Proof.
  split; [|split].
  - intros m now p hp D B Tn. cbn [a_tx dp_app_ops].
    destruct (dp_transmit_total p m now hp B Tn D) as (m' & r & E & D' & Hr).
    exists m', r. split; [exact E|]. split; [exact D'|]. destruct r as [[wire er]|]; exact Hr.
  - intros m now p addr t D Wt B Tn Rk. cbn [a_rx dp_app_ops].
    apply dp_receive_reply_total; [exact D|exact Wt|eapply reply_ok_shape; exact Rk].
  - intros m now p addr D Wt B Tn. cbn [a_to dp_app_ops]. apply dp_handle_timeout_total. exact D.
Qed.

(* outside the contract the panic sites are real: a reply nobody waits for *)
Lemma dp_receive_reply_outside_contract :
  dp_receive_reply (dp_new 1 false) 5 TShortConf = Panic SiteUnreachable /\ DpRep (dp_new 1 false).
Proof.
  split; [reflexivity|]. split; [|exact I]. intros [|[|i]] p E; discriminate E.
Qed.

(* non-vacuity: new masters of any size satisfy DpRep (adding: dp_add_rep) *)
Lemma DpRep_new k owned : DpRep (dp_new k owned).
Proof.
  split; [|exact I]. intros i p E. cbn in E. exfalso.
  assert (H : forall k i, nth_error (repeat (@None periph) k) i <> Some (Some p)).
  { clear. induction k as [|k IH]; intros [|i]; cbn; try discriminate. apply IH. }
  exact (H _ _ E).
Qed.

Lemma periph_new_ok a o pi_i pi_q dsz : 0 <= a < 128 -> fits dp_dx_dsap dp_dx_ssap (length pi_q) ->
  match o_user_prm o with Some u => fits dp_prm_dsap dp_prm_ssap (7 + length u) | None => True end ->
  match o_config o with Some c => fits dp_cfg_dsap dp_cfg_ssap (length c) | None => True end ->
  periph_ok (periph_new a o pi_i pi_q dsz).
Proof. intros Ha Hq Hu Hc. unfold periph_ok, periph_new. cbn. repeat split; try assumption; try lia. discriminate. Qed.

(* Masters whose storage is filled front to back.  PeripheralSet::add takes the first free slot and
   nothing ever frees one, so every storage the public API can produce is `dense` (sparse storages exist
   only through the verif-hooks constructor); DpRepD = DpRep /\ dense is what lets add() be called while a
   reply is outstanding: the new peripheral lands behind the one the cycle index points to. *)
Definition dense (l : list (option periph)) : Prop :=
  forall i j, (i < j)%nat -> nth_error (map occ l) j = Some true -> nth_error (map occ l) i = Some true.

Definition DpRepD (m : dpm) : Prop := DpRep m /\ dense (dm_slots m).

Definition mask_eq (m m' : dpm) : Prop := map occ (dm_slots m') = map occ (dm_slots m).

Lemma dense_mask m m' : mask_eq m m' -> dense (dm_slots m) -> dense (dm_slots m').
Proof. unfold mask_eq, dense. intros ->. tauto. Qed.

Lemma increment_cycle_slots m index m2 c : increment_cycle m index = Ok (m2, c) -> dm_slots m2 = dm_slots m.
Proof.
  unfold increment_cycle. destruct (get_next_index (dm_slots m) index) as [[n|]| |]; cbn [bind]; try discriminate;
    intros E; injection E as <- _; reflexivity.
Qed.

(* the callbacks never change which slots are occupied (from every state, no invariant needed) *)
Lemma dp_tx_loop_mask pa bs : forall fuel m pev m' r,
  dp_tx_loop fuel pa bs m pev = Ok (m', r) -> mask_eq m m'.
Proof.
  induction fuel as [|fuel IH]; intros m pev m' r E; [discriminate E|].
  cbn [dp_tx_loop] in E. unfold mask_eq.
  destruct (dm_cycle m) as [index|]; [|injection E as <- _; reflexivity].
  destruct (get_at_index (dm_slots m) index) as [[[hd p]|]| |] eqn:Eg; cbn [bind] in E; try discriminate E;
    [|injection E as <- _; reflexivity].
  pose proof (get_at_index_some _ _ _ _ Eg) as Hn.
  destruct (p_transmit pa (dm_op m) p) as [[p1 rr]| |]; cbn [bind] in E; try discriminate E.
  assert (M1 : map occ (put_slot (dm_slots m) (hd_index hd) p1) = map occ (dm_slots m)) by (eapply put_slot_mask; exact Hn).
  destruct rr as [h pdu|ev].
  - destruct (send_data bs h pdu) as [o| |]; cbn [bind] in E; try discriminate E. injection E as <- _. exact M1.
  - match type of E with bind ?x _ = _ => destruct x as [pev1| |] end; cbn [bind] in E; try discriminate E.
    match type of E with bind (increment_cycle ?mm _) _ = _ => destruct (increment_cycle mm index) as [[m2 comp]| |] eqn:Ei end;
      cbn [bind] in E; try discriminate E.
    apply increment_cycle_slots in Ei. cbn [dm_slots set_slots] in Ei.
    destruct comp; [injection E as <- _; cbn; rewrite Ei; exact M1|].
    destruct pev1; [injection E as <- _; cbn; rewrite Ei; exact M1|].
    apply IH in E. unfold mask_eq in E. rewrite E, Ei. exact M1.
Qed.

Lemma dp_transmit_mask pa bs m now hp m' r : dp_transmit pa bs m now hp = Ok (m', r) -> mask_eq m m'.
Proof.
  unfold dp_transmit. destruct (opstate_eqb (dm_op m) OpStop); [intros E; injection E as <- _; reflexivity|].
  destruct (if hp then Ok false else gc_due pa m now) as [due| |]; cbn [bind]; try discriminate.
  destruct due.
  - destruct (dm_op m); cbn [bind]; try discriminate;
      (destruct (send_data bs (gc_header pa) _) as [o| |]; cbn [bind]; try discriminate; intros E; injection E as <- _; reflexivity).
  - apply dp_tx_loop_mask.
Qed.

Lemma dp_receive_reply_mask m addr t m' : dp_receive_reply m addr t = Ok m' -> mask_eq m m'.
Proof.
  unfold dp_receive_reply, mask_eq. destruct (dm_cycle m) as [index|]; [|discriminate].
  destruct (get_at_index (dm_slots m) index) as [[[hd p]|]| |] eqn:Eg; cbn [bind]; try discriminate.
  pose proof (get_at_index_some _ _ _ _ Eg) as Hn.
  destruct (addr =? pe_addr p); [|discriminate].
  destruct (p_receive_reply p t) as [[p1 ev]| |]; cbn [bind]; try discriminate.
  match goal with |- bind (increment_cycle ?mm _) _ = _ -> _ => destruct (increment_cycle mm index) as [[m2 comp]| |] eqn:Ei end;
    cbn [bind]; try discriminate.
  apply increment_cycle_slots in Ei. cbn [dm_slots set_slots] in Ei.
  intros E. injection E as <-. cbn. rewrite Ei. eapply put_slot_mask; exact Hn.
Qed.

Theorem dpd_contract : apps_contract dpm dp_app_ops DpRepD dp_waiting.
Proof.
  destruct dp_contract as (Tx & Rx & To). split; [|split].
  - intros m now p hp (D & Dn) B Tn. destruct (Tx m now p hp D B Tn) as (m' & r & E & D' & Hr).
    exists m', r. split; [exact E|]. split; [|exact Hr]. split; [exact D'|].
    eapply dense_mask; [|exact Dn]. eapply dp_transmit_mask. exact E.
  - intros m now p addr t (D & Dn) W B Tn Rk. destruct (Rx m now p addr t D W B Tn Rk) as (m' & E & D').
    exists m'. split; [exact E|]. split; [exact D'|]. eapply dense_mask; [|exact Dn]. eapply dp_receive_reply_mask. exact E.
  - intros m now p addr (D & Dn) W B Tn. exists m. split; [reflexivity|]. split; assumption.
Qed.

Lemma dense_repeat k : dense (repeat (@None periph) k).
Proof.
  intros i j _ H. exfalso. revert j H. induction k as [|k IH]; intros [|j] H; cbn in H; try discriminate. eapply IH. exact H.
Qed.

Lemma DpRepD_new k owned : DpRepD (dp_new k owned).
Proof. split; [apply DpRep_new|apply dense_repeat]. Qed.

(* invariant: the cursor is an address 0..125 - ANY station set, any uncollected event, either value of
   current_address_done; waiting for da: da is an address 0..125 (the applications index a 128-bit array
   with it, C18_panic_outside_contract) *)
Definition ll_ok (s : ll) : Prop := 0 <= ll_cursor s <= 125.
Definition sc_ok (s : scanner) : Prop := 0 <= sc_cursor s <= 125.
Definition scan_waiting (da : Z) : Prop := 0 <= da <= 125.

Lemma frame_spec_small h : Z.of_nat (length (frame_spec h [])) <= 65536.
Proof.
  rewrite frame_spec_length. unfold telegram_len_data, length_byte. cbn [length].
  destruct (h_dsap h), (h_ssap h); cbn; lia.
Qed.

Theorem ll_contract : apps_contract ll ll_app_ops ll_ok (fun _ => scan_waiting).
Proof.
  split; [|split].
  - intros s now p hp Hs B Tn. cbn [a_tx ll_app_ops]. destruct (bv_addr_retry p B) as (Hts & _).
    unfold ll_transmit. destruct (ll_done s).
    + cbn [bind sb_result]. eexists; eexists. split; [reflexivity|]. split; [|exact I].
      unfold ll_ok, LL_LAST, LL_FIRST in *. cbn [ll_cursor]. destruct (Z.ltb_spec (ll_cursor s) 125); lia.
    + rewrite (send_request_ok _ (ll_request_wf (p_address p) (ll_cursor s) Hts Hs)). cbn [bind sb_result tx_wire tx_exp].
      eexists; eexists. split; [reflexivity|]. split; [exact Hs|]. split; [apply frame_spec_small|].
      intros da E. apply expects_reply_da in E. subst da. exact Hs.
  - intros s now p addr t Hs Hw B Tn _. cbn [a_rx ll_app_ops]. rewrite (ll_receive_ok s addr t Hw).
    eexists. split; [reflexivity|]. unfold ll_ok. destruct (Z.testbit (ll_stations s) addr); exact Hs.
  - intros s now p addr Hs Hw B Tn. cbn [a_to ll_app_ops]. rewrite (ll_timeout_ok s addr Hw).
    eexists. split; [reflexivity|]. unfold ll_ok. destruct (Z.testbit (ll_stations s) addr); exact Hs.
Qed.

Theorem sc_contract : apps_contract scanner sc_app_ops sc_ok (fun _ => scan_waiting).
Proof.
  split; [|split].
  - intros s now p hp Hs B Tn. cbn [a_tx sc_app_ops]. destruct (bv_addr_retry p B) as (Hts & _).
    unfold sc_transmit. destruct (sc_done s).
    + cbn [bind sb_result]. eexists; eexists. split; [reflexivity|]. split; [|exact I].
      unfold sc_ok, SC_LAST, SC_FIRST in *. cbn [sc_cursor]. destruct (Z.ltb_spec (sc_cursor s) 125); lia.
    + rewrite (send_request_ok _ (sc_request_wf (p_address p) (sc_cursor s) Hts Hs)). cbn [bind sb_result tx_wire tx_exp].
      eexists; eexists. split; [reflexivity|]. split; [exact Hs|]. split; [apply frame_spec_small|].
      intros da E. apply expects_reply_da in E. subst da. exact Hs.
  - intros s now p addr t Hs Hw B Tn _. cbn [a_rx sc_app_ops]. destruct (sc_parse_total t) as (d & Ed).
    rewrite (sc_receive_ok s addr t d Hw Ed).
    eexists. split; [reflexivity|]. unfold sc_ok. destruct d; [cbv zeta; destruct (Z.testbit (sc_stations s) addr)|]; exact Hs.
  - intros s now p addr Hs Hw B Tn. cbn [a_to sc_app_ops]. rewrite (sc_timeout_ok s addr Hw).
    eexists. split; [reflexivity|]. unfold sc_ok. destruct (Z.testbit (sc_stations s) addr); exact Hs.
Qed.

Definition any_ok (a : any_app) : Prop :=
  match a with AppUnit => True | AppDp m => DpRepD m | AppLl s => ll_ok s | AppSc s => sc_ok s end.
Definition any_waiting (a : any_app) (da : Z) : Prop :=
  match a with AppUnit => False | AppDp m => dp_waiting m da | AppLl _ => scan_waiting da | AppSc _ => scan_waiting da end.

Theorem any_contract : apps_contract any_app any_app_ops any_ok any_waiting.
Proof.
  destruct dpd_contract as (Dtx & Drx & Dto). destruct ll_contract as (Ltx & Lrx & Lto). destruct sc_contract as (Stx & Srx & Sto).
  split; [|split].
  - intros [|m|s|s] now p hp Ha B Tn; cbn [a_tx any_app_ops any_ok] in *.
    + exists AppUnit, None. split; [reflexivity|]. split; exact I.
    + destruct (Dtx m now p hp Ha B Tn) as (m' & r & E & Ha' & Hr). rewrite E. cbn [bind]. exists (AppDp m'), r. split; [reflexivity|]. split; [exact Ha'|exact Hr].
    + destruct (Ltx s now p hp Ha B Tn) as (s' & r & E & Ha' & Hr). rewrite E. cbn [bind]. exists (AppLl s'), r. split; [reflexivity|]. split; [exact Ha'|exact Hr].
    + destruct (Stx s now p hp Ha B Tn) as (s' & r & E & Ha' & Hr). rewrite E. cbn [bind]. exists (AppSc s'), r. split; [reflexivity|]. split; [exact Ha'|exact Hr].
  - intros [|m|s|s] now p addr t Ha Hw B Tn Rk; cbn [a_rx any_app_ops any_ok any_waiting] in *.
    + contradiction Hw.
    + destruct (Drx m now p addr t Ha Hw B Tn Rk) as (m' & E & Ha'). rewrite E. exists (AppDp m'). split; [reflexivity|exact Ha'].
    + destruct (Lrx s now p addr t Ha Hw B Tn Rk) as (s' & E & Ha'). rewrite E. exists (AppLl s'). split; [reflexivity|exact Ha'].
    + destruct (Srx s now p addr t Ha Hw B Tn Rk) as (s' & E & Ha'). rewrite E. exists (AppSc s'). split; [reflexivity|exact Ha'].
  - intros [|m|s|s] now p addr Ha Hw B Tn; cbn [a_to any_app_ops any_ok any_waiting] in *.
    + contradiction Hw.
    + destruct (Dto m now p addr Ha Hw B Tn) as (m' & E & Ha'). rewrite E. exists (AppDp m'). split; [reflexivity|exact Ha'].
    + destruct (Lto s now p addr Ha Hw B Tn) as (s' & E & Ha'). rewrite E. exists (AppLl s'). split; [reflexivity|exact Ha'].
    + destruct (Sto s now p addr Ha Hw B Tn) as (s' & E & Ha'). rewrite E. exists (AppSc s'). split; [reflexivity|exact Ha'].
Qed.

(* User calls on the DP master between polls: they keep DpRep and keep the master waiting *)

Lemma get_at_index_put_same_addr l index hd p j q0 q : slots_ok l ->
  get_at_index l index = Ok (Some (hd, p)) -> nth_error l j = Some (Some q0) -> pe_addr q = pe_addr q0 ->
  exists hd' p', get_at_index (put_slot l j q) index = Ok (Some (hd', p')) /\ pe_addr p' = pe_addr p.
Proof.
  intros _ Eg Ej Ea. apply get_at_index_spec in Eg. destruct Eg as (k & -> & Hi & Hn & Hb).
  destruct (Nat.eq_dec j (index + k)) as [->|Ne].
  - rewrite Hn in Ej. injection Ej as <-. eexists; eexists. split; [|exact Ea].
    eapply get_at_index_put. apply get_at_index_spec. exists k. split; [reflexivity|split; [exact Hi|split; [exact Hn|exact Hb]]].
  - eexists; exists p. split; [|reflexivity]. apply get_at_index_spec. exists k. split; [reflexivity|]. split; [exact Hi|]. split.
    + rewrite nth_error_put_slot. destruct (Nat.eqb_spec (index + k) j); [congruence|]. exact Hn.
    + intros k' L. rewrite nth_error_put_slot. destruct (Nat.eqb_spec (index + k') j) as [<-|_]; cbn [andb]; [|exact (Hb k' L)].
      rewrite (Hb k' L) in Ej. discriminate Ej.
Qed.

Lemma dp_replace_ok m j q0 q : DpRep m -> nth_error (dm_slots m) j = Some (Some q0) ->
  periph_ok q -> pe_addr q = pe_addr q0 ->
  DpRep (set_slots m (put_slot (dm_slots m) j q)) /\
  forall da, dp_waiting m da -> dp_waiting (set_slots m (put_slot (dm_slots m) j q)) da.
Proof.
  intros (S & G) Ej Qok Ea. destruct (S _ _ Ej) as (Hj & _). split.
  - split; [apply slots_ok_put; assumption|exact G].
  - intros da (index & hd & p & Hc & Eg & Hda).
    destruct (get_at_index_put_same_addr _ _ _ _ _ _ _ S Eg Ej Ea) as (hd' & p' & Eg' & Ha').
    exists index, hd', p'. split; [exact Hc|]. split; [exact Eg'|congruence].
Qed.

(* the user calls as functions on the master (a call that panics - foreign handle, wrong length - is
   not part of a history) *)
Definition u_take_last_events (m : dpm) : dpm := fst (dp_take_last_events m).
Definition u_enter_state (s : opstate) (m : dpm) : dpm := dp_enter_state_unwound m s.
Definition u_request_diagnostics (h : handle) (m : dpm) : dpm :=
  match dp_request_diagnostics m h with Ok m' => m' | _ => m end.
Definition u_write_q (h : handle) (q : bytes) (m : dpm) : dpm :=
  match dp_write_q m h q with Ok m' => m' | _ => m end.

Lemma dp_user_calls_ok :
  user_ok dpm DpRep dp_waiting u_take_last_events /\
  (forall s, user_ok dpm DpRep dp_waiting (u_enter_state s)) /\
  (forall h, user_ok dpm DpRep dp_waiting (u_request_diagnostics h)) /\
  (forall h q, user_ok dpm DpRep dp_waiting (u_write_q h q)).
Proof.
  split; [|split; [|split]].
  - split; [intros m D; exact D|intros m da _ W; exact W].
  - intros s. split; [intros m (S & _); split; [exact S|exact I]|intros m da _ W; exact W].
  - intros h.
    assert (K : forall m, DpRep m -> DpRep (u_request_diagnostics h m) /\ forall da, dp_waiting m da -> dp_waiting (u_request_diagnostics h m) da).
    { intros m D. unfold u_request_diagnostics, dp_request_diagnostics, dp_update, dp_get_mut.
      destruct (nth_error (dm_slots m) (hd_index h)) as [[p|]|] eqn:E; cbn [bind]; try (split; [exact D|tauto]).
      destruct D as (S & G). destruct (S _ _ E) as (_ & Pok).
      apply (dp_replace_ok m (hd_index h) p); [split; assumption|exact E| |reflexivity].
      eapply periph_ok_frame; [exact Pok| | | |]; reflexivity. }
    split; [intros m D; apply K, D|intros m da D W; apply K; assumption].
  - intros h q.
    assert (K : forall m, DpRep m -> DpRep (u_write_q h q m) /\ forall da, dp_waiting m da -> dp_waiting (u_write_q h q m) da).
    { intros m D. unfold u_write_q, dp_write_q, dp_get_mut.
      destruct (nth_error (dm_slots m) (hd_index h)) as [[p|]|] eqn:E; cbn [bind]; try (split; [exact D|tauto]).
      unfold copy_from_slice. destruct (Nat.eqb_spec (length (pe_pi_q p)) (length q)) as [El|_]; cbn [bind]; [|split; [exact D|tauto]].
      destruct D as (S & G). destruct (S _ _ E) as (_ & Pok).
      apply (dp_replace_ok m (hd_index h) p); [split; assumption|exact E| |reflexivity].
      destruct Pok as (Ha & Hf & Hq & Hu & Hc). unfold periph_ok. cbn. rewrite <- El. tauto. }
    split; [intros m D; apply K, D|intros m da D W; apply K; assumption].
Qed.

(* DpMaster::add keeps DpRep (a panic - full fixed storage, 257th slot - is not part of a history) *)
Lemma dp_add_rep m p : DpRep m -> periph_ok p ->
  match dp_add m p with Ok (m', _) => DpRep m' | _ => True end.
Proof.
  intros (S & G) Pok. unfold dp_add.
  destruct (first_free (dm_slots m) 0) as [i|].
  - unfold u8_index. destruct (Nat.ltb_spec 255 i); cbn [bind]; [exact I|].
    split; [apply slots_ok_put; [exact S|lia|exact Pok]|exact G].
  - destruct (dm_owned m); [|exact I]. unfold u8_index.
    destruct (Nat.ltb_spec 255 (length (dm_slots m))); cbn [bind]; [exact I|].
    split; [|exact G]. intros j q E. cbn [dm_slots set_slots] in E.
    destruct (Nat.lt_ge_cases j (length (dm_slots m))) as [L|L].
    + rewrite nth_error_app1 in E by exact L. apply S; exact E.
    + rewrite nth_error_app2 in E by exact L.
      destruct (j - length (dm_slots m))%nat as [|d] eqn:Ed; cbn in E; [|destruct d; discriminate E].
      injection E as <-. split; [lia|exact Pok].
Qed.

(* the same calls keep the occupancy, hence DpRepD *)
Lemma dp_user_calls_mask :
  (forall m, mask_eq m (u_take_last_events m)) /\ (forall s m, mask_eq m (u_enter_state s m)) /\
  (forall h m, mask_eq m (u_request_diagnostics h m)) /\ (forall h q m, mask_eq m (u_write_q h q m)).
Proof.
  split; [|split; [|split]]; unfold mask_eq.
  - reflexivity.
  - reflexivity.
  - intros h m. unfold u_request_diagnostics, dp_request_diagnostics, dp_update, dp_get_mut.
    destruct (nth_error (dm_slots m) (hd_index h)) as [[p|]|] eqn:E; cbn [bind]; try reflexivity.
    cbn. eapply put_slot_mask. exact E.
  - intros h q m. unfold u_write_q, dp_write_q, dp_get_mut.
    destruct (nth_error (dm_slots m) (hd_index h)) as [[p|]|] eqn:E; cbn [bind]; try reflexivity.
    unfold copy_from_slice. destruct (Nat.eqb (length (pe_pi_q p)) (length q)); cbn [bind]; try reflexivity.
    cbn. eapply put_slot_mask. exact E.
Qed.

Lemma user_ok_dense g : user_ok dpm DpRep dp_waiting g -> (forall m, mask_eq m (g m)) -> user_ok dpm DpRepD dp_waiting g.
Proof.
  intros (G1 & G2) M. split.
  - intros m (D & Dn). split; [apply G1, D|]. eapply dense_mask; [apply M|exact Dn].
  - intros m da (D & _) W. apply G2; assumption.
Qed.

(* DpMaster::add at any time, also while a reply is outstanding *)
Definition u_add (p : periph) (m : dpm) : dpm := match dp_add m p with Ok (m', _) => m' | _ => m end.

Lemma first_free_spec (l : list (option periph)) : forall j i, first_free l j = Some i ->
  exists k, i = (j + k)%nat /\ nth_error l k = Some None /\ forall k', (k' < k)%nat -> nth_error (map occ l) k' = Some true.
Proof.
  induction l as [|x l IH]; intros j i E; [discriminate E|].
  destruct x as [q|]; cbn [first_free] in E.
  - destruct (IH _ _ E) as (k & -> & En & Hb). exists (S k). split; [lia|]. split; [exact En|].
    intros [|k'] L; [reflexivity|]. cbn. apply Hb. lia.
  - injection E as <-. exists 0%nat. split; [lia|]. split; [reflexivity|]. intros k' L. lia.
Qed.

Lemma first_free_none (l : list (option periph)) : forall j, first_free l j = None ->
  forall k, (k < length l)%nat -> nth_error (map occ l) k = Some true.
Proof.
  induction l as [|x l IH]; intros j E k L; [cbn in L; lia|].
  destruct x as [q|]; cbn [first_free] in E; [|discriminate E].
  destruct k as [|k]; [reflexivity|]. cbn. eapply IH; [exact E|cbn in L; lia].
Qed.

Lemma get_at_index_ext l l' index hd p0 : get_at_index l index = Ok (Some (hd, p0)) ->
  (forall j, (j <= hd_index hd)%nat -> nth_error l' j = nth_error l j) ->
  get_at_index l' index = Ok (Some (hd, p0)).
Proof.
  intros E Hx. apply get_at_index_spec in E. destruct E as (k & -> & Hi & Hn & Hb). cbn [hd_index] in Hx.
  apply get_at_index_spec. exists k. split; [reflexivity|]. split; [exact Hi|]. split.
  - rewrite Hx by lia. exact Hn.
  - intros k' L. rewrite Hx by lia. exact (Hb k' L).
Qed.

Lemma nth_error_occ (l : list (option periph)) j : nth_error (map occ l) j = Some true <-> exists q, nth_error l j = Some (Some q).
Proof.
  rewrite nth_error_map. destruct (nth_error l j) as [[q|]|]; cbn; split; try discriminate.
  - intros _. exists q. reflexivity.
  - reflexivity.
  - intros (q & E). discriminate E.
  - intros (q & E). discriminate E.
Qed.

Lemma dp_add_user_ok p : periph_ok p -> user_ok dpm DpRepD dp_waiting (u_add p).
Proof.
  intros Pok.
  assert (K : forall m, DpRepD m -> DpRepD (u_add p m) /\ forall da, dp_waiting m da -> dp_waiting (u_add p m) da).
  { intros m (D & Dn). pose proof (dp_add_rep m p D Pok) as Hr. unfold u_add. unfold dp_add in *.
    destruct (first_free (dm_slots m) 0) as [i|] eqn:Ef.
    - unfold u8_index in *. destruct (Nat.ltb 255 i); cbn [bind] in *; [split; [split; assumption|tauto]|].
      destruct (first_free_spec _ _ _ Ef) as (k & Ek & En & Hb). cbn in Ek. subst k.
      assert (Hl : (i < length (dm_slots m))%nat) by (apply nth_error_Some; congruence).
      split; [split; [exact Hr|]|].
      + cbn [dm_slots set_slots]. intros a b Lab Hbt. apply nth_error_occ in Hbt. destruct Hbt as (q & Eq).
        apply nth_error_occ. rewrite nth_error_put_slot in *.
        destruct (Nat.eqb_spec a i) as [->|Na]; cbn [andb].
        * destruct (Nat.ltb_spec i (length (dm_slots m))); [eexists; reflexivity|lia].
        * apply nth_error_occ.
          destruct (Nat.eqb_spec b i) as [->|Nb]; cbn [andb] in Eq.
          -- apply Hb. lia.
          -- apply (Dn a b Lab). apply nth_error_occ. exists q. exact Eq.
      + intros da (index & hd & p0 & Hc & Eg & Hda). exists index, hd, p0. split; [exact Hc|]. split; [|exact Hda].
        cbn [dm_slots set_slots]. eapply get_at_index_ext; [exact Eg|].
        intros j Lj. rewrite nth_error_put_slot. destruct (Nat.eqb_spec j i) as [->|_]; [|reflexivity].
        exfalso. pose proof (get_at_index_some _ _ _ _ Eg) as Hk.
        destruct (Nat.eq_dec i (hd_index hd)) as [Ei|Ni]; [rewrite Ei in En; congruence|].
        assert (Ho : nth_error (map occ (dm_slots m)) i = Some true).
        { apply (Dn i (hd_index hd)); [lia|]. apply nth_error_occ. eexists; exact Hk. }
        apply nth_error_occ in Ho. destruct Ho as (q & Eq). congruence.
    - destruct (dm_owned m); [|split; [split; assumption|tauto]].
      unfold u8_index in *. destruct (Nat.ltb 255 (length (dm_slots m))); cbn [bind] in *; [split; [split; assumption|tauto]|].
      pose proof (first_free_none _ _ Ef) as Hall.
      split; [split; [exact Hr|]|].
      + cbn [dm_slots set_slots]. intros a b Lab Hbt.
        assert (Lb : (b < length (map occ (dm_slots m ++ [Some p])))%nat) by (apply nth_error_Some; congruence).
        rewrite map_length, app_length in Lb. cbn in Lb.
        rewrite map_app, nth_error_app1 by (rewrite map_length; lia). apply Hall. lia.
      + intros da (index & hd & p0 & Hc & Eg & Hda). exists index, hd, p0. split; [exact Hc|]. split; [|exact Hda].
        cbn [dm_slots set_slots]. eapply get_at_index_ext; [exact Eg|].
        intros j Lj. pose proof (get_at_index_some _ _ _ _ Eg) as Hk.
        assert (Lk : (hd_index hd < length (dm_slots m))%nat) by (apply nth_error_Some; congruence).
        apply nth_error_app1. lia. }
  split; [intros m D; apply K, D|intros m da D W; apply K; assumption].
Qed.

Lemma dp_user_calls_dense_ok :
  user_ok dpm DpRepD dp_waiting u_take_last_events /\
  (forall s, user_ok dpm DpRepD dp_waiting (u_enter_state s)) /\
  (forall h, user_ok dpm DpRepD dp_waiting (u_request_diagnostics h)) /\
  (forall h q, user_ok dpm DpRepD dp_waiting (u_write_q h q)) /\
  (forall p, periph_ok p -> user_ok dpm DpRepD dp_waiting (u_add p)).
Proof.
  destruct dp_user_calls_ok as (A1 & A2 & A3 & A4). destruct dp_user_calls_mask as (M1 & M2 & M3 & M4).
  split; [apply user_ok_dense; assumption|]. split; [intros s; apply user_ok_dense; [apply A2|apply M2]|].
  split; [intros h; apply user_ok_dense; [apply A3|apply M3]|].
  split; [intros h q; apply user_ok_dense; [apply A4|apply M4]|]. exact dp_add_user_ok.
Qed.

Definition on_dp (g : dpm -> dpm) (a : any_app) : any_app :=
  match a with AppDp m => AppDp (g m) | _ => a end.

Lemma on_dp_ok g : user_ok dpm DpRepD dp_waiting g -> user_ok any_app any_ok any_waiting (on_dp g).
Proof.
  intros (G1 & G2). split.
  - intros [|m|s|s] H; cbn in *; try exact H. apply G1, H.
  - intros [|m|s|s] da H W; cbn in *; try exact W. apply G2; assumption.
Qed.

(* The composition: Fdl.poll with the real applications never panics *)

Definition any_ev := app_ev any_app.
Definition any_ev_ok : any_ev -> Prop := app_ev_ok any_app any_ok any_waiting.
Definition run_any := run_app_events any_app any_app_ops.

Theorem poll_with_apps_step (f : fdl) (now : Z) (pin : phy_in) (apps : list any_app) :
  Rep (length apps) f -> AppsInv any_app any_ok any_waiting f apps -> time_ok now -> all_bytes (rx pin) ->
  exists f' o apps' c, Fdl.poll any_app_ops f now pin apps = Ok (f', o, apps', c) /\
    Rep (length apps) f' /\ AppsInv any_app any_ok any_waiting f' apps' /\ length apps' = length apps.
Proof. exact (poll_rep_stepA any_app any_app_ops any_ok any_waiting any_contract f now pin apps). Qed.

Theorem no_panic_with_apps (p : params) (apps : list any_app) (evs : list any_ev) :
  builder_valid p -> Forall any_ok apps -> Forall any_ev_ok evs ->
  exists f0 f' apps', fdl_new p = Ok f0 /\ run_any f0 apps evs = Ok (f', apps') /\
    Rep (length apps) f' /\ Forall any_ok apps' /\ length apps' = length apps.
Proof.
  intros B Fa F.
  destruct (no_panic_contract any_app any_app_ops any_ok any_waiting any_contract p apps evs B Fa F)
    as (f0 & f' & apps' & E0 & E & R & (Fa' & _) & L).
  exists f0, f', apps'. tauto.
Qed.

(* the single-application instances: poll(now, phy, &mut dp_master) etc. *)
Theorem no_panic_dp_master (p : params) (m : dpm) (evs : list (app_ev dpm)) :
  builder_valid p -> DpRep m -> Forall (app_ev_ok dpm DpRep dp_waiting) evs ->
  exists f0 f' m', fdl_new p = Ok f0 /\ run_app_events dpm dp_app_ops f0 [m] evs = Ok (f', [m']) /\
    Rep 1 f' /\ DpRep m'.
Proof. exact (no_panic_contract1 dpm dp_app_ops DpRep dp_waiting dp_contract p m evs). Qed.

Theorem no_panic_live_list (p : params) (s : ll) (evs : list (app_ev ll)) :
  builder_valid p -> ll_ok s -> Forall (app_ev_ok ll ll_ok (fun _ => scan_waiting)) evs ->
  exists f0 f' s', fdl_new p = Ok f0 /\ run_app_events ll ll_app_ops f0 [s] evs = Ok (f', [s']) /\
    Rep 1 f' /\ ll_ok s'.
Proof. exact (no_panic_contract1 ll ll_app_ops ll_ok _ ll_contract p s evs). Qed.

Theorem no_panic_scanner (p : params) (s : scanner) (evs : list (app_ev scanner)) :
  builder_valid p -> sc_ok s -> Forall (app_ev_ok scanner sc_ok (fun _ => scan_waiting)) evs ->
  exists f0 f' s', fdl_new p = Ok f0 /\ run_app_events scanner sc_app_ops f0 [s] evs = Ok (f', [s']) /\
    Rep 1 f' /\ sc_ok s'.
Proof. exact (no_panic_contract1 scanner sc_app_ops sc_ok _ sc_contract p s evs). Qed.

(* non-vacuity: a master with two peripherals in a four-slot storage, a live list and a scanner *)
Definition demo_periph (a : Z) : periph := periph_new a (mkOpts 4711 false false 0 0 false (Some [1; 2; 3]) (Some [33])) [0] [0; 0] 8.
Definition demo_master : dpm :=
  match dp_add (dp_new 4 false) (demo_periph 8) with
  | Ok (m1, _) => match dp_add m1 (demo_periph 9) with Ok (m2, _) => dp_enter_state_unwound m2 OpOperate | _ => m1 end
  | _ => dp_new 4 false
  end.

Lemma demo_master_rep : DpRepD demo_master /\ occupied demo_master = [0%nat; 1%nat] /\
  Forall any_ok [AppDp demo_master; AppLl ll_new; AppSc sc_new; AppUnit].
Proof.
  assert (D : DpRepD demo_master).
  { split.
    - split; [|exact I]. intros [|[|[|[|i]]]] q E; cbn in E; try discriminate E; try (destruct i; discriminate E);
        injection E as <-; (split; [lia|]); apply periph_new_ok; unfold fits; cbn; lia.
    - intros [|[|a]] [|[|[|[|b]]]] L H; cbn in *; try reflexivity; try lia; try discriminate H.
      destruct b; discriminate H. }
  split; [exact D|]. split; [reflexivity|].
  constructor; [exact D|]. constructor; [cbv; split; congruence|]. constructor; [cbv; split; congruence|].
  constructor; [exact I|constructor].
Qed.

(* the preconditions on the image sizes are necessary: a peripheral in data exchange whose output image
   has 247 bytes makes transmit_telegram panic in the serializer (assert!(length_byte <= 249)); reproduced
   on the crate (pb_harness run dp, `P - 7 .. 1 247 0`: PANIC src/fdl/telegram.rs:298, 246 bytes: no panic) *)
Definition oversize_master : dpm :=
  mkDpm [Some (mkPeriph 7 PsDataExchange 0 FcbHigh [] (repeat 0 247) None ext_default false false default_options)]
        false OpOperate (Some 0) (CyDataExchange 0) events_default.

Lemma oversize_output_panics :
  dp_transmit default_params tx_buffer_size oversize_master 0 true = Panic SiteAssertLen /\
  ~ DpRep oversize_master.
Proof.
  split; [vm_compute; reflexivity|]. intros (S & _). destruct (S 0%nat _ eq_refl) as (_ & (_ & _ & Hq & _)).
  unfold fits in Hq. cbn in Hq. lia.
Qed.

(* non-vacuity of the composition: a token-holding station (Rep) with the demo master (two peripherals,
   nobody answers except one SC), a live list and a scanner: the model runs through 18 polls; all three
   applications are asked in turn, send, receive a reply or a time-out *)
Definition demo_station (f0 : fdl) : fdl :=
  set_hold (set_lba (set_gap (set_st (set_conn f0 ConnOnline) (UseToken 0 None false)) (GapWaiting 0)) (Some 0)) 0 1000000000.
Definition demo_apps : list any_app := [AppDp demo_master; AppLl ll_new; AppSc sc_new].

Fixpoint polls (f : fdl) (apps : list any_app) (l : list (Z * phy_in)) : res (fdl * list any_app * list call) :=
  match l with
  | [] => Ok (f, apps, [])
  | (now, pin) :: t =>
      let* (f1, _, a1, c1) := Fdl.poll any_app_ops f now pin apps in
      let* (f2, a2, c2) := polls f1 a1 t in Ok (f2, a2, c1 ++ c2)
  end.

(* a call without its bytes: (application, 0 = declined | 1 = sent | 2 = reply | 3 = time-out, station) *)
Definition short (c : call) : Z * Z * option Z :=
  match c with
  | CallTransmit i _ (Some (_, er)) => (Z.of_nat i, 1, er)
  | CallTransmit i _ None => (Z.of_nat i, 0, None)
  | CallReceiveReply i a _ => (Z.of_nat i, 2, Some a)
  | CallHandleTimeout i a => (Z.of_nat i, 3, Some a)
  end.

Definition nb (now : Z) := (now, mkPhyIn false []).
Definition bz (now : Z) := (now, mkPhyIn true []).
Definition demo_polls : list (Z * phy_in) :=
  [nb 100000; bz 100100; nb 110000; bz 110100; (120000, mkPhyIn false [229]); nb 130000; bz 130100; nb 150000; nb 160000;
   bz 160100; nb 170000; nb 180000; bz 180100; nb 200000; nb 210000; bz 210100; nb 230000; nb 240000].

Lemma demo_station_rep f0 : fdl_new demo_params = Ok f0 ->
  Rep 3 (demo_station f0) /\ AppsInv any_app any_ok any_waiting (demo_station f0) demo_apps.
Proof.
  intros E.
  assert (B : builder_valid demo_params) by (cbv; repeat split; congruence).
  destruct (fdl_new_rep 3 demo_params B) as [f0' (E' & R0 & _)]. rewrite E in E'. injection E' as <-.
  destruct (Rep_set_online 3 f0 R0) as (f1 & E1 & R1). injection E1 as <-.
  split.
  - unfold demo_station. apply Rep_set_hold; [|unfold time_ok; lia].
    apply Rep_set_lba; [|cbn; unfold lba_rng, T62, DMAX; lia].
    apply Rep_set_gap; [| |cbn; unfold time_ok; lia].
    + apply Rep_set_st; [exact R1|reflexivity|cbn; unfold time_ok; lia].
    + cbn. pose proof (bv_ranges _ (rep_p _ _ R1)). cbn in *. lia.
  - apply AppsInv_idle; [|discriminate]. destruct demo_master_rep as (D & _ & F).
    inversion F as [|? ? H1 F1]; subst. inversion F1 as [|? ? H2 F2]; subst. inversion F2 as [|? ? H3 F3]; subst.
    unfold demo_apps. constructor; [exact H1|]. constructor; [exact H2|]. constructor; [exact H3|constructor].
Qed.

Lemma demo_run :
  match fdl_new demo_params with
  | Ok f0 =>
      match polls (demo_station f0) demo_apps demo_polls with
      | Ok (f, apps, calls) =>
          map short calls =
            [(0, 1, None); (0, 1, Some 8); (0, 2, Some 8); (0, 1, Some 9); (0, 3, Some 9); (0, 0, None);
             (1, 1, Some 0); (1, 3, Some 0); (1, 0, None); (2, 1, Some 0); (2, 3, Some 0); (2, 0, None);
             (0, 1, Some 9); (0, 3, Some 9); (0, 0, None); (1, 1, Some 1); (1, 3, Some 1); (1, 0, None);
             (2, 1, Some 1)] /\
          f_state f = AwaitDataResponse 1 180000 (Some 0%nat)
      | _ => False
      end
  | _ => False
  end.
Proof. vm_compute. split; reflexivity. Qed.
