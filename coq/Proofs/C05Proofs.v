(* C05: poll is total under the representation invariant `Rep`.  One weakest-precondition lemma per
   helper and per `do_*` function of Model/Fdl.v: `Rep n f -> <entry state> -> w_tx w = None -> the
   call is Ok and Rep holds afterwards`; then poll_inner, poll, and histories by induction.  The two
   functions that call the applications are proved under the FdlApplication contract (`contract_of`). *)
From PB Require Import Common Tables FdlTables Telegram Phy TokenRing Params Fdl FdlProofs FdlStepProofs.
From PB Require Import LasOracle LasRep C02Proofs C09Proofs C10Proofs C16Proofs.

(* splits a goal that is a conjunction into its conjuncts (nothing else is split) *)
Ltac splits := repeat match goal with |- _ /\ _ => split end.

Definition wp {X : Type} (r : res X) (Q : X -> Prop) : Prop :=
  match r with Ok x => Q x | _ => False end.

Lemma wp_bind {X Y : Type} (r : res X) (k : X -> res Y) (P : X -> Prop) (Q : Y -> Prop) :
  wp r P -> (forall x, P x -> wp (k x) Q) -> wp (bind r k) Q.
Proof. destruct r as [x| |]; cbn; intros H K; try contradiction. apply K, H. Qed.

Lemma wp_mono {X : Type} (r : res X) (P Q : X -> Prop) : wp r P -> (forall x, P x -> Q x) -> wp r Q.
Proof. destruct r as [x| |]; cbn; intros H K; try contradiction. apply K, H. Qed.

Lemma wp_and {X : Type} (r : res X) (P Q : X -> Prop) :
  wp r P -> (forall x, r = Ok x -> Q x) -> wp r (fun x => P x /\ Q x).
Proof. destruct r as [x| |]; cbn; auto. Qed.

Lemma wp_ok {X : Type} (r : res X) (Q : X -> Prop) : wp r Q -> exists x, r = Ok x /\ Q x.
Proof. destruct r as [x| |]; cbn; intros H; try contradiction. exists x. split; [reflexivity|exact H]. Qed.

Lemma wp_of_eq {X : Type} (r : res X) (x : X) (Q : X -> Prop) : r = Ok x -> Q x -> wp r Q.
Proof. intros -> H. exact H. Qed.

Definition T62 : Z := 4611686018427387904.                 (* 2^62 *)
Definition DMAX : Z := 33554432000000.                     (* 2^25 bit times at 1 bit/s, in microseconds *)

Definition lba_rng (l : Z) : Prop := 0 <= l <= T62 + DMAX.
Definition lba_okR (o : option Z) : Prop := match o with Some l => lba_rng l | None => True end.

Lemma time_ok_T62 t : time_ok t <-> 0 <= t < T62.
Proof. unfold time_ok, T62. tauto. Qed.

Lemma btt_bound b n : 0 <= n <= 33554432 -> 0 <= bits_to_time b n <= DMAX.
Proof.
  intros Hn. unfold bits_to_time, DMAX.
  assert (Hr : 1 <= baud_to_rate b) by (destruct b; cbn; lia).
  split.
  - apply Z.div_pos; lia.
  - apply Z.div_le_upper_bound; [lia|]. nia.
Qed.

Lemma inst_add_ok i d : -DMAX <= i <= T62 + DMAX -> 0 <= d <= DMAX -> inst_add i d = Ok (i + d).
Proof.
  intros Hi Hd. unfold inst_add, i64_ok, T62, DMAX in *.
  destruct (Z.leb_spec (-9223372036854775808) (i + d)); [|lia].
  destruct (Z.leb_spec (i + d) 9223372036854775807); [|lia]. reflexivity.
Qed.

Lemma inst_sub_dur_ok i d : 0 <= i <= T62 + 2 * DMAX -> 0 <= d <= DMAX -> inst_sub_dur i d = Ok (i - d).
Proof.
  intros Hi Hd. unfold inst_sub_dur, i64_ok, T62, DMAX in *.
  destruct (Z.leb_spec (-9223372036854775808) (i - d)); [|lia].
  destruct (Z.leb_spec (i - d) 9223372036854775807); [|lia]. reflexivity.
Qed.

Lemma inst_diff_ok a b : 0 <= a <= T62 + DMAX -> 0 <= b <= T62 + DMAX -> inst_diff a b = Ok (Z.abs (a - b)).
Proof.
  intros Ha Hb. unfold inst_diff, i64_ok, T62, DMAX in *.
  destruct (Z.leb_spec (-9223372036854775808) (a - b)); [|lia].
  destruct (Z.leb_spec (a - b) 9223372036854775807); [|lia]. reflexivity.
Qed.

Definition ring_ok (r : ring) (a : Z) : Prop := wf r /\ r_ts r = a /\ nsps_ok r.

Lemma next_of_in l t : next_of l t = t \/ In (next_of l t) l.
Proof.
  unfold next_of. destruct (find (fun a => t <? a) l) as [x|] eqn:E.
  - right. apply find_some in E. tauto.
  - destruct l as [|x l]; [left; reflexivity|right; left; reflexivity].
Qed.

Lemma ring_ok_ns r a : ring_ok r a -> 0 <= a < 128 -> 0 <= r_ns r < 128.
Proof.
  intros (W & Ht & Hn & _) Ha. rewrite Hn, Ht.
  destruct (next_of_in (las_ones (r_las r)) a) as [->|H]; [exact Ha|].
  apply In_las_ones, active_range in H. unfold wf in W. rewrite W in H. exact H.
Qed.

Lemma ring_ok_step r a o : ring_ok r a -> 0 <= a < 128 ->
  match o with
  | OpW sa da => 0 <= sa /\ 0 <= da
  | OpC => True
  | OpN x | OpR x => 0 <= x < 128
  end ->
  exists r', step r o = Ok r' /\ ring_ok r' a.
Proof.
  intros (W & Ht & Hn) Ha Ho.
  destruct (step_total r o W) as [r' [E [W' T']]]; [rewrite Ht; exact Ha|exact Ho|].
  exists r'. split; [exact E|]. split; [exact W'|]. split; [congruence|].
  exact (step_nsps _ _ _ Hn E).
Qed.

Lemma witness_ring_ok r a sa da : ring_ok r a -> 0 <= a < 128 -> 0 <= sa -> 0 <= da ->
  exists r', witness r sa da = Ok r' /\ ring_ok r' a.
Proof. intros R Ha Hs Hd. exact (ring_ok_step r a (OpW sa da) R Ha (conj Hs Hd)). Qed.

Lemma set_next_station_ring_ok r a x : ring_ok r a -> 0 <= a < 128 -> 0 <= x < 128 ->
  exists r', set_next_station r x = Ok r' /\ ring_ok r' a.
Proof. intros R Ha Hx. exact (ring_ok_step r a (OpN x) R Ha Hx). Qed.

Lemma remove_station_ring_ok r a x : ring_ok r a -> 0 <= a < 128 -> 0 <= x < 128 ->
  exists r', remove_station r x = Ok r' /\ ring_ok r' a.
Proof. intros R Ha Hx. exact (ring_ok_step r a (OpR x) R Ha Hx). Qed.

Lemma claim_token_ring_ok r a : ring_ok r a -> ring_ok (claim_token r) a.
Proof. intros (W & Ht & Hn). split; [exact W|]. split; [exact Ht|exact Hn]. Qed.

Lemma ring_new_ring_ok a : 0 <= a < 128 -> exists r, ring_new a = Ok r /\ ring_ok r a.
Proof.
  intros Ha. destruct (ring_new_ok a Ha) as [r [E [W [T [S [N [P O]]]]]]].
  exists r. split; [exact E|]. split; [exact W|]. split; [exact T|].
  unfold nsps_ok. rewrite O, N, P, T. unfold next_of, prev_of. cbn.
  destruct (Z.ltb_spec a a); [lia|]. split; reflexivity.
Qed.

Definition gap_ok (p : params) (g : gap_state) : Prop :=
  match g with
  | GapWaiting rc => 0 <= rc <= p_gap_wait p + 1
  | GapDoPoll c => 0 <= c < p_hsa p
  end.

Definition sr_ok (o : option Z) : Prop := match o with Some a => 0 <= a < 128 | None => True end.

Definition st_ok (n : nat) (p : params) (g : gap_state) (na : nat) (s : state) : Prop :=
  match s with
  | Offline => True
  | PassiveIdle => False                                  (* set_passive is todo!() *)
  | ListenToken sr cc => sr_ok sr /\ 0 <= cc <= 1
  | ActiveIdle sr _ cc => sr_ok sr /\ 0 <= cc <= 1
  | UseToken tk _ _ => time_ok tk
  | ClaimToken (StepScanAwaitResponse a) => g = GapDoPoll a /\ a <> p_address p
  | ClaimToken _ => True
  | AwaitDataResponse _ tk _ => time_ok tk /\ (na < n)%nat
  | PassToken _ _ => True
  | CheckTokenPass _ => True
  | AwaitStatusResponse a => g = GapDoPoll a /\ a <> p_address p
  end.

(* connectivity against the state: the legality of the prologue of poll_inner *)
Definition conn_ok (c : conn_state) (s : state) : Prop :=
  match s with
  | Offline => c <> ConnPassive
  | PassiveIdle => False
  | _ => c = ConnOnline
  end.

Record Rep (n : nat) (f : fdl) : Prop := mkRep {
  rep_p : builder_valid (f_p f);
  rep_ring : ring_ok (f_ring f) (ts f);
  rep_conn : conn_ok (f_conn f) (f_state f);
  rep_gap : gap_ok (f_p f) (f_gap f);
  rep_st : st_ok n (f_p f) (f_gap f) (f_next_app f) (f_state f);
  rep_lba : lba_okR (f_lba f);
  rep_ltt : time_ok (f_last_token_time f);
  rep_na : (f_next_app f < n)%nat \/ n = 0%nat
}.

Lemma bv_ranges p : builder_valid p ->
  0 <= p_address p <= 125 /\ p_address p < p_hsa p <= 126 /\ 0 <= p_slot_bits p < 65536 /\
  0 <= p_ttr_bits p <= 16777960 /\ 1 <= p_gap_wait p <= 100.
Proof.
  unfold builder_valid, builder_max_address, builder_max_hsa, builder_min_ttr, builder_max_ttr,
    builder_min_gap, builder_max_gap.
  intros (Ha & Hs & Ht & Hg & Hh & _).
  assert (0 <= min_slot_bits (p_baud p)) by (destruct (p_baud p); cbn; lia).
  lia.
Qed.

Lemma Rep_ts n f : Rep n f -> 0 <= ts f <= 125 /\ ts f < p_hsa (f_p f) <= 126.
Proof. intros R. pose proof (bv_ranges _ (rep_p _ _ R)). unfold ts. lia. Qed.

Lemma Rep_set_st n f s : Rep n f -> conn_ok (f_conn f) s -> st_ok n (f_p f) (f_gap f) (f_next_app f) s ->
  Rep n (set_st f s).
Proof. intros [] C S. constructor; cbn; assumption. Qed.

Lemma Rep_set_ring n f r : Rep n f -> ring_ok r (ts f) -> Rep n (set_ring f r).
Proof. intros [] H. constructor; cbn; assumption. Qed.

Lemma Rep_set_gap n f g : Rep n f -> gap_ok (f_p f) g -> st_ok n (f_p f) g (f_next_app f) (f_state f) ->
  Rep n (set_gap f g).
Proof. intros [] G S. constructor; cbn; assumption. Qed.

Lemma Rep_set_lba n f o : Rep n f -> lba_okR o -> Rep n (set_lba f o).
Proof. intros [] H. constructor; cbn; assumption. Qed.

Lemma Rep_set_pending n f k : Rep n f -> Rep n (set_pending f k).
Proof. intros []. constructor; cbn; assumption. Qed.

Lemma Rep_set_hold n f a b : Rep n f -> time_ok a -> Rep n (set_hold f a b).
Proof. intros [] H. constructor; cbn; assumption. Qed.

Lemma Rep_set_next_app n f k : Rep n f -> (k < n)%nat ->
  kind_of (f_state f) <> KAwaitDataResponse -> Rep n (set_next_app f k).
Proof.
  intros [] H K. constructor; cbn; try assumption; [|left; exact H].
  destruct (f_state f); cbn in *; try assumption. contradiction K. reflexivity.
Qed.

Lemma Rep_same n f f' : Rep n f -> same_but_lba f f' -> lba_okR (f_lba f') -> Rep n f'.
Proof.
  intros [] (Hp & Hr & Hc & Hg & Hs & _ & Hl & _ & Hn) L.
  constructor; unfold ts in *; rewrite ?Hp, ?Hr, ?Hc, ?Hg, ?Hs, ?Hl, ?Hn; assumption.
Qed.

Lemma Rep_online n f : Rep n f -> kind_of (f_state f) <> KOffline -> f_conn f = ConnOnline.
Proof.
  intros R K. pose proof (rep_conn _ _ R) as C. destruct (f_state f); cbn in *; try assumption; try contradiction.
Qed.

(* entering a state from any state but Offline: the station is online *)
Lemma Rep_goto n f s : Rep n f -> kind_of (f_state f) <> KOffline ->
  st_ok n (f_p f) (f_gap f) (f_next_app f) s -> Rep n (set_st f s).
Proof.
  intros R K S. apply Rep_set_st; [exact R| |exact S]. rewrite (Rep_online n f R K).
  destruct s; try reflexivity; [discriminate|contradiction].
Qed.

(* "same but last_bus_activity and pending_bytes" *)
Definition sb (f f' : fdl) : Prop :=
  f_p f' = f_p f /\ f_ring f' = f_ring f /\ f_conn f' = f_conn f /\ f_gap f' = f_gap f /\
  f_state f' = f_state f /\ f_last_token_time f' = f_last_token_time f /\
  f_end_tht f' = f_end_tht f /\ f_next_app f' = f_next_app f.

Lemma sb_refl f : sb f f.
Proof. unfold sb. repeat split; reflexivity. Qed.
Lemma sb_trans f g h : sb f g -> sb g h -> sb f h.
Proof. unfold sb. intuition congruence. Qed.
Lemma sb_of_same f f' : same_but_lba f f' -> sb f f'.
Proof. unfold same_but_lba, sb. intuition. Qed.
Lemma sb_state f f' : sb f f' -> f_state f' = f_state f.
Proof. unfold sb. tauto. Qed.
Lemma sb_gap f f' : sb f f' -> f_gap f' = f_gap f.
Proof. unfold sb. tauto. Qed.
Lemma sb_p f f' : sb f f' -> f_p f' = f_p f.
Proof. unfold sb. tauto. Qed.
Lemma sb_ts f f' : sb f f' -> ts f' = ts f.
Proof. unfold sb, ts. intros (-> & _). reflexivity. Qed.
Lemma sb_ring f f' : sb f f' -> f_ring f' = f_ring f.
Proof. unfold sb. tauto. Qed.
Lemma sb_conn f f' : sb f f' -> f_conn f' = f_conn f.
Proof. unfold sb. tauto. Qed.
Lemma sb_na f f' : sb f f' -> f_next_app f' = f_next_app f.
Proof. unfold sb. tauto. Qed.
Lemma sb_ltt f f' : sb f f' -> f_last_token_time f' = f_last_token_time f.
Proof. unfold sb. tauto. Qed.
Lemma sb_tht f f' : sb f f' -> f_end_tht f' = f_end_tht f.
Proof. unfold sb. tauto. Qed.

Lemma Rep_sb n f f' : Rep n f -> sb f f' -> lba_okR (f_lba f') -> Rep n f'.
Proof.
  intros [] (Hp & Hr & Hc & Hg & Hs & Hl & _ & Hn) L.
  constructor; unfold ts in *; rewrite ?Hp, ?Hr, ?Hc, ?Hg, ?Hs, ?Hl, ?Hn; assumption.
Qed.

Lemma time_ok_lba t : time_ok t -> lba_rng t.
Proof. unfold time_ok, lba_rng, T62, DMAX. lia. Qed.

Lemma goi_rep n f now l f1 : Rep n f -> time_ok now -> lba_get_or_insert f now = (l, f1) ->
  Rep n f1 /\ sb f f1 /\ f_lba f1 = Some l /\ lba_rng l.
Proof.
  intros R Tn E. apply lba_get_or_insert_same in E. destruct E as (S & L & M).
  assert (Hl : lba_rng l).
  { pose proof (rep_lba _ _ R) as B. destruct (f_lba f) as [l0|]; subst l; [exact B|apply time_ok_lba, Tn]. }
  apply sb_of_same in S. split; [|tauto].
  apply (Rep_sb n f f1 R S). rewrite L. exact Hl.
Qed.

Lemma mark_bus_activity_rep n f now : Rep n f -> time_ok now ->
  Rep n (mark_bus_activity f now) /\ sb f (mark_bus_activity f now).
Proof.
  intros R Tn. unfold mark_bus_activity. destruct (lba_get_or_insert f now) as [l f1] eqn:E.
  destruct (goi_rep n f now l f1 R Tn E) as (R1 & S1 & L1 & B1).
  split.
  - apply Rep_set_lba; [exact R1|]. cbn. pose proof (time_ok_lba _ Tn). unfold lba_rng in *. lia.
  - eapply sb_trans; [exact S1|]. unfold sb. cbn. repeat split; reflexivity.
Qed.

Lemma mark_rx_rep n f now : Rep n f -> time_ok now -> Rep n (mark_rx f now) /\ sb f (mark_rx f now).
Proof.
  intros R Tn. unfold mark_rx.
  destruct (mark_bus_activity_rep n (set_pending f 0) now (Rep_set_pending _ _ _ R) Tn) as (R1 & S1).
  split; [exact R1|]. eapply sb_trans; [|exact S1]. unfold sb. cbn. repeat split; reflexivity.
Qed.

Lemma sync_pending_rep n A f (w : world A) : Rep n f -> Rep n (sync_pending_bytes A f w) /\ sb f (sync_pending_bytes A f w).
Proof.
  intros R. unfold sync_pending_bytes. split; [apply Rep_set_pending, R|]. unfold sb. cbn. repeat split; reflexivity.
Qed.

Lemma bv_sync n f : Rep n f -> 0 <= p_bits_to_time (f_p f) sync_pause_bits <= DMAX.
Proof. intros _. apply btt_bound. unfold sync_pause_bits. lia. Qed.

Lemma bv_slot n f : Rep n f -> 0 <= slot_time (f_p f) <= DMAX.
Proof. intros R. pose proof (bv_ranges _ (rep_p _ _ R)). apply btt_bound. lia. Qed.

Lemma wait_sync_wp n f now : Rep n f -> time_ok now ->
  wp (wait_synchronization_pause f now) (fun x => Rep n (fst x) /\ sb f (fst x)).
Proof.
  intros R Tn. unfold wait_synchronization_pause. destruct (lba_get_or_insert f now) as [l f1] eqn:E.
  destruct (goi_rep n f now l f1 R Tn E) as (R1 & S1 & L1 & B1).
  rewrite inst_add_ok; [|unfold lba_rng, DMAX in *; lia|apply (bv_sync n), R1].
  cbn. tauto.
Qed.

Lemma check_slot_wp n f now : Rep n f -> time_ok now ->
  wp (check_slot_expired f now) (fun x => Rep n (fst x) /\ sb f (fst x)).
Proof.
  intros R Tn. unfold check_slot_expired. destruct (lba_get_or_insert f now) as [l f1] eqn:E.
  destruct (goi_rep n f now l f1 R Tn E) as (R1 & S1 & L1 & B1).
  rewrite inst_add_ok; [|unfold lba_rng, DMAX in *; lia|apply (bv_slot n), R1].
  cbn. tauto.
Qed.

Lemma mark_tx_wp n f now k : Rep n f -> time_ok now -> Z.of_nat k <= 65536 ->
  wp (mark_tx f now k) (fun f1 => Rep n f1 /\ sb f f1).
Proof.
  intros R Tn Hk. unfold mark_tx, bits_per_byte.
  destruct (Z.ltb_spec 4294967295 (Z.of_nat k)); [lia|].
  destruct (Z.ltb_spec 4294967295 (11 * Z.of_nat k)); [lia|].
  pose proof (btt_bound (p_baud (f_p f)) (11 * Z.of_nat k) ltac:(lia)) as B.
  rewrite inst_add_ok; [|unfold time_ok, T62, DMAX in *; lia|exact B].
  cbn [bind wp]. split.
  - apply Rep_set_lba; [exact R|]. cbn [lba_okR]. unfold lba_rng, time_ok, T62 in *. lia.
  - unfold sb. cbn. repeat split; reflexivity.
Qed.

Lemma all_bytes_skipn k (l : bytes) : all_bytes l -> all_bytes (skipn k l).
Proof. intros H. unfold all_bytes in *. rewrite <- (firstn_skipn k l) in H. apply Forall_app in H. tauto. Qed.

Definition wf_tel (t : telegram) : Prop :=
  match t with
  | TData h _ => wf_header h
  | TToken da sa => 0 <= da < 256 /\ 0 <= sa < 256
  | TShortConf => True
  end.

Lemma decode_wf_tel buf t k : all_bytes buf -> decode buf = Ok (Accept t k) -> wf_tel t.
Proof.
  intros Hb D. destruct t as [h pdu|da sa|]; cbn.
  - apply (accept_criterion buf h pdu k Hb D).
  - apply decode_view', view_accept_token in D. destruct D as (_ & tl & ->).
    pose proof (Forall_inv (Forall_inv_tail Hb)) as B1.
    pose proof (Forall_inv (Forall_inv_tail (Forall_inv_tail Hb))) as B2.
    unfold is_byte in *. lia.
  - exact I.
Qed.

Lemma receive_telegram_wp (buf : bytes) : all_bytes buf ->
  wp (receive_telegram (fun t => t) buf)
     (fun x => all_bytes (fst x) /\ match snd x with Some t => wf_tel t | None => True end).
Proof.
  intros Hb. unfold receive_telegram. destruct (decode_total buf) as [d D]. rewrite D. cbn [bind].
  destruct d as [ | |t k]; cbn; [auto|split; [constructor|exact I]|].
  split; [apply all_bytes_skipn, Hb|exact (decode_wf_tel _ _ _ Hb D)].
Qed.

(* receive_all over a byte buffer: invariant I while more telegrams follow, J after the last *)
Lemma receive_all_wp {S R : Type} (cb : S -> telegram -> bool -> res (S * R)) (I J : S -> Prop) :
  (forall s t, I s -> wf_tel t -> wp (cb s t false) (fun x => I (fst x))) ->
  (forall s t, I s -> wf_tel t -> wp (cb s t true) (fun x => J (fst x))) ->
  (forall s, I s -> J s) ->
  forall fuel buf s, (length buf < fuel)%nat -> all_bytes buf -> I s ->
  wp (receive_all cb fuel s buf) (fun x => J (fst (fst x)) /\ all_bytes (snd (fst x))).
Proof.
  intros Hf Ht HIJ. induction fuel as [|fuel IH]; intros buf s Hl Hb Hi; [lia|].
  cbn [receive_all]. destruct (decode_total buf) as [d D]. rewrite D. cbn [bind].
  destruct d as [ | |t k].
  - cbn. split; [apply HIJ, Hi|exact Hb].
  - cbn. split; [apply HIJ, Hi|constructor].
  - pose proof (decode_wf_tel buf t k Hb D) as Wt.
    pose proof (decode_accept_bounds _ _ _ D) as Bk.
    destruct (Nat.eqb k (length buf)).
    + eapply wp_bind; [apply Ht; assumption|]. intros [s' r] Hj. cbn in *.
      split; [exact Hj|apply all_bytes_skipn, Hb].
    + eapply wp_bind; [apply Hf; assumption|]. intros [s' r] Hi'. cbn [fst] in Hi'.
      apply IH; [rewrite skipn_length; lia|apply all_bytes_skipn, Hb|exact Hi'].
Qed.

Section WithApps.
Variable A : Type.
Variable ops : app_ops A.
Variable AI : A -> Prop.
Variable AW : A -> Z -> Prop.
Variable n : nat.
Notation W := (world A).

Definition Winv (w : W) : Prop := all_bytes (w_rx w) /\ length (w_apps w) = n.
Definition wkeep (w w1 : W) : Prop := w_tx w1 = w_tx w /\ w_rx w1 = w_rx w /\ w_apps w1 = w_apps w.

Lemma wkeep_refl w : wkeep w w. Proof. unfold wkeep. tauto. Qed.
Lemma wkeep_trans a b c : wkeep a b -> wkeep b c -> wkeep a c.
Proof. unfold wkeep. intuition congruence. Qed.
Lemma wkeep_note w t : wkeep w (note A w t). Proof. unfold wkeep. cbn. tauto. Qed.
Lemma wkeep_Winv w w1 : wkeep w w1 -> Winv w -> Winv w1.
Proof. unfold wkeep, Winv. intros (_ & -> & ->). tauto. Qed.
Lemma wkeep_tx w w1 : wkeep w w1 -> w_tx w = None -> w_tx w1 = None.
Proof. unfold wkeep. intros (-> & _). tauto. Qed.
Lemma Winv_note w t : Winv w -> Winv (note A w t). Proof. exact (wkeep_Winv _ _ (wkeep_note w t)). Qed.

Definition PostRW (x : fdl * W) : Prop := Rep n (fst x) /\ Winv (snd x).

Lemma trans_ok (f : fdl) (w : W) t s' : t (f_state f) = Ok s' ->
  trans A f w t = Ok (set_st f s', note A w (TTrans (kind_of (f_state f)) (kind_of s'))).
Proof. unfold trans. intros ->. reflexivity. Qed.

Lemma trans_wp f (w : W) t s' : Rep n f -> Winv w -> kind_of (f_state f) <> KOffline ->
  t (f_state f) = Ok s' -> st_ok n (f_p f) (f_gap f) (f_next_app f) s' ->
  wp (trans A f w t) (fun x => fst x = set_st f s' /\ PostRW x /\ wkeep w (snd x)).
Proof.
  intros R Wi K E S. rewrite (trans_ok f w t s' E). cbn.
  split; [reflexivity|]. split; [|apply wkeep_note]. split; [apply Rep_goto; assumption|apply Winv_note, Wi].
Qed.

Lemma trans_post f (w : W) t s' : Rep n f -> Winv w -> kind_of (f_state f) <> KOffline ->
  t (f_state f) = Ok s' -> st_ok n (f_p f) (f_gap f) (f_next_app f) s' -> wp (trans A f w t) PostRW.
Proof. intros. eapply wp_mono; [apply (trans_wp f w t s'); assumption|]. cbn beta. tauto. Qed.

Lemma phy_send_data_wp (w : W) h : w_tx w = None -> Winv w -> wf_header h -> h_dsap h = None -> h_ssap h = None ->
  wp (phy_send A w (TxData h [])) (fun x => Winv (fst x) /\ Z.of_nat (snd x) <= 65536).
Proof.
  intros Hw Wi Hh Hd Hs. unfold phy_send, transmit.
  assert (Hlb : length_byte h (@length Z []) = 3%nat) by (unfold length_byte; rewrite Hd, Hs; reflexivity).
  assert (Htl : telegram_len_data h (@length Z []) = 6%nat) by (unfold telegram_len_data; rewrite Hlb; reflexivity).
  rewrite encode_data_in_spec; [|exact Hh|rewrite Hlb; lia|rewrite Htl; unfold tx_buffer_size; lia].
  cbn [bind]. unfold phy_transmit. rewrite Hw. cbn [bind wp fst snd].
  split; [exact Wi|]. rewrite frame_spec_length, Htl. lia.
Qed.

Lemma phy_send_status_wp (w : W) da sa fc : w_tx w = None -> Winv w -> 0 <= da < 128 -> 0 <= sa < 128 ->
  wp (phy_send A w (TxData (mkHeader da sa None None fc) [])) (fun x => Winv (fst x) /\ Z.of_nat (snd x) <= 65536).
Proof.
  intros Hw Wi Hd Hs. apply phy_send_data_wp; try assumption; try reflexivity.
  unfold wf_header, is_addr7, wf_sap. cbn. lia.
Qed.

Lemma phy_send_token_wp (w : W) da sa : w_tx w = None -> Winv w ->
  wp (phy_send A w (TxToken da sa)) (fun x => Winv (fst x) /\ Z.of_nat (snd x) <= 65536).
Proof.
  intros Hw Wi. unfold phy_send, transmit.
  replace (Nat.ltb tx_buffer_size 3) with false by reflexivity. cbn [bind].
  unfold phy_transmit. rewrite Hw. cbn. split; [exact Wi|lia].
Qed.

(* the GAP cursor, if any, is not the own address: what transmit_gap_poll_if_pending asserts *)
Definition gap_fresh (f : fdl) : Prop :=
  match f_gap f with GapDoPoll a => a <> ts f | GapWaiting _ => True end.

(* ngp / tgp / agp: next_gap_poll_traced, transmit_gap_poll_if_pending, await_gap_poll_response *)
Lemma ngp_wp f (w : W) cur : Rep n f -> 0 <= cur < p_hsa (f_p f) ->
  (forall g, st_ok n (f_p f) g (f_next_app f) (f_state f)) ->
  wp (next_gap_poll_traced A f w cur)
     (fun x => (exists g, fst x = set_gap f g) /\ Rep n (fst x) /\ gap_fresh (fst x) /\ wkeep w (snd x)).
Proof.
  intros R Hc Hst. unfold next_gap_poll_traced.
  pose proof (Rep_ts n f R) as Hts. pose proof (bv_ranges _ (rep_p _ _ R)) as Hbv.
  destruct (next_gap_poll_total f cur) as [g E]; [lia|exact Hc|]. rewrite E. cbn [bind wp fst snd].
  split; [exists g; reflexivity|]. split; [|split; [|apply wkeep_note]].
  - apply Rep_set_gap; [exact R| |apply Hst]. destruct g as [k|a]; cbn.
    + apply next_gap_poll_waiting in E. lia.
    + apply next_gap_poll_in_gap in E. apply E, Hc.
  - unfold gap_fresh. cbn. destruct g as [k|a]; [exact I|]. apply next_gap_poll_in_gap in E. tauto.
Qed.

Lemma tgp_wp f now (w : W) : Rep n f -> time_ok now -> w_tx w = None -> Winv w -> gap_fresh f ->
  wp (transmit_gap_poll_if_pending A f now w)
     (fun x => let '(f1, w1, polled) := x in Rep n f1 /\ sb f f1 /\ Winv w1 /\
        match polled with Some a => f_gap f = GapDoPoll a /\ a <> ts f | None => w_tx w1 = None end).
Proof.
  intros R Tn Hw Wi Hf. unfold transmit_gap_poll_if_pending. unfold gap_fresh in Hf.
  pose proof (rep_gap _ _ R) as G. pose proof (Rep_ts n f R) as Hts.
  destruct (f_gap f) as [k|c] eqn:Eg; [cbn; auto using sb_refl|].
  cbn in G. destruct (Z.eqb_spec c (ts f)) as [C|_]; [contradiction|].
  eapply wp_bind; [apply phy_send_status_wp; [exact Hw|exact Wi|lia|lia]|].
  intros [w1 k] (Wi1 & Hk). cbn [fst snd] in *.
  eapply wp_bind; [apply (mark_tx_wp n); [exact R|exact Tn|exact Hk]|].
  intros f1 (R1 & S1). cbn. tauto.
Qed.

Lemma agp_wp f now (w : W) a : Rep n f -> time_ok now -> Winv w -> f_gap f = GapDoPoll a -> a <> ts f ->
  wp (await_gap_poll_response A f now w a)
     (fun x => let '(f1, w1, r) := x in
        Rep n f1 /\ f_state f1 = f_state f /\ f_gap f1 = GapDoPoll a /\ w_tx w1 = w_tx w /\ Winv w1).
Proof.
  intros R Tn (Wb & Wa) Eg Ha. unfold await_gap_poll_response.
  destruct (Z.eqb_spec a (ts f)) as [C|_]; [contradiction|]. rewrite Eg, Z.eqb_refl. cbn [negb].
  eapply wp_bind; [apply receive_telegram_wp, Wb|]. intros [rest received] (Hr & Wt). cbn [fst snd] in *. cbv zeta.
  assert (Wi1 : forall (w0 : W) tg, w_apps w0 = w_apps w -> Winv (note A (set_rx A w0 rest) tg))
    by (intros w0 tg E; split; cbn; [exact Hr|rewrite E; exact Wa]).
  destruct received as [t|].
  - destruct (mark_rx_rep n f now R Tn) as (R1 & S1).
    pose proof (sb_state _ _ S1) as Hst. pose proof (sb_gap _ _ S1) as Hg. rewrite Eg in Hg.
    destruct t as [[da sa ds ss fc] pdu|da sa|]; [destruct fc as [fb rq|st status]| |].
    2: destruct ((sa =? a) && _); [destruct (_ && _)|].
    2: { destruct (set_next_station_ring_ok (f_ring (mark_rx f now)) (ts (mark_rx f now)) a) as [r' [Er Rr]];
           [exact (rep_ring _ _ R1)|rewrite (sb_ts _ _ S1); pose proof (Rep_ts n f R); lia
           |pose proof (rep_gap _ _ R) as G; rewrite Eg in G; cbn in G; pose proof (Rep_ts n f R); lia|].
         rewrite Er. cbn [bind wp]. splits; try assumption; try reflexivity; [apply Rep_set_ring; assumption|auto]. }
    all: cbn [wp]; splits; try assumption; try reflexivity; auto.
  - match goal with |- context [sync_pending_bytes A f ?w'] => set (w1 := w') end.
    assert (Hw1 : w_tx w1 = w_tx w /\ Winv w1)
      by (subst w1; destruct (Nat.ltb _ _); (split; [reflexivity|split; [exact Hr|exact Wa]])).
    clearbody w1. destruct Hw1 as (Hw1 & Wi2). destruct (sync_pending_rep n A f w1 R) as (R1 & S1).
    eapply wp_bind; [apply (check_slot_wp n); [exact R1|exact Tn]|].
    intros [f2 ex] (R2 & S2). cbn [fst] in *.
    assert (Hst : f_state f2 = f_state f) by (rewrite (sb_state _ _ S2), (sb_state _ _ S1); reflexivity).
    assert (Hg : f_gap f2 = GapDoPoll a) by (rewrite (sb_gap _ _ S2), (sb_gap _ _ S1); exact Eg).
    destruct ex; cbn [wp]; splits; auto using Winv_note.
Qed.

Lemma set_claim_step_ok f s0 s : f_state f = ClaimToken s0 -> set_claim_step f s = Ok (set_st f (ClaimToken s)).
Proof. unfold set_claim_step. intros ->. reflexivity. Qed.

Lemma do_claim_token_scan_wp f now (w : W) : Rep n f -> time_ok now -> w_tx w = None -> Winv w ->
  f_state f = ClaimToken StepScan ->
  wp (do_claim_token_scan A f now w) PostRW.
Proof.
  intros R Tn Hw Wi Hs. unfold do_claim_token_scan, PostRW.
  eapply wp_bind; [apply (wait_sync_wp n); assumption|].
  intros [f1 wait] (R1 & S1). cbn [fst] in *.
  assert (Hs1 : f_state f1 = ClaimToken StepScan) by (rewrite (sb_state _ _ S1); exact Hs).
  assert (K1 : kind_of (f_state f1) <> KOffline) by (rewrite Hs1; discriminate).
  destruct wait; [cbn; split; [exact R1|apply Winv_note, Wi]|].
  destruct (f_gap f1) as [rc|cur] eqn:G.
  - eapply wp_bind; [apply (trans_wp f1 _ _ (PassToken false AttFirst)); [exact R1|apply Winv_note, Wi|exact K1|rewrite Hs1; reflexivity|exact I]|].
    intros [f2 w2] (_ & P & _). exact P.
  - eapply wp_bind.
    + apply ngp_wp; [exact R1|pose proof (rep_gap _ _ R1) as G1; rewrite G in G1; exact G1|].
      intros g. rewrite Hs1. exact I.
    + intros [f2 w2] ((g & E) & R2 & F2 & K2). cbn [fst snd] in *.
      eapply wp_bind; [apply tgp_wp; [exact R2|exact Tn|exact (wkeep_tx _ _ K2 Hw)|exact (wkeep_Winv _ _ K2 Wi)|exact F2]|].
      intros [[f3 w3] polled] (R3 & S3 & W3 & P).
      assert (Hs3 : f_state f3 = ClaimToken StepScan) by (rewrite (sb_state _ _ S3), E; exact Hs1).
      destruct polled as [a|]; [|cbn; split; [exact R3|apply Winv_note, W3]].
      rewrite (set_claim_step_ok f3 StepScan) by exact Hs3. cbn [bind wp fst snd].
      split; [|apply Winv_note, W3]. apply Rep_goto; [exact R3|rewrite Hs3; discriminate|].
      cbn. rewrite (sb_gap _ _ S3), (sb_p _ _ S3). exact P.
Qed.

Lemma do_claim_token_wp f now (w : W) : Rep n f -> time_ok now -> w_tx w = None -> Winv w ->
  kind_of (f_state f) = KClaimToken ->
  wp (do_claim_token A f now w) PostRW.
Proof.
  intros R Tn Hw Wi Hk. destruct (f_state f) as [| | | | |step| | | |] eqn:Hs; try discriminate Hk.
  unfold do_claim_token, assert_entry. rewrite Hs. cbn [kind_of do_fn_entry state_kind_eqb bind get_claim_token_step].
  pose proof (Rep_ts n f R) as Hts.
  assert (First : forall nxt, nxt = StepSecondToken \/ nxt = StepScan ->
    wp (let* (f0, wait) := wait_synchronization_pause f now in
        if wait then Ok (f0, note A w TSyncWait) else
        let* (w0, n0) := phy_send A w (TxToken (ts f0) (ts f0)) in
        let* f1 := set_claim_step (set_ring f0 (claim_token (f_ring f0))) nxt in
        let* f2 := mark_tx (set_gap f1 (GapDoPoll (ts f1))) now n0 in
        Ok (f2, note A w0 TClaimSendToken)) PostRW).
  { intros nxt Hn. unfold PostRW.
    eapply wp_bind; [apply (wait_sync_wp n); assumption|].
    intros [f1 wait] (R1 & S1). cbn [fst] in *.
    assert (Hs1 : f_state f1 = ClaimToken step) by (rewrite (sb_state _ _ S1); exact Hs).
    destruct wait; [cbn; split; [exact R1|apply Winv_note, Wi]|].
    eapply wp_bind; [apply phy_send_token_wp; assumption|].
    intros [w1 k] (W1 & Hk1). cbn [fst snd] in *.
    rewrite (set_claim_step_ok _ step) by exact Hs1. cbn [bind].
    assert (Sn : forall g, st_ok n (f_p f1) g (f_next_app f1) (ClaimToken nxt)) by (destruct Hn as [-> | ->]; exact (fun _ => I)).
    eapply wp_bind.
    - apply (mark_tx_wp n); [|exact Tn|exact Hk1]. apply Rep_set_gap; [|unfold ts in *; cbn; rewrite (sb_p _ _ S1); lia|apply Sn].
      apply Rep_goto; [apply Rep_set_ring; [exact R1|apply claim_token_ring_ok, (rep_ring _ _ R1)]|cbn; rewrite Hs1; discriminate|apply Sn].
    - intros f2 (R2 & S2). cbn. split; [exact R2|apply Winv_note, W1]. }
  destruct step as [ | | |a].
  - apply First. left. reflexivity.
  - apply First. right. reflexivity.
  - apply do_claim_token_scan_wp; assumption.
  - pose proof (rep_st _ _ R) as St. rewrite Hs in St. cbn in St. destruct St as (Eg & Ha).
    eapply wp_bind; [apply agp_wp; [exact R|exact Tn|exact Wi|exact Eg|exact Ha]|].
    intros [[f1 w1] r] (R1 & St1 & G1 & Tx1 & W1). rewrite Hs in St1.
    assert (K1 : kind_of (f_state f1) <> KOffline) by (rewrite St1; discriminate).
    pose proof (Rep_goto n f1 (ClaimToken StepScan) R1 K1 I) as Rs.
    destruct r.
    + cbn. split; assumption.
    + rewrite (set_claim_step_ok f1 (StepScanAwaitResponse a)) by exact St1. cbn [bind].
      apply do_claim_token_scan_wp; [exact Rs|exact Tn|congruence|exact W1|reflexivity].
    + rewrite (set_claim_step_ok f1 (StepScanAwaitResponse a)) by exact St1. split; assumption.
    + apply (trans_post f1 _ _ (ActiveIdle None None 0)); [exact R1|exact W1|exact K1|rewrite St1; reflexivity|cbn; lia].
Qed.

Lemma handle_lost_token_wp f now (w : W) : Rep n f -> time_ok now -> w_tx w = None -> Winv w ->
  kind_of (f_state f) = KListenToken \/ kind_of (f_state f) = KActiveIdle ->
  wp (handle_lost_token A f now w)
     (fun x => let '(f1, w1, done) := x in Rep n f1 /\ Winv w1 /\ (done = false -> sb f f1 /\ w1 = w)).
Proof.
  intros R Tn Hw Wi Hk. unfold handle_lost_token.
  destruct (lba_get_or_insert f now) as [l f1] eqn:E.
  destruct (goi_rep n f now l f1 R Tn E) as (R1 & S1 & L1 & B1).
  rewrite inst_diff_ok; [|apply time_ok_lba, Tn|exact B1]. cbn [bind].
  destruct (token_lost_timeout (f_p f1) <=? Z.abs (now - l)); [|cbn; auto].
  rewrite <- (sb_state _ _ S1) in Hk.
  eapply wp_bind.
  - apply (trans_wp f1 _ _ (ClaimToken StepFirstToken)); [exact R1|apply Winv_note, Wi| | |exact I].
    + destruct Hk as [-> | ->]; discriminate.
    + unfold transition_claim_token, assert_kind. destruct Hk as [-> | ->]; reflexivity.
  - intros [f2 w2] (E2 & (R2 & W2) & T2). cbn [fst snd] in *. subst f2.
    eapply wp_bind; [apply do_claim_token_wp; [exact R2|exact Tn|exact (wkeep_tx _ _ T2 Hw)|exact W2|reflexivity]|].
    intros [f3 w3] (R3 & W3). cbn. split; [exact R3|]. split; [exact W3|discriminate].
Qed.

Lemma fdl_new_rep p : builder_valid p ->
  exists f0, fdl_new p = Ok f0 /\ Rep n f0 /\ f_conn f0 = ConnOffline /\ f_state f0 = Offline /\ f_p f0 = p.
Proof.
  intros B. pose proof (bv_ranges _ B) as Hr. unfold fdl_new.
  destruct (Z.leb_spec (p_address p) 127); [|lia]. destruct (Z.leb_spec (p_hsa p) 126); [|lia]. cbn [negb].
  destruct (ring_new_ring_ok (p_address p)) as [r [E Rr]]; [lia|]. rewrite E. cbn [bind].
  eexists. split; [reflexivity|]. split; [|cbn; tauto].
  constructor; cbn; try assumption; try discriminate; try exact I.
  - lia.
  - unfold time_ok. lia.
  - destruct n; [right; reflexivity|left; lia].
Qed.

(* loop invariant of the receive closure of do_listen_token: listening, or offline after a collision *)
Definition I_listen (s : fdl * W) : Prop :=
  Rep n (fst s) /\ Winv (snd s) /\ (f_conn (fst s) = ConnOffline \/ kind_of (f_state (fst s)) = KListenToken).

Lemma listen_token_telegram_wp now s t il : time_ok now -> I_listen s -> wf_tel t ->
  wp (listen_token_telegram A now s t il) (fun x => I_listen (fst x)).
Proof.
  intros Tn (R & Wi & Hk) Wt. destruct s as [f w]. cbn [fst snd] in *. unfold listen_token_telegram.
  destruct (mark_rx_rep n f now R Tn) as (R1 & S1).
  rewrite <- (sb_conn _ _ S1), <- (sb_state _ _ S1) in Hk.
  set (f1 := mark_rx f now) in *. clearbody f1.
  pose proof (Rep_ts n f1 R1) as Hts.
  assert (Q : forall f2 tg, Rep n f2 -> f_conn f2 = ConnOffline \/ kind_of (f_state f2) = KListenToken ->
              I_listen (f2, note A w tg)) by (intros; split; [|split; [apply Winv_note, Wi|]]; assumption).
  destruct (f_conn f1) eqn:Ec.
  - apply Q; auto.
  - exfalso. pose proof (rep_conn _ _ R1) as C. rewrite Ec in C. destruct (f_state f1); cbn in C; congruence.
  - destruct Hk as [Hk|Hk]; [discriminate Hk|].
    destruct (f_state f1) as [| |sr cc| | | | | | |] eqn:Hs; try discriminate Hk.
    pose proof (rep_st _ _ R1) as St. rewrite Hs in St. cbn in St. destruct St as (Hsr & Hcc).
    assert (L : forall sr' cc', sr_ok sr' -> 0 <= cc' <= 1 -> forall tg, I_listen (set_st f1 (ListenToken sr' cc'), note A w tg)).
    { intros sr' cc' H1 H2 tg. apply Q; [|right; reflexivity]. apply Rep_set_st; [exact R1|exact Ec|cbn; auto]. }
    destruct (opt_eqb (source_address t) (Some (ts f1))).
    + cbn [get_listen_token bind]. unfold u8_add. destruct (Z.leb_spec (cc + 1) 255); [|lia]. cbn [bind].
      destruct (cc + 1 =? listen_collision_tolerated) eqn:Ecc.
      * apply L; [exact Hsr|]. apply Z.eqb_eq in Ecc. unfold listen_collision_tolerated in Ecc. lia.
      * unfold set_offline, set_state. cbn [f_p set_st].
        destruct (fdl_new_rep (f_p f1) (rep_p _ _ R1)) as [f0 (E0 & R0 & C0 & _)].
        rewrite E0. apply Q; auto.
    + destruct t as [h pdu|da sa|].
      * destruct (is_fdl_status_request h && (h_da h =? ts f1)); [destruct il|]; try solve [apply Q; rewrite ?Hs; auto].
        cbn [get_listen_token bind]. apply L; [|exact Hcc]. destruct Wt as (_ & Hsa & _). exact Hsa.
      * cbn in Wt.
        destruct (witness_ring_ok (f_ring f1) (ts f1) sa da (rep_ring _ _ R1)) as [r' [Er Rr]]; try lia.
        rewrite Er. apply Q; [apply Rep_set_ring; assumption|right; cbn; rewrite Hs; reflexivity].
      * apply Q; rewrite ?Hs; auto.
Qed.

Lemma receive_all_telegrams_wp cb (I J : fdl * W -> Prop) f (w : W) :
  (forall s t, I s -> wf_tel t -> wp (cb s t false) (fun x => I (fst x))) ->
  (forall s t, I s -> wf_tel t -> wp (cb s t true) (fun x => J (fst x))) ->
  (forall s, I s -> J s) ->
  (forall f1 w1, J (f1, w1) -> Rep n f1 /\ Winv w1) ->
  I (f, w) ->
  wp (receive_all_telegrams A cb f w) PostRW.
Proof.
  intros Hf Ht HIJ HJ Hi. unfold receive_all_telegrams.
  assert (Hb : all_bytes (w_rx w)) by (apply HIJ, HJ in Hi; destruct Hi as (_ & Hb & _); exact Hb).
  eapply wp_bind.
  - apply (receive_all_wp cb I J Hf Ht HIJ (receive_all_fuel (w_rx w)) (w_rx w) (f, w)); [unfold receive_all_fuel; lia|exact Hb|exact Hi].
  - intros [[[f1 w1] rest] r] (Hj & Hrest). cbn [fst snd] in *. apply HJ in Hj. destruct Hj as (R1 & (_ & Wa1)).
    cbn. split; [apply sync_pending_rep, R1|]. split; cbn; assumption.
Qed.

Lemma do_listen_token_wp f now (w : W) : Rep n f -> time_ok now -> w_tx w = None -> Winv w ->
  kind_of (f_state f) = KListenToken ->
  wp (do_listen_token A f now w) PostRW.
Proof.
  intros R Tn Hw Wi Hk. unfold do_listen_token, assert_entry. rewrite Hk. cbn [do_fn_entry state_kind_eqb bind].
  eapply wp_bind; [apply handle_lost_token_wp; try assumption; left; exact Hk|].
  intros [[f1 w1] done] (R1 & W1 & Hd). destruct done; [cbn; split; assumption|].
  destruct (Hd eq_refl) as (S1 & ->). clear Hd.
  destruct (f_state f) as [| |sr cc| | | | | | |] eqn:Hs; try discriminate Hk.
  assert (Hs1 : f_state f1 = ListenToken sr cc) by (rewrite (sb_state _ _ S1); exact Hs).
  rewrite Hs1. cbn [get_listen_token bind].
  pose proof (rep_st _ _ R1) as St. rewrite Hs1 in St. cbn in St. destruct St as (Hsr & Hcc).
  destruct sr as [src|].
  - eapply wp_bind; [apply (wait_sync_wp n); assumption|].
    intros [f2 wait] (R2 & S2). cbn [fst] in *.
    destruct wait; [cbn; split; [exact R2|apply Winv_note, Wi]|].
    pose proof (Rep_ts n f2 R2) as Hts.
    eapply wp_bind; [apply phy_send_status_wp; [exact Hw|exact Wi|exact Hsr|lia]|].
    intros [w2 k] (W2 & Hk2). cbn [fst snd] in *.
    assert (Hs2 : f_state f2 = ListenToken (Some src) cc) by (rewrite (sb_state _ _ S2); exact Hs1).
    assert (K2 : kind_of (f_state f2) <> KOffline) by (rewrite Hs2; discriminate).
    eapply wp_bind with (P := PostRW).
    + destruct (ready_for_ring (f_ring f2)).
      * apply (trans_post f2 _ _ (ActiveIdle None None 0)); [exact R2|apply Winv_note, W2|exact K2|rewrite Hs2; reflexivity|cbn; lia].
      * rewrite Hs2. cbn. split; [apply Rep_goto; [exact R2|exact K2|cbn; lia]|apply Winv_note, W2].
    + intros [f3 w3] (R3 & W3). cbn [fst snd] in *.
      eapply wp_bind; [apply (mark_tx_wp n); [exact R3|exact Tn|exact Hk2]|].
      intros f4 (R4 & S4). cbn. split; assumption.
  - apply (receive_all_telegrams_wp _ I_listen I_listen).
    + intros s t Hi Wt. apply listen_token_telegram_wp; assumption.
    + intros s t Hi Wt. apply listen_token_telegram_wp; assumption.
    + tauto.
    + intros f2 w2 (R2 & W2 & _). cbn in *. tauto.
    + split; [exact R1|]. split; [exact Wi|]. right. cbn. rewrite Hs1. reflexivity.
Qed.

(* the states handle_telegram accepts *)
Definition idleish (f : fdl) : Prop :=
  kind_of (f_state f) = KActiveIdle \/ kind_of (f_state f) = KListenToken.

Lemma handle_telegram_wp now f (w : W) t il : time_ok now -> Rep n f -> Winv w -> idleish f -> wf_tel t ->
  wp (handle_telegram A now f w t il)
     (fun x => Rep n (fst x) /\ Winv (snd x) /\ (il = false -> idleish (fst x))).
Proof.
  intros Tn R Wi Hk Wt. unfold handle_telegram.
  pose proof (Rep_ts n f R) as Hts.
  assert (Q : forall f2 tg, Rep n f2 -> idleish f2 ->
              Rep n f2 /\ Winv (note A w tg) /\ (il = false -> idleish f2)) by auto using Winv_note.
  destruct (f_state f) as [| |lsr lcc|sr nps cc| | | | | |] eqn:Hs;
    try (destruct Hk as [Hk|Hk]; rewrite Hs in Hk; discriminate Hk).
  { apply Q; assumption. }
  cbn [kind_of state_kind_eqb negb].
  assert (K : kind_of (f_state f) <> KOffline) by (rewrite Hs; discriminate).
  pose proof (rep_st _ _ R) as St. rewrite Hs in St. cbn in St. destruct St as (Hsr & Hcc).
  assert (Ai : forall sr' nps' cc', sr_ok sr' -> 0 <= cc' <= 1 -> Rep n (set_st f (ActiveIdle sr' nps' cc')))
    by (intros; apply Rep_goto; [exact R|exact K|cbn; tauto]).
  assert (QA : forall sr' nps' cc' tg, sr_ok sr' -> 0 <= cc' <= 1 ->
                 wp (Ok (set_st f (ActiveIdle sr' nps' cc'), note A w tg))
                    (fun x => Rep n (fst x) /\ Winv (snd x) /\ (il = false -> idleish (fst x))))
    by (intros; apply Q; [apply Ai; assumption|left; reflexivity]).
  destruct t as [h pdu|da sa|].
  - destruct (is_fdl_status_request h && (h_da h =? ts f) && il).
    + apply QA; [destruct Wt as (_ & Hsa & _); exact Hsa|exact Hcc].
    + apply Q; assumption.
  - cbn [get_active_idle bind]. cbn in Wt.
    destruct (sa =? ts f).
    + unfold u8_add. destruct (Z.leb_spec (cc + 1) 255); [|lia]. cbn [bind].
      destruct (cc + 1 =? active_idle_collision_tolerated) eqn:Ecc.
      * apply Z.eqb_eq in Ecc. unfold active_idle_collision_tolerated in Ecc. apply QA; [exact Hsr|lia].
      * rewrite (trans_ok _ _ _ (ListenToken None 0)) by reflexivity.
        apply (Q (set_st f (ListenToken None 0)) THtCollisionLeave); [apply Rep_goto; [exact R|exact K|cbn; lia]|right; reflexivity].
    + cbn zeta.
      pose proof (Ai sr nps 0 Hsr ltac:(lia)) as R0.
      assert (Wit : wp (witness (f_ring f) sa da) (fun r => ring_ok r (ts f))).
      { destruct (witness_ring_ok (f_ring f) (ts f) sa da (rep_ring _ _ R)) as [r' [Er Rr]]; try lia.
        rewrite Er. exact Rr. }
      assert (Use : forall f' w', Rep n f' -> Winv w' -> kind_of (f_state f') = KActiveIdle -> il = true ->
                    wp (trans A f' w' (fun s => transition_use_token s now None))
                       (fun x => Rep n (fst x) /\ Winv (snd x) /\ (il = false -> idleish (fst x)))).
      { intros f' w' R' W' K' Hil. eapply wp_mono.
        - apply (trans_wp f' _ _ (UseToken now None false)); [exact R'|exact W'|rewrite K'; discriminate| |exact Tn].
          unfold transition_use_token, assert_kind. rewrite K'. reflexivity.
        - intros x (_ & (R2 & W2) & _). rewrite Hil. split; [exact R2|]. split; [exact W2|discriminate]. }
      destruct (negb (da =? ts (set_st f (ActiveIdle sr nps 0))) || negb il) eqn:Ew.
      * eapply wp_bind; [exact Wit|]. intros r Rr. apply Q; [apply Rep_set_ring; [exact R0|exact Rr]|left; reflexivity].
      * assert (Hil : il = true) by (destruct il; [reflexivity|rewrite orb_true_r in Ew; discriminate Ew]).
        destruct (sa =? r_ps (f_ring (set_st f (ActiveIdle sr nps 0)))).
        -- apply Use; [exact R0|apply Winv_note, Wi|reflexivity|exact Hil].
        -- destruct nps as [address|]; [destruct (address =? sa)|]; try (apply QA; [exact Hsr|lia]).
           eapply wp_bind; [exact Wit|]. intros r Rr.
           apply Use; [apply Rep_set_ring; [exact R0|exact Rr]|apply Winv_note, Wi|reflexivity|exact Hil].
  - apply Q; assumption.
Qed.

(* loop invariant of the receive closures of do_active_idle (I_ai) and do_check_token_pass (I_ck: the
   flag says that no telegram has been seen yet, the state still CheckTokenPass) *)
Definition I_ai (s : fdl * W) : Prop := Rep n (fst s) /\ Winv (snd s) /\ idleish (fst s).

Lemma active_idle_telegram_wp now s t il : time_ok now -> I_ai s -> wf_tel t ->
  wp (active_idle_telegram A now s t il) (fun x => PostRW (fst x) /\ (il = false -> I_ai (fst x))).
Proof.
  intros Tn (R & Wi & Hk) Wt. destruct s as [f w]. cbn [fst snd] in *. unfold active_idle_telegram.
  destruct (mark_rx_rep n f now R Tn) as (R1 & S1).
  assert (Hk1 : idleish (mark_rx f now)) by (unfold idleish; rewrite (sb_state _ _ S1); exact Hk).
  eapply wp_bind; [apply handle_telegram_wp; [exact Tn|exact R1|exact Wi|exact Hk1|exact Wt]|].
  intros [f2 w2] (R2 & W2 & K2). cbn [fst snd] in *. cbn. unfold PostRW, I_ai. cbn. tauto.
Qed.

Lemma do_active_idle_wp f now (w : W) : Rep n f -> time_ok now -> w_tx w = None -> Winv w ->
  kind_of (f_state f) = KActiveIdle ->
  wp (do_active_idle A f now w) PostRW.
Proof.
  intros R Tn Hw Wi Hk. unfold do_active_idle, assert_entry. rewrite Hk. cbn [do_fn_entry state_kind_eqb bind].
  eapply wp_bind; [apply handle_lost_token_wp; try assumption; right; exact Hk|].
  intros [[f1 w1] done] (R1 & W1 & Hd). destruct done; [cbn; split; assumption|].
  destruct (Hd eq_refl) as (S1 & ->). clear Hd.
  destruct (f_state f) as [| | |sr nps cc| | | | | |] eqn:Hs; try discriminate Hk.
  assert (Hs1 : f_state f1 = ActiveIdle sr nps cc) by (rewrite (sb_state _ _ S1); exact Hs).
  rewrite Hs1. cbn [get_active_idle bind].
  pose proof (rep_st _ _ R1) as St. rewrite Hs1 in St. cbn in St. destruct St as (Hsr & Hcc).
  destruct sr as [src|].
  - eapply wp_bind; [apply (wait_sync_wp n); assumption|].
    intros [f2 wait] (R2 & S2). cbn [fst] in *.
    destruct wait; [cbn; split; [exact R2|apply Winv_note, Wi]|].
    pose proof (Rep_ts n f2 R2) as Hts.
    eapply wp_bind; [apply phy_send_status_wp; [exact Hw|exact Wi|exact Hsr|lia]|].
    intros [w2 k] (W2 & Hk2). cbn [fst snd] in *.
    eapply wp_bind.
    + apply (mark_tx_wp n); [|exact Tn|exact Hk2].
      apply Rep_goto; [exact R2|rewrite (sb_state _ _ S2), Hs1; discriminate|cbn; lia].
    + intros f4 (R4 & S4). cbn. split; [exact R4|apply Winv_note, W2].
  - apply (receive_all_telegrams_wp _ I_ai PostRW).
    + intros s t Hi Wt. eapply wp_mono; [apply active_idle_telegram_wp; assumption|]. cbn beta. intros x (_ & Hx). apply Hx. reflexivity.
    + intros s t Hi Wt. eapply wp_mono; [apply active_idle_telegram_wp; assumption|]. cbn beta. tauto.
    + unfold I_ai, PostRW. tauto.
    + intros f2 w2 (R2 & W2). cbn in *. tauto.
    + split; [exact R1|]. split; [exact Wi|]. left. cbn. rewrite Hs1. reflexivity.
Qed.

Lemma do_pass_token_wp f now (w : W) : Rep n f -> time_ok now -> w_tx w = None -> Winv w ->
  kind_of (f_state f) = KPassToken ->
  wp (do_pass_token A f now w) PostRW.
Proof.
  intros R Tn Hw Wi Hk. unfold do_pass_token, assert_entry. rewrite Hk. cbn [do_fn_entry state_kind_eqb bind].
  destruct (f_state f) as [| | | | | | |dg att| |] eqn:Hs; try discriminate Hk.
  eapply wp_bind; [apply (wait_sync_wp n); assumption|].
  intros [f1 wait] (R1 & S1). cbn [fst] in *.
  destruct wait; [cbn; split; [exact R1|apply Winv_note, Wi]|].
  assert (Hs1 : f_state f1 = PassToken dg att) by (rewrite (sb_state _ _ S1); exact Hs).
  rewrite Hs1. cbn [get_pass_token bind].
  pose proof (Rep_ts n f1 R1) as Hts. pose proof (bv_ranges _ (rep_p _ _ R1)) as Hbv.
  assert (Hgi : forall g, st_ok n (f_p f1) g (f_next_app f1) (f_state f1)) by (intros g; rewrite Hs1; exact I).
  (* the GAP turn leaves the state alone *)
  eapply wp_bind with (P := fun x => let '(f2, w2, polled) := x in
     Rep n f2 /\ Winv w2 /\ f_state f2 = PassToken dg att /\
     match polled with Some a => f_gap f2 = GapDoPoll a /\ a <> ts f2 | None => w_tx w2 = None end).
  - destruct dg; [|cbn; tauto].
    eapply wp_bind with (P := fun x => Rep n (fst x) /\ gap_fresh (fst x) /\ wkeep w (snd x) /\
                                       f_state (fst x) = PassToken true att).
    + assert (N : forall w0 cur, wkeep w w0 -> 0 <= cur < p_hsa (f_p f1) ->
                  wp (next_gap_poll_traced A f1 w0 cur)
                     (fun x => Rep n (fst x) /\ gap_fresh (fst x) /\ wkeep w (snd x) /\ f_state (fst x) = PassToken true att)).
      { intros w0 cur K0 Hc. eapply wp_mono; [apply ngp_wp; [exact R1|exact Hc|exact Hgi]|].
        intros [f2 w2] ((g & E) & R2 & F2 & K2). cbn [fst snd] in *. subst f2.
        split; [exact R2|]. split; [exact F2|]. split; [exact (wkeep_trans _ _ _ K0 K2)|exact Hs1]. }
      pose proof (rep_gap _ _ R1) as G1. destruct (f_gap f1) as [rc|cur]; cbn in G1.
      * destruct (Z.ltb_spec (p_gap_wait (f_p f1)) rc); [apply N; [apply wkeep_note|unfold ts in *; lia]|].
        unfold u8_add. destruct (Z.leb_spec (rc + 1) 255); [|lia]. cbn.
        split; [apply Rep_set_gap; [exact R1|cbn; lia|apply Hgi]|]. split; [exact I|]. split; [apply wkeep_note|exact Hs1].
      * apply N; [apply wkeep_refl|exact G1].
    + intros [f2 w2] (R2 & F2 & K2 & Hs2). cbn [fst snd] in *.
      eapply wp_mono; [apply tgp_wp; [exact R2|exact Tn|exact (wkeep_tx _ _ K2 Hw)|exact (wkeep_Winv _ _ K2 Wi)|exact F2]|].
      intros [[f3 w3] polled] (R3 & S3 & W3 & P). split; [exact R3|]. split; [exact W3|].
      split; [rewrite (sb_state _ _ S3); exact Hs2|].
      destruct polled as [a|]; [|exact P]. rewrite (sb_gap _ _ S3), (sb_ts _ _ S3). exact P.
  - intros [[f2 w2] polled] (R2 & W2 & Hs2 & P).
    assert (K2 : kind_of (f_state f2) <> KOffline) by (rewrite Hs2; discriminate).
    destruct polled as [a|].
    + apply (trans_post f2 _ _ (AwaitStatusResponse a)); [exact R2|exact W2|exact K2|rewrite Hs2; reflexivity|exact P].
    + pose proof (Rep_ts n f2 R2) as Hts2.
      eapply wp_bind; [apply phy_send_token_wp; assumption|].
      intros [w3 k] (W3 & Hk3). cbn [fst snd] in *.
      pose proof (ring_ok_ns _ _ (rep_ring _ _ R2) ltac:(lia)) as Hns.
      destruct (witness_ring_ok (f_ring f2) (ts f2) (ts f2) (r_ns (f_ring f2)) (rep_ring _ _ R2)) as [r' [Er Rr]]; try lia.
      rewrite Er. cbn [bind].
      pose proof (Rep_set_ring n f2 r' R2 Rr) as R3.
      eapply wp_bind with (P := PostRW).
      * destruct (r_ns (f_ring (set_ring f2 r')) =? ts (set_ring f2 r')).
        -- apply (trans_post _ _ _ (UseToken now None false)); [exact R3|apply Winv_note, W3|exact K2|cbn; rewrite Hs2; reflexivity|exact Tn].
        -- cbn [f_state set_ring]. rewrite Hs2. cbn [get_pass_token bind].
           apply (trans_post _ _ _ (CheckTokenPass att)); [exact R3|apply Winv_note, W3|exact K2|cbn; rewrite Hs2; reflexivity|exact I].
      * intros [f4 w4] (R4 & W4). cbn [fst snd] in *.
        eapply wp_bind; [apply (mark_tx_wp n); [exact R4|exact Tn|exact Hk3]|].
        intros f5 (R5 & S5). cbn. split; assumption.
Qed.

Lemma pass_on_wp f now (w : W) dg att : Rep n f -> time_ok now -> w_tx w = None -> Winv w ->
  kind_of (f_state f) <> KOffline -> transition_pass_token (f_state f) dg att = Ok (PassToken dg att) ->
  wp (let* (f, w) := trans A f w (fun s => transition_pass_token s dg att) in do_pass_token A f now w) PostRW.
Proof.
  intros R Tn Hw Wi K E.
  eapply wp_bind; [apply (trans_wp f _ _ (PassToken dg att)); [exact R|exact Wi|exact K|exact E|exact I]|].
  intros [f2 w2] (E2 & (R2 & W2) & T2). cbn [fst snd] in *. subst f2.
  apply do_pass_token_wp; [exact R2|exact Tn|exact (wkeep_tx _ _ T2 Hw)|exact W2|reflexivity].
Qed.

Lemma do_await_status_response_wp f now (w : W) : Rep n f -> time_ok now -> w_tx w = None -> Winv w ->
  kind_of (f_state f) = KAwaitStatusResponse ->
  wp (do_await_status_response A f now w) PostRW.
Proof.
  intros R Tn Hw Wi Hk. unfold do_await_status_response, assert_entry. rewrite Hk. cbn [do_fn_entry state_kind_eqb bind].
  destruct (f_state f) as [| | | | | | | | |a] eqn:Hs; try discriminate Hk.
  cbn [get_await_status_response_address bind].
  pose proof (rep_st _ _ R) as St. rewrite Hs in St. cbn in St. destruct St as (Eg & Ha).
  eapply wp_bind; [apply agp_wp; [exact R|exact Tn|exact Wi|exact Eg|exact Ha]|].
  intros [[f1 w1] r] (R1 & St1 & G1 & Tx1 & W1). rewrite Hs in St1.
  assert (K1 : kind_of (f_state f1) <> KOffline) by (rewrite St1; discriminate).
  destruct r.
  - cbn. split; assumption.
  - apply pass_on_wp; [exact R1|exact Tn|congruence|exact W1|exact K1|rewrite St1; reflexivity].
  - apply (trans_post f1 _ _ (PassToken false AttFirst)); [exact R1|exact W1|exact K1|rewrite St1; reflexivity|exact I].
  - apply (trans_post f1 _ _ (ActiveIdle None None 0)); [exact R1|exact W1|exact K1|rewrite St1; reflexivity|cbn; lia].
Qed.

Definition I_ck (s : fdl * W * bool) : Prop :=
  Rep n (fst (fst s)) /\ Winv (snd (fst s)) /\
  (if snd s then kind_of (f_state (fst (fst s))) = KCheckTokenPass else idleish (fst (fst s))).
Definition J_ck (s : fdl * W * bool) : Prop := Rep n (fst (fst s)) /\ Winv (snd (fst s)).

Lemma check_token_pass_telegram_wp now s t il : time_ok now -> I_ck s -> wf_tel t ->
  wp (check_token_pass_telegram A now s t il) (fun x => J_ck (fst x) /\ (il = false -> I_ck (fst x))).
Proof.
  intros Tn (R & Wi & Hk) Wt. destruct s as [[f w] fi]. cbn [fst snd] in *. unfold check_token_pass_telegram.
  destruct (mark_rx_rep n f now R Tn) as (R1 & S1). unfold idleish in Hk. rewrite <- (sb_state _ _ S1) in Hk.
  set (f1 := mark_rx f now) in *. clearbody f1.
  eapply wp_bind with (P := fun x => Rep n (fst x) /\ Winv (snd x) /\ idleish (fst x)).
  - destruct fi; [|exact (conj R1 (conj Wi Hk))].
    eapply wp_mono; [apply (trans_wp f1 _ _ (ActiveIdle None None 0)); [exact R1|apply Winv_note, Wi|rewrite Hk; discriminate| |cbn; lia]|].
    + unfold transition_active_idle, assert_kind. rewrite Hk. reflexivity.
    + intros [f2 w2] (E2 & (R2 & W2) & _). cbn [fst snd] in *. subst f2. split; [exact R2|]. split; [exact W2|left; reflexivity].
  - intros [f2 w2] (R2 & W2 & K2). cbn [fst snd] in *.
    eapply wp_bind; [apply handle_telegram_wp; [exact Tn|exact R2|exact W2|exact K2|exact Wt]|].
    intros [f3 w3] (R3 & W3 & K3). cbn [fst snd] in *. cbn. unfold J_ck, I_ck. cbn. tauto.
Qed.

Lemma do_check_token_pass_wp f now (w : W) : Rep n f -> time_ok now -> w_tx w = None -> Winv w ->
  kind_of (f_state f) = KCheckTokenPass ->
  wp (do_check_token_pass A f now w) PostRW.
Proof.
  intros R Tn Hw Wi Hk. unfold do_check_token_pass, assert_entry. rewrite Hk. cbn [do_fn_entry state_kind_eqb bind].
  destruct (f_state f) as [| | | | | | | |att|] eqn:Hs; try discriminate Hk.
  eapply wp_bind; [apply (check_slot_wp n); assumption|].
  intros [f1 expired] (R1 & S1). cbn [fst] in *.
  assert (Hs1 : f_state f1 = CheckTokenPass att) by (rewrite (sb_state _ _ S1); exact Hs).
  pose proof (Rep_ts n f1 R1) as Hts.
  destruct expired.
  - rewrite Hs1. cbn [get_check_token_pass_attempt bind].
    eapply wp_bind with (P := fun x => Rep n (fst x) /\ wkeep w (snd x) /\ f_state (fst x) = CheckTokenPass att).
    + destruct (check_pass_removes att); [|cbn; auto using wkeep_note].
      pose proof (ring_ok_ns _ _ (rep_ring _ _ R1) ltac:(lia)) as Hns.
      destruct (remove_station_ring_ok (f_ring f1) (ts f1) (r_ns (f_ring f1)) (rep_ring _ _ R1)) as [r' [Er Rr]]; try lia.
      rewrite Er. cbn. split; [apply Rep_set_ring; assumption|]. split; [apply wkeep_note|exact Hs1].
    + intros [f2 w2] (R2 & K2 & Hs2). cbn [fst snd] in *.
      apply pass_on_wp; [exact R2|exact Tn|exact (wkeep_tx _ _ K2 Hw)|exact (wkeep_Winv _ _ K2 Wi)|rewrite Hs2; discriminate|rewrite Hs2; reflexivity].
  - destruct Wi as (Wb & Wa).
    eapply wp_bind.
    + apply (receive_all_wp (check_token_pass_telegram A now) I_ck J_ck) with (s := (f1, w, true)).
      * intros s t Hi Wt. eapply wp_mono; [apply check_token_pass_telegram_wp; assumption|]. cbn beta. intros x (_ & Hx). apply Hx. reflexivity.
      * intros s t Hi Wt. eapply wp_mono; [apply check_token_pass_telegram_wp; assumption|]. cbn beta. tauto.
      * unfold I_ck, J_ck. tauto.
      * unfold receive_all_fuel. lia.
      * exact Wb.
      * split; [exact R1|]. split; [split; assumption|]. cbn. rewrite Hs1. reflexivity.
    + intros [[[[f2 w2] fi] rest] r] ((R2 & (_ & Wa2)) & Hrest). cbn [fst snd] in *.
      cbn. split; [apply sync_pending_rep, R2|]. split; [|destruct fi; exact Wa2].
      destruct fi; exact Hrest.
Qed.

(* the applications' own totality: every callback returns, and a telegram an application hands
   to the PHY fits a PHY transmit buffer (at most 65536 bytes; the real buffers have 256) *)
Definition apps_total : Prop :=
  (forall a now p hp, exists a' r, a_tx ops a now p hp = Ok (a', r) /\
      match r with Some (wire, _) => Z.of_nat (length wire) <= 65536 | None => True end) /\
  (forall a now p addr t, exists a', a_rx ops a now p addr t = Ok a') /\
  (forall a now p addr, exists a', a_to ops a now p addr = Ok a').

(* The same under the FdlApplication contract, for applications with a representation invariant AI
   and a predicate AW "waits for the reply from da": transmit is called at any time; receive_reply
   (addr, t) and handle_timeout (addr) only while the application waits for addr - which its own
   last transmit established - and t is a short confirmation or a response from addr to this
   station.  apps_total implies the contract with AI = AW = True (apps_total_contract). *)
(* Proofs/C05Apps.v states the same bodies as contract_of, contract_inv and contract_post under the names
   apps_contract, AppsInv and PostA, which the theorems of Properties/C05.v use; the lemmas here apply to
   those by conversion. *)
Definition contract_of : Prop :=
  (forall a now p hp, AI a -> builder_valid p -> time_ok now ->
     exists a' r, a_tx ops a now p hp = Ok (a', r) /\ AI a' /\
       match r with
       | Some (wire, er) => Z.of_nat (length wire) <= 65536 /\ (forall da, er = Some da -> AW a' da)
       | None => True
       end) /\
  (forall a now p addr t, AI a -> AW a addr -> builder_valid p -> time_ok now -> reply_ok (p_address p) addr t ->
     exists a', a_rx ops a now p addr t = Ok a' /\ AI a') /\
  (forall a now p addr, AI a -> AW a addr -> builder_valid p -> time_ok now ->
     exists a', a_to ops a now p addr = Ok a' /\ AI a').

Definition contract_inv (f : fdl) (apps : list A) : Prop :=
  Forall AI apps /\
  forall addr tk fa, f_state f = AwaitDataResponse addr tk fa ->
    exists a, nth_error apps (f_next_app f) = Some a /\ AW a addr.

Lemma AppsInv_idle f apps : Forall AI apps -> kind_of (f_state f) <> KAwaitDataResponse -> contract_inv f apps.
Proof. intros F K. split; [exact F|]. intros addr tk fa E. rewrite E in K. contradiction K. reflexivity. Qed.

Lemma AppsInv_same f f' apps : f_state f' = f_state f -> f_next_app f' = f_next_app f ->
  contract_inv f apps -> contract_inv f' apps.
Proof. intros Es En (F & H). split; [exact F|]. intros addr tk fa E. rewrite En. apply (H addr tk fa). rewrite <- Es. exact E. Qed.

Lemma AppsInv_sb f f' apps : sb f f' -> contract_inv f apps -> contract_inv f' apps.
Proof. intros S. apply AppsInv_same; apply S. Qed.

Lemma replace_nth_length {X} (l : list X) : forall i x, length (replace_nth l i x) = length l.
Proof. induction l as [|h t IH]; intros [|i] x; cbn; try reflexivity. rewrite IH. reflexivity. Qed.

Lemma Forall_replace_nth (P : A -> Prop) (l : list A) : forall i x, Forall P l -> P x -> Forall P (replace_nth l i x).
Proof.
  induction l as [|h t IH]; intros [|i] x F Hx; cbn; try exact F.
  - inversion F; subst. constructor; assumption.
  - inversion F; subst. constructor; [assumption|apply IH; assumption].
Qed.

Lemma nth_error_replace_nth (l : list A) : forall i x, (i < length l)%nat -> nth_error (replace_nth l i x) i = Some x.
Proof.
  induction l as [|h t IH]; intros [|i] x L; cbn in *; try lia; [reflexivity|]. apply IH. lia.
Qed.

Lemma Winv_set_app (w : W) i a c : Winv w -> Winv (log_call A (set_app A w i a) c).
Proof. intros (Wb & Wa). split; cbn; [exact Wb|rewrite replace_nth_length; exact Wa]. Qed.

Hypothesis Happs : contract_of.

Definition contract_post (x : fdl * W) : Prop := Rep n (fst x) /\ Winv (snd x) /\ contract_inv (fst x) (w_apps (snd x)).

Lemma app_transmit_wpA f now (w : W) app hp tk fa fcd : Rep n f -> time_ok now -> w_tx w = None -> Winv w ->
  f_state f = UseToken tk fa fcd -> (f_next_app f < n)%nat ->
  Forall AI (w_apps w) -> nth_error (w_apps w) (f_next_app f) = Some app ->
  wp (app_transmit_telegram A ops f now w (f_next_app f) app hp)
     (fun x => let '(f1, w1, done) := x in
        Rep n f1 /\ Winv w1 /\ contract_inv f1 (w_apps w1) /\ (done = false -> w_tx w1 = None /\ f1 = f)).
Proof.
  intros R Tn Hw Wi Hs Hna Fa En. unfold app_transmit_telegram.
  assert (Ha : AI app) by (rewrite Forall_forall in Fa; apply Fa; eapply nth_error_In; exact En).
  destruct Happs as (Htx & _ & _).
  destruct (Htx app now (f_p f) hp Ha (rep_p _ _ R) Tn) as (a' & r & E & Ha' & Hr). rewrite E. cbn [bind].
  pose proof (rep_st _ _ R) as St. rewrite Hs in St. cbn in St.
  assert (Fa' : Forall AI (replace_nth (w_apps w) (f_next_app f) a')) by (apply Forall_replace_nth; assumption).
  assert (Idle : contract_inv f (replace_nth (w_apps w) (f_next_app f) a')) by (apply AppsInv_idle; [exact Fa'|rewrite Hs; discriminate]).
  destruct r as [[wire er]|].
  2:{ cbn. split; [exact R|]. split; [apply Winv_note, Winv_set_app, Wi|]. split; [exact Idle|auto]. }
  destruct Hr as (Hwire & Hwait).
  unfold phy_transmit. cbn [w_tx log_call set_app]. rewrite Hw. cbn [bind].
  match goal with |- context [note A ?w0 _] => assert (W1 : Winv w0) by (split; cbn; [apply Wi|rewrite replace_nth_length; apply Wi]) end.
  eapply wp_bind with (P := contract_post).
  - destruct er as [addr|]; [|cbn; split; [exact R|split; [apply Winv_note, W1|exact Idle]]].
    rewrite Hs. cbn [get_use_token bind].
    eapply wp_mono; [apply (trans_wp f _ _ (AwaitDataResponse addr tk fa)); [exact R|apply Winv_note, W1|rewrite Hs; discriminate|rewrite Hs; reflexivity|cbn; tauto]|].
    intros [f1 w1] (E1 & (R1 & W1') & (_ & _ & K1)). cbn [fst snd] in *. subst f1. split; [exact R1|]. split; [exact W1'|].
    cbn [fst snd]. rewrite K1. split; [exact Fa'|]. intros addr0 tk0 fa0 E0. injection E0 as <- _ _.
    exists a'. split; [apply nth_error_replace_nth; destruct Wi as (_ & ->); exact Hna|apply Hwait; reflexivity].
  - intros [f1 w1] (R1 & W1' & I1). cbn [fst snd] in *.
    eapply wp_bind; [apply (mark_tx_wp n); [exact R1|exact Tn|exact Hwire]|].
    intros f2 (R2 & S2). cbn. split; [exact R2|]. split; [exact W1'|]. split; [exact (AppsInv_sb _ _ _ S2 I1)|discriminate].
Qed.

Lemma apps_loop_wpA k : forall f now (w : W) hp, (k <= n)%nat -> Rep n f -> time_ok now -> w_tx w = None -> Winv w ->
  kind_of (f_state f) = KUseToken -> Forall AI (w_apps w) ->
  wp (apps_transmit_loop A ops k f now w hp)
     (fun x => let '(f1, w1, done) := x in
        Rep n f1 /\ Winv w1 /\ contract_inv f1 (w_apps w1) /\ (done = false -> w_tx w1 = None /\ kind_of (f_state f1) = KUseToken)).
Proof.
  induction k as [|k IH]; intros f now w hp Hkn R Tn Hw Wi Hk Fa.
  { cbn. split; [exact R|]. split; [exact Wi|]. split; [apply AppsInv_idle; [exact Fa|rewrite Hk; discriminate]|tauto]. }
  cbn [apps_transmit_loop].
  assert (Hna : (f_next_app f < n)%nat) by (destruct (rep_na _ _ R); lia).
  destruct (nth_error (w_apps w) (f_next_app f)) as [app|] eqn:En.
  2:{ apply nth_error_None in En. destruct Wi as (_ & Wa). lia. }
  destruct (f_state f) as [| | | |tk fa fcd| | | | |] eqn:Hs; try discriminate Hk.
  eapply wp_bind; [apply (app_transmit_wpA f now w app hp tk fa fcd); assumption|].
  intros [[f1 w1] done] (R1 & W1 & I1 & Hd). destruct done; [cbn; split; [exact R1|split; [exact W1|split; [exact I1|discriminate]]]|].
  destruct (Hd eq_refl) as (Hw1 & ->). clear Hd. destruct I1 as (F1 & _).
  unfold schedule_next_application. rewrite Hs. cbn [get_use_token bind].
  destruct W1 as (Wb1 & Wa1). rewrite Wa1.
  destruct (Nat.eqb_spec n 0) as [C|Hn0]; [lia|]. cbn [bind].
  match goal with |- context [apps_transmit_loop A ops k ?ff] => assert (R2 : Rep n ff) end.
  { apply Rep_set_next_app; [|apply Nat.mod_upper_bound, Hn0|discriminate].
    apply Rep_goto; [exact R|rewrite Hs; discriminate|]. pose proof (rep_st _ _ R) as St. rewrite Hs in St. exact St. }
  match goal with |- context [if ?c then _ else _] => destruct c end.
  - cbn. split; [exact R2|]. split; [apply Winv_note; split; assumption|].
    split; [apply AppsInv_idle; [exact F1|discriminate]|]. intros _. split; [exact Hw1|reflexivity].
  - apply IH; [lia|exact R2|exact Tn|exact Hw1|split; assumption|reflexivity|exact F1].
Qed.

Lemma bv_ttr f : Rep n f -> 0 <= token_rotation_time (f_p f) <= DMAX.
Proof. intros R. pose proof (bv_ranges _ (rep_p _ _ R)). apply btt_bound. lia. Qed.

Lemma do_use_token_wpA f now (w : W) : Rep n f -> time_ok now -> w_tx w = None -> Winv w ->
  kind_of (f_state f) = KUseToken -> Forall AI (w_apps w) ->
  wp (do_use_token A ops f now w) contract_post.
Proof.
  intros R Tn Hw Wi Hk Fa. unfold do_use_token, assert_entry. rewrite Hk. cbn [do_fn_entry state_kind_eqb bind].
  destruct (f_state f) as [| | | |tk fa fcd| | | | |] eqn:Hs; try discriminate Hk.
  cbn [get_use_token bind].
  pose proof (rep_st _ _ R) as St. rewrite Hs in St. cbn in St.
  eapply wp_bind with (P := fun x => Rep n (fst x) /\ wkeep w (snd x) /\ f_state (fst x) = UseToken tk fa fcd).
  - destruct (negb (f_last_token_time f =? tk)); [|cbn; auto using wkeep_refl].
    pose proof (bv_ttr f R) as Bt. pose proof (rep_ltt _ _ R) as Bl. unfold time_ok in Bl.
    rewrite inst_add_ok; [|unfold T62, DMAX in *; lia|exact Bt]. cbn [bind].
    destruct (f_gap f); [cbn; auto using Rep_set_hold, wkeep_note|].
    pose proof (bv_ranges _ (rep_p _ _ R)) as Hbv.
    pose proof (btt_bound (p_baud (f_p f)) (p_slot_bits (f_p f) + gap_reserve_extra_bits)
                  ltac:(unfold gap_reserve_extra_bits; lia)) as Bs.
    unfold p_bits_to_time. rewrite inst_sub_dur_ok; [|unfold T62, DMAX in *; lia|exact Bs].
    cbn. auto using Rep_set_hold, wkeep_note.
  - intros [f1 w1] (R1 & K1 & Hs1). cbn [fst snd] in *.
    pose proof (wkeep_Winv _ _ K1 Wi) as W1. pose proof (wkeep_tx _ _ K1 Hw) as Hw1.
    assert (Fa1 : Forall AI (w_apps w1)) by (destruct K1 as (_ & _ & ->); exact Fa).
    eapply wp_bind; [apply (wait_sync_wp n); assumption|].
    intros [f2 wait] (R2 & S2). cbn [fst] in *.
    assert (Hs2 : f_state f2 = UseToken tk fa fcd) by (rewrite (sb_state _ _ S2); exact Hs1).
    assert (K2 : kind_of (f_state f2) <> KOffline) by (rewrite Hs2; discriminate).
    assert (Idle2 : contract_inv f2 (w_apps w1)) by (apply AppsInv_idle; [exact Fa1|rewrite Hs2; discriminate]).
    destruct wait; [cbn; split; [exact R2|split; [apply Winv_note, W1|exact Idle2]]|].
    rewrite Hs2. cbn [get_use_token bind].
    assert (Loop : forall tg hp,
      wp (let* f0 := set_first_cycle_done f2 in apps_transmit_telegram A ops f0 now (note A w1 tg) hp)
         (fun x => let '(f3, w3, done) := x in
            Rep n f3 /\ Winv w3 /\ contract_inv f3 (w_apps w3) /\ (done = false -> w_tx w3 = None /\ kind_of (f_state f3) = KUseToken))).
    { intros tg hp. unfold set_first_cycle_done, apps_transmit_telegram. rewrite Hs2. cbn [get_use_token bind].
      apply apps_loop_wpA; [destruct W1 as (_ & Wa); cbn; lia|apply Rep_goto; assumption|exact Tn|exact Hw1|apply Winv_note, W1|reflexivity|exact Fa1]. }
    eapply wp_bind with (P := fun x => let '(f3, w3, done) := x in
            Rep n f3 /\ Winv w3 /\ contract_inv f3 (w_apps w3) /\ (done = false -> w_tx w3 = None /\ kind_of (f_state f3) = KUseToken)).
    + destruct (now <? f_end_tht f2); [apply Loop|]. destruct (negb fcd); [apply Loop|].
      cbn. split; [exact R2|]. split; [apply Winv_note, W1|]. split; [exact Idle2|]. intros _. split; [exact Hw1|rewrite Hs2; reflexivity].
    + intros [[f3 w3] done] (R3 & W3 & I3 & Hd). destruct done; [exact (conj R3 (conj W3 I3))|].
      destruct (Hd eq_refl) as (Hw3 & K3).
      (* do_use_token ends in do_pass_token: the token is passed in the same poll, without a callback *)
      eapply wp_mono.
      * apply (wp_and _ PostRW (fun x => w_apps (snd x) = w_apps w3 /\ kind_of (f_state (fst x)) <> KAwaitDataResponse));
          [apply (pass_on_wp f3 now w3 true first_attempt); [exact R3|exact Tn|exact Hw3|exact W3|rewrite K3; discriminate|]|].
        -- unfold transition_pass_token, assert_kind. rewrite K3. reflexivity.
        -- intros [f' w'] E. apply bind_ok in E as ([f4 w4] & Et & E). apply trans_inv in Et as (s' & _ & -> & ->).
           apply do_pass_token_inv in E as (_ & (_ & Ea & _) & dg & att & Es & S). split; [exact Ea|]. cbn [fst].
           destruct S as [(E & _)|(_ & _ & _ & [(a & _ & E & _)|[(t & E)|(t & E)]])]; rewrite E, ?Es; discriminate.
      * intros [f' w'] ((R' & W') & Ea & K'). cbn [fst snd] in *. split; [exact R'|]. split; [exact W'|].
        cbn [fst snd]. apply AppsInv_idle; [rewrite Ea; apply I3|exact K'].
Qed.

Lemma do_await_data_response_wpA f now (w : W) : Rep n f -> time_ok now -> w_tx w = None -> Winv w ->
  kind_of (f_state f) = KAwaitDataResponse -> contract_inv f (w_apps w) ->
  wp (do_await_data_response A ops f now w) contract_post.
Proof.
  intros R Tn Hw Wi Hk AIv. pose proof AIv as (Fa & Hwait).
  unfold do_await_data_response, assert_entry. rewrite Hk. cbn [do_fn_entry state_kind_eqb bind].
  destruct (f_state f) as [| | | | | |addr tk fa| | |] eqn:Hs; try discriminate Hk.
  cbn [get_await_data_response bind].
  pose proof (rep_st _ _ R) as St. rewrite Hs in St. cbn in St. destruct St as (Ttk & Hna).
  destruct Wi as (Wb & Wa).
  destruct (Hwait addr tk fa eq_refl) as (app & En & Haw). rewrite En.
  assert (Ha : AI app) by (rewrite Forall_forall in Fa; apply Fa; eapply nth_error_In; exact En).
  destruct Happs as (_ & Hrx & Hto).
  eapply wp_bind; [apply receive_telegram_wp, Wb|]. intros [rest received] (Hr & _). cbn [fst snd] in *. cbv zeta.
  (* after the callback: back to UseToken with the payload of the visit, the guaranteed cycle marked as done *)
  assert (Use : forall f' (w' : W) a' c tg (k : fdl -> W -> res (fdl * W)),
     Rep n f' -> f_state f' = AwaitDataResponse addr tk fa -> Winv w' -> w_apps w' = w_apps w -> AI a' ->
     (forall f3 w3, Rep n f3 -> Winv w3 -> f_state f3 = UseToken tk fa true -> w_tx w3 = w_tx w' -> Forall AI (w_apps w3) ->
        wp (k f3 w3) contract_post) ->
     wp (let* (f2, w2) := trans A f' (note A (log_call A (set_app A w' (f_next_app f) a') c) tg)
                            (fun s => transition_use_token s tk fa) in
         let* f3 := set_first_cycle_done f2 in k f3 w2) contract_post).
  { intros f' w' a' c tg k R' S' W' Ea' Ha' Hk'.
    eapply wp_bind; [apply (trans_wp f' _ _ (UseToken tk fa false)); [exact R'|apply Winv_note, Winv_set_app, W'|rewrite S'; discriminate|rewrite S'; reflexivity|exact Ttk]|].
    intros [f2 w2] (E2 & (R2 & W2) & (T2 & _ & A2)). cbn [fst snd] in *. subst f2. cbn [set_first_cycle_done f_state set_st get_use_token bind].
    apply Hk'; [apply Rep_goto; [exact R2|discriminate|exact Ttk]|exact W2|reflexivity|exact T2|].
    rewrite A2. cbn. rewrite Ea'. apply Forall_replace_nth; assumption. }
  destruct received as [t|].
  - destruct (mark_rx_rep n f now R Tn) as (R1 & S1).
    assert (Hs1 : f_state (mark_rx f now) = AwaitDataResponse addr tk fa) by (rewrite (sb_state _ _ S1); exact Hs).
    assert (W1 : Winv (set_rx A w rest)) by (split; cbn; assumption).
    destruct (is_valid_response (mark_rx f now) addr t) eqn:Ev.
    + apply is_valid_response_spec in Ev. unfold ts in Ev.
      destruct (Hrx app now (f_p (mark_rx f now)) addr t Ha Haw (rep_p _ _ R1) Tn Ev) as (a' & E & Ha'). rewrite E. cbn [bind].
      match goal with |- context [sync_pending_bytes A ?ff ?ww] =>
        destruct (sync_pending_rep n A ff ww R1) as (R2 & S2); set (f2 := sync_pending_bytes A ff ww) in * end.
      apply (Use f2 (set_rx A w rest) a' _ _ (fun f3 w3 => Ok (f3, w3))); [exact R2|rewrite (sb_state _ _ S2); exact Hs1|exact W1|reflexivity|exact Ha'|].
      intros f3 w3 R3 W3 Hs3 _ F3. split; [exact R3|]. split; [exact W3|]. apply AppsInv_idle; [exact F3|cbn; rewrite Hs3; discriminate].
    + eapply wp_mono; [apply (trans_wp _ _ _ (ActiveIdle None None 0)); [exact R1|apply Winv_note, W1|rewrite Hs1; discriminate|rewrite Hs1; reflexivity|cbn; lia]|].
      intros [f2 w2] (E2 & (R2 & W2) & (_ & _ & A2)). cbn [fst snd] in *. subst f2. split; [exact R2|]. split; [exact W2|].
      cbn [fst snd]. apply AppsInv_idle; [rewrite A2; exact Fa|discriminate].
  - match goal with |- context [sync_pending_bytes A f ?w'] => set (w1 := w') end.
    assert (Hw1 : w_tx w1 = None /\ Winv w1 /\ w_apps w1 = w_apps w)
      by (subst w1; destruct (Nat.ltb _ _); (split; [exact Hw|split; [split; [exact Hr|exact Wa]|reflexivity]])).
    clearbody w1. destruct Hw1 as (Hw1 & W1 & Ea1). destruct (sync_pending_rep n A f w1 R) as (R0 & S0).
    eapply wp_bind; [apply (check_slot_wp n); [exact R0|exact Tn]|].
    intros [f1 expired] (R1 & S1). cbn [fst] in *.
    destruct expired.
    2:{ split; [exact R1|]. split; [apply Winv_note, W1|]. cbn [fst snd w_apps note]. rewrite Ea1. exact (AppsInv_sb _ _ _ S1 (AppsInv_sb _ _ _ S0 AIv)). }
    destruct (Hto app now (f_p f1) addr Ha Haw (rep_p _ _ R1) Tn) as (a' & E & Ha'). rewrite E. cbn [bind].
    apply (Use f1 w1 a'); [exact R1|rewrite (sb_state _ _ S1), (sb_state _ _ S0); exact Hs|exact W1|exact Ea1|exact Ha'|].
    intros f3 w3 R3 W3 Hs3 T3 F3. apply do_use_token_wpA; [exact R3|exact Tn|rewrite T3; exact Hw1|exact W3|rewrite Hs3; reflexivity|exact F3].
Qed.

End WithApps.

Section Total.
Variable A : Type.
Variable ops : app_ops A.
Variable n : nat.
Hypothesis Happs : apps_total A ops.
Notation W := (world A).
Notation Winv := (Winv A n).
Notation PostRW := (PostRW A n).

Lemma apps_total_contract : contract_of A ops (fun _ => True) (fun _ _ => True).
Proof.
  destruct Happs as (Htx & Hrx & Hto). split; [|split].
  - intros a now p hp _ _ _. destruct (Htx a now p hp) as (a' & r & E & Hr). exists a', r.
    split; [exact E|]. split; [exact I|]. destruct r as [[wire er]|]; auto.
  - intros a now p addr t _ _ _ _ _. destruct (Hrx a now p addr t) as (a' & E). eauto.
  - intros a now p addr _ _ _ _. destruct (Hto a now p addr) as (a' & E). eauto.
Qed.

Lemma do_use_token_wp f now (w : W) : Rep n f -> time_ok now -> w_tx w = None -> Winv w ->
  kind_of (f_state f) = KUseToken ->
  wp (do_use_token A ops f now w) PostRW.
Proof.
  intros R Tn Hw Wi Hk.
  eapply wp_mono; [apply (do_use_token_wpA A ops _ _ n apps_total_contract); try assumption; apply Forall_forall; auto|].
  intros x (Rx & Wx & _). split; assumption.
Qed.

Lemma do_await_data_response_wp f now (w : W) : Rep n f -> time_ok now -> w_tx w = None -> Winv w ->
  kind_of (f_state f) = KAwaitDataResponse ->
  wp (do_await_data_response A ops f now w) PostRW.
Proof.
  intros R Tn Hw Wi Hk.
  eapply wp_mono; [apply (do_await_data_response_wpA A ops _ _ n apps_total_contract); try assumption|].
  - split; [apply Forall_forall; auto|]. intros addr tk fa Es.
    pose proof (rep_st _ _ R) as St. rewrite Es in St. destruct St as (_ & Hna). destruct Wi as (_ & Wa).
    destruct (nth_error (w_apps w) (f_next_app f)) eqn:En; [eauto|]. apply nth_error_None in En. lia.
  - intros x (Rx & Wx & _). split; assumption.
Qed.

Lemma dispatch_wp f now (w : W) : Rep n f -> time_ok now -> w_tx w = None -> Winv w ->
  f_conn f = ConnOnline -> kind_of (f_state f) <> KOffline ->
  wp (dispatch A ops f now w) PostRW.
Proof.
  intros R Tn Hw Wi Hc Hk. pose proof (rep_st _ _ R) as St. unfold dispatch.
  destruct (kind_of (f_state f)) eqn:K; cbn [poll_dispatch].
  - contradiction Hk. reflexivity.
  - destruct (f_state f); try discriminate K. contradiction St.
  - apply do_listen_token_wp; assumption.
  - apply do_active_idle_wp; assumption.
  - apply do_use_token_wp; assumption.
  - apply do_claim_token_wp; assumption.
  - apply do_await_data_response_wp; assumption.
  - apply do_pass_token_wp; assumption.
  - apply do_check_token_pass_wp; assumption.
  - apply do_await_status_response_wp; assumption.
Qed.

Lemma poll_inner_wp f now busy (w : W) : Rep n f -> time_ok now -> w_tx w = None -> Winv w ->
  wp (poll_inner ops f now busy w) PostRW.
Proof.
  intros R Tn Hw Wi. unfold poll_inner.
  pose proof (rep_conn _ _ R) as C. pose proof (rep_st _ _ R) as St.
  eapply wp_bind with (P := fun x => let '(f1, w1, off) := x in
     Rep n f1 /\ Winv w1 /\ (off = false -> w_tx w1 = None /\ f_conn f1 = ConnOnline /\ kind_of (f_state f1) <> KOffline)).
  - destruct (f_conn f) eqn:Ec.
    + destruct (f_state f); cbn in C; try (exfalso; congruence); try contradiction.
      cbn. split; [exact R|]. split; [exact Wi|discriminate].
    + exfalso. destruct (f_state f); cbn in C; try congruence; try contradiction.
    + destruct (online_entry_kind (kind_of (f_state f))) eqn:Eo.
      * destruct (f_state f) eqn:Hs; try discriminate Eo; [|contradiction St].
        rewrite (trans_ok A f _ _ (ListenToken None 0)) by (rewrite Hs; reflexivity).
        cbn. split; [apply Rep_set_st; [exact R|exact Ec|cbn; lia]|]. split; [apply Winv_note, Wi|].
        intros _. split; [exact Hw|]. split; [exact Ec|discriminate].
      * cbn. split; [exact R|]. split; [exact Wi|]. intros _. split; [exact Hw|]. split; [exact Ec|].
        intros K. rewrite K in Eo. discriminate Eo.
  - intros [[f1 w1] off] (R1 & W1 & Ho). destruct off; [cbn; split; assumption|].
    destruct (Ho eq_refl) as (Hw1 & Hc1 & Hk1). clear Ho.
    unfold check_for_ongoing_transmision.
    destruct (mark_bus_activity_rep n f1 now R1 Tn) as (Rm & Sm).
    match goal with |- context [if ?c then _ else _] => destruct c end.
    + cbn. split; [exact Rm|]. destruct busy; apply Winv_note, W1.
    + unfold check_for_bus_activity.
      destruct (Nat.ltb (f_pending f1) (length (w_rx w1))); [|apply dispatch_wp; assumption].
      apply dispatch_wp; [apply Rep_set_pending, Rm|exact Tn|exact Hw1|apply Winv_note, W1| |].
      * cbn [f_conn set_pending]. rewrite (sb_conn _ _ Sm). exact Hc1.
      * cbn [f_state set_pending]. rewrite (sb_state _ _ Sm). exact Hk1.
Qed.

End Total.

Section Poll.
Variable A : Type.
Variable ops : app_ops A.
Hypothesis Happs : apps_total A ops.

(* C05_rep_step.  The model's loops carry their own bounds: the receive loop runs with fuel
   `receive_all_fuel rx = S (length rx)`, the application loop is a structural recursion over
   `length apps`; "Ok" below therefore means: no panic and neither bound is exhausted. *)
Theorem poll_rep_step (f : fdl) (now : Z) (pin : phy_in) (apps : list A) :
  Rep (length apps) f -> time_ok now -> all_bytes (rx pin) ->
  exists f' o apps' c, poll ops f now pin apps = Ok (f', o, apps', c) /\
                       Rep (length apps) f' /\ length apps' = length apps.
Proof.
  intros R Tn Hb. unfold poll, poll_traced.
  pose proof (poll_inner_wp A ops (length apps) Happs f now (tx_busy pin) (mkWorld (rx pin) None apps [] []) R Tn eq_refl) as H.
  destruct (wp_ok _ _ (H (conj Hb eq_refl))) as ([f' w'] & E & (R' & (_ & Wa))).
  rewrite E. cbn [bind]. eexists. eexists. eexists. eexists. split; [reflexivity|]. split; assumption.
Qed.

Lemma fuel_is_rx_plus_one (rxb : bytes) : receive_all_fuel rxb = S (length rxb).
Proof. reflexivity. Qed.

Lemma Rep_set_online k f : Rep k f -> exists f', set_online f = Ok f' /\ Rep k f'.
Proof.
  intros R. exists (set_conn f ConnOnline). split; [reflexivity|].
  destruct R as [Rp Rr Rc Rg Rs Rl Rt Rn]. constructor; cbn; try assumption.
  destruct (f_state f); cbn in *; try reflexivity; try discriminate; assumption.
Qed.

Lemma Rep_set_offline k f : Rep k f -> exists f', set_offline f = Ok f' /\ Rep k f'.
Proof.
  intros R. unfold set_offline, set_state.
  destruct (fdl_new_rep k (f_p f) (rep_p _ _ R)) as [f0 (E & R0 & _)]. exists f0. split; assumption.
Qed.

Lemma rep_api k f : Rep k f ->
  (exists f1, set_online f = Ok f1 /\ Rep k f1) /\ (exists f2, set_offline f = Ok f2 /\ Rep k f2).
Proof. intros R. split; [exact (Rep_set_online k f R)|exact (Rep_set_offline k f R)]. Qed.

Theorem rep_init k p : builder_valid p ->
  exists f0, fdl_new p = Ok f0 /\ Rep k f0 /\
    (exists f1, set_online f0 = Ok f1 /\ Rep k f1) /\ (exists f2, set_offline f0 = Ok f2 /\ Rep k f2).
Proof.
  intros B. destruct (fdl_new_rep k p B) as [f0 (E & R0 & _)]. exists f0. split; [exact E|]. split; [exact R0|].
  split; [apply Rep_set_online, R0|apply Rep_set_offline, R0].
Qed.

(* histories: polls (any time in range, any PHY answer, any received bytes) interleaved with the
   implemented connectivity calls *)
Inductive api_ev : Type :=
| EvPoll (now : Z) (pin : phy_in)
| EvOnline
| EvOffline.

Definition ev_ok (e : api_ev) : Prop :=
  match e with EvPoll now pin => time_ok now /\ all_bytes (rx pin) | _ => True end.

Fixpoint run_events (f : fdl) (apps : list A) (evs : list api_ev) : res (fdl * list A) :=
  match evs with
  | [] => Ok (f, apps)
  | EvPoll now pin :: t =>
      let* (f', _, apps', _) := poll ops f now pin apps in run_events f' apps' t
  | EvOnline :: t => let* f' := set_online f in run_events f' apps t
  | EvOffline :: t => let* f' := set_offline f in run_events f' apps t
  end.

Lemma run_events_rep evs : forall f apps, Rep (length apps) f -> Forall ev_ok evs ->
  exists f' apps', run_events f apps evs = Ok (f', apps') /\ Rep (length apps) f' /\ length apps' = length apps.
Proof.
  induction evs as [|e t IH]; intros f apps R F.
  - exists f, apps. cbn. tauto.
  - inversion F as [|? ? He Ft]; subst. destruct e as [now pin| |]; cbn [run_events].
    + destruct He as (Tn & Hb).
      destruct (poll_rep_step f now pin apps R Tn Hb) as (f' & o & apps' & c & E & R' & L).
      rewrite E. cbn [bind]. rewrite <- L in R'.
      destruct (IH f' apps' R' Ft) as (f2 & apps2 & E2 & R2 & L2).
      exists f2, apps2. split; [exact E2|]. rewrite <- L. split; [exact R2|exact L2].
    + destruct (Rep_set_online _ f R) as (f' & E & R'). rewrite E. cbn [bind]. apply IH; assumption.
    + destruct (Rep_set_offline _ f R) as (f' & E & R'). rewrite E. cbn [bind]. apply IH; assumption.
Qed.

Theorem no_panic p (apps : list A) (evs : list api_ev) : builder_valid p -> Forall ev_ok evs ->
  exists f0 f' apps', fdl_new p = Ok f0 /\ run_events f0 apps evs = Ok (f', apps') /\ Rep (length apps) f'.
Proof.
  intros B F. destruct (fdl_new_rep (length apps) p B) as [f0 (E & R0 & _)].
  destruct (run_events_rep evs f0 apps R0 F) as (f' & apps' & E' & R' & _).
  exists f0, f', apps'. tauto.
Qed.

End Poll.

(* non-vacuity: the unit application `impl FdlApplication for ()` is total *)
Lemma unit_apps_total : apps_total unit unit_app_ops.
Proof.
  split; [|split].
  - intros a now p hp. exists a, None. split; [reflexivity|exact I].
  - intros a now p addr t. exists a. reflexivity.
  - intros a now p addr. exists a. reflexivity.
Qed.
