(* C06, single-station half (recovery mechanisms of one station) over Model/Fdl.v:
   claim only after the station's own silence time-out (claim_needs_timeout) and the
   address stagger of that time-out; back-off to ActiveIdle on unexpected telegrams; the address-collision
   counters; discarding of undecodable bytes; a lone station on a silent bus claims the token at the
   first poll after its time-out. *)
From PB Require Import Common Tables FdlTables Telegram Phy TokenRing Params Fdl FdlProofs FdlStepProofs DecodeSpec C16Proofs C11Proofs.

(* the expected answer to a GAP poll of address a: a response telegram from a to this station *)
Definition gap_reply_from (tsa a : Z) (t : telegram) : bool :=
  match t with
  | TData (mkHeader da sa _ _ (FcResponse _ _)) _ => (sa =? a) && (da =? tsa)
  | _ => false
  end.

(* states in which the station looks at the receive buffer *)
Definition listens (s : state) : bool :=
  match s with
  | ListenToken None _ | ActiveIdle None _ _ | ClaimToken (StepScanAwaitResponse _)
  | AwaitDataResponse _ _ _ | CheckTokenPass _ | AwaitStatusResponse _ => true
  | _ => false
  end.

Lemma baud_pos b : 0 < baud_to_rate b.
Proof. destruct b; cbn; lia. Qed.

(* bits_to_time rounds down, so k slot times are at most the time of k slots *)
Lemma token_lost_timeout_stagger p1 p2 :
  p_baud p1 = p_baud p2 -> p_slot_bits p1 = p_slot_bits p2 -> 0 <= p_slot_bits p1 ->
  p_address p1 < p_address p2 ->
  token_lost_timeout p1 + 2 * (p_address p2 - p_address p1) * slot_time p1 <= token_lost_timeout p2.
Proof.
  intros Hb Hs Hs0 Ha.
  unfold token_lost_timeout, slot_time, p_bits_to_time, bits_to_time, token_lost_base, token_lost_per_addr. rewrite <- Hb, <- Hs.
  pose proof (baud_pos (p_baud p1)) as HR. apply Z.div_le_lower_bound; [exact HR|].
  pose proof (Z.mul_div_le (p_slot_bits p1 * (6 + 2 * p_address p1) * 1000000) _ HR).
  pose proof (Z.mul_div_le (p_slot_bits p1 * 1000000) _ HR). nia.
Qed.

Lemma token_lost_timeout_increasing p1 p2 :
  p_baud p1 = p_baud p2 -> p_slot_bits p1 = p_slot_bits p2 -> 0 <= p_slot_bits p1 -> 1 <= slot_time p1 ->
  p_address p1 < p_address p2 -> token_lost_timeout p1 + 2 * slot_time p1 <= token_lost_timeout p2.
Proof. intros Hb Hs Hs0 Hst Ha. pose proof (token_lost_timeout_stagger p1 p2 Hb Hs Hs0 Ha). nia. Qed.

Section WithApps.
Variable A : Type.
Variable ops : app_ops A.
Notation W := (world A).

Lemma heard_not_claim s : heard_kind s -> kind_of s <> KClaimToken.
Proof. destruct s; cbn; try contradiction; discriminate. Qed.

Lemma in_pass_poll_not_claim f now pin (apps : list A) f' o a c :
  in_pass (f_state f) = true -> poll ops f now pin apps = Ok (f', o, a, c) -> kind_of (f_state f') <> KClaimToken.
Proof.
  intros Ep H Hk. destruct (f_state f) as [ | | | | | | |dg att|att| ] eqn:Es; try discriminate Ep.
  - destruct (pass_token_poll A ops f now pin apps f' o a c dg att Es H) as (_ & _ & _ & _ & D).
    destruct D as [(_ & Hs & _)|[(addr & _ & _ & Hs & _)|(r' & _ & _ & _ & Hs)]]; rewrite Hs in Hk; try discriminate Hk.
    destruct (r_ns r' =? ts f); discriminate Hk.
  - destruct (check_pass_poll A ops f now pin apps f' o a c att Es H) as (_ & _ & _ & D).
    destruct (slot_expired f now pin).
    + destruct D as (_ & r1 & _ & [(_ & Hs & _)|(r' & _ & _ & _ & Hs)]); rewrite Hs in Hk; try discriminate Hk.
      destruct (r_ns r' =? ts f); discriminate Hk.
    + destruct D as (_ & _ & D). revert D.
      destruct (tx_busy pin || predicted f now); [|destruct (decode_spec (rx pin))];
        try (intros (Hs & _); rewrite Hs in Hk; discriminate Hk). intros Hh. exact (heard_not_claim _ Hh Hk).
Qed.

(* claim_needs_timeout (C06_claim_only_after_timeout): whatever the state and the input, a poll takes
   the station into ClaimToken only from ListenToken / ActiveIdle (or from Offline / PassiveIdle, in the
   poll that takes it online) and only if the bus activity it has recorded - new receive bytes of this
   very poll included - lies at least its token-lost time-out in the past. *)
Theorem claim_needs_timeout f now pin (apps : list A) f' o a c :
  kind_of (f_state f) <> KClaimToken -> poll ops f now pin apps = Ok (f', o, a, c) ->
  kind_of (f_state f') = KClaimToken ->
  tx_busy pin = false /\ predicted f now = false /\
  token_lost_timeout (f_p f) <= Z.abs (now - lba_seen f now (length (rx pin))) /\
  (kind_of (f_state f) = KListenToken \/ kind_of (f_state f) = KActiveIdle \/
   kind_of (f_state f) = KOffline \/ kind_of (f_state f) = KPassiveIdle).
Proof.
  intros Hnc H Hk.
  destruct (in_pass (f_state f)) eqn:Ep; [destruct (in_pass_poll_not_claim _ _ _ _ _ _ _ _ Ep H Hk)|].
  apply poll_inv in H as (w' & H & _).
  apply poll_inner_cases in H as [(_ & _ & -> & _)|(_ & f0 & w0 & Hpro & H)]; [contradiction|].
  destruct (prologue_frame A _ _ _ _ Hpro) as (Hp0 & _ & Hl0 & Hpe0 & _ & Htx0 & _ & Hrx0 & _). cbn [w_tx w_rx] in Htx0, Hrx0.
  (* after the prologue: the station as it was, or freshly listening, or passive *)
  assert (Hk0 : (f0 = f \/ kind_of (f_state f0) = KPassiveIdle \/
                 (f_state f0 = ListenToken None 0 /\ (kind_of (f_state f) = KOffline \/ kind_of (f_state f) = KPassiveIdle)))).
  { destruct Hpro as [f1 w1|f1 w1 s' _ _ [(-> & _ & He)| ->]]; [left; reflexivity| |right; left; reflexivity].
    right. right. split; [reflexivity|]. destruct (f_state f1); try discriminate He; tauto. }
  apply body_inv in H. replace (predicted f0 now) with (predicted f now) in H by (unfold predicted; rewrite Hl0; reflexivity).
  destruct (tx_busy pin || predicted f now) eqn:Eb.
  - exfalso. destruct H as [-> _]. cbn in Hk. destruct Hk0 as [->|[E|[E _]]]; [contradiction|rewrite E in Hk; discriminate Hk..].
  - apply orb_false_elim in Eb as [Eb1 Eb2]. split; [exact Eb1|split; [exact Eb2|]].
    destruct H as (l & n & tr & H & Hseen & _).
    replace (lba_seen f0 now (length (w_rx w0))) with (lba_seen f now (length (rx pin))) in Hseen
      by (unfold lba_seen; rewrite Hrx0, Hpe0, Hl0; reflexivity).
    rewrite <- Hseen, <- Hp0. unfold dispatch in H. cbn [f_state set_pending set_lba] in H.
    destruct (f_state f0) eqn:Es0; cbn [kind_of poll_dispatch] in H; try discriminate H.
    + apply do_listen_token_never_accepts in H as [H|[H|[H|(_ & l0 & Hl & Hto)]]]; try (rewrite H in Hk; discriminate Hk).
      split; [destruct Hl as [Hl|[Hl ->]]; cbn in Hl; unfold goi_val; cbn; rewrite Hl; exact Hto|].
      destruct Hk0 as [->|[E|[_ E]]]; [rewrite Es0|discriminate E|]; tauto.
    + apply do_active_idle_heard in H as [Hh|(Hto & _)]; [destruct (heard_not_claim _ Hh Hk)|].
      split; [exact Hto|]. destruct Hk0 as [->|[E|[E _]]]; [rewrite Es0; tauto|discriminate E..].
    + apply do_use_token_entry2 in H as [_ H]; [contradiction|exact Htx0].
    + destruct Hk0 as [->|[E|[E _]]]; [rewrite Es0 in Hnc; contradiction Hnc; reflexivity|discriminate E..].
    + apply do_await_data_response_entry2 in H as [_ H]; [contradiction|exact Htx0].
    + destruct Hk0 as [->|[E|[E _]]]; [rewrite Es0 in Ep; discriminate Ep|discriminate E..].
    + destruct Hk0 as [->|[E|[E _]]]; [rewrite Es0 in Ep; discriminate Ep|discriminate E..].
    + apply do_await_status_response_entry2 in H as [_ H]; [contradiction|exact Htx0].
Qed.

Lemma claim_needs_silence f now pin (apps : list A) f' o a c :
  0 < token_lost_timeout (f_p f) ->
  kind_of (f_state f) <> KClaimToken -> poll ops f now pin apps = Ok (f', o, a, c) ->
  kind_of (f_state f') = KClaimToken ->
  (length (rx pin) <= f_pending f)%nat /\ exists l, f_lba f = Some l /\ l < now /\ token_lost_timeout (f_p f) <= now - l.
Proof.
  intros Hto Hnc H Hk. destruct (claim_needs_timeout f now pin apps f' o a c Hnc H Hk) as [_ [Hp [Hc _]]].
  unfold lba_seen in Hc. unfold predicted in Hp.
  destruct (Nat.ltb_spec (f_pending f) (length (rx pin))) as [C|C], (f_lba f) as [l|]; try apply Z.leb_gt in Hp; try lia.
  split; [exact C|]. exists l. repeat split; lia.
Qed.

Lemma ts_p f g : f_p f = f_p g -> ts f = ts g.
Proof. unfold ts. intros ->. reflexivity. Qed.

Lemma await_unexpected f now (w : W) pa t n f1 w1 r :
  decode_spec (w_rx w) = Accept t n -> gap_reply_from (ts f) pa t = false ->
  await_gap_poll_response A f now w pa = Ok (f1, w1, r) ->
  r = GprUnexpectedTelegram /\ f1 = mark_rx f now /\
  exists tr, w1 = mkWorld (skipn n (w_rx w)) (w_tx w) (w_apps w) (w_calls w) tr.
Proof.
  intros Hd Hg (tr & H)%await_gap_poll_response_inv. unfold gap_reply_from in Hg. rewrite Hd, Hg in H.
  destruct H as (-> & -> & ->). repeat split. exists tr. reflexivity.
Qed.

Definition unexpected_for (f : fdl) (t : telegram) : Prop :=
  match f_state f with
  | AwaitDataResponse addr _ _ => is_valid_response f addr t = false
  | AwaitStatusResponse a => gap_reply_from (ts f) a t = false
  | ClaimToken (StepScanAwaitResponse a) => gap_reply_from (ts f) a t = false
  | _ => False
  end.

(* A station that holds the token and waits for an answer (to a data request, to a GAP poll while
   passing, to a GAP poll of the post-claim scan) and finds a complete telegram that is not that answer
   gives the token up: ActiveIdle, nothing transmitted, no application called, ring view unchanged. *)
Theorem backoff f now pin (apps : list A) t n f' o a c :
  unexpected_for f t -> tx_busy pin = false -> predicted f now = false ->
  decode_spec (rx pin) = Accept t n ->
  poll ops f now pin apps = Ok (f', o, a, c) ->
  f_state f' = ActiveIdle None None 0 /\ o = mkPhyOut None (skipn n (rx pin)) /\ c = [] /\ a = apps /\
  f_ring f' = f_ring f /\ f_p f' = f_p f.
Proof.
  intros Hu Hb Hp Hd H. unfold unexpected_for in Hu.
  apply poll_stable_body in H as (w' & H & -> & -> & ->);
    [|destruct (f_state f) as [ | | | | |[ | | |a0]| | | | ]; try contradiction; reflexivity].
  apply body_inv in H. rewrite Hb, Hp in H. destruct H as (l & k & tr & H & _). cbn [w_rx w_tx w_apps w_calls orb] in H.
  unfold dispatch in H. cbn [f_state set_pending set_lba] in H.
  match type of H with context [do_use_token A ops ?g] => set (f1 := g) in H end.
  destruct (f_state f) as [ | | | | |[ | | |a0]|addr tk fa| | |a0] eqn:Es; try contradiction; cbn [kind_of poll_dispatch] in H.
  - unfold do_claim_token, assert_entry in H. change (f_state f1) with (f_state f) in H. rewrite Es in H.
    cbn [kind_of do_fn_entry state_kind_eqb bind get_claim_token_step] in H.
    apply bind_ok in H as ([[f2 w2] r] & Ea & H).
    apply await_unexpected with (t := t) (n := n) in Ea as (-> & -> & tr2 & ->); [|exact Hd|exact Hu].
    apply (trans_from A (ClaimToken (StepScanAwaitResponse a0))) in H as (s' & [= <-] & -> & ->); [|rewrite mark_rx_max; exact Es].
    rewrite mark_rx_max. repeat split; reflexivity.
  - unfold do_await_data_response, assert_entry in H. change (f_state f1) with (f_state f) in H. rewrite Es in H.
    cbn [kind_of do_fn_entry state_kind_eqb bind get_await_data_response] in H.
    destruct (nth_error _ _) as [app|]; [|discriminate H].
    rewrite receive_telegram_spec in H. cbn [w_rx] in H. rewrite Hd, mark_rx_max in H. cbn [bind] in H.
    change (is_valid_response _ addr t) with (is_valid_response f addr t) in H. rewrite Hu in H.
    apply (trans_from A (AwaitDataResponse addr tk fa)) in H as (s' & [= <-] & -> & ->); [|exact Es]. repeat split; reflexivity.
  - unfold do_await_status_response, assert_entry in H. change (f_state f1) with (f_state f) in H. rewrite Es in H.
    cbn [kind_of do_fn_entry state_kind_eqb bind get_await_status_response_address] in H.
    apply bind_ok in H as ([[f2 w2] r] & Ea & H).
    apply await_unexpected with (t := t) (n := n) in Ea as (-> & -> & tr2 & ->); [|exact Hd|exact Hu].
    apply (trans_from A (AwaitStatusResponse a0)) in H as (s' & [= <-] & -> & ->); [|rewrite mark_rx_max; exact Es].
    rewrite mark_rx_max. repeat split; reflexivity.
Qed.

(* ListenToken: EVERY telegram whose source address is the own address counts (tokens and data
   telegrams alike, addressed to anybody); the first is tolerated, the second takes the station offline:
   the whole station is re-created (set_offline = FdlActiveStation::new with the same parameters). *)
Lemma listen_collision_inv now f (w : W) t il sr cc f' w' u :
  f_state f = ListenToken sr cc -> f_conn f <> ConnOffline -> source_address t = Some (ts f) ->
  listen_token_telegram A now (f, w) t il = Ok (f', w', u) ->
  cc + 1 <= 255 /\
  if cc + 1 =? listen_collision_tolerated then f' = set_st (mark_rx f now) (ListenToken sr (cc + 1))
  else fdl_new (f_p f) = Ok f'.
Proof.
  intros Hst Hc Hsrc H. unfold listen_token_telegram in H. rewrite mark_rx_max in H.
  cbn [f_conn f_state set_lba set_pending] in H. change (ts (set_lba _ _)) with (ts f) in H.
  assert (E : forall X Y : res (fdl * W * unit), match f_conn f with ConnOffline => X | _ => Y end = Y)
    by (intros X Y; destruct (f_conn f); [contradiction Hc|..]; reflexivity).
  rewrite E, Hsrc, Hst in H. cbn [opt_eqb get_listen_token bind] in H. rewrite Z.eqb_refl in H.
  unfold u8_add in H. destruct (Z.leb_spec (cc + 1) 255) as [Hle|_]; cbn [bind] in H; [|discriminate H].
  split; [exact Hle|]. destruct (cc + 1 =? listen_collision_tolerated).
  - injection H as <- _ _. rewrite mark_rx_max. reflexivity.
  - apply bind_ok in H as (g & Hg & [= <- _ _]). exact Hg.
Qed.

Lemma listen_collision now f (w : W) t il sr cc f' w' u :
  f_state f = ListenToken sr cc -> f_conn f <> ConnOffline -> source_address t = Some (ts f) ->
  listen_token_telegram A now (f, w) t il = Ok (f', w', u) ->
  cc + 1 <= 255 /\
  if cc + 1 =? listen_collision_tolerated
  then f_state f' = ListenToken sr (cc + 1) /\ f_conn f' = f_conn f /\ f_ring f' = f_ring f
  else fdl_new (f_p f) = Ok f'.
Proof.
  intros Hst Hc Hsrc H. destruct (listen_collision_inv _ _ _ _ _ _ _ _ _ _ Hst Hc Hsrc H) as [Hle Hf]. split; [exact Hle|].
  destruct (cc + 1 =? _); [subst f'; rewrite mark_rx_max; repeat split; reflexivity|exact Hf].
Qed.

Lemma lt_single_poll f now buf (apps : list A) cc t f' o a c :
  f_conn f = ConnOnline -> f_state f = ListenToken None cc ->
  (forall l, f_lba f = Some l -> l < now) -> (f_pending f < length buf)%nat ->
  decode_spec buf = Accept t (length buf) -> 0 < token_lost_timeout (f_p f) ->
  poll ops f now (mkPhyIn false buf) apps = Ok (f', o, a, c) ->
  exists f1 (w0 w1 : W) n,
    listen_token_telegram A now (set_pending (set_lba f (Some now)) n, w0) t true = Ok (f1, w1, tt) /\
    f' = set_pending f1 (Nat.min (f_pending f1) 0) /\ o = mkPhyOut None [].
Proof.
  intros Hc Hst Hlba Hpend Hdec Hto H.
  apply poll_inv in H as (w' & H & -> & _). cbn [tx_busy rx] in H.
  rewrite poll_inner_online in H; [|exact Hc|rewrite Hst; reflexivity].
  apply body_new_bytes in H as (tr & H); [|unfold predicted; destruct (f_lba f) as [l|]; [apply Z.leb_gt, Hlba|]; reflexivity|exact Hpend].
  cbn [w_rx w_tx w_apps w_calls] in H.
  unfold dispatch in H. cbn [f_state set_pending set_lba] in H. rewrite Hst in H. cbn [kind_of poll_dispatch] in H.
  match type of H with do_listen_token A ?g _ _ = _ => set (f1 := g) in H end.
  destruct (do_listen_token_result A f1 _ _ _ _ None cc Hst H) as [[Hcl _]%handle_lost_token_inv|[_ Hr]].
  { exfalso. cbn in Hcl. rewrite Z.sub_diag in Hcl. cbn in Hcl. lia. }
  unfold receive_all_telegrams, receive_all_fuel in Hr. cbn [w_rx] in Hr.
  rewrite receive_all_step, Hdec in Hr. cbv zeta in Hr. rewrite Nat.eqb_refl in Hr.
  apply bind_ok in Hr as ([[[f3 w3] rest] r] & ([[f4 w4] []] & Eh & [= <- <- <- <-])%bind_ok & [= <- <-]).
  pose proof (listen_token_telegram_keeps A now _ _ _ _ _ Eh) as Hk. cbn [snd w_tx] in Hk.
  do 4 eexists. split; [exact Eh|]. cbn. rewrite skipn_all, Hk. split; reflexivity.
Qed.

Lemma ai_collision_poll f now buf (apps : list A) nps cc da f' o a c :
  f_conn f = ConnOnline -> f_state f = ActiveIdle None nps cc ->
  (forall l, f_lba f = Some l -> l < now) -> (f_pending f < length buf)%nat ->
  decode_spec buf = Accept (TToken da (ts f)) (length buf) -> 0 < token_lost_timeout (f_p f) ->
  poll ops f now (mkPhyIn false buf) apps = Ok (f', o, a, c) ->
  o = mkPhyOut None [] /\ a = apps /\ c = [] /\ f_p f' = f_p f /\ f_conn f' = ConnOnline /\ f_ring f' = f_ring f /\
  f_lba f' = Some now /\ f_pending f' = 0%nat /\
  f_state f' = if cc + 1 =? active_idle_collision_tolerated then ActiveIdle None nps (cc + 1) else ListenToken None 0.
Proof.
  intros Hc Hst Hlba Hpend Hdec Hto H.
  apply ai_single_poll with (nps := nps) (cc := cc) (t := TToken da (ts f)) in H; try assumption.
  destruct H as (fm & g & w0 & w1 & Hsm & Hrm & Hpm & Hcm & Hh & Hs1 & Hr1 & Hp1 & Hc1 & Hl1 & Hpe1 & -> & -> & ->).
  rewrite <- (ts_p fm f Hpm) in Hh.
  pose proof Hh as (_ & _ & Hpg & _)%handle_telegram_heard; [|rewrite Hsm, Hst; exact I].
  apply (handle_telegram_collision A fm w0 now None nps cc da true g w1) in Hh as (_ & Hrg & Hcg & Hsg); [|congruence].
  repeat split; congruence.
Qed.

(* C06_collision_leaves, ActiveIdle, as a history of two polls: a token telegram with the own address
   as source (whoever it is addressed to) is tolerated once - the station stays in the ring and only
   counts; a second one in a row makes it leave the ring for ListenToken.  (A token of any other station
   in between resets the counter: C11_not_last_only_witnessed / C11_accept_iff give ActiveIdle _ _ 0.)
   Only token telegrams are examined here, unlike in ListenToken. *)
Theorem collision_active_idle f now1 (apps : list A) nps da1 f1 o1 a1 c1 :
  f_conn f = ConnOnline -> f_state f = ActiveIdle None nps 0 ->
  (forall l, f_lba f = Some l -> l < now1) -> (f_pending f < 3)%nat -> 0 < token_lost_timeout (f_p f) ->
  poll ops f now1 (mkPhyIn false (encode_token da1 (ts f))) apps = Ok (f1, o1, a1, c1) ->
  (f_state f1 = ActiveIdle None nps 1 /\ is_in_ring f1 = true /\ f_ring f1 = f_ring f /\ o1 = mkPhyOut None [] /\ a1 = apps /\ c1 = []) /\
  forall now2 da2 f2 o2 a2 c2, now1 < now2 ->
    poll ops f1 now2 (mkPhyIn false (encode_token da2 (ts f))) a1 = Ok (f2, o2, a2, c2) ->
    f_state f2 = ListenToken None 0 /\ is_in_ring f2 = false /\ f_ring f2 = f_ring f /\ o2 = mkPhyOut None [] /\ c2 = [].
Proof.
  intros Hc Hst Hlba Hpend Hto H.
  apply (ai_collision_poll f now1 _ apps nps 0 da1) in H as (-> & -> & -> & Hp1 & Hc1 & Hr1 & Hl1 & Hpe1 & Hs1); try assumption; try reflexivity.
  cbn in Hs1. split; [repeat split; try assumption; unfold is_in_ring; rewrite Hs1; reflexivity|].
  intros now2 da2 f2 o2 a2 c2 Hnow H2. rewrite <- (ts_p f1 f Hp1) in H2.
  apply (ai_collision_poll f1 now2 _ apps nps 1 da2) in H2 as (-> & _ & -> & _ & _ & Hr2 & _ & _ & Hs2); try assumption; try reflexivity.
  - cbn in Hs2. repeat split; try congruence. unfold is_in_ring. rewrite Hs2. reflexivity.
  - intros l El. rewrite Hl1 in El. injection El as <-. exact Hnow.
  - rewrite Hpe1. cbn. lia.
  - rewrite Hp1. exact Hto.
Qed.

Lemma lt_collision_poll f now buf (apps : list A) cc t f' o a c :
  f_conn f = ConnOnline -> f_state f = ListenToken None cc ->
  (forall l, f_lba f = Some l -> l < now) -> (f_pending f < length buf)%nat ->
  decode_spec buf = Accept t (length buf) -> 0 < token_lost_timeout (f_p f) -> source_address t = Some (ts f) ->
  poll ops f now (mkPhyIn false buf) apps = Ok (f', o, a, c) ->
  o = mkPhyOut None [] /\
  if cc + 1 =? listen_collision_tolerated
  then f_state f' = ListenToken None (cc + 1) /\ f_conn f' = ConnOnline /\ f_ring f' = f_ring f /\ f_p f' = f_p f /\
       f_lba f' = Some now /\ f_pending f' = 0%nat
  else f_conn f' = ConnOffline /\ f_state f' = Offline.
Proof.
  intros Hc Hst Hlba Hpend Hdec Hto Hsrc H.
  apply lt_single_poll with (cc := cc) (t := t) in H as (g & w0 & w1 & n & Hh & -> & ->); try assumption.
  apply listen_collision_inv with (sr := None) (cc := cc) in Hh as [_ Hh]; [|exact Hst|cbn; rewrite Hc; discriminate|exact Hsrc].
  split; [reflexivity|]. destruct (cc + 1 =? _).
  - subst g. rewrite mark_rx_max. cbn. rewrite Z.max_id. repeat split. exact Hc.
  - unfold fdl_new in Hh. destruct (negb _); [discriminate Hh|]. destruct (negb _); [discriminate Hh|].
    apply bind_ok in Hh as (r & _ & [= <-]). split; reflexivity.
Qed.

(* C06_collision_leaves, ListenToken, as a history of two polls: any telegram t carrying the own address
   as source is tolerated once; the second such telegram takes the station offline. *)
Theorem collision_listen f now1 (apps : list A) buf1 t1 f1 o1 a1 c1 :
  f_conn f = ConnOnline -> f_state f = ListenToken None 0 ->
  (forall l, f_lba f = Some l -> l < now1) -> f_pending f = 0%nat -> 0 < token_lost_timeout (f_p f) ->
  decode_spec buf1 = Accept t1 (length buf1) -> source_address t1 = Some (ts f) ->
  poll ops f now1 (mkPhyIn false buf1) apps = Ok (f1, o1, a1, c1) ->
  (f_state f1 = ListenToken None 1 /\ f_conn f1 = ConnOnline /\ f_ring f1 = f_ring f /\ o1 = mkPhyOut None []) /\
  forall now2 buf2 t2 f2 o2 a2 c2, now1 < now2 ->
    decode_spec buf2 = Accept t2 (length buf2) -> source_address t2 = Some (ts f) ->
    poll ops f1 now2 (mkPhyIn false buf2) a1 = Ok (f2, o2, a2, c2) ->
    f_conn f2 = ConnOffline /\ f_state f2 = Offline /\ is_in_ring f2 = false /\ o2 = mkPhyOut None [].
Proof.
  intros Hc Hst Hlba Hpend Hto Hd1 Hsrc1 H.
  assert (Hlen : forall buf t, decode_spec buf = Accept t (length buf) -> (0 < length buf)%nat).
  { intros buf t Hd. destruct buf; [discriminate Hd|cbn; lia]. }
  apply (lt_collision_poll f now1 buf1 apps 0 t1) in H as (-> & Hs1 & Hc1 & Hr1 & Hp1 & Hl1 & Hpe1); try assumption;
    [|rewrite Hpend; exact (Hlen _ _ Hd1)].
  split; [repeat split; assumption|]. intros now2 buf2 t2 f2 o2 a2 c2 Hnow Hd2 Hsrc2 H2.
  rewrite <- (ts_p f1 f Hp1) in Hsrc2.
  apply (lt_collision_poll f1 now2 buf2 a1 1 t2) in H2 as (-> & Hc2 & Hs2); try assumption.
  - repeat split; try assumption. unfold is_in_ring. rewrite Hs2. reflexivity.
  - intros l El. rewrite Hl1 in El. injection El as <-. exact Hnow.
  - rewrite Hpe1. exact (Hlen _ _ Hd2).
  - rewrite Hp1. exact Hto.
Qed.

(* Undecodable bytes newly in the receive buffer, seen in a state that reads the buffer: the whole
   buffer is dropped, nothing is transmitted, no application is called, and nothing of the station
   changes but the bus-activity bookkeeping (last_bus_activity = now, pending_bytes = 0).  (In the
   other states the buffer is not looked at; the bytes stay until a reading state is reached.) *)
Theorem garbage_discarded f now pin (apps : list A) f' o a c :
  listens (f_state f) = true -> f_conn f = ConnOnline ->
  tx_busy pin = false -> predicted f now = false -> (f_pending f < length (rx pin))%nat ->
  decode_spec (rx pin) = Reject -> 0 <= slot_time (f_p f) -> 0 < token_lost_timeout (f_p f) ->
  poll ops f now pin apps = Ok (f', o, a, c) ->
  same_but_lba_pending f f' /\ f_pending f' = 0%nat /\ f_lba f' = Some now /\
  o = mkPhyOut None [] /\ a = apps /\ c = [].
Proof.
  intros Hli Hc Hb Hp Hn Hd Hsl Hto H.
  apply poll_inv in H as (w' & H & -> & -> & ->). rewrite Hb in H.
  rewrite poll_inner_online in H; [|exact Hc|destruct (f_state f) as [ | |[x|] y|[x|] y z| |[ | | |x]| | | | ]; try discriminate Hli; reflexivity].
  apply body_new_bytes in H as (tr & H); [|exact Hp|exact Hn]. cbn [w_rx w_tx w_apps w_calls] in H.
  unfold dispatch in H. cbn [f_state set_pending set_lba] in H.
  match type of H with context [do_use_token A ops ?g] => set (f1 := g) in H end.
  (* the slot timer was restarted by the new bytes, and so was the silence time-out *)
  assert (Hns : (now + slot_time (f_p f) <? now) = false) by (apply Z.ltb_ge; lia).
  assert (Hnc : forall P, token_lost_timeout (f_p f) <= Z.abs (now - now) /\ P -> False) by (intros P [C _]; rewrite Z.sub_diag in C; cbn in C; lia).
  destruct (f_state f) as [ | |[x|] cc|[x|] nps cc| |[ | | |a0]|addr tk fa| |att|a0] eqn:Es; try discriminate Hli;
    cbn [kind_of poll_dispatch] in H.
  - destruct (do_listen_token_result A f1 _ _ _ _ None cc Es H) as [C%handle_lost_token_inv|[_ Hr%receive_all_telegrams_none]]; [destruct (Hnc _ C)|].
    cbn [w_rx] in Hr. rewrite Hd in Hr. destruct Hr as [-> ->]. unfold same_but_lba_pending. cbn. rewrite Nat.min_0_r. repeat split.
  - destruct (do_active_idle_result A f1 _ _ _ _ None nps cc Es H) as [C%handle_lost_token_inv|[_ Hr%receive_all_telegrams_none]]; [destruct (Hnc _ C)|].
    cbn [w_rx] in Hr. rewrite Hd in Hr. destruct Hr as [-> ->]. unfold same_but_lba_pending. cbn. rewrite Nat.min_0_r. repeat split.
  - unfold do_claim_token, assert_entry in H. change (f_state f1) with (f_state f) in H. rewrite Es in H.
    cbn [kind_of do_fn_entry state_kind_eqb bind get_claim_token_step] in H.
    apply bind_ok in H as ([[f2 w2] r] & (tr2 & Ea)%await_gap_poll_response_inv & H). cbn [w_rx] in Ea. rewrite Hd in Ea.
    destruct Ea as (-> & -> & ->). cbn [goi_val f1 f_lba f_p set_lba set_pending] in H. rewrite Hns in H. injection H as <- <-.
    unfold same_but_lba_pending. cbn. rewrite Nat.min_0_r. repeat split.
  - unfold do_await_data_response, assert_entry in H. change (f_state f1) with (f_state f) in H. rewrite Es in H.
    cbn [kind_of do_fn_entry state_kind_eqb bind get_await_data_response] in H.
    destruct (nth_error _ _) as [app|]; [|discriminate H].
    rewrite receive_telegram_spec in H. cbn [w_rx] in H. rewrite Hd in H. cbn [bind] in H.
    apply bind_ok in H as ([f2 b] & [-> ->]%check_slot_inv & H). cbn [goi_val sync_pending_bytes f1 f_lba f_p set_lba set_pending] in H.
    rewrite Hns in H. injection H as <- <-.
    destruct (Nat.ltb _ _); unfold same_but_lba_pending; cbn; rewrite Nat.min_0_r; repeat split.
  - unfold do_check_token_pass, assert_entry in H. change (f_state f1) with (f_state f) in H. rewrite Es in H.
    cbn [kind_of do_fn_entry state_kind_eqb bind] in H.
    apply bind_ok in H as ([f2 b] & [-> ->]%check_slot_inv & H). cbn [goi_val f1 f_lba f_p set_lba set_pending] in H. rewrite Hns in H.
    unfold receive_all_fuel in H. rewrite receive_all_step in H. cbn [w_rx] in H. rewrite Hd in H. injection H as <- <-.
    unfold same_but_lba_pending. cbn. rewrite Nat.min_0_r. repeat split.
  - unfold do_await_status_response, assert_entry in H. change (f_state f1) with (f_state f) in H. rewrite Es in H.
    cbn [kind_of do_fn_entry state_kind_eqb bind get_await_status_response_address] in H.
    apply bind_ok in H as ([[f2 w2] r] & (tr2 & Ea)%await_gap_poll_response_inv & H). cbn [w_rx] in Ea. rewrite Hd in Ea.
    destruct Ea as (-> & -> & ->). cbn [goi_val f1 f_lba f_p set_lba set_pending] in H. rewrite Hns in H. injection H as <- <-.
    unfold same_but_lba_pending. cbn. rewrite Nat.min_0_r. repeat split.
Qed.

Definition idle_state (s : state) : Prop :=
  (exists cc, s = ListenToken None cc) \/ (exists nps cc, s = ActiveIdle None nps cc).

Definition silent_in (t : Z) : Z * phy_in := (t, mkPhyIn false []).

Lemma idle_silent_dispatch f now (w : W) l :
  idle_state (f_state f) -> f_lba f = Some l -> time_ok l -> time_ok now -> l <= now -> now - l < token_lost_timeout (f_p f) ->
  w_rx w = [] -> dispatch A ops f now w = Ok (set_pending f (Nat.min (f_pending f) 0), set_rx A w []).
Proof.
  intros Hi Hl Tl Tn Hlt Hto Hrx.
  assert (Hq : handle_lost_token A f now w = Ok (f, w, false)).
  { apply (handle_lost_token_quiet A f now w l Hl); [unfold time_ok in *; apply i64_ok_small; lia|rewrite Z.abs_eq by lia; exact Hto]. }
  unfold dispatch. destruct Hi as [[cc Hs]|[nps [cc Hs]]]; rewrite Hs; cbn [kind_of poll_dispatch].
  - unfold do_listen_token, assert_entry. rewrite Hs. cbn [kind_of do_fn_entry state_kind_eqb bind].
    rewrite Hq. cbn [bind]. rewrite Hs. cbn [get_listen_token bind].
    unfold receive_all_telegrams, receive_all_fuel. rewrite receive_all_step, Hrx. reflexivity.
  - unfold do_active_idle, assert_entry. rewrite Hs. cbn [kind_of do_fn_entry state_kind_eqb bind].
    rewrite Hq. cbn [bind]. rewrite Hs. cbn [get_active_idle bind].
    unfold receive_all_telegrams, receive_all_fuel. rewrite receive_all_step, Hrx. reflexivity.
Qed.

Lemma idle_silent_poll f now (apps : list A) l :
  f_conn f = ConnOnline -> idle_state (f_state f) -> f_lba f = Some l -> time_ok l -> time_ok now ->
  l < now -> now - l < token_lost_timeout (f_p f) ->
  exists f', poll ops f now (mkPhyIn false []) apps = Ok (f', mkPhyOut None [], apps, []) /\
             f_conn f' = ConnOnline /\ f_state f' = f_state f /\ f_lba f' = Some l /\ f_p f' = f_p f.
Proof.
  intros Hc Hi Hl Tl Tn Hlt Hto. unfold poll, poll_traced. cbn [tx_busy rx].
  rewrite poll_inner_online; [|exact Hc|destruct Hi as [[cc ->]|[nps [cc ->]]]; reflexivity].
  unfold body, predicted. rewrite Hl. destruct (Z.leb_spec now l) as [C|_]; [lia|]. cbn [orb].
  unfold check_for_bus_activity. cbn [w_rx length]. destruct (Nat.ltb_spec (f_pending f) 0) as [C|_]; [lia|].
  rewrite (idle_silent_dispatch f now _ l) by (try assumption; try reflexivity; lia).
  eexists. split; [reflexivity|]. cbn. repeat split; assumption.
Qed.

(* A station alone on a silent bus, listening or idling in its ring, with its last recorded bus
   activity at l: under ANY poll schedule - polls ts1 before the time-out has run out, in any number
   and spacing, then a poll at T at or after l + token_lost_timeout - no poll panics, the early polls
   transmit nothing and change nothing, and the poll at T transmits the claim token TS -> TS: the
   station holds the token again (ClaimToken).  So the station is back within its time-out plus one
   poll period after the last activity.  This covers the idle states without a pending status request;
   every state: C06Recover.lost_token_recovers_alone. *)
Theorem lone_station_claims : forall ts1 f (apps : list A) l T,
  f_conn f = ConnOnline -> idle_state (f_state f) -> f_lba f = Some l -> time_ok l ->
  Forall (fun t => time_ok t /\ l < t /\ t - l < token_lost_timeout (f_p f)) ts1 ->
  time_ok T -> token_lost_timeout (f_p f) <= T - l -> l + p_bits_to_time (f_p f) sync_pause_bits < T ->
  exists pre last,
    run_polls ops f apps (map silent_in (ts1 ++ [T])) = Ok (pre ++ [last]) /\
    Forall (fun s => tx (s_out s) = None /\ f_state (s_f' s) = f_state f) pre /\
    length pre = length ts1 /\
    s_now last = T /\ tx (s_out last) = Some (encode_token (ts f) (ts f)) /\
    f_state (s_f' last) = ClaimToken StepSecondToken /\ have_token (f_state (s_f' last)) = true.
Proof.
  induction ts1 as [|t ts1 IH]; intros f apps l T Hc Hi Hl Tl Hall TT Hto Hsync.
  - cbn [app map silent_in run_polls].
    destruct (claim_progress A ops f T [] apps l) as [f' [Hp Hs]]; try assumption.
    + destruct Hi as [[cc ->]|[nps [cc ->]]]; [left; eexists; eexists; reflexivity|right; eexists; eexists; eexists; reflexivity].
    + cbn. lia.
    + rewrite Hp. cbn [bind]. exists [], (mkStep f T (mkPhyIn false []) f' (mkPhyOut (Some (encode_token (ts f) (ts f))) [])).
      cbn. rewrite Hs. repeat split; try reflexivity. constructor.
  - inversion Hall as [|t0 l0 [Tt [Hlt Hbe]] Hall' E1]; subst.
    destruct (idle_silent_poll f t apps l Hc Hi Hl Tl Tt Hlt Hbe) as [f1 [Hp [Hc1 [Hs1 [Hl1 Hp1]]]]].
    cbn [app map silent_in run_polls]. fold silent_in. rewrite Hp. cbn [bind].
    rewrite <- Hp1 in Hall', Hto, Hsync. rewrite <- Hs1 in Hi.
    destruct (IH f1 apps l T Hc1 Hi Hl1 Tl Hall' TT Hto Hsync) as [pre [last [Hrun [Hpre [Hlen [Hnow [Htx [Hst Hht]]]]]]]].
    change (map (fun t => (t, mkPhyIn false [])) (ts1 ++ [T])) with (map silent_in (ts1 ++ [T])).
    rewrite Hrun. cbn [bind].
    exists (mkStep f t (mkPhyIn false []) f1 (mkPhyOut None []) :: pre), last.
    split; [reflexivity|]. split.
    + constructor; [cbn; split; [reflexivity|exact Hs1]|].
      eapply Forall_impl; [|exact Hpre]. intros s [E1 E2]. split; [exact E1|congruence].
    + cbn [length]. rewrite Hlen, <- (ts_p f1 f Hp1). repeat split; assumption.
Qed.

Lemma online_first_poll f t0 (apps : list A) :
  f_conn f = ConnOnline -> f_state f = Offline -> f_lba f = None -> 0 < token_lost_timeout (f_p f) ->
  exists f', poll ops f t0 (mkPhyIn false []) apps = Ok (f', mkPhyOut None [], apps, []) /\
             f_conn f' = ConnOnline /\ f_state f' = ListenToken None 0 /\ f_lba f' = Some t0 /\ f_p f' = f_p f.
Proof.
  intros Hc Hs Hl Hto. unfold poll, poll_traced, poll_inner. rewrite Hc, Hs. cbn [kind_of online_entry_kind tx_busy rx].
  unfold trans, transition_listen_token, assert_kind. rewrite Hs. cbn [kind_of may_transition_listen_token bind].
  rewrite body_eq. unfold body, predicted. cbn [f_lba set_st]. rewrite Hl. cbn [orb].
  unfold check_for_bus_activity. cbn [w_rx note length f_pending set_st]. destruct (Nat.ltb_spec (f_pending f) 0) as [C|_]; [lia|].
  unfold dispatch. cbn [f_state set_st kind_of poll_dispatch].
  unfold do_listen_token, assert_entry. cbn [f_state set_st kind_of do_fn_entry state_kind_eqb bind].
  unfold handle_lost_token, lba_get_or_insert, inst_diff. cbn [f_lba set_st]. rewrite Hl, Z.sub_diag.
  replace (i64_ok 0) with true by reflexivity. cbn [bind Z.abs f_p set_lba set_st].
  destruct (Z.leb_spec (token_lost_timeout (f_p f)) 0) as [C|_]; [lia|].
  cbn [bind f_state set_lba set_st get_listen_token].
  unfold receive_all_telegrams, receive_all_fuel. cbn [w_rx note length]. rewrite receive_all_step.
  eexists. split; [reflexivity|]. cbn. repeat split; assumption.
Qed.

(* holding the token in a state that does not read the receive buffer (UseToken, the transmitting steps
   of ClaimToken, PassToken): new receive bytes restart the synchronisation pause, so nothing is
   transmitted in that poll, the bytes stay buffered, and the state kind is kept *)
Definition holds_without_reading (s : state) : bool :=
  match s with
  | UseToken _ _ _ | PassToken _ _ | ClaimToken StepFirstToken | ClaimToken StepSecondToken | ClaimToken StepScan => true
  | _ => false
  end.

Theorem holding_defers f now pin (apps : list A) f' o a c :
  holds_without_reading (f_state f) = true -> tx_busy pin = false -> predicted f now = false ->
  (f_pending f < length (rx pin))%nat ->
  poll ops f now pin apps = Ok (f', o, a, c) ->
  o = mkPhyOut None (rx pin) /\ a = apps /\ c = [] /\ f_state f' = f_state f /\ f_ring f' = f_ring f.
Proof.
  intros Hh Hb Hp Hn H.
  apply poll_stable_body in H as (w' & H & -> & -> & ->);
    [|destruct (f_state f) as [ | | | | |[ | | |x]| | | | ]; try discriminate Hh; reflexivity].
  rewrite Hb in H. apply body_new_bytes in H as (tr & H); [|exact Hp|exact Hn]. cbn [w_rx w_tx w_apps w_calls] in H.
  unfold dispatch in H. cbn [f_state set_pending set_lba] in H.
  match type of H with context [do_use_token A ops ?g] => set (f1 := g) in H end.
  (* the synchronisation pause was restarted by the new bytes *)
  assert (Hw : forall g (v : W), f_lba g = Some now -> f_p g = f_p f -> f_state g = f_state f -> f_ring g = f_ring f ->
            w_rx v = rx pin -> w_tx v = None -> w_apps v = apps -> w_calls v = [] ->
            forall k, (let* (f2, wait) := wait_synchronization_pause g now in
                       if wait then Ok (f2, note A v TSyncWait) else k f2) = Ok (f', w') ->
            mkPhyOut (w_tx w') (w_rx w') = mkPhyOut None (rx pin) /\ w_apps w' = apps /\ w_calls w' = [] /\
            f_state f' = f_state f /\ f_ring f' = f_ring f).
  { intros g v Hl Hpg Hsg Hrg Hrx Htx Hap Hca k ([f2 b] & [-> ->]%wait_sync_inv & E)%bind_ok.
    unfold goi_val in E. rewrite Hl, Hpg in E. pose proof (sync_nonneg f) as Hs.
    destruct (Z.leb_spec now (now + p_bits_to_time (f_p f) sync_pause_bits)) as [_|C]; [|lia].
    injection E as <- <-. cbn. rewrite Hrx, Htx, Hap, Hca. repeat split; assumption. }
  destruct (f_state f) as [ | | | |tk fa fcd|[ | | |x]| |dg att| | ] eqn:Es; try discriminate Hh; cbn [kind_of poll_dispatch] in H.
  - unfold do_use_token, assert_entry in H. change (f_state f1) with (f_state f) in H. rewrite Es in H.
    cbn [kind_of do_fn_entry state_kind_eqb bind get_use_token] in H.
    apply bind_ok in H as ([f2 w2] & E2 & H).
    assert (H2 : exists lt e tr2, f2 = set_hold f1 lt e /\ w2 = mkWorld (rx pin) None apps [] tr2).
    { destruct (negb _); [|injection E2 as <- <-; do 3 eexists; split; [destruct f; reflexivity|reflexivity]].
      apply bind_ok in E2 as (e & _ & E2). destruct (f_gap f1); [|apply bind_ok in E2 as (e2 & _ & E2)];
        injection E2 as <- <-; do 3 eexists; split; reflexivity. }
    destruct H2 as (lt & e & tr2 & -> & ->). eapply Hw; [..|exact H]; try reflexivity; exact Es.
  - unfold do_claim_token, assert_entry in H. change (f_state f1) with (f_state f) in H. rewrite Es in H.
    eapply Hw; [..|exact H]; try reflexivity; exact Es.
  - unfold do_claim_token, assert_entry in H. change (f_state f1) with (f_state f) in H. rewrite Es in H.
    eapply Hw; [..|exact H]; try reflexivity; exact Es.
  - unfold do_claim_token, assert_entry in H. change (f_state f1) with (f_state f) in H. rewrite Es in H.
    eapply Hw; [..|exact H]; try reflexivity; exact Es.
  - unfold do_pass_token, assert_entry in H. change (f_state f1) with (f_state f) in H. rewrite Es in H.
    eapply Hw; [..|exact H]; try reflexivity; exact Es.
Qed.

Theorem fresh_station_claims : forall ts1 f (apps : list A) t0 T,
  f_conn f = ConnOnline -> f_state f = Offline -> f_lba f = None -> 0 < token_lost_timeout (f_p f) -> time_ok t0 ->
  Forall (fun t => time_ok t /\ t0 < t /\ t - t0 < token_lost_timeout (f_p f)) ts1 ->
  time_ok T -> token_lost_timeout (f_p f) <= T - t0 -> t0 + p_bits_to_time (f_p f) sync_pause_bits < T ->
  exists first pre last,
    run_polls ops f apps (map silent_in (t0 :: ts1 ++ [T])) = Ok (first :: pre ++ [last]) /\
    tx (s_out first) = None /\ f_state (s_f' first) = ListenToken None 0 /\
    Forall (fun s => tx (s_out s) = None /\ f_state (s_f' s) = ListenToken None 0) pre /\
    length pre = length ts1 /\
    s_now last = T /\ tx (s_out last) = Some (encode_token (ts f) (ts f)) /\
    f_state (s_f' last) = ClaimToken StepSecondToken /\ have_token (f_state (s_f' last)) = true.
Proof.
  intros ts1 f apps t0 T Hc Hs Hl Hto T0 Hall TT Hge Hsync.
  destruct (online_first_poll f t0 apps Hc Hs Hl Hto) as [f1 [Hp [Hc1 [Hs1 [Hl1 Hp1]]]]].
  rewrite <- Hp1 in Hall, Hge, Hsync.
  destruct (lone_station_claims ts1 f1 apps t0 T Hc1 (or_introl (ex_intro _ 0 Hs1)) Hl1 T0 Hall TT Hge Hsync)
    as [pre [last [Hrun [Hpre [Hlen [Hnow [Htx [Hst Hht]]]]]]]].
  cbn [map silent_in run_polls]. fold silent_in. rewrite Hp. cbn [bind].
  change (map (fun t => (t, mkPhyIn false [])) (ts1 ++ [T])) with (map silent_in (ts1 ++ [T])).
  rewrite Hrun. cbn [bind].
  exists (mkStep f t0 (mkPhyIn false []) f1 (mkPhyOut None [])), pre, last.
  split; [reflexivity|]. cbn [s_out s_f' tx]. rewrite Hs1 in Hpre. rewrite <- (ts_p f1 f Hp1). repeat split; assumption.
Qed.

End WithApps.

(* a concrete run (non-vacuity of lone_station_claims): station 1 (default parameters: 19200 baud, slot
   100 bit, token-lost time-out (6 + 2*1) * 100 bit = 41666 us), listening since time 0, polled at
   10 ms, 20 ms and 45 ms on a silent bus *)
Definition ex_lone_station : res fdl :=
  let* r := ring_new 1 in
  Ok (mkFdl default_params r ConnOnline (GapDoPoll 1) (ListenToken None 0) (Some 0) 0 0 0 0).

Definition ex_lone_trace : res (list (state_kind * option bytes * nat)) :=
  let* f := ex_lone_station in
  let* steps := run_polls unit_app_ops f [tt] (map silent_in [10000; 20000; 45000]) in
  Ok (ghost_trace 0 steps).
