(* C06_lost_token_recovers_alone, from every state: a lone online station on a silent bus holds the
   token again within an explicit time bound, under any poll schedule with gaps <= P.  Every silent poll
   waits, reaches the goal or makes progress in a measure (the stations other than TS still listed in the
   ring view, the attempt label, the rank of the idle state); a ranking induction over schedules gives the bound. *)
From Coq Require Import Sorted.
From PB Require Import Common Tables FdlTables Telegram Phy TokenRing Params Fdl FdlProofs FdlStepProofs.
From PB Require Import LasOracle LasRep C02Proofs C05Proofs C01Proofs DecodeSpec C16Proofs C11Proofs C06Proofs.
From PB Require Import FdlOracleSound2 FdlOracleSound3 FdlOracleSound9.
From PB Require C12Proofs C13Proofs.

Definition other_ones (las : list bool) (a : Z) : list Z := filter (fun x => negb (x =? a)) (las_ones las).

(* number of stations in the ring view other than the station itself *)
Definition others (r : ring) (a : Z) : nat := length (other_ones (r_las r) a).

Lemma sorted_NoDup l : StronglySorted Z.lt l -> NoDup l.
Proof.
  induction 1 as [|x l Hs IH Hf]; constructor; [|exact IH].
  intros Hin. rewrite Forall_forall in Hf. specialize (Hf _ Hin). lia.
Qed.

Lemma other_ones_NoDup las a : NoDup (other_ones las a).
Proof. apply NoDup_filter, sorted_NoDup, las_ones_sorted. Qed.

Lemma In_other_ones las a x : In x (other_ones las a) <-> active las x /\ x <> a.
Proof.
  unfold other_ones. rewrite filter_In, In_las_ones, negb_true_iff, Z.eqb_neq. tauto.
Qed.

(* las' has no station (other than a) that las has not *)
Definition las_sub (las' las : list bool) (a : Z) : Prop := forall x, x <> a -> active las' x -> active las x.

Lemma las_sub_refl las a : las_sub las las a. Proof. intros x _ H. exact H. Qed.
Lemma las_sub_trans l1 l2 l3 a : las_sub l1 l2 a -> las_sub l2 l3 a -> las_sub l1 l3 a.
Proof. intros H1 H2 x Hx H. apply H2; [exact Hx|]. apply H1; assumption. Qed.

Lemma las_sub_le las' las a : las_sub las' las a -> (length (other_ones las' a) <= length (other_ones las a))%nat.
Proof.
  intros H. apply NoDup_incl_length; [apply other_ones_NoDup|].
  intros x Hx. apply In_other_ones in Hx. destruct Hx as [Hx Hn]. apply In_other_ones. split; [apply H; assumption|exact Hn].
Qed.

Lemma las_sub_lt las' las a b : las_sub las' las a -> b <> a -> active las b -> ~ active las' b ->
  (length (other_ones las' a) < length (other_ones las a))%nat.
Proof.
  intros H Hb Hab Hnb.
  assert (Hl : (length (b :: other_ones las' a) <= length (other_ones las a))%nat).
  { apply NoDup_incl_length.
    - constructor; [|apply other_ones_NoDup]. intros Hin. apply In_other_ones in Hin. tauto.
    - intros x [<-|Hx]; [apply In_other_ones; split; assumption|].
      apply In_other_ones in Hx. destruct Hx as [Hx Hn]. apply In_other_ones. split; [apply H; assumption|exact Hn]. }
  cbn [length] in Hl. lia.
Qed.

Lemma las_sub_after las sa da : length las = 128%nat -> 0 <= sa < 128 -> 0 <= da <= 128 ->
  las_sub (las_after las sa da) las sa.
Proof.
  intros HL Hs Hd x Hx H. unfold active in *. rewrite activeb_las_after in H by assumption.
  apply orb_true_iff in H. destruct H as [H|H]; [apply Z.eqb_eq in H; contradiction|].
  apply andb_true_iff in H. tauto.
Qed.

Lemma others_witness r a da r' : ring_ok r a -> 0 <= a <= 125 -> 0 <= da ->
  witness r a da = Ok r' -> (others r' a <= others r a)%nat.
Proof.
  intros (W & Ht & Hn) Ha Hd E. unfold others. apply las_sub_le.
  assert (Hupd : bad_addrb (a, da) = false -> las_sub (r_las (upd r a da)) (r_las r) a).
  { intros Hb. destruct (upd_fields r a da) as [-> _]. unfold bad_addrb in Hb. apply orb_false_iff in Hb.
    destruct Hb as [_ Hb]. apply Z.ltb_ge in Hb. apply las_sub_after; [exact W|lia|lia]. }
  destruct (witness_cases r a da r' W ltac:(lia) Hd E) as [[_ ->]|[Hb Hc]]; [apply las_sub_refl|].
  specialize (Hupd Hb).
  destruct (r_state r).
  - subst r'. destruct (is_wrapb (a, da)); apply las_sub_refl.
  - subst r'. destruct (is_wrapb (a, da)); exact Hupd.
  - destruct Hc as [[_ ->]|[_ ->]]; [destruct (is_wrapb (a, da)); apply las_sub_refl|exact Hupd].
  - subst r'. exact Hupd.
Qed.

Lemma ns_active_or_self r a : ring_ok r a -> r_ns r = a \/ active (r_las r) (r_ns r).
Proof.
  intros (W & Ht & Hn & _). rewrite Hn, Ht.
  destruct (next_of_in (las_ones (r_las r)) a) as [->|H]; [left; reflexivity|right; apply In_las_ones; exact H].
Qed.

Lemma others_remove r a r1 : ring_ok r a -> 0 <= a < 128 ->
  remove_station r (r_ns r) = Ok r1 ->
  (others r1 a <= others r a)%nat /\ (r_ns r <> a -> (others r1 a < others r a)%nat).
Proof.
  intros R Ha E. pose proof (ring_ok_ns _ _ R Ha) as Hns. pose proof R as (W & Ht & Hn).
  rewrite remove_station_ok in E by exact Hns. injection E as <-.
  unfold others, update_next_previous. cbn [r_las].
  assert (Hlen : 0 <= r_ns r < Z.of_nat (length (r_las r))) by (unfold wf in W; rewrite W; lia).
  assert (Hsub : las_sub (set_nth (r_las r) (Z.to_nat (r_ns r)) false) (r_las r) a).
  { intros x _ H. unfold active in *. rewrite activeb_set in H by exact Hlen.
    destruct (x =? r_ns r); [discriminate H|exact H]. }
  split; [apply las_sub_le; exact Hsub|].
  intros Hne. apply (las_sub_lt _ _ a (r_ns r) Hsub Hne).
  - destruct (ns_active_or_self r a R) as [C|C]; [contradiction|exact C].
  - unfold active. rewrite activeb_set by exact Hlen. rewrite Z.eqb_refl. discriminate.
Qed.

Lemma others_zero_ns r a : ring_ok r a -> others r a = 0%nat -> r_ns r = a.
Proof.
  intros (W & Ht & Hn & _) H0. rewrite Hn, Ht.
  destruct (next_of_in (las_ones (r_las r)) a) as [E|E]; [exact E|].
  destruct (Z.eq_dec (next_of (las_ones (r_las r)) a) a) as [C|C]; [exact C|exfalso].
  assert (Hin : In (next_of (las_ones (r_las r)) a) (other_ones (r_las r) a))
    by (apply In_other_ones; split; [apply In_las_ones; exact E|exact C]).
  unfold others in H0. destruct (other_ones (r_las r) a); [contradiction Hin|discriminate H0].
Qed.

Lemma ns_self_others r a : ring_ok r a -> r_ns r = a -> others r a = 0%nat.
Proof.
  intros (W & Ht & Hn & _) Hs. rewrite Hn, Ht in Hs. unfold others.
  destruct (other_ones (r_las r) a) as [|x t] eqn:Eo; [reflexivity|exfalso].
  assert (Hx : In x (other_ones (r_las r) a)) by (rewrite Eo; left; reflexivity).
  apply In_other_ones in Hx. destruct Hx as [Hx Hne]. apply In_las_ones in Hx.
  pose proof (las_ones_sorted (r_las r)) as Hsort.
  unfold next_of in Hs. destruct (find (fun y => a <? y) (las_ones (r_las r))) as [y|] eqn:Ef.
  - apply find_some in Ef. destruct Ef as [_ Ef]. apply Z.ltb_lt in Ef. lia.
  - pose proof (find_none _ _ Ef) as Hnone.
    destruct (las_ones (r_las r)) as [|h tl] eqn:El; [contradiction Hx|]. subst h.
    destruct Hx as [Hx|Hx]; [lia|].
    pose proof (sorted_head_lt _ _ _ Hsort Hx) as Hlt.
    specialize (Hnone x (or_intror Hx)). cbn in Hnone. apply Z.ltb_ge in Hnone. lia.
Qed.

Lemma ones_from_length l : forall i, (length (ones_from l i) <= length l)%nat.
Proof. induction l as [|b t IH]; intros i; cbn; [lia|]. destruct b; cbn; specialize (IH (i + 1)); lia. Qed.

Lemma filter_len {X} (g : X -> bool) l : (length (filter g l) <= length l)%nat.
Proof. induction l as [|x t IH]; cbn; [lia|]. destruct (g x); cbn; lia. Qed.

Lemma others_bound r a : wf r -> (others r a <= 128)%nat.
Proof.
  intros W. unfold others, other_ones. etransitivity; [apply filter_len|].
  unfold las_ones. etransitivity; [apply ones_from_length|]. unfold wf in W. lia.
Qed.

Section Silent.
Variable A : Type.
Variable ops : app_ops A.
Notation W := (world A).

Lemma kind_claim_have s : kind_of s = KClaimToken -> have_token s = true.
Proof. unfold have_token. intros ->. reflexivity. Qed.

(* what a token-holding function leaves behind when nothing is heard: it still holds the token, or it
   is about to pass it (first attempt, nothing sent yet, ring view untouched), or it has just passed it
   to NS (first attempt) and has witnessed that pass *)
Definition hold_out (f f' : fdl) (w' : W) : Prop :=
  have_token (f_state f') = true \/
  (exists dg, f_state f' = PassToken dg AttFirst /\ w_tx w' = None /\ f_ring f' = f_ring f) \/
  (f_state f' = CheckTokenPass AttFirst /\ w_tx w' = Some (encode_token (r_ns (f_ring f)) (ts f)) /\
   witness (f_ring f) (ts f) (r_ns (f_ring f)) = Ok (f_ring f')).

Lemma hold_out_ext f g f' (w' : W) : f_ring g = f_ring f -> f_p g = f_p f -> hold_out g f' w' -> hold_out f f' w'.
Proof. unfold hold_out, ts. intros Hr Hp. rewrite Hr, Hp. tauto. Qed.

Lemma pass_hold f now (w : W) f' w' dg :
  f_state f = PassToken dg AttFirst -> w_tx w = None -> do_pass_token A f now w = Ok (f', w') -> hold_out f f' w'.
Proof.
  intros Hs Hw H. apply (do_pass_token_result A f now w f' w' dg AttFirst Hs) in H as (r & g & s & l & txo & tr & -> & -> & D).
  destruct D as [(-> & _ & -> & ->)|(_ & _ & [(a & _ & _ & _ & _ & _ & -> & _)|(Hwit & -> & ->)])]; [right; left; exists dg; repeat split; exact Hw|left; reflexivity|].
  destruct (r_ns r =? ts f); [left; reflexivity|right; right; repeat split; exact Hwit].
Qed.

Lemma await_silent f now (w : W) pa f1 w1 r :
  w_rx w = [] -> await_gap_poll_response A f now w pa = Ok (f1, w1, r) -> r = GprWaiting \/ r = GprNoResponse.
Proof. intros Hr (tr & H)%await_gap_poll_response_inv. rewrite Hr in H. destruct H as (_ & _ & ->). destruct (_ <? _); tauto. Qed.

Lemma do_claim_token_silent f now (w : W) f' w' st :
  f_state f = ClaimToken st -> w_tx w = None -> w_rx w = [] ->
  do_claim_token A f now w = Ok (f', w') -> hold_out f f' w'.
Proof.
  intros Es Hw Hrx H. destruct (do_claim_token_ends A _ _ _ _ _ _ Es Hw H) as [K|[[_ C]|(S & T & R)]]; [|contradiction|].
  - left. apply kind_claim_have, K.
  - right. left. exists false. repeat split; assumption.
Qed.

Lemma do_await_status_response_silent f now (w : W) f' w' a :
  f_state f = AwaitStatusResponse a -> w_tx w = None -> w_rx w = [] ->
  do_await_status_response A f now w = Ok (f', w') -> hold_out f f' w'.
Proof.
  intros Es Hw Hrx H. unfold do_await_status_response, assert_entry in H. rewrite Es in H.
  cbn [kind_of do_fn_entry state_kind_eqb bind get_await_status_response_address] in H.
  apply bind_ok in H as ([[f1 w1] r] & Ea & H). pose proof (await_silent _ _ _ _ _ _ _ Hrx Ea) as Hr.
  apply await_gap_poll_response_frame in Ea as (Hp1 & _ & Hs1 & Htx1 & _ & Hr1). rewrite Es in Hs1.
  destruct Hr as [-> | ->]; [injection H as <- <-; left; rewrite Hs1; reflexivity|].
  apply bind_ok in H as ([f2 w2] & Et & H).
  apply (trans_from A (AwaitStatusResponse a)) in Et as (s' & [= <-] & -> & ->); [|exact Hs1].
  apply (pass_hold _ now _ f' w' false) in H; [|reflexivity|cbn; congruence].
  eapply hold_out_ext; [| |exact H]; cbn; [apply Hr1; discriminate|exact Hp1].
Qed.

Lemma do_use_token_silent f now (w : W) f' w' tk fa fcd :
  f_state f = UseToken tk fa fcd -> w_tx w = None ->
  do_use_token A ops f now w = Ok (f', w') -> hold_out f f' w'.
Proof.
  intros Es Hw H. rewrite do_use_token_split in H. apply bind_ok in H as ([f1 w1] & Eh & H).
  destruct (is_pass_token (f_state f1)) eqn:Ek.
  - destruct (do_use_token_head_pass A ops _ _ _ _ _ Eh Ek) as [Es1 [_ [Hp1 [Hr1 [_ [_ [_ [Htx1 _]]]]]]]].
    apply (pass_hold _ now _ f' w' true) in H; [|exact Es1|rewrite Htx1; exact Hw].
    eapply hold_out_ext; [exact Hr1|exact Hp1|exact H].
  - injection H as <- <-.
    destruct (C13Proofs.do_use_token_head_state A ops _ _ _ _ _ _ _ _ Eh Es) as [_ [_ Hc]].
    left. destruct Hc as [[E _]|[[fa' E]|[[a0 [fa' E]]|E]]]; rewrite E; try rewrite Es; try reflexivity.
    rewrite E in Ek. discriminate Ek.
Qed.

Lemma do_await_data_response_silent f now (w : W) f' w' addr tk fa :
  f_state f = AwaitDataResponse addr tk fa -> w_tx w = None -> w_rx w = [] ->
  do_await_data_response A ops f now w = Ok (f', w') -> hold_out f f' w'.
Proof.
  intros Es Hw Hrx H. unfold do_await_data_response, assert_entry in H. rewrite Es in H.
  cbn [kind_of do_fn_entry state_kind_eqb bind get_await_data_response] in H.
  destruct (nth_error (w_apps w) (f_next_app f)) as [app|]; [|discriminate H].
  rewrite receive_telegram_spec, Hrx in H. cbn [decode_spec bind length] in H.
  apply bind_ok in H as ([f1 expired] & [-> _]%check_slot_inv & H).
  destruct expired; [|injection H as <- <-; left; cbn; rewrite Es; reflexivity].
  apply bind_ok in H as (app' & _ & ([f2 w2] & Et & H)%bind_ok).
  apply (trans_from A (AwaitDataResponse addr tk fa)) in Et as (s' & [= <-] & -> & ->); [|exact Es].
  apply bind_ok in H as (f3 & (tk3 & fa3 & ->)%set_first_cycle_done_inv & H).
  apply (do_use_token_silent _ now _ f' w' tk3 fa3 true) in H; [exact H|reflexivity|exact Hw].
Qed.

(* rank in the idle chain: 2 while a status request is pending or the station is still Offline, then 1 *)
Definition idle_rank (s : state) : nat :=
  match s with
  | ListenToken None _ | ActiveIdle None _ _ => 1
  | ListenToken (Some _) _ | ActiveIdle (Some _) _ _ | Offline => 2
  | _ => 0
  end.

(* what do_listen_token / do_active_idle leave on a silent bus: a claim, the state kept (pause or time-out
   not over), or a status reply sent *)
Inductive idle_out (f : fdl) (now : Z) (f' : fdl) (w' : W) : Prop :=
| IoClaim : kind_of (f_state f') = KClaimToken -> idle_out f now f' w'
| IoWait : f_state f' = f_state f -> w_tx w' = None ->
    (now <= gv now (f_lba f) + p_bits_to_time (f_p f) sync_pause_bits \/
     Z.abs (now - gv now (f_lba f)) < token_lost_timeout (f_p f)) -> idle_out f now f' w'
| IoReply wire : idle_rank (f_state f) = 2%nat -> idle_rank (f_state f') = 1%nat ->
    w_tx w' = Some wire -> length wire = 6%nat -> idle_out f now f' w'.

Lemma status_reply_sent (w : W) da sa st w1 n :
  w_tx w = None -> phy_send A w (TxData (status_response_header da sa st status_reply_status) []) = Ok (w1, n) ->
  exists wire, w_tx w1 = Some wire /\ length wire = 6%nat.
Proof.
  intros Hw (wire & e & Et & _ & _ & ->)%phy_send_inv. unfold transmit, status_response_header in Et.
  rewrite C12Proofs.encode_nosap in Et. injection Et as <- _. eexists. split; [reflexivity|apply C12Proofs.encode_nosap_length].
Qed.

Lemma do_listen_token_silent f now (w : W) f' w' sr cc :
  f_state f = ListenToken sr cc -> w_tx w = None -> w_rx w = [] ->
  do_listen_token A f now w = Ok (f', w') -> idle_out f now f' w'.
Proof.
  intros Es Hw Hrx H. destruct (do_listen_token_result A _ _ _ _ _ _ _ Es H) as [Hc|[(Hto & _)%handle_lost_token_inv Hr]].
  { apply IoClaim. destruct (handle_lost_token_claims A _ _ _ _ _ Hc) as [E|E]; rewrite E; reflexivity. }
  destruct sr as [src|].
  - destruct (Z.leb_spec now (goi_val f now + p_bits_to_time (f_p f) sync_pause_bits)) as [C|_].
    + destruct Hr as [-> ->]. apply IoWait; [reflexivity|exact Hw|left; exact C].
    + destruct Hr as (st & w1 & n & e & tr & (wire & Hw1 & Hlen)%(status_reply_sent _ _ _ _ _ _ Hw) & -> & ->).
      apply (IoReply _ _ _ _ wire); [rewrite Es; reflexivity|cbn; destruct (ready_for_ring _); reflexivity|exact Hw1|exact Hlen].
  - apply receive_all_telegrams_none in Hr. rewrite Hrx in Hr. destruct Hr as [-> ->].
    apply IoWait; [reflexivity|exact Hw|right; exact Hto].
Qed.

Lemma do_active_idle_silent f now (w : W) f' w' sr nps cc :
  f_state f = ActiveIdle sr nps cc -> w_tx w = None -> w_rx w = [] ->
  do_active_idle A f now w = Ok (f', w') -> idle_out f now f' w'.
Proof.
  intros Es Hw Hrx H. destruct (do_active_idle_result A _ _ _ _ _ _ _ _ Es H) as [Hc|[(Hto & _)%handle_lost_token_inv Hr]].
  { apply IoClaim. destruct (handle_lost_token_claims A _ _ _ _ _ Hc) as [E|E]; rewrite E; reflexivity. }
  destruct sr as [src|].
  - destruct (Z.leb_spec now (goi_val f now + p_bits_to_time (f_p f) sync_pause_bits)) as [C|_].
    + destruct Hr as [-> ->]. apply IoWait; [reflexivity|exact Hw|left; exact C].
    + destruct Hr as (w1 & n & e & (wire & Hw1 & Hlen)%(status_reply_sent _ _ _ _ _ _ Hw) & -> & ->).
      apply (IoReply _ _ _ _ wire); [rewrite Es; reflexivity|reflexivity|exact Hw1|exact Hlen].
  - apply receive_all_telegrams_none in Hr. rewrite Hrx in Hr. destruct Hr as [-> ->].
    apply IoWait; [reflexivity|exact Hw|right; exact Hto].
Qed.

Definition chainA (s : state) : Prop :=
  match s with Offline | ListenToken _ _ | ActiveIdle _ _ _ => True | _ => False end.

Lemma idle_dispatch_silent f now (w : W) f' w' :
  chainA (f_state f) -> f_state f <> Offline -> w_tx w = None -> w_rx w = [] ->
  dispatch A ops f now w = Ok (f', w') -> idle_out f now f' w'.
Proof.
  intros Hch Hno Hw Hrx H. unfold dispatch in H.
  destruct (f_state f) as [ | |sr cc|sr nps cc| | | | | | ] eqn:Es; try contradiction Hch; [contradiction Hno; reflexivity| |].
  - exact (do_listen_token_silent f now w f' w' sr cc Es Hw Hrx H).
  - exact (do_active_idle_silent f now w f' w' sr nps cc Es Hw Hrx H).
Qed.

End Silent.

Section SilentPolls.
Variable A : Type.
Variable ops : app_ops A.
Hypothesis Happs : apps_total A ops.
Notation W := (world A).

Lemma silent_body f now b (apps : list A) f' o a c :
  poll ops f now (mkPhyIn b []) apps = Ok (f', o, a, c) ->
  f_conn f = ConnOnline -> online_entry_kind (kind_of (f_state f)) = false ->
  (b = true -> predicted f now = true) ->
  (predicted f now = true /\ f' = mark_bus_activity f now /\ tx o = None) \/
  (predicted f now = false /\ b = false /\
   exists w', dispatch A ops f now (mkWorld [] None apps [] []) = Ok (f', w') /\ tx o = w_tx w').
Proof.
  intros H Hc Hk Hb. apply poll_inv in H. destruct H as [w' [H [-> _]]]. cbn [tx_busy rx tx] in *.
  rewrite poll_inner_online in H by assumption. unfold body in H.
  destruct (predicted f now) eqn:Ep.
  - rewrite orb_true_r in H. injection H as <- <-. left. repeat split; reflexivity.
  - destruct b; [specialize (Hb eq_refl); discriminate Hb|]. cbn [orb] in H.
    unfold check_for_bus_activity in H. cbn [w_rx length] in H.
    destruct (Nat.ltb_spec (f_pending f) 0) as [C|_]; [lia|].
    right. split; [reflexivity|]. split; [reflexivity|]. exists w'. split; [exact H|reflexivity].
Qed.

Lemma lba_after f now b (apps : list A) f' o a c l :
  poll ops f now (mkPhyIn b []) apps = Ok (f', o, a, c) -> (b = true -> predicted f now = true) ->
  f_lba f = Some l ->
  f_p f' = f_p f /\
  match tx o with
  | Some wire => f_lba f' = Some (now + dur (f_p f) (length wire))
  | None => f_lba f' = Some l \/ rst now f'
  end.
Proof.
  intros H Hb Hl. destruct (poll_bk A ops now f _ apps f' o a c H) as (_ & _ & Hp & L & _).
  split; [exact Hp|]. cbn [tx_busy rx] in L. destruct (tx o); [tauto|].
  destruct L as [L|[R _]]; [left|right; exact R]. rewrite Hl in L. cbn [gv] in L.
  destruct L as [-> | [-> | ([M|M] & ->)]]; try reflexivity.
  - specialize (Hb M). unfold predicted in Hb. rewrite Hl in Hb. apply Z.leb_le in Hb. cbn [gv]. f_equal. lia.
  - contradiction M. reflexivity.
Qed.

Lemma mark_state f now : f_state (mark_bus_activity f now) = f_state f /\ f_ring (mark_bus_activity f now) = f_ring f.
Proof. destruct (mark_bus_activity_sblp f now) as [_ [Hr [_ [_ [Hs _]]]]]. split; assumption. Qed.

Lemma rst_state now f' : rst now f' -> f_state f' = Offline.
Proof. intros [H _]. exact H. Qed.

(* measure of the token chain: three attempts per other station in the ring view, counted down by the
   attempt label *)
Definition mu_B (f : fdl) : nat :=
  let m := others (f_ring f) (ts f) in
  match f_state f with
  | CheckTokenPass a => 3 * m + 4 - att_index a
  | PassToken _ a => 3 * m + 5 - att_index a
  | _ => 3 * m + 5
  end.

Definition chainB (s : state) : Prop := have_token s = true \/ in_pass s = true.

Definition InvB (p0 : params) (n : nat) (f : fdl) : Prop :=
  Rep n f /\ f_conn f = ConnOnline /\ f_lba f <> None /\ f_p f = p0 /\ chainB (f_state f).

Lemma att_index_pos a : (1 <= att_index a <= 3)%nat.
Proof. destruct a; cbn; lia. Qed.

Lemma hold_poll f now b (apps : list A) f' o a c :
  have_token (f_state f) = true -> f_conn f = ConnOnline ->
  (b = true -> predicted f now = true) ->
  poll ops f now (mkPhyIn b []) apps = Ok (f', o, a, c) ->
  exists w' : W, tx o = w_tx w' /\ hold_out A f f' w'.
Proof.
  intros Hh Hc Hb H.
  assert (Hk : online_entry_kind (kind_of (f_state f)) = false) by (destruct (f_state f); try discriminate Hh; reflexivity).
  destruct (silent_body f now b apps f' o a c H Hc Hk Hb) as [[_ [-> Ht]]|[_ [_ [w' [Hd Ht]]]]].
  - exists (mkWorld [] None apps [] []). split; [exact Ht|]. left. destruct (mark_state f now) as [-> _]. exact Hh.
  - exists w'. split; [exact Ht|]. unfold dispatch in Hd.
    destruct (f_state f) as [ | | | |tk fa fcd|st|addr tk fa| | |a0] eqn:Es; try discriminate Hh; cbn [kind_of poll_dispatch] in Hd.
    + exact (do_use_token_silent A ops f now (mkWorld [] None apps [] []) f' w' tk fa fcd Es eq_refl Hd).
    + exact (do_claim_token_silent A f now (mkWorld [] None apps [] []) f' w' st Es eq_refl eq_refl Hd).
    + exact (do_await_data_response_silent A ops f now (mkWorld [] None apps [] []) f' w' addr tk fa Es eq_refl eq_refl Hd).
    + exact (do_await_status_response_silent A f now (mkWorld [] None apps [] []) f' w' a0 Es eq_refl eq_refl Hd).
Qed.

Lemma pass_wait_timing f now b (apps : list A) f' o a c dg att l :
  f_state f = PassToken dg att -> f_conn f = ConnOnline -> f_lba f = Some l ->
  (b = true -> predicted f now = true) ->
  poll ops f now (mkPhyIn b []) apps = Ok (f', o, a, c) ->
  kind_of (f_state f') = KPassToken -> now <= l + p_bits_to_time (f_p f) sync_pause_bits.
Proof.
  intros Es Hc Hl Hb H Hk. pose proof (sync_nonneg f) as Hs.
  destruct (silent_body f now b apps f' o a c H Hc ltac:(rewrite Es; reflexivity) Hb) as [[Hp _]|[_ [_ [w' [Hd _]]]]].
  - unfold predicted in Hp. rewrite Hl in Hp. apply Z.leb_le in Hp. lia.
  - unfold dispatch in Hd. rewrite Es in Hd. cbn [kind_of poll_dispatch] in Hd.
    destruct (Z.le_gt_cases now (l + p_bits_to_time (f_p f) sync_pause_bits)) as [C|C]; [exact C|].
    exfalso. apply (do_pass_token_nowait A f now _ f' w' l Hd Hl); [lia|exact Hk].
Qed.

Lemma encode_token_len da sa : length (encode_token da sa) = 3%nat.
Proof. reflexivity. Qed.

Lemma stepB p0 n f now b (apps : list A) :
  InvB p0 n f -> length apps = n -> time_ok now -> (b = true -> predicted f now = true) ->
  exists f' o apps' c, poll ops f now (mkPhyIn b []) apps = Ok (f', o, apps', c) /\ length apps' = n /\ Rep n f' /\
    ((now <= gv now (f_lba f) + slot_time p0 /\ InvB p0 n f' /\ mu_B f' = mu_B f /\ f_lba f' = Some (gv now (f_lba f)))
     \/ have_token (f_state f') = true
     \/ (InvB p0 n f' /\ (mu_B f' < mu_B f)%nat /\
         exists l', f_lba f' = Some l' /\ l' <= Z.max (gv now (f_lba f)) (now + dur p0 3))).
Proof.
  intros (R & Hc & Hl & Hp0 & Hch) Hlen Tn Hb. subst n.
  destruct (poll_rep_step A ops Happs f now (mkPhyIn b []) apps R Tn ltac:(constructor)) as (f' & o & apps' & c & E & R' & Hlen').
  exists f', o, apps', c. split; [exact E|]. split; [exact Hlen'|]. split; [exact R'|].
  destruct (f_lba f) as [l|] eqn:El; [|contradiction Hl; reflexivity]. cbn [gv].
  destruct (lba_after f now b apps f' o apps' c l E Hb El) as [Hp' La].
  pose proof (Rep_ts _ _ R) as Hts. pose proof (rep_ring _ _ R) as Rr. pose proof (rep_ring _ _ R') as Rr'.
  assert (Hts' : ts f' = ts f) by (apply ts_p; exact Hp').
  rewrite Hts' in Rr'.
  assert (Hts125 : 0 <= ts f <= 125) by lia.
  assert (Hns : 0 <= r_ns (f_ring f) < 128) by (apply (ring_ok_ns _ _ Rr); lia).
  pose proof (bv_slot _ _ R) as Hslot. rewrite Hp0 in Hslot.
  pose proof (sync_le_slot _ (rep_p _ _ R)) as Hss. rewrite Hp0 in Hss.
  (* a poll that leaves the station in the hand-over keeps the invariant; last_bus_activity stays as it
     is, or becomes the end of the token just sent *)
  assert (Hstay : in_pass (f_state f') = true -> (tx o = None \/ exists da sa, tx o = Some (encode_token da sa)) ->
            InvB p0 (length apps) f' /\ exists l', f_lba f' = Some l' /\ (tx o = None -> l' = l) /\ l' <= Z.max l (now + dur p0 3)).
  { intros Hip Htx.
    assert (Hl' : exists l', f_lba f' = Some l' /\ (tx o = None -> l' = l) /\ l' <= Z.max l (now + dur p0 3)).
    { destruct Htx as [Htx|(da & sa & Htx)]; rewrite Htx in La.
      - destruct La as [La|La%rst_state]; [|rewrite La in Hip; discriminate Hip]. exists l. repeat split; [exact La|lia].
      - rewrite encode_token_len, Hp0 in La. eexists. split; [exact La|]. split; [intros C; rewrite Htx in C; discriminate C|lia]. }
    split; [|exact Hl']. destruct Hl' as (l' & Hl' & _). split; [exact R'|].
    split; [apply (Rep_online _ _ R'); destruct (f_state f'); try discriminate Hip; discriminate|].
    split; [rewrite Hl'; discriminate|]. split; [congruence|right; exact Hip]. }
  assert (Hwait : tx o = None -> f_state f' = f_state f -> f_ring f' = f_ring f -> in_pass (f_state f) = true -> now <= l + slot_time p0 ->
            now <= l + slot_time p0 /\ InvB p0 (length apps) f' /\ mu_B f' = mu_B f /\ f_lba f' = Some l).
  { intros Htx Hs Hr Hip Ht. rewrite <- Hs in Hip. destruct (Hstay Hip (or_introl Htx)) as (HI & l' & Hl' & Hsame & _).
    rewrite (Hsame Htx) in Hl'. split; [exact Ht|]. split; [exact HI|]. split; [|exact Hl']. unfold mu_B. rewrite Hs, Hr, Hts'. reflexivity. }
  assert (Hprog : in_pass (f_state f') = true -> (tx o = None \/ exists da sa, tx o = Some (encode_token da sa)) -> (mu_B f' < mu_B f)%nat ->
            InvB p0 (length apps) f' /\ (mu_B f' < mu_B f)%nat /\ exists l', f_lba f' = Some l' /\ l' <= Z.max l (now + dur p0 3)).
  { intros Hip Htx Hmu. destruct (Hstay Hip Htx) as (HI & l' & Hl' & _ & Hle). split; [exact HI|]. split; [exact Hmu|]. exists l'. split; assumption. }
  destruct Hch as [Hh|Hip].
  - (* token-holding *)
    destruct (hold_poll f now b apps f' o apps' c Hh Hc Hb E) as [w' [Htx Ho]].
    assert (Hmu : mu_B f = (3 * others (f_ring f) (ts f) + 5)%nat).
    { unfold mu_B. destruct (f_state f); try discriminate Hh; reflexivity. }
    destruct Ho as [Hg|[[dg [Hs [Hn Hr]]]|[Hs [Hw Hwit]]]]; [right; left; exact Hg|right; right; apply Hprog..].
    + rewrite Hs. reflexivity.
    + left. congruence.
    + rewrite Hmu. unfold mu_B. rewrite Hs, Hr, Hts'. cbn. lia.
    + rewrite Hs. reflexivity.
    + right. do 2 eexists. rewrite Htx. exact Hw.
    + pose proof (others_witness _ _ _ _ Rr Hts125 (proj1 Hns) Hwit) as Hle.
      rewrite Hmu. unfold mu_B. rewrite Hs, Hts'. cbn. lia.
  - destruct (f_state f) as [ | | | | | | |dg att|att| ] eqn:Es; try discriminate Hip.
    + destruct (pass_token_poll A ops f now _ apps f' o apps' c dg att Es E) as [_ [_ [_ [_ D]]]].
      destruct D as [[Htx [Hs Hr]]|[[addr [_ [_ [Hs _]]]]|[r' [Hwit [Hr [Htx Hs]]]]]].
      * left. apply Hwait; try assumption; try reflexivity.
        pose proof (pass_wait_timing f now b apps f' o apps' c dg att l Es Hc El Hb E ltac:(rewrite Hs; reflexivity)) as Ht.
        rewrite Hp0 in Ht. lia.
      * right. left. rewrite Hs. reflexivity.
      * destruct (r_ns r' =? ts f) eqn:Ens; [right; left; rewrite Hs; reflexivity|].
        right. right. apply Hprog; [rewrite Hs; reflexivity|right; do 2 eexists; exact Htx|].
        pose proof (others_witness _ _ _ _ Rr Hts125 (proj1 Hns) Hwit) as Hle. pose proof (att_index_pos att).
        unfold mu_B. rewrite Hs, Hts', Hr, Es. lia.
    + destruct (check_pass_poll A ops f now _ apps f' o apps' c att Es E) as [_ [_ [_ D]]].
      pose proof (check_pass_no_wait A ops f now _ apps f' o apps' c att Es (rep_p _ _ R) E) as Hnw.
      destruct (slot_expired f now (mkPhyIn b [])) eqn:Ex.
      * destruct D as [_ [r1 [Hrm [[_ [Hs _]]|[r' [Hwit [Hr [Htx Hs]]]]]]]]; [rewrite Hs in Hnw; contradiction Hnw; reflexivity|].
        destruct (r_ns r' =? ts f) eqn:Ens; [right; left; rewrite Hs; reflexivity|].
        right. right. apply Hprog; [rewrite Hs; reflexivity|right; do 2 eexists; exact Htx|].
        (* the measure: a retry counts down the attempts, a removal takes a station off the list *)
        assert (Hr1 : ring_ok r1 (ts f) /\ (others r1 (ts f) <= others (f_ring f) (ts f))%nat /\
                      (check_pass_removes att = true -> r_ns (f_ring f) <> ts f -> (others r1 (ts f) < others (f_ring f) (ts f))%nat)).
        { destruct (check_pass_removes att).
          - destruct (remove_station_ring_ok _ _ _ Rr ltac:(lia) Hns) as [r1' [E1 R1]].
            rewrite Hrm in E1. injection E1 as <-.
            destruct (others_remove _ _ _ Rr ltac:(lia) Hrm) as [Hle Hlt]. split; [exact R1|]. split; [exact Hle|intros _; exact Hlt].
          - subst r1. split; [exact Rr|]. split; [lia|intros C; discriminate C]. }
        destruct Hr1 as [R1 [Hle1 Hlt1]].
        assert (Hns1 : 0 <= r_ns r1 < 128) by (apply (ring_ok_ns _ _ R1); lia).
        pose proof (others_witness _ _ _ _ R1 Hts125 (proj1 Hns1) Hwit) as Hle.
        rewrite Hr in Rr'.
        assert (Hpos : others r' (ts f) <> 0%nat).
        { intros C. apply (others_zero_ns _ _ Rr') in C. rewrite C, Z.eqb_refl in Ens. discriminate Ens. }
        unfold mu_B. rewrite Hs, Hts', Hr, Es.
        destruct att; cbn [check_pass_next att_index check_pass_removes] in *; try lia.
        destruct (Z.eq_dec (r_ns (f_ring f)) (ts f)) as [Eself|Eself].
        -- apply (ns_self_others _ _ Rr) in Eself. lia.
        -- specialize (Hlt1 eq_refl Eself). lia.
      * destruct D as [Htx [_ D]]. left.
        assert (Hst : f_state f' = CheckTokenPass att /\ f_ring f' = f_ring f).
        { cbn [tx_busy rx decode_spec] in D. destruct (b || predicted f now); tauto. }
        destruct Hst as [Hs Hr]. apply Hwait; try assumption; try reflexivity.
        apply not_true_iff_false in Ex. rewrite (slot_expired_iff f now _ (proj1 (bv_slot _ _ R))) in Ex. cbn [tx_busy rx length] in Ex.
        destruct (Z.le_gt_cases now (l + slot_time p0)) as [C|C]; [exact C|exfalso]. apply Ex.
        split; [destruct b; [specialize (Hb eq_refl); unfold predicted in Hb; rewrite El in Hb; apply Z.leb_le in Hb; lia|reflexivity]|].
        split; [lia|]. exists l. split; [exact El|rewrite Hp0; exact C].
Qed.

Definition InvA (p0 : params) (n : nat) (f : fdl) : Prop :=
  Rep n f /\ f_conn f = ConnOnline /\ (f_lba f = None -> f_state f = Offline) /\ f_p f = p0 /\ chainA (f_state f).

Definition mu_A (f : fdl) : nat := idle_rank (f_state f).

Lemma slot_le_timeout p : builder_valid p -> slot_time p <= token_lost_timeout p.
Proof.
  intros B. pose proof (bv_ranges _ B) as Hr. unfold slot_time, token_lost_timeout, p_bits_to_time.
  apply C01Proofs.btt_mono. unfold token_lost_base, token_lost_per_addr. nia.
Qed.

Lemma offline_poll f now b (w : W) :
  f_conn f = ConnOnline -> f_state f = Offline ->
  poll_inner ops f now b w = body A ops (set_st f (ListenToken None 0)) now b (note A w (TTrans KOffline KListenToken)).
Proof.
  intros Hc Hs. unfold poll_inner. rewrite Hc, Hs. cbn [kind_of online_entry_kind].
  unfold trans, transition_listen_token, assert_kind. rewrite Hs. cbn [kind_of may_transition_listen_token bind].
  apply body_eq.
Qed.

Lemma rank1_chainA s : idle_rank s = 1%nat -> chainA s.
Proof. destruct s as [ | |[x|] y|[x|] y z| | | | | | ]; cbn; try discriminate; intros _; exact I. Qed.

Lemma stepA p0 n f now b (apps : list A) :
  InvA p0 n f -> length apps = n -> time_ok now -> (b = true -> predicted f now = true) ->
  exists f' o apps' c, poll ops f now (mkPhyIn b []) apps = Ok (f', o, apps', c) /\ length apps' = n /\ Rep n f' /\
    ((now <= gv now (f_lba f) + token_lost_timeout p0 /\ InvA p0 n f' /\ mu_A f' = mu_A f /\ f_lba f' = Some (gv now (f_lba f)))
     \/ have_token (f_state f') = true
     \/ (InvA p0 n f' /\ (mu_A f' < mu_A f)%nat /\
         exists l', f_lba f' = Some l' /\ l' <= Z.max (gv now (f_lba f)) (now + dur p0 6))).
Proof.
  intros (R & Hc & Hl & Hp0 & Hch) Hlen Tn Hb. subst n.
  destruct (poll_rep_step A ops Happs f now (mkPhyIn b []) apps R Tn ltac:(constructor)) as (f' & o & apps' & c & E & R' & Hlen').
  exists f', o, apps', c. split; [exact E|]. split; [exact Hlen'|]. split; [exact R'|].
  destruct (poll_bk A ops now f _ apps f' o apps' c E) as (_ & _ & Hp' & _).
  pose proof (sync_le_slot _ (rep_p _ _ R)) as Hss. pose proof (slot_le_timeout _ (rep_p _ _ R)) as Hst.
  rewrite Hp0 in Hss, Hst. pose proof (sync_nonneg f) as Hsn. rewrite Hp0 in Hsn.
  pose proof (bv_slot _ _ R) as Hsl. rewrite Hp0 in Hsl.
  set (l := gv now (f_lba f)).
  assert (HInv : chainA (f_state f') -> f_state f' <> Offline -> f_lba f' <> None -> InvA p0 (length apps) f').
  { intros Hca Hno Hl'. split; [exact R'|].
    split; [apply (Rep_online _ _ R'); destruct (f_state f'); cbn in Hca; try contradiction; try discriminate; contradiction Hno; reflexivity|].
    split; [intros C; contradiction|]. split; [congruence|exact Hca]. }
  (* the result of a state function of the idle chain *)
  assert (Hout : forall g (w' : W), chainA (f_state g) -> f_state g <> Offline -> f_p g = f_p f -> f_lba g = f_lba f ->
            (match tx o with Some wire => f_lba f' = Some (now + dur (f_p f) (length wire)) | None => f_lba f' = Some l \/ rst now f' end) ->
            tx o = w_tx w' -> (idle_rank (f_state g) <= mu_A f)%nat ->
            (idle_rank (f_state g) = mu_A f -> f_state g = f_state f) ->
            idle_out A g now f' w' ->
            (now <= l + token_lost_timeout p0 /\ InvA p0 (length apps) f' /\ mu_A f' = mu_A f /\ f_lba f' = Some l)
            \/ have_token (f_state f') = true
            \/ (InvA p0 (length apps) f' /\ (mu_A f' < mu_A f)%nat /\
                exists l', f_lba f' = Some l' /\ l' <= Z.max l (now + dur p0 6))).
  { intros g w' Hcg Hgo Hpg Hlg La Htx Hrk Hrk' Ho.
    destruct Ho as [Hk|Hs Hn Ht|wire Hr2 Hr1 Hw Hlen6].
    - right. left. apply kind_claim_have. exact Hk.
    - rewrite Htx, Hn in La.
      assert (Hl' : f_lba f' = Some l).
      { destruct La as [La|La]; [exact La|]. apply rst_state in La. rewrite Hs in La. contradiction. }
      assert (HI : InvA p0 (length apps) f') by (apply HInv; rewrite ?Hs, ?Hl'; try assumption; discriminate).
      destruct (Nat.eq_dec (idle_rank (f_state g)) (mu_A f)) as [Heq|Hne].
      + left. rewrite Hlg, Hpg, Hp0 in Ht. fold l in Ht.
        split; [destruct Ht as [Ht|Ht]; lia|]. split; [exact HI|]. split; [unfold mu_A; rewrite Hs; exact Heq|exact Hl'].
      + right. right. split; [exact HI|]. split; [unfold mu_A at 1; rewrite Hs; lia|]. exists l. split; [exact Hl'|lia].
    - right. right. rewrite Htx, Hw, Hlen6, Hp0 in La.
      split; [apply HInv; [apply rank1_chainA; exact Hr1|intros C; rewrite C in Hr1; discriminate Hr1|rewrite La; discriminate]|].
      split; [unfold mu_A at 1; rewrite Hr1; lia|]. eexists. split; [exact La|lia]. }
  assert (Hcase : f_state f = Offline \/ f_state f <> Offline) by (destruct (f_state f); (left; reflexivity) || (right; discriminate)).
  destruct Hcase as [Es|Hno].
  - (* Offline: the poll takes the station online; it is found listening with nothing pending, or claiming *)
    assert (Hprog : forall l', f_state f' = ListenToken None 0 -> f_lba f' = Some l' -> l' <= l ->
              InvA p0 (length apps) f' /\ (mu_A f' < mu_A f)%nat /\ exists l', f_lba f' = Some l' /\ l' <= Z.max l (now + dur p0 6)).
    { intros l' Hs Hl' Hle. split; [apply HInv; rewrite ?Hs, ?Hl'; [exact I|discriminate..]|].
      split; [unfold mu_A; rewrite Hs, Es; cbn; lia|]. exists l'. split; [exact Hl'|lia]. }
    pose proof E as E0. apply poll_inv in E0 as (w' & E0 & _). cbn [tx_busy rx] in E0.
    rewrite (offline_poll f now b _ Hc Es) in E0. apply body_inv in E0. cbn [w_rx length f_pending set_st] in E0.
    change (predicted (set_st f _) now) with (predicted f now) in E0. change (goi_val (set_st f _) now) with l in E0.
    destruct (b || predicted f now) eqn:Eb.
    + destruct E0 as [-> _]. right. right. apply (Hprog (Z.max l now)); [reflexivity..|].
      assert (Hp : predicted f now = true) by (destruct b; [exact (Hb eq_refl)|exact Eb]).
      unfold predicted in Hp. unfold l. destruct (f_lba f); [apply Z.leb_le in Hp; cbn [gv]; lia|discriminate Hp].
    + destruct E0 as (l1 & n1 & tr & E0 & _ & [= -> ->]). unfold dispatch in E0. cbn [f_state set_pending set_lba set_st kind_of poll_dispatch] in E0.
      match type of E0 with do_listen_token A ?g1 _ _ = _ =>
        destruct (do_listen_token_result A g1 now _ f' w' None 0 eq_refl E0) as [Hcl|[_ Hr%receive_all_telegrams_none]] end.
      * right. left. destruct (handle_lost_token_claims A _ _ _ _ _ Hcl) as [K|K]; rewrite K; reflexivity.
      * destruct Hr as [-> _]. right. right. apply (Hprog l); [reflexivity..|lia].
  - assert (Hk : online_entry_kind (kind_of (f_state f)) = false)
      by (destruct (f_state f); try contradiction Hch; [contradiction Hno|..]; reflexivity).
    assert (Hsome : exists l0, f_lba f = Some l0)
      by (destruct (f_lba f) as [l0|]; [exists l0; reflexivity|contradiction Hno; apply Hl; reflexivity]).
    destruct Hsome as [l0 El]. unfold l in *. rewrite El in *. cbn [gv] in *.
    destruct (lba_after f now b apps f' o apps' c l0 E Hb El) as [_ La].
    destruct (silent_body f now b apps f' o apps' c E Hc Hk Hb) as [[Hp [-> Ht]]|[_ [_ [w' [Hd Ht]]]]].
    + left. unfold predicted in Hp. rewrite El in Hp. apply Z.leb_le in Hp.
      destruct (mark_state f now) as [Hs _]. destruct (mark_bus_activity_lba f now) as [Hml _]. rewrite El in Hml.
      assert (Hl' : f_lba (mark_bus_activity f now) = Some l0) by (rewrite Hml; f_equal; lia).
      split; [lia|]. split; [apply HInv; rewrite ?Hs, ?Hl'; try assumption; discriminate|].
      split; [unfold mu_A; rewrite Hs; reflexivity|exact Hl'].
    + apply (idle_dispatch_silent A ops f) in Hd; [|exact Hch|exact Hno|reflexivity|reflexivity].
      apply (Hout f w'); try reflexivity; assumption.
Qed.

End SilentPolls.

Definition silent_in2 (x : Z * bool) : Z * phy_in := (fst x, mkPhyIn (snd x) []).

Section Schedules.
Variable A : Type.
Variable ops : app_ops A.
Variable P : Z.

(* a poll schedule of a lone station on a silent bus: times increase with gaps of at most P, the receive
   buffer is always empty, the PHY reports busy at most while the station itself still predicts the end
   of its own transmission *)
Fixpoint lone_ok (f : fdl) (apps : list A) (tprev : Z) (ins : list (Z * bool)) : Prop :=
  match ins with
  | [] => True
  | (now, b) :: t =>
      tprev < now <= tprev + P /\ time_ok now /\ (b = true -> predicted f now = true) /\
      forall f' o apps' c, poll ops f now (mkPhyIn b []) apps = Ok (f', o, apps', c) -> lone_ok f' apps' now t
  end.

(* the station holds the token after some poll at or before time B - or the schedule ends too early *)
Definition reached (B : Z) (steps : list step_rec) : Prop :=
  Exists (fun s => have_token (f_state (s_f' s)) = true /\ s_now s <= B) steps \/
  Forall (fun s => s_now s <= B - P) steps.

Lemma reached_nil B : reached B []. Proof. right. constructor. Qed.

Lemma reached_cons B B' s steps : B' <= B -> s_now s <= B - P -> reached B' steps -> reached B (s :: steps).
Proof.
  intros HB Hs [H|H].
  - left. apply Exists_cons_tl. eapply Exists_impl; [|exact H]. cbn. intros x [H1 H2]. split; [exact H1|lia].
  - right. constructor; [exact Hs|]. eapply Forall_impl; [|exact H]. cbn. intros x Hx. lia.
Qed.

Lemma reached_here B s steps : have_token (f_state (s_f' s)) = true -> s_now s <= B -> reached B (s :: steps).
Proof. intros H1 H2. left. apply Exists_cons_hd. split; assumption. Qed.

(* a schedule on which the PHY never reports a transmission in progress *)
Fixpoint gaps_ok (tprev : Z) (ins : list (Z * bool)) : Prop :=
  match ins with
  | [] => True
  | (now, b) :: t => b = false /\ tprev < now <= tprev + P /\ time_ok now /\ gaps_ok now t
  end.

Lemma lone_ok_free : forall ins f apps tprev, gaps_ok tprev ins -> lone_ok f apps tprev ins.
Proof.
  induction ins as [|[now b] t IH]; intros f apps tprev H; [exact I|]. destruct H as (-> & Hg & Ht & Hr).
  split; [exact Hg|]. split; [exact Ht|]. split; [discriminate|]. intros f' o apps' c _. apply IH. exact Hr.
Qed.

Hypothesis Happs : apps_total A ops.

Lemma run_total : forall ins f apps tprev, Rep (length apps) f -> lone_ok f apps tprev ins ->
  exists steps, run_polls ops f apps (map silent_in2 ins) = Ok steps.
Proof.
  induction ins as [|[t1 b] rest IH]; intros f apps tprev R Hl; [exists []; reflexivity|].
  destruct Hl as (_ & Tn & _ & Hnext).
  destruct (poll_rep_step A ops Happs f t1 (mkPhyIn b []) apps R Tn ltac:(constructor)) as (f' & o & apps' & c & E & R' & Hlen').
  rewrite <- Hlen' in R'. destruct (IH f' apps' t1 R' (Hnext _ _ _ _ E)) as [steps Hs].
  cbn [map silent_in2 run_polls fst snd]. rewrite E. cbn [bind]. rewrite Hs. cbn [bind]. eexists. reflexivity.
Qed.

Section Generic.
Variable n : nat.
Variable Inv : fdl -> Prop.
Variable mu : fdl -> nat.
Variables dmax TX : Z.
Hypothesis Hd : 0 <= dmax.
Hypothesis HT : 0 <= TX.
Hypothesis HP : 0 <= P.

Hypothesis step : forall f now b (apps : list A),
  Inv f -> length apps = n -> time_ok now -> (b = true -> predicted f now = true) ->
  exists f' o apps' c, poll ops f now (mkPhyIn b []) apps = Ok (f', o, apps', c) /\ length apps' = n /\ Rep n f' /\
    ((now <= gv now (f_lba f) + dmax /\ Inv f' /\ mu f' = mu f /\ f_lba f' = Some (gv now (f_lba f)))
     \/ have_token (f_state f') = true
     \/ (Inv f' /\ (mu f' < mu f)%nat /\ exists l', f_lba f' = Some l' /\ l' <= Z.max (gv now (f_lba f)) (now + TX))).

(* one waiting period, then per step of the measure a transmission, a waiting period and a poll period *)
Definition gbound (f : fdl) (t1 : Z) : Z :=
  Z.max t1 (gv t1 (f_lba f) + dmax + P) + Z.of_nat (mu f) * (TX + dmax + P).

Theorem generic_recover : forall ins f apps tprev,
  Inv f -> length apps = n -> lone_ok f apps tprev ins ->
  exists steps, run_polls ops f apps (map silent_in2 ins) = Ok steps /\
    match ins with [] => steps = [] | (t1, _) :: _ => reached (gbound f t1) steps end.
Proof.
  induction ins as [|[t1 b] rest IH]; intros f apps tprev Hinv Hlen Hl.
  - exists []. split; reflexivity.
  - destruct Hl as (_ & Tn & Hb & Hnext).
    destruct (step f t1 b apps Hinv Hlen Tn Hb) as (f' & o & apps' & c & E & Hlen' & R' & Hcase).
    specialize (Hnext _ _ _ _ E).
    cbn [map silent_in2 run_polls fst snd]. rewrite E. cbn [bind].
    set (D := TX + dmax + P). assert (HD : 0 <= D) by (unfold D; lia).
    set (s := mkStep f t1 (mkPhyIn b []) f' o).
    assert (Hgap : forall t2 b2 rest', rest = (t2, b2) :: rest' -> t2 <= t1 + P).
    { intros t2 b2 rest' ->. destruct Hnext as (Hg & _). lia. }
    destruct Hcase as [(Hw & Hinv' & Hmu & Hl')|[Hgoal|(Hinv' & Hmu & l' & Hl' & Hle)]].
    + (* waiting *)
      destruct (IH f' apps' t1 Hinv' Hlen' Hnext) as [steps [Hrun Hre]].
      rewrite Hrun. cbn [bind]. eexists. split; [reflexivity|].
      assert (Hs : s_now s <= gbound f t1 - P) by (unfold gbound; cbn [s s_now]; nia).
      destruct rest as [|[t2 b2] rest'].
      * subst steps. apply (reached_cons _ (gbound f t1)); [lia|exact Hs|apply reached_nil].
      * apply (reached_cons _ (gbound f' t2)); [|exact Hs|exact Hre].
        specialize (Hgap _ _ _ eq_refl). unfold gbound. rewrite Hl', Hmu. cbn [gv]. fold D. lia.
    + (* the station holds the token *)
      rewrite <- Hlen' in R'.
      destruct (run_total rest f' apps' t1 R' Hnext) as [steps Hrun]. rewrite Hrun. cbn [bind].
      eexists. split; [reflexivity|]. apply reached_here; [exact Hgoal|]. cbn [s s_now]. unfold gbound. fold D.
      assert (0 <= Z.of_nat (mu f) * D) by (apply Z.mul_nonneg_nonneg; lia). unfold D in *. lia.
    + (* progress *)
      destruct (IH f' apps' t1 Hinv' Hlen' Hnext) as [steps [Hrun Hre]].
      rewrite Hrun. cbn [bind]. eexists. split; [reflexivity|].
      assert (Hm : Z.of_nat (mu f') * D <= Z.of_nat (mu f) * D - D) by nia.
      assert (Hs : s_now s <= gbound f t1 - P) by (unfold gbound; fold D; cbn [s s_now]; unfold D in *; nia).
      destruct rest as [|[t2 b2] rest'].
      * subst steps. apply (reached_cons _ (gbound f t1)); [lia|exact Hs|apply reached_nil].
      * apply (reached_cons _ (gbound f' t2)); [|exact Hs|exact Hre].
        specialize (Hgap _ _ _ eq_refl). unfold gbound. rewrite Hl'. cbn [gv]. fold D. unfold D in *. lia.
Qed.

End Generic.

Definition is_idle_chain (s : state) : bool :=
  match s with Offline | ListenToken _ _ | ActiveIdle _ _ _ => true | _ => false end.

(* the bound: from the first poll time t1 and the last recorded bus activity L.
   Idle chain (set online / listening / idle in the ring): the token-lost time-out of the own address plus one
   poll period, plus at most two further steps (a pending status reply of 6 bytes).
   Token chain (token-holding states, PassToken, CheckTokenPass): one slot time plus one poll period per
   step, a token telegram per step; at most three steps (passes) per other station in the ring view, plus
   at most five. *)
Definition recover_bound (f : fdl) (t1 : Z) : Z :=
  let p := f_p f in let L := gv t1 (f_lba f) in
  if is_idle_chain (f_state f)
  then Z.max t1 (L + token_lost_timeout p + P) + Z.of_nat (idle_rank (f_state f)) * (dur p 6 + token_lost_timeout p + P)
  else Z.max t1 (L + slot_time p + P) + Z.of_nat (mu_B f) * (dur p 3 + slot_time p + P).

Theorem lost_token_recovers_alone : forall ins f apps tprev,
  0 <= P -> Rep (length apps) f -> f_conn f = ConnOnline -> (f_lba f = None -> f_state f = Offline) ->
  lone_ok f apps tprev ins ->
  exists steps, run_polls ops f apps (map silent_in2 ins) = Ok steps /\
    match ins with [] => steps = [] | (t1, _) :: _ => reached (recover_bound f t1) steps end.
Proof.
  intros ins f apps tprev HP R Hc Hl Hlone.
  pose proof (bv_slot _ _ R) as Hslot.
  pose proof (slot_le_timeout _ (rep_p _ _ R)) as Hst.
  unfold recover_bound.
  destruct (is_idle_chain (f_state f)) eqn:Ei.
  - assert (Hinv : InvA (f_p f) (length apps) f).
    { split; [exact R|]. split; [exact Hc|]. split; [exact Hl|]. split; [reflexivity|].
      destruct (f_state f); try discriminate Ei; exact I. }
    exact (generic_recover (length apps) (InvA (f_p f) (length apps)) mu_A (token_lost_timeout (f_p f)) (dur (f_p f) 6)
             ltac:(lia) (dur_nonneg _ _) HP
             (fun g now b apps0 => stepA A ops Happs (f_p f) (length apps) g now b apps0) ins f apps tprev Hinv eq_refl Hlone).
  - assert (Hinv : InvB (f_p f) (length apps) f).
    { split; [exact R|]. split; [exact Hc|].
      split; [intros C; specialize (Hl C); rewrite Hl in Ei; discriminate Ei|]. split; [reflexivity|].
      pose proof (rep_st _ _ R) as St.
      destruct (f_state f); try discriminate Ei; try contradiction; unfold chainB; cbn; tauto. }
    exact (generic_recover (length apps) (InvB (f_p f) (length apps)) mu_B (slot_time (f_p f)) (dur (f_p f) 3)
             ltac:(lia) (dur_nonneg _ _) HP
             (fun g now b apps0 => stepB A ops Happs (f_p f) (length apps) g now b apps0) ins f apps tprev Hinv eq_refl Hlone).
Qed.

Lemma mu_B_le f : (mu_B f <= 3 * others (f_ring f) (ts f) + 5)%nat.
Proof. unfold mu_B. destruct (f_state f); lia. Qed.

(* a closed form above the bound: three steps per listed station plus five, each step at most the station's
   token-lost time-out plus a 6-byte telegram plus a poll period *)
Lemma recover_bound_le f t1 n : 0 <= P -> Rep n f ->
  recover_bound f t1 <=
  Z.max t1 (gv t1 (f_lba f) + token_lost_timeout (f_p f) + P) +
  (3 * Z.of_nat (others (f_ring f) (ts f)) + 5) * (dur (f_p f) 6 + token_lost_timeout (f_p f) + P).
Proof.
  intros HP R. pose proof (bv_slot _ _ R) as Hslot. pose proof (slot_le_timeout _ (rep_p _ _ R)) as Hst.
  pose proof (dur_nonneg (f_p f) 3) as H3.
  assert (H36 : dur (f_p f) 3 <= dur (f_p f) 6) by (unfold dur; apply C01Proofs.btt_mono; unfold bits_per_byte; lia).
  unfold recover_bound. set (m := Z.of_nat (others (f_ring f) (ts f))). assert (0 <= m) by (unfold m; lia).
  destruct (is_idle_chain (f_state f)).
  - assert (Hr : (idle_rank (f_state f) <= 2)%nat) by (destruct (f_state f) as [ | |[x|] y|[x|] y z| | | | | | ]; cbn; lia).
    nia.
  - pose proof (mu_B_le f) as Hm. fold m in Hm.
    assert (Hm' : Z.of_nat (mu_B f) <= 3 * m + 5) by (unfold m; lia).
    nia.
Qed.

Lemma run_polls_now : forall (ins : list (Z * phy_in)) f apps steps,
  run_polls ops f apps ins = Ok steps -> map s_now steps = map fst ins.
Proof.
  induction ins as [|[t pin] rest IH]; intros f apps steps H; cbn [run_polls] in H.
  - injection H as <-. reflexivity.
  - destruct (poll ops f t pin apps) as [[[[f' o] apps'] c]| |]; cbn [bind] in H; try discriminate H.
    destruct (run_polls ops f' apps' rest) as [l| |] eqn:Er; cbn [bind] in H; try discriminate H.
    injection H as <-. cbn [map s_now fst]. rewrite (IH _ _ _ Er). reflexivity.
Qed.

Corollary lost_token_recovers_alone_by : forall ins f apps tprev t1 b rest t,
  0 <= P -> Rep (length apps) f -> f_conn f = ConnOnline -> (f_lba f = None -> f_state f = Offline) ->
  ins = (t1, b) :: rest -> lone_ok f apps tprev ins ->
  In t (map fst ins) -> recover_bound f t1 - P < t ->
  exists steps, run_polls ops f apps (map silent_in2 ins) = Ok steps /\
    Exists (fun s => have_token (f_state (s_f' s)) = true /\ s_now s <= recover_bound f t1) steps.
Proof.
  intros ins f apps tprev t1 b rest t HP R Hc Hl -> Hlone Hin Hlate.
  destruct (lost_token_recovers_alone _ f apps tprev HP R Hc Hl Hlone) as [steps [Hrun Hre]].
  exists steps. split; [exact Hrun|]. destruct Hre as [H|H]; [exact H|exfalso].
  apply run_polls_now in Hrun. rewrite map_map in Hrun.
  assert (Hin' : In t (map s_now steps)) by (rewrite Hrun; exact Hin).
  apply in_map_iff in Hin'. destruct Hin' as [s [Hs Hsin]]. rewrite Forall_forall in H. specialize (H s Hsin). lia.
Qed.

End Schedules.

(* non-vacuity: a freshly created station with the default parameters (address 1, 19200 baud), set
   online and polled every 50 ms on a silent bus holds the token after one of the polls up to 291.872 ms *)

Definition ex_sched : list (Z * bool) :=
  [(10000, false); (60000, false); (110000, false); (160000, false); (210000, false); (260000, false)].

Lemma default_params_valid : builder_valid default_params.
Proof. unfold builder_valid, default_params. vm_compute. repeat split; discriminate. Qed.

Lemma ex_recover_fresh f0 f : fdl_new default_params = Ok f0 -> set_online f0 = Ok f ->
  exists steps, run_polls unit_app_ops f [tt] (map silent_in2 ex_sched) = Ok steps /\
    Exists (fun s => have_token (f_state (s_f' s)) = true /\ s_now s <= 291872) steps.
Proof.
  intros E0 E1.
  destruct (fdl_new_rep 1 default_params default_params_valid) as [g0 (Eg & R0 & Hc0 & Hs0 & Hp0)].
  rewrite E0 in Eg. injection Eg as <-.
  destruct (fdl_new_fields _ _ E0) as (_ & _ & Hl0 & _).
  unfold set_online, set_state in E1. injection E1 as <-.
  assert (R : Rep (length [tt]) (set_conn f0 ConnOnline)).
  { destruct (Rep_set_online 1 f0 R0) as [f1 [E R1]]. unfold set_online, set_state in E. injection E as <-. exact R1. }
  assert (Hb : recover_bound 50000 (set_conn f0 ConnOnline) 10000 = 291872).
  { unfold recover_bound. cbn [set_conn f_state f_p f_lba]. rewrite Hs0, Hp0, Hl0. vm_compute. reflexivity. }
  destruct (lost_token_recovers_alone_by unit unit_app_ops 50000 unit_apps_total ex_sched (set_conn f0 ConnOnline) [tt] 0
              10000 false (tl ex_sched) 260000 ltac:(lia) R eq_refl ltac:(intros _; exact Hs0) eq_refl) as [steps [Hrun Hex]].
  - apply lone_ok_free. cbn. unfold time_ok. repeat split; lia.
  - cbn. tauto.
  - rewrite Hb. lia.
  - exists steps. split; [exact Hrun|]. rewrite Hb in Hex. exact Hex.
Qed.
