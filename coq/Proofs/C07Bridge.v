(* C07 bridge: recovery counted in cycles of the DP master (C07_master_runs_joint_system, C07_recovery_master).
   C07_recovery is about ONE peripheral and its device, one `joint_cycle` per cycle.  Here the fault-free bus is run
   with DpMaster (`master_visit`, `master_run`), and every token visit is shown to advance each slot's pair by zero or
   one joint cycle, at least one per completed master cycle (`visit_step`; the count is kept by `turns` and `vbit`).
   Devices are compared up to the Global_Control command they recorded (`gceq`; slave_step does not read it). *)
From PB Require Import Peripheral DpMaster DpRun DpOracle Slave DpStepProofs C09Proofs C14Proofs C14History DpHistory.
From PB Require Import C07Abs C07Joint C07Proofs.
From PB Require Import DpOracleSound.

Definition set_gc (s : slave) (g : option Z) : slave :=
  mkSlave (sl_addr s) (sl_ident s) (sl_exp_cfg s) (sl_in_len s) (sl_out_len s) (sl_silent s)
          (sl_ready_delay s) (sl_stat_diag s) (sl_force1 s) (sl_force2 s) (sl_ext s)
          (sl_st s) (sl_master s) (sl_fcb s) (sl_resp s) (sl_prm_fault s) (sl_cfg_fault s)
          (sl_wd_on s) (sl_freeze s) (sl_sync s) (sl_not_ready s) (sl_diag_pending s)
          (sl_outputs s) (sl_counter s) g.

Definition gceq (s s' : slave) : Prop := exists g, s' = set_gc s g.

Lemma gceq_refl : forall s, gceq s s.
Proof. intro s. exists (sl_gc s). destruct s; reflexivity. Qed.

Lemma gceq_trans : forall a b c, gceq a b -> gceq b c -> gceq a c.
Proof. intros a b c (g1 & ->) (g2 & ->). exists g2. reflexivity. Qed.

Lemma gceq_sym : forall a b, gceq a b -> gceq b a.
Proof. intros a b (g & ->). exists (sl_gc a). destruct a; reflexivity. Qed.

Lemma gceq_st : forall a b, gceq a b -> sl_st b = sl_st a.
Proof. intros a b (g & ->). reflexivity. Qed.

(* every `if` of the goal decided: for functions that are one decision tree returning rebuilt records *)
Ltac case_ifs := repeat match goal with |- context [if ?c then _ else _] => destruct c end.

(* no decision of the device reads the recorded command, and every new state carries it over *)
Lemma slave_process_gc : forall s g h pdu,
  slave_process (set_gc s g) h pdu = (set_gc (fst (slave_process s h pdu)) g, snd (slave_process s h pdu)).
Proof.
  intros s g h pdu. unfold slave_process.
  cbn [set_gc sl_ident sl_exp_cfg sl_in_len sl_out_len sl_stat_diag sl_st sl_not_ready sl_diag_pending].
  case_ifs; reflexivity.
Qed.

Lemma slave_step_gc : forall s g w, exists g',
  slave_step (set_gc s g) w = (set_gc (fst (slave_step s w)) g', snd (slave_step s w)).
Proof.
  intros s g w. unfold slave_step. cbn [set_gc sl_silent sl_addr sl_fcb sl_resp].
  destruct (sl_silent s); [exists g; reflexivity|].
  destruct (decode w) as [[| |[h pdu| |] n]| |]; try (exists g; reflexivity).
  destruct (negb (Nat.eqb n (length w))); [exists g; reflexivity|].
  destruct (h_fc h) as [f r|]; [|exists g; reflexivity].
  destruct ((h_da h =? STD_BROADCAST) || (h_da h =? sl_addr s)); [|exists g; reflexivity].
  rewrite !slave_process_gc. destruct (slave_process s h pdu) as [s1 resp]. cbn [fst snd].
  (* only Global_Control (an SDN request to that SAP) records a new command *)
  destruct r; try (exists g; case_ifs; reflexivity);
    (destruct (opt_eqb (h_dsap h) (Some STD_SAP_GLOBAL_CONTROL)); [exists (Some (nth 0 pdu 0))|exists g]; reflexivity).
Qed.

Lemma joint_cycle_gc : forall pa op p s g p' s' evs,
  joint_cycle pa op (p, s) = Ok ((p', s'), evs) ->
  exists g', joint_cycle pa op (p, set_gc s g) = Ok ((p', set_gc s' g'), evs).
Proof.
  intros pa op p s g p' s' evs H. unfold joint_cycle in *.
  destruct (p_transmit pa op p) as [[p1 r]| |]; cbn [bind] in *; try discriminate H.
  destruct r as [h pdu|ev].
  - destruct (slave_step_gc s g (frame_spec h pdu)) as (g' & E). rewrite E.
    destruct (slave_step s (frame_spec h pdu)) as [s1 reply]. cbn [fst snd].
    destruct (deliver (p_address pa) (pe_addr p) reply) as [t|].
    + destruct (p_receive_reply p1 t) as [[p2 ev]| |]; cbn [bind] in *; try discriminate H.
      inversion H; subst. exists g'. reflexivity.
    + inversion H; subst. exists g'. reflexivity.
  - inversion H; subst. exists g. reflexivity.
Qed.

Definition reaches (pa : params) (op : opstate) (n : nat) (st st' : jstate) : Prop :=
  exists evs, joint_run pa op n st = Ok (st', evs).

Lemma reaches_snoc : forall pa op n st st1 st2 e,
  reaches pa op n st st1 -> joint_cycle pa op st1 = Ok (st2, e) -> reaches pa op (S n) st st2.
Proof.
  intros pa op. induction n as [|n IH]; intros st st1 st2 e (evs & H) Hc.
  - cbn in H. inversion H; subst. exists (e ++ []). cbn [joint_run]. rewrite Hc. reflexivity.
  - cbn [joint_run] in H. destruct (joint_cycle pa op st) as [[sta ea]| |] eqn:Ha; cbn [bind] in H; try discriminate H.
    destruct (joint_run pa op n sta) as [[stb eb]| |] eqn:Hb; cbn [bind] in H; try discriminate H.
    inversion H; subst. destruct (IH sta st1 st2 e (ex_intro _ eb Hb) Hc) as (evs' & H').
    exists (ea ++ evs'). change (joint_run pa op (S (S n)) st) with
      (let* (s1, e1) := joint_cycle pa op st in let* (s2, e2) := joint_run pa op (S n) s1 in Ok (s2, e1 ++ e2)).
    rewrite Ha. cbn [bind]. rewrite H'. reflexivity.
Qed.

(* one peripheral and its device: nothing, or one cycle of the joint system; the device up to the recorded
   Global_Control command *)
Definition evo (pa : params) (op : opstate) (p : periph) (s : slave) (p' : periph) (s' : slave) (d : nat) : Prop :=
  (d = 0%nat /\ p' = p /\ gceq s s') \/
  (d = 1%nat /\ exists e s1, joint_cycle pa op (p, s) = Ok ((p', s1), e) /\ gceq s1 s').

Lemma reaches_evo : forall pa op n st0 p sx s p' s' d,
  reaches pa op n st0 (p, sx) -> gceq sx s -> evo pa op p s p' s' d ->
  exists sx', reaches pa op (n + d) st0 (p', sx') /\ gceq sx' s'.
Proof.
  intros pa op n st0 p sx s p' s' d Hr Hg [(-> & -> & Hg')|(-> & e & s1 & Hc & Hg')].
  - exists sx. rewrite Nat.add_0_r. split; [exact Hr|eapply gceq_trans; eassumption].
  - destruct (gceq_sym _ _ Hg) as (g2 & Es). destruct (joint_cycle_gc _ _ _ _ g2 _ _ _ Hc) as (g' & Hc').
    rewrite <- Es in Hc'. exists (set_gc s1 g'). split.
    + replace (n + 1)%nat with (S n) by lia. eapply reaches_snoc; eassumption.
    + eapply gceq_trans; [apply gceq_sym; exists g'; reflexivity|exact Hg'].
Qed.

Fixpoint find_slave (l : list slave) (da : Z) : option nat :=
  match l with
  | [] => None
  | s :: r => if sl_addr s =? da then Some 0%nat else option_map S (find_slave r da)
  end.

Definition mstate : Set := (dpm * list slave)%type.

(* one token visit: transmit_telegram; a Global_Control broadcast is seen by every device; a request is seen by the
   device with the destination address, whose answer - if it decodes completely and passes the FDL admission rule
   (C07Joint.deliver) - is handed to receive_reply, otherwise handle_timeout.  Returns the new state and whether
   DpEvents.cycle_completed was reported. *)
Definition master_visit (pa : params) (bufsize : nat) (st : mstate) (now : Z) (hp : bool) : res (mstate * bool) :=
  let (m, sl) := st in
  let* (m1, o) := dp_transmit pa bufsize m now hp in
  match o with
  | None => Ok ((m1, sl), ev_cycle_completed (dm_events m1))
  | Some (w, None) => Ok ((m1, map (fun s => fst (slave_step s w)) sl), false)
  | Some (w, Some da) =>
      match find_slave sl da with
      | None => let* m2 := dp_handle_timeout m1 da in Ok ((m2, sl), false)
      | Some k =>
          match nth_error sl k with
          | None => let* m2 := dp_handle_timeout m1 da in Ok ((m2, sl), false)
          | Some s =>
              let (s1, reply) := slave_step s w in
              match deliver (p_address pa) da reply with
              | Some t =>
                  let* m2 := dp_receive_reply m1 da t in
                  Ok ((m2, set_nth sl k s1), ev_cycle_completed (dm_events m2))
              | None => let* m2 := dp_handle_timeout m1 da in Ok ((m2, set_nth sl k s1), false)
              end
          end
      end
  end.

(* a schedule of token visits (time, HighPrioOnly); counts the completed DP cycles *)
Fixpoint master_run (pa : params) (bufsize : nat) (st : mstate) (sched : list (Z * bool)) : res (mstate * nat) :=
  match sched with
  | [] => Ok (st, 0%nat)
  | (now, hp) :: r =>
      let* (st1, cc) := master_visit pa bufsize st now hp in
      let* (st2, n) := master_run pa bufsize st1 r in
      Ok (st2, ((if cc then 1 else 0) + n)%nat)
  end.

Lemma slave_process_addr : forall s h pdu, sl_addr (fst (slave_process s h pdu)) = sl_addr s.
Proof.
  intros s h pdu. unfold slave_process. case_ifs; reflexivity.
Qed.

Lemma slave_step_addr : forall s w, sl_addr (fst (slave_step s w)) = sl_addr s.
Proof.
  intros s w. unfold slave_step.
  destruct (sl_silent s); [reflexivity|].
  destruct (decode w) as [[| |[h pdu| |] n]| |]; try reflexivity.
  destruct (negb (Nat.eqb n (length w))); [reflexivity|].
  destruct (h_fc h) as [f r|]; [|reflexivity].
  destruct ((h_da h =? STD_BROADCAST) || (h_da h =? sl_addr s)); [|reflexivity].
  pose proof (slave_process_addr s h pdu) as Hp. destruct (slave_process s h pdu) as [s1 resp]. cbn [fst] in Hp.
  destruct r; try reflexivity; case_ifs; cbn; try reflexivity; exact Hp.
Qed.

Lemma find_slave_addrs : forall l l' da, map sl_addr l' = map sl_addr l -> find_slave l' da = find_slave l da.
Proof.
  induction l as [|s l IH]; intros [|s' l'] da H; try discriminate H; [reflexivity|].
  cbn in H. inversion H as [[H1 H2]]. cbn [find_slave]. rewrite H1, (IH l' da H2). reflexivity.
Qed.

Lemma find_slave_nth : forall l da k, find_slave l da = Some k -> exists s, nth_error l k = Some s /\ sl_addr s = da.
Proof.
  induction l as [|s l IH]; intros da k H; [discriminate H|]. cbn [find_slave] in H.
  destruct (Z.eqb_spec (sl_addr s) da) as [E|_].
  - inversion H; subst. exists s. auto.
  - destruct (find_slave l da) as [k0|] eqn:E0; [|discriminate H]. inversion H; subst.
    destruct (IH da k0 E0) as (s0 & H1 & H2). exists s0. auto.
Qed.

Lemma map_set_nth_addr : forall (l : list slave) k s s1, nth_error l k = Some s -> sl_addr s1 = sl_addr s ->
  map sl_addr (set_nth l k s1) = map sl_addr l.
Proof.
  induction l as [|x l IH]; intros [|k] s s1 H E; cbn in *; try discriminate H.
  - inversion H; subst. rewrite E. reflexivity.
  - rewrite (IH k s s1 H E). reflexivity.
Qed.

Definition evl' (ev : option pevent) : list pevent := match ev with Some e => [e] | None => [] end.

Lemma joint_skip : forall pa op q q' ev s,
  p_transmit pa op q = Ok (q', PtxSkip ev) -> joint_cycle pa op (q, s) = Ok ((q', s), evl' ev).
Proof. intros pa op q q' ev s H. unfold joint_cycle. rewrite H. reflexivity. Qed.

Lemma joint_reply : forall pa op q q' h pdu s s1 reply t q'' ev,
  p_transmit pa op q = Ok (q', PtxSend h pdu) -> slave_step s (frame_spec h pdu) = (s1, reply) ->
  deliver (p_address pa) (pe_addr q) reply = Some t -> p_receive_reply q' t = Ok (q'', ev) ->
  joint_cycle pa op (q, s) = Ok ((q'', s1), evl' ev).
Proof.
  intros pa op q q' h pdu s s1 reply t q'' ev H1 H2 H3 H4. unfold joint_cycle. rewrite H1. cbn [bind].
  rewrite H2, H3, H4. reflexivity.
Qed.

Lemma joint_timeout : forall pa op q q' h pdu s s1 reply,
  p_transmit pa op q = Ok (q', PtxSend h pdu) -> slave_step s (frame_spec h pdu) = (s1, reply) ->
  deliver (p_address pa) (pe_addr q) reply = None ->
  joint_cycle pa op (q, s) = Ok ((q', s1), []).
Proof.
  intros pa op q q' h pdu s s1 reply H1 H2 H3. unfold joint_cycle. rewrite H1. cbn [bind]. rewrite H2, H3. reflexivity.
Qed.

Lemma jinv_frame : forall pa op q s q' h pdu bufsize w,
  jinv pa q s -> (255 <= bufsize)%nat ->
  p_transmit pa op q = Ok (q', PtxSend h pdu) -> encode_data_in bufsize h pdu = Ok w ->
  w = frame_spec h pdu /\ tx_expects_reply h = Some (pe_addr q).
Proof.
  intros pa op q s q' h pdu bufsize w J Hbuf Hp He.
  destruct (transmit_facts _ _ _ _ _ Hp) as (_ & _ & _ & _ & _ & _ & _ & _ & Hstd).
  pose proof (ji_own _ _ _ J) as Hown. pose proof (ji_addr _ _ _ J) as Ha.
  destruct (ji_prm _ _ _ J) as (user & Hu & Hul). destruct (ji_cfg _ _ _ J) as (cfg & Hcf & _ & Hcl).
  destruct (ji_out _ _ _ J) as (Ho1 & Ho2).
  pose proof (expects_reply_std' _ _ _ _ _ _ _ Hstd) as Hexp.
  (* the four requests: addresses and SAPs are bytes, the payload has at most 244 bytes *)
  assert (Hh : (wf_header h /\ h_da h = pe_addr q) /\ (length pdu <= 244)%nat).
  { unfold wf_header, is_addr7. destruct (state_service q') eqn:Esv; cbn in Hstd; try contradiction.
    - destruct Hstd as (-> & ->). cbn. unfold is_byte. lia.
    - destruct Hstd as (u & Hu' & -> & ->). assert (u = user) by congruence. subst u. cbn. unfold is_byte. lia.
    - destruct Hstd as (u & Hu' & -> & ->). assert (u = cfg) by congruence. subst u. cbn. unfold is_byte. lia.
    - assert (Hd : h_dsap h = None) by (rewrite Hstd; reflexivity).
      destruct (dx_request_only_when_ready _ _ _ _ _ _ Hp Hd) as (_ & _ & _ & ->). subst h. cbn.
      destruct (opstate_eqb op OpOperate); rewrite ?repeat_length; lia. }
  destruct Hh as ((Hwf & Hda) & Hlen).
  pose proof (length_byte_le h (length pdu)). pose proof (telegram_len_le h (length pdu)).
  rewrite encode_data_in_spec in He by (try exact Hwf; lia).
  split; [congruence|]. rewrite <- Hda. exact Hexp.
Qed.

Lemma gc_seen : forall pa bufsize b w s,
  0 <= p_address pa <= 126 -> (255 <= bufsize)%nat ->
  send_data bufsize (gc_header pa) [b; dp_gc_groups] = Ok (w, None) ->
  gceq s (fst (slave_step s w)).
Proof.
  intros pa bufsize b w s Hown Hbuf Hs.
  assert (Hdec : decode w = Ok (Accept (TData (gc_header pa) [b; dp_gc_groups]) (length w))).
  { unfold send_data in Hs. destruct (encode_data_in bufsize (gc_header pa) [b; dp_gc_groups]) as [w'| |] eqn:He;
      cbn [bind] in Hs; try discriminate Hs. inversion Hs; subst w'.
    apply (encode_decode bufsize); auto.
    - unfold wf_header, gc_header. cbn [h_da h_sa h_dsap h_ssap].
      split; [vm_compute; split; [discriminate|reflexivity]|]. split; [unfold is_addr7; lia|].
      split; vm_compute; (split; [discriminate|reflexivity]).
    - vm_compute. lia.
    - unfold telegram_len_data, length_byte. cbn. lia. }
  unfold slave_step. destruct (sl_silent s); [apply gceq_refl|]. rewrite Hdec, Nat.eqb_refl. cbn [negb].
  change (h_fc (gc_header pa)) with (FcRequest FcbInactive RqSdnLow).
  change (h_da (gc_header pa) =? STD_BROADCAST) with true. cbn [orb].
  change (opt_eqb (h_dsap (gc_header pa)) (Some STD_SAP_GLOBAL_CONTROL)) with true. cbn [fst].
  exists (Some (nth 0 [b; dp_gc_groups] 0)). reflexivity.
Qed.

Lemma joint_cycle_addr : forall pa op p s p' s' e, joint_cycle pa op (p, s) = Ok ((p', s'), e) -> pe_addr p' = pe_addr p.
Proof.
  intros pa op p s p' s' e H. unfold joint_cycle in H.
  destruct (p_transmit pa op p) as [[p1 r]| |] eqn:Ht; cbn [bind] in H; try discriminate H.
  destruct (transmit_keeps _ _ _ _ _ Ht) as (E1 & _).
  destruct r as [h pdu|ev]; [|inversion H; subst; exact E1].
  destruct (slave_step s (frame_spec h pdu)) as [s1 reply].
  destruct (deliver (p_address pa) (pe_addr p) reply) as [t|]; [|inversion H; subst; exact E1].
  destruct (p_receive_reply p1 t) as [[p2 ev]| |] eqn:Hr; cbn [bind] in H; try discriminate H.
  inversion H; subst. destruct (receive_facts _ _ _ _ Hr) as (E2 & _). congruence.
Qed.

Lemma evo_addr : forall pa op p s p' s' d, evo pa op p s p' s' d -> pe_addr p' = pe_addr p.
Proof.
  intros pa op p s p' s' d [(_ & -> & _)|(_ & e & s1 & Hc & _)]; [reflexivity|exact (joint_cycle_addr _ _ _ _ _ _ _ Hc)].
Qed.

(* 0 while slot i still waits for its turn in the current pass of the master, 1 once it has had it *)
Definition vbit (m : dpm) (i : nat) : nat := if in_dec Nat.eq_dec i (pos_rem m) then 0%nat else 1%nat.

Lemma vbit_in : forall m i, In i (pos_rem m) -> vbit m i = 0%nat.
Proof. intros m i H. unfold vbit. destruct (in_dec Nat.eq_dec i (pos_rem m)); [reflexivity|contradiction]. Qed.
Lemma vbit_out : forall m i, ~ In i (pos_rem m) -> vbit m i = 1%nat.
Proof. intros m i H. unfold vbit. destruct (in_dec Nat.eq_dec i (pos_rem m)); [contradiction|reflexivity]. Qed.
Lemma vbit_same : forall m m' i, (In i (pos_rem m') <-> In i (pos_rem m)) -> vbit m' i = vbit m i.
Proof.
  intros m m' i H. unfold vbit. destruct (in_dec Nat.eq_dec i (pos_rem m')) as [H1|H1], (in_dec Nat.eq_dec i (pos_rem m)) as [H2|H2];
    try reflexivity; exfalso; tauto.
Qed.

(* a visit and the order of turns: the slots of `done` had their turn, those of `rest` still wait for it; when the
   cycle completes nobody waits, and the next pass begins with every slot *)
Definition turns (m m' : dpm) (cc : bool) (done : list nat) : Prop :=
  exists rest, pos_rem m = done ++ rest /\ (forall i, In i done -> ~ In i rest) /\
    (if cc then rest = [] /\ pos_rem m' = occupied m' else pos_rem m' = rest).

(* the count of the invariant: a slot that had its turn (d = 1 joint cycle) pays for the completed cycle or for
   having had its turn; a slot that had none keeps its position, or starts the new cycle still waiting *)
Lemma turn_account : forall m m' cc done i p' d,
  turns m m' cc done -> slot m' i = Some p' -> (In i done -> d = 1%nat) ->
  ((if cc then 1 else 0) + vbit m' i <= vbit m i + d)%nat.
Proof.
  intros m m' cc done i p' d (rest & Hpos & Hdisj & Hpost) Hp' Hd.
  assert (Hocc : cc = true -> vbit m' i = 0%nat).
  { intros ->. destruct Hpost as (_ & Hpr). apply vbit_in. rewrite Hpr. apply occupied_in_slot. exists p'. exact Hp'. }
  destruct (in_dec Nat.eq_dec i done) as [Hi|Hi].
  - rewrite (Hd Hi). destruct cc; [rewrite Hocc by reflexivity; lia|].
    rewrite (vbit_out m' i); [lia|]. rewrite Hpost. exact (Hdisj i Hi).
  - destruct cc.
    + destruct Hpost as (-> & _). rewrite app_nil_r in Hpos. rewrite Hocc by reflexivity.
      rewrite (vbit_out m i); [lia|]. rewrite Hpos. exact Hi.
    + rewrite (vbit_same m m' i); [lia|]. rewrite Hpost, Hpos, in_app_iff. tauto.
Qed.

Lemma turns_trans : forall m m1 m2 cc d1 d2, turns m m1 false d1 -> turns m1 m2 cc d2 -> turns m m2 cc (d1 ++ d2).
Proof.
  intros m m1 m2 cc d1 d2 (r1 & Hp1 & Hd1 & Hr1) (r2 & Hp2 & Hd2 & Hr2). rewrite Hr1 in Hp2. rewrite Hp2 in Hp1, Hd1.
  exists r2. split; [rewrite <- app_assoc; exact Hp1|]. split; [|exact Hr2].
  intros i Hi Hr. apply in_app_or in Hi. destruct Hi as [Hi|Hi]; [|exact (Hd2 i Hi Hr)].
  apply (Hd1 i Hi). apply in_or_app. right. exact Hr.
Qed.

(* an admitted reply ends the turn of the slot at the head of the order (C14History.rx_turn, as a visit) *)
Lemma reply_turns : forall m js r q t m2,
  pos_rem m = js :: r -> slot m js = Some q -> dp_receive_reply m (pe_addr q) t = Ok m2 ->
  exists q2 ev, p_receive_reply q t = Ok (q2, ev) /\
    (forall j, slot m2 j = if Nat.eqb j js then Some q2 else slot m j) /\
    mask m2 = mask m /\ dm_op m2 = dm_op m /\ turns m m2 (ev_cycle_completed (dm_events m2)) [js].
Proof.
  intros m js r q t m2 Hpr Hq Hrx. rewrite <- dp_receive_reply_erase in Hrx.
  destruct (dp_receive_reply_g m (pe_addr q) t) as [[m2' lg]| |] eqn:Hrg; cbn [drop_log] in Hrx; try discriminate Hrx.
  inversion Hrx; subst m2'. clear Hrx.
  destruct (rx_turn _ _ _ _ _ Hrg) as (hd & p & rest & q2 & ev & cy & Ht & _ & Hprx & Hpo & -> & _).
  pose proof Ht as (Hr' & Hs & _). rewrite Hpr in Hr'. injection Hr' as -> ->.
  assert (p = q) by congruence. subst p.
  destruct (turn_over m hd q rest q2 cy (mkEvents (is_nil rest) (opt_pair hd ev)) Ht Hpo) as (Hmk & Hp2 & _).
  destruct (turn_put m hd q rest q2 Ht) as (_ & _ & Ho & _).
  exists q2, ev. split; [exact Hprx|]. split; [intro j; apply (put_cur_slots _ _ _ _ _ Hs)|].
  split; [exact Hmk|]. split; [reflexivity|]. exists rest. split; [exact Hpr|]. split.
  - intros i [<-|[]] Hi. pose proof (pos_rem_sorted m) as Hso. rewrite Hpr in Hso.
    exact (proj1 (sorted_head_notin _ _ Hso) Hi).
  - cbn [dm_events set_events ev_cycle_completed]. rewrite Hp2. destruct rest; cbn [is_nil]; [|reflexivity].
    split; [reflexivity|]. symmetry. exact Ho.
Qed.

(* one call of the slot loop: the slots of vis end their turn without sending; a request comes from the head of what
   remains, which keeps its turn until the reply *)
Lemma loop_turns : forall pa bufsize m m1 o log,
  tx_rel pa bufsize m m1 o log -> Ccomp m ->
  mask m1 = mask m /\ dm_op m1 = dm_op m /\ Ccomp m1 /\
  exists vis, turns m m1 (ev_cycle_completed (dm_events m1)) vis /\
    (forall i, In i vis -> exists q q' ev, slot m i = Some q /\ slot m1 i = Some q' /\
                                           p_transmit pa (dm_op m) q = Ok (q', PtxSkip ev)) /\
    match o with
    | None => forall i, ~ In i vis -> slot m1 i = slot m i
    | Some x => exists js r q q' h pdu,
        pos_rem m1 = js :: r /\ ev_cycle_completed (dm_events m1) = false /\
        slot m js = Some q /\ slot m1 js = Some q' /\ p_transmit pa (dm_op m) q = Ok (q', PtxSend h pdu) /\
        send_data bufsize h pdu = Ok x /\ forall i, ~ In i vis -> i <> js -> slot m1 i = slot m i
    end.
Proof.
  intros pa bufsize m m1 o log Hrel Hcc.
  destruct (tx_rel_cycle _ _ _ _ _ _ Hrel Hcc) as (rem' & Hte & Hmk & Hncc & Hpost).
  destruct (tx_rel_visit _ _ _ _ _ _ Hrel rem' Hte) as (vis & Hpos & V1 & V5 & V3 & _).
  destruct (tx_rel_frame _ _ _ _ _ _ Hrel) as (Hopm & _).
  pose proof (pos_rem_sorted m) as Hsorted. rewrite Hpos in Hsorted.
  destruct (sorted_app _ _ Hsorted) as (_ & _ & Sdisj).
  split; [exact Hmk|]. split; [exact Hopm|]. split; [intro E; now elim Hncc|]. exists vis. split; [|split].
  - exists rem'. split; [exact Hpos|]. split; [exact Sdisj|].
    destruct (ev_cycle_completed (dm_events m1)); [exact Hpost|exact (proj2 Hpost)].
  - intros i Hi. destruct (V1 _ Hi) as (q & q' & ev & H1 & H2 & H3 & _). exists q, q', ev. auto.
  - destruct o as [x|]; [|exact (V3 eq_refl)].
    destruct (V5 ltac:(discriminate)) as (js & r & q & q' & h & pdu & -> & Hq & Hq' & Hps & Hoth & x' & Ex & Hsd).
    inversion Ex; subst x'. exists js, r, q, q', h, pdu.
    destruct (ev_cycle_completed (dm_events m1)); [destruct Hpost as (E & _); discriminate E|].
    destruct Hpost as (_ & Hpr1). repeat split; auto.
Qed.

Section Bridge.
Variables (pa : params) (bufsize : nat) (op : opstate) (m0 : dpm) (sl0 : list slave).
Hypothesis Hop : op <> OpStop.
Hypothesis Hown : 0 <= p_address pa <= 126.
Hypothesis Hbuf : (255 <= bufsize)%nat.
Hypothesis Hinj0 : addr_inj m0.
Hypothesis Hinit : forall i p0, slot m0 i = Some p0 ->
  exists k s0, find_slave sl0 (pe_addr p0) = Some k /\ nth_error sl0 k = Some s0 /\ jinv pa p0 s0.

(* the bridge invariant after K completed master cycles: slots, addresses and operating state as at the start, and
   the pair of every slot is n joint cycles on from where it started, with K + vbit m i <= n + vbit m0 i *)
Record BI (m : dpm) (sl : list slave) (K : nat) : Prop := mkBI {
  bi_mask : mask m = mask m0;
  bi_op : dm_op m = op;
  bi_addr : forall i p, slot m i = Some p -> exists p0, slot m0 i = Some p0 /\ pe_addr p = pe_addr p0;
  bi_sl : map sl_addr sl = map sl_addr sl0;
  bi_ccomp : Ccomp m;
  bi_run : forall i p0 k s0, slot m0 i = Some p0 -> find_slave sl0 (pe_addr p0) = Some k -> nth_error sl0 k = Some s0 ->
      exists p s n sx, slot m i = Some p /\ nth_error sl k = Some s /\
        reaches pa op n (p0, s0) (p, sx) /\ gceq sx s /\ (K + vbit m i <= n + vbit m0 i)%nat }.

Lemma bi_init : dm_op m0 = op -> Ccomp m0 -> BI m0 sl0 0.
Proof.
  intros Ho Hc. constructor; try assumption; try reflexivity.
  - intros i p Hp. exists p. auto.
  - intros i p0 k s0 Hp Hk Hs. exists p0, s0, 0%nat, s0. split; [exact Hp|]. split; [exact Hs|].
    split; [exists []; reflexivity|]. split; [apply gceq_refl|apply le_n].
Qed.

Lemma device_inj : forall i j p q k, slot m0 i = Some p -> slot m0 j = Some q ->
  find_slave sl0 (pe_addr p) = Some k -> find_slave sl0 (pe_addr q) = Some k -> i = j.
Proof.
  intros i j p q k Hp Hq Hi Hj.
  destruct (find_slave_nth _ _ _ Hi) as (s & Hs & Ea). destruct (find_slave_nth _ _ _ Hj) as (s' & Hs' & Ea').
  apply (Hinj0 i j p q Hp Hq). congruence.
Qed.

(* the invariant after a visit, from what the visit did to every slot: nothing (d = 0) or one cycle of the joint
   system (d = 1), the slots of `done` among the latter *)
Lemma bi_update : forall m sl K m' sl' cc done,
  BI m sl K -> mask m' = mask m -> dm_op m' = dm_op m -> Ccomp m' ->
  map sl_addr sl' = map sl_addr sl -> turns m m' cc done ->
  (forall i p0 k s0 p s, slot m0 i = Some p0 -> find_slave sl0 (pe_addr p0) = Some k -> nth_error sl0 k = Some s0 ->
     slot m i = Some p -> nth_error sl k = Some s ->
     exists p' s' d, slot m' i = Some p' /\ nth_error sl' k = Some s' /\ evo pa op p s p' s' d /\
                     (In i done -> d = 1%nat)) ->
  BI m' sl' (K + if cc then 1 else 0).
Proof.
  intros m sl K m' sl' cc done [B1 B2 B3 B4 B5 B6] Hmk Hopm Hcc Hsl Ht Hev. constructor; try congruence; try assumption.
  - intros i p' Hp'. destruct (mask_slot_back m m' i p' Hmk Hp') as (p & Hp).
    destruct (B3 _ _ Hp) as (p0 & Hp0 & Ea0). destruct (Hinit _ _ Hp0) as (k & s0 & Hk & Hs0 & _).
    destruct (B6 i p0 k s0 Hp0 Hk Hs0) as (p_ & s & _ & _ & Hp_ & Hs & _).
    destruct (Hev i p0 k s0 p_ s Hp0 Hk Hs0 Hp_ Hs) as (p'' & s' & d & Hp'' & _ & He & _).
    exists p0. split; [exact Hp0|]. apply evo_addr in He. congruence.
  - intros i p0 k s0 Hp0 Hk Hs0. destruct (B6 i p0 k s0 Hp0 Hk Hs0) as (p & s & n & sx & Hp & Hs & Hr & Hg & Hb).
    destruct (Hev i p0 k s0 p s Hp0 Hk Hs0 Hp Hs) as (p' & s' & d & Hp' & Hs' & He & Hd).
    destruct (reaches_evo _ _ _ _ _ _ _ _ _ _ Hr Hg He) as (sx' & Hr' & Hg').
    exists p', s', (n + d)%nat, sx'. repeat split; auto.
    pose proof (turn_account m m' cc done i p' d Ht Hp' Hd) as A. clear - Hb A. lia.
Qed.

Lemma bi_jinv : forall i p0 k s0 p n sx,
  slot m0 i = Some p0 -> find_slave sl0 (pe_addr p0) = Some k -> nth_error sl0 k = Some s0 ->
  reaches pa op n (p0, s0) (p, sx) -> jinv pa p sx.
Proof.
  intros i p0 k s0 p n sx Hp0 Hk Hs0 (evs & Hr).
  destruct (Hinit _ _ Hp0) as (k' & s0' & Hk' & Hs0' & J). assert (k' = k) by congruence. subst k'.
  assert (s0' = s0) by congruence. subst s0'.
  destruct (sim_run pa op Hop n p0 s0 J) as (p' & s' & evs' & Hr' & J' & _). congruence.
Qed.

Lemma slot_mask_fw : forall m m' i p, mask m' = mask m -> slot m i = Some p -> exists p', slot m' i = Some p'.
Proof. intros m m' i p H Hs. apply (mask_slot_back m' m i p); [symmetry; exact H|exact Hs]. Qed.

(* one token visit advances every slot by zero or one cycle of the joint system, as the count demands *)
Lemma visit_step : forall m sl K now hp m' sl' cc,
  BI m sl K -> master_visit pa bufsize (m, sl) now hp = Ok ((m', sl'), cc) ->
  BI m' sl' (K + (if cc then 1 else 0)).
Proof using Hop Hbuf Hinj0 Hinit.
  intros m sl K now hp m' sl' cc B H. unfold master_visit in H.
  destruct (dp_transmit pa bufsize m now hp) as [[m1 o]| |] eqn:Htx; cbn [bind] in H; try discriminate H.
  rewrite <- dp_transmit_erase in Htx.
  destruct (dp_transmit_g pa bufsize m now hp) as [[[m1' o'] log]| |] eqn:Hg; cbn [drop_log] in Htx; try discriminate Htx.
  inversion Htx; subst m1' o'. clear Htx.
  destruct (dp_transmit_g_cases _ _ _ _ _ _ _ _ Hg) as
    [(Hstop & _)|[(_ & _ & _ & -> & _ & b & w & _ & Hsd & ->)|(_ & _ & Hrel)]].
  - exfalso. apply Hop. rewrite <- (bi_op _ _ _ B). exact Hstop.
  - (* global control: every device records it, no slot moves *)
    injection H as <- <- <-.
    apply (bi_update m sl K _ _ false []); try reflexivity.
    + exact B.
    + exact (bi_ccomp _ _ _ B).
    + rewrite map_map. apply map_ext. intro s. apply slave_step_addr.
    + exists (pos_rem m). split; [reflexivity|]. split; [intros i []|reflexivity].
    + intros i p0 k s0 p s Hp0 _ _ Hp Hs. exists p, (fst (slave_step s w)), 0%nat.
      split; [exact Hp|]. split; [rewrite nth_error_map, Hs; reflexivity|]. split; [|intros []].
      left. split; [reflexivity|]. split; [reflexivity|].
      destruct (Hinit _ _ Hp0) as (k' & s0' & _ & _ & J).
      assert (Ho : 0 <= p_address pa <= 126) by (pose proof (ji_own _ _ _ J) as Jo; clear - Jo; lia).
      exact (gc_seen pa bufsize b w s Ho Hbuf Hsd).
  - (* the slot loop *)
    destruct (loop_turns _ _ _ _ _ _ Hrel (bi_ccomp _ _ _ B)) as (Hmk & Hopm & Hcc1 & vis & Ht & V1 & Vo).
    rewrite (bi_op _ _ _ B) in V1, Vo.
    (* a slot of vis made one cycle of the joint system, the others none; its device saw nothing *)
    assert (Hstep : forall i p s, slot m i = Some p -> (~ In i vis -> slot m1 i = Some p) ->
              exists p' d, slot m1 i = Some p' /\ evo pa op p s p' s d /\ (In i vis -> d = 1%nat)).
    { intros i p s Hp Hsame. destruct (in_dec Nat.eq_dec i vis) as [Hi|Hi].
      - destruct (V1 _ Hi) as (q & q' & ev & H1 & H2 & H3). assert (q = p) by congruence. subst q.
        exists q', 1%nat. split; [exact H2|]. split; [|reflexivity].
        right. split; [reflexivity|]. exists (evl' ev), s. split; [apply joint_skip; exact H3|apply gceq_refl].
      - exists p, 0%nat. split; [exact (Hsame Hi)|]. split; [|contradiction].
        left. split; [reflexivity|]. split; [reflexivity|apply gceq_refl]. }
    destruct o as [[w e]|].
    + (* a request of slot js, the head of what remains; its device is number k *)
      destruct Vo as (js & r & q & q' & h & pdu & Hpr1 & Hncc1 & Hq & Hq' & Hps & Hsd & Hoth). rewrite Hncc1 in Ht.
      unfold send_data in Hsd. destruct (encode_data_in bufsize h pdu) as [w'| |] eqn:Henc; cbn [bind] in Hsd; try discriminate Hsd.
      inversion Hsd; subst w' e. clear Hsd.
      destruct (bi_addr _ _ _ B _ _ Hq) as (p0 & Hp0 & Ea0).
      destruct (Hinit _ _ Hp0) as (k & s0 & Hk & Hs0 & _).
      destruct (bi_run _ _ _ B js p0 k s0 Hp0 Hk Hs0) as (qq & s & n & sx & Hqq & Hs & Hr & _).
      assert (qq = q) by congruence. subst qq.
      pose proof (bi_jinv js p0 k s0 q n sx Hp0 Hk Hs0 Hr) as Jq.
      destruct (jinv_frame pa op q sx q' h pdu bufsize w Jq Hbuf Hps Henc) as (-> & Hexp).
      pose proof Hk as Hkq. rewrite <- Ea0 in Hkq.
      rewrite Hexp, (find_slave_addrs sl0 sl _ (bi_sl _ _ _ B)), Hkq, Hs in H.
      destruct (slave_step s (frame_spec h pdu)) as [s1 reply] eqn:Hss.
      (* a reply ends the turn, a time-out does not: either way the sender made one cycle of the joint system *)
      assert (Hfin : exists qf ev done, joint_cycle pa op (q, s) = Ok ((qf, s1), ev) /\
                (forall j, slot m' j = if Nat.eqb j js then Some qf else slot m1 j) /\
                mask m' = mask m1 /\ dm_op m' = dm_op m1 /\ sl' = set_nth sl k s1 /\
                turns m m' cc done /\ (forall i, In i done -> In i vis \/ i = js)).
      { destruct (deliver (p_address pa) (pe_addr q) reply) as [t|] eqn:Hdel.
        - destruct (dp_receive_reply m1 (pe_addr q) t) as [m2| |] eqn:Hrx; cbn [bind] in H; try discriminate H.
          injection H as <- <- <-.
          rewrite <- (proj1 (transmit_keeps _ _ _ _ _ Hps)) in Hrx.
          destruct (reply_turns m1 js r q' t m2 Hpr1 Hq' Hrx) as (q2 & ev & Hprx & Hsl2 & Hmk2 & Hop2 & Ht2).
          exists q2, (evl' ev), (vis ++ [js]). split; [eapply joint_reply; eassumption|]. repeat split; auto.
          + exact (turns_trans _ _ _ _ _ _ Ht Ht2).
          + intros i Hi. apply in_app_or in Hi. destruct Hi as [Hi|[<-|[]]]; auto.
        - cbn [dp_handle_timeout bind] in H. injection H as <- <- <-.
          exists q', [], vis. split; [eapply joint_timeout; eassumption|]. repeat split; auto.
          intro j. destruct (Nat.eqb_spec j js) as [->|_]; [exact Hq'|reflexivity]. }
      destruct Hfin as (qf & ev & done & Hjc & Hslf & Hmkf & Hopf & -> & Htf & Hdone).
      apply (bi_update m sl K m' _ cc done); try congruence.
      * intros _ Hn. assert (X : In js (occupied m')) by (apply occupied_in_slot; exists qf; rewrite Hslf, Nat.eqb_refl; reflexivity).
        rewrite Hn in X. destruct X.
      * apply (map_set_nth_addr sl k s s1 Hs). rewrite <- (slave_step_addr s (frame_spec h pdu)), Hss. reflexivity.
      * intros i pi0 ki si0 p s' Hpi0 Hki Hsi0 Hp Hs'. rewrite Hslf.
        destruct (Nat.eqb_spec i js) as [->|Hne].
        -- assert (ki = k) by congruence. assert (p = q) by congruence. subst ki p.
           assert (s' = s) by congruence. subst s'.
           exists qf, s1, 1%nat. split; [reflexivity|].
           split; [apply set_nth_same; apply nth_error_Some; congruence|]. split; [|reflexivity].
           right. split; [reflexivity|]. exists ev, s1. split; [exact Hjc|apply gceq_refl].
        -- assert (Hkne : ki <> k) by (intros ->; exact (Hne (device_inj _ _ _ _ _ Hpi0 Hp0 Hki Hk))).
           rewrite set_nth_other by exact Hkne.
           destruct (Hstep i p s' Hp) as (p2 & d & Hp2 & He2 & Hd2); [intro Hi; rewrite (Hoth _ Hi Hne); exact Hp|].
           exists p2, s', d. repeat split; auto. intro Hi. destruct (Hdone i Hi); [auto|contradiction].
    + (* nothing sent *)
      injection H as <- <- <-.
      apply (bi_update m sl K m1 sl _ vis); auto.
      * intros i pi0 ki si0 p s' _ _ _ Hp Hs'.
        destruct (Hstep i p s' Hp) as (p2 & d & Hp2 & He2 & Hd2); [intro Hi; rewrite (Vo _ Hi); exact Hp|].
        exists p2, s', d. auto.
Qed.

(* the same as Properties/C07.v states it, with the range of the own address: that range follows from jinv as soon
   as one slot is occupied, and nothing depends on it otherwise *)
Lemma visit_bi : forall m sl K now hp m' sl' cc,
  BI m sl K -> master_visit pa bufsize (m, sl) now hp = Ok ((m', sl'), cc) ->
  BI m' sl' (K + (if cc then 1 else 0)).
Proof using Hop Hown Hbuf Hinj0 Hinit. exact visit_step. Qed.

Lemma run_bi : forall sched m sl K m' sl' n,
  BI m sl K -> master_run pa bufsize (m, sl) sched = Ok ((m', sl'), n) -> BI m' sl' (K + n).
Proof.
  induction sched as [|[now hp] sched IH]; intros m sl K m' sl' n B H; cbn [master_run] in H.
  - inversion H; subst. rewrite Nat.add_0_r. exact B.
  - destruct (master_visit pa bufsize (m, sl) now hp) as [[[m1 sl1] cc]| |] eqn:Hv; cbn [bind] in H; try discriminate H.
    destruct (master_run pa bufsize (m1, sl1) sched) as [[[m2 sl2] n2]| |] eqn:Hr; cbn [bind] in H; try discriminate H.
    inversion H; subst m' sl' n. clear H.
    pose proof (IH _ _ _ _ _ _ (visit_step m sl K now hp m1 sl1 cc B Hv) Hr) as B2. rewrite <- Nat.add_assoc in B2. exact B2.
Qed.

End Bridge.

Lemma run_bi_start : forall pa bufsize m0 sl0,
  dm_op m0 <> OpStop -> (255 <= bufsize)%nat -> addr_inj m0 -> Ccomp m0 ->
  (forall i p0, slot m0 i = Some p0 ->
     exists k s0, find_slave sl0 (pe_addr p0) = Some k /\ nth_error sl0 k = Some s0 /\ jinv pa p0 s0) ->
  forall sched m sl K, master_run pa bufsize (m0, sl0) sched = Ok ((m, sl), K) -> BI pa (dm_op m0) m0 sl0 m sl K.
Proof.
  intros pa bufsize m0 sl0 Hop Hbuf Hinj Hcc Hinit sched m sl K Hrun.
  exact (run_bi pa bufsize (dm_op m0) m0 sl0 Hop Hbuf Hinj Hinit sched m0 sl0 0%nat m sl K
           (bi_init pa (dm_op m0) m0 sl0 eq_refl Hcc) Hrun).
Qed.

Lemma slot_ccomp : forall m i p, slot m i = Some p -> Ccomp m.
Proof. intros m i p Hp _ Hn. assert (X : In i (occupied m)) by (apply occupied_in_slot; eauto). rewrite Hn in X. destruct X. Qed.

(* in every run of the fault-free bus, a slot with its device is, after K completed cycles of the DP master, exactly
   where n cycles of the single-peripheral joint system take the pair (the device up to the Global_Control command it
   recorded), with n >= K if the slot still had its turn in the cycle in which the run started (every slot, if the run
   starts at a cycle boundary) and n + 1 >= K otherwise *)
Lemma joint_of_master : forall pa bufsize m0 sl0,
  dm_op m0 <> OpStop -> (255 <= bufsize)%nat -> addr_inj m0 ->
  (forall i p0, slot m0 i = Some p0 ->
     exists k s0, find_slave sl0 (pe_addr p0) = Some k /\ nth_error sl0 k = Some s0 /\ jinv pa p0 s0) ->
  forall sched m sl K, master_run pa bufsize (m0, sl0) sched = Ok ((m, sl), K) ->
  forall i p0 k s0, slot m0 i = Some p0 -> find_slave sl0 (pe_addr p0) = Some k -> nth_error sl0 k = Some s0 ->
  exists p s n sx evs,
    slot m i = Some p /\ find_slave sl (pe_addr p) = Some k /\ nth_error sl k = Some s /\
    joint_run pa (dm_op m0) n (p0, s0) = Ok ((p, sx), evs) /\ gceq sx s /\ (K <= n + vbit m0 i)%nat.
Proof.
  intros pa bufsize m0 sl0 Hop Hbuf Hinj Hinit sched m sl K Hrun i p0 k s0 Hp0 Hk Hs0.
  pose proof (run_bi_start pa bufsize m0 sl0 Hop Hbuf Hinj (slot_ccomp m0 i p0 Hp0) Hinit sched m sl K Hrun) as B.
  destruct (bi_run _ _ _ _ _ _ _ B i p0 k s0 Hp0 Hk Hs0) as (p & s & n & sx & Hp & Hs & (evs & Hr) & Hg & Hb).
  exists p, s, n, sx, evs. split; [exact Hp|]. split.
  - destruct (bi_addr _ _ _ _ _ _ _ B _ _ Hp) as (p0' & Hp0' & Ea). assert (p0' = p0) by congruence. subst p0'.
    rewrite (find_slave_addrs sl0 sl _ (bi_sl _ _ _ _ _ _ _ B)), Ea. exact Hk.
  - split; [exact Hs|]. split; [exact Hr|]. split; [exact Hg|]. lia.
Qed.

(* joint_of_master as Properties/C07.v states it (C07_master_runs_joint_system).  The range of the own address and
   Ccomp m0 follow from the other hypotheses (see visit_bi, slot_ccomp); this theorem and the two recovery theorems
   below keep them because the stated properties have them *)
Theorem master_runs_joint_system : forall pa bufsize m0 sl0,
  dm_op m0 <> OpStop -> 0 <= p_address pa <= 126 -> (255 <= bufsize)%nat -> addr_inj m0 ->
  Ccomp m0 ->
  (forall i p0, slot m0 i = Some p0 ->
     exists k s0, find_slave sl0 (pe_addr p0) = Some k /\ nth_error sl0 k = Some s0 /\ jinv pa p0 s0) ->
  forall sched m sl K, master_run pa bufsize (m0, sl0) sched = Ok ((m, sl), K) ->
  forall i p0 k s0, slot m0 i = Some p0 -> find_slave sl0 (pe_addr p0) = Some k -> nth_error sl0 k = Some s0 ->
  exists p s n sx evs,
    slot m i = Some p /\ find_slave sl (pe_addr p) = Some k /\ nth_error sl k = Some s /\
    joint_run pa (dm_op m0) n (p0, s0) = Ok ((p, sx), evs) /\ gceq sx s /\ (K <= n + vbit m0 i)%nat.
Proof. intros pa bufsize m0 sl0 Hop _ Hbuf Hinj _. exact (joint_of_master pa bufsize m0 sl0 Hop Hbuf Hinj). Qed.

(* recovery per slot, whatever the other pairs do: a pair that is in data exchange after every n >= k0 cycles of the
   joint system is so once the master has completed k0 cycles (one more if the slot had had its turn already in the cycle
   in which the run started) *)
Lemma recovery_master_slot : forall pa bufsize m0 sl0,
  dm_op m0 <> OpStop -> (255 <= bufsize)%nat -> addr_inj m0 ->
  (forall i p0, slot m0 i = Some p0 ->
     exists k s0, find_slave sl0 (pe_addr p0) = Some k /\ nth_error sl0 k = Some s0 /\ jinv pa p0 s0) ->
  forall sched m sl K, master_run pa bufsize (m0, sl0) sched = Ok ((m, sl), K) ->
  forall i p0 k s0 k0, slot m0 i = Some p0 -> find_slave sl0 (pe_addr p0) = Some k -> nth_error sl0 k = Some s0 ->
  (forall n, (k0 <= n)%nat -> exists st' evs, joint_run pa (dm_op m0) n (p0, s0) = Ok (st', evs) /\ in_dx st') ->
  (k0 + vbit m0 i <= K)%nat ->
  exists p s, slot m i = Some p /\ find_slave sl (pe_addr p) = Some k /\ nth_error sl k = Some s /\
              pe_state p = PsDataExchange /\ sl_st s = SlDataExch.
Proof.
  intros pa bufsize m0 sl0 Hop Hbuf Hinj Hinit sched m sl K Hrun i p0 k s0 k0 Hp0 Hk Hs0 Hall HK.
  destruct (joint_of_master pa bufsize m0 sl0 Hop Hbuf Hinj Hinit sched m sl K Hrun i p0 k s0 Hp0 Hk Hs0)
    as (p & s & n & sx & evs & Hp & Hfs & Hs & Hr & Hg & Hn).
  destruct (Hall n ltac:(lia)) as (st' & evs' & Hr' & (Hd1 & Hd2)). assert (st' = (p, sx)) by congruence. subst st'.
  exists p, s. split; [exact Hp|]. split; [exact Hfs|]. split; [exact Hs|]. split; [exact Hd1|].
  rewrite (gceq_st _ _ Hg). exact Hd2.
Qed.

Lemma recovery_master_of : forall pa bufsize m0 sl0,
  dm_op m0 <> OpStop -> (255 <= bufsize)%nat -> addr_inj m0 -> Ccomp m0 ->
  (forall i p0, slot m0 i = Some p0 ->
     exists k s0, find_slave sl0 (pe_addr p0) = Some k /\ nth_error sl0 k = Some s0 /\ jinv pa p0 s0 /\
       exists k0, (k0 <= c07_cycles (p_max_retry pa))%nat /\
         forall n, (k0 <= n)%nat -> exists st' evs, joint_run pa (dm_op m0) n (p0, s0) = Ok (st', evs) /\ in_dx st') ->
  forall sched m sl K, master_run pa bufsize (m0, sl0) sched = Ok ((m, sl), K) ->
  (c07_cycles (p_max_retry pa) + (if list_eq_dec Nat.eq_dec (pos_rem m0) (occupied m0) then 0 else 1) <= K)%nat ->
  forall i p, slot m i = Some p ->
  exists k s, find_slave sl (pe_addr p) = Some k /\ nth_error sl k = Some s /\
              pe_state p = PsDataExchange /\ sl_st s = SlDataExch.
Proof.
  intros pa bufsize m0 sl0 Hop Hbuf Hinj Hcc Hinit sched m sl K Hrun HK i p Hp.
  assert (Hinit' : forall i p0, slot m0 i = Some p0 ->
            exists k s0, find_slave sl0 (pe_addr p0) = Some k /\ nth_error sl0 k = Some s0 /\ jinv pa p0 s0).
  { intros j p0 Hp0. destruct (Hinit j p0 Hp0) as (k & s0 & H1 & H2 & H3 & _). exists k, s0. auto. }
  pose proof (run_bi_start pa bufsize m0 sl0 Hop Hbuf Hinj Hcc Hinit' sched m sl K Hrun) as B.
  destruct (bi_addr _ _ _ _ _ _ _ B _ _ Hp) as (p0 & Hp0 & _).
  destruct (Hinit i p0 Hp0) as (k & s0 & Hk & Hs0 & _ & k0 & Hk0 & Hall).
  destruct (recovery_master_slot pa bufsize m0 sl0 Hop Hbuf Hinj Hinit' sched m sl K Hrun i p0 k s0 k0 Hp0 Hk Hs0 Hall)
    as (p' & s & Hp' & Hfs & Hs & Hd); [|assert (p' = p) by congruence; subst p'; exists k, s; auto].
  destruct (list_eq_dec Nat.eq_dec (pos_rem m0) (occupied m0)) as [E|_].
  - rewrite (vbit_in m0 i) by (rewrite E; apply occupied_in_slot; exists p0; exact Hp0). lia.
  - assert (vbit m0 i <= 1)%nat by (unfold vbit; destruct (in_dec Nat.eq_dec i (pos_rem m0)); lia). lia.
Qed.

Theorem recovery_master : forall pa bufsize m0 sl0,
  dm_op m0 <> OpStop -> 0 <= p_address pa <= 126 -> (255 <= bufsize)%nat -> addr_inj m0 ->
  Ccomp m0 ->
  (forall i p0, slot m0 i = Some p0 ->
     exists k s0, find_slave sl0 (pe_addr p0) = Some k /\ nth_error sl0 k = Some s0 /\ jinv pa p0 s0 /\
                  ~ f15_class pa (dm_op m0) (p0, s0)) ->
  forall sched m sl K, master_run pa bufsize (m0, sl0) sched = Ok ((m, sl), K) ->
  (c07_cycles (p_max_retry pa) + (if list_eq_dec Nat.eq_dec (pos_rem m0) (occupied m0) then 0 else 1) <= K)%nat ->
  forall i p, slot m i = Some p ->
  exists k s, find_slave sl (pe_addr p) = Some k /\ nth_error sl k = Some s /\
              pe_state p = PsDataExchange /\ sl_st s = SlDataExch.
Proof.
  intros pa bufsize m0 sl0 Hop _ Hbuf Hinj Hcc Hinit. apply recovery_master_of; try assumption.
  intros i p0 Hp0. destruct (Hinit i p0 Hp0) as (k & s0 & Hk & Hs0 & J & Hnf).
  exists k, s0. split; [exact Hk|]. split; [exact Hs0|]. split; [exact J|]. exact (recovery pa (dm_op m0) p0 s0 J Hop Hnf).
Qed.

(* the same with the explicit condition: no device is in Wait_Cfg while its peripheral is past Chk_Cfg *)
Theorem recovery_master_explicit : forall pa bufsize m0 sl0,
  dm_op m0 <> OpStop -> 0 <= p_address pa <= 126 -> (255 <= bufsize)%nat -> addr_inj m0 ->
  Ccomp m0 ->
  (forall i p0, slot m0 i = Some p0 ->
     exists k s0, find_slave sl0 (pe_addr p0) = Some k /\ nth_error sl0 k = Some s0 /\ jinv pa p0 s0 /\
                  ~ f15_suspect (p0, s0)) ->
  forall sched m sl K, master_run pa bufsize (m0, sl0) sched = Ok ((m, sl), K) ->
  (c07_cycles (p_max_retry pa) + (if list_eq_dec Nat.eq_dec (pos_rem m0) (occupied m0) then 0 else 1) <= K)%nat ->
  forall i p, slot m i = Some p ->
  exists k s, find_slave sl (pe_addr p) = Some k /\ nth_error sl k = Some s /\
              pe_state p = PsDataExchange /\ sl_st s = SlDataExch.
Proof.
  intros pa bufsize m0 sl0 Hop _ Hbuf Hinj Hcc Hinit. apply recovery_master_of; try assumption.
  intros i p0 Hp0. destruct (Hinit i p0 Hp0) as (k & s0 & Hk & Hs0 & J & Hnf).
  exists k, s0. split; [exact Hk|]. split; [exact Hs0|]. split; [exact J|]. exact (recovery_explicit pa (dm_op m0) p0 s0 J Hop Hnf).
Qed.

(* the hypotheses are satisfiable: a computed run of a master with two peripherals *)

Definition bx_p1 : periph := periph_new 6 c07_opts [0; 0] [0] 0.
Definition bx_s1 : slave := slave_new 6 4660 [17; 33] 2 1.
Definition bx_m0 : dpm := set_op (set_slots (dp_new 2 false) [Some c07_periph0; Some bx_p1]) OpOperate.
Definition bx_sl0 : list slave := [c07_slave0; bx_s1].
(* token visits every 1000 us, HighPrioOnly::No: global control broadcasts are interleaved *)
Definition bx_sched (n : nat) : list (Z * bool) := map (fun k => (Z.of_nat k * 1000, false)) (seq 0 n).

Lemma fresh_jinv : forall a, 0 <= a <= 125 ->
  jinv default_params (periph_new a c07_opts [0; 0] [0] 0) (slave_new a 4660 [17; 33] 2 1).
Proof.
  intros a Ha. constructor; cbn; unfold default_address, default_max_retry_limit; try lia;
    try (split; try reflexivity; lia); try discriminate.
  - exists [1; 2; 3]. split; [reflexivity|cbn; lia].
  - exists [17; 33]. split; [reflexivity|]. split; [reflexivity|cbn; lia].
Qed.

Lemma bx_jinv0 : jinv default_params c07_periph0 c07_slave0.
Proof. apply fresh_jinv. lia. Qed.

Lemma bx_jinv1 : jinv default_params bx_p1 bx_s1.
Proof. apply fresh_jinv. lia. Qed.

Lemma bridge_example :
  dm_op bx_m0 <> OpStop /\ 0 <= p_address default_params <= 126 /\ (255 <= 256)%nat /\ addr_inj bx_m0 /\
  Ccomp bx_m0 /\ pos_rem bx_m0 = occupied bx_m0 /\
  (forall i p0, slot bx_m0 i = Some p0 ->
     exists k s0, find_slave bx_sl0 (pe_addr p0) = Some k /\ nth_error bx_sl0 k = Some s0 /\
                  jinv default_params p0 s0 /\ ~ f15_suspect (p0, s0)) /\
  c07_cycles (p_max_retry default_params) = 12%nat /\
  exists m sl, master_run default_params 256 (bx_m0, bx_sl0) (bx_sched 40) = Ok ((m, sl), 13%nat) /\
    map (fun o => match o with Some p => Some (pe_state p) | None => None end) (dm_slots m) =
      [Some PsDataExchange; Some PsDataExchange] /\
    map sl_st sl = [SlDataExch; SlDataExch] /\ map sl_gc sl = [Some 0; Some 0].
Proof.
  split; [discriminate|]. split; [cbn; unfold default_address; lia|]. split; [lia|].
  assert (Hslots : forall i p0, slot bx_m0 i = Some p0 -> (i = 0%nat /\ p0 = c07_periph0) \/ (i = 1%nat /\ p0 = bx_p1)).
  { intros i p0 H. destruct i as [|[|i]]; cbn in H.
    - inversion H. left; auto.
    - inversion H. right; auto.
    - destruct i; discriminate H. }
  split.
  { intros i j p q Hp Hq E. destruct (Hslots _ _ Hp) as [(-> & ->)|(-> & ->)], (Hslots _ _ Hq) as [(-> & ->)|(-> & ->)];
      try reflexivity; cbn in E; discriminate E. }
  split; [intro E; discriminate E|]. split; [reflexivity|]. split.
  { intros i p0 H. destruct (Hslots _ _ H) as [(-> & ->)|(-> & ->)].
    - exists 0%nat, c07_slave0. split; [reflexivity|]. split; [reflexivity|]. split; [exact bx_jinv0|].
      intros [D _]. discriminate D.
    - exists 1%nat, bx_s1. split; [reflexivity|]. split; [reflexivity|]. split; [exact bx_jinv1|].
      intros [D _]. discriminate D. }
  split; [reflexivity|].
  destruct (master_run default_params 256 (bx_m0, bx_sl0) (bx_sched 40)) as [[[m sl] K]| |] eqn:E;
    vm_compute in E; try discriminate E.
  inversion E; subst. do 2 eexists. split; [reflexivity|]. repeat split; vm_compute; reflexivity.
Qed.
