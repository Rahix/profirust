(* C07, proofs: a healthy peripheral comes back into data exchange within max_retry + 11 cycles, or enters the
   closed F15 core.  Definitions: C07Abs.v (control abstraction, checker `chk`), C07Joint.v (joint system,
   projection, jinv).  The concrete cycle is shown to be one step of the finite control system (sim_step); the
   control system is checked completely.  The complete check that is run is `chk_fresh` / `chk_all` below, over the
   states in normal form whose next request is new to the slave; `chk_fixes` / `forall_u` / `okres` of C07Abs.v
   describe the same check over all states in range. *)
From PB Require Import C07Abs C07Joint C09Proofs DpStepProofs.

Lemma ps_eqb_eq a b : ps_eqb a b = true -> a = b.
Proof. destruct a, b; simpl; intro H; try reflexivity; discriminate. Qed.
Lemma fcb_eqb_eq a b : fcb_eqb a b = true -> a = b.
Proof. destruct a, b; simpl; intro H; try reflexivity; discriminate. Qed.
Lemma sl_eqb_eq a b : sl_state_eqb a b = true -> a = b.
Proof. destruct a, b; simpl; intro H; try reflexivity; discriminate. Qed.
Lemma ob_eqb_eq a b : ob_eqb a b = true -> a = b.
Proof. destruct a as [[|]|], b as [[|]|]; simpl; intro H; try reflexivity; discriminate. Qed.
Lemma areply_eqb_eq a b : areply_eqb a b = true -> a = b.
Proof.
  destruct a as [| |d x], b as [| |e y]; simpl; intro H; try reflexivity; try discriminate.
  apply andb_prop in H. destruct H as [H1 H2].
  destruct d, e; try discriminate; destruct x, y; try discriminate; reflexivity.
Qed.
Lemma ust_eqb_eq a b : ust_eqb a b = true -> a = b.
Proof.
  unfold ust_eqb. intro H.
  repeat (apply andb_prop in H; let H2 := fresh "E" in destruct H as [H H2]).
  destruct a as [a1 a2 a3 a4 a5 a6 a7 a8 a9 a10 a11], b as [b1 b2 b3 b4 b5 b6 b7 b8 b9 b10 b11];
  cbn [u_ps u_fcb u_needed u_inflight u_sl u_sfcb u_resp u_prmf u_cfgf u_pend u_nr] in *.
  repeat match goal with
  | X : ps_eqb _ _ = true |- _ => apply ps_eqb_eq in X
  | X : fcb_eqb _ _ = true |- _ => apply fcb_eqb_eq in X
  | X : sl_state_eqb _ _ = true |- _ => apply sl_eqb_eq in X
  | X : ob_eqb _ _ = true |- _ => apply ob_eqb_eq in X
  | X : areply_eqb _ _ = true |- _ => apply areply_eqb_eq in X
  | X : Bool.eqb _ _ = true |- _ => apply eqb_prop in X
  | X : Nat.eqb _ _ = true |- _ => apply Nat.eqb_eq in X
  end.
  subst. reflexivity.
Qed.

Lemma aiter_S fx M n x : aiter fx M (S n) x = aiter fx M n (astep fx M x).
Proof. reflexivity. Qed.
Lemma aiter_add fx M a b x : aiter fx M (a + b) x = aiter fx M b (aiter fx M a x).
Proof. revert x. induction a; intro x; simpl; [reflexivity|apply IHa]. Qed.

Lemma stutter fx M u r j :
  (1 <= r)%nat -> body fx false u = (u, false) -> (r + j <= M + 1)%nat ->
  aiter fx M j (u, r) = (u, (r + j)%nat).
Proof.
  intros Hr Hb. revert r Hr. induction j; intros r Hr Hj.
  - simpl. f_equal. lia.
  - rewrite aiter_S. unfold astep at 1.
    destruct (Nat.ltb_spec M r) as [H|H]; [lia|].
    destruct (Nat.eqb_spec r 0) as [H0|H0]; [lia|].
    rewrite Hb. rewrite IHj by lia. f_equal. lia.
Qed.

Lemma chk_sound fx M : (1 <= M)%nat -> forall fuel u a r n tok stuck,
  chk fx fuel u a = Some (n, tok, stuck) -> absr M r a ->
  exists k, (k <= n + (if tok then M else 0))%nat /\
            (Goodx (aiter fx M k (u, r)) \/ (stuck = true /\ Corex M (aiter fx M k (u, r)))).
Proof.
  intros HM. induction fuel as [|f IH]; intros u a r n tok stuck Hc Ha.
  - simpl in Hc.
    destruct (match a with RZ => goodb u | _ => false end) eqn:Hg.
    + inversion Hc; subst. exists 0%nat. split; [lia|]. left. destruct a; try discriminate.
      simpl in Ha. subst. split; [exact Hg|reflexivity].
    + destruct (match a with RExh => false | _ => coreb u end) eqn:Hk; [|discriminate].
      inversion Hc; subst. exists 0%nat. split; [lia|]. right. split; [reflexivity|].
      destruct a; try discriminate; simpl in Ha; (split; [exact Hk|simpl; lia]).
  - cbn [chk] in Hc.
    destruct (match a with RZ => goodb u | _ => false end) eqn:Hg.
    { inversion Hc; subst. exists 0%nat. split; [lia|]. left. destruct a; try discriminate.
      simpl in Ha. subst. split; [exact Hg|reflexivity]. }
    destruct (match a with RExh => false | _ => coreb u end) eqn:Hk.
    { inversion Hc; subst. exists 0%nat. split; [lia|]. right. split; [reflexivity|].
      destruct a; try discriminate; simpl in Ha; (split; [exact Hk|simpl; lia]). }
    clear Hg Hk.
    destruct a; simpl in Ha.
    + subst r.
      destruct (body fx true u) as [u' reset] eqn:Hb.
      destruct (chk fx f u' (if reset then RZ else RMid)) as [[[n' t'] s']|] eqn:Hc'; [|discriminate].
      simpl in Hc. inversion Hc; subst.
      destruct (IH u' _ (if reset then 0%nat else 1%nat) _ _ _ Hc') as (k & Hk & Hr).
      { destruct reset; simpl; lia. }
      exists (S k). split; [lia|]. rewrite aiter_S. unfold astep.
      replace (Nat.ltb M 0) with false by (symmetry; apply Nat.ltb_ge; lia).
      simpl Nat.eqb. rewrite Hb. exact Hr.
    + destruct (body fx false u) as [u' reset] eqn:Hb.
      assert (Hstep : astep fx M (u, r) = (u', if reset then 0%nat else S r)).
      { unfold astep. destruct (Nat.ltb_spec M r) as [H|H]; [lia|].
        destruct (Nat.eqb_spec r 0) as [H0|H0]; [lia|]. rewrite Hb. reflexivity. }
      destruct reset.
      * destruct (chk fx f u' RZ) as [[[n' t'] s']|] eqn:Hc'; [|discriminate].
        simpl in Hc. inversion Hc; subst.
        destruct (IH u' _ 0%nat _ _ _ Hc') as (k & Hk & Hr); [reflexivity|].
        exists (S k). split; [lia|]. rewrite aiter_S, Hstep. exact Hr.
      * destruct (ust_eqb u' u) eqn:He.
        { apply ust_eqb_eq in He. subst u'.
          destruct (chk fx f (go_offline u) RZ) as [[[n' t'] s']|] eqn:Hc'; [|discriminate].
          destruct t'; [discriminate|]. inversion Hc; subst.
          destruct (IH (go_offline u) _ 0%nat _ _ _ Hc') as (k & Hk & Hr); [reflexivity|].
          exists ((M + 1 - r) + S k)%nat. split; [lia|].
          rewrite aiter_add. rewrite (stutter fx M u r (M + 1 - r)) by (try assumption; lia).
          rewrite aiter_S.
          assert (Hex : astep fx M (u, (r + (M + 1 - r))%nat) = (go_offline u, 0%nat)).
          { unfold astep. replace (Nat.ltb M (r + (M + 1 - r))) with true by (symmetry; apply Nat.ltb_lt; lia).
            reflexivity. }
          rewrite Hex. exact Hr. }
        destruct (chk fx f u' RMid) as [[[n1 t1] s1]|] eqn:Hc1; [|discriminate].
        destruct (chk fx f u' RExh) as [[[n2 t2] s2]|] eqn:Hc2; [|discriminate].
        simpl in Hc. inversion Hc; subst.
        destruct (Nat.le_gt_cases (S r) M) as [Hle|Hgt].
        { destruct (IH u' _ (S r) _ _ _ Hc1) as (k & Hk & Hr); [simpl; lia|].
          exists (S k). split; [destruct t1, t2; simpl; lia|]. rewrite aiter_S, Hstep.
          destruct Hr as [Hr|[Hs Hr]]; [left; exact Hr|right; split; [subst; reflexivity|exact Hr]]. }
        { destruct (IH u' _ (S r) _ _ _ Hc2) as (k & Hk & Hr); [simpl; lia|].
          exists (S k). split; [destruct t1, t2; simpl; lia|]. rewrite aiter_S, Hstep.
          destruct Hr as [Hr|[Hs Hr]]; [left; exact Hr|right; split; [subst; apply orb_true_r|exact Hr]]. }
    + destruct (chk fx f (go_offline u) RZ) as [[[n' t'] s']|] eqn:Hc'; [|discriminate].
      simpl in Hc. inversion Hc; subst.
      destruct (IH (go_offline u) _ 0%nat _ _ _ Hc') as (k & Hk & Hr); [reflexivity|].
      exists (S k). split; [lia|]. rewrite aiter_S. unfold astep.
      replace (Nat.ltb M r) with true by (symmetry; apply Nat.ltb_lt; lia). exact Hr.
Qed.

Lemma mrecv_cases fx ps fcb nd inf r :
  mrecv fx ps fcb nd inf r = (ps, fcb, nd, false) \/
  exists ps' nd', mrecv fx ps fcb nd inf r = (ps', cyc fcb, nd', true) /\
    (ps = PsOffline -> ps' = PsWaitForParam) /\ (ps = PsWaitForParam -> ps' = PsWaitForConfig).
Proof.
  (* in each state only what mrecv looks at is split *)
  unfold mrecv.
  destruct ps;
    [destruct r as [| |d x]; [| |destruct (dg_is_diag d)]
    |destruct r|destruct r|destruct r as [| |[] x]
    |destruct inf, r as [| |d x]; [| |destruct (dg_is_diag d)| | |destruct x]
    |destruct inf, r as [| |d x]; [| |destruct (dg_is_diag d)| | |destruct x]];
    first [left; reflexivity | right; eexists _, _; split; [reflexivity|split; intro; congruence]].
Qed.

Lemma fcb_cyc_ne f : f <> FcbInactive -> cyc f <> FcbInactive.
Proof. destruct f; simpl; intro H; try discriminate. now elim H. Qed.

Lemma mrecv_fcb_ne fx ps fcb nd inf r ps' fcb' nd' acc :
  fcb <> FcbInactive -> mrecv fx ps fcb nd inf r = (ps', fcb', nd', acc) -> fcb' <> FcbInactive.
Proof.
  intros Hf H. destruct (mrecv_cases fx ps fcb nd inf r) as [E|(? & ? & E & _)]; rewrite E in H; inversion H; subst;
    [exact Hf|apply fcb_cyc_ne; exact Hf].
Qed.

(* What the next steps do not depend on:
   while the next request is not a retransmission, the stored response and the stored bit (the slave overwrites
   both); the in-flight flag outside the data-exchange states and at retry count 0 (it is read only in the
   data-exchange states, which are entered by an accepted reply, and overwritten there at retry count 0); the
   configuration fault beside a parameter fault (only their disjunction is reported, and the parameter fault
   outlives the other) *)

Definition is_fresh (u : ust) : bool := fresh (u_fcb u) (u_sfcb u).
Definition dx_state (ps : pstate) : bool := match ps with PsDataExchange | PsPreDataExchange => true | _ => false end.

(* z: the retry count is 0 *)
Definition norm (z : bool) (u : ust) : ust :=
  mkU (u_ps u) (u_fcb u) (u_needed u) (if z || negb (dx_state (u_ps u)) then false else u_inflight u) (u_sl u)
      (if is_fresh u then None else u_sfcb u) (if is_fresh u then ANone else u_resp u)
      (u_prmf u) (if u_prmf u then false else u_cfgf u) (u_pend u) (u_nr u).

Definition simr (z : bool) (u v : ust) : Prop := norm z u = norm z v.
Definition simx (x y : ust * nat) : Prop := simr (snd x =? 0)%nat (fst x) (fst y) /\ snd x = snd y.

Lemma fresh_none fcb : fresh fcb None = true.
Proof. unfold fresh. destruct (fcbit_fcv fcb); reflexivity. Qed.

Lemma fresh_norm fcb sf : fresh fcb (if fresh fcb sf then None else sf) = fresh fcb sf.
Proof. destruct (fresh fcb sf) eqn:E; [apply fresh_none|exact E]. Qed.

Lemma norm_obs z u :
  goodb (norm z u) = goodb u /\ coreb (norm z u) = coreb u /\ suspectb (norm z u) = suspectb u /\
  off1 (norm z u) = off1 u /\ in_range (norm z u) = in_range u /\ is_fresh (norm z u) = is_fresh u.
Proof.
  destruct u as [ps fcb nd inf sl sf rs pf cf pd nr]. unfold norm, goodb, coreb, suspectb, off1, in_range, is_fresh. cbn [u_ps u_fcb u_needed u_inflight u_sl u_sfcb u_resp u_prmf u_cfgf u_pend u_nr].
  rewrite fresh_norm. destruct pf; repeat split; try reflexivity.
  cbn [negb]. rewrite !andb_false_r. reflexivity.
Qed.

Lemma norm_idem z u : norm z (norm z u) = norm z u.
Proof.
  destruct u as [ps fcb nd inf sl sf rs pf cf pd nr]. unfold norm, is_fresh. cbn [u_ps u_fcb u_needed u_inflight u_sl u_sfcb u_resp u_prmf u_cfgf u_pend u_nr]. rewrite fresh_norm.
  destruct (fresh fcb sf), (z || negb (dx_state ps)), pf; reflexivity.
Qed.

Lemma norm_sim z u : simr z u (norm z u).
Proof. symmetry. apply norm_idem. Qed.

Lemma mrecv_inflight fx ps fcb nd i i' r : (dx_state ps = true -> i' = i) ->
  mrecv fx ps fcb nd i' r = mrecv fx ps fcb nd i r.
Proof. destruct ps; cbn; intro H; try reflexivity; rewrite H; reflexivity. Qed.

(* states that differ in the in-flight flag where it does not matter, and in the normalised fault *)
Lemma norm_congr z ps fcb nd i i' sl sf rs pf cf pd nr : (z = false -> dx_state ps = true -> i' = i) ->
  norm z (mkU ps fcb nd i' sl sf rs pf (if pf then false else cf) pd nr) = norm z (mkU ps fcb nd i sl sf rs pf cf pd nr).
Proof.
  intro H. unfold norm. cbn. f_equal; [|destruct pf; reflexivity].
  destruct z; [reflexivity|]. destruct (dx_state ps); [rewrite H; reflexivity|reflexivity].
Qed.

Lemma sproc_norm fx k sl pf cf pd nr :
  sproc fx k sl pf (if pf then false else cf) pd nr =
  let '(sl1, pf1, cf1, pd1, nr1, reply) := sproc fx k sl pf cf pd nr in
  (sl1, pf1, if pf1 then false else cf1, pd1, nr1, reply).
Proof. destruct k, pf; cbn; try reflexivity; destruct (sl_state_eqb sl SlWaitPrm); try reflexivity; destruct (_ && _); reflexivity. Qed.

Lemma asend_norm fx k ps fcb nd i i' sl sf rs pf cf pd nr : (dx_state ps = true -> i' = i) ->
  let a := asend fx k (mkU ps fcb nd i sl sf rs pf cf pd nr) in
  let b := asend fx k (mkU ps fcb nd i' sl (if fresh fcb sf then None else sf) (if fresh fcb sf then ANone else rs)
                           pf (if pf then false else cf) pd nr) in
  snd b = snd a /\ norm (snd a) (fst b) = norm (snd a) (fst a).
Proof.
  intros Hi. unfold asend. cbn [u_ps u_fcb u_needed u_inflight u_sl u_sfcb u_resp u_prmf u_cfgf u_pend u_nr]. rewrite fresh_norm.
  assert (Fin : forall sl1 sf1 pf1 cf1 pd1 nr1 reply rp,
    let '(ps1, fcb1, nd1, acc) := mrecv fx ps fcb nd i reply in
    let '(ps2, fcb2, nd2, acc') := mrecv fx ps fcb nd i' reply in
    acc' = acc /\ norm acc (mkU ps2 fcb2 nd2 i' sl1 sf1 rp pf1 (if pf1 then false else cf1) pd1 nr1) =
                  norm acc (mkU ps1 fcb1 nd1 i sl1 sf1 rp pf1 cf1 pd1 nr1)).
  { intros. rewrite (mrecv_inflight fx ps fcb nd i i' _ Hi).
    destruct (mrecv_cases fx ps fcb nd i reply) as [->|(ps' & nd' & -> & _)]; (split; [reflexivity|]);
      apply norm_congr; auto; discriminate. }
  destruct (fresh fcb sf).
  - rewrite sproc_norm. destruct (sproc fx k sl pf cf pd nr) as [[[[[sl1 pf1] cf1] pd1] nr1] reply].
    specialize (Fin sl1 (stored fcb) pf1 cf1 pd1 nr1 reply reply).
    destruct (mrecv fx ps fcb nd i reply) as [[[? ?] ?] ?], (mrecv fx ps fcb nd i' reply) as [[[? ?] ?] ?]. cbn. exact Fin.
  - specialize (Fin sl sf pf cf pd nr rs rs).
    destruct (mrecv fx ps fcb nd i rs) as [[[? ?] ?] ?], (mrecv fx ps fcb nd i' rs) as [[[? ?] ?] ?]. cbn. exact Fin.
Qed.

Lemma body_norm fx z u :
  snd (body fx z (norm z u)) = snd (body fx z u) /\
  norm (snd (body fx z u)) (fst (body fx z (norm z u))) = norm (snd (body fx z u)) (fst (body fx z u)).
Proof.
  destruct u as [ps fcb nd inf sl sf rs pf cf pd nr]. unfold norm at 1 3, is_fresh, body. cbn.
  destruct ps; try (apply asend_norm; discriminate).
  - destruct z; [apply asend_norm; discriminate|]. split; [reflexivity|]. cbn.
    unfold norm, is_fresh. cbn. destruct pf; reflexivity.
  - destruct z; cbn; apply asend_norm; auto.
  - destruct z; cbn; apply asend_norm; auto.
Qed.

Lemma body_sim fx z u v : simr z u v ->
  snd (body fx z u) = snd (body fx z v) /\ simr (snd (body fx z u)) (fst (body fx z u)) (fst (body fx z v)).
Proof.
  intro H. destruct (body_norm fx z u) as [A1 A2], (body_norm fx z v) as [B1 B2]. unfold simr in *.
  rewrite <- H in B1, B2. assert (E : snd (body fx z u) = snd (body fx z v)) by congruence.
  split; [exact E|]. rewrite <- A2, E. exact B2.
Qed.

Lemma go_offline_sim z u v : simr z u v -> simr true (go_offline u) (go_offline v).
Proof.
  destruct u, v. unfold simr, norm, is_fresh, go_offline. cbn. intro H.
  injection H as ? ? ? ? ? ? ? ? ? ? ?. congruence.
Qed.

Lemma astep_sim fx M x y : simx x y -> simx (astep fx M x) (astep fx M y).
Proof.
  destruct x as [u r], y as [v r']. intros [Hs Hr]. simpl in Hs, Hr. subst r'.
  unfold astep. destruct (Nat.ltb M r).
  - split; [exact (go_offline_sim _ _ _ Hs)|reflexivity].
  - destruct (body_sim fx (Nat.eqb r 0) u v Hs) as [H1 H2].
    destruct (body fx (Nat.eqb r 0) u) as [u' b], (body fx (Nat.eqb r 0) v) as [v' b']. simpl in H1, H2. subst b'.
    split; [destruct b; exact H2|reflexivity].
Qed.

Lemma aiter_sim fx M n : forall x y, simx x y -> simx (aiter fx M n x) (aiter fx M n y).
Proof. induction n; intros x y H; simpl; [exact H|]. apply IHn. apply astep_sim. exact H. Qed.

Lemma simr_obs z u v : simr z u v -> goodb v = goodb u /\ coreb v = coreb u.
Proof.
  intro H. destruct (norm_obs z u) as (A1 & A2 & _), (norm_obs z v) as (B1 & B2 & _). rewrite <- H in B1, B2.
  split; congruence.
Qed.

Lemma fresh_cyc_stored f : fresh (cyc f) (stored f) = true.
Proof. destruct f; reflexivity. Qed.

Lemma good_closed fx M x : Goodx x -> Goodx (astep fx M x).
Proof.
  destruct x as [u r]. intros [Hg Hr]. simpl in Hg, Hr. subst r.
  unfold astep. replace (Nat.ltb M 0) with false by (symmetry; apply Nat.ltb_ge; lia). simpl Nat.eqb.
  unfold goodb in Hg. apply andb_prop in Hg. destruct Hg as [Hg E]. apply andb_prop in Hg. destruct Hg as [Hg Enr].
  apply andb_prop in Hg. destruct Hg as [Hg Esl].
  apply ps_eqb_eq in Hg. apply sl_eqb_eq in Esl. apply Nat.eqb_eq in Enr.
  destruct u as [ps fcb nd inf sl sf rs pf cf pd nr].
  cbn [u_ps u_fcb u_sl u_sfcb u_nr] in *. subst ps sl nr.
  unfold body, asend. cbn [u_ps u_fcb u_needed u_inflight u_sl u_sfcb u_resp u_prmf u_cfgf u_pend u_nr set_inflight].
  rewrite E. unfold Goodx, goodb.
  (* a pending diagnostics request is answered with a diagnosis that asks for nothing, a data exchange with
     an accepted reply; either way the bit is cycled and the slave has stored the old one *)
  destruct nd; cbn; [destruct (pf || cf), (f_dgl fx)|destruct (f_in0 fx), (pd || f_stat fx)]; cbn;
    rewrite fresh_cyc_stored; split; reflexivity.
Qed.

Lemma core_closed fx M x : Corex M x -> Corex M (astep fx M x).
Proof.
  destruct x as [u r]. intros [Hg Hr]. simpl in Hg, Hr.
  unfold astep. replace (Nat.ltb M r) with false by (symmetry; apply Nat.ltb_ge; lia).
  unfold coreb in Hg. apply andb_prop in Hg. destruct Hg as [Hg E]. apply andb_prop in Hg. destruct Hg as [Hg Ecf].
  apply andb_prop in Hg. destruct Hg as [Hg Epf]. apply andb_prop in Hg. destruct Hg as [Hg Esl].
  apply ps_eqb_eq in Hg. apply sl_eqb_eq in Esl. apply negb_true_iff in Epf. apply negb_true_iff in Ecf.
  destruct u as [ps fcb nd inf sl sf rs pf cf pd nr].
  cbn [u_ps u_fcb u_sl u_sfcb u_prmf u_cfgf] in *. subst ps sl pf cf.
  unfold body, asend. cbn [u_ps u_fcb u_needed u_inflight u_sl u_sfcb u_resp u_prmf u_cfgf u_pend u_nr].
  rewrite E.
  destruct fx as [st i0 dl dly].
  destruct dl; destruct fcb; try discriminate E; destruct sf as [[|]|]; try discriminate E;
    (split; [reflexivity|simpl; lia]).
Qed.

Lemma good_stays fx M n x : Goodx x -> Goodx (aiter fx M n x).
Proof. revert x. induction n; intros x H; simpl; [exact H|]. apply IHn. apply good_closed. exact H. Qed.
Lemma core_stays fx M n x : Corex M x -> Corex M (aiter fx M n x).
Proof. revert x. induction n; intros x H; simpl; [exact H|]. apply IHn. apply core_closed. exact H. Qed.

Lemma good_not_core M x : Goodx x -> Corex M x -> False.
Proof.
  destruct x as [u r]. intros [Hg _] [Hc _]. simpl in *. unfold goodb, coreb in *.
  destruct (u_ps u); simpl in *; discriminate.
Qed.

(* Only states in normal form whose next request is new to the slave are enumerated: a state whose next
   request is a retransmission gets its answer from the stored response without the slave acting, so it is one
   accepted reply, or one exhausted retry count, away from a state of the first kind (stale_recovers below).
   The enumerated states must therefore recover within 10 units, one less than the bound of the theorem, and a
   state just declared offline without running into the retry limit once more. *)
Definition forall_norm (P : bool -> ust -> bool) : bool :=
  forallb (fun z => forallb (fun ps => forallb (fun fcb => forallb (fun nd => forallb (fun inf =>
  forallb (fun sl => forallb (fun pf => forallb (fun cf => forallb (fun pd => forallb (fun nr =>
    P z (mkU ps fcb nd inf sl None ANone pf cf pd nr)) all_nr) all_b) (if pf then [false] else all_b)) all_b)
  all_sl) (if z || negb (dx_state ps) then [false] else all_b)) all_b) all_fcb) all_pstates) all_b.

Definition okfresh (z : bool) (u : ust) (o : outc) : bool :=
  match o with
  | Some (n, tok, stuck) =>
      Nat.leb (n + (if off1 u then 1 else 0)) 10 && implb stuck (suspectb u) && implb (z && off1 u) (negb tok)
  | None => false
  end.

Definition chk_fresh (l : list afix) : bool :=
  forallb (fun fx => forall_norm (fun z u => okfresh z u (chk fx 12 u (if z then RZ else RMid)))) l.

(* enumerated: the 18 attribute vectors of all_fix, and for each the 4,536 states of forall_norm *)
Lemma chk_all : chk_fresh all_fix = true.
Proof. vm_cast_no_check (eq_refl true). Qed.

Lemma in_all_pstates ps : In ps all_pstates.
Proof. destruct ps; simpl; tauto. Qed.
Lemma in_all_b (b : bool) : In b all_b.
Proof. destruct b; simpl; tauto. Qed.
Lemma in_all_sl s : In s all_sl.
Proof. destruct s; simpl; tauto. Qed.
Lemma in_all_fcb f : f <> FcbInactive -> In f all_fcb.
Proof. destruct f; simpl; intro H; tauto. Qed.
Lemma in_all_nr n : (n <= 2)%nat -> In n all_nr.
Proof. intro H. destruct n as [|[|[|n]]]; simpl; try tauto. lia. Qed.

Lemma forall_norm_spec P : forall_norm P = true ->
  forall z u, in_range u -> is_fresh u = true -> norm z u = u -> P z u = true.
Proof.
  intros H z [ps fcb nd inf sl sf rs pf cf pd nr] [Hf Hn] Hfr Hnm. unfold norm, is_fresh in *.
  cbn in Hf, Hn, Hfr, Hnm. rewrite Hfr in Hnm. injection Hnm as Hi <- <- Hc.
  unfold forall_norm in H. repeat setoid_rewrite forallb_forall in H.
  assert (Hinf : In inf (if z || negb (dx_state ps) then [false] else all_b))
    by (destruct (z || negb (dx_state ps)); [left; exact Hi|apply in_all_b]).
  assert (Hcf : In cf (if pf then [false] else all_b)) by (destruct pf; [left; exact Hc|apply in_all_b]).
  exact (H z (in_all_b _) ps (in_all_pstates _) fcb (in_all_fcb _ Hf) nd (in_all_b _) inf Hinf sl (in_all_sl _)
           pf (in_all_b _) cf Hcf pd (in_all_b _) nr (in_all_nr _ Hn)).
Qed.

Lemma in_all_fix fx : fx_ok fx -> In fx all_fix.
Proof.
  destruct fx as [st i0 dl d]. intros [Hd Hi]. simpl in Hd, Hi.
  destruct d as [|[|[|d]]]; [| | |lia]; destruct st, i0, dl; try (specialize (Hi eq_refl); discriminate);
    vm_compute; tauto.
Qed.

Lemma okfresh_spec z u o : okfresh z u o = true ->
  exists n tok stuck, o = Some (n, tok, stuck) /\
    (n + (if off1 u then 1 else 0) <= 10)%nat /\ (stuck = true -> suspectb u = true) /\
    (z && off1 u = true -> tok = false).
Proof.
  destruct o as [[[n tok] stuck]|]; [|discriminate]. intro H. exists n, tok, stuck. split; [reflexivity|].
  apply andb_prop in H. destruct H as [H H3]. apply andb_prop in H. destruct H as [H1 H2].
  split; [apply Nat.leb_le; exact H1|]. split; [intros ->; exact H2|].
  intro E. rewrite E in H3. destruct tok; [discriminate H3|reflexivity].
Qed.

(* stated for a variable list so that no conversion ever meets the closed term `chk_fresh all_fix` *)
Lemma chk_fresh_spec l fx u (z : bool) :
  chk_fresh l = true -> In fx l -> in_range u -> is_fresh u = true -> norm z u = u ->
  okfresh z u (chk fx 12 u (if z then RZ else RMid)) = true.
Proof.
  intros H Hin Hr Hf Hc. unfold chk_fresh in H. rewrite forallb_forall in H.
  exact (forall_norm_spec _ (H fx Hin) z u Hr Hf Hc).
Qed.

(* `recovers`: within n cycles the run from x is in the closed set Good, or - only if u0 is in the explicit
   class `suspectb` - in the closed set Core *)
Definition recovers fx M (u0 : ust) (n : nat) (x : ust * nat) : Prop :=
  exists k, (k <= n)%nat /\ (Goodx (aiter fx M k x) \/ (suspectb u0 = true /\ Corex M (aiter fx M k x))).

Lemma recovers_after fx M u0 j n x : recovers fx M u0 n (aiter fx M j x) -> recovers fx M u0 (j + n) x.
Proof. intros (k & Hk & H). exists (j + k)%nat. split; [lia|]. rewrite aiter_add. exact H. Qed.

Lemma recovers_weaken fx M u0 u1 n n' x : (n <= n')%nat -> (suspectb u0 = true -> suspectb u1 = true) ->
  recovers fx M u0 n x -> recovers fx M u1 n' x.
Proof. intros Hn Hs (k & Hk & H). exists k. split; [lia|]. destruct H as [G|[S C]]; auto. Qed.

(* a state whose next request is new: by the complete check, carried over to any stored response *)
Lemma fresh_recovers fx M u r : fx_ok fx -> (1 <= M)%nat -> in_range u -> is_fresh u = true -> (r <= M)%nat ->
  recovers fx M u (if (r =? 0)%nat && off1 u then 9 else M + 10) (u, r).
Proof.
  intros Hfx HM Hr Hf Hle.
  set (v := norm (r =? 0)%nat u).
  destruct (norm_obs (r =? 0)%nat u) as (_ & _ & Hs & Ho & Hr' & Hf'). fold v in Hs, Ho, Hr', Hf'.
  rewrite <- Hr' in Hr. rewrite <- Hf' in Hf.
  destruct (okfresh_spec _ _ _ (chk_fresh_spec all_fix fx v _ chk_all (in_all_fix fx Hfx) Hr Hf (norm_idem _ u)))
    as (n & tok & stuck & Hc & H1 & H2 & H3).
  rewrite Ho in H1, H3. rewrite Hs in H2.
  assert (Ha : absr M r (if (r =? 0)%nat then RZ else RMid)) by (destruct (Nat.eqb_spec r 0); simpl; lia).
  destruct (chk_sound fx M HM 12 v _ r n tok stuck Hc Ha) as (k & Hk & Hres).
  assert (Hsim : simx (u, r) (v, r)) by (split; [apply norm_sim|reflexivity]).
  apply (aiter_sim fx M k) in Hsim. destruct Hsim as [Hs1 Hs2].
  destruct (simr_obs _ _ _ Hs1) as (Hg & Hc').
  exists k. split.
  - destruct ((r =? 0)%nat && off1 u) eqn:E.
    + rewrite (H3 eq_refl) in Hk. apply andb_prop in E. destruct E as [_ E]. rewrite E in H1. lia.
    + destruct tok, (off1 u); lia.
  - destruct Hres as [[G1 G2]|[S [C1 C2]]].
    + left. split; [rewrite <- Hg; exact G1|rewrite Hs2; exact G2].
    + right. split; [exact (H2 S)|]. split; [rewrite <- Hc'; exact C1|rewrite Hs2; exact C2].
Qed.

Lemma go_offline_props u : in_range u ->
  in_range (go_offline u) /\ is_fresh (go_offline u) = true /\ off1 (go_offline u) = true /\
  suspectb (go_offline u) = false.
Proof.
  intros [_ H]. repeat split; [discriminate|exact H|]. unfold suspectb. apply andb_false_r.
Qed.

Lemma offline_recovers fx M u u0 : fx_ok fx -> (1 <= M)%nat -> in_range u ->
  recovers fx M u0 9 (go_offline u, 0%nat).
Proof.
  intros Hfx HM Hr. destruct (go_offline_props u Hr) as (Hr' & Hf & Ho & Hs).
  pose proof (fresh_recovers fx M (go_offline u) 0 Hfx HM Hr' Hf (Nat.le_0_l _)) as H.
  rewrite Ho in H. refine (recovers_weaken _ _ _ _ _ _ _ (le_n _) _ H). rewrite Hs. discriminate.
Qed.

Lemma asend_stale fx k u : is_fresh u = false ->
  asend fx k u = (u, false) \/
  exists ps' nd', asend fx k u = (mkU ps' (cyc (u_fcb u)) nd' (u_inflight u) (u_sl u) (u_sfcb u) (u_resp u)
                                    (u_prmf u) (u_cfgf u) (u_pend u) (u_nr u), true) /\
    (u_ps u = PsOffline -> ps' = PsWaitForParam) /\ (u_ps u = PsWaitForParam -> ps' = PsWaitForConfig).
Proof.
  destruct u as [ps fcb nd inf sl sf rs pf cf pd nr]. unfold is_fresh, asend. cbn. intros ->.
  destruct (mrecv_cases fx ps fcb nd inf rs) as [->|(ps' & nd' & -> & H)]; [left; reflexivity|].
  right. exists ps', nd'. split; [reflexivity|exact H].
Qed.

Lemma stale_accepted u ps' nd' : in_range u -> is_fresh u = false ->
  (u_ps u = PsOffline -> ps' = PsWaitForParam) -> (u_ps u = PsWaitForParam -> ps' = PsWaitForConfig) ->
  let v := mkU ps' (cyc (u_fcb u)) nd' (u_inflight u) (u_sl u) (u_sfcb u) (u_resp u) (u_prmf u) (u_cfgf u)
               (u_pend u) (u_nr u) in
  in_range v /\ is_fresh v = true /\ (suspectb v = true -> suspectb u = true).
Proof.
  destruct u as [ps fcb nd inf sl sf rs pf cf pd nr]. unfold is_fresh, suspectb. cbn. intros [Hf Hn] Hst H1 H2.
  assert (Hc : fresh (cyc fcb) sf = true).
  { destruct fcb, sf as [[|]|]; try discriminate Hst; reflexivity. }
  split; [split; [apply fcb_cyc_ne|]; assumption|]. split; [exact Hc|]. rewrite Hc, Hst.
  destruct ps; [rewrite H1|rewrite H2| | | |]; try reflexivity; destruct sl; simpl; auto.
Qed.

Lemma accepted_recovers fx M u0 w ps' nd' : fx_ok fx -> (1 <= M)%nat -> in_range w -> is_fresh w = false ->
  (u_ps w = PsOffline -> ps' = PsWaitForParam) -> (u_ps w = PsWaitForParam -> ps' = PsWaitForConfig) ->
  (suspectb w = true -> suspectb u0 = true) ->
  recovers fx M u0 (M + 10) (mkU ps' (cyc (u_fcb w)) nd' (u_inflight w) (u_sl w) (u_sfcb w) (u_resp w) (u_prmf w)
                                 (u_cfgf w) (u_pend w) (u_nr w), 0%nat).
Proof.
  intros Hfx HM Hr Hst H1 H2 Hs. destruct (stale_accepted w ps' nd' Hr Hst H1 H2) as (Hr' & Hf' & Hs').
  refine (recovers_weaken _ _ _ _ _ _ _ _ _ (fresh_recovers fx M _ 0 Hfx HM Hr' Hf' (Nat.le_0_l _))); [|auto].
  destruct (_ && _); lia.
Qed.

Lemma offline_first u : u_ps u = PsOffline -> set_fcb_u u FcbFirst = go_offline u.
Proof. destruct u. cbn. intros ->. reflexivity. Qed.

(* Offline with retries counted: the next cycle sends nothing and starts the bring-up afresh *)
Lemma offline_retry_recovers fx M u0 u r : fx_ok fx -> (1 <= M)%nat -> in_range u -> u_ps u = PsOffline ->
  (1 <= r <= M)%nat -> recovers fx M u0 10 (u, r).
Proof.
  intros Hfx HM Hr Hps Hle. apply (recovers_after fx M u0 1 9). cbn [aiter]. unfold astep, body.
  replace (M <? r)%nat with false by (symmetry; apply Nat.ltb_ge; lia).
  replace (r =? 0)%nat with false by (symmetry; apply Nat.eqb_neq; lia). rewrite Hps.
  rewrite offline_first by exact Hps. apply offline_recovers; assumption.
Qed.

(* A request that is a retransmission and is not sent from Offline: either the stored response is accepted,
   which leads to a state whose next request is new; or it is not, and then the same request is repeated with
   the same outcome until the retries run out and the peripheral is declared offline. *)
Lemma stale_send fx M u0 w r k : fx_ok fx -> (1 <= M)%nat -> (r <= M)%nat -> in_range w -> is_fresh w = false ->
  body fx false w = asend fx k w -> (suspectb w = true -> suspectb u0 = true) ->
  recovers fx M u0 (M + 10) (let (u', reset) := asend fx k w in (u', if reset then 0%nat else S r)).
Proof.
  intros Hfx HM Hle Hr Hst Hb Hs.
  destruct (asend_stale fx k w Hst) as [E|(ps' & nd' & E & H1 & H2)]; rewrite E;
    [|apply accepted_recovers; assumption].
  rewrite E in Hb.
  apply (recovers_weaken fx M u0 u0 ((M - r) + (1 + 9))); [lia|auto|].
  apply recovers_after. rewrite (stutter fx M w (S r) (M - r)) by (try assumption; lia).
  apply (recovers_after fx M u0 1 9). cbn [aiter]. unfold astep.
  replace (M <? S r + (M - r))%nat with true by (symmetry; apply Nat.ltb_lt; lia).
  apply offline_recovers; assumption.
Qed.

Lemma stale_recovers fx M u r : fx_ok fx -> (1 <= M)%nat -> in_range u -> is_fresh u = false -> (r <= M)%nat ->
  recovers fx M u (M + 11) (u, r).
Proof.
  intros Hfx HM Hr Hst Hle.
  apply (recovers_weaken fx M u u (1 + (M + 10))); [lia|auto|]. apply recovers_after. cbn [aiter].
  unfold astep. replace (M <? r)%nat with false by (symmetry; apply Nat.ltb_ge; exact Hle).
  assert (Send : forall w k, in_range w -> is_fresh w = false -> body fx false w = asend fx k w ->
            (suspectb w = true -> suspectb u = true) ->
            recovers fx M u (M + 10) (let (u', reset) := asend fx k w in (u', if reset then 0%nat else S r)))
    by (intros; apply stale_send; assumption).
  unfold body at 1. destruct (u_ps u) eqn:Hps;
    try (apply Send; auto; unfold body; rewrite Hps; reflexivity);
    try (apply Send; destruct (r =? 0)%nat; auto; unfold body; cbn [set_inflight u_ps]; rewrite Hps; reflexivity).
  destruct (Nat.eqb_spec r 0) as [->|Hr0].
  - destruct (asend_stale fx KDiag u Hst) as [E|(ps' & nd' & E & H1 & H2)]; rewrite E;
      [|apply accepted_recovers; auto].
    apply (recovers_weaken fx M u u 10); [lia|auto|]. apply offline_retry_recovers; auto; lia.
  - apply (recovers_weaken fx M u u 9); [lia|auto|].
    rewrite offline_first by exact Hps. apply offline_recovers; assumption.
Qed.

(* The abstract recovery theorem: from every control state in range, within max_retry + 11 cycles the run is
   in the closed set Good or in the closed set Core (the F15 configuration); Core is only possible from the
   explicit class `suspectb`. *)
Theorem abs_recovery fx M u r : fx_ok fx -> (1 <= M)%nat -> in_range u ->
  exists k, (k <= M + c07_units)%nat /\
    (Goodx (aiter fx M k (u, r)) \/ (suspectb u = true /\ Corex M (aiter fx M k (u, r)))).
Proof.
  intros Hfx HM Hr. change (recovers fx M u (M + 11) (u, r)).
  destruct (Nat.le_gt_cases r M) as [Hle|Hgt].
  - destruct (is_fresh u) eqn:Hf; [|apply stale_recovers; assumption].
    refine (recovers_weaken _ _ _ _ _ _ _ _ (fun H => H) (fresh_recovers fx M u r Hfx HM Hr Hf Hle)).
    destruct (_ && _); lia.
  - (* exhausted: one cycle to Offline *)
    apply (recovers_weaken fx M u u (1 + 9)); [lia|auto|]. apply recovers_after. cbn [aiter]. unfold astep.
    replace (M <? r)%nat with true by (symmetry; apply Nat.ltb_lt; exact Hgt). apply offline_recovers; assumption.
Qed.

(* C07_slave_retry_detection: a request with FCV=1 and the stored bit is answered with the stored response and
   changes nothing; every other request (FCV=0/FCB=1 in particular) is processed and its response and bit stored *)
Lemma slave_step_request s h pdu f rq :
  sl_silent s = false -> wf_header h -> (length_byte h (length pdu) <= 249)%nat ->
  h_fc h = FcRequest f rq -> (rq = RqSrdLow \/ rq = RqSrdHigh) -> h_da h = sl_addr s ->
  slave_step s (frame_spec h pdu) =
    if fresh f (sl_fcb s)
    then let (s1, resp) := slave_process s h pdu in (slave_store s1 (stored f) resp, resp)
    else (s, sl_resp s).
Proof.
  intros Hs Hwf Hlen Hfc Hrq Hda. unfold slave_step. rewrite Hs.
  rewrite <- (app_nil_r (frame_spec h pdu)) at 1. rewrite (decode_data_frame h pdu [] Hwf Hlen).
  rewrite frame_spec_length, Nat.eqb_refl. cbn [negb]. rewrite Hfc, Hda, Z.eqb_refl, orb_true_r. cbn [negb].
  unfold fresh, stored.
  destruct Hrq as [-> | ->]; destruct (fcbit_fcv f); cbn [negb orb]; try reflexivity;
    destruct (match sl_fcb s with Some _ => _ | None => _ end); reflexivity.
Qed.

Lemma deliver_data own da h pdu rl st :
  wf_header h -> (length_byte h (length pdu) <= 249)%nat ->
  h_sa h = da -> h_da h = own -> h_fc h = FcResponse rl st ->
  deliver own da (Some (frame_spec h pdu)) = Some (TData h pdu).
Proof.
  intros Hwf Hlen Hsa Hda Hfc. unfold deliver.
  rewrite <- (app_nil_r (frame_spec h pdu)) at 1. rewrite (decode_data_frame h pdu [] Hwf Hlen).
  rewrite frame_spec_length, Nat.eqb_refl. unfold admissible. rewrite Hsa, Hda, Hfc, !Z.eqb_refl. reflexivity.
Qed.

Lemma deliver_sc own da : deliver own da (Some encode_sc) = Some TShortConf.
Proof.
  unfold deliver. rewrite <- (app_nil_r encode_sc). rewrite decode_sc_frame. reflexivity.
Qed.

Lemma deliver_admissible own da r t : deliver own da r = Some t -> admissible own da t = true.
Proof.
  unfold deliver. destruct r as [w|]; [|discriminate].
  destruct (decode w) as [[| |t' n]| |]; try discriminate.
  destruct (Nat.eqb n (length w)); [|discriminate]. cbn [andb].
  destruct (admissible own da t') eqn:Ha; [|discriminate]. intro H. inversion H. subst. exact Ha.
Qed.

(* the diagnostics flags of a slave that is not forced to lie *)
Definition sdiag_flags (nr cf e pf wp sd wd fr sy : bool) : Z :=
  flags_remove (Z.lor (bit nr 2 + bit cf 4 + bit e 8 + bit pf 64) 0 +
                256 * Z.lor (bit wp 1 + bit sd 2 + 4 + bit wd 8 + bit fr 16 + bit sy 32) 0) DF_PERMANENT_BIT.

Definition all2 (P : bool -> bool) : bool := P true && P false.
Lemma all2_spec P : all2 P = true -> forall b, P b = true.
Proof. unfold all2. intros H b. apply andb_prop in H. destruct b; tauto. Qed.

Lemma sdiag_flags_spec nr cf e pf wp sd wd fr sy :
  flags_contains (sdiag_flags nr cf e pf wp sd wd fr sy) DF_PARAMETER_FAULT = pf /\
  flags_contains (sdiag_flags nr cf e pf wp sd wd fr sy) DF_CONFIGURATION_FAULT = cf /\
  flags_contains (sdiag_flags nr cf e pf wp sd wd fr sy) DF_PARAMETER_REQUIRED = wp /\
  flags_contains (sdiag_flags nr cf e pf wp sd wd fr sy) DF_STATION_NOT_READY = nr.
Proof.
  (* one evaluation over the 512 flag vectors *)
  assert (H : all2 (fun nr => all2 (fun cf => all2 (fun e => all2 (fun pf => all2 (fun wp => all2 (fun sd =>
              all2 (fun wd => all2 (fun fr => all2 (fun sy =>
                Bool.eqb (flags_contains (sdiag_flags nr cf e pf wp sd wd fr sy) DF_PARAMETER_FAULT) pf &&
                Bool.eqb (flags_contains (sdiag_flags nr cf e pf wp sd wd fr sy) DF_CONFIGURATION_FAULT) cf &&
                Bool.eqb (flags_contains (sdiag_flags nr cf e pf wp sd wd fr sy) DF_PARAMETER_REQUIRED) wp &&
                Bool.eqb (flags_contains (sdiag_flags nr cf e pf wp sd wd fr sy) DF_STATION_NOT_READY) nr))))))))) = true)
    by (vm_compute; reflexivity).
  pose proof (all2_spec _ (all2_spec _ (all2_spec _ (all2_spec _ (all2_spec _ (all2_spec _ (all2_spec _ (all2_spec _
                (all2_spec _ H nr) cf) e) pf) wp) sd) wd) fr) sy) as H'.
  cbv beta in H'. repeat (apply andb_prop in H'; destruct H' as [H' ?]).
  repeat split; apply eqb_prop; assumption.
Qed.

Definition pflags (pdu : bytes) : Z := flags_remove (nth 0 pdu 0 + 256 * nth 1 pdu 0) DF_PERMANENT_BIT.

Lemma cyc_ok f : f <> FcbInactive -> fcb_cycle f = Ok (cyc f).
Proof. destruct f; intro H; try reflexivity. now elim H. Qed.

(* dg_class and dx_class tell replies apart exactly as far as the two handlers do *)
Lemma dg_class_diag h pdu : dg_is_diag (dg_class h pdu) =
  opt_eqb (h_dsap h) dp_diag_reply_dsap && opt_eqb (h_ssap h) dp_diag_reply_ssap && Nat.leb dp_diag_min_len (length pdu).
Proof.
  unfold dg_class. destruct (_ && _ && _); [|reflexivity].
  destruct (_ || _); destruct (flags_contains _ DF_PARAMETER_REQUIRED); try reflexivity;
    destruct (flags_contains _ DF_STATION_NOT_READY); reflexivity.
Qed.

Lemma dg_class_flags h pdu pf cf wp nr :
  dg_is_diag (dg_class h pdu) = true ->
  flags_contains (pflags pdu) DF_PARAMETER_FAULT = pf -> flags_contains (pflags pdu) DF_CONFIGURATION_FAULT = cf ->
  flags_contains (pflags pdu) DF_PARAMETER_REQUIRED = wp -> flags_contains (pflags pdu) DF_STATION_NOT_READY = nr ->
  dg_class h pdu = if pf || cf then (if wp then DgFaultPrm else DgFault)
                   else if wp then DgPrm else if nr then DgNotReady else DgReady.
Proof.
  rewrite dg_class_diag. intros Hc <- <- <- <-. unfold dg_class. rewrite Hc. reflexivity.
Qed.

Lemma handle_diag_eq p h pdu : pe_fcb p <> FcbInactive -> exists d x, d_flags d = pflags pdu /\
  p_handle_diag p (TData h pdu) =
    Ok (if dg_is_diag (dg_class h pdu) then (set_diag (set_fcb p (cyc (pe_fcb p))) (Some d) x, Some d) else (p, None)).
Proof.
  intro Hf.
  exists (mkDiag (pflags pdu) (256 * nth 4 pdu 0 + nth 5 pdu 0)
                 (if nth dp_diag_master_pos pdu 0 =? dp_diag_no_master then None else Some (nth dp_diag_master_pos pdu 0))),
         (if flags_contains (pflags pdu) DF_EXT_DIAG then fst (ext_fill (pe_ext p) (skipn 6 pdu)) else pe_ext p).
  split; [reflexivity|].
  rewrite dg_class_diag. unfold p_handle_diag.
  destruct (opt_eqb (h_dsap h) dp_diag_reply_dsap); [|reflexivity].
  destruct (opt_eqb (h_ssap h) dp_diag_reply_ssap); [|reflexivity].
  cbn [negb andb]. rewrite Nat.ltb_antisym.
  destruct (Nat.leb_spec dp_diag_min_len (length pdu)) as [Hl|Hl]; [|reflexivity].
  destruct pdu as [|b0 [|b1 [|b2 [|b3 [|b4 [|b5 tl]]]]]]; try (unfold dp_diag_min_len in Hl; simpl in Hl; lia).
  unfold pflags, get, dp_diag_master_pos, slice_from. cbn [negb nth_error bind nth length Nat.leb skipn].
  rewrite (cyc_ok _ Hf). destruct (flags_contains _ DF_EXT_DIAG); reflexivity.
Qed.

Lemma mrecv_validate fx fcb nd inf h pdu x :
  mrecv fx PsValidateConfig fcb nd inf (AData (dg_class h pdu) x) =
    if dg_is_diag (dg_class h pdu) then (fst (validate_outcome (pflags pdu)), cyc fcb, nd, true)
    else (PsValidateConfig, fcb, nd, false).
Proof.
  unfold dg_class, validate_outcome. fold (pflags pdu).
  destruct (_ && _ && _); [|reflexivity].
  destruct (flags_contains (pflags pdu) DF_PARAMETER_FAULT), (flags_contains (pflags pdu) DF_CONFIGURATION_FAULT),
           (flags_contains (pflags pdu) DF_PARAMETER_REQUIRED), (flags_contains (pflags pdu) DF_STATION_NOT_READY);
    reflexivity.
Qed.

Lemma class_prmreq h pdu : dg_is_diag (dg_class h pdu) = true ->
  flags_contains (pflags pdu) DF_PARAMETER_REQUIRED = dg_prmreq (dg_class h pdu).
Proof.
  unfold dg_class. fold (pflags pdu).
  destruct (_ && _ && _); [intros _|discriminate].
  destruct (_ || _), (flags_contains (pflags pdu) DF_PARAMETER_REQUIRED); try reflexivity;
    destruct (flags_contains (pflags pdu) DF_STATION_NOT_READY); reflexivity.
Qed.

Lemma receive_dx_class p h pdu rl st : h_fc h = FcResponse rl st ->
  p_receive_dx p (TData h pdu) =
    Ok match dx_class (length (pe_pi_i p)) h pdu with
       | XSapNE => (set_state p PsValidateConfig, None)
       | XOk => (set_state (set_pi_i p pdu) PsDataExchange, Some EvDataExchanged)
       | XHigh => (set_state (set_pi_i (set_diag_needed p true) pdu) PsDataExchange, Some EvDataExchanged)
       | XHighBad => (set_diag_needed p true, None)
       | XIgnore => (p, None)
       end.
Proof.
  intro Hfc. unfold p_receive_dx, dx_class, copy_from_slice. rewrite Hfc.
  destruct st; try reflexivity; cbn [pe_pi_i set_diag_needed]; rewrite (Nat.eqb_sym (length (pe_pi_i p)));
    destruct (Nat.eqb (length pdu) (length (pe_pi_i p))); reflexivity.
Qed.

Lemma dx_class_len n h pdu : dx_class n h pdu = XOk \/ dx_class n h pdu = XHigh -> length pdu = n.
Proof.
  unfold dx_class. destruct (h_fc h) as [|rl st]; [intros [D|D]; discriminate D|].
  destruct st; try (intros [D|D]; discriminate D);
    (destruct (Nat.eqb_spec (length pdu) n); [trivial|intros [D|D]; discriminate D]).
Qed.

(* PreDataExchange and DataExchange share their branch, in the peripheral and in mrecv *)
Lemma receive_reply_dx p t : dx_state (pe_state p) = true ->
  p_receive_reply p t =
    if pe_diag_in_flight p then
      let* (p1, d) := p_handle_diag p t in
      match d with
      | Some di =>
          let p2 := set_diag_needed (set_retry p1 0) false in
          Ok (if flags_contains (d_flags di) DF_PARAMETER_REQUIRED then set_state p2 PsWaitForParam else p2,
              Some EvDiagnostics)
      | None => Ok (p1, None)
      end
    else
      let* (p1, ev) := p_receive_dx p t in
      let* f := fcb_cycle (pe_fcb p1) in Ok (set_fcb (set_retry p1 0) f, ev).
Proof. unfold p_receive_reply. destruct (pe_state p); try discriminate; reflexivity. Qed.

Definition resp_ok (t : telegram) : Prop :=
  match t with
  | TToken _ _ => False
  | TShortConf => True
  | TData h _ => exists r st, h_fc h = FcResponse r st
  end.

Lemma admissible_resp_ok own da t : admissible own da t = true -> resp_ok t.
Proof.
  destruct t as [h pdu|d s|]; simpl; intro H; [|discriminate|exact I].
  apply andb_prop in H. destruct H as [_ H]. destruct (h_fc h) as [|r st]; [discriminate|]. eauto.
Qed.

Lemma mrecv_dx fx ps fcb nd inf r : dx_state ps = true ->
  mrecv fx ps fcb nd inf r =
    if inf then
      match r with
      | AData d _ =>
          if dg_is_diag d then ((if dg_prmreq d then PsWaitForParam else ps), cyc fcb, false, true)
          else (ps, fcb, nd, false)
      | _ => (ps, fcb, nd, false)
      end
    else
      match r with
      | ANone => (ps, fcb, nd, false)
      | ASc => ((if f_in0 fx then PsDataExchange else ps), cyc fcb, nd, true)
      | AData _ XSapNE => (PsValidateConfig, cyc fcb, nd, true)
      | AData _ XOk => (PsDataExchange, cyc fcb, nd, true)
      | AData _ XHigh => (PsDataExchange, cyc fcb, true, true)
      | AData _ XHighBad => (ps, cyc fcb, true, true)
      | AData _ XIgnore => (ps, cyc fcb, nd, true)
      end.
Proof. destruct ps; try discriminate; reflexivity. Qed.

(* projections of explicit peripheral records, and nothing else, are computed *)
Ltac psimp := cbn [pe_addr pe_state pe_retry pe_fcb pe_pi_i pe_pi_q pe_diag pe_ext pe_diag_needed pe_diag_in_flight pe_opts
                   set_state set_retry set_fcb set_pi_i set_pi_q set_diag set_diag_needed set_diag_in_flight].

(* closes a case of recv_sound once the handler's result is computed: the new peripheral is read off it, and
   what is claimed of it are projections of an explicit record; E says which state p is in *)
Ltac recv_done E := do 3 eexists; (split; [reflexivity|]); psimp; rewrite ?E; repeat split; auto.

Lemma mrecv_none fx ps fcb nd inf : mrecv fx ps fcb nd inf ANone = (ps, fcb, nd, false).
Proof. destruct ps, inf; reflexivity. Qed.

Lemma recv_sound fx p ot :
  pe_fcb p <> FcbInactive -> f_in0 fx = Nat.eqb (length (pe_pi_i p)) 0 -> (forall t, ot = Some t -> resp_ok t) ->
  exists p' ev acc, match ot with Some t => p_receive_reply p t | None => Ok (p, None) end = Ok (p', ev) /\
    mrecv fx (pe_state p) (pe_fcb p) (pe_diag_needed p) (pe_diag_in_flight p)
          (class_of (length (pe_pi_i p)) ot) = (pe_state p', pe_fcb p', pe_diag_needed p', acc) /\
    pe_retry p' = (if acc then 0 else pe_retry p) /\
    pe_diag_in_flight p' = pe_diag_in_flight p /\ pe_addr p' = pe_addr p /\ pe_opts p' = pe_opts p /\
    pe_pi_q p' = pe_pi_q p /\ length (pe_pi_i p') = length (pe_pi_i p).
Proof.
  intros Hf Hin Hok.
  destruct ot as [t|]; [specialize (Hok t eq_refl)|cbn [class_of]; rewrite mrecv_none; do 3 eexists; repeat split; reflexivity].
  destruct t as [h pdu|d s|]; [|now elim Hok|]; cbn [class_of].
  - (* a data telegram *)
    destruct Hok as (rl & st & Hfc).
    destruct (handle_diag_eq p h pdu Hf) as (d & x & Hd & Ed).
    destruct (handle_diag_eq (set_retry p 0) h pdu Hf) as (d0 & x0 & Hd0 & Ed0).
    destruct (dx_state (pe_state p)) eqn:Hdx.
    + rewrite (receive_reply_dx p _ Hdx), (mrecv_dx _ _ _ _ _ _ Hdx), Ed, (receive_dx_class p h pdu rl st Hfc).
      cbn [bind]. destruct (pe_diag_in_flight p) eqn:Hfl.
      * destruct (dg_is_diag (dg_class h pdu)) eqn:Ec; [|recv_done Hfl].
        rewrite Hd, (class_prmreq h pdu Ec). destruct (dg_prmreq _); recv_done Hfl.
      * destruct (dx_class (length (pe_pi_i p)) h pdu) eqn:Ex; psimp; rewrite (cyc_ok _ Hf); cbn [bind]; recv_done Hfl;
          eapply dx_class_len; eauto.
    + unfold p_receive_reply.
      destruct (pe_state p) eqn:Hst; try discriminate Hdx; cbn [is_sc]; rewrite ?Ed, ?Ed0; cbn [bind].
      * cbn [mrecv]. destruct (dg_is_diag (dg_class h pdu)); recv_done Hst.
      * recv_done Hst.
      * recv_done Hst.
      * rewrite mrecv_validate. destruct (dg_is_diag (dg_class h pdu)); [|recv_done Hst].
        rewrite Hd0. destruct (validate_outcome (pflags pdu)) as [s' ev']. recv_done Hst.
  - (* the short acknowledgement *)
    destruct (dx_state (pe_state p)) eqn:Hdx.
    + rewrite (receive_reply_dx p _ Hdx), (mrecv_dx _ _ _ _ _ _ Hdx). cbn [p_handle_diag p_receive_dx bind]. rewrite <- Hin.
      destruct (pe_diag_in_flight p) eqn:Hfl; [recv_done Hfl|].
      destruct (f_in0 fx); cbn [negb bind]; psimp; rewrite (cyc_ok _ Hf); cbn [bind]; recv_done Hfl.
    + unfold p_receive_reply. cbn [p_handle_diag is_sc bind].
      destruct (pe_state p) eqn:Hst; try discriminate Hdx; rewrite ?(cyc_ok _ Hf); recv_done Hst.
Qed.

(* the same for slave records *)
Ltac ssimp := cbn [sl_addr sl_ident sl_exp_cfg sl_in_len sl_out_len sl_silent sl_ready_delay sl_stat_diag sl_force1
                   sl_force2 sl_ext sl_st sl_master sl_fcb sl_resp sl_prm_fault sl_cfg_fault sl_wd_on sl_freeze sl_sync
                   sl_not_ready sl_diag_pending sl_outputs sl_counter sl_gc slave_dyn slave_store].

Definition slave_setup_eq (s s' : slave) : Prop :=
  sl_addr s' = sl_addr s /\ sl_ident s' = sl_ident s /\ sl_exp_cfg s' = sl_exp_cfg s /\
  sl_in_len s' = sl_in_len s /\ sl_out_len s' = sl_out_len s /\ sl_silent s' = sl_silent s /\
  sl_ready_delay s' = sl_ready_delay s /\ sl_stat_diag s' = sl_stat_diag s /\
  sl_force1 s' = sl_force1 s /\ sl_force2 s' = sl_force2 s /\ sl_ext s' = sl_ext s.

Definition sproc_ok (own : Z) (s : slave) (k : akind) (r : slave * option bytes) : Prop :=
  let (s', resp) := r in
  sproc (fix_of s) k (sl_st s) (sl_prm_fault s) (sl_cfg_fault s) (sl_diag_pending s) (sl_not_ready s) =
    (sl_st s', sl_prm_fault s', sl_cfg_fault s', sl_diag_pending s', sl_not_ready s',
     class_of (sl_in_len s) (deliver own (sl_addr s) resp)) /\
  slave_setup_eq s s' /\ (sl_not_ready s' <= 2)%nat.

Lemma pattern_length n : forall c, length (pattern n c) = n.
Proof. induction n; intro c; simpl; [reflexivity|]. rewrite IHn. reflexivity. Qed.

Lemma setup_refl s : slave_setup_eq s s.
Proof. repeat split; reflexivity. Qed.

Section SlaveProcess.
Variables (own : Z) (s : slave) (f : fcbit).
Hypothesis Hown : 0 <= own <= 125.
Hypothesis Haddr : 0 <= sl_addr s <= 125.
Hypothesis Hf1 : sl_force1 s = 0.
Hypothesis Hf2 : sl_force2 s = 0.
Hypothesis Hdel : (sl_ready_delay s <= 2)%nat.
Hypothesis Hnr : (sl_not_ready s <= 2)%nat.
Hypothesis Hext : (length (sl_ext s) <= 238)%nat.
Hypothesis Hin : (sl_in_len s <= 244)%nat.

Definition req_header (ds ss : option Z) (rq : req_type) : header := mkHeader (sl_addr s) own ds ss (FcRequest f rq).

Lemma deliver_resp ds ss rq st pd : wf_sap ds -> wf_sap ss -> (length pd <= 244)%nat ->
  let h := resp_header s (req_header ds ss rq) st in
  deliver own (sl_addr s) (Some (frame_spec h pd)) = Some (TData h pd).
Proof.
  intros Hds Hss Hl h. apply (deliver_data _ _ _ _ RsSlave st); try reflexivity.
  - unfold wf_header, is_addr7. cbn. repeat split; try lia; assumption.
  - unfold length_byte. cbn. destruct ds, ss; simpl; lia.
Qed.

Lemma deliver_rs ds ss rq : wf_sap ds -> wf_sap ss ->
  class_of (sl_in_len s) (deliver own (sl_addr s) (resp_rs s (req_header ds ss rq))) = a_rs.
Proof.
  intros Hds Hss. unfold resp_rs. rewrite deliver_resp by (simpl; trivial; lia).
  unfold class_of, dg_class, dx_class. cbn [length Nat.leb dp_diag_min_len]. rewrite andb_false_r. reflexivity.
Qed.

Lemma diag_pdu_flags : pflags (slave_diag_pdu s) =
  sdiag_flags (negb (sl_state_eqb (sl_st s) SlDataExch) || negb (Nat.eqb (sl_not_ready s) 0)) (sl_cfg_fault s)
              (negb (Nat.eqb (length (sl_ext s)) 0)) (sl_prm_fault s) (sl_state_eqb (sl_st s) SlWaitPrm)
              (sl_stat_diag s) (sl_wd_on s) (sl_freeze s) (sl_sync s).
Proof. unfold pflags, slave_diag_pdu, sdiag_flags. rewrite Hf1, Hf2. reflexivity. Qed.

Lemma process_diag rq : sproc_ok own s KDiag (slave_process s (req_header (Some 60) (Some 62) rq) []).
Proof.
  unfold slave_process. cbn [req_header h_dsap h_ssap opt_eqb Z.eqb Pos.eqb andb STD_SAP_DIAG STD_SAP_MS0].
  fold (req_header (Some 60) (Some 62) rq).
  assert (Hlen : length (slave_diag_pdu s) = (6 + length (sl_ext s))%nat).
  { unfold slave_diag_pdu. rewrite app_length. reflexivity. }
  unfold sproc_ok. ssimp. rewrite deliver_resp by (try rewrite Hlen; simpl; unfold is_byte; lia).
  split; [|split; [(repeat split; reflexivity)|lia]].
  unfold sproc, class_of. f_equal. f_equal. symmetry.
  apply dg_class_flags; rewrite ?diag_pdu_flags; try apply sdiag_flags_spec.
  rewrite dg_class_diag, Hlen. reflexivity.
Qed.

Lemma process_prm rq (pa : params) (o : poptions) (user : bytes) :
  sl_ident s = o_ident o ->
  sproc_ok own s KPrm (slave_process s (req_header (Some 61) (Some 62) rq) (set_prm_pdu pa o user)).
Proof.
  intros Hid. unfold slave_process. cbn [req_header h_dsap h_ssap opt_eqb Z.eqb Pos.eqb andb STD_SAP_DIAG STD_SAP_MS0 STD_SAP_SET_PRM].
  replace (Nat.leb 7 (length (set_prm_pdu pa o user))) with true
    by (symmetry; apply Nat.leb_le; unfold set_prm_pdu; rewrite app_length; simpl; lia).
  replace (256 * nth 4 (set_prm_pdu pa o user) 0 + nth 5 (set_prm_pdu pa o user) 0 =? sl_ident s) with true.
  2:{ symmetry. apply Z.eqb_eq. unfold set_prm_pdu. cbn [nth app]. rewrite Hid. pose proof (Z.div_mod (o_ident o) 256). lia. }
  cbn [andb]. unfold sproc_ok. ssimp. rewrite deliver_sc.
  split; [reflexivity|]. split; [(repeat split; reflexivity)|lia].
Qed.

Lemma process_cfg rq (cfg : bytes) :
  bytes_eqb cfg (sl_exp_cfg s) = true ->
  sproc_ok own s KCfg (slave_process s (req_header (Some 62) (Some 62) rq) cfg).
Proof.
  intros Hc. unfold slave_process.
  cbn [req_header h_dsap h_ssap opt_eqb Z.eqb Pos.eqb andb STD_SAP_DIAG STD_SAP_MS0 STD_SAP_SET_PRM STD_SAP_CHK_CFG].
  fold (req_header (Some 62) (Some 62) rq).
  unfold sproc_ok, sproc. destruct (sl_state_eqb (sl_st s) SlWaitPrm).
  - rewrite deliver_rs by (simpl; unfold is_byte; lia).
    split; [reflexivity|]. split; [(repeat split; reflexivity)|exact Hnr].
  - rewrite Hc. ssimp. rewrite deliver_sc. split; [reflexivity|]. split; [(repeat split; reflexivity)|exact Hdel].
Qed.

Lemma process_dx rq (pdu : bytes) :
  length pdu = sl_out_len s ->
  sproc_ok own s KDx (slave_process s (req_header None None rq) pdu).
Proof.
  intros Hl. unfold slave_process.
  cbn [req_header h_dsap h_ssap opt_eqb Z.eqb Pos.eqb andb STD_SAP_DIAG STD_SAP_MS0 STD_SAP_SET_PRM STD_SAP_CHK_CFG].
  fold (req_header None None rq).
  rewrite Hl, Nat.eqb_refl, andb_true_r. unfold sproc_ok, sproc.
  destruct (sl_state_eqb (sl_st s) SlDataExch && Nat.eqb (sl_not_ready s) 0) eqn:Hc.
  - apply andb_prop in Hc. destruct Hc as [Hs Hn]. apply sl_eqb_eq in Hs. apply Nat.eqb_eq in Hn.
    unfold fix_of. cbn [f_in0 f_stat].
    destruct (Nat.eqb (sl_in_len s) 0); ssimp.
    + rewrite deliver_sc. split; [reflexivity|]. split; [(repeat split; reflexivity)|lia].
    + rewrite deliver_resp by (try exact I; rewrite pattern_length; exact Hin).
      split; [|split; [(repeat split; reflexivity)|lia]].
      unfold class_of, dg_class, dx_class. cbn [h_fc h_dsap resp_header req_header opt_eqb andb].
      rewrite pattern_length, Nat.eqb_refl.
      destruct (sl_diag_pending s || sl_stat_diag s); reflexivity.
  - rewrite deliver_rs by exact I.
    split; [reflexivity|]. split; [(repeat split; reflexivity)|exact Hnr].
Qed.

End SlaveProcess.

Definition req_of (pa : params) (op : opstate) (p : periph) (k : akind) (user cfg : bytes) : header * bytes :=
  match k with
  | KDiag => (mkHeader (pe_addr p) (p_address pa) (Some 60) (Some 62) (FcRequest (pe_fcb p) RqSrdLow), [])
  | KPrm => (mkHeader (pe_addr p) (p_address pa) (Some 61) (Some 62) (FcRequest (pe_fcb p) RqSrdLow),
             set_prm_pdu pa (pe_opts p) user)
  | KCfg => (mkHeader (pe_addr p) (p_address pa) (Some 62) (Some 62) (FcRequest (pe_fcb p) RqSrdLow), cfg)
  | KDx => (mkHeader (pe_addr p) (p_address pa) None None (FcRequest (pe_fcb p) RqSrdHigh), dx_pdu op p)
  end.

Definition evl (ev : option pevent) : list pevent := match ev with Some e => [e] | None => [] end.

(* the part of joint_cycle after the request has been written *)
Definition exchange (pa : params) (p1 : periph) (s : slave) (h : header) (pdu : bytes) : res (jstate * list pevent) :=
  let (s1, reply) := slave_step s (frame_spec h pdu) in
  match deliver (p_address pa) (pe_addr p1) reply with
  | Some t => let* (p2, ev) := p_receive_reply p1 t in Ok ((p2, s1), evl ev)
  | None => Ok ((p1, s1), [])
  end.

Lemma req_of_wf pa op p s k user cfg : jinv pa p s ->
  o_user_prm (pe_opts p) = Some user -> o_config (pe_opts p) = Some cfg ->
  let h := fst (req_of pa op p k user cfg) in
  h_da h = sl_addr s /\ wf_header h /\
  (exists rq, h_fc h = FcRequest (pe_fcb p) rq /\ (rq = RqSrdLow \/ rq = RqSrdHigh)) /\
  (length_byte h (length (snd (req_of pa op p k user cfg))) <= 249)%nat.
Proof.
  intros J Hu Hc.
  assert (A1 : 0 <= pe_addr p < 128) by (pose proof (ji_addr _ _ _ J); lia).
  assert (A2 : 0 <= p_address pa < 128) by (pose proof (ji_own _ _ _ J); lia).
  assert (Hdx : (length (dx_pdu op p) <= 244)%nat).
  { destruct (ji_out _ _ _ J) as [<- H]. unfold dx_pdu. destruct (opstate_eqb op OpOperate); rewrite ?repeat_length; exact H. }
  assert (Hprm : (length (set_prm_pdu pa (pe_opts p) user) <= 244)%nat).
  { destruct (ji_prm _ _ _ J) as (u & Hu' & H). rewrite Hu in Hu'. injection Hu' as <-.
    unfold set_prm_pdu. rewrite app_length. simpl. lia. }
  assert (Hcfg : (length cfg <= 244)%nat).
  { destruct (ji_cfg _ _ _ J) as (u & Hu' & _ & H). rewrite Hc in Hu'. injection Hu' as <-. exact H. }
  rewrite (ji_sladdr _ _ _ J).
  destruct k; unfold req_of, wf_header, is_addr7, length_byte; cbn [fst snd h_da h_sa h_dsap h_ssap h_fc wf_sap has_sap length];
    (split; [reflexivity|]); (split; [clear - A1 A2; repeat split; try assumption; unfold is_byte; lia|]);
    (split; [eexists; split; [reflexivity|auto]|clear - Hdx Hprm Hcfg; lia]).
Qed.

(* the slave's side of asend: a new request is processed and its answer stored, a retransmission is answered
   from the store *)
Lemma slave_step_abs own s h pdu f rq k :
  sl_silent s = false -> wf_header h -> (length_byte h (length pdu) <= 249)%nat ->
  h_fc h = FcRequest f rq -> (rq = RqSrdLow \/ rq = RqSrdHigh) -> h_da h = sl_addr s ->
  (sl_not_ready s <= 2)%nat -> sproc_ok own s k (slave_process s h pdu) ->
  exists s1 reply, slave_step s (frame_spec h pdu) = (s1, reply) /\ slave_setup_eq s s1 /\ (sl_not_ready s1 <= 2)%nat /\
    (if fresh f (sl_fcb s)
     then let '(sl, prmf, cfgf, pend, nr, r) :=
                sproc (fix_of s) k (sl_st s) (sl_prm_fault s) (sl_cfg_fault s) (sl_diag_pending s) (sl_not_ready s) in
          (sl, prmf, cfgf, pend, nr, stored f, r, r)
     else (sl_st s, sl_prm_fault s, sl_cfg_fault s, sl_diag_pending s, sl_not_ready s, sl_fcb s,
           class_of (sl_in_len s) (deliver own (sl_addr s) (sl_resp s)),
           class_of (sl_in_len s) (deliver own (sl_addr s) (sl_resp s)))) =
    (sl_st s1, sl_prm_fault s1, sl_cfg_fault s1, sl_diag_pending s1, sl_not_ready s1, sl_fcb s1,
     class_of (sl_in_len s) (deliver own (sl_addr s) (sl_resp s1)),
     class_of (sl_in_len s) (deliver own (sl_addr s) reply)).
Proof.
  intros Hs Hwf Hlen Hfc Hrq Hda Hn Hp. rewrite (slave_step_request s h pdu f rq Hs Hwf Hlen Hfc Hrq Hda).
  destruct (fresh f (sl_fcb s)).
  - destruct (slave_process s h pdu) as [s' resp]. destruct Hp as (Hp & Hset & Hn').
    exists (slave_store s' (stored f) resp), resp. rewrite Hp. repeat (split; [first [reflexivity|assumption]|]). reflexivity.
  - exists s, (sl_resp s). repeat (split; [first [reflexivity|assumption|apply setup_refl]|]). reflexivity.
Qed.

Lemma jinv_setup pa p s p' s' : jinv pa p s -> same_setup p s p' s' ->
  pe_fcb p' <> FcbInactive -> 0 <= pe_retry p' -> (sl_not_ready s' <= 2)%nat -> jinv pa p' s'.
Proof.
  intros [] (E1 & E2 & E3 & E4 & E5 & E6 & E7 & E8 & E9 & E10 & E11 & E12 & E13 & E14 & E15) Hf Hr Hn.
  constructor; rewrite ?E1, ?E2, ?E3, ?E4, ?E5, ?E6, ?E7, ?E8, ?E9, ?E10, ?E11, ?E13, ?E14, ?E15; try assumption.
  tauto.
Qed.

Lemma jinv_master pa p s pl : jinv pa p s ->
  pe_addr pl = pe_addr p -> pe_opts pl = pe_opts p -> pe_pi_i pl = pe_pi_i p -> pe_pi_q pl = pe_pi_q p ->
  pe_fcb pl <> FcbInactive -> 0 <= pe_retry pl -> jinv pa pl s.
Proof.
  intros J Ha Ho Hi Hq Hf Hr. apply (jinv_setup pa p s pl s J); try assumption.
  - repeat split; congruence.
  - exact (proj2 (ji_delay _ _ _ J)).
Qed.

Lemma fix_of_setup s s' : slave_setup_eq s s' -> fix_of s' = fix_of s.
Proof.
  intros (_ & _ & _ & E4 & _ & _ & E7 & E8 & _ & _ & E11). unfold fix_of. rewrite E4, E7, E8, E11. reflexivity.
Qed.

(* A request of kind k, written with the retry counter raised, and what comes back: one asend of the abstract
   system; the counter is cleared exactly when the reply is accepted. *)
Lemma exchange_sound pa op pl s k user cfg :
  jinv pa pl s -> o_user_prm (pe_opts pl) = Some user -> o_config (pe_opts pl) = Some cfg ->
  let p1 := set_retry pl (pe_retry pl + 1) in
  exists p2 s1 evs,
    exchange pa p1 s (fst (req_of pa op pl k user cfg)) (snd (req_of pa op pl k user cfg)) = Ok ((p2, s1), evs) /\
    jinv pa p2 s1 /\ fix_of s1 = fix_of s /\
    proj pa (p2, s1) =
      (let (u', reset) := asend (fix_of s) k (fst (proj pa (pl, s))) in
       (u', if reset then 0%nat else S (Z.to_nat (pe_retry pl)))).
Proof.
  intros Jl Hu Hc p1. pose proof (ji_retry _ _ _ Jl) as Jrl.
  assert (J : jinv pa p1 s).
  { apply (jinv_master pa pl s p1 Jl); try reflexivity; [exact (ji_fcb _ _ _ Jl)|]. unfold p1. cbn [pe_retry set_retry]. lia. }
  change (req_of pa op pl k user cfg) with (req_of pa op p1 k user cfg).
  change (fst (proj pa (pl, s))) with (fst (proj pa (p1, s))). change (pe_opts pl) with (pe_opts p1) in Hu, Hc.
  destruct (req_of_wf pa op p1 s k user cfg J Hu Hc) as (Hda & Hwf & (rq & Hfc & Hrq) & Hlen).
  pose proof J as [Jown Jaddr Jsl Jid (user' & Ju & _) (cfg' & Jc & Jce & _) [Jin Jinl] [Jout _] Jf Jr _
                   (Jsil & Jf1 & Jf2) [Jd Jn] Jext].
  rewrite Hu in Ju. rewrite Hc in Jc. injection Ju as <-. injection Jc as <-.
  set (h := fst (req_of pa op p1 k user cfg)) in *. set (pdu := snd (req_of pa op p1 k user cfg)) in *.
  (* the slave's side *)
  assert (Hp : sproc_ok (p_address pa) s k (slave_process s h pdu)).
  { assert (Ha : 0 <= sl_addr s <= 125) by (rewrite Jsl; exact Jaddr).
    unfold h, pdu, req_of. rewrite <- Jsl.
    destruct k; cbn [fst snd].
    - apply process_diag; assumption.
    - apply process_prm; assumption.
    - apply process_cfg; assumption.
    - apply process_dx; try assumption.
      unfold dx_pdu. destruct (opstate_eqb op OpOperate); rewrite ?repeat_length; exact Jout. }
  destruct (slave_step_abs _ s h pdu _ rq k Jsil Hwf Hlen Hfc Hrq Hda Jn Hp) as (s1 & reply & Hstep & Hset & Hn1 & Habs).
  (* the master's side *)
  assert (Hin0 : f_in0 (fix_of s) = Nat.eqb (length (pe_pi_i p1)) 0) by (unfold fix_of; cbn [f_in0]; rewrite Jin; reflexivity).
  destruct (recv_sound (fix_of s) p1 (deliver (p_address pa) (pe_addr p1) reply) Jf Hin0)
    as (p2 & ev & acc & Hex & Hm & Hretry & Hfl & Hframe).
  { intros t Hd. exact (admissible_resp_ok _ _ _ (deliver_admissible _ _ _ _ Hd)). }
  exists p2, s1, (evl ev).
  split.
  { unfold exchange. rewrite Hstep. revert Hex.
    destruct (deliver (p_address pa) (pe_addr p1) reply) as [t|]; intro Hex; [rewrite Hex; reflexivity|].
    injection Hex as <- <-. reflexivity. }
  split.
  { apply (jinv_setup pa p1 s p2 s1 J); [|eapply mrecv_fcb_ne; [exact Jf|exact Hm]|rewrite Hretry; destruct acc; [lia|exact Jr]|exact Hn1].
    destruct Hframe as (Ha & Ho & Hq & Hi). exact (conj Ha (conj Ho (conj Hq (conj Hi Hset)))). }
  split; [exact (fix_of_setup s s1 Hset)|].
  unfold asend, proj.
  cbn [fst u_ps u_fcb u_needed u_inflight u_sl u_sfcb u_resp u_prmf u_cfgf u_pend u_nr].
  rewrite Habs. cbv beta iota.
  rewrite Jin, <- Jsl in Hm. rewrite Hm.
  destruct Hset as (-> & _ & _ & -> & _). rewrite Hfl, Hretry. f_equal.
  destruct acc; [reflexivity|]. unfold p1. cbn [pe_retry set_retry]. rewrite Z2Nat.inj_add by lia. simpl. lia.
Qed.

(* Which request a turn sends: unless the retries are used up, or an unanswered probe of an Offline
   peripheral is being written off, it is the pending request of the peripheral after the in-flight latch. *)
Lemma transmit_select_eq pa op p :
  p_transmit_select pa op p =
    if dp_retry_exhausted (pe_retry p) (p_max_retry pa)
    then (set_state (set_fcb p fcbit_reset) PsOffline, PtxSkip (Some EvOffline))
    else if is_live p || (pe_retry p =? 0) then (latch p, live_req pa op (latch p))
    else (set_fcb p fcbit_reset, PtxSkip None).
Proof.
  unfold p_transmit_select, latch, live_req, is_live.
  destruct (dp_retry_exhausted _ _); [reflexivity|].
  destruct (pe_state p) eqn:Hst; cbn [pstate_is_live orb]; rewrite ?Hst.
  - destruct (pe_retry p =? 0) eqn:E; unfold dp_offline_probe_retry; rewrite E; reflexivity.
  - destruct (o_user_prm (pe_opts p)); reflexivity.
  - destruct (o_config (pe_opts p)); reflexivity.
  - reflexivity.
  - destruct (pe_retry p =? 0); cbn [pe_state set_diag_in_flight]; rewrite Hst; destruct (pe_diag_in_flight _); reflexivity.
  - destruct (pe_retry p =? 0); cbn [pe_state set_diag_in_flight]; rewrite Hst; destruct (pe_diag_in_flight _); reflexivity.
Qed.

Lemma latch_frame p :
  pe_addr (latch p) = pe_addr p /\ pe_state (latch p) = pe_state p /\ pe_retry (latch p) = pe_retry p /\
  pe_fcb (latch p) = pe_fcb p /\ pe_pi_i (latch p) = pe_pi_i p /\ pe_pi_q (latch p) = pe_pi_q p /\
  pe_opts (latch p) = pe_opts p.
Proof.
  assert (H : latch p = p \/ latch p = set_diag_in_flight p (pe_diag_needed p))
    by (unfold latch; destruct (pe_state p), (pe_retry p =? 0); auto).
  destruct H as [-> | ->]; repeat split; reflexivity.
Qed.

Definition kind_of (p : periph) : akind :=
  match pe_state p with
  | PsOffline | PsValidateConfig => KDiag
  | PsWaitForParam => KPrm
  | PsWaitForConfig => KCfg
  | PsPreDataExchange | PsDataExchange => if pe_diag_in_flight p then KDiag else KDx
  end.

Lemma live_req_of pa op p user cfg :
  o_user_prm (pe_opts p) = Some user -> o_config (pe_opts p) = Some cfg ->
  live_req pa op p = PtxSend (fst (req_of pa op p (kind_of p) user cfg)) (snd (req_of pa op p (kind_of p) user cfg)).
Proof.
  intros Hu Hc. unfold live_req, kind_of. rewrite Hu, Hc.
  destruct (pe_state p); try reflexivity; destruct (pe_diag_in_flight p); reflexivity.
Qed.

Lemma body_proj fx pa p s :
  body fx (pe_retry p =? 0) (fst (proj pa (p, s))) =
    if is_live p || (pe_retry p =? 0) then asend fx (kind_of (latch p)) (fst (proj pa (latch p, s)))
    else (set_fcb_u (fst (proj pa (p, s))) FcbFirst, true).
Proof.
  unfold body, latch, kind_of, is_live, proj. cbn [fst u_ps u_needed u_inflight].
  destruct (pe_state p) eqn:Hst, (pe_retry p =? 0); cbn; rewrite ?Hst; reflexivity.
Qed.

Theorem sim_step pa op p s : jinv pa p s -> op <> OpStop ->
  exists p' s' evs, joint_cycle pa op (p, s) = Ok ((p', s'), evs) /\ jinv pa p' s' /\ fix_of s' = fix_of s /\
    proj pa (p', s') = astep (fix_of s) (Z.to_nat (p_max_retry pa)) (proj pa (p, s)).
Proof.
  intros J Hop.
  pose proof (ji_retry _ _ _ J) as Jr. pose proof (ji_M _ _ _ J) as JM. pose proof (ji_fcb _ _ _ J) as Jf.
  destruct (ji_prm _ _ _ J) as (user & Hu & _). destruct (ji_cfg _ _ _ J) as (cfg & Hc & _).
  unfold joint_cycle, p_transmit. rewrite (opstate_eqb_stop op Hop), transmit_select_eq.
  change (proj pa (p, s)) with (fst (proj pa (p, s)), Z.to_nat (pe_retry p)). unfold astep.
  replace (Nat.ltb (Z.to_nat (p_max_retry pa)) (Z.to_nat (pe_retry p)))
    with (dp_retry_exhausted (pe_retry p) (p_max_retry pa)).
  2:{ unfold dp_retry_exhausted. destruct (Z.ltb_spec (p_max_retry pa) (pe_retry p)); symmetry;
        [apply Nat.ltb_lt|apply Nat.ltb_ge]; lia. }
  destruct (dp_retry_exhausted (pe_retry p) (p_max_retry pa)) eqn:Hx.
  { (* retries used up: Offline *)
    cbn [bind]. do 3 eexists. split; [reflexivity|]. split; [|split; reflexivity].
    apply (jinv_master pa p s _ J); try reflexivity. discriminate. }
  unfold dp_retry_exhausted in Hx. apply Z.ltb_ge in Hx.
  replace (Nat.eqb (Z.to_nat (pe_retry p)) 0) with (pe_retry p =? 0).
  2:{ destruct (Z.eqb_spec (pe_retry p) 0) as [->|H]; [reflexivity|]. symmetry. apply Nat.eqb_neq. lia. }
  rewrite body_proj.
  destruct (is_live p || (pe_retry p =? 0)).
  - (* a request is sent and answered *)
    destruct (latch_frame p) as (La & Ls & Lr & Lf & Li & Lq & Lo).
    assert (Jl : jinv pa (latch p) s) by (apply (jinv_master pa p s _ J); congruence).
    rewrite <- Lo in Hu, Hc. rewrite (live_req_of pa op _ user cfg Hu Hc).
    replace (255 <=? pe_retry (latch p)) with false by (symmetry; apply Z.leb_gt; lia).
    destruct (exchange_sound pa op (latch p) s (kind_of (latch p)) user cfg Jl Hu Hc) as (p' & s' & evs & He & J' & Hfx & Hp).
    exists p', s', evs. split; [|split; [exact J'|split; [exact Hfx|]]].
    + unfold exchange in He. cbn [pe_addr set_retry] in He. rewrite La in He. exact He.
    + rewrite Hp, Lr. reflexivity.
  - (* an unanswered probe of an Offline peripheral is written off *)
    cbn [bind]. do 3 eexists. split; [reflexivity|]. split; [|split; reflexivity].
    apply (jinv_master pa p s _ J); try reflexivity. discriminate.
Qed.

Lemma sim_run pa op : op <> OpStop -> forall n p s, jinv pa p s ->
  exists p' s' evs, joint_run pa op n (p, s) = Ok ((p', s'), evs) /\ jinv pa p' s' /\ fix_of s' = fix_of s /\
    proj pa (p', s') = aiter (fix_of s) (Z.to_nat (p_max_retry pa)) n (proj pa (p, s)).
Proof.
  intros Hop. induction n as [|n IH]; intros p s J.
  - exists p, s, []. split; [reflexivity|]. split; [exact J|]. split; reflexivity.
  - destruct (sim_step pa op p s J Hop) as (p1 & s1 & e1 & H1 & J1 & F1 & P1).
    destruct (IH p1 s1 J1) as (p2 & s2 & e2 & H2 & J2 & F2 & P2).
    exists p2, s2, (e1 ++ e2). cbn [joint_run]. rewrite H1. cbn [bind]. rewrite H2. cbn [bind].
    split; [reflexivity|]. split; [exact J2|]. split; [congruence|].
    rewrite P2, F1, P1. reflexivity.
Qed.

Lemma jinv_fx pa p s : jinv pa p s -> fx_ok (fix_of s).
Proof.
  intros J. destruct (ji_delay _ _ _ J) as [Hd _]. split; [exact Hd|].
  unfold fix_of. cbn [f_in0 f_dgl]. intro H. apply Nat.eqb_eq in H. apply Nat.eqb_neq. lia.
Qed.

Lemma jinv_range pa p s : jinv pa p s -> in_range (fst (proj pa (p, s))).
Proof.
  intros J. split; cbn; [exact (ji_fcb _ _ _ J)|]. destruct (ji_delay _ _ _ J) as [_ H]. exact H.
Qed.

Lemma good_in_dx pa p s : Goodx (proj pa (p, s)) -> in_dx (p, s).
Proof.
  intros [H _]. cbn [proj fst] in H. unfold goodb in H. cbn [u_ps u_sl] in H.
  repeat (apply andb_prop in H; let E := fresh "E" in destruct H as [H E]).
  split; [apply ps_eqb_eq; exact H|apply sl_eqb_eq; assumption].
Qed.

Lemma core_f15 pa p s : jinv pa p s ->
  (Corex (Z.to_nat (p_max_retry pa)) (proj pa (p, s)) <-> f15_core pa (p, s)).
Proof.
  intros J. pose proof (ji_retry _ _ _ J). pose proof (ji_M _ _ _ J).
  unfold Corex, f15_core, coreb. cbn [proj fst snd u_ps u_sl u_prmf u_cfgf u_fcb u_sfcb]. split.
  - intros [Hc Hr]. apply andb_prop in Hc. destruct Hc as [Hc E]. apply andb_prop in Hc. destruct Hc as [Hc Ecf].
    apply andb_prop in Hc. destruct Hc as [Hc Epf]. apply andb_prop in Hc. destruct Hc as [Hc Esl].
    apply ps_eqb_eq in Hc. apply sl_eqb_eq in Esl. apply negb_true_iff in Epf. apply negb_true_iff in Ecf.
    repeat split; try assumption. lia.
  - intros (H1 & H2 & H3 & H4 & H5 & H6). rewrite H1, H2, H3, H4, H5. split; [reflexivity|lia].
Qed.

Lemma suspect_f15 pa p s : suspectb (fst (proj pa (p, s))) = true -> f15_suspect (p, s).
Proof.
  unfold suspectb, f15_suspect. cbn [proj fst u_ps u_sl u_fcb u_sfcb]. intro H.
  apply andb_prop in H. destruct H as [H1 H2]. apply sl_eqb_eq in H1. split; [exact H1|].
  destruct (pe_state p); try discriminate; auto.
  right; right; right. split; [reflexivity|]. apply negb_true_iff. exact H2.
Qed.

Lemma recovery_core pa op p s : jinv pa p s -> op <> OpStop ->
  exists k, (k <= c07_cycles (p_max_retry pa))%nat /\
    ((forall m, (k <= m)%nat -> exists st' evs, joint_run pa op m (p, s) = Ok (st', evs) /\ in_dx st') \/
     (f15_suspect (p, s) /\ exists st' evs, joint_run pa op k (p, s) = Ok (st', evs) /\ f15_core pa st')).
Proof.
  intros J Hop. pose proof (ji_M _ _ _ J) as JM.
  set (M := Z.to_nat (p_max_retry pa)). set (fx := fix_of s).
  destruct (abs_recovery fx M (fst (proj pa (p, s))) (snd (proj pa (p, s))) (jinv_fx _ _ _ J)) as (k & Hk & Hres);
    [unfold M; lia|exact (jinv_range _ _ _ J)|].
  rewrite <- surjective_pairing in Hres.
  exists k. split; [exact Hk|].
  destruct Hres as [G|[S C]].
  - left. intros m Hm.
    destruct (sim_run pa op Hop m p s J) as (p' & s' & evs & Hr & J' & _ & P).
    exists (p', s'), evs. split; [exact Hr|]. apply (good_in_dx pa). rewrite P.
    replace m with (k + (m - k))%nat by lia. rewrite aiter_add. apply good_stays. exact G.
  - right. split; [apply (suspect_f15 pa); exact S|].
    destruct (sim_run pa op Hop k p s J) as (p' & s' & evs & Hr & J' & _ & P).
    exists (p', s'), evs. split; [exact Hr|]. apply (core_f15 pa p' s' J'). rewrite P. exact C.
Qed.

Theorem recovery pa op p s : jinv pa p s -> op <> OpStop -> ~ f15_class pa op (p, s) ->
  exists k, (k <= c07_cycles (p_max_retry pa))%nat /\
    forall m, (k <= m)%nat -> exists st' evs, joint_run pa op m (p, s) = Ok (st', evs) /\ in_dx st'.
Proof.
  intros J Hop Hn. destruct (recovery_core pa op p s J Hop) as (k & Hk & [G|[_ (st' & evs & Hr & Hc)]]).
  - exists k. split; assumption.
  - exfalso. apply Hn. exists k, st', evs. repeat split; assumption.
Qed.

Theorem recovery_explicit pa op p s : jinv pa p s -> op <> OpStop -> ~ f15_suspect (p, s) ->
  exists k, (k <= c07_cycles (p_max_retry pa))%nat /\
    forall m, (k <= m)%nat -> exists st' evs, joint_run pa op m (p, s) = Ok (st', evs) /\ in_dx st'.
Proof.
  intros J Hop Hn. destruct (recovery_core pa op p s J Hop) as (k & Hk & [G|[S _]]).
  - exists k. split; assumption.
  - exfalso. exact (Hn S).
Qed.

(* C07_f15_refuted: the core is closed under the fault-free cycle, so a state of the class never recovers *)
Theorem f15_refuted pa op p s : jinv pa p s -> op <> OpStop -> f15_core pa (p, s) ->
  forall n, exists st' evs, joint_run pa op n (p, s) = Ok (st', evs) /\ f15_core pa st' /\ ~ in_dx st'.
Proof.
  intros J Hop Hc n.
  destruct (sim_run pa op Hop n p s J) as (p' & s' & evs & Hr & J' & _ & P).
  exists (p', s'), evs. split; [exact Hr|].
  assert (C : f15_core pa (p', s')).
  { apply (core_f15 pa p' s' J'). rewrite P. apply core_stays. apply (core_f15 pa p s J). exact Hc. }
  split; [exact C|]. intros [D _]. destruct C as [V _]. cbn [fst] in D. rewrite V in D. discriminate.
Qed.

(* the two outcomes exclude each other: a state of the F15 class never reaches data exchange for good *)
Theorem f15_class_never pa op p s : jinv pa p s -> op <> OpStop -> f15_class pa op (p, s) ->
  forall k, exists m st' evs, (k <= m)%nat /\ joint_run pa op m (p, s) = Ok (st', evs) /\ ~ in_dx st'.
Proof.
  intros J Hop (n & st' & evs & Hn & Hr & Hc) k.
  destruct (sim_run pa op Hop n p s J) as (p1 & s1 & e1 & Hr1 & J1 & _ & P1).
  rewrite Hr in Hr1. inversion Hr1; subst st' evs.
  destruct (sim_run pa op Hop (n + k) p s J) as (p2 & s2 & e2 & Hr2 & J2 & _ & P2).
  exists (n + k)%nat, (p2, s2), e2. split; [lia|]. split; [exact Hr2|].
  assert (C : f15_core pa (p2, s2)).
  { apply (core_f15 pa p2 s2 J2). rewrite P2, aiter_add. apply core_stays. rewrite <- P1.
    apply (core_f15 pa p1 s1 J1). exact Hc. }
  intros [D _]. destruct C as [V _]. cbn [fst] in D. rewrite V in D. discriminate.
Qed.

Theorem slave_retry_detection s h pdu f rq :
  sl_silent s = false -> wf_header h -> (length_byte h (length pdu) <= 249)%nat ->
  h_fc h = FcRequest f rq -> (rq = RqSrdLow \/ rq = RqSrdHigh) -> h_da h = sl_addr s ->
  (* a retransmission (FCV=1, stored bit) is answered with the stored response, nothing changes *)
  (fcbit_fcv f = true -> sl_fcb s = Some (fcbit_fcb f) -> slave_step s (frame_spec h pdu) = (s, sl_resp s)) /\
  (* FCV=1 with the other bit (or nothing stored): processed, bit and response stored *)
  (fcbit_fcv f = true -> sl_fcb s <> Some (fcbit_fcb f) ->
   slave_step s (frame_spec h pdu) =
     (slave_store (fst (slave_process s h pdu)) (Some (fcbit_fcb f)) (snd (slave_process s h pdu)),
      snd (slave_process s h pdu))) /\
  (* FCV=0/FCB=1 (first request): always processed, the stored bit is reset to 1 *)
  (f = FcbFirst ->
   slave_step s (frame_spec h pdu) =
     (slave_store (fst (slave_process s h pdu)) (Some true) (snd (slave_process s h pdu)),
      snd (slave_process s h pdu))).
Proof.
  intros Hs Hwf Hl Hfc Hrq Hda.
  pose proof (slave_step_request s h pdu f rq Hs Hwf Hl Hfc Hrq Hda) as H.
  split; [|split].
  - intros Hv Hb. rewrite H. unfold fresh. rewrite Hv, Hb, eqb_reflx. reflexivity.
  - intros Hv Hb. rewrite H. unfold fresh, stored. rewrite Hv.
    destruct (sl_fcb s) as [b|] eqn:Hsf.
    + destruct (Bool.eqb b (fcbit_fcb f)) eqn:He.
      * apply eqb_prop in He. subst b. now elim Hb.
      * cbn [negb orb]. destruct (slave_process s h pdu). reflexivity.
    + cbn [negb orb]. destruct (slave_process s h pdu). reflexivity.
  - intros ->. rewrite H. unfold fresh, stored. cbn [fcbit_fcv fcbit_fcb negb orb].
    destruct (slave_process s h pdu). reflexivity.
Qed.

Lemma is_send_live_req pa op p :
  pe_state p <> PsOffline ->
  (pe_state p = PsWaitForParam -> o_user_prm (pe_opts p) <> None) ->
  (pe_state p = PsWaitForConfig -> o_config (pe_opts p) <> None) ->
  exists h pdu, live_req pa op p = PtxSend h pdu /\ h_da h = pe_addr p /\
                exists rq, h_fc h = FcRequest (pe_fcb p) rq.
Proof.
  intros Hl Hu Hc. unfold live_req.
  destruct (pe_state p); try (now elim Hl).
  - destruct (o_user_prm (pe_opts p)); [|now elim (Hu eq_refl)]. do 2 eexists. split; [reflexivity|]. split; [reflexivity|eexists; reflexivity].
  - destruct (o_config (pe_opts p)); [|now elim (Hc eq_refl)]. do 2 eexists. split; [reflexivity|]. split; [reflexivity|eexists; reflexivity].
  - do 2 eexists. split; [reflexivity|]. split; [reflexivity|eexists; reflexivity].
  - destruct (pe_diag_in_flight p); do 2 eexists; (split; [reflexivity|]); (split; [reflexivity|eexists; reflexivity]).
  - destruct (pe_diag_in_flight p); do 2 eexists; (split; [reflexivity|]); (split; [reflexivity|eexists; reflexivity]).
Qed.

Lemma tx_live_step pa op p h pdu :
  op <> OpStop -> pe_state p <> PsOffline -> pe_retry p <= p_max_retry pa -> p_max_retry pa < 255 ->
  live_req pa op (latch p) = PtxSend h pdu ->
  p_transmit pa op p = Ok (set_retry (latch p) (pe_retry p + 1), PtxSend h pdu).
Proof.
  intros Hop Hl Hr HM Hq. unfold p_transmit. rewrite (opstate_eqb_stop op Hop), transmit_select_eq, Hq.
  replace (dp_retry_exhausted (pe_retry p) (p_max_retry pa)) with false
    by (symmetry; apply Z.ltb_ge; exact Hr).
  replace (is_live p) with true by (unfold is_live; destruct (pe_state p); try reflexivity; now elim Hl).
  cbn [orb]. destruct (latch_frame p) as (_ & _ & -> & _).
  replace (255 <=? pe_retry p) with false by (symmetry; apply Z.leb_gt; lia). reflexivity.
Qed.

Lemma latch_idem_pos p : pe_retry p <> 0 -> latch p = p.
Proof.
  intro H. unfold latch. destruct (pe_state p); try reflexivity;
    (destruct (Z.eqb_spec (pe_retry p) 0); [now elim H|reflexivity]).
Qed.

Lemma tx_silent_pos pa op h pdu : op <> OpStop -> p_max_retry pa < 255 -> forall n p,
  pe_state p <> PsOffline -> live_req pa op p = PtxSend h pdu ->
  1 <= pe_retry p -> pe_retry p + Z.of_nat n = p_max_retry pa + 1 ->
  tx_silent pa op n p = Ok (set_retry p (p_max_retry pa + 1), repeat (PtxSend h pdu) n).
Proof.
  intros Hop HM. induction n as [|n IH]; intros p Hl Hq Hr Hn.
  - cbn [tx_silent repeat]. replace (p_max_retry pa + 1) with (pe_retry p) by lia. destruct p; reflexivity.
  - cbn [tx_silent]. rewrite (tx_live_step pa op p h pdu Hop Hl); rewrite ?(latch_idem_pos p); try assumption; try lia.
    cbn [bind]. rewrite (IH (set_retry p (pe_retry p + 1))); try assumption; cbn [pe_retry set_retry]; try lia.
    reflexivity.
Qed.

Theorem silent_goes_offline pa op p :
  op <> OpStop -> 0 <= p_max_retry pa < 255 -> pe_state p <> PsOffline ->
  (pe_state p = PsWaitForParam -> o_user_prm (pe_opts p) <> None) ->
  (pe_state p = PsWaitForConfig -> o_config (pe_opts p) <> None) ->
  0 <= pe_retry p <= p_max_retry pa ->
  let n := Z.to_nat (p_max_retry pa + 1 - pe_retry p) in
  exists p' h pdu,
    tx_silent pa op n p = Ok (p', repeat (PtxSend h pdu) n) /\
    h_da h = pe_addr p /\ (exists rq, h_fc h = FcRequest (pe_fcb p) rq) /\
    pe_state p' = pe_state p /\ pe_retry p' = p_max_retry pa + 1 /\
    exists p'', p_transmit pa op p' = Ok (p'', PtxSkip (Some EvOffline)) /\ is_live p'' = false /\
                pe_fcb p'' = FcbFirst.
Proof.
  intros Hop HM Hl Hu Hc Hr n.
  destruct (latch_frame p) as (La & Ls & _ & Lf & _ & _ & Lo).
  destruct (is_send_live_req pa op (latch p)) as (h & pdu & Hq & Hda & Hfc); rewrite ?Ls, ?Lo; try assumption.
  (* the first turn latches the kind of request, the others repeat it *)
  replace n with (S (Z.to_nat (p_max_retry pa - pe_retry p))) by lia.
  cbn [tx_silent]. rewrite (tx_live_step pa op p h pdu) by (try assumption; lia). cbn [bind].
  rewrite (tx_silent_pos pa op h pdu Hop (proj2 HM)); cbn [pe_state pe_retry set_retry]; rewrite ?Ls; try assumption; try lia.
  cbn [bind repeat]. do 3 eexists. split; [reflexivity|].
  split; [congruence|]. split; [rewrite <- Lf; exact Hfc|]. split; [exact Ls|]. split; [reflexivity|].
  destruct (offline_declared pa op (set_retry (set_retry (latch p) (pe_retry p + 1)) (p_max_retry pa + 1)) Hop)
    as (p'' & H1 & H2 & H3 & _); [apply Z.ltb_lt; cbn; lia|].
  exists p''. repeat split; assumption.
Qed.

(* C14History.agree is the same relation with the sharper bound pe_retry <= 1 that the master's own histories
   keep; here the bound is off_inv's max_retry, which every state of a joint run satisfies *)
Lemma fits_spec l p : life_fits l p <->
  match pe_state p with
  | PsOffline => l = LOff
  | PsPreDataExchange | PsDataExchange => l = LCfg
  | _ => l <> LOff
  end.
Proof.
  unfold life_fits. destruct (pe_state p); intuition congruence.
Qed.

Lemma life_intro pa l l' ev q : life_run l (evl ev) = Some l' ->
  match pe_state q with
  | PsOffline => l' = LOff /\ pe_retry q <= p_max_retry pa
  | PsPreDataExchange | PsDataExchange => l' = LCfg
  | _ => l' <> LOff
  end ->
  exists l', life_run l (evl ev) = Some l' /\ life_fits l' q /\ off_inv pa q.
Proof.
  intros Hr H. exists l'. split; [exact Hr|]. rewrite fits_spec. unfold off_inv.
  destruct (pe_state q); try (split; [exact H|discriminate]). destruct H. split; auto.
Qed.

(* the peripheral's turn: the only event is Offline, and only from a live state *)
Lemma tx_life pa op p p1 r l :
  1 <= p_max_retry pa -> p_transmit pa op p = Ok (p1, r) -> off_inv pa p -> life_fits l p ->
  exists l', life_run l (tx_events r) = Some l' /\ life_fits l' p1 /\ off_inv pa p1.
Proof.
  intros HM H Hoff Hfit. apply p_transmit_inv in H. destruct H as [_ T].
  apply fits_spec in Hfit. unfold off_inv in Hoff.
  destruct T as [Hex|q h pdu _ R _|q _ I].
  - (* the retries are used up: not in Offline, where the counter stays within the limit *)
    apply Z.ltb_lt in Hex. apply (life_intro pa l LOff (Some EvOffline)); [|split; [reflexivity|cbn; lia]].
    destruct (pe_state p), l; try reflexivity; try discriminate Hfit; try (now elim Hfit). specialize (Hoff eq_refl). lia.
  - (* a request: an Offline peripheral only sends with its counter at 0 *)
    apply (life_intro pa l l None); [reflexivity|].
    inversion R as [Hs Hr|u Hs _|c Hs _|Hs|[Hs|Hs] _|[Hs|Hs] _]; subst; cbn; rewrite ?Hs in *; try exact Hfit.
    split; [exact Hfit|lia].
  - apply (life_intro pa l l None); [reflexivity|].
    destruct I as [Hs _|Hs _|Hs _]; cbn; rewrite Hs in *; try exact Hfit. split; [exact Hfit|lia].
Qed.

Lemma validate_outcome_cases flags :
  In (validate_outcome flags) [(PsOffline, Some EvParameterError); (PsOffline, Some EvConfigError);
                               (PsWaitForParam, None); (PsPreDataExchange, Some EvConfigured); (PsValidateConfig, None)].
Proof. unfold validate_outcome. repeat (destruct (flags_contains flags _); [simpl; tauto|]). simpl; tauto. Qed.

(* a reply: Online from Offline; Configured / errors / nothing from the bring-up states; DataExchanged and
   Diagnostics only in (Pre)DataExchange *)
Lemma rx_life pa p t p1 ev l :
  0 <= p_max_retry pa -> p_receive_reply p t = Ok (p1, ev) -> off_inv pa p -> life_fits l p ->
  exists l', life_run l (evl ev) = Some l' /\ life_fits l' p1 /\ off_inv pa p1.
Proof.
  intros HM H Hoff Hfit. apply p_receive_reply_inv in H.
  destruct H as [_|f di x Hst _|f Hst _ _|f di x Hst _|f di x Hx _ _|p0 ev f Hx _ Hd _].
  - exists l. split; [reflexivity|]. split; assumption.
  - apply fits_spec in Hfit. rewrite Hst in Hfit. subst l. apply (life_intro pa _ LOn); [reflexivity|discriminate].
  - apply fits_spec in Hfit. apply (life_intro pa _ l); [reflexivity|]. destruct Hst as [E|E]; rewrite E in Hfit |- *; exact Hfit.
  - apply fits_spec in Hfit. rewrite Hst in Hfit. cbn [evl].
    destruct (validate_outcome_cases (d_flags di)) as [E|[E|[E|[E|[E|[]]]]]]; rewrite <- E; cbn [fst snd].
    1,2: apply (life_intro pa _ LOff); [destruct l; [now elim Hfit|reflexivity..]|split; [reflexivity|exact HM]].
    2: apply (life_intro pa _ LCfg); [destruct l; [now elim Hfit|reflexivity..]|reflexivity].
    all: apply (life_intro pa _ l); [reflexivity|exact Hfit].
  - apply fits_spec in Hfit. 
    assert (l = LCfg) by (destruct Hx as [E|E]; rewrite E in Hfit; exact Hfit). subst l.
    apply (life_intro pa _ LCfg); [reflexivity|]. cbv zeta.
    destruct (flags_contains _ _); cbn [pe_state set_state set_diag_needed set_retry set_diag set_fcb]; [discriminate|].
    destruct Hx as [E|E]; rewrite E; reflexivity.
  - apply fits_spec in Hfit. 
    assert (l = LCfg) by (destruct Hx as [E|E]; rewrite E in Hfit; exact Hfit). subst l.
    destruct (receive_dx_inv _ _ _ _ Hd) as (_ & n & Hi).
    destruct (dx_data p t); destruct Hi as [-> ->]; (apply (life_intro pa _ LCfg); [reflexivity|]);
      cbn [pe_state set_state set_fcb set_retry set_diag_needed]; [reflexivity|].
    destruct (is_rs t); [discriminate|]. destruct Hx as [E|E]; rewrite E; reflexivity.
Qed.

Lemma life_run_app l a b :
  life_run l (a ++ b) = match life_run l a with Some l1 => life_run l1 b | None => None end.
Proof.
  revert l. induction a as [|e a IH]; intro l; [reflexivity|].
  cbn [app life_run]. destruct (l_step l e); [apply IH|reflexivity].
Qed.

Lemma pop_life pa op p o p1 evs l :
  1 <= p_max_retry pa -> pop_step pa op p o = Ok (p1, evs) -> off_inv pa p -> life_fits l p ->
  exists l', life_run l evs = Some l' /\ life_fits l' p1 /\ off_inv pa p1.
Proof.
  intros HM H Hoff Hfit. destruct o as [|t| |q]; cbn [pop_step] in H.
  - unfold bind in H. destruct (p_transmit pa op p) as [[p0 r]| |] eqn:Ht; try discriminate.
    inversion H; subst. exact (tx_life pa op p p1 r l HM Ht Hoff Hfit).
  - unfold bind in H. destruct (p_receive_reply p t) as [[p0 ev]| |] eqn:Hr; try discriminate.
    inversion H; subst. apply (rx_life pa p t p1 ev l); try assumption. lia.
  - inversion H; subst. exists l. split; [reflexivity|]. split; [exact Hfit|exact Hoff].
  - inversion H; subst. exists l. split; [reflexivity|]. split; [exact Hfit|exact Hoff].
Qed.

(* C07_online_again, history form: over EVERY history of turns, replies (any telegram), timeouts and user calls
   the events handed out follow the life-cycle automaton *)
Theorem life_history pa op : 1 <= p_max_retry pa -> forall ops p l p' evs,
  run_pops pa op p ops = Ok (p', evs) -> off_inv pa p -> life_fits l p ->
  exists l', life_run l evs = Some l' /\ life_fits l' p' /\ off_inv pa p'.
Proof.
  intros HM. induction ops as [|o ops IH]; intros p l p' evs H Hoff Hfit.
  - inversion H; subst. exists l. split; [reflexivity|]. split; assumption.
  - cbn [run_pops] in H. unfold bind in H.
    destruct (pop_step pa op p o) as [[p1 e1]| |] eqn:H1; try discriminate.
    destruct (run_pops pa op p1 ops) as [[p2 e2]| |] eqn:H2; try discriminate.
    inversion H; subst.
    destruct (pop_life pa op p o p1 e1 l HM H1 Hoff Hfit) as (l1 & R1 & F1 & O1).
    destruct (IH p1 l1 p' e2 H2 O1 F1) as (l2 & R2 & F2 & O2).
    exists l2. split; [rewrite life_run_app, R1; exact R2|]. split; assumption.
Qed.

Lemma life_reaches_cfg : forall evs l, life_run l evs = Some LCfg ->
  match l with
  | LCfg => True
  | LOn => exists b c, evs = b ++ EvConfigured :: c
  | LOff => exists a b c, evs = a ++ EvOnline :: b ++ EvConfigured :: c
  end.
Proof.
  induction evs as [|e r IH]; intros l H.
  - cbn in H. inversion H; subst. exact I.
  - cbn [life_run] in H. destruct (l_step l e) as [l1|] eqn:Hs; [|discriminate].
    specialize (IH l1 H).
    destruct l; [| |exact I].
    + destruct e; try discriminate. inversion Hs; subst. destruct IH as (b & c & ->).
      exists [], b, c. reflexivity.
    + destruct e; try discriminate; inversion Hs; subst; [exists [], r; reflexivity|..].
      (* the three events that lead back to Off *)
      all: destruct IH as (a & b & c & ->); eexists (_ :: a ++ EvOnline :: b), c; cbn [app]; rewrite <- app_assoc; reflexivity.
Qed.

Lemma dx_needs_online_configured a b l :
  life_run LOff (a ++ EvDataExchanged :: b) = Some l ->
  exists a1 a2 a3, a = a1 ++ EvOnline :: a2 ++ EvConfigured :: a3.
Proof.
  rewrite life_run_app. destruct (life_run LOff a) as [l1|] eqn:Ha; [|discriminate].
  cbn [life_run]. destruct l1; try discriminate. intros _.
  exact (life_reaches_cfg a LOff Ha).
Qed.

(* the joint run is one particular history *)
Lemma run_pops_app pa op a : forall p b,
  run_pops pa op p (a ++ b) =
    (let* (p1, e1) := run_pops pa op p a in let* (p2, e2) := run_pops pa op p1 b in Ok (p2, e1 ++ e2)).
Proof.
  induction a as [|o a IH]; intros p b.
  - cbn [app run_pops bind]. destruct (run_pops pa op p b) as [[p2 e2]| |]; reflexivity.
  - cbn [app run_pops]. destruct (pop_step pa op p o) as [[p1 e1]| |]; cbn [bind]; try reflexivity.
    rewrite IH. destruct (run_pops pa op p1 a) as [[p2 e2]| |]; cbn [bind]; try reflexivity.
    destruct (run_pops pa op p2 b) as [[p3 e3]| |]; cbn [bind]; try reflexivity.
    rewrite app_assoc. reflexivity.
Qed.

Lemma joint_cycle_pops pa op p s p' s' evs :
  joint_cycle pa op (p, s) = Ok ((p', s'), evs) -> exists ops, run_pops pa op p ops = Ok (p', evs).
Proof.
  unfold joint_cycle. unfold bind at 1. destruct (p_transmit pa op p) as [[p1 r]| |] eqn:Ht; try discriminate.
  destruct r as [h pdu|ev].
  - destruct (slave_step s (frame_spec h pdu)) as [s1 reply].
    destruct (deliver (p_address pa) (pe_addr p) reply) as [t|].
    + unfold bind. destruct (p_receive_reply p1 t) as [[p2 ev]| |] eqn:Hr; try discriminate.
      intro H. inversion H; subst. exists [PopTx; PopRx t].
      cbn [run_pops pop_step]. rewrite Ht. cbn [bind]. rewrite Hr. cbn [bind tx_events app].
      rewrite app_nil_r. reflexivity.
    + intro H. inversion H; subst. exists [PopTx]. cbn [run_pops pop_step]. rewrite Ht. reflexivity.
  - intro H. inversion H; subst. exists [PopTx]. cbn [run_pops pop_step]. rewrite Ht. cbn [bind tx_events].
    rewrite app_nil_r. destruct ev; reflexivity.
Qed.

Lemma joint_run_pops pa op : forall n p s p' s' evs,
  joint_run pa op n (p, s) = Ok ((p', s'), evs) -> exists ops, run_pops pa op p ops = Ok (p', evs).
Proof.
  induction n as [|n IH]; intros p s p' s' evs H.
  - inversion H; subst. exists []. reflexivity.
  - cbn [joint_run] in H. unfold bind in H.
    destruct (joint_cycle pa op (p, s)) as [[[p1 s1] e1]| |] eqn:H1; try discriminate.
    destruct (joint_run pa op n (p1, s1)) as [[[p2 s2] e2]| |] eqn:H2; try discriminate.
    inversion H; subst.
    destruct (joint_cycle_pops pa op p s p1 s1 e1 H1) as (o1 & R1).
    destruct (IH p1 s1 p' s' e2 H2) as (o2 & R2).
    exists (o1 ++ o2). rewrite run_pops_app, R1. cbn [bind]. rewrite R2. reflexivity.
Qed.

(* C07_online_again, joint form: a peripheral reported Offline whose device answers again is in data exchange
   within the bound, and on the way it was reported Online and then Configured; the whole event sequence
   is accepted by the life-cycle automaton from Off (so no DataExchanged comes before them) *)
Theorem online_again pa op p s :
  jinv pa p s -> op <> OpStop -> pe_state p = PsOffline -> pe_retry p <= p_max_retry pa ->
  exists k st' evs, (k <= c07_cycles (p_max_retry pa))%nat /\
    joint_run pa op k (p, s) = Ok (st', evs) /\ in_dx st' /\
    life_run LOff evs = Some LCfg /\
    exists a b c, evs = a ++ EvOnline :: b ++ EvConfigured :: c.
Proof.
  intros J Hop Hst Hr.
  assert (Hns : ~ f15_suspect (p, s)).
  { intros [_ [D|[D|[D|[D _]]]]]; rewrite Hst in D; discriminate. }
  destruct (recovery_explicit pa op p s J Hop Hns) as (k & Hk & Hall).
  destruct (Hall k (le_n k)) as ([p' s'] & evs & Hrun & Hdx).
  exists k, (p', s'), evs. split; [exact Hk|]. split; [exact Hrun|]. split; [exact Hdx|].
  destruct (joint_run_pops pa op k p s p' s' evs Hrun) as (ops & Hops).
  assert (HM : 1 <= p_max_retry pa) by (destruct (ji_M _ _ _ J); assumption).
  assert (Hfit : life_fits LOff p).
  { split; [split; [intros _; exact Hst|reflexivity]|intros [D|D]; rewrite Hst in D; discriminate]. }
  destruct (life_history pa op HM ops p LOff p' evs Hops (fun _ => Hr) Hfit) as (l' & Hl & [_ F2] & _).
  destruct Hdx as [D _]. cbn [fst] in D.
  assert (l' = LCfg) by (apply F2; right; exact D). subst l'.
  split; [exact Hl|]. exact (life_reaches_cfg evs LOff Hl).
Qed.

(* stated as C07_bound_within_monitor has it; the hypothesis is not needed *)
Lemma bound_within_monitor : forall max_retry, 0 <= max_retry ->
  c07_cycles max_retry = (Z.to_nat max_retry + 11)%nat /\ (c07_cycles max_retry <= c07_bound max_retry)%nat.
Proof. intros m _. split; [reflexivity|]. unfold c07_cycles, c07_bound, c07_units. lia. Qed.
