(* C08: frame-count-bit and retry discipline, history theorems.
   Everything here is read from DpHistory.history_new: in every history of a peripheral each event of the wire
   trace satisfies `ev_ok` for the monitor state of the events before it.  This file turns the monitor state
   into explicit statements about the trace:
     tr = pre ++ WReq h1 pdu1 :: mid ++ WReq h2 pdu2 :: post   with `quiet mid` (no request, no Offline event
   in mid) are two CONSECUTIVE requests; `answered sv mid` says a reply in mid is accepted (the standard's view
   DpOracle.reply_accepted) for service sv. *)
From PB Require Import Peripheral DpOracle DpStepProofs DpHistory DpMaster DpMasterHistory.

Definition is_req (e : wev) : bool := match e with WReq _ _ => true | _ => false end.
Definition is_offline (e : wev) : bool := match e with WEvent EvOffline => true | _ => false end.

Definition quiet (mid : list wev) : Prop := forall e, In e mid -> is_req e = false /\ is_offline e = false.

Definition answered (sv : service) (mid : list wev) : bool :=
  existsb (fun e => match e with WReply t _ => reply_accepted sv t | _ => false end) mid.

(* a stretch in which a request of service sv stays unanswered: no accepted reply, no idle turn, no event;
   requests (retransmissions), rejected replies, time-outs and user calls may occur *)
Definition unanswered_seg (sv : service) (mid : list wev) : Prop :=
  forall e, In e mid ->
    match e with
    | WIdle | WEvent _ => False
    | WReply t _ => reply_accepted sv t = false
    | _ => True
    end.

Fixpoint count_req (l : list wev) : Z :=
  match l with
  | [] => 0
  | e :: r => (if is_req e then 1 else 0) + count_req r
  end.

(* the last transmit_telegram turn in l (if any) put a request on the wire *)
Definition turn_open (l : list wev) : bool :=
  fold_left (fun b e => match e with WReq _ _ => true | WIdle | WEvent _ => false | _ => b end) l false.

(* every request in pre was followed by an Offline event: none since start-up / since the last Offline event *)
Definition no_request_since_offline (pre : list wev) : Prop :=
  forall pre1 h1 pdu1 post1, pre = pre1 ++ WReq h1 pdu1 :: post1 -> In (WEvent EvOffline) post1.

Lemma ghost_snoc : forall pre e, ghost_of (pre ++ [e]) = gstep (ghost_of pre) e.
Proof. intros. unfold ghost_of. rewrite fold_left_app. reflexivity. Qed.

Lemma ghost_app : forall a b, ghost_of (a ++ b) = fold_left gstep b (ghost_of a).
Proof. intros. unfold ghost_of. apply fold_left_app. Qed.

Lemma unans_nonneg : forall tr, 0 <= gh_unans (ghost_of tr).
Proof.
  induction tr as [|e tr IH] using rev_ind; [cbn; lia|].
  rewrite ghost_snoc. destruct e as [h pdu| |ev|t ev| |]; cbn [gstep gh_unans]; try lia.
  - destruct ev; cbn; lia.
  - destruct (reply_accepted _ t); cbn; lia.
Qed.

Lemma count_req_app : forall a b, count_req (a ++ b) = count_req a + count_req b.
Proof.
  induction a as [|e a IH]; intro b; cbn [app count_req]; [lia|].
  rewrite IH. destruct (is_req e); lia.
Qed.

Lemma count_req_nonneg : forall l, 0 <= count_req l.
Proof. induction l as [|e l IH]; cbn [count_req]; [lia|]. destruct (is_req e); lia. Qed.

Lemma turn_open_snoc : forall l e,
  turn_open (l ++ [e]) = match e with WReq _ _ => true | WIdle | WEvent _ => false | _ => turn_open l end.
Proof. intros. unfold turn_open. rewrite fold_left_app. reflexivity. Qed.

Lemma reply_accepted_other : forall t, reply_accepted SvOther t = false.
Proof. destruct t; reflexivity. Qed.

(* at start-up and after an Offline event, until the next request: no last request, phase NeedDiag *)
Lemma first_spec : forall pre,
  no_request_since_offline pre ->
  gh_last (ghost_of pre) = None /\ gh_phase (ghost_of pre) = PhNeedDiag.
Proof.
  induction pre as [|e pre IH] using rev_ind; intro Hc; [split; reflexivity|].
  rewrite ghost_snoc.
  destruct (is_offline e) eqn:Hoff.
  { destruct e as [| |[]| | |]; try discriminate Hoff. split; reflexivity. }
  destruct (is_req e) eqn:Hreq.
  { destruct e as [h pdu| | | | |]; try discriminate Hreq. exfalso.
    apply (Hc pre h pdu []). reflexivity. }
  assert (Hpre : no_request_since_offline pre).
  { intros pre1 h1 pdu1 post1 Hx.
    assert (Hin : In (WEvent EvOffline) (post1 ++ [e])).
    { apply (Hc pre1 h1 pdu1). rewrite Hx. rewrite <- app_assoc. reflexivity. }
    apply in_app_or in Hin. destruct Hin as [Hin|[Hin|[]]]; [exact Hin|].
    subst e. discriminate Hoff. }
  destruct (IH Hpre) as (Hl & Hp).
  destruct e as [h pdu| |ev|t ev| |]; try discriminate Hreq; cbn [gstep].
  - split; assumption.
  - destruct ev; try discriminate Hoff; split; assumption.
  - rewrite Hl, reply_accepted_other. cbn [gh_last gh_phase]. split; auto.
  - split; assumption.
  - split; assumption.
Qed.

(* between two consecutive requests the monitor keeps the first one and records whether it was answered *)
Lemma ghost_quiet : forall mid g h,
  gh_last g = Some h -> quiet mid ->
  gh_last (fold_left gstep mid g) = Some h /\
  gh_acc (fold_left gstep mid g) = gh_acc g || answered (classify h) mid.
Proof.
  induction mid as [|e mid IH]; intros g h Hl Hq.
  - cbn. split; [exact Hl|]. rewrite orb_false_r. reflexivity.
  - assert (He : is_req e = false /\ is_offline e = false) by (apply Hq; left; reflexivity).
    assert (Hq' : quiet mid) by (intros e' Hin; apply Hq; right; exact Hin).
    destruct He as (Hreq & Hoff).
    cbn [fold_left answered existsb].
    assert (Hstep : gh_last (gstep g e) = Some h /\
                    gh_acc (gstep g e) = gh_acc g ||
                      match e with WReply t _ => reply_accepted (classify h) t | _ => false end).
    { destruct e as [h' pdu| |ev|t ev| |]; try discriminate Hreq; cbn [gstep].
      - cbn. rewrite orb_false_r. auto.
      - destruct ev; try discriminate Hoff; cbn; rewrite orb_false_r; auto.
      - rewrite Hl. destruct (reply_accepted (classify h) t); cbn; [rewrite orb_true_r|rewrite orb_false_r]; auto.
      - cbn. rewrite orb_false_r. auto.
      - rewrite orb_false_r. auto. }
    destruct Hstep as (Hl1 & Ha1).
    destruct (IH (gstep g e) h Hl1 Hq') as (Hl2 & Ha2).
    split; [exact Hl2|]. rewrite Ha2, Ha1. rewrite orb_assoc. reflexivity.
Qed.

Lemma split_second : forall (pre : list wev) e1 mid e2 post,
  pre ++ e1 :: mid ++ e2 :: post = (pre ++ e1 :: mid) ++ e2 :: post.
Proof. intros. rewrite <- app_assoc. reflexivity. Qed.

Lemma first_request : forall pa a o tr,
  1 <= p_max_retry pa -> history pa a o tr ->
  forall pre h pdu post,
  tr = pre ++ WReq h pdu :: post ->
  no_request_since_offline pre ->
  h = mkHeader a (p_address pa) (Some 60) (Some 62) (FcRequest FcbFirst RqSrdLow) /\ pdu = [] /\
  fc_to_byte (h_fc h) = 108.
Proof.
  intros pa a o tr Hmax Hh pre h pdu post Htr Hc.
  pose proof (history_new pa a o tr Hmax Hh pre (WReq h pdu) post Htr) as Hok.
  destruct (first_spec pre Hc) as (Hl & Hp).
  cbn [ev_ok] in Hok. destruct Hok as (f & Hstd & _ & Hfirst & _ & Hprobe & _).
  specialize (Hfirst Hl). subst f. destruct (Hprobe Hp) as (Hsv & _).
  rewrite Hsv in Hstd. cbn in Hstd. destruct Hstd as (-> & ->). repeat split; reflexivity.
Qed.

(* what the monitor knows when the second of two consecutive requests is sent *)
Lemma consecutive : forall pa a o tr,
  1 <= p_max_retry pa -> history pa a o tr ->
  forall pre h1 pdu1 mid h2 pdu2 post,
  tr = pre ++ WReq h1 pdu1 :: mid ++ WReq h2 pdu2 :: post ->
  quiet mid ->
  exists f2, std_request pa a o f2 (classify h2) h2 pdu2 /\ f2 <> FcbInactive /\
  exists f1 rq1, h_fc h1 = FcRequest f1 rq1 /\
    if answered (classify h1) mid
    then fcbit_fcv f2 = true /\ fcbit_fcb f2 = negb (fcbit_fcb f1)
    else classify h2 = classify h1 /\ h_da h2 = h_da h1 /\
         (h_fc h2 = h_fc h1 \/ (f2 = FcbFirst /\ classify h2 = SvDiag)).
Proof.
  intros pa a o tr Hmax Hh pre h1 pdu1 mid h2 pdu2 post Htr Hq.
  rewrite split_second in Htr.
  pose proof (history_new pa a o tr Hmax Hh _ _ _ Htr) as Hok.
  replace (pre ++ WReq h1 pdu1 :: mid) with ((pre ++ [WReq h1 pdu1]) ++ mid) in Hok
    by (rewrite <- app_assoc; reflexivity).
  rewrite ghost_app, ghost_snoc in Hok.
  set (g1 := gstep (ghost_of pre) (WReq h1 pdu1)) in *.
  assert (Hl1 : gh_last g1 = Some h1) by reflexivity.
  destruct (ghost_quiet mid g1 h1 Hl1 Hq) as (Hl & Ha).
  change (gh_acc g1) with false in Ha. cbn [orb] in Ha.
  cbn [ev_ok] in Hok. destruct Hok as (f2 & Hstd & Hact & _ & Hprev & Hprobe & _).
  exists f2. split; [exact Hstd|]. split; [exact Hact|].
  destruct (Hprev h1 Hl) as (f1 & rq1 & Hfc1 & Hb). exists f1, rq1. split; [exact Hfc1|].
  rewrite Ha in Hb. destruct (answered (classify h1) mid); [exact Hb|].
  destruct Hb as (Hsv & Hda & Hfc). repeat split; try assumption.
  destruct Hfc as [Hfc|(Hp & Hf)]; [left; exact Hfc|right].
  split; [exact Hf|]. apply Hprobe. exact Hp.
Qed.

Lemma toggle_history : forall pa a o tr,
  1 <= p_max_retry pa -> history pa a o tr ->
  forall pre h1 pdu1 mid h2 pdu2 post,
  tr = pre ++ WReq h1 pdu1 :: mid ++ WReq h2 pdu2 :: post ->
  quiet mid ->
  answered (classify h1) mid = true ->
  exists f1 rq1 f2 rq2, h_fc h1 = FcRequest f1 rq1 /\ h_fc h2 = FcRequest f2 rq2 /\
    fcbit_fcv f2 = true /\ fcbit_fcb f2 = negb (fcbit_fcb f1).
Proof.
  intros pa a o tr Hmax Hh pre h1 pdu1 mid h2 pdu2 post Htr Hq Hans.
  destruct (consecutive pa a o tr Hmax Hh _ _ _ _ _ _ _ Htr Hq) as (f2 & Hstd & _ & f1 & rq1 & Hfc1 & Hb).
  rewrite Hans in Hb. destruct (std_request_classify _ _ _ _ _ _ _ Hstd) as (_ & _ & _ & Hfc2).
  exists f1, rq1, f2, (sv_req (classify h2)). repeat split; try assumption; apply Hb.
Qed.

Lemma same_bit_only_retransmission : forall pa a o tr,
  1 <= p_max_retry pa -> history pa a o tr ->
  forall pre h1 pdu1 mid h2 pdu2 post,
  tr = pre ++ WReq h1 pdu1 :: mid ++ WReq h2 pdu2 :: post ->
  quiet mid ->
  forall f1 rq1 f2 rq2,
  h_fc h1 = FcRequest f1 rq1 -> h_fc h2 = FcRequest f2 rq2 ->
  fcbit_fcb f1 = fcbit_fcb f2 ->
  answered (classify h1) mid = false /\
  classify h2 = classify h1 /\ h_da h2 = h_da h1 /\
  (h_fc h2 = h_fc h1 \/ (f2 = FcbFirst /\ classify h2 = SvDiag)).
Proof.
  intros pa a o tr Hmax Hh pre h1 pdu1 mid h2 pdu2 post Htr Hq f1 rq1 f2 rq2 Hfc1 Hfc2 Hsame.
  destruct (consecutive pa a o tr Hmax Hh _ _ _ _ _ _ _ Htr Hq) as (f2' & Hstd & _ & f1' & rq1' & Hfc1' & Hb).
  destruct (std_request_classify _ _ _ _ _ _ _ Hstd) as (_ & _ & _ & Hfc2').
  rewrite Hfc1 in Hfc1'. inversion Hfc1'; subst f1' rq1'.
  rewrite Hfc2 in Hfc2'. inversion Hfc2'; subst f2'.
  destruct (answered (classify h1) mid).
  - exfalso. destruct Hb as (_ & Hb). rewrite <- Hsame in Hb. destruct (fcbit_fcb f1); discriminate Hb.
  - split; [reflexivity|exact Hb].
Qed.

(* while a request stays unanswered every further request is a retransmission of the same service and the
   monitor counts the transmissions *)
Lemma unanswered_state : forall pa a o tr,
  1 <= p_max_retry pa -> history pa a o tr ->
  forall pre h pdu mid post,
  tr = pre ++ WReq h pdu :: mid ++ post ->
  unanswered_seg (classify h) mid ->
  let g := ghost_of (pre ++ WReq h pdu :: mid) in
  (exists h', gh_last g = Some h' /\ classify h' = classify h) /\ gh_acc g = false /\
  gh_unans g = gh_unans (ghost_of pre) + 1 + count_req mid.
Proof.
  intros pa a o tr Hmax Hh pre h pdu mid.
  induction mid as [|e mid IH] using rev_ind; intros post Htr Hun.
  - cbn zeta. rewrite ghost_snoc. cbn. split; [exists h; auto|]. split; [reflexivity|lia].
  - assert (Hun' : unanswered_seg (classify h) mid).
    { intros e' Hin. apply Hun. apply in_or_app. left. exact Hin. }
    assert (He : match e with
                 | WIdle | WEvent _ => False
                 | WReply t _ => reply_accepted (classify h) t = false
                 | _ => True
                 end) by (apply Hun; apply in_or_app; right; left; reflexivity).
    assert (Htr' : tr = pre ++ WReq h pdu :: mid ++ e :: post).
    { rewrite Htr. rewrite <- app_assoc. reflexivity. }
    specialize (IH (e :: post) Htr' Hun'). cbn zeta in IH.
    destruct IH as ((h' & Hl & Hcl) & Hacc & Hu).
    cbn zeta.
    replace (pre ++ WReq h pdu :: mid ++ [e]) with ((pre ++ WReq h pdu :: mid) ++ [e])
      by (rewrite <- app_assoc; reflexivity).
    rewrite ghost_snoc. rewrite count_req_app.
    set (g := ghost_of (pre ++ WReq h pdu :: mid)) in *.
    destruct e as [h2 pdu2| |ev|t ev| |]; try contradiction; cbn [gstep gh_last gh_acc gh_unans count_req is_req].
    + (* a retransmission *)
      rewrite split_second in Htr'.
      pose proof (history_new pa a o tr Hmax Hh _ _ _ Htr') as Hok. fold g in Hok.
      cbn [ev_ok] in Hok. destruct Hok as (f2 & _ & _ & _ & Hprev & _).
      destruct (Hprev h' Hl) as (f1 & rq1 & _ & Hb). rewrite Hacc in Hb. destruct Hb as (Hsv & _).
      split; [exists h2; split; [reflexivity|congruence]|]. split; [reflexivity|lia].
    + rewrite Hl, Hcl, He. cbn. split; [exists h'; auto|]. split; [exact Hacc|lia].
    + split; [exists h'; auto|]. split; [exact Hacc|lia].
    + split; [exists h'; auto|]. split; [exact Hacc|lia].
Qed.

Lemma retry_bound : forall pa a o tr,
  1 <= p_max_retry pa -> history pa a o tr ->
  forall pre h pdu mid post,
  tr = pre ++ WReq h pdu :: mid ++ post ->
  unanswered_seg (classify h) mid ->
  1 + count_req mid <= 1 + p_max_retry pa.
Proof.
  intros pa a o tr Hmax Hh pre h pdu mid.
  induction mid as [|e mid IH] using rev_ind; intros post Htr Hun; [cbn [count_req]; lia|].
  assert (Hun' : unanswered_seg (classify h) mid).
  { intros e' Hin. apply Hun. apply in_or_app. left. exact Hin. }
  assert (Htr' : tr = pre ++ WReq h pdu :: mid ++ e :: post).
  { rewrite Htr. rewrite <- app_assoc. reflexivity. }
  specialize (IH (e :: post) Htr' Hun').
  rewrite count_req_app. cbn [count_req].
  destruct (is_req e) eqn:Hreq; [|lia].
  destruct e as [h2 pdu2| | | | |]; try discriminate Hreq.
  destruct (unanswered_state pa a o tr Hmax Hh pre h pdu mid _ Htr' Hun') as (_ & _ & Hu).
  rewrite split_second in Htr'.
  pose proof (history_new pa a o tr Hmax Hh _ _ _ Htr') as Hok.
  cbn [ev_ok] in Hok. destruct Hok as (f2 & _ & _ & _ & _ & _ & Hb & _).
  pose proof (unans_nonneg pre). lia.
Qed.

(* the monitor's count of unanswered transmissions, made explicit: n > 0 means the trace ends with a request
   followed by an unanswered stretch holding n - 1 further transmissions *)
Lemma unans_witness : forall pa a o tr,
  1 <= p_max_retry pa -> history pa a o tr ->
  forall pre post, tr = pre ++ post ->
  0 < gh_unans (ghost_of pre) ->
  exists pre0 h pdu mid, pre = pre0 ++ WReq h pdu :: mid /\ unanswered_seg (classify h) mid /\
    1 + count_req mid = gh_unans (ghost_of pre) /\ gh_unans (ghost_of pre0) = 0.
Proof.
  intros pa a o tr Hmax Hh pre.
  induction pre as [|e pre IH] using rev_ind; intros post Htr Hpos; [cbn in Hpos; lia|].
  assert (Htr' : tr = pre ++ e :: post) by (rewrite Htr, <- app_assoc; reflexivity).
  specialize (IH (e :: post) Htr').
  rewrite ghost_snoc in Hpos |- *.
  (* extend the stretch of the induction hypothesis by an event that leaves the monitor alone *)
  assert (Hext : forall ok : match e with
                             | WIdle | WEvent _ | WReq _ _ => False
                             | WReply t _ => forall sv, (exists h', gh_last (ghost_of pre) = Some h' /\ classify h' = sv) ->
                                                        reply_accepted sv t = false
                             | _ => True
                             end,
                 gh_unans (gstep (ghost_of pre) e) = gh_unans (ghost_of pre) ->
                 0 < gh_unans (ghost_of pre) ->
                 exists pre0 h pdu mid, pre ++ [e] = pre0 ++ WReq h pdu :: mid /\ unanswered_seg (classify h) mid /\
                   1 + count_req mid = gh_unans (gstep (ghost_of pre) e) /\ gh_unans (ghost_of pre0) = 0).
  { intros ok Hsame Hp. destruct (IH Hp) as (pre0 & h & pdu & mid & Hpre & Hun & Hcnt & Hz).
    exists pre0, h, pdu, (mid ++ [e]). split; [rewrite Hpre, <- app_assoc; reflexivity|].
    split.
    - intros e' Hin. apply in_app_or in Hin. destruct Hin as [Hin|[Hin|[]]]; [apply Hun; exact Hin|].
      subst e'. destruct e as [| | |t ev| |]; try contradiction; auto.
      apply ok.
      assert (Htr0 : tr = pre0 ++ WReq h pdu :: mid ++ WReply t ev :: post) by (rewrite Htr', Hpre, <- app_assoc; reflexivity).
      destruct (unanswered_state pa a o tr Hmax Hh pre0 h pdu mid _ Htr0 Hun) as (Hx & _).
      rewrite <- Hpre in Hx. exact Hx.
    - split; [|exact Hz]. rewrite count_req_app. rewrite Hsame.
      destruct e as [| | | | |]; try contradiction; cbn [count_req is_req]; lia. }
  destruct e as [h2 pdu2| |ev|t ev| |]; cbn [gstep gh_unans] in Hpos |- *.
  - (* a request *)
    pose proof (unans_nonneg pre) as Hnn.
    destruct (Z.eq_dec (gh_unans (ghost_of pre)) 0) as [Hz|Hnz].
    + exists pre, h2, pdu2, []. split; [reflexivity|]. split; [intros e' []|]. split; [cbn [count_req]; lia|exact Hz].
    + destruct IH as (pre0 & h & pdu & mid & Hpre & Hun & Hcnt & Hz); [lia|].
      exists pre0, h, pdu, (mid ++ [WReq h2 pdu2]). split; [rewrite Hpre, <- app_assoc; reflexivity|].
      split.
      * intros e' Hin. apply in_app_or in Hin. destruct Hin as [Hin|[Hin|[]]]; [apply Hun; exact Hin|].
        subst e'. exact Logic.I.
      * split; [|exact Hz]. rewrite count_req_app. cbn [count_req is_req]. lia.
  - lia.
  - destruct ev; cbn [gh_unans] in Hpos; lia.
  - (* a reply *)
    destruct (reply_accepted
                match gh_last (ghost_of pre) with Some h => classify h | None => SvOther end t) eqn:Hacc;
      cbn [gh_unans] in Hpos |- *; [lia|].
    assert (Hok : forall sv, (exists h', gh_last (ghost_of pre) = Some h' /\ classify h' = sv) ->
                             reply_accepted sv t = false).
    { intros sv (h' & Hl & Hcl). rewrite Hl, Hcl in Hacc. exact Hacc. }
    pose proof (Hext Hok) as Hx. cbn [gstep] in Hx. rewrite Hacc in Hx. cbn [gh_unans] in Hx.
    apply Hx; [reflexivity|exact Hpos].
  - apply (Hext Logic.I); [reflexivity|exact Hpos].
  - apply (Hext Logic.I); [reflexivity|exact Hpos].
Qed.

(* events raised by transmit_telegram: only Offline, only while live, exactly when the retries ran out:
   the trace ends with a request that stayed unanswered through exactly 1 + max_retry transmissions *)
Lemma offline_when_exhausted : forall pa a o tr,
  1 <= p_max_retry pa -> history pa a o tr ->
  forall pre ev post,
  tr = pre ++ WEvent ev :: post ->
  ev = EvOffline /\
  exists pre0 h pdu mid, pre = pre0 ++ WReq h pdu :: mid /\ unanswered_seg (classify h) mid /\
    1 + count_req mid = 1 + p_max_retry pa.
Proof.
  intros pa a o tr Hmax Hh pre ev post Htr.
  pose proof (history_new pa a o tr Hmax Hh _ _ _ Htr) as Hok.
  cbn [ev_ok] in Hok. destruct Hok as (-> & _ & Hu). split; [reflexivity|].
  destruct (unans_witness pa a o tr Hmax Hh pre _ Htr) as (pre0 & h & pdu & mid & Hpre & Hun & Hcnt & _); [lia|].
  exists pre0, h, pdu, mid. repeat split; try assumption. lia.
Qed.

(* ... and conversely: once a request went unanswered through 1 + max_retry transmissions the next turn of
   transmit_telegram raises Offline: it neither sends nor stays idle *)
Lemma exhausted_then_offline : forall pa a o tr,
  1 <= p_max_retry pa -> history pa a o tr ->
  forall pre h pdu mid e post,
  tr = pre ++ WReq h pdu :: mid ++ e :: post ->
  unanswered_seg (classify h) mid ->
  1 + count_req mid = 1 + p_max_retry pa ->
  e <> WIdle /\ (forall h2 pdu2, e <> WReq h2 pdu2).
Proof.
  intros pa a o tr Hmax Hh pre h pdu mid e post Htr Hun Hcnt.
  destruct (unanswered_state pa a o tr Hmax Hh pre h pdu mid _ Htr Hun) as (_ & _ & Hu).
  rewrite split_second in Htr.
  pose proof (history_new pa a o tr Hmax Hh _ _ _ Htr) as Hok.
  pose proof (unans_nonneg pre).
  split; [|intros h2 pdu2]; intros ->; cbn [ev_ok] in Hok.
  - lia.
  - destruct Hok as (f2 & _ & _ & _ & _ & _ & Hb & _). lia.
Qed.

(* no reply in mid is an acceptable diagnostics reply *)
Definition no_answer (mid : list wev) : Prop :=
  forall t ev, In (WReply t ev) mid -> reply_accepted SvDiag t = false.

(* a request while the monitor is in NeedDiag with nothing accepted: a first Slave_Diag probe, in a fresh turn *)
Lemma probe_request : forall pa a o g h pdu,
  req_ok pa a o g h pdu -> gh_phase g = PhNeedDiag -> gh_acc g = false ->
  (gh_last g = None \/
   exists h', gh_last g = Some h' /\ classify h' = SvDiag /\ h_fc h' = FcRequest FcbFirst RqSrdLow) ->
  h = mkHeader a (p_address pa) (Some 60) (Some 62) (FcRequest FcbFirst RqSrdLow) /\ pdu = [] /\ gh_unans g = 0.
Proof.
  intros pa a o g h pdu (f & Hstd & _ & Hfirst & Hprev & Hprobe & _) Hp Hacc Hl.
  destruct (Hprobe Hp) as (Hsv & Hz). rewrite Hsv in Hstd. destruct Hstd as (Hh & Hpdu).
  split; [|split; assumption]. rewrite Hh. replace f with FcbFirst; [reflexivity|]. symmetry.
  destruct Hl as [Hl|(h' & Hl & Hcl & Hfc')]; [apply Hfirst; exact Hl|].
  destruct (Hprev h' Hl) as (f1 & rq1 & Hfc1 & Hb). rewrite Hacc in Hb.
  destruct Hb as (_ & _ & [Hb|(_ & Hb)]); [|exact Hb].
  rewrite Hh in Hb. cbn in Hb. rewrite Hfc' in Hb. inversion Hb. reflexivity.
Qed.

Lemma probing_state : forall pa a o tr,
  1 <= p_max_retry pa -> history pa a o tr ->
  forall pre mid post,
  tr = pre ++ WEvent EvOffline :: mid ++ post ->
  no_answer mid ->
  let g := ghost_of (pre ++ WEvent EvOffline :: mid) in
  gh_phase g = PhNeedDiag /\ gh_acc g = false /\
  (gh_last g = None \/ exists h', gh_last g = Some h' /\ classify h' = SvDiag /\ h_fc h' = FcRequest FcbFirst RqSrdLow) /\
  gh_unans g = (if turn_open mid then 1 else 0) /\
  (forall e, In e mid -> match e with WEvent _ => False | _ => True end).
Proof.
  intros pa a o tr Hmax Hh pre mid.
  induction mid as [|e mid IH] using rev_ind; intros post Htr Hna.
  - cbn zeta. rewrite ghost_snoc. cbn. repeat split; auto. intros e [].
  - assert (Hna' : no_answer mid).
    { intros t ev Hin. apply (Hna t ev). apply in_or_app. left. exact Hin. }
    assert (Htr' : tr = pre ++ WEvent EvOffline :: mid ++ e :: post).
    { rewrite Htr. rewrite <- app_assoc. reflexivity. }
    specialize (IH (e :: post) Htr' Hna'). cbn zeta in IH.
    destruct IH as (Hp & Hacc & Hl & Hu & Hev).
    pose proof Htr' as Htr2. rewrite split_second in Htr2.
    pose proof (history_new pa a o tr Hmax Hh _ _ _ Htr2) as Hok.
    cbn zeta.
    replace (pre ++ WEvent EvOffline :: mid ++ [e]) with ((pre ++ WEvent EvOffline :: mid) ++ [e])
      by (rewrite <- app_assoc; reflexivity).
    rewrite ghost_snoc, turn_open_snoc.
    set (g := ghost_of (pre ++ WEvent EvOffline :: mid)) in *.
    assert (Hin : forall (P : wev -> Prop), (forall e', In e' mid -> P e') -> P e -> forall e', In e' (mid ++ [e]) -> P e').
    { intros P H1 H2 e' Hi. apply in_app_or in Hi. destruct Hi as [Hi|[Hi|[]]]; [apply H1; exact Hi|subst e'; exact H2]. }
    destruct e as [h2 pdu2| |ev|t ev| |]; cbn [gstep gh_phase gh_last gh_acc gh_unans].
    + (* a probe *)
      destruct (probe_request _ _ _ _ _ _ Hok Hp Hacc Hl) as (Hh2 & _ & Hz).
      repeat split; auto; try lia.
      * right. exists h2. rewrite Hh2. repeat split; reflexivity.
      * apply Hin; [exact Hev|exact Logic.I].
    + repeat split; auto. apply Hin; [exact Hev|exact Logic.I].
    + exfalso. cbn [ev_ok] in Hok. destruct Hok as (_ & Hx & _). apply Hx. exact Hp.
    + (* a reply that is no acceptable diagnostics reply *)
      assert (Hrej : reply_accepted match gh_last g with Some h => classify h | None => SvOther end t = false).
      { destruct Hl as [Hl|(h' & Hl & Hcl & _)]; rewrite Hl; [apply reply_accepted_other|].
        rewrite Hcl. apply (Hna t ev). apply in_or_app. right. left. reflexivity. }
      rewrite Hrej. cbn [gh_phase gh_last gh_acc gh_unans].
      repeat split; auto. apply Hin; [exact Hev|exact Logic.I].
    + repeat split; auto. apply Hin; [exact Hev|exact Logic.I].
    + repeat split; auto. apply Hin; [exact Hev|exact Logic.I].
Qed.

(* after the Offline event, until a diagnostics reply is accepted: no further event; nothing but Slave_Diag
   probes with FCV=0/FCB=1 and no payload; a probe is never repeated in the turn in which it went unanswered
   (the turn before every probe was idle, or the probe is the first one): one probe per DP cycle *)
Lemma offline_then_probes : forall pa a o tr,
  1 <= p_max_retry pa -> history pa a o tr ->
  forall pre mid e post,
  tr = pre ++ WEvent EvOffline :: mid ++ e :: post ->
  no_answer mid ->
  match e with
  | WEvent _ => False
  | WReq h pdu =>
      h = mkHeader a (p_address pa) (Some 60) (Some 62) (FcRequest FcbFirst RqSrdLow) /\ pdu = [] /\
      fc_to_byte (h_fc h) = 108 /\ turn_open mid = false
  | _ => True
  end.
Proof.
  intros pa a o tr Hmax Hh pre mid e post Htr Hna.
  destruct (probing_state pa a o tr Hmax Hh pre mid (e :: post) Htr Hna) as (Hp & Hacc & Hl & Hu & _).
  rewrite split_second in Htr.
  pose proof (history_new pa a o tr Hmax Hh _ _ _ Htr) as Hok.
  destruct e as [h pdu| |ev|t ev| |]; try exact Logic.I.
  - destruct (probe_request _ _ _ _ _ _ Hok Hp Hacc Hl) as (Hhd & Hpdu & Hz).
    split; [exact Hhd|]. split; [exact Hpdu|]. split; [rewrite Hhd; reflexivity|].
    rewrite Hz in Hu. destruct (turn_open mid); [discriminate Hu|reflexivity].
  - cbn [ev_ok] in Hok. destruct Hok as (_ & Hx & _). apply Hx. exact Hp.
Qed.

Lemma first_request_master : forall pa bufsize m0 cs m' outs log,
  1 <= p_max_retry pa ->
  d_run pa bufsize m0 cs [] = Ok (m', outs, log) ->
  contract_m None outs = true ->
  forall k a o i q d, slot m0 k = Some (periph_new a o i q d) ->
  forall pre h pdu post,
  proj k log = pre ++ WReq h pdu :: post ->
  no_request_since_offline pre ->
  h = mkHeader a (p_address pa) (Some 60) (Some 62) (FcRequest FcbFirst RqSrdLow) /\ pdu = [] /\
  fc_to_byte (h_fc h) = 108.
Proof.
  intros pa bufsize m0 cs m' outs log Hm H C k a o i q d Hk.
  apply (first_request pa a o (proj k log) Hm). apply (master_history pa bufsize m0 cs m' outs log H C k a o i q d Hk).
Qed.
