(* Proofs for C09: function codes round-trip, serialisation writes the frame format, and the decoder
   inverts the encoder. *)
From PB Require Import Common Telegram CodecOracle ByteFacts DecodeSpec.

Lemma fc_roundtrip fc : fc_from_byte (fc_to_byte fc) = Some fc.
Proof. destruct fc as [f r|st s]; [destruct f, r|destruct st, s]; reflexivity. Qed.

Lemma all_fcodes_complete fc : In fc all_fcodes.
Proof.
  unfold all_fcodes. apply in_or_app.
  destruct fc as [f r|st s]; [left|right]; apply in_flat_map.
  - exists f. split; [destruct f; cbn; auto|apply in_map; destruct r; cbn; auto 13].
  - exists st. split; [destruct st; cbn; auto|apply in_map; destruct s; cbn; auto 13].
Qed.

Lemma fc_to_byte_range fc : 0 <= fc_to_byte fc < 256.
Proof.
  assert (S : forallb (fun fc => is_byteb (fc_to_byte fc)) all_fcodes = true) by (vm_compute; reflexivity).
  rewrite forallb_forall in S. apply is_byteb_iff, S, all_fcodes_complete.
Qed.

Lemma fc_to_byte_inj a b : fc_to_byte a = fc_to_byte b -> a = b.
Proof.
  intros H. pose proof (fc_roundtrip a) as Ha. pose proof (fc_roundtrip b) as Hb.
  rewrite H in Ha. congruence.
Qed.

Lemma fcode_eqb_eq a b : fcode_eqb a b = true <-> a = b.
Proof.
  unfold fcode_eqb. rewrite Z.eqb_eq. split; [apply fc_to_byte_inj|intros ->; reflexivity].
Qed.

Lemma fc_all_bytes_prop : forall b : Z, 0 <= b < 256 ->
  match fc_from_byte b with
  | None => True
  | Some fc =>
      fc_from_byte (fc_to_byte fc) = Some fc /\
      (fc_to_byte fc = b \/ (fc_to_byte fc = b - 128 /\ Z.land b 64 = 0 /\ 128 <= b))
  end.
Proof.
  intros b Hb.
  assert (S : forallb (fun b => match fc_from_byte b with
                                | None => true
                                | Some fc => (fc_to_byte fc =? b) ||
                                             ((fc_to_byte fc =? b - 128) && (Z.land b 64 =? 0) && (128 <=? b))
                                end) range256 = true) by (vm_compute; reflexivity).
  apply (sweep256 _ S) in Hb. destruct (fc_from_byte b) as [fc|]; [|exact I].
  split; [apply fc_roundtrip|].
  rewrite orb_true_iff, !andb_true_iff, !Z.eqb_eq, Z.leb_le in Hb. tauto.
Qed.

Lemma put_oob buf i v : (length buf <= i)%nat -> put buf i v = Panic SiteIndex.
Proof. intros H. unfold put. destruct (Nat.ltb_spec i (length buf)); [lia|reflexivity]. Qed.

(* The buffer buf0 after its first bytes have been overwritten by w.  The serialiser writes from
   the front, so each put at the cursor = length w appends to w. *)
Definition wr (buf0 w : bytes) : bytes := w ++ skipn (length w) buf0.

Lemma wr_length buf0 w : (length w <= length buf0)%nat -> length (wr buf0 w) = length buf0.
Proof. intros H. unfold wr. rewrite app_length, skipn_length. lia. Qed.

Lemma put_wr buf0 w i v : i = length w -> (i < length buf0)%nat -> put (wr buf0 w) i v = Ok (wr buf0 (w ++ [v])).
Proof.
  intros -> Hl. unfold put. rewrite wr_length by lia.
  destruct (Nat.ltb_spec (length w) (length buf0)) as [_|H]; [|lia].
  unfold wr. rewrite firstn_app_exact by reflexivity.
  rewrite skipn_app, skipn_all2, (skipn_cons_nth buf0 0 (length w) Hl) by lia.
  replace (S (length w) - length w)%nat with 1%nat by lia. cbn [app skipn].
  rewrite app_length, Nat.add_1_r, <- app_assoc. reflexivity.
Qed.

Lemma put_all_wr buf0 vs : forall w i, i = length w -> (i + length vs <= length buf0)%nat ->
  put_all (wr buf0 w) i vs = Ok (wr buf0 (w ++ vs)).
Proof.
  induction vs as [|v vs IH]; intros w i Hi Hl; cbn [put_all].
  - rewrite app_nil_r. reflexivity.
  - cbn [length] in Hl. rewrite put_wr by lia. cbn [bind].
    rewrite IH by (rewrite ?app_length; cbn [length]; lia). rewrite <- app_assoc. reflexivity.
Qed.

Lemma put_sap_wr buf0 w i o : i = length w -> (i + length (sapl o) <= length buf0)%nat ->
  match o with
  | Some d => let* b := put (wr buf0 w) i d in Ok (b, S i)
  | None => Ok (wr buf0 w, i)
  end = Ok (wr buf0 (w ++ sapl o), (i + length (sapl o))%nat).
Proof.
  intros Hi Hl. destruct o as [d|]; cbn [sapl length] in *.
  - rewrite put_wr by lia. cbn [bind]. rewrite Nat.add_1_r. reflexivity.
  - rewrite app_nil_r, Nat.add_0_r. reflexivity.
Qed.

Lemma cks_wr buf0 w k n : (k <= length w)%nat -> n = (length w - k)%nat ->
  firstn n (skipn k (wr buf0 w)) = skipn k w.
Proof.
  intros Hk ->. unfold wr. rewrite skipn_app. replace (k - length w)%nat with 0%nat by lia.
  rewrite skipn_O. apply firstn_app_exact. rewrite skipn_length. reflexivity.
Qed.

Lemma bind_assoc {A B C} (r : res A) (f : A -> res B) (g : B -> res C) :
  bind (bind r f) g = bind r (fun x => bind (f x) g).
Proof. destruct r; reflexivity. Qed.

Lemma wf_headerb_iff h : wf_headerb h = true <-> wf_header h.
Proof.
  unfold wf_headerb, wf_header, is_addr7, wf_sap. rewrite !andb_true_iff, !Z.leb_le, !Z.ltb_lt.
  destruct (h_dsap h), (h_ssap h); rewrite ?is_byteb_iff; intuition.
Qed.

Definition ext_of (o : option Z) : Z := match o with Some _ => 128 | None => 0 end.

(* start delimiter and length bytes of a frame whose body (DA .. last PDU byte) has lb bytes *)
Definition start_bytes (lb : nat) : bytes :=
  if Nat.eqb lb 3 then [SD1] else if Nat.eqb lb 11 then [SD3] else [SD2; Z.of_nat lb; Z.of_nat lb; SD2].

Lemma frame_spec_unfold h pdu :
  frame_spec h pdu = start_bytes (length (frame_body h pdu)) ++ frame_body h pdu ++ [sum8 (frame_body h pdu); ED].
Proof. reflexivity. Qed.

Lemma frame_body_unfold h pdu :
  frame_body h pdu =
  h_da h + ext_of (h_dsap h) :: h_sa h + ext_of (h_ssap h) :: fc_to_byte (h_fc h) ::
  sapl (h_dsap h) ++ sapl (h_ssap h) ++ pdu.
Proof. reflexivity. Qed.

Lemma frame_body_length h pdu : length (frame_body h pdu) = length_byte h (length pdu).
Proof.
  rewrite frame_body_unfold. unfold length_byte. cbn [length]. rewrite !app_length, !sapl_length. lia.
Qed.

Lemma frame_spec_length h pdu : length (frame_spec h pdu) = telegram_len_data h (length pdu).
Proof.
  rewrite frame_spec_unfold, !app_length, frame_body_length. unfold telegram_len_data, start_bytes.
  destruct (Nat.eqb (length_byte h (length pdu)) 3); [cbn [orb length]; lia|].
  destruct (Nat.eqb (length_byte h (length pdu)) 11); cbn [orb length]; lia.
Qed.

Lemma lor_ext a o : 0 <= a < 128 -> Z.lor a (ext_of o) = a + ext_of o.
Proof. intros H. destruct o; [apply lor128, H|cbn [ext_of]; rewrite Z.lor_0_r, Z.add_0_r; reflexivity]. Qed.

(* a side condition about lengths of the written prefix *)
Ltac len := rewrite ?app_length, ?frame_body_length; cbn [length app]; lia.

(* only the two addresses matter: the SAP bytes are written as they are *)
Lemma serialize_data_frame h pdu buf0 :
  is_addr7 (h_da h) -> is_addr7 (h_sa h) -> (length_byte h (length pdu) <= 249)%nat ->
  (telegram_len_data h (length pdu) <= length buf0)%nat ->
  serialize_data h pdu buf0 =
  Ok (frame_spec h pdu ++ skipn (telegram_len_data h (length pdu)) buf0, telegram_len_data h (length pdu)).
Proof.
  intros Hda Hsa Hlb Hlen. unfold is_addr7 in *.
  rewrite <- frame_spec_length in *.
  pose proof (frame_spec_unfold h pdu) as EF. rewrite frame_body_length in EF.
  rewrite EF, !app_length, frame_body_length in Hlen. cbn [length] in Hlen.
  unfold serialize_data.
  assert (Elb : length_byte h (length pdu) = (length pdu + length (sapl (h_dsap h)) + length (sapl (h_ssap h)) + 3)%nat)
    by (rewrite !sapl_length; reflexivity).
  set (lb := length_byte h (length pdu)) in *. set (pre := start_bytes lb) in *.
  change buf0 with (wr buf0 []) at 1.
  (* the start delimiter and, for a variable length frame, LE LEr SD2 *)
  rewrite <- bind_assoc.
  match goal with |- bind ?X _ = _ => assert (START : X = Ok (wr buf0 pre, length pre)) end.
  { subst pre. unfold start_bytes.
    destruct (Nat.eqb_spec lb 3); [|destruct (Nat.eqb_spec lb 11)]; rewrite put_wr by (cbn [length] in *; lia); cbn [bind app].
    - reflexivity.
    - reflexivity.
    - change (SD2 =? SD2) with true. cbv iota.
      destruct (Nat.ltb_spec 249 lb); [lia|]. destruct (Nat.ltb_spec 255 lb); [lia|].
      repeat (rewrite put_wr by (cbn [length] in *; lia); cbn [bind app]). reflexivity. }
  rewrite START. cbn [bind]. clear START.
  (* DA, SA, FC, the SAP bytes, the PDU *)
  repeat (rewrite put_wr by len; cbn [bind]).
  rewrite (put_sap_wr buf0 _ _ (h_dsap h)) by len. cbn [bind].
  rewrite (put_sap_wr buf0 _ _ (h_ssap h)) by len. cbn [bind].
  rewrite wr_length by len.
  destruct (Nat.ltb_spec (length buf0) (length pre + 3 + length (sapl (h_dsap h)) + length (sapl (h_ssap h)) + length pdu)); [lia|].
  rewrite put_all_wr by len. cbn [bind].
  (* what has been written so far is the frame body; FCS and ED follow *)
  match goal with |- context [wr buf0 ?W] => replace W with (pre ++ frame_body h pdu)
    by (rewrite frame_body_unfold; fold (ext_of (h_dsap h)) (ext_of (h_ssap h));
        rewrite !lor_ext by assumption; rewrite <- !app_assoc; reflexivity) end.
  rewrite cks_wr, skipn_app_exact by len.
  repeat (rewrite put_wr by len; cbn [bind]).
  rewrite <- !app_assoc. cbn [app]. rewrite <- EF.
  assert (EL : (length pre + 3 + length (sapl (h_dsap h)) + length (sapl (h_ssap h)) + length pdu + 2)%nat
               = length (frame_spec h pdu)) by (rewrite EF; len).
  rewrite EL, <- frame_spec_length, Nat.eqb_refl. reflexivity.
Qed.

Lemma serialize_data_spec h pdu buf0 :
  wf_header h -> (length_byte h (length pdu) <= 249)%nat ->
  (telegram_len_data h (length pdu) <= length buf0)%nat ->
  serialize_data h pdu buf0 =
  Ok (frame_spec h pdu ++ skipn (telegram_len_data h (length pdu)) buf0, telegram_len_data h (length pdu)).
Proof. intros (Hda & Hsa & _). apply serialize_data_frame; assumption. Qed.

Lemma encode_data_in_spec size h pdu :
  wf_header h -> (length_byte h (length pdu) <= 249)%nat -> (telegram_len_data h (length pdu) <= size)%nat ->
  encode_data_in size h pdu = Ok (frame_spec h pdu).
Proof.
  intros Hwf Hlb Hs. unfold encode_data_in.
  rewrite serialize_data_spec; [|exact Hwf|exact Hlb|rewrite repeat_length; exact Hs].
  cbn [bind]. rewrite firstn_app_exact; [reflexivity|]. symmetry. apply frame_spec_length.
Qed.

Lemma encode_oversize size h pdu :
  (249 < length_byte h (length pdu))%nat -> (1 <= size)%nat -> encode_data_in size h pdu = Panic SiteAssertLen.
Proof.
  intros Hlb Hs. unfold encode_data_in, serialize_data.
  destruct (Nat.eqb_spec (length_byte h (length pdu)) 3) as [E|_]; [lia|].
  destruct (Nat.eqb_spec (length_byte h (length pdu)) 11) as [E|_]; [lia|].
  destruct size as [|size]; [lia|]. cbn [repeat].
  assert (PH : forall x t v, put (x :: t) 0 v = Ok (v :: t)) by reflexivity.
  rewrite PH. cbn [bind].
  change (SD2 =? SD2) with true. cbv iota.
  destruct (Nat.ltb_spec 249 (length_byte h (length pdu))) as [_|H]; [reflexivity|lia].
Qed.

Lemma start_bytes_shape n : data_shape (start_bytes (3 + n)) n.
Proof.
  unfold start_bytes. destruct (Nat.eqb_spec (3 + n) 3) as [E|_]; [replace n with 0%nat by lia; constructor|].
  destruct (Nat.eqb_spec (3 + n) 11) as [E|_]; [replace n with 8%nat by lia; constructor|].
  rewrite (Nat.add_comm 3 n). constructor.
Qed.

Lemma ext_bit a o : 0 <= a < 128 ->
  negb (Z.land (a + ext_of o) 128 =? 0) = is_some o /\ strip (a + ext_of o) = a.
Proof.
  intros H. unfold strip. rewrite land128_test, land127 by (destruct o; cbn [ext_of]; lia).
  destruct o; cbn [ext_of is_some].
  - destruct (Z.ltb_spec (a + 128) 128); [lia|]. split; [reflexivity|].
    symmetry. apply Z.mod_unique with 1; lia.
  - rewrite Z.add_0_r. destruct (Z.ltb_spec a 128); [auto|lia].
Qed.

Lemma body_spec_frame h pdu bl : is_addr7 (h_da h) -> is_addr7 (h_sa h) ->
  body_spec (h_da h + ext_of (h_dsap h)) (h_sa h + ext_of (h_ssap h)) (fc_to_byte (h_fc h))
            (sapl (h_dsap h) ++ sapl (h_ssap h) ++ pdu) (sum8 (frame_body h pdu)) ED bl =
  Accept (TData h pdu) bl.
Proof.
  intros Hda Hsa. destruct h as [da sa dsap ssap fc]. cbn [h_da h_sa h_dsap h_ssap h_fc] in *.
  destruct (ext_bit da dsap Hda) as [Da1 Da2]. destruct (ext_bit sa ssap Hsa) as [Sa1 Sa2].
  unfold body_spec. fold (strip (da + ext_of dsap)) (strip (sa + ext_of ssap)).
  rewrite fc_roundtrip, Da1, Da2, Sa1, Sa2, frame_body_unfold, Z.eqb_refl. change (ED =? ED) with true.
  destruct dsap, ssap; reflexivity.
Qed.

Lemma encode_length t : length (encode t) = telegram_len t.
Proof. destruct t; [apply frame_spec_length|reflexivity..]. Qed.

(* what the decoder needs of a telegram to find it again: addresses below 128 *)
Definition wf_telegram (t : telegram) : Prop :=
  match t with TData h _ => is_addr7 (h_da h) /\ is_addr7 (h_sa h) | _ => True end.

Theorem decode_encode_telegram t rest : wf_telegram t ->
  decode (encode t ++ rest) = Ok (Accept t (telegram_len t)).
Proof.
  destruct t as [h pdu|da sa|]; intros W; [|apply view_decode, V_tok|apply view_decode, V_sc].
  destruct W as [Hda Hsa]. rewrite <- encode_length, <- (body_spec_frame h pdu _ Hda Hsa). cbn [encode].
  rewrite frame_spec_unfold, frame_body_unfold, <- !app_assoc.
  set (payload := sapl (h_dsap h) ++ sapl (h_ssap h) ++ pdu). cbn [app length].
  rewrite (shape_length _ (length payload) _ _ _ payload _ _ []) by reflexivity. rewrite Nat.add_0_r.
  apply view_decode, V_body; [apply start_bytes_shape|reflexivity].
Qed.

(* the forms the C09 theorems quote; their hypotheses beyond the two addresses are not needed *)
Lemma decode_data_frame h pdu rest :
  wf_header h -> (length_byte h (length pdu) <= 249)%nat ->
  decode (frame_spec h pdu ++ rest) = Ok (Accept (TData h pdu) (telegram_len_data h (length pdu))).
Proof. intros (Hda & Hsa & _) _. exact (decode_encode_telegram (TData h pdu) rest (conj Hda Hsa)). Qed.

Lemma decode_token_frame da sa rest : decode (encode_token da sa ++ rest) = Ok (Accept (TToken da sa) 3).
Proof. exact (decode_encode_telegram (TToken da sa) rest I). Qed.

Lemma decode_sc_frame rest : decode (encode_sc ++ rest) = Ok (Accept TShortConf 1).
Proof. exact (decode_encode_telegram TShortConf rest I). Qed.

Theorem encode_prefix_waits t k : wf_telegram t -> (k < length (encode t))%nat ->
  decode (firstn k (encode t)) = Ok NeedMore.
Proof.
  intros W Hk. apply proper_prefix_waits with t (length (encode t)); [|exact Hk].
  rewrite encode_length, <- (app_nil_r (encode t)). apply decode_encode_telegram, W.
Qed.

Lemma standard_delimiters : SD1 = 16 /\ SD2 = 104 /\ SD3 = 162 /\ SD4 = 220 /\ ED = 22 /\ SC = 229.
Proof. repeat split; reflexivity. Qed.
