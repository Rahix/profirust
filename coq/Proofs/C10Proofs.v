(* Proofs for C10: the decoder is total, prefix-consistent and never mis-accepts damaged frames.
   Everything is built on DecodeSpec: decode l = Ok (decode_spec l), and `view`, the case analysis
   of byte strings with the decoder's verdict. *)
From PB Require Export DecodeSpec.
From PB Require Import Common Telegram CodecOracle ByteFacts C09Proofs.

Lemma subst_length l pos v : (pos < length l)%nat -> length (subst l pos v) = length l.
Proof.
  intros H. unfold subst. rewrite app_length, firstn_length. cbn [length]. rewrite skipn_length. lia.
Qed.

Lemma subst_app_l a b pos v : (pos < length a)%nat -> subst (a ++ b) pos v = subst a pos v ++ b.
Proof.
  intros H. unfold subst. rewrite firstn_app, skipn_app.
  replace (pos - length a)%nat with 0%nat by lia. replace (S pos - length a)%nat with 0%nat by lia.
  cbn [firstn skipn]. rewrite app_nil_r, <- app_assoc. reflexivity.
Qed.

Lemma subst_app_r a b pos v : (length a <= pos)%nat -> subst (a ++ b) pos v = a ++ subst b (pos - length a) v.
Proof.
  intros H. unfold subst. rewrite firstn_app, skipn_app.
  rewrite firstn_all2 by lia. rewrite skipn_all2 by lia.
  replace (S pos - length a)%nat with (S (pos - length a)) by lia.
  cbn [app]. rewrite <- app_assoc. reflexivity.
Qed.

Lemma subst_cons_S x l pos v : subst (x :: l) (S pos) v = x :: subst l pos v.
Proof. reflexivity. Qed.

Lemma subst_cons_0 x l v : subst (x :: l) 0 v = v :: l.
Proof. reflexivity. Qed.

Definition lsum (l : bytes) : Z := fold_right Z.add 0 l.

Lemma sum8_acc l : forall a, fold_left (fun acc b => (acc + b) mod 256) l (a mod 256) = (a + lsum l) mod 256.
Proof.
  induction l as [|x l IH]; intros a; cbn [fold_left lsum fold_right].
  - rewrite Z.add_0_r. reflexivity.
  - fold (lsum l). rewrite IH. rewrite <- Z.add_assoc, Zplus_mod_idemp_l. reflexivity.
Qed.

Lemma sum8_is_sum_mod l : sum8 l = lsum l mod 256.
Proof. unfold sum8. change 0 with (0 mod 256) at 1. rewrite sum8_acc. reflexivity. Qed.

Lemma lsum_subst l : forall pos v, (pos < length l)%nat -> lsum (subst l pos v) = lsum l - nth pos l 0 + v.
Proof.
  induction l as [|x l IH]; intros pos v H; [cbn in H; lia|].
  destruct pos as [|pos].
  - rewrite subst_cons_0. cbn [lsum fold_right nth]. lia.
  - rewrite subst_cons_S. cbn [lsum fold_right nth]. fold (lsum (subst l pos v)). fold (lsum l).
    rewrite IH by (cbn in H; lia). lia.
Qed.

Lemma sum8_single_change l pos v :
  (pos < length l)%nat -> is_byte (nth pos l 0) -> is_byte v -> v <> nth pos l 0 ->
  sum8 (subst l pos v) <> sum8 l.
Proof.
  unfold is_byte. intros Hp Hx Hv Hne E. rewrite !sum8_is_sum_mod, lsum_subst in E by exact Hp.
  set (S := lsum l) in *. set (x := nth pos l 0) in *.
  assert (D : (S - x + v - S) mod 256 = 0).
  { rewrite Zminus_mod, E, Z.sub_diag. reflexivity. }
  apply Z.mod_divide in D; [|lia]. destruct D as [q Hq]. lia.
Qed.

Lemma body_spec_cases da' sa' fcb payload cks e bl :
  body_spec da' sa' fcb payload cks e bl = Reject \/
  exists t, body_spec da' sa' fcb payload cks e bl = Accept t bl.
Proof.
  destruct (body_spec da' sa' fcb payload cks e bl) as [| |t n] eqn:B; [|auto|].
  - destruct (body_spec_not_needmore _ _ _ _ _ _ _ B).
  - right. exists t. apply body_spec_accept in B. destruct B as (_ & _ & _ & _ & _ & -> & _). reflexivity.
Qed.

Lemma need_shape pre n da' sa' fcb payload cks e rest :
  data_shape pre n -> length payload = n ->
  need (pre ++ da' :: sa' :: fcb :: payload ++ cks :: e :: rest) = (length pre + n + 5)%nat.
Proof.
  intros Hsh Hn. revert Hn. destruct Hsh as [ | |n]; intros Hn; cbn [app]; unfold need; delim_eval; cbv iota.
  - reflexivity.
  - reflexivity.
  - destruct (Nat.ltb_spec (length (SD2 :: Z.of_nat (n + 3) :: Z.of_nat (n + 3) :: SD2 :: da' :: sa' :: fcb :: payload ++ cks :: e :: rest)) 6) as [H|_].
    { cbn [length] in H. lia. }
    cbn [nth length]. lia.
Qed.

Lemma needmore_short l : decode l = Ok NeedMore -> (length l < need l)%nat.
Proof.
  intros D. apply decode_view' in D.
  inversion D as [ | |t Ht| | |b0 t Hd Hl|t Hl| |b1 t Hb Hl Hs|pre n0 da' sa' fcb payload cks e rest Hsh Hn El Er].
  - cbn. lia.
  - unfold need. delim_eval. cbv iota. cbn [length]. lia.
  - destruct (is_data_delim_cases b0 Hd) as [->|[->| ->]]; unfold need; delim_eval; cbv iota; try lia.
    destruct (Nat.ltb_spec (length (SD2 :: t)) 6) as [_|Hq]; lia.
  - unfold need. delim_eval. cbv iota. lia.
  - unfold need. delim_eval. cbv iota.
    destruct (Nat.ltb_spec (length (SD2 :: b1 :: b1 :: SD2 :: t)) 6) as [Hq|_]; [cbn [length] in Hq; lia|].
    cbn [nth length]. lia.
  - exfalso. exact (body_spec_not_needmore _ _ _ _ _ _ _ Er).
Qed.

Lemma long_enough_decides l : (need l <= length l)%nat -> decode l <> Ok NeedMore.
Proof. intros H D. apply needmore_short in D. lia. Qed.

Definition pdu_offset (l : bytes) (h : header) : nat :=
  ((if (nth 0 l 0%Z =? SD2)%Z then 7 else 4) + has_sap (h_dsap h) + has_sap (h_ssap h))%nat.

Lemma accept_inside l t n : decode l = Ok (Accept t n) ->
  (n <= length l)%nat /\ n = need l /\
  match t with
  | TData h pdu =>
      (pdu_offset l h + length pdu + 2 = n)%nat /\ firstn (length pdu) (skipn (pdu_offset l h) l) = pdu
  | TToken da sa => n = 3%nat /\ firstn 3 l = [SD4; da; sa]
  | TShortConf => n = 1%nat /\ firstn 1 l = [SC]
  end.
Proof.
  intros D. apply decode_view' in D. destruct t as [h pdu|da sa| ].
  - apply view_accept_data in D.
    destruct D as (pre & da' & sa' & fcb & rest & Hsh & -> & -> & Hfc & _). cbv zeta in Hsh.
    set (payload := sapl (h_dsap h) ++ sapl (h_ssap h) ++ pdu) in *.
    rewrite (need_shape pre (length payload)) by (exact Hsh || reflexivity).
    rewrite (shape_length pre (length payload)) by reflexivity.
    split; [lia|]. split; [reflexivity|].
    assert (Hoff : pdu_offset (pre ++ da' :: sa' :: fcb :: payload ++ sum8 (da' :: sa' :: fcb :: payload) :: ED :: rest) h
                   = (length pre + 3 + has_sap (h_dsap h) + has_sap (h_ssap h))%nat).
    { unfold pdu_offset. destruct Hsh; cbn [app nth length]; delim_eval; cbv iota; lia. }
    rewrite Hoff. split.
    + subst payload. rewrite !app_length, !sapl_length. lia.
    + replace (pre ++ da' :: sa' :: fcb :: payload ++ sum8 (da' :: sa' :: fcb :: payload) :: ED :: rest)
        with ((pre ++ [da'; sa'; fcb] ++ sapl (h_dsap h) ++ sapl (h_ssap h)) ++ pdu ++ sum8 (da' :: sa' :: fcb :: payload) :: ED :: rest).
      2:{ subst payload. rewrite <- !app_assoc. cbn [app]. rewrite <- ?app_assoc. reflexivity. }
      rewrite skipn_app_exact by (rewrite !app_length, !sapl_length; cbn [length]; lia).
      apply firstn_app_exact. reflexivity.
  - apply view_accept_token in D. destruct D as (-> & t & ->). cbn [length firstn]. unfold need. delim_eval.
    repeat split; lia.
  - apply view_accept_sc in D. destruct D as (-> & t & ->). cbn [length firstn]. unfold need. delim_eval.
    repeat split; lia.
Qed.

(* the forms the C10 theorems quote; of their hypotheses only the two addresses are needed *)
Lemma valid_prefix_waits_data h pdu k :
  wf_header h -> (length_byte h (length pdu) <= 249)%nat -> (k < length (frame_spec h pdu))%nat ->
  decode (firstn k (frame_spec h pdu)) = Ok NeedMore.
Proof. intros (Hda & Hsa & _) _. exact (encode_prefix_waits (TData h pdu) k (conj Hda Hsa)). Qed.

Lemma valid_prefix_waits_token da sa k : (k < 3)%nat -> decode (firstn k (encode_token da sa)) = Ok NeedMore.
Proof. exact (encode_prefix_waits (TToken da sa) k I). Qed.

Lemma valid_prefix_waits_sc k : (k < 1)%nat -> decode (firstn k encode_sc) = Ok NeedMore.
Proof. exact (encode_prefix_waits TShortConf k I). Qed.

Lemma strip_split b : is_byte b ->
  0 <= strip b < 128 /\ b = strip b + (if negb (Z.land b 128 =? 0) then 128 else 0).
Proof.
  unfold is_byte, strip. intros H. rewrite land128_test, land127 by exact H.
  destruct (Z.ltb_spec b 128); cbn [negb]; [lia|].
  replace (b mod 128) with (b - 128) by (apply Z.mod_unique with 1; lia). lia.
Qed.

Definition raw_body (h : header) (fcbyte : Z) (pdu : bytes) : bytes :=
  [h_da h + ext_of (h_dsap h); h_sa h + ext_of (h_ssap h); fcbyte] ++ sapl (h_dsap h) ++ sapl (h_ssap h) ++ pdu.

Lemma frame_raw_unfold h fcbyte pdu :
  frame_raw h fcbyte pdu =
  start_bytes (length (raw_body h fcbyte pdu)) ++ raw_body h fcbyte pdu ++ [sum8 (raw_body h fcbyte pdu); ED].
Proof. reflexivity. Qed.

Lemma frame_raw_sd2_unfold h fcbyte pdu :
  frame_raw_sd2 h fcbyte pdu =
  [SD2; Z.of_nat (length (raw_body h fcbyte pdu)); Z.of_nat (length (raw_body h fcbyte pdu)); SD2]
  ++ raw_body h fcbyte pdu ++ [sum8 (raw_body h fcbyte pdu); ED].
Proof. reflexivity. Qed.

Lemma raw_body_length h fcbyte pdu :
  length (raw_body h fcbyte pdu) = (length (sapl (h_dsap h) ++ sapl (h_ssap h) ++ pdu) + 3)%nat.
Proof. unfold raw_body. cbn [app length]. lia. Qed.

Lemma all_bytes_sapl o : all_bytes (sapl o) <-> wf_sap o.
Proof. destruct o as [s|]; cbn [sapl wf_sap]; [|split; constructor]. split; [apply Forall_inv|intros H; constructor; [exact H|constructor]]. Qed.

Lemma accept_criterion l h pdu n :
  all_bytes l -> decode l = Ok (Accept (TData h pdu) n) ->
  wf_header h /\ all_bytes pdu /\
  exists fcbyte rest,
    fc_from_byte fcbyte = Some (h_fc h) /\ is_byte fcbyte /\
    ((nth 0 l 0 <> SD2 /\ l = frame_raw h fcbyte pdu ++ rest /\ n = length (frame_raw h fcbyte pdu)) \/
     (nth 0 l 0 = SD2 /\ l = frame_raw_sd2 h fcbyte pdu ++ rest /\ n = length (frame_raw_sd2 h fcbyte pdu))).
Proof.
  intros Hb D. apply decode_view' in D. apply view_accept_data in D.
  destruct D as (pre & da' & sa' & fcb & rest & Hsh & El & -> & Hfc & Hda & Hsa & Hd & Hs). cbv zeta in Hsh.
  set (payload := sapl (h_dsap h) ++ sapl (h_ssap h) ++ pdu) in *.
  assert (Hb2 : all_bytes (da' :: sa' :: fcb :: payload ++ sum8 (da' :: sa' :: fcb :: payload) :: ED :: rest)).
  { rewrite El in Hb. apply Forall_app in Hb. apply Hb. }
  pose proof (Forall_inv Hb2) as Bda. pose proof (Forall_inv (Forall_inv_tail Hb2)) as Bsa.
  pose proof (Forall_inv (Forall_inv_tail (Forall_inv_tail Hb2))) as Bfc.
  pose proof (Forall_inv_tail (Forall_inv_tail (Forall_inv_tail Hb2))) as Hb5.
  clear Hb2. apply Forall_app in Hb5. destruct Hb5 as [Hb5 _]. subst payload.
  apply Forall_app in Hb5. destruct Hb5 as [Bd Hb5]. apply Forall_app in Hb5. destruct Hb5 as [Bs Bp].
  set (payload := sapl (h_dsap h) ++ sapl (h_ssap h) ++ pdu) in *.
  destruct (strip_split da' Bda) as (Rda & Eda). destruct (strip_split sa' Bsa) as (Rsa & Esa).
  rewrite <- Hda in *. rewrite <- Hsa in *. rewrite Hd in Eda. rewrite Hs in Esa.
  assert (Eda' : da' = h_da h + ext_of (h_dsap h)) by (rewrite Eda at 1; destruct (h_dsap h); reflexivity).
  assert (Esa' : sa' = h_sa h + ext_of (h_ssap h)) by (rewrite Esa at 1; destruct (h_ssap h); reflexivity).
  split; [|split; [exact Bp|]].
  { unfold wf_header, is_addr7. repeat split; try lia; apply all_bytes_sapl; assumption. }
  exists fcb, rest. split; [exact Hfc|]. split; [exact Bfc|].
  assert (Ebody : da' :: sa' :: fcb :: payload = raw_body h fcb pdu).
  { unfold raw_body. rewrite Eda', Esa'. reflexivity. }
  assert (Elen : length (raw_body h fcb pdu) = (length payload + 3)%nat) by apply raw_body_length.
  assert (El2 : l = pre ++ (raw_body h fcb pdu ++ [sum8 (raw_body h fcb pdu); ED]) ++ rest).
  { rewrite El. rewrite <- Ebody. cbn [app]. rewrite <- app_assoc. reflexivity. }
  clear El. revert El2. remember (length payload) as n0 eqn:En0.
  destruct Hsh as [ | |n1]; intros El2.
  1-2: (left; rewrite frame_raw_unfold, Elen; unfold start_bytes; cbn [Nat.add Nat.eqb];
        split; [rewrite El2; cbn [app nth]; vm_compute; discriminate|];
        split; [rewrite El2, !app_assoc; reflexivity|];
        rewrite !app_length, Elen; cbn [length]; lia).
  right. rewrite frame_raw_sd2_unfold, Elen.
  split; [rewrite El2; reflexivity|].
  split; [rewrite El2, !app_assoc; reflexivity|].
  rewrite !app_length, Elen. cbn [length]. lia.
Qed.

Lemma dec_oracle_ok l r : all_bytes l -> decode l = Ok r -> c10_dec_ok l (Some r) = true.
Proof.
  intros Hb D. destruct r as [ | |t n]; cbn [c10_dec_ok].
  - apply Nat.ltb_lt, needmore_short, D.
  - reflexivity.
  - pose proof (accept_inside l t n D) as (Hn & Hneed & Ht).
    apply andb_true_intro. split; [|apply Nat.eqb_eq, Hneed].
    unfold accept_ok. apply andb_true_intro. split; [apply Nat.leb_le, Hn|].
    destruct t as [h pdu|da sa| ].
    + destruct (accept_criterion l h pdu n Hb D) as (Hwf & Hp & fcbyte & rest & Hfc & _ & Hcase).
      rewrite (proj2 (wf_headerb_iff h) Hwf), (proj2 (all_bytesb_iff pdu) Hp). cbn [andb].
      destruct Hcase as [(Hsd & El & En)|(Hsd & El & En)].
      * destruct (Z.eqb_spec (nth 0 l 0) SD2) as [E|_]; [contradiction|].
        assert (Efc : nth 3 l 0 = fcbyte).
        { rewrite El, frame_raw_unfold. rewrite El, frame_raw_unfold in Hsd.
          unfold start_bytes in *.
          destruct (Nat.eqb (length (raw_body h fcbyte pdu)) 3); [reflexivity|].
          destruct (Nat.eqb (length (raw_body h fcbyte pdu)) 11); [reflexivity|].
          exfalso. apply Hsd. reflexivity. }
        rewrite Efc, Hfc. unfold fcode_eqb. rewrite Z.eqb_refl. cbn [andb].
        rewrite El at 1. rewrite firstn_app_exact by exact En. apply bytes_eqb_refl.
      * rewrite Hsd, Z.eqb_refl.
        assert (Efc : nth 6 l 0 = fcbyte) by (rewrite El, frame_raw_sd2_unfold; reflexivity).
        rewrite Efc, Hfc. unfold fcode_eqb. rewrite Z.eqb_refl. cbn [andb].
        rewrite El at 1. rewrite firstn_app_exact by exact En. apply bytes_eqb_refl.
    + destruct Ht as (-> & ->). cbn [Nat.eqb andb]. apply bytes_eqb_refl.
    + destruct Ht as (-> & ->). cbn [Nat.eqb andb]. apply bytes_eqb_refl.
Qed.

Lemma subst_body3 a b c (p : bytes) i v : (i < length (a :: b :: c :: p))%nat ->
  exists a' b' c' p', subst (a :: b :: c :: p) i v = a' :: b' :: c' :: p' /\ length p' = length p.
Proof.
  intros H. destruct i as [|[|[|i]]].
  - exists v, b, c, p. split; reflexivity.
  - exists a, v, c, p. split; reflexivity.
  - exists a, b, v, p. split; reflexivity.
  - exists a, b, c, (subst p i v). rewrite !subst_cons_S. split; [reflexivity|].
    apply subst_length. cbn [length] in H. lia.
Qed.

Lemma shape_single_byte pre da' sa' fcb payload pos v :
  data_shape pre (length payload) ->
  let body := da' :: sa' :: fcb :: payload in
  let F := pre ++ body ++ [sum8 body; ED] in
  (pos < length F)%nat -> is_byte (nth pos F 0) -> is_byte v -> v <> nth pos F 0 ->
  (pos = 0%nat -> is_delim v = false) ->
  decode_spec (subst F pos v) = Reject.
Proof.
  intros Hsh body F Hpos Hx Hv Hne Hdel. subst F.
  rewrite !app_length in Hpos. cbn [length] in Hpos.
  destruct (Nat.ltb_spec pos (length pre)) as [Hp|Hp].
  - (* inside the start of the frame *)
    rewrite app_nth1 in Hne by exact Hp. rewrite subst_app_l by exact Hp.
    remember (length payload) as n eqn:En. revert En Hp Hne.
    destruct Hsh as [ | |n]; intros En Hp Hne; cbn [length] in Hp.
    + assert (pos = 0%nat) by lia. subst pos. rewrite subst_cons_0. cbn [app].
      apply view_sound, V_nodelim, Hdel. reflexivity.
    + assert (pos = 0%nat) by lia. subst pos. rewrite subst_cons_0. cbn [app].
      apply view_sound, V_nodelim, Hdel. reflexivity.
    + assert (L2 : (2 <= length (body ++ [sum8 body; ED]))%nat) by (rewrite app_length; cbn [length]; lia).
      destruct pos as [|[|[|[|pos]]]]; [| | | |lia].
      * rewrite subst_cons_0. cbn [app]. apply view_sound, V_nodelim, Hdel. reflexivity.
      * cbn [nth] in Hne. change (subst [SD2; Z.of_nat (n + 3); Z.of_nat (n + 3); SD2] 1 v)
          with [SD2; v; Z.of_nat (n + 3); SD2]. cbn [app].
        apply view_sound, V_sd2_badhdr; [exact L2|left; exact Hne].
      * cbn [nth] in Hne. change (subst [SD2; Z.of_nat (n + 3); Z.of_nat (n + 3); SD2] 2 v)
          with [SD2; Z.of_nat (n + 3); v; SD2]. cbn [app].
        apply view_sound, V_sd2_badhdr; [exact L2|left; congruence].
      * cbn [nth] in Hne. change (subst [SD2; Z.of_nat (n + 3); Z.of_nat (n + 3); SD2] 3 v)
          with [SD2; Z.of_nat (n + 3); Z.of_nat (n + 3); v]. cbn [app].
        apply view_sound, V_sd2_badhdr; [exact L2|right; left; exact Hne].
  - rewrite app_nth2 in Hne, Hx by exact Hp. rewrite subst_app_r by exact Hp.
    set (i := (pos - length pre)%nat) in *.
    destruct (Nat.ltb_spec i (length body)) as [Hi|Hi].
    + (* a checksummed byte *)
      rewrite app_nth1 in Hne, Hx by exact Hi. rewrite subst_app_l by exact Hi.
      pose proof (sum8_single_change body i v Hi Hx Hv Hne) as Hcs.
      destruct (subst_body3 da' sa' fcb payload i v Hi) as (a2 & b2 & c2 & p2 & Es & Hl2).
      fold body in Es. rewrite Es in *. cbn [app].
      rewrite (view_sound _ _ (V_body pre (length payload) a2 b2 c2 p2 (sum8 body) ED [] Hsh Hl2)).
      apply body_spec_reject. left. congruence.
    + rewrite app_nth2 in Hne by exact Hi. rewrite subst_app_r by exact Hi.
      assert (Hi2 : (i - length body = 0 \/ i - length body = 1)%nat) by (subst i; cbn [length] in *; lia).
      destruct Hi2 as [E|E]; rewrite E in *; cbn [nth] in Hne.
      * change (subst [sum8 body; ED] 0 v) with [v; ED]. subst body. cbn [app].
        rewrite (view_sound _ _ (V_body pre (length payload) da' sa' fcb payload v ED [] Hsh eq_refl)).
        apply body_spec_reject. left. exact Hne.
      * change (subst [sum8 body; ED] 1 v) with [sum8 body; v]. subst body. cbn [app].
        rewrite (view_sound _ _ (V_body pre (length payload) da' sa' fcb payload _ v [] Hsh eq_refl)).
        apply body_spec_reject. right. exact Hne.
Qed.

Lemma delims_are_bytes : is_byte SD1 /\ is_byte SD2 /\ is_byte SD3 /\ is_byte SD4 /\ is_byte SC /\ is_byte ED.
Proof. unfold is_byte. vm_compute. repeat split; congruence. Qed.

Lemma frame_spec_all_bytes h pdu :
  wf_header h -> all_bytes pdu -> (length_byte h (length pdu) <= 249)%nat -> all_bytes (frame_spec h pdu).
Proof.
  intros (Hda & Hsa & Hd & Hs) Hp Hlb. unfold is_addr7 in *.
  destruct delims_are_bytes as (B1 & B2 & B3 & _ & _ & BE).
  assert (HB : all_bytes (frame_body h pdu)).
  { rewrite frame_body_unfold. repeat apply Forall_cons; try (unfold is_byte; destruct (h_dsap h), (h_ssap h); cbn [ext_of]; lia).
    - apply fc_to_byte_range.
    - rewrite !Forall_app. fold (all_bytes (sapl (h_dsap h))) (all_bytes (sapl (h_ssap h))). rewrite !all_bytes_sapl. auto. }
  rewrite frame_spec_unfold, frame_body_length. unfold start_bytes.
  apply Forall_app. split; [|apply Forall_app; split; [exact HB|]].
  - destruct (Nat.eqb _ 3); [constructor; [exact B1|constructor]|].
    destruct (Nat.eqb _ 11); [constructor; [exact B3|constructor]|].
    constructor; [exact B2|constructor; [unfold is_byte; lia|constructor; [unfold is_byte; lia|constructor; [exact B2|constructor]]]].
  - constructor; [apply sum8_range|constructor; [exact BE|constructor]].
Qed.

(* every accepted complete data frame, whoever built it (SD2 with LE 3 or 11, reserved function
   code bits): a single changed byte is rejected *)
Theorem single_byte_frame l h pdu pos v :
  all_bytes l -> decode l = Ok (Accept (TData h pdu) (length l)) ->
  (pos < length l)%nat -> is_byte v -> v <> nth pos l 0 -> ~ (pos = 0%nat /\ is_delim v = true) ->
  decode (subst l pos v) = Ok Reject.
Proof.
  intros Hb D Hpos Hv Hne Hex. pose proof (all_bytes_nth l pos Hb) as Hx.
  apply decode_view', view_accept_data in D. destruct D as (pre & da' & sa' & fcb & rest & Hsh & El & En & _).
  cbv zeta in *. rewrite El, (shape_length pre _ _ _ _ _ _ _ rest eq_refl) in En.
  assert (rest = []) by (destruct rest; [reflexivity|cbn [length] in En; lia]). subst rest l.
  rewrite decode_is_spec. f_equal. apply shape_single_byte; try assumption.
  intros ->. destruct (is_delim v); [exfalso; apply Hex; auto|reflexivity].
Qed.

Lemma single_byte_data h pdu pos v :
  wf_header h -> all_bytes pdu -> (length_byte h (length pdu) <= 249)%nat ->
  (pos < length (frame_spec h pdu))%nat -> is_byte v -> v <> nth pos (frame_spec h pdu) 0 ->
  ~ (pos = 0%nat /\ is_delim v = true) ->
  decode (subst (frame_spec h pdu) pos v) = Ok Reject.
Proof.
  intros Hwf Hp Hlb. apply single_byte_frame with h pdu; [apply frame_spec_all_bytes; assumption|].
  rewrite frame_spec_length, <- (app_nil_r (frame_spec h pdu)). apply decode_data_frame; assumption.
Qed.

Lemma single_byte_sc pos v :
  (pos < length encode_sc)%nat -> v <> nth pos encode_sc 0 -> ~ (pos = 0%nat /\ is_delim v = true) ->
  decode (subst encode_sc pos v) = Ok Reject.
Proof.
  unfold encode_sc. cbn [length]. intros Hpos Hne Hex. assert (pos = 0%nat) by lia. subst pos.
  rewrite subst_cons_0. apply view_decode, V_nodelim.
  destruct (is_delim v); [exfalso; apply Hex; auto|reflexivity].
Qed.

Lemma is_delim_in d : is_delim d = true -> In d delims.
Proof. unfold is_delim, delims. cbn [In]. rewrite !orb_true_iff, !Z.eqb_eq. intuition auto. Qed.

Lemma delims_distance a b : In a delims -> In b delims -> a <> b -> (4 <= hamming a b)%nat.
Proof.
  assert (C : forallb (fun a => forallb (fun b => (a =? b) || Nat.leb 4 (hamming a b)) delims) delims = true)
    by (vm_compute; reflexivity).
  intros Ha Hb Hne. rewrite forallb_forall in C. specialize (C a Ha). rewrite forallb_forall in C. specialize (C b Hb).
  apply orb_prop in C. destruct C as [C|C]; [apply Z.eqb_eq in C; contradiction|apply Nat.leb_le, C].
Qed.

Lemma flip_byte x k : is_byte x -> 0 <= k < 8 -> is_byte (Z.lxor x (2 ^ k)) /\ Z.lxor x (2 ^ k) <> x.
Proof.
  unfold is_byte. intros Hx Hk. split; [split|].
  - apply Z.lxor_nonneg. pose proof (Z.pow_nonneg 2 k). lia.
  - apply (small_of_bits 8); [lia|apply Z.lxor_nonneg; pose proof (Z.pow_nonneg 2 k); lia|].
    intros j Hj. rewrite Z.lxor_spec, (testbit_small 8 x), Z.pow2_bits_false by lia. reflexivity.
  - intros E. apply (f_equal (fun y => Z.testbit y k)) in E.
    rewrite Z.lxor_spec, Z.pow2_bits_eqb, Z.eqb_refl in E by lia. destruct (Z.testbit x k); discriminate.
Qed.

Lemma hamming_flip x k : 0 <= k < 8 -> hamming x (Z.lxor x (2 ^ k)) = 1%nat.
Proof.
  intros Hk. unfold hamming. rewrite <- Z.lxor_assoc, Z.lxor_nilpotent, Z.lxor_0_l.
  assert (K : k = 0 \/ k = 1 \/ k = 2 \/ k = 3 \/ k = 4 \/ k = 5 \/ k = 6 \/ k = 7) by lia.
  destruct K as [->|[->|[->|[->|[->|[->|[->| ->]]]]]]]; reflexivity.
Qed.

Lemma delim_flip d k : is_delim d = true -> 0 <= k < 8 -> is_delim (Z.lxor d (2 ^ k)) = false.
Proof.
  intros Hd Hk. destruct (is_delim (Z.lxor d (2 ^ k))) eqn:E; [exfalso|reflexivity].
  apply is_delim_in in Hd. apply is_delim_in in E.
  assert (Bd : is_byte d).
  { destruct delims_are_bytes as (B1 & B2 & B3 & B4 & B5 & _). unfold delims in Hd. cbn [In] in Hd.
    destruct Hd as [<-|[<-|[<-|[<-|[<-|[]]]]]]; assumption. }
  destruct (flip_byte d k Bd Hk) as (_ & Hne).
  pose proof (delims_distance d _ Hd E (fun H => Hne (eq_sym H))) as D. rewrite hamming_flip in D by exact Hk. lia.
Qed.

Lemma frame_spec_first_delim h pdu : is_delim (nth 0 (frame_spec h pdu) 0) = true.
Proof.
  unfold frame_spec. destruct (Nat.eqb _ 3); [reflexivity|]. destruct (Nat.eqb _ 11); reflexivity.
Qed.

Lemma single_bit_data h pdu pos k :
  wf_header h -> all_bytes pdu -> (length_byte h (length pdu) <= 249)%nat ->
  (pos < length (frame_spec h pdu))%nat -> 0 <= k < 8 ->
  decode (subst (frame_spec h pdu) pos (Z.lxor (nth pos (frame_spec h pdu) 0) (2 ^ k))) = Ok Reject.
Proof.
  intros Hwf Hp Hlb Hpos Hk.
  pose proof (all_bytes_nth _ pos (frame_spec_all_bytes h pdu Hwf Hp Hlb)) as Hx.
  destruct (flip_byte _ k Hx Hk) as (Hv & Hne).
  apply single_byte_data; try assumption.
  intros (-> & Hd). rewrite delim_flip in Hd; [discriminate|apply frame_spec_first_delim|exact Hk].
Qed.

Lemma single_bit_sc pos k :
  (pos < length encode_sc)%nat -> 0 <= k < 8 ->
  decode (subst encode_sc pos (Z.lxor (nth pos encode_sc 0) (2 ^ k))) = Ok Reject.
Proof.
  intros Hpos Hk. assert (pos = 0%nat) by (cbn in Hpos; lia). subst pos.
  destruct delims_are_bytes as (_ & _ & _ & _ & B5 & _).
  destruct (flip_byte SC k B5 Hk) as (Hv & Hne).
  apply single_byte_sc; [exact Hpos|exact Hne|].
  intros (_ & Hd). cbn [encode_sc nth] in Hd. rewrite delim_flip in Hd; [discriminate|reflexivity|exact Hk].
Qed.

Lemma accepted_mutation_is_delimiter_swap h pdu pos v t n :
  wf_header h -> all_bytes pdu -> (length_byte h (length pdu) <= 249)%nat ->
  (pos < length (frame_spec h pdu))%nat -> is_byte v -> v <> nth pos (frame_spec h pdu) 0 ->
  decode (subst (frame_spec h pdu) pos v) = Ok (Accept t n) -> pos = 0%nat /\ is_delim v = true.
Proof.
  intros Hwf Hp Hlb Hpos Hv Hne D.
  destruct (Nat.eq_dec pos 0) as [E|E]; [destruct (is_delim v) eqn:Ed; [auto|]|];
    rewrite single_byte_data in D; try assumption; try discriminate.
  - intros (_ & H). congruence.
  - intros (H & _). contradiction.
Qed.

Definition swap_witness_h : header := mkHeader 5 2 None None (FcRequest FcbHigh RqSrdLow).

Lemma delimiter_swap_witness :
  wf_header swap_witness_h /\ all_bytes [] /\ (length_byte swap_witness_h (length (@nil Z)) <= 249)%nat /\
  is_byte SD4 /\ SD4 <> nth 0 (frame_spec swap_witness_h []) 0 /\ is_delim SD4 = true /\
  decode (subst (frame_spec swap_witness_h []) 0 SD4) = Ok (Accept (TToken 5 2) 3).
Proof.
  split; [unfold wf_header, is_addr7, wf_sap; cbn; lia|]. split; [constructor|].
  split; [apply Nat.leb_le; vm_compute; reflexivity|].
  split; [apply delims_are_bytes|]. split; [vm_compute; discriminate|]. split; vm_compute; reflexivity.
Qed.

Lemma mut_oracle_ok h pdu pos v r :
  wf_header h -> all_bytes pdu -> (length_byte h (length pdu) <= 249)%nat ->
  (pos < length (frame_spec h pdu))%nat -> is_byte v -> v <> nth pos (frame_spec h pdu) 0 ->
  decode (subst (frame_spec h pdu) pos v) = Ok r -> c10_mut_ok (frame_spec h pdu) pos v (Some r) = true.
Proof.
  intros Hwf Hp Hlb Hpos Hv Hne D. destruct r as [ | |t n]; cbn [c10_mut_ok]; try reflexivity.
  destruct (accepted_mutation_is_delimiter_swap h pdu pos v t n Hwf Hp Hlb Hpos Hv Hne D) as (-> & ->). reflexivity.
Qed.
