(* C11: soundness of the liveness rule R11_supervision_never_ends of the second monitor for transcripts of
   the model: a poll in CheckTokenPass that looks at the receive buffer, sees nothing new and comes later
   than one slot time after the last instant at which the station can have seen anything happen (l_ref of
   the monitor) must act (retry, remove, leave).  The proof keeps exact account of last_bus_activity and
   pending_bytes while the pass is supervised (invariant LV, on top of JA of FdlOracleSoundAll). *)
From Coq Require Import Arith.
From PB Require Import Common Tables FdlTables Telegram Phy TokenRing Params Fdl FdlOracle FdlProofs FdlStepProofs.
From PB Require Import DecodeSpec C16Proofs C05Proofs C01Proofs C11Proofs C06Proofs C12Proofs C13Proofs C15Proofs.
From PB Require Import FdlOracleSound1 FdlOracleSound2 FdlOracleSound3 FdlOracleSound5 FdlOracleSound6 FdlOracleSound8 FdlOracleSound9 FdlOracleSoundAll.

Section PartA.
Variable A : Type.
Variable ops : app_ops A.
Notation W := (world A).

Lemma do_pass_token_pending (f : fdl) now (w : W) f' w' :
  do_pass_token A f now w = Ok (f', w') -> f_pending f' = f_pending f.
Proof.
  intros H. destruct (f_state f) as [ | | | | | | |dg att| | ] eqn:Es;
    try (unfold do_pass_token, assert_entry in H; rewrite Es in H; discriminate H).
  destruct (do_pass_token_result A _ _ _ _ _ _ _ Es H) as (r & g & s & l & txo & tr & -> & _). reflexivity.
Qed.

Lemma do_pass_token_rx (f : fdl) now (w : W) f' w' : do_pass_token A f now w = Ok (f', w') -> w_rx w' = w_rx w.
Proof. intros H. apply do_pass_token_frame in H. tauto. Qed.

Definition covered (f : fdl) (w : W) : Prop := (length (w_rx w) <= f_pending f)%nat.

Lemma do_pass_token_covered f now (w : W) f' w' : do_pass_token A f now w = Ok (f', w') -> covered f w -> covered f' w'.
Proof. intros H. unfold covered. rewrite (do_pass_token_pending _ _ _ _ _ H), (do_pass_token_rx _ _ _ _ _ H). exact (fun C => C). Qed.

Lemma ctp_expired_pending f now (w : W) f1 att f' w' :
  f_state f = CheckTokenPass att -> check_slot_expired f now = Ok (f1, true) ->
  do_check_token_pass A f now w = Ok (f', w') -> f_pending f' = f_pending f /\ w_rx w' = w_rx w.
Proof.
  intros Hst Hexp H. unfold do_check_token_pass, assert_entry in H. rewrite Hst in H.
  cbn [kind_of do_fn_entry state_kind_eqb bind] in H. rewrite Hexp in H. cbn [bind] in H.
  apply check_slot_inv in Hexp as [-> _]. cbn [f_state set_lba] in H. rewrite Hst in H. cbn [get_check_token_pass_attempt bind] in H.
  apply bind_ok in H as ([f2 w2] & E2 & ([f3 w3] & (s' & _ & -> & ->)%trans_spec & H)%bind_ok).
  assert (H2 : f_pending f2 = f_pending f /\ w_rx w2 = w_rx w)
    by (destruct (check_pass_removes att); [apply bind_ok in E2 as (r & _ & [= <- <-])|injection E2 as <- <-]; split; reflexivity).
  pose proof (do_pass_token_pending _ _ _ _ _ H) as Hp. pose proof (do_pass_token_rx _ _ _ _ _ H) as Hr.
  cbn in Hp, Hr. destruct H2. split; congruence.
Qed.

Lemma ctp_wait_exact f now (w : W) f1 att f' w' att' :
  f_state f = CheckTokenPass att -> check_slot_expired f now = Ok (f1, false) ->
  do_check_token_pass A f now w = Ok (f', w') -> f_state f' = CheckTokenPass att' ->
  f_lba f' = Some (gv now (f_lba f)) /\ w_tx w' = w_tx w /\
  w_rx w' = (match decode_spec (w_rx w) with Reject => [] | _ => w_rx w end) /\
  f_pending f' = Nat.min (f_pending f) (length (w_rx w')).
Proof.
  intros Hst Hexp H Hst'.
  pose proof (do_check_token_pass_waiting A f now w f1 att f' w' Hst Hexp H) as (_ & _ & _ & _ & _ & _ & Hm).
  unfold do_check_token_pass, assert_entry in H. rewrite Hst in H.
  cbn [kind_of do_fn_entry state_kind_eqb bind] in H. rewrite Hexp in H. cbn [bind] in H.
  apply check_slot_inv in Hexp as [-> _]. unfold receive_all_fuel in H. rewrite receive_all_step in H.
  destruct (decode_spec (w_rx w)) as [ | |t k]; [injection H as <- <-; repeat split..|].
  rewrite Hst' in Hm. destruct Hm.
Qed.

Lemma await_noresp_covered f now (w : W) pa f1 w1 :
  await_gap_poll_response A f now w pa = Ok (f1, w1, GprNoResponse) -> covered f w -> covered f1 w1.
Proof.
  unfold covered. intros (tr & H)%await_gap_poll_response_inv Hc.
  destruct (decode_spec (w_rx w)) as [ | |t k]; [destruct H as (-> & -> & _); cbn; lia..|].
  destruct H as (_ & H). destruct (match t with TData _ _ => _ | _ => false end); destruct H as [C _]; discriminate C.
Qed.

Lemma is_ctp_kind s att : s = CheckTokenPass att -> kind_of s = KCheckTokenPass.
Proof. intros ->. reflexivity. Qed.

Lemma do_use_token_ctp f now (w : W) f' w' att' :
  do_use_token A ops f now w = Ok (f', w') -> f_state f' = CheckTokenPass att' ->
  f_pending f' = f_pending f /\ w_rx w' = w_rx w.
Proof.
  intros H Hst'. rewrite do_use_token_split in H. apply bind_ok in H as ([f1 w1] & Eh & H).
  destruct (is_pass_token (f_state f1)) eqn:Ek.
  - destruct (do_use_token_head_pass A ops _ _ _ _ _ Eh Ek) as [_ [_ [_ [_ [_ [_ [Hp1 [_ [Hr1 _]]]]]]]]].
    pose proof (do_pass_token_pending _ _ _ _ _ H). pose proof (do_pass_token_rx _ _ _ _ _ H). split; congruence.
  - injection H as <- <-. destruct (do_use_token_head_ends A ops _ _ _ _ _ Eh) as [Q|P]; [|congruence].
    rewrite Hst' in Q. discriminate Q.
Qed.

Lemma do_await_status_response_ctp f now (w : W) f' w' att' :
  do_await_status_response A f now w = Ok (f', w') -> f_state f' = CheckTokenPass att' ->
  covered f w -> covered f' w'.
Proof.
  intros H Hst' Hc. unfold do_await_status_response, assert_entry in H.
  destruct (f_state f) as [ | | | | | | | | |address] eqn:Es; cbn [kind_of do_fn_entry state_kind_eqb bind get_await_status_response_address] in H; try discriminate H.
  apply bind_ok in H as ([[f1 w1] r] & Ea & H).
  pose proof (await_gap_poll_response_frame A _ _ _ _ _ _ _ Ea) as (_ & _ & Hs1 & _). rewrite Es in Hs1.
  destruct r.
  - injection H as <- <-. congruence.
  - apply await_noresp_covered in Ea; [|exact Hc]. apply bind_ok in H as ([f2 w2] & (s' & _ & -> & ->)%trans_spec & H).
    exact (do_pass_token_covered _ _ _ _ _ H Ea).
  - apply (trans_from A (AwaitStatusResponse address)) in H as (s' & [= <-] & -> & _); [discriminate Hst'|exact Hs1].
  - apply (trans_from A (AwaitStatusResponse address)) in H as (s' & [= <-] & -> & _); [discriminate Hst'|exact Hs1].
Qed.

Lemma do_await_data_response_ctp f now (w : W) f' w' att' :
  do_await_data_response A ops f now w = Ok (f', w') -> f_state f' = CheckTokenPass att' ->
  covered f w -> covered f' w'.
Proof.
  intros H Hst' Hc. unfold covered in *. unfold do_await_data_response, assert_entry in H.
  destruct (f_state f) as [ | | | | | |addr tk fa| | | ] eqn:Es; cbn [kind_of do_fn_entry state_kind_eqb bind get_await_data_response] in H; try discriminate H.
  destruct (nth_error (w_apps w) (f_next_app f)) as [app|]; [|discriminate H].
  rewrite receive_telegram_spec in H. cbn [bind] in H.
  (* only the time-out path leads on, through do_use_token *)
  assert (Hnone : forall (w0 : W) rest, (length rest <= length (w_rx w))%nat ->
            (let* (f1, expired) := check_slot_expired (sync_pending_bytes A f (set_rx A w0 rest)) now in
             if expired
             then let* app' := a_to ops app now (f_p f1) addr in
                  let w1 := log_call A (set_app A (set_rx A w0 rest) (f_next_app f) app') (CallHandleTimeout (f_next_app f) addr) in
                  let* (f2, w2) := trans A f1 (note A w1 TReplyTimeout) (fun s => transition_use_token s tk fa) in
                  let* f3 := set_first_cycle_done f2 in do_use_token A ops f3 now w2
             else Ok (f1, note A (set_rx A w0 rest) TReplyAwait)) = Ok (f', w') ->
            (length (w_rx w') <= f_pending f')%nat).
  { intros w0 rest Hle ([f1 expired] & [-> _]%check_slot_inv & H0)%bind_ok.
    destruct expired; [|injection H0 as <- <-; cbn in Hst'; congruence].
    apply bind_ok in H0 as (app' & _ & ([f2 w2] & (s' & _ & -> & ->)%trans_spec & (f3 & (tk3 & fa3 & ->)%set_first_cycle_done_inv & H0)%bind_ok)%bind_ok).
    apply (do_use_token_ctp _ now _ f' w' att') in H0 as [-> ->]; [|exact Hst']. cbn. lia. }
  destruct (decode_spec (w_rx w)) as [ | |t k].
  - destruct (Nat.ltb _ _); refine (Hnone _ _ _ H); cbn; lia.
  - destruct (Nat.ltb _ _); refine (Hnone _ _ _ H); cbn; lia.
  - exfalso. rewrite mark_rx_max in H. destruct (is_valid_response _ addr t).
    + apply bind_ok in H as (app' & _ & ([f1 w1] & Et & (f2 & (tk2 & fa2 & ->)%set_first_cycle_done_inv & [= <- _])%bind_ok)%bind_ok).
      discriminate Hst'.
    + apply (trans_from A (AwaitDataResponse addr tk fa)) in H as (s' & [= <-] & -> & _); [discriminate Hst'|exact Es].
Qed.

End PartA.

Section PartB.
Variable A : Type.
Variable ops : app_ops A.
Notation W := (world A).

Lemma enter_ctp_covered f now busy rxb (apps : list A) f' o apps' calls att' wire :
  poll ops f now (mkPhyIn busy rxb) apps = Ok (f', o, apps', calls) -> tx o = Some wire ->
  f_state f' = CheckTokenPass att' -> (length (rx_left o) <= f_pending f')%nat.
Proof.
  intros E Htx Hst'.
  destruct (poll_bk A ops now _ _ _ _ _ _ _ E) as (_ & _ & _ & L & _). rewrite Htx in L. cbn [tx_busy rx] in L.
  destruct L as (_ & Hb & Hcov & (l & El & Hlt)). subst busy.
  assert (Hbody : exists w', C11Proofs.body A ops f now false (mkWorld rxb None apps [] []) = Ok (f', w') /\ o = mkPhyOut (w_tx w') (w_rx w')).
  { destruct (in_pass (f_state f) || have_token (f_state f)) eqn:Eh.
    - destruct (poll_stable_body A ops _ _ _ _ _ _ _ _ Eh E) as (w' & Hb & Ho & _). exists w'. split; assumption.
    - apply orb_false_elim in Eh as [Ei Eh]. pose proof (idle_poll_not_in_pass A ops _ _ _ _ _ _ _ _ E Eh Ei) as C.
      rewrite Hst' in C. discriminate C. }
  destruct Hbody as (w' & H & ->). cbn [tx rx_left] in *. apply body_inv in H.
  replace (C11Proofs.predicted f now) with false in H
    by (unfold C11Proofs.predicted; rewrite El; symmetry; apply Z.leb_gt; pose proof (sync_nonneg f); lia).
  destruct H as (l0 & n & tr & H & _ & Hln). cbn [orb w_rx w_tx w_apps w_calls] in *.
  destruct (Nat.ltb_spec (f_pending f) (length rxb)) as [C|_]; [lia|]. injection Hln as -> ->.
  match type of H with C11Proofs.dispatch A ops ?g _ ?v = _ => set (f1 := g) in H; set (w := v) in H end.
  assert (Hc : covered A f1 w) by exact Hcov.
  unfold C11Proofs.dispatch in H. change (f_state f1) with (f_state f) in H.
  destruct (f_state f) as [ | | | |tk fa fcd|st|addr tk fa|dg att|att|a0] eqn:Es; cbn [kind_of poll_dispatch] in H; try discriminate H.
  - apply do_listen_token_entry in H. rewrite Hst' in H. discriminate H.
  - apply do_active_idle_heard in H as [Hk|(_ & g & v & Hg & _ & H)]; [rewrite Hst' in Hk; destruct Hk|].
    destruct (do_claim_token_not_in_pass A _ _ _ _ _ _ H Hst').
  - destruct (do_use_token_ctp A ops _ _ _ _ _ _ H Hst') as [-> ->]. exact Hc.
  - destruct (do_claim_token_not_in_pass A _ _ _ _ _ _ H Hst').
  - exact (do_await_data_response_ctp A ops _ _ _ _ _ _ H Hst' Hc).
  - exact (do_pass_token_covered A _ _ _ _ _ H Hc).
  - destruct (do_check_token_pass_cse A f1 _ _ _ _ att Es H) as (f2 & [|] & Ecs).
    + destruct (ctp_expired_pending A f1 _ _ _ _ _ _ Es Ecs H) as [-> ->]. exact Hc.
    + destruct (ctp_wait_exact A f1 _ _ _ _ _ _ _ Es Ecs H Hst') as (_ & T & _). rewrite Htx in T. discriminate T.
  - exact (do_await_status_response_ctp A _ _ _ _ _ _ H Hst' Hc).
Qed.

Lemma stay_ctp f now busy rxb (apps : list A) f' o apps' calls att' :
  poll ops f now (mkPhyIn busy rxb) apps = Ok (f', o, apps', calls) -> tx o = None ->
  f_state f' = CheckTokenPass att' ->
  (exists att, f_state f = CheckTokenPass att) /\
  ((busy || C11Proofs.predicted f now = true /\ f_lba f' = Some (Z.max (gv now (f_lba f)) now) /\
    f_pending f' = f_pending f /\ rx_left o = rxb) \/
   (busy = false /\ C11Proofs.predicted f now = false /\
    let fresh := Nat.ltb (f_pending f) (length rxb) in
    f_lba f' = Some (if fresh then Z.max (gv now (f_lba f)) now else gv now (f_lba f)) /\
    rx_left o = (match decode_spec rxb with Reject => [] | _ => rxb end) /\
    f_pending f' = Nat.min (if fresh then length rxb else f_pending f) (length (rx_left o)))).
Proof.
  intros E Htx Hst'.
  assert (Hpre : exists att, f_state f = CheckTokenPass att).
  { destruct (in_pass (f_state f)) eqn:Ei.
    - destruct (f_state f) as [ | | | | | | |dg att|att| ] eqn:Es; try discriminate Ei; [|exists att; reflexivity].
      exfalso. destruct (pass_token_poll A ops f now _ apps f' o apps' calls dg att Es E) as (_ & _ & _ & _ & D).
      destruct D as [(_ & Hs & _)|[(addr & _ & _ & Hs & _)|(r' & _ & _ & T & _)]]; congruence.
    - pose proof (poll_entry A ops f now _ apps f' o apps' calls Ei E) as He. rewrite Hst' in He. destruct He as [_ []]. exact Htx. }
  split; [exact Hpre|]. destruct Hpre as [att Es].
  destruct (poll_in_pass_body A ops f now _ apps f' o apps' calls ltac:(rewrite Es; reflexivity) E) as (w' & H & -> & _).
  cbn [tx rx_left tx_busy rx] in *. apply body_inv in H.
  destruct (busy || C11Proofs.predicted f now) eqn:Eb.
  - left. destruct H as [-> ->]. repeat split.
  - right. apply orb_false_elim in Eb as [-> Eb2]. split; [reflexivity|]. split; [exact Eb2|]. cbv zeta.
    destruct H as (l & n & tr & H & _ & Hln). cbn [w_rx w_tx w_apps w_calls] in *.
    match type of H with C11Proofs.dispatch A ops ?g _ _ = _ => set (f1 := g) in H end.
    unfold C11Proofs.dispatch in H. change (f_state f1) with (f_state f) in H. rewrite Es in H. cbn [kind_of poll_dispatch] in H.
    destruct (do_check_token_pass_cse A f1 _ _ _ _ att Es H) as (f2 & [|] & Ecs).
    + exfalso. destruct (do_check_token_pass_expired A f1 _ _ _ _ _ _ Es Ecs H) as (f3 & w3 & Hd & Hs3 & _ & _ & _ & _ & _ & Htx3 & _).
      apply (do_pass_token_result A f3 now w3 f' w' false (check_pass_next att) Hs3) in Hd as (r & g & s & l' & txo & tr' & -> & -> & D).
      destruct D as [(_ & _ & -> & _)|(_ & _ & [(ad & _ & Hdg & _)|(_ & -> & _)])]; [discriminate Hst'|discriminate Hdg|discriminate Htx].
    + destruct (ctp_wait_exact A f1 _ _ _ _ _ _ _ Es Ecs H Hst') as (-> & _ & -> & ->). cbn [w_rx f_lba f_pending f1 set_pending set_lba gv].
      destruct (Nat.ltb _ _); injection Hln as -> ->; repeat split.
Qed.

End PartB.

Section Sound.
Variable A : Type.
Variable ops : app_ops A.
Variable p : params.
Hypothesis Happs : apps_total A ops.
Hypothesis Hbv : builder_valid p.
Hypothesis Hdata : app_sends_data A ops.

(* while the pass is supervised: the station's last_bus_activity is not later than the monitor's reference
   instant and not earlier than the end of the last transmission the monitor knows; and unless the monitor
   expects a spurious growth (bytes left behind a consumed telegram, or arrived while the station did not
   look), pending_bytes covers the receive buffer *)
Definition LV (f : fdl) (buf : bytes) (g : mon2) : Prop :=
  forall att, f_state f = CheckTokenPass att ->
    exists l r, f_lba f = Some l /\ l_ref g = Some r /\ l <= r /\
      (forall e, l_txend g = Some e -> e <= l) /\
      (l_spur g = false -> (length buf <= f_pending f)%nat).

Definition JL (n : nat) (f : fdl) (apps : list A) (buf : bytes) (tl : Z) (m : mon) (g : mon2) : Prop :=
  JA A p n f apps buf tl m g /\ LV f buf g.

Lemma kind_ctp s : kind_of s = KCheckTokenPass -> exists att, s = CheckTokenPass att.
Proof. destruct s; cbn; try discriminate. intros _. eexists. reflexivity. Qed.

Lemma app_len_le {X} (a b : list X) : (length (a ++ b) <= length a)%nat -> b = [].
Proof. rewrite app_length. destruct b; cbn; [reflexivity|lia]. Qed.

Lemma live_ok n f apps buf tl m g now busy nb f' o apps' calls :
  Base A p n f apps buf tl m -> LV f buf g ->
  poll ops f now (mkPhyIn busy (buf ++ nb)) apps = Ok (f', o, apps', calls) ->
  ~ In R11_supervision_never_ends (y_e_live p m g (poll_event now busy (buf ++ nb) f' o calls)).
Proof.
  intros HB HL E Hin. set (s := poll_event now busy (buf ++ nb) f' o calls) in *.
  unfold y_e_live in Hin.
  destruct (y_quiet m g s && y_expired p g s && negb (y_acted m s)) eqn:Ec; [|contradiction].
  apply andb_true_iff in Ec. destruct Ec as [Ec Hact]. apply andb_true_iff in Ec. destruct Ec as [Hq Hex].
  assert (Hk0 : y_k0 m = KCheckTokenPass).
  { destruct (y_waiting_c12 m); destruct (state_kind_eqb (y_k0 m) KCheckTokenPass) eqn:Ek;
      destruct (state_kind_eqb (y_k0 m) KAwaitDataResponse); cbn in Hin;
      try (destruct (y_k0 m); try discriminate Ek; reflexivity);
      repeat (destruct Hin as [Hin|Hin]; try discriminate Hin); contradiction. }
  pose proof (x_k0_base A p n _ _ _ _ _ HB) as Hkf. change (x_k0 m) with (y_k0 m) in Hkf. rewrite Hk0 in Hkf.
  symmetry in Hkf. apply kind_ctp in Hkf. destruct Hkf as [att Es].
  destruct (HL att Es) as (l & r & El & Er & Hle & Htxe & Hpn).
  destruct HB as [R Hp Hn Hv Hleft Hpd Hb Htl].
  unfold y_quiet, y_looks, y_ongoing, y_grew, y_spur_now, y_now in Hq. cbn [s poll_event s_busy s_rx FdlOracle.s_now] in Hq.
  apply andb_true_iff in Hq. destruct Hq as [Hq Hsp]. apply andb_true_iff in Hq. destruct Hq as [Hlk Hgr].
  apply andb_true_iff in Hlk. destruct Hlk as [Hbusy Hong].
  destruct busy; [discriminate Hbusy|]. clear Hbusy.
  apply negb_true_iff, Nat.ltb_ge in Hgr. rewrite Hleft in Hgr. apply app_len_le in Hgr. subst nb. rewrite app_nil_r in *.
  unfold y_expired, y_now in Hex. rewrite Er in Hex. cbn [s poll_event FdlOracle.s_now] in Hex. apply Z.ltb_lt in Hex.
  unfold y_acted, y_consumed, y_k1, y_k0, y_post, y_pre in Hact.
  cbn [s poll_event s_consumed s_tx s_calls s_view view_of v_kind] in Hact. rewrite Hv in Hact. cbn [view_of v_kind] in Hact.
  apply negb_true_iff in Hact. repeat (apply orb_false_elim in Hact; destruct Hact as [Hact ?]).
  match goal with H : negb (state_kind_eqb _ _) = false |- _ => apply negb_false_iff in H; rename H into Hkk end.
  match goal with H : match tx o with Some _ => true | None => false end = false |- _ => rename H into Htx end.
  rewrite Es in Hkk. cbn [kind_of] in Hkk.
  (* the slot timer of the model has run out *)
  pose proof (bv_slot _ _ R) as Hslot. rewrite Hp in Hslot.
  assert (Hexp : slot_expired f now (mkPhyIn false buf) = true).
  { unfold slot_expired, lba_seen, C11Proofs.predicted. cbn [tx_busy rx]. rewrite El, Hp.
    destruct (Z.leb_spec now l) as [C|_]; [lia|]. cbn [negb andb].
    assert (Hcov : (length buf <= f_pending f)%nat).
    { apply negb_true_iff in Hsp. unfold y_looks, y_ongoing, y_now in Hsp.
      cbn [s poll_event s_busy FdlOracle.s_now negb] in Hsp. rewrite Hong in Hsp.
      destruct (l_spur g); [|apply Hpn; reflexivity].
      cbn [andb] in Hsp. destruct buf; [cbn; lia|discriminate Hsp]. }
    destruct (Nat.ltb_spec (f_pending f) (length buf)) as [C|_]; [lia|]. apply Z.ltb_lt. lia. }
  destruct (check_pass_poll A ops f now _ apps f' o apps' calls att Es E) as [_ [_ [_ D]]]. rewrite Hexp in D.
  destruct D as [_ [r1 [_ [[_ [Hs _]]|[r' [_ [_ [T _]]]]]]]].
  - rewrite Hs in Hkk. discriminate Hkk.
  - rewrite T in Htx. discriminate Htx.
Qed.

Lemma zmax_opt_ge o x : x <= zmax_opt o x.
Proof. destruct o; cbn; lia. Qed.
Lemma zmax_opt_ge_l r x : r <= zmax_opt (Some r) x.
Proof. cbn. lia. Qed.

Lemma lv_poll n f apps buf tl m g now busy nb f' o apps' calls :
  Base A p n f apps buf tl m -> UB f tl g -> LV f buf g -> tl < now ->
  poll ops f now (mkPhyIn busy (buf ++ nb)) apps = Ok (f', o, apps', calls) ->
  LV f' (rx_left o) (y_g' p n m g (poll_event now busy (buf ++ nb) f' o calls)).
Proof.
  intros HB HU HL Hlt E att' Hst'. set (s := poll_event now busy (buf ++ nb) f' o calls).
  destruct HB as [R Hp Hn Hv Hleft Hpd Hb Htl].
  change (l_ref (y_g' p n m g s)) with (y_ref2 p m g s).
  change (l_txend (y_g' p n m g s)) with (y_txend p g s).
  change (l_spur (y_g' p n m g s)) with (y_spur m g s).
  unfold y_ref2, y_txend, y_tx_end, y_now. cbn [s poll_event s_tx FdlOracle.s_now].
  destruct (tx o) as [wire|] eqn:Etx.
  - (* the pass, a retry, or the pass after a removal *)
    pose proof (poll_lba_case A ops _ _ _ _ _ _ _ _ _ E) as LC. rewrite Etx in LC.
    destruct LC as [wire' l0 Ew L' _ _ _ _|C _|C _|C _ _|C _ _]; try discriminate C. injection Ew as <-.
    rewrite dur_is_prop. rewrite Hp in L'.
    eexists. eexists. split; [exact L'|]. split; [reflexivity|]. split; [apply zmax_opt_ge|].
    split; [intros e He; injection He as <-; lia|].
    intros _. exact (enter_ctp_covered A ops _ _ _ _ _ _ _ _ _ _ _ E Etx Hst').
  - destruct (stay_ctp A ops _ _ _ _ _ _ _ _ _ _ E Etx Hst') as [[att Es] Hcase].
    destruct (HL att Es) as (l & r & El & Er & Hle & Htxe & Hpn).
    rewrite El in Hcase. cbn [gv] in Hcase.
    (* without a transmission the reference instant becomes max r now if the monitor saw something
       happen, and stays r otherwise *)
    assert (Href : forall x, x <= Z.max r now -> (y_happened m g s = false -> x <= r) ->
              exists r', y_ref1 m g s = Some r' /\ x <= r').
    { intros x H1 H2. unfold y_ref1, y_now. cbn [s poll_event FdlOracle.s_now]. rewrite Er.
      destruct (y_happened m g s); eexists; (split; [reflexivity|]); [exact H1|exact (H2 eq_refl)]. }
    assert (Hgrew : y_grew m s = false -> nb = []).
    { unfold y_grew. cbn [s poll_event s_rx]. rewrite Hleft. intros C%Nat.ltb_ge. exact (app_len_le _ _ C). }
    unfold y_spur, y_consumed. cbn [s poll_event s_consumed s_rx].
    destruct Hcase as [(Hbp & Hl' & Hp' & Hrx')|(-> & Hp0 & Hl' & Hrx' & Hp')].
    + (* the poll does not look at the buffer: PHY busy, or before the predicted end of the own transmission *)
      assert (Hnl : y_looks g s = false).
      { unfold y_looks, y_ongoing, y_now. cbn [s poll_event s_busy FdlOracle.s_now]. destruct busy; [reflexivity|]. cbn [orb] in Hbp.
        unfold C11Proofs.predicted in Hbp. rewrite El in Hbp. apply Z.leb_le in Hbp.
        destruct (HU l El) as [C|(e & He & C)]; [lia|]. rewrite He. destruct (Z.leb_spec now e); [reflexivity|lia]. }
      destruct (Href (Z.max l now)) as (r' & Er' & Hr'); [lia| |].
      { unfold y_happened. cbn [s poll_event s_busy]. intros Hh. destruct busy; [destruct (y_grew m s); discriminate Hh|].
        cbn [orb] in Hbp. unfold C11Proofs.predicted in Hbp. rewrite El in Hbp. apply Z.leb_le in Hbp. lia. }
      exists (Z.max l now), r'. split; [exact Hl'|]. split; [exact Er'|]. split; [exact Hr'|].
      split; [intros e He; specialize (Htxe e He); lia|].
      rewrite Hrx', Nat.sub_diag, Hnl. cbn [Nat.eqb negb]. intros [Hs1 Hs2%Hgrew]%orb_false_elim.
      subst nb. rewrite app_nil_r, Hp'. exact (Hpn Hs1).
    + (* the poll looks at the buffer and the station waits on *)
      unfold C11Proofs.predicted in Hp0. rewrite El in Hp0. apply Z.leb_gt in Hp0. cbv zeta in Hl', Hp'.
      assert (Hlooks : y_looks g s = true).
      { unfold y_looks, y_ongoing, y_now. cbn [s poll_event s_busy FdlOracle.s_now negb andb].
        destruct (l_txend g) as [e|]; [|reflexivity]. specialize (Htxe e eq_refl). destruct (Z.leb_spec now e); [lia|reflexivity]. }
      destruct (Href (if Nat.ltb (f_pending f) (length (buf ++ nb)) then Z.max l now else l)) as (r' & Er' & Hr').
      { destruct (Nat.ltb _ _); lia. }
      { (* fresh bytes are seen by the monitor as well: the buffer grew, or a spurious growth was expected *)
        intros Hh. destruct (Nat.ltb_spec (f_pending f) (length (buf ++ nb))) as [Efresh|_]; [exfalso|exact Hle].
        unfold y_happened in Hh. apply orb_false_elim in Hh as [Hh Hsp]. apply orb_false_elim in Hh as [Hh _].
        apply orb_false_elim in Hh as [Hg%Hgrew _]. subst nb. rewrite app_nil_r in *.
        unfold y_spur_now in Hsp. rewrite Hlooks in Hsp. cbn [s poll_event s_rx] in Hsp.
        destruct (l_spur g); [|specialize (Hpn eq_refl); lia]. destruct buf; [cbn in Efresh; lia|discriminate Hsp]. }
      eexists. exists r'. split; [exact Hl'|]. split; [exact Er'|]. split; [exact Hr'|].
      split; [intros e He; specialize (Htxe e He); destruct (Nat.ltb _ _); lia|].
      intros _. rewrite Hp'. destruct (decode_spec (buf ++ nb)); rewrite Hrx'; cbn [length]; try lia;
        destruct (Nat.ltb_spec (f_pending f) (length (buf ++ nb))); lia.
Qed.

Lemma lv_api a f buf m g f' :
  LV f buf g -> api_result p a f = Ok f' -> LV f' buf (snd (mon_after_api a (view_of f') m g)).
Proof.
  intros HL E att Hst. destruct a; cbn [api_result mon_after_api snd] in *.
  - destruct (fdl_new_fields _ _ E) as (S1 & _). rewrite S1 in Hst. discriminate Hst.
  - unfold set_online, set_state in E. injection E as <-. exact (HL att Hst).
  - unfold set_offline, set_state in E. destruct (fdl_new_fields _ _ E) as (S1 & _). rewrite S1 in Hst. discriminate Hst.
  - discriminate E.
Qed.

Theorem supervision_liveness_sound (apps : list A) (ins : list minput) :
  ins_ok 0 ins ->
  forall k r, In (k, r) (monitor p (length apps) (model_transcript A ops p apps ins)) -> r <> R11_supervision_never_ends.
Proof.
  intros Hok.
  apply (generic_sound_transcript A ops p (length apps) (fun r => r <> R11_supervision_never_ends) (JL (length apps)) (fun _ => True));
    try assumption; try reflexivity.
  - discriminate.
  - intros a f apps0 buf tl m g f' [HJ HL] E _. split; [exact (JA_api A p Hbv _ _ _ _ _ _ _ _ _ HJ E)|exact (lv_api _ _ _ _ _ _ HL E)].
  - intros f apps0 buf tl m g now busy nb f' o apps' calls [HJ HL] Hlt Hnow Hnb E _.
    assert (Hlen : length apps0 = length apps) by (destruct HJ as ((((HB & _) & _) & _) & _); exact (b_n _ _ _ _ _ _ _ _ HB)).
    pose proof HJ as (_ & _ & HU & _).
    destruct (JA_poll A ops p Happs Hbv Hdata _ _ _ _ _ _ _ _ _ _ _ _ _ _ Hlen HJ Hlt Hnow Hnb E) as (H1 & H2 & HJ' & HB & _).
    split; [|split; [|split; [exact HJ'|]]].
    + rewrite H1. intros r Hr C. subst r. apply (x_e12b_only p m _) in Hr. discriminate Hr.
    + rewrite H2. intros r Hr C. subst r. apply in_app_or in Hr. destruct Hr as [Hr|Hr].
      * apply (y_e_sweep_only p m g _) in Hr. discriminate Hr.
      * apply in_app_or in Hr. destruct Hr as [Hr|Hr].
        -- apply (y_e_scan_only p m g _) in Hr. discriminate Hr.
        -- exact (live_ok _ _ _ _ _ _ _ _ _ _ _ _ _ _ HB HL E Hr).
    + rewrite mon_poll2_eq. cbn [fst]. exact (lv_poll _ _ _ _ _ _ _ _ _ _ _ _ _ _ HB HU HL Hlt E).
  - intros f0 apps0 E Hn _. split; [exact (JA_init A p Hbv _ _ _ E Hn)|].
    intros att Hst. destruct (fdl_new_fields _ _ E) as (S1 & _). rewrite S1 in Hst. discriminate Hst.
  - apply transcript_ok_true.
Qed.

(* with FdlOracleSoundAll.c11_open: no rule of C11 at all is reported on a transcript of the model *)
Corollary c11_oracle_sound (apps : list A) (ins : list minput) :
  ins_ok 0 ins ->
  forall k r, In (k, r) (monitor p (length apps) (model_transcript A ops p apps ins)) -> rule_prop r <> PC11.
Proof.
  intros Hok k r Hin Hp. pose proof (c11_open A ops p Happs Hbv Hdata apps ins Hok k r Hin Hp) as ->.
  exact (supervision_liveness_sound apps ins Hok k _ Hin eq_refl).
Qed.

End Sound.

