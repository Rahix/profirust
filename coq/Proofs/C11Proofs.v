(* C11 (token hand-over: supervision, retry, heard-successor rule, second offer) over Model/Fdl.v.
   A poll is split into prologue, guard, bus-activity bookkeeping and state function; do_pass_token and
   do_check_token_pass are characterised completely, every other do_* function by how it can enter a
   hand-over; the retry discipline is then an invariant of runs of polls over a ghost counter of token
   transmissions. *)
From PB Require Import Common Tables FdlTables Telegram Phy TokenRing Params Fdl FdlProofs FdlStepProofs DecodeSpec C16Proofs.

Definition ring_witnessed (r r' : ring) : Prop := exists passes, run_w r passes = Ok r'.

Lemma rw_refl r : ring_witnessed r r.
Proof. exists []. reflexivity. Qed.

Lemma run_w_app_ p1 : forall p2 r, run_w r (p1 ++ p2) = (let* r' := run_w r p1 in run_w r' p2).
Proof.
  induction p1 as [|[sa da] t IH]; intros p2 r; cbn [app run_w bind]; [reflexivity|].
  destruct (witness r sa da); cbn [bind]; [apply IH|reflexivity|reflexivity].
Qed.

Lemma rw_trans r r1 r2 : ring_witnessed r r1 -> ring_witnessed r1 r2 -> ring_witnessed r r2.
Proof. intros [p1 H1] [p2 H2]. exists (p1 ++ p2). rewrite run_w_app_, H1. exact H2. Qed.

Lemma rw_one r sa da r' : witness r sa da = Ok r' -> ring_witnessed r r'.
Proof. intros H. exists [(sa, da)]. cbn. rewrite H. reflexivity. Qed.

Definition in_pass (s : state) : bool :=
  match s with PassToken _ _ | CheckTokenPass _ => true | _ => false end.

(* states a station can be in after it heard traffic while supervising / idling *)
Definition heard_kind (s : state) : Prop :=
  match s with ActiveIdle _ _ _ | UseToken _ _ _ | ListenToken _ _ => True | _ => False end.

(* one poll of a run: station before, time, PHY input, station after, PHY output *)
Record step_rec : Type := mkStep { s_f : fdl; s_now : Z; s_in : phy_in; s_f' : fdl; s_out : phy_out }.

Definition att_index (a : attempt) : nat := match a with AttFirst => 1 | AttSecond => 2 | AttThird => 3 end.

(* Ghost counter of token transmissions of the current hand-over.  It is driven by observations only
   (does the poll transmit; is the station in PassToken / CheckTokenPass afterwards): it counts the
   transmissions, starts again at 1 with the transmission after the third, and is 0 outside a hand-over. *)
Definition ghost_next (c : nat) (f' : fdl) (o : phy_out) : nat :=
  if in_pass (f_state f') then
    match tx o with Some _ => if Nat.eqb c 3 then 1%nat else S c | None => c end
  else 0%nat.

(* the ghost counter agrees with the attempt label of the code *)
Definition ghost_ok (c : nat) (f : fdl) : Prop :=
  match f_state f with
  | CheckTokenPass a => c = att_index a
  | PassToken _ a => c = pred (att_index a) \/ (a = AttFirst /\ c = 3%nat)
  | _ => c = 0%nat
  end.

Lemma set_first_cycle_done_inv f f' : set_first_cycle_done f = Ok f' -> exists tk fa, f' = set_st f (UseToken tk fa true).
Proof. unfold set_first_cycle_done. intros ([[tk fa] fcd] & _ & [= <-])%bind_ok. do 2 eexists. reflexivity. Qed.

Lemma sbl_set_lba f l : same_but_lba f (set_lba f l).
Proof. unfold same_but_lba. repeat split; reflexivity. Qed.

Section WithApps.
Variable A : Type.
Variable ops : app_ops A.
Notation W := (world A).

Lemma receive_all_telegrams_none cb f (w : W) f' w' : receive_all_telegrams A cb f w = Ok (f', w') ->
  match decode_spec (w_rx w) with
  | Accept _ _ => True
  | d => let rest := match d with Reject => [] | _ => w_rx w end in
         f' = set_pending f (Nat.min (f_pending f) (length rest)) /\ w' = set_rx A w rest
  end.
Proof.
  unfold receive_all_telegrams, receive_all_fuel. rewrite receive_all_step.
  destruct (decode_spec (w_rx w)); [intros [= <- <-]; split; reflexivity..|exact (fun _ => I)].
Qed.

(* the same function as FdlProofs.dispatch (convertible); kept under this name because theorems of this
   and later files are stated over it *)
Definition dispatch (f : fdl) (now : Z) (w : W) : res (fdl * W) :=
  match poll_dispatch (kind_of (f_state f)) with
  | TgUnreachable => Panic SiteUnreachable
  | TgTodo => Panic SiteUnreachable
  | TgDo DoListenToken => do_listen_token A f now w
  | TgDo DoClaimToken => do_claim_token A f now w
  | TgDo DoUseToken => do_use_token A ops f now w
  | TgDo DoAwaitDataResponse => do_await_data_response A ops f now w
  | TgDo DoPassToken => do_pass_token A f now w
  | TgDo DoCheckTokenPass => do_check_token_pass A f now w
  | TgDo DoActiveIdle => do_active_idle A f now w
  | TgDo DoAwaitStatusResponse => do_await_status_response A f now w
  end.

(* `now` is not after the recorded (predicted) end of bus activity *)
Definition predicted (f : fdl) (now : Z) : bool :=
  match f_lba f with Some l => now <=? l | None => false end.

Definition body (f : fdl) (now : Z) (busy : bool) (w : W) : res (fdl * W) :=
  if busy || predicted f now
  then Ok (mark_bus_activity f now, note A w (if busy then TOngoingPhy else TOngoingPredicted))
  else let (f1, w1) := check_for_bus_activity A f now w in dispatch f1 now w1.

Lemma body_eq f now busy w :
  (let '(f1, w1, done) := check_for_ongoing_transmision A f now busy w in
   if done then Ok (f1, w1) else
   let (f2, w2) := check_for_bus_activity A f1 now w1 in
   match poll_dispatch (kind_of (f_state f2)) with
   | TgUnreachable => Panic SiteUnreachable
   | TgTodo => Panic SiteUnreachable
   | TgDo DoListenToken => do_listen_token A f2 now w2
   | TgDo DoClaimToken => do_claim_token A f2 now w2
   | TgDo DoUseToken => do_use_token A ops f2 now w2
   | TgDo DoAwaitDataResponse => do_await_data_response A ops f2 now w2
   | TgDo DoPassToken => do_pass_token A f2 now w2
   | TgDo DoCheckTokenPass => do_check_token_pass A f2 now w2
   | TgDo DoActiveIdle => do_active_idle A f2 now w2
   | TgDo DoAwaitStatusResponse => do_await_status_response A f2 now w2
   end) = body f now busy w.
Proof.
  unfold body, check_for_ongoing_transmision, predicted, dispatch. cbn [ongoing_uses_predicted_end andb].
  destruct (busy || match f_lba f with Some l => now <=? l | None => false end); reflexivity.
Qed.

(* what the connectivity prologue does to the station before the body of the poll *)
Inductive prologue : fdl -> W -> fdl -> W -> Prop :=
| ProNone f w : prologue f w f w
| ProTrans f w s' : in_pass (f_state f) = false -> have_token (f_state f) = false ->
    (s' = ListenToken None 0 /\ f_conn f = ConnOnline /\ online_entry_kind (kind_of (f_state f)) = true) \/ s' = PassiveIdle ->
    prologue f w (set_st f s') (note A w (TTrans (kind_of (f_state f)) (kind_of s'))).

Lemma poll_inner_cases f now busy w f' w' : poll_inner ops f now busy w = Ok (f', w') ->
  (f_conn f = ConnOffline /\ f_state f = Offline /\ f' = f /\ w' = w) \/
  (f_conn f <> ConnOffline /\ exists f0 w0, prologue f w f0 w0 /\ body f0 now busy w0 = Ok (f', w')).
Proof.
  intros H. apply poll_inner_inv in H as [H|(f2 & w2 & Hc & Hpro & H)]; [left; exact H|right].
  split; [exact Hc|]. exists f2, w2. split.
  - destruct Hpro as [[-> ->]|(s' & -> & -> & Hs)]; [apply ProNone|].
    apply ProTrans; destruct Hs as [(Ho & Hk & ->)|(Hp & Hk & ->)];
      try (destruct (f_state f); try discriminate Hk; reflexivity); [left; repeat split; assumption|right; reflexivity].
  - unfold body, predicted. destruct (busy || _); [destruct H as [-> ->]; reflexivity|].
    destruct H as (f3 & w3 & -> & H). exact H.
Qed.

(* states that the prologue leaves alone (everything but Offline / PassiveIdle and, for the passive
   connectivity, ListenToken / ActiveIdle) *)
Lemma prologue_in_pass f w f0 w0 : prologue f w f0 w0 -> in_pass (f_state f) = true -> f0 = f /\ w0 = w.
Proof. intros [f1 w1|f1 w1 s' Hn _ _] Hp; [split; reflexivity|rewrite Hp in Hn; discriminate Hn]. Qed.

Lemma prologue_have_token f w f0 w0 : prologue f w f0 w0 -> have_token (f_state f) = true -> f0 = f /\ w0 = w.
Proof. intros [f1 w1|f1 w1 s' _ Hn _] Hp; [split; reflexivity|rewrite Hp in Hn; discriminate Hn]. Qed.

Lemma prologue_frame f w f0 w0 : prologue f w f0 w0 ->
  f_p f0 = f_p f /\ f_ring f0 = f_ring f /\ f_lba f0 = f_lba f /\ f_pending f0 = f_pending f /\ f_gap f0 = f_gap f /\
  w_tx w0 = w_tx w /\ w_calls w0 = w_calls w /\ w_rx w0 = w_rx w /\ w_apps w0 = w_apps w.
Proof. intros [f1 w1|f1 w1 s' _ _ _]; cbn; repeat split; reflexivity. Qed.

Lemma prologue_not_in_pass f w f0 w0 : prologue f w f0 w0 -> in_pass (f_state f) = false -> in_pass (f_state f0) = false.
Proof. intros [f1 w1|f1 w1 s' _ _ [[-> _]| ->]] Hp; [exact Hp|reflexivity|reflexivity]. Qed.

Lemma poll_inv f now pin (apps : list A) f' o a c :
  poll ops f now pin apps = Ok (f', o, a, c) ->
  exists w', poll_inner ops f now (tx_busy pin) (mkWorld (rx pin) None apps [] []) = Ok (f', w') /\
             o = mkPhyOut (w_tx w') (w_rx w') /\ a = w_apps w' /\ c = w_calls w'.
Proof.
  unfold poll, poll_traced.
  intros ([[[[f1 o1] a1] c1] tr] & ([f2 w1] & H & [= <- <- <- <- <-])%bind_ok & [= <- <- <- <-])%bind_ok.
  exists w1. repeat split. exact H.
Qed.

(* bus-activity bookkeeping leaves everything but last_bus_activity / pending_bytes alone *)
Definition same_but_lba_pending (f f' : fdl) : Prop :=
  f_p f' = f_p f /\ f_ring f' = f_ring f /\ f_conn f' = f_conn f /\ f_gap f' = f_gap f /\
  f_state f' = f_state f /\ f_last_token_time f' = f_last_token_time f /\
  f_end_tht f' = f_end_tht f /\ f_next_app f' = f_next_app f.

Lemma sblp_set f l n : same_but_lba_pending f (set_pending (set_lba f l) n).
Proof. unfold same_but_lba_pending. repeat split; reflexivity. Qed.

Lemma sblp_trans f g h : same_but_lba_pending f g -> same_but_lba_pending g h -> same_but_lba_pending f h.
Proof. unfold same_but_lba_pending. intuition congruence. Qed.

Lemma sbl_sblp f f' : same_but_lba f f' -> same_but_lba_pending f f'.
Proof. unfold same_but_lba, same_but_lba_pending. intuition congruence. Qed.

Lemma mark_bus_activity_sblp f now : same_but_lba_pending f (mark_bus_activity f now).
Proof. rewrite mark_bus_activity_eq. unfold same_but_lba_pending. repeat split; reflexivity. Qed.

Lemma mark_bus_activity_lba f now :
  f_lba (mark_bus_activity f now) = Some (match f_lba f with Some l => Z.max l now | None => now end) /\
  f_pending (mark_bus_activity f now) = f_pending f.
Proof. rewrite mark_bus_activity_eq. unfold goi_val. destruct (f_lba f); cbn; rewrite ?Z.max_id; split; reflexivity. Qed.

Lemma cfba_eq f now (w : W) : check_for_bus_activity A f now w =
  let fresh := Nat.ltb (f_pending f) (length (w_rx w)) in
  (set_pending (set_lba f (if fresh then Some (Z.max (goi_val f now) now) else f_lba f)) (if fresh then length (w_rx w) else f_pending f),
   mkWorld (w_rx w) (w_tx w) (w_apps w) (w_calls w) (if fresh then w_trace w ++ [TBusActivity] else w_trace w)).
Proof.
  unfold check_for_bus_activity. destruct (Nat.ltb _ _); [rewrite mark_bus_activity_eq; reflexivity|destruct f, w; reflexivity].
Qed.

Lemma cfba_spec f now (w : W) f1 w1 : check_for_bus_activity A f now w = (f1, w1) ->
  same_but_lba_pending f f1 /\ w_tx w1 = w_tx w /\ w_calls w1 = w_calls w /\ w_rx w1 = w_rx w /\ w_apps w1 = w_apps w /\
  (if Nat.ltb (f_pending f) (length (w_rx w))
   then f_lba f1 = Some (match f_lba f with Some l => Z.max l now | None => now end) /\ f_pending f1 = length (w_rx w)
   else f1 = f).
Proof.
  intros H. split; [rewrite cfba_eq in H; injection H as <- _; apply sblp_set|].
  unfold check_for_bus_activity in H. destruct (Nat.ltb _ _); injection H as <- <-; repeat split; apply mark_bus_activity_lba.
Qed.

(* last_bus_activity as the state function of this poll sees it (after check_for_bus_activity) *)
Definition lba_seen (f : fdl) (now : Z) (nrx : nat) : Z :=
  if Nat.ltb (f_pending f) nrx
  then match f_lba f with Some l => Z.max l now | None => now end
  else match f_lba f with Some l => l | None => now end.

Lemma body_inv f now busy (w : W) f' w' : body f now busy w = Ok (f', w') ->
  if busy || predicted f now
  then f' = set_lba f (Some (Z.max (goi_val f now) now)) /\ w' = note A w (if busy then TOngoingPhy else TOngoingPredicted)
  else exists l n tr,
         dispatch (set_pending (set_lba f l) n) now (mkWorld (w_rx w) (w_tx w) (w_apps w) (w_calls w) tr) = Ok (f', w') /\
         goi_val (set_lba f l) now = lba_seen f now (length (w_rx w)) /\
         (l, n) = if Nat.ltb (f_pending f) (length (w_rx w)) then (Some (Z.max (goi_val f now) now), length (w_rx w))
                  else (f_lba f, f_pending f).
Proof.
  unfold body. destruct (busy || predicted f now).
  - rewrite mark_bus_activity_eq. intros [= <- <-]. split; reflexivity.
  - rewrite cfba_eq. cbv zeta. intros H. do 3 eexists. split; [exact H|].
    unfold lba_seen, goi_val. destruct (Nat.ltb _ _); split; try reflexivity. cbn. destruct (f_lba f); rewrite ?Z.max_id; reflexivity.
Qed.

Lemma body_new_bytes f now (w : W) f' w' :
  predicted f now = false -> (f_pending f < length (w_rx w))%nat -> body f now false w = Ok (f', w') ->
  exists tr, dispatch (set_pending (set_lba f (Some now)) (length (w_rx w))) now
               (mkWorld (w_rx w) (w_tx w) (w_apps w) (w_calls w) tr) = Ok (f', w').
Proof.
  intros Hp Hn H. apply body_inv in H. rewrite Hp in H. destruct H as (l & n & tr & H & _ & Hln).
  apply Nat.ltb_lt in Hn. rewrite Hn in Hln. injection Hln as -> ->. exists tr.
  replace now with (Z.max (goi_val f now) now) at 1; [exact H|].
  unfold predicted in Hp. unfold goi_val. destruct (f_lba f); [apply Z.leb_gt in Hp|]; lia.
Qed.

Lemma poll_stable_body f now pin (apps : list A) f' o a c :
  in_pass (f_state f) || have_token (f_state f) = true -> poll ops f now pin apps = Ok (f', o, a, c) ->
  exists w', body f now (tx_busy pin) (mkWorld (rx pin) None apps [] []) = Ok (f', w') /\
             o = mkPhyOut (w_tx w') (w_rx w') /\ a = w_apps w' /\ c = w_calls w'.
Proof.
  intros Hp H. apply poll_inv in H. destruct H as [w' [H Ho]].
  apply poll_inner_cases in H. destruct H as [[_ [Hs _]]|[_ [f0 [w0 [Hpro H]]]]].
  - rewrite Hs in Hp. discriminate Hp.
  - exists w'. split; [|exact Ho]. apply orb_true_iff in Hp.
    destruct Hp as [Hp|Hp]; [destruct (prologue_in_pass _ _ _ _ Hpro Hp) as [<- <-]|destruct (prologue_have_token _ _ _ _ Hpro Hp) as [<- <-]]; exact H.
Qed.

Lemma poll_in_pass_body f now pin (apps : list A) f' o a c :
  in_pass (f_state f) = true -> poll ops f now pin apps = Ok (f', o, a, c) ->
  exists w', body f now (tx_busy pin) (mkWorld (rx pin) None apps [] []) = Ok (f', w') /\
             o = mkPhyOut (w_tx w') (w_rx w') /\ a = w_apps w' /\ c = w_calls w'.
Proof. intros Hp. apply poll_stable_body. rewrite Hp. reflexivity. Qed.

Lemma poll_inner_online f now busy (w : W) :
  f_conn f = ConnOnline -> online_entry_kind (kind_of (f_state f)) = false ->
  poll_inner ops f now busy w = body f now busy w.
Proof. intros Hc Hk. unfold poll_inner. rewrite Hc, Hk. cbn [bind]. apply body_eq. Qed.

(* the result of the token transmission at the end of do_pass_token *)
Definition token_passed (f : fdl) (now : Z) (att : attempt) (w : W) (f' : fdl) (w' : W) : Prop :=
  exists r', witness (f_ring f) (ts f) (r_ns (f_ring f)) = Ok r' /\ f_ring f' = r' /\
    w_tx w' = Some (encode_token (r_ns (f_ring f)) (ts f)) /\
    f_state f' = (if r_ns r' =? ts f then UseToken now None false else CheckTokenPass att) /\
    f_p f' = f_p f /\ f_conn f' = f_conn f /\ w_calls w' = w_calls w /\ w_rx w' = w_rx w /\ w_apps w' = w_apps w.

Inductive pass_outcome (f : fdl) (now : Z) (dg : bool) (att : attempt) (w : W) (f' : fdl) (w' : W) : Prop :=
| PoWait : same_but_lba f f' -> w_tx w' = None -> w_calls w' = w_calls w -> w_rx w' = w_rx w -> w_apps w' = w_apps w ->
    pass_outcome f now dg att w f' w'                       (* synchronisation pause not over *)
| PoGapPoll a : dg = true -> f_state f' = AwaitStatusResponse a -> f_ring f' = f_ring f -> f_p f' = f_p f -> f_conn f' = f_conn f ->
    w_tx w' <> None -> w_calls w' = w_calls w -> w_rx w' = w_rx w -> w_apps w' = w_apps w ->
    pass_outcome f now dg att w f' w'                       (* a GAP poll instead of the token *)
| PoToken : token_passed f now att w f' w' -> pass_outcome f now dg att w f' w'.

Lemma do_pass_token_spec f now (w : W) f' w' dg att :
  f_state f = PassToken dg att -> w_tx w = None ->
  do_pass_token A f now w = Ok (f', w') -> pass_outcome f now dg att w f' w'.
Proof.
  intros Hst Hw H.
  destruct (do_pass_token_result A f now w f' w' dg att Hst H) as (r & g & s & l & txo & tr & -> & -> & D).
  destruct D as [(-> & -> & -> & ->)|(_ & _ & [(a & -> & Hdg & -> & _ & _ & -> & Hne)|(Hwit & -> & ->)])].
  - apply PoWait; try reflexivity; [|exact Hw]. unfold same_but_lba. cbn. rewrite Hst. repeat split; reflexivity.
  - apply (PoGapPoll _ _ _ _ _ _ _ a); try reflexivity; assumption.
  - apply PoToken. exists r. repeat split; try reflexivity. exact Hwit.
Qed.

(* handle_telegram never leaves {ActiveIdle, UseToken, ListenToken}, never transmits,
   and touches the ring view only through witness_token_pass *)

(* a branch of handle_telegram ends in Ok of an updated station or in a transition; what is left to
   show afterwards is at most that the new ring view is witnessed *)
Local Ltac ht_leaf H Es :=
  first [apply trans_spec in H as (? & [= <-] & -> & ->) | injection H as <- <-];
  rewrite ?Es; cbn; repeat split; try reflexivity; try apply rw_refl.

Lemma handle_telegram_heard now f (w : W) t il f' w' :
  heard_kind (f_state f) -> handle_telegram A now f w t il = Ok (f', w') ->
  heard_kind (f_state f') /\ ring_witnessed (f_ring f) (f_ring f') /\ f_p f' = f_p f /\ f_conn f' = f_conn f /\
  w_tx w' = w_tx w /\ w_calls w' = w_calls w /\ w_apps w' = w_apps w /\ w_rx w' = w_rx w /\
  f_lba f' = f_lba f /\ f_pending f' = f_pending f.
Proof.
  unfold handle_telegram. intros Hk H.
  destruct (f_state f) as [ | |sr0 cc0|sr nps cc|tk fa fcd| | | | | ] eqn:Es; try contradiction Hk;
    cbn [negb kind_of state_kind_eqb get_active_idle bind] in H; [ht_leaf H Es| |discriminate H].
  destruct t as [h pdu|da sa|]; [destruct (_ && il); ht_leaf H Es| |ht_leaf H Es].
  destruct (sa =? ts f).
  - apply bind_ok in H as (cc' & _ & H). destruct (cc' =? _); ht_leaf H Es.
  - destruct (_ || _); [apply bind_ok in H as (r & Ew & H); ht_leaf H Es; exact (rw_one _ _ _ _ Ew)|].
    destruct (sa =? _); [ht_leaf H Es|]. destruct nps as [a0|]; [destruct (a0 =? sa)|]; [|ht_leaf H Es..].
    apply bind_ok in H as (r & Ew & H). ht_leaf H Es. exact (rw_one _ _ _ _ Ew).
Qed.

Lemma cse_spec f now f1 b : check_slot_expired f now = Ok (f1, b) ->
  same_but_lba f f1 /\
  exists l, (match f_lba f with Some l0 => l = l0 | None => l = now end) /\ f_lba f1 = Some l /\
            b = (l + slot_time (f_p f) <? now).
Proof.
  intros [-> ->]%check_slot_inv. split; [apply sbl_set_lba|]. exists (goi_val f now).
  unfold goi_val. destruct (f_lba f); repeat split; reflexivity.
Qed.

Lemma do_check_token_pass_cse f now (w : W) f' w' att :
  f_state f = CheckTokenPass att -> do_check_token_pass A f now w = Ok (f', w') ->
  exists f1 b, check_slot_expired f now = Ok (f1, b).
Proof.
  intros Hst H. unfold do_check_token_pass, assert_entry in H. rewrite Hst in H.
  cbn [kind_of do_fn_entry state_kind_eqb bind] in H. apply bind_ok in H as ([f1 b] & E & _). exists f1, b. exact E.
Qed.

(* a receive loop: P holds before the first telegram, Q after every telegram; without a complete
   telegram at the head of the buffer nothing is called *)
Lemma receive_all_run {S R} (P Q : S -> Prop) (cb : S -> telegram -> bool -> res (S * R)) :
  (forall s t l s' r, P s \/ Q s -> cb s t l = Ok (s', r) -> Q s') ->
  forall buf s s' rest r, P s -> receive_all cb (receive_all_fuel buf) s buf = Ok (s', rest, r) ->
  match decode_spec buf with
  | Accept _ _ => Q s'
  | Reject => s' = s /\ rest = []
  | NeedMore => s' = s /\ rest = buf
  end.
Proof.
  intros Hcb buf s s' rest r Hp H. unfold receive_all_fuel in H. rewrite receive_all_step in H.
  destruct (decode_spec buf) as [ | |t n]; [injection H as <- <- _; split; reflexivity..|].
  cbv zeta in H. apply bind_ok in H as ([s1 r1] & E & H). pose proof (Hcb _ _ _ _ _ (or_introl Hp) E) as Hq.
  destruct (Nat.eqb n (length buf)); [injection H as <- _ _; exact Hq|].
  exact (receive_all_inv Q cb (fun s t l s' r H => Hcb s t l s' r (or_intror H)) _ _ _ _ _ _ Hq H).
Qed.

(* the receive loop of do_check_token_pass after the first telegram: the station went to ActiveIdle and
   handled telegrams from there *)
Definition ctp_heard (f0 : fdl) (w0 : W) (s : fdl * W * bool) : Prop :=
  let '(f, w, fi) := s in
  fi = false /\ heard_kind (f_state f) /\ ring_witnessed (f_ring f0) (f_ring f) /\ f_p f = f_p f0 /\ f_conn f = f_conn f0 /\
  w_tx w = w_tx w0 /\ w_calls w = w_calls w0 /\ w_apps w = w_apps w0.

Lemma ctp_telegram_heard now f0 (w0 : W) att s t il s' u :
  f_state f0 = CheckTokenPass att -> s = (f0, w0, true) \/ ctp_heard f0 w0 s ->
  check_token_pass_telegram A now s t il = Ok (s', u) -> ctp_heard f0 w0 s'.
Proof.
  destruct s as [[f w] fi], s' as [[f' w'] fi']. intros Hst0 Hs H.
  unfold check_token_pass_telegram in H. rewrite mark_rx_max in H.
  apply bind_ok in H as ([f1 w1] & E1 & ([f2 w2] & Eh & [= <- <- <-])%bind_ok).
  assert (H1 : ctp_heard f0 w0 (f1, w1, false)).
  { destruct Hs as [[= -> -> ->]|(-> & Hs)].
    - apply (trans_from A (CheckTokenPass att)) in E1 as (s1 & [= <-] & -> & ->); [|exact Hst0].
      cbn. repeat split; try reflexivity. apply rw_refl.
    - injection E1 as <- <-. split; [reflexivity|exact Hs]. }
  destruct H1 as (_ & Hk1 & Hrw1 & Hp1 & Hc1 & Htx1 & Hca1 & Hap1).
  apply handle_telegram_heard in Eh as (Hk2 & Hrw2 & Hp2 & Hc2 & Htx2 & Hca2 & Hap2 & _); [|exact Hk1].
  split; [reflexivity|]. split; [exact Hk2|]. split; [exact (rw_trans _ _ _ Hrw1 Hrw2)|]. repeat split; congruence.
Qed.

Lemma do_check_token_pass_waiting f now (w : W) f1 att f' w' :
  f_state f = CheckTokenPass att -> check_slot_expired f now = Ok (f1, false) ->
  do_check_token_pass A f now w = Ok (f', w') ->
  w_tx w' = w_tx w /\ w_calls w' = w_calls w /\ w_apps w' = w_apps w /\ f_p f' = f_p f /\ f_conn f' = f_conn f /\
  ring_witnessed (f_ring f) (f_ring f') /\
  match decode_spec (w_rx w) with
  | Accept _ _ => heard_kind (f_state f')
  | Reject => f_state f' = CheckTokenPass att /\ f_ring f' = f_ring f /\ f_gap f' = f_gap f /\ w_rx w' = [] /\ f_pending f' = 0%nat
  | NeedMore => f_state f' = CheckTokenPass att /\ f_ring f' = f_ring f /\ f_gap f' = f_gap f /\ w_rx w' = w_rx w
  end.
Proof.
  intros Hst [-> Hb]%check_slot_inv (att' & Es & H)%do_check_token_pass_inv.
  rewrite Hst in Es. injection Es as <-. rewrite <- Hb in H. destruct H as (f2 & w2 & fi & rest & r & E & -> & ->).
  set (f1 := set_lba f (Some (goi_val f now))) in E.
  apply (receive_all_run (fun s => s = (f1, w, true)) (ctp_heard f1 w)) in E;
    [|intros s t il s' u; exact (ctp_telegram_heard now f1 w att s t il s' u Hst)|reflexivity].
  destruct (decode_spec (w_rx w)).
  - destruct E as [[= -> -> ->] ->]. cbn. rewrite Hst. repeat split; try reflexivity; apply rw_refl.
  - destruct E as [[= -> -> ->] ->]. cbn. rewrite Hst. repeat split; try reflexivity; try apply rw_refl.
    destruct (f_pending f); reflexivity.
  - destruct E as (-> & Hk & Hrw & Hp & Hc & Htx & Hca & Hap). cbn. repeat split; assumption.
Qed.

Lemma do_check_token_pass_expired f now (w : W) f1 att f' w' :
  f_state f = CheckTokenPass att -> check_slot_expired f now = Ok (f1, true) ->
  do_check_token_pass A f now w = Ok (f', w') ->
  exists f2 w1, do_pass_token A f2 now w1 = Ok (f', w') /\
    f_state f2 = PassToken false (check_pass_next att) /\
    (if check_pass_removes att then remove_station (f_ring f) (r_ns (f_ring f)) = Ok (f_ring f2) else f_ring f2 = f_ring f) /\
    f_p f2 = f_p f /\ f_conn f2 = f_conn f /\ f_gap f2 = f_gap f /\ f_lba f2 = f_lba f1 /\
    w_tx w1 = w_tx w /\ w_calls w1 = w_calls w /\ w_rx w1 = w_rx w /\ w_apps w1 = w_apps w.
Proof.
  intros Hst [-> Hb]%check_slot_inv (att' & Es & H)%do_check_token_pass_inv.
  rewrite Hst in Es. injection Es as <-. rewrite <- Hb in H. destruct H as (r & tg & Hr & H).
  do 2 eexists. split; [exact H|]. cbn. repeat split; try reflexivity. exact Hr.
Qed.

(* the slot timer of the supervision has run out in this poll: what check_slot_expired computes *)
Definition slot_expired (f : fdl) (now : Z) (pin : phy_in) : bool :=
  negb (tx_busy pin) && negb (predicted f now) && (lba_seen f now (length (rx pin)) + slot_time (f_p f) <? now).

Lemma slot_expired_iff f now pin : 0 <= slot_time (f_p f) ->
  (slot_expired f now pin = true <->
   tx_busy pin = false /\ (length (rx pin) <= f_pending f)%nat /\ exists l, f_lba f = Some l /\ l + slot_time (f_p f) < now).
Proof.
  intros Hs. unfold slot_expired, lba_seen, predicted. rewrite !andb_true_iff, !negb_true_iff, Z.ltb_lt.
  destruct (Nat.ltb_spec (f_pending f) (length (rx pin))) as [C|C], (f_lba f) as [l|].
  - split; [lia|intros (_ & Hl & _); lia].
  - split; [lia|intros (_ & Hl & _); lia].
  - rewrite Z.leb_gt. split; [intros [[Hb _] Hl]; repeat split; eauto|intros (Hb & _ & l' & [= <-] & Hl); repeat split; [assumption|lia..]].
  - split; [lia|intros (_ & _ & l' & E & _); discriminate E].
Qed.

Lemma pass_token_poll f now pin (apps : list A) f' o a c dg att :
  f_state f = PassToken dg att -> poll ops f now pin apps = Ok (f', o, a, c) ->
  a = apps /\ c = [] /\ rx_left o = rx pin /\ f_p f' = f_p f /\
  ((tx o = None /\ f_state f' = PassToken dg att /\ f_ring f' = f_ring f) \/
   (exists addr, dg = true /\ tx o <> None /\ f_state f' = AwaitStatusResponse addr /\ f_ring f' = f_ring f) \/
   (exists r', witness (f_ring f) (ts f) (r_ns (f_ring f)) = Ok r' /\ f_ring f' = r' /\
               tx o = Some (encode_token (r_ns (f_ring f)) (ts f)) /\
               f_state f' = if r_ns r' =? ts f then UseToken now None false else CheckTokenPass att)).
Proof.
  intros Hst H. apply poll_in_pass_body in H as (w' & H & -> & -> & ->); [|rewrite Hst; reflexivity].
  cbn [tx rx_left]. apply body_inv in H. destruct (tx_busy pin || predicted f now).
  - destruct H as [-> ->]. cbn. repeat split; try reflexivity. left. repeat split. exact Hst.
  - destruct H as (l & n & tr & H & _). unfold dispatch in H. cbn [f_state set_pending set_lba] in H.
    rewrite Hst in H. cbn [kind_of poll_dispatch] in H.
    apply (do_pass_token_result A _ _ _ _ _ dg att) in H as (r & g & s & l' & txo & tr' & -> & -> & D); [|exact Hst].
    cbn. repeat split; try reflexivity.
    destruct D as [(-> & -> & -> & ->)|(_ & _ & [(ad & -> & Hdg & -> & _ & _ & -> & Hne)|(Hwit & -> & ->)])];
      [left|right; left; exists ad|right; right; exists r]; repeat split; assumption.
Qed.

Lemma check_pass_poll f now pin (apps : list A) f' o a c att :
  f_state f = CheckTokenPass att -> poll ops f now pin apps = Ok (f', o, a, c) ->
  a = apps /\ c = [] /\ f_p f' = f_p f /\
  if slot_expired f now pin then
    rx_left o = rx pin /\
    exists r1, (if check_pass_removes att then remove_station (f_ring f) (r_ns (f_ring f)) = Ok r1 else r1 = f_ring f) /\
      ((tx o = None /\ f_state f' = PassToken false (check_pass_next att) /\ f_ring f' = r1) \/
       (exists r', witness r1 (ts f) (r_ns r1) = Ok r' /\ f_ring f' = r' /\ tx o = Some (encode_token (r_ns r1) (ts f)) /\
                   f_state f' = if r_ns r' =? ts f then UseToken now None false else CheckTokenPass (check_pass_next att)))
  else
    tx o = None /\ ring_witnessed (f_ring f) (f_ring f') /\
    (if tx_busy pin || predicted f now then f_state f' = CheckTokenPass att /\ f_ring f' = f_ring f /\ rx_left o = rx pin
     else match decode_spec (rx pin) with
          | Accept _ _ => heard_kind (f_state f')
          | Reject => f_state f' = CheckTokenPass att /\ f_ring f' = f_ring f /\ rx_left o = []
          | NeedMore => f_state f' = CheckTokenPass att /\ f_ring f' = f_ring f /\ rx_left o = rx pin
          end).
Proof.
  intros Hst H. apply poll_in_pass_body in H as (w' & H & -> & -> & ->); [|rewrite Hst; reflexivity].
  cbn [tx rx_left]. apply body_inv in H. unfold slot_expired. destruct (tx_busy pin || predicted f now) eqn:Eb.
  - replace (negb (tx_busy pin) && negb (predicted f now)) with false
      by (destruct (tx_busy pin); [reflexivity|cbn in Eb; rewrite Eb; reflexivity]).
    destruct H as [-> ->]. cbn. rewrite Hst. repeat split; try reflexivity. apply rw_refl.
  - apply orb_false_elim in Eb as [-> ->]. cbn [negb andb w_rx] in *.
    destruct H as (l & n & tr & H & <- & _).
    unfold dispatch in H. cbn [f_state set_pending set_lba] in H. rewrite Hst in H. cbn [kind_of poll_dispatch] in H.
    cbn [w_tx w_apps w_calls] in H. set (f1 := set_pending (set_lba f l) n) in H.
    destruct (do_check_token_pass_cse f1 _ _ _ _ att Hst H) as (f2 & b & Ecs).
    pose proof Ecs as [_ Hb]%check_slot_inv. change (b = (goi_val (set_lba f l) now + slot_time (f_p f) <? now)) in Hb. rewrite <- Hb.
    destruct b.
    + destruct (do_check_token_pass_expired f1 _ _ _ att _ _ Hst Ecs H)
        as (f3 & w3 & Hd & Hs3 & Hrm & Hp3 & _ & _ & _ & Htx3 & Hca3 & Hrx3 & Hap3).
      apply (do_pass_token_result A _ _ _ _ _ false (check_pass_next att) Hs3) in Hd as (r & g & s & l' & txo & tr' & -> & -> & D).
      cbn in *. repeat split; try assumption. exists (f_ring f3). split; [exact Hrm|].
      unfold ts in *. rewrite Hp3 in D.
      destruct D as [(-> & _ & -> & ->)|(_ & _ & [(ad & _ & Hdg & _)|(Hwit & -> & ->)])]; [left; repeat split; exact Htx3|discriminate Hdg|right; exists r; repeat split; exact Hwit].
    + destruct (do_check_token_pass_waiting f1 _ _ _ att _ _ Hst Ecs H) as (Htx & Hca & Hap & Hp & _ & Hrw & Hm).
      cbn in *. repeat split; try assumption.
      destruct (decode_spec (rx pin)); [destruct Hm as (M1 & M2 & _ & M4)|destruct Hm as (M1 & M2 & _ & M4 & _)|exact Hm]; repeat split; assumption.
Qed.

(* How a hand-over is entered from the other states: always with the first attempt; and a
   poll that ends in PassToken has not transmitted, one that ends in CheckTokenPass has *)

Definition pass_entry (f' : fdl) (w' : W) : Prop :=
  match f_state f' with
  | PassToken _ a => a = AttFirst /\ w_tx w' = None
  | CheckTokenPass a => a = AttFirst /\ w_tx w' <> None
  | _ => True
  end.

Lemma pass_entry_other f' w' : in_pass (f_state f') = false -> pass_entry f' w'.
Proof. unfold pass_entry. destruct (f_state f'); cbn; try discriminate; intros _; exact I. Qed.

(* neither in a hand-over nor claiming *)
Definition quiet_kind (s : state) : bool :=
  match s with PassToken _ _ | CheckTokenPass _ | ClaimToken _ => false | _ => true end.

Lemma pe_other f' w' : quiet_kind (f_state f') = true -> pass_entry f' w' /\ kind_of (f_state f') <> KClaimToken.
Proof. unfold pass_entry. destruct (f_state f'); cbn; try discriminate; intros _; split; try exact I; discriminate. Qed.

Lemma heard_not_in_pass s : heard_kind s -> in_pass s = false.
Proof. destruct s; cbn; try contradiction; reflexivity. Qed.

Lemma pass_first_entry f now (w : W) f' w' dg :
  f_state f = PassToken dg AttFirst -> w_tx w = None -> do_pass_token A f now w = Ok (f', w') ->
  pass_entry f' w' /\ kind_of (f_state f') <> KClaimToken.
Proof.
  intros Hst Hw H. apply (do_pass_token_result A _ _ _ _ _ _ _ Hst) in H as (r & g & s & l & txo & tr & -> & -> & D).
  unfold pass_entry. cbn.
  destruct D as [(_ & _ & -> & ->)|(_ & _ & [(a & _ & _ & _ & _ & _ & -> & _)|(_ & -> & ->)])]; [| |destruct (_ =? _)];
    repeat split; reflexivity || discriminate || exact Hw.
Qed.

Lemma do_claim_token_scan_ends f now (w : W) f' w' st :
  f_state f = ClaimToken st -> w_tx w = None -> do_claim_token_scan A f now w = Ok (f', w') ->
  kind_of (f_state f') = KClaimToken \/ (f_state f' = PassToken false AttFirst /\ w_tx w' = None /\ f_ring f' = f_ring f).
Proof.
  intros Hst Hw [(T & [E|E] & R)|(_ & a & E & _)]%do_claim_token_scan_inv.
  - left. rewrite E, Hst. reflexivity.
  - right. repeat split; [exact E|congruence|exact R].
  - left. rewrite E. reflexivity.
Qed.

Lemma do_claim_token_ends f now (w : W) f' w' st :
  f_state f = ClaimToken st -> w_tx w = None -> do_claim_token A f now w = Ok (f', w') ->
  kind_of (f_state f') = KClaimToken \/ (f_state f' = ActiveIdle None None 0 /\ w_rx w <> []) \/
  (f_state f' = PassToken false AttFirst /\ w_tx w' = None /\ f_ring f' = f_ring f).
Proof.
  intros Hst Hw (step & Es & [(T & S & Hr & Hx)|(_ & s' & E & _)])%do_claim_token_inv; [|left; rewrite E; reflexivity].
  destruct S as [E|(_ & [E|[E|E]])].
  - left. rewrite E, Hst. reflexivity.
  - right. right. repeat split; [exact E|congruence|exact (Hr E)].
  - left. rewrite E. reflexivity.
  - right. left. split; [exact E|exact (Hx E)].
Qed.

Lemma do_claim_token_entry f now (w : W) f' w' :
  w_tx w = None -> do_claim_token A f now w = Ok (f', w') -> pass_entry f' w'.
Proof.
  intros Hw H. destruct (f_state f) as [ | | | | |st| | | | ] eqn:Es;
    try (unfold do_claim_token, assert_entry in H; rewrite Es in H; discriminate H).
  destruct (do_claim_token_ends _ _ _ _ _ st Es Hw H) as [K|[[S _]|(S & T & _)]]; unfold pass_entry.
  - destruct (f_state f'); try discriminate K. exact I.
  - rewrite S. exact I.
  - rewrite S. split; [reflexivity|exact T].
Qed.

Lemma handle_lost_token_entry f now (w : W) f' w' d :
  w_tx w = None -> handle_lost_token A f now w = Ok (f', w', d) ->
  if d then pass_entry f' w' else (same_but_lba f f' /\ w' = w).
Proof.
  intros Hw H. apply handle_lost_token_inv in H. destruct d.
  - destruct H as (_ & H & _). apply do_claim_token_entry in H; [exact H|exact Hw].
  - destruct H as (_ & -> & ->). split; [apply sbl_set_lba|reflexivity].
Qed.

Lemma do_listen_token_entry f now (w : W) f' w' :
  do_listen_token A f now w = Ok (f', w') -> in_pass (f_state f') = false.
Proof.
  intros H. apply do_listen_token_never_accepts in H.
  destruct (f_state f'); cbn in *; try reflexivity;
    destruct H as [H|[H|[H|[H _]]]]; discriminate H.
Qed.

Lemma active_idle_telegram_heard now s t il s' u :
  heard_kind (f_state (fst s)) -> active_idle_telegram A now s t il = Ok (s', u) -> heard_kind (f_state (fst s')).
Proof.
  destruct s as [f w]. destruct s' as [f' w']. cbn [fst]. unfold active_idle_telegram. rewrite mark_rx_max.
  intros Hk ([f1 w1] & Eh & [= <- _ _])%bind_ok. apply handle_telegram_heard in Eh; [tauto|exact Hk].
Qed.

Lemma receive_active_idle_heard now f (w : W) f' w' :
  receive_all_telegrams A (active_idle_telegram A now) f w = Ok (f', w') -> heard_kind (f_state f) -> heard_kind (f_state f').
Proof.
  unfold receive_all_telegrams. intros ([[[f1 w1] rest] r] & Er & [= <- _])%bind_ok Hk.
  exact (receive_all_inv (fun s : fdl * W => heard_kind (f_state (fst s))) _ (active_idle_telegram_heard now) _ (f, w) _ (f1, w1) rest r Hk Er).
Qed.

Lemma do_active_idle_heard f now (w : W) f' w' :
  do_active_idle A f now w = Ok (f', w') ->
  heard_kind (f_state f') \/
  (token_lost_timeout (f_p f) <= Z.abs (now - goi_val f now) /\ exists g v, f_state g = ClaimToken StepFirstToken /\ w_tx v = w_tx w /\
     do_claim_token A g now v = Ok (f', w')).
Proof.
  intros H. destruct (f_state f) as [ | | |sr nps cc| | | | | | ] eqn:Es;
    try (unfold do_active_idle, assert_entry in H; rewrite Es in H; discriminate H).
  destruct (do_active_idle_result A _ _ _ _ _ _ _ _ Es H) as [(Hto & H1 & _)%handle_lost_token_inv|[_ H1]]; clear H; rename H1 into H.
  - right. split; [exact Hto|]. do 2 eexists. split; [|split; [|exact H]]; reflexivity.
  - left. destruct sr as [src|]; [destruct (_ <=? _)|].
    + destruct H as [-> _]. cbn. rewrite Es. exact I.
    + destruct H as (w1 & n & e & _ & -> & _). exact I.
    + apply receive_active_idle_heard in H; [exact H|cbn; rewrite Es; exact I].
Qed.

Lemma do_active_idle_entry f now (w : W) f' w' :
  w_tx w = None -> do_active_idle A f now w = Ok (f', w') -> pass_entry f' w'.
Proof.
  intros Hw [Hk|(_ & g & v & _ & Hv & H)]%do_active_idle_heard.
  - apply pass_entry_other, heard_not_in_pass. exact Hk.
  - apply do_claim_token_entry in H; [exact H|congruence].
Qed.

Definition is_use (s : state) : Prop := exists tk fa fcd, s = UseToken tk fa fcd.

Lemma app_transmit_entry f now (w : W) idx app hp f' w' d :
  is_use (f_state f) -> app_transmit_telegram A ops f now w idx app hp = Ok (f', w', d) ->
  if d then quiet_kind (f_state f') = true else f' = f.
Proof.
  intros (tk & fa & fcd & Hst) H. unfold app_transmit_telegram in H.
  apply bind_ok in H as ([app' r] & _ & H). destruct r as [[wire exp]|]; [|injection H as <- _ <-; reflexivity].
  apply bind_ok in H as (w1 & _ & ([f1 w2] & E1 & (f2 & (e & ->)%mark_tx_inv & [= <- _ <-])%bind_ok)%bind_ok).
  destruct exp as [addr|]; [|injection E1 as <- _; cbn; rewrite Hst; reflexivity].
  rewrite Hst in E1. cbn [get_use_token bind] in E1.
  apply (trans_from A (UseToken tk fa fcd)) in E1 as (s' & [= <-] & -> & _); [reflexivity|exact Hst].
Qed.

Lemma apps_loop_entry n : forall f now (w : W) hp f' w' d,
  is_use (f_state f) -> apps_transmit_loop A ops n f now w hp = Ok (f', w', d) ->
  if d then quiet_kind (f_state f') = true else is_use (f_state f').
Proof.
  induction n as [|n IH]; intros f now w hp f' w' d Hu H; cbn [apps_transmit_loop] in H; [injection H as <- _ <-; exact Hu|].
  destruct (nth_error (w_apps w) (f_next_app f)) as [app|]; [|discriminate H].
  apply bind_ok in H as ([[f1 w1] d1] & Ea & H). apply app_transmit_entry in Ea; [|exact Hu].
  destruct d1; [injection H as <- _ <-; exact Ea|]. subst f1. destruct Hu as (tk & fa & fcd & Hst).
  unfold schedule_next_application in H. rewrite Hst in H. cbn [get_use_token bind] in H.
  destruct (Nat.eqb _ 0); [discriminate H|]. cbn [bind] in H.
  destruct (Nat.eqb _ _); [injection H as <- _ <-|apply IH in H]; try exact H; do 3 eexists; reflexivity.
Qed.

Lemma do_use_token_head_ends f now (w : W) f1 w1 :
  do_use_token_head A ops f now w = Ok (f1, w1) -> quiet_kind (f_state f1) = true \/ is_pass_token (f_state f1) = true.
Proof.
  intros H. unfold do_use_token_head, assert_entry in H.
  destruct (f_state f) as [ | | | |tk fa fcd| | | | | ] eqn:Es; cbn [kind_of do_fn_entry state_kind_eqb bind get_use_token] in H; try discriminate H.
  apply bind_ok in H as ([f2 w2] & E2 & H).
  assert (Hs2 : f_state f2 = UseToken tk fa fcd).
  { destruct (negb _); [|injection E2 as <- _; exact Es].
    apply bind_ok in E2 as (e & _ & E2). destruct (f_gap f); [|apply bind_ok in E2 as (e2 & _ & E2)]; injection E2 as <- _; exact Es. }
  apply bind_ok in H as ([f3 wait] & [-> _]%wait_sync_inv & H).
  destruct wait; [injection H as <- _; left; cbn; rewrite Hs2; reflexivity|].
  cbn [f_state set_lba] in H. rewrite Hs2 in H. cbn [get_use_token bind] in H.
  apply bind_ok in H as ([[f4 w4] d] & E4 & H).
  assert (H4 : if d then quiet_kind (f_state f4) = true else is_use (f_state f4)).
  { unfold set_first_cycle_done in E4. cbn [f_state set_lba] in E4. rewrite Hs2 in E4. cbn [get_use_token bind] in E4.
    destruct (now <? _); [|destruct (negb fcd)];
      [apply apps_loop_entry in E4; [exact E4|do 3 eexists; reflexivity]..|injection E4 as <- _ <-; do 3 eexists; exact Hs2]. }
  destruct d; [injection H as <- _; left; exact H4|]. destruct H4 as (tk4 & fa4 & fcd4 & Hs4).
  apply (trans_from A (UseToken tk4 fa4 fcd4)) in H as (s' & [= <-] & -> & _); [right; reflexivity|exact Hs4].
Qed.

Lemma do_use_token_entry2 f now (w : W) f' w' :
  w_tx w = None -> do_use_token A ops f now w = Ok (f', w') -> pass_entry f' w' /\ kind_of (f_state f') <> KClaimToken.
Proof.
  intros Hw H. rewrite do_use_token_split in H. apply bind_ok in H as ([f1 w1] & Eh & H).
  destruct (is_pass_token (f_state f1)) eqn:Ek.
  - destruct (do_use_token_head_pass A ops _ _ _ _ _ Eh Ek) as (Es1 & _ & _ & _ & _ & _ & _ & Htx1 & _).
    (* do_use_token ends in do_pass_token, in the same poll *)
    apply (pass_first_entry _ _ _ _ _ true) in H; [exact H|exact Es1|congruence].
  - injection H as <- <-. apply pe_other. destruct (do_use_token_head_ends _ _ _ _ _ Eh) as [Q|P]; [exact Q|congruence].
Qed.

Lemma do_use_token_entry f now (w : W) f' w' :
  w_tx w = None -> do_use_token A ops f now w = Ok (f', w') -> pass_entry f' w'.
Proof. intros Hw H. exact (proj1 (do_use_token_entry2 f now w f' w' Hw H)). Qed.

Lemma do_await_data_response_entry2 f now (w : W) f' w' :
  w_tx w = None -> do_await_data_response A ops f now w = Ok (f', w') -> pass_entry f' w' /\ kind_of (f_state f') <> KClaimToken.
Proof.
  intros Hw H. unfold do_await_data_response, assert_entry in H.
  destruct (f_state f) as [ | | | | | |address tk fa| | | ] eqn:Es; cbn [kind_of do_fn_entry state_kind_eqb bind get_await_data_response] in H; try discriminate H.
  destruct (nth_error (w_apps w) (f_next_app f)) as [app|]; [|discriminate H].
  apply bind_ok in H as ([rest received] & _ & H). destruct received as [t|].
  - rewrite mark_rx_max in H. destruct (is_valid_response _ address t).
    + apply bind_ok in H as (app' & _ & ([f1 w1] & Et & (f2 & (tk2 & fa2 & ->)%set_first_cycle_done_inv & [= <- <-])%bind_ok)%bind_ok).
      apply pe_other. reflexivity.
    + apply (trans_from A (AwaitDataResponse address tk fa)) in H as (s' & [= <-] & -> & _); [|exact Es]. apply pe_other. reflexivity.
  - apply bind_ok in H as ([f1 expired] & [-> _]%check_slot_inv & H). destruct expired.
    + apply bind_ok in H as (app' & _ & ([f2 w2] & Et & H)%bind_ok).
      apply (trans_from A (AwaitDataResponse address tk fa)) in Et as (s' & [= <-] & -> & ->); [|exact Es].
      apply bind_ok in H as (f3 & (tk3 & fa3 & ->)%set_first_cycle_done_inv & H). apply do_use_token_entry2 in H; [exact H|].
      cbn [w_tx note log_call set_app set_rx]. destruct (Nat.ltb _ _); exact Hw.
    + injection H as <- <-. apply pe_other. cbn. rewrite Es. reflexivity.
Qed.

Lemma do_await_data_response_entry f now (w : W) f' w' :
  w_tx w = None -> do_await_data_response A ops f now w = Ok (f', w') -> pass_entry f' w'.
Proof. intros Hw H. exact (proj1 (do_await_data_response_entry2 f now w f' w' Hw H)). Qed.

Lemma do_await_status_response_entry2 f now (w : W) f' w' :
  w_tx w = None -> do_await_status_response A f now w = Ok (f', w') -> pass_entry f' w' /\ kind_of (f_state f') <> KClaimToken.
Proof.
  intros Hw H. unfold do_await_status_response, assert_entry in H.
  destruct (f_state f) as [ | | | | | | | | |address] eqn:Es; cbn [kind_of do_fn_entry state_kind_eqb bind get_await_status_response_address] in H; try discriminate H.
  apply bind_ok in H as ([[f1 w1] r] & Ea & H).
  apply await_gap_poll_response_frame in Ea as (_ & _ & Hs1 & Htx1 & _). rewrite Es in Hs1. rewrite Hw in Htx1.
  destruct r.
  - injection H as <- <-. apply pe_other. rewrite Hs1. reflexivity.
  - apply bind_ok in H as ([f2 w2] & Et & H).
    apply (trans_from A (AwaitStatusResponse address)) in Et as (s' & [= <-] & -> & ->); [|exact Hs1].
    apply (pass_first_entry _ _ _ _ _ false) in H; [exact H|reflexivity|exact Htx1].
  - apply (trans_from A (AwaitStatusResponse address)) in H as (s' & [= <-] & -> & ->); [|exact Hs1].
    split; [split; [reflexivity|exact Htx1]|discriminate].
  - apply (trans_from A (AwaitStatusResponse address)) in H as (s' & [= <-] & -> & ->); [|exact Hs1]. apply pe_other. reflexivity.
Qed.

Lemma do_await_status_response_entry f now (w : W) f' w' :
  w_tx w = None -> do_await_status_response A f now w = Ok (f', w') -> pass_entry f' w'.
Proof. intros Hw H. exact (proj1 (do_await_status_response_entry2 f now w f' w' Hw H)). Qed.

Lemma poll_entry f now pin (apps : list A) f' o a c :
  in_pass (f_state f) = false -> poll ops f now pin apps = Ok (f', o, a, c) ->
  match f_state f' with
  | PassToken _ att => att = AttFirst /\ tx o = None
  | CheckTokenPass att => att = AttFirst /\ tx o <> None
  | _ => True
  end.
Proof.
  intros Hp H. apply poll_inv in H as (w' & H & -> & _). cbn [tx]. change (pass_entry f' w').
  apply poll_inner_cases in H as [(_ & _ & -> & _)|(_ & f0 & w0 & Hpro & H)]; [apply pass_entry_other; exact Hp|].
  pose proof (prologue_not_in_pass _ _ _ _ Hpro Hp) as Hp0.
  destruct (prologue_frame _ _ _ _ Hpro) as (_ & _ & _ & _ & _ & Htx0 & _). cbn [w_tx] in Htx0.
  apply body_inv in H. destruct (_ || _).
  - destruct H as [-> _]. apply pass_entry_other. exact Hp0.
  - destruct H as (l & n & tr & H & _). unfold dispatch in H. cbn [f_state set_pending set_lba] in H.
    destruct (f_state f0) eqn:Es0; cbn [kind_of poll_dispatch] in H; try discriminate H; try discriminate Hp0.
    + apply pass_entry_other. eapply do_listen_token_entry. exact H.
    + eapply do_active_idle_entry; [|exact H]; exact Htx0.
    + eapply do_use_token_entry; [|exact H]; exact Htx0.
    + eapply do_claim_token_entry; [|exact H]; exact Htx0.
    + eapply do_await_data_response_entry; [|exact H]; exact Htx0.
    + eapply do_await_status_response_entry; [|exact H]; exact Htx0.
Qed.

Fixpoint run_polls (f : fdl) (apps : list A) (ins : list (Z * phy_in)) : res (list step_rec) :=
  match ins with
  | [] => Ok []
  | (now, pin) :: t =>
      let* (f', o, apps', _) := poll ops f now pin apps in
      let* l := run_polls f' apps' t in
      Ok (mkStep f now pin f' o :: l)
  end.

(* what the retry discipline demands of one poll, given the ghost count c before it *)
Definition retry_step_ok (c : nat) (s : step_rec) : Prop :=
  let f := s_f s in let f' := s_f' s in let o := s_out s in let tsa := ts f in
  (c <= 3)%nat /\
  (forall att, f_state f = CheckTokenPass att ->
     c = att_index att /\
     if slot_expired f (s_now s) (s_in s) then
       exists r1, (if Nat.eqb c 3 then remove_station (f_ring f) (r_ns (f_ring f)) = Ok r1 else r1 = f_ring f) /\
         ((tx o = None /\ f_state f' = PassToken false (check_pass_next att) /\ f_ring f' = r1) \/
          (exists r', witness r1 tsa (r_ns r1) = Ok r' /\ f_ring f' = r' /\ tx o = Some (encode_token (r_ns r1) tsa) /\
             f_state f' = if r_ns r' =? tsa then UseToken (s_now s) None false else CheckTokenPass (check_pass_next att)))
     else tx o = None /\ ring_witnessed (f_ring f) (f_ring f')) /\
  (forall dg att, f_state f = PassToken dg att ->
     (tx o = None /\ f_ring f' = f_ring f) \/ (f_ring f' = f_ring f /\ exists a, f_state f' = AwaitStatusResponse a) \/
     (tx o = Some (encode_token (r_ns (f_ring f)) tsa) /\ witness (f_ring f) tsa (r_ns (f_ring f)) = Ok (f_ring f') /\
      f_state f' = if r_ns (f_ring f') =? tsa then UseToken (s_now s) None false else CheckTokenPass att)).

Fixpoint retry_ok (c : nat) (steps : list step_rec) : Prop :=
  match steps with
  | [] => True
  | s :: t => retry_step_ok c s /\ retry_ok (ghost_next c (s_f' s) (s_out s)) t
  end.

Lemma retry_step f now pin (apps : list A) f' o a cs c :
  ghost_ok c f -> poll ops f now pin apps = Ok (f', o, a, cs) ->
  retry_step_ok c (mkStep f now pin f' o) /\ ghost_ok (ghost_next c f' o) f'.
Proof.
  intros Hg H. unfold retry_step_ok, ghost_next, ghost_ok in *. cbn [s_f s_f' s_out s_now s_in].
  destruct (in_pass (f_state f)) eqn:Ep.
  - destruct (f_state f) as [ | | | | | | |dg att|att| ] eqn:Es; try discriminate Ep.
    + destruct (pass_token_poll f now pin apps f' o a cs dg att Es H) as (_ & _ & _ & _ & D).
      split; [split; [destruct Hg as [->|[-> ->]]; [destruct att|]; cbn; lia|split; [discriminate|intros ? ? [= <- <-]]]|].
      * destruct D as [(Htx & _ & Hr)|[(addr & _ & _ & Hs & Hr)|(r' & Hwit & <- & Htx & Hs)]]; eauto 6.
      * destruct D as [(Htx & Hs & _)|[(addr & _ & _ & Hs & _)|(r' & _ & _ & Htx & Hs)]]; rewrite Hs; [rewrite Htx; exact Hg|reflexivity|].
        rewrite Htx. destruct (r_ns r' =? ts f); cbn [in_pass]; [reflexivity|].
        destruct Hg as [->|[-> ->]]; [destruct att|]; reflexivity.
    + subst c. destruct (check_pass_poll f now pin apps f' o a cs att Es H) as (_ & _ & _ & D).
      assert (H3 : (att_index att <= 3)%nat) by (destruct att; cbn; lia).
      destruct (slot_expired f now pin).
      * destruct D as (_ & r1 & Hrm & D).
        split; [split; [exact H3|split; [intros ? [= <-]|discriminate]]; split; [reflexivity|]; exists r1; split; [destruct att; exact Hrm|exact D]|].
        destruct D as [(Htx & Hs & _)|(r' & _ & _ & Htx & Hs)]; rewrite Hs, Htx.
        -- destruct att; cbn; [left; reflexivity|left; reflexivity|right; split; reflexivity].
        -- destruct (r_ns r' =? ts f); cbn [in_pass]; [reflexivity|]. destruct att; reflexivity.
      * destruct D as (Htx & Hrw & D).
        split; [split; [exact H3|split; [intros ? [= <-]|discriminate]]; repeat split; assumption|]. rewrite Htx.
        assert (Hcase : f_state f' = CheckTokenPass att \/ heard_kind (f_state f')).
        { destruct (tx_busy pin || predicted f now); [left; tauto|].
          destruct (decode_spec (rx pin)); [left; tauto|left; tauto|right; exact D]. }
        destruct Hcase as [Hs|Hk]; [rewrite Hs; reflexivity|].
        rewrite (heard_not_in_pass _ Hk). destruct (f_state f'); try contradiction Hk; reflexivity.
  - pose proof (poll_entry f now pin apps f' o a cs Ep H) as He.
    assert (c = 0%nat) as -> by (destruct (f_state f); try discriminate Ep; exact Hg).
    split; [split; [lia|split; intros; rewrite H0 in Ep; discriminate Ep]|].
    destruct (f_state f') as [ | | | | | | |dg att|att| ]; cbn [in_pass]; try reflexivity; destruct He as [-> He].
    + rewrite He. left. reflexivity.
    + destruct (tx o); [reflexivity|contradiction He; reflexivity].
Qed.

(* C11_retry_discipline: over every run of polls, from every station state whose attempt label agrees
   with the ghost count, with every input *)
Theorem retry_discipline : forall ins f0 apps0 c0 steps,
  ghost_ok c0 f0 -> run_polls f0 apps0 ins = Ok steps -> retry_ok c0 steps.
Proof.
  induction ins as [|[now pin] t IH]; intros f0 apps0 c0 steps Hg H; cbn [run_polls] in H; [injection H as <-; exact I|].
  apply bind_ok in H as ([[[f' o] apps'] cs] & Ep & (l & Er & [= <-])%bind_ok).
  destruct (retry_step _ _ _ _ _ _ _ _ _ Hg Ep) as [Hs Hg']. split; [exact Hs|exact (IH _ _ _ _ Hg' Er)].
Qed.

Lemma handle_lost_token_quiet f now (w : W) l :
  f_lba f = Some l -> i64_ok (now - l) = true -> Z.abs (now - l) < token_lost_timeout (f_p f) ->
  handle_lost_token A f now w = Ok (f, w, false).
Proof.
  intros Hl Hok Hlt. unfold handle_lost_token, lba_get_or_insert, inst_diff. rewrite Hl, Hok. cbn [bind].
  destruct (Z.leb_spec (token_lost_timeout (f_p f)) (Z.abs (now - l))) as [C|_]; [lia|reflexivity].
Qed.

Lemma ai_single_poll f now buf (apps : list A) nps cc t f' o a c :
  f_conn f = ConnOnline -> f_state f = ActiveIdle None nps cc ->
  (forall l, f_lba f = Some l -> l < now) -> (f_pending f < length buf)%nat ->
  decode_spec buf = Accept t (length buf) -> 0 < token_lost_timeout (f_p f) ->
  poll ops f now (mkPhyIn false buf) apps = Ok (f', o, a, c) ->
  exists fm f1 (w0 w1 : W),
    f_state fm = f_state f /\ f_ring fm = f_ring f /\ f_p fm = f_p f /\ f_conn fm = f_conn f /\
    handle_telegram A now fm w0 t true = Ok (f1, w1) /\
    f_state f' = f_state f1 /\ f_ring f' = f_ring f1 /\ f_p f' = f_p f1 /\ f_conn f' = f_conn f1 /\
    f_lba f' = Some now /\ f_pending f' = 0%nat /\ o = mkPhyOut None [] /\ a = apps /\ c = [].
Proof.
  intros Hc Hst Hlba Hpend Hdec Hto H.
  apply poll_inv in H as (w' & H & -> & -> & ->). cbn [tx_busy rx] in H.
  rewrite poll_inner_online in H; [|exact Hc|rewrite Hst; reflexivity].
  apply body_new_bytes in H as (tr & H); [|unfold predicted; destruct (f_lba f) as [l|]; [apply Z.leb_gt, Hlba|]; reflexivity|exact Hpend].
  cbn [w_rx w_tx w_apps w_calls] in H.
  unfold dispatch in H. cbn [f_state set_pending set_lba] in H. rewrite Hst in H. cbn [kind_of poll_dispatch] in H.
  match type of H with do_active_idle A ?g _ _ = _ => set (f1 := g) in H end.
  destruct (do_active_idle_result A f1 _ _ _ _ None nps cc Hst H) as [[Hcl _]%handle_lost_token_inv|[_ Hr]].
  { exfalso. cbn in Hcl. rewrite Z.sub_diag in Hcl. cbn in Hcl. lia. }
  unfold receive_all_telegrams, receive_all_fuel in Hr. cbn [w_rx] in Hr.
  rewrite receive_all_step, Hdec in Hr. cbv zeta in Hr. rewrite Nat.eqb_refl in Hr. unfold active_idle_telegram in Hr.
  apply bind_ok in Hr as ([[[f3 w3] rest] r] & ([[f4 w4] u] & ([f5 w5] & Eh & [= <- <- <-])%bind_ok & [= <- <- <- <-])%bind_ok & [= <- <-]).
  pose proof Eh as (_ & _ & _ & _ & Htx & Hca & Hap & _ & Hl & _)%handle_telegram_heard; [|rewrite mark_rx_max; change (heard_kind (f_state f)); rewrite Hst; exact I].
  rewrite mark_rx_max in Hl. do 4 eexists. split; [|split; [|split; [|split; [|split; [exact Eh|]]]]]; try (rewrite mark_rx_max; reflexivity).
  cbn. rewrite skipn_all, Hl, Htx, Hca, Hap. cbn. rewrite Z.max_id. repeat split. destruct (f_pending f5); reflexivity.
Qed.

Lemma ai_token_poll f now buf (apps : list A) nps cc sa f' o a c :
  f_conn f = ConnOnline -> f_state f = ActiveIdle None nps cc ->
  (forall l, f_lba f = Some l -> l < now) -> (f_pending f < length buf)%nat ->
  decode_spec buf = Accept (TToken (ts f) sa) (length buf) -> 0 < token_lost_timeout (f_p f) -> sa <> ts f ->
  poll ops f now (mkPhyIn false buf) apps = Ok (f', o, a, c) ->
  o = mkPhyOut None [] /\ a = apps /\ c = [] /\ f_p f' = f_p f /\ f_conn f' = ConnOnline /\
  f_lba f' = Some now /\ f_pending f' = 0%nat /\
  (sa = r_ps (f_ring f) \/ nps = Some sa -> f_state f' = UseToken now None false) /\
  (~ (sa = r_ps (f_ring f) \/ nps = Some sa) -> f_state f' = ActiveIdle None (Some sa) 0 /\ f_ring f' = f_ring f).
Proof.
  intros Hc Hst Hlba Hpend Hdec Hto Hsa H.
  apply ai_single_poll with (nps := nps) (cc := cc) (t := TToken (ts f) sa) in H; try assumption.
  destruct H as (fm & g & w0 & w1 & Hsm & Hrm & Hpm & Hcm & Hh & Hs1 & Hr1 & Hp1 & Hc1 & Hl1 & Hpe1 & -> & -> & ->).
  assert (Hts : ts fm = ts f) by (unfold ts; rewrite Hpm; reflexivity). rewrite <- Hts in Hh, Hsa.
  pose proof Hh as (_ & _ & Hpg & Hcg & _)%handle_telegram_heard; [|rewrite Hsm, Hst; exact I].
  apply (handle_telegram_accept_iff A fm w0 now None nps cc sa g w1) in Hh; [|congruence|exact Hsa].
  rewrite Hrm in Hh. destruct Hh as [Hacc Hrej]. repeat split; try congruence.
  - intros N. rewrite Hs1. exact (Hacc N).
  - destruct Hrej as [E _]; [assumption|congruence].
  - destruct Hrej as [_ E]; [assumption|congruence].
Qed.

Lemma handle_telegram_collision (f : fdl) (w : W) now sr nps cc da il f' w' :
  f_state f = ActiveIdle sr nps cc ->
  handle_telegram A now f w (TToken da (ts f)) il = Ok (f', w') ->
  cc + 1 <= 255 /\ f_ring f' = f_ring f /\ f_conn f' = f_conn f /\
  f_state f' = if cc + 1 =? active_idle_collision_tolerated then ActiveIdle sr nps (cc + 1) else ListenToken None 0.
Proof.
  intros Hst H. unfold handle_telegram in H. rewrite Hst in H. cbn [kind_of state_kind_eqb negb] in H.
  cbn [get_active_idle bind] in H. rewrite Z.eqb_refl in H.
  unfold u8_add in H. destruct (Z.leb_spec (cc + 1) 255) as [Hle|_]; cbn [bind] in H; [|discriminate H].
  split; [exact Hle|].
  destruct (cc + 1 =? active_idle_collision_tolerated).
  - injection H as <- <-. repeat split; reflexivity.
  - apply trans_spec in H as (s' & [= <-] & -> & _). repeat split; reflexivity.
Qed.

(* C11_accept_second_offer as a history of two polls.  Poll 1: a stranger (not the predecessor, not
   the pending one) offers the token: only recorded.  Poll 2: the same stranger again: accepted;
   a different stranger: replaces the pending one (so that the first stranger has to start over). *)
Theorem accept_second_offer f now1 (apps : list A) nps cc sa f1 o1 a1 c1 :
  f_conn f = ConnOnline -> f_state f = ActiveIdle None nps cc ->
  (forall l, f_lba f = Some l -> l < now1) -> (f_pending f < 3)%nat -> 0 < token_lost_timeout (f_p f) ->
  sa <> ts f -> sa <> r_ps (f_ring f) -> nps <> Some sa ->
  poll ops f now1 (mkPhyIn false (encode_token (ts f) sa)) apps = Ok (f1, o1, a1, c1) ->
  (f_state f1 = ActiveIdle None (Some sa) 0 /\ f_ring f1 = f_ring f /\ o1 = mkPhyOut None [] /\ a1 = apps /\ c1 = []) /\
  forall now2, now1 < now2 ->
    (forall f2 o2 a2 c2, poll ops f1 now2 (mkPhyIn false (encode_token (ts f) sa)) a1 = Ok (f2, o2, a2, c2) ->
       f_state f2 = UseToken now2 None false /\ o2 = mkPhyOut None [] /\ c2 = []) /\
    (forall sb f2 o2 a2 c2, sb <> sa -> sb <> ts f -> sb <> r_ps (f_ring f) ->
       poll ops f1 now2 (mkPhyIn false (encode_token (ts f) sb)) a1 = Ok (f2, o2, a2, c2) ->
       f_state f2 = ActiveIdle None (Some sb) 0 /\ f_ring f2 = f_ring f /\ o2 = mkPhyOut None [] /\ c2 = []).
Proof.
  intros Hc Hst Hlba Hpend Hto Hsa Hps Hnps H.
  apply (ai_token_poll f now1 _ apps nps cc sa) in H as (-> & -> & -> & Hp1 & Hc1 & Hl1 & Hpe1 & _ & Hrej); try assumption; try reflexivity.
  destruct Hrej as [Hst1 Hr1]; [tauto|]. split; [repeat split; assumption|].
  intros now2 Hnow.
  assert (Hts1 : ts f1 = ts f) by (unfold ts; rewrite Hp1; reflexivity). rewrite <- Hts1, <- Hr1.
  assert (Hlba1 : forall l, f_lba f1 = Some l -> l < now2) by (intros l El; rewrite Hl1 in El; injection El as <-; exact Hnow).
  assert (Hpend1 : (f_pending f1 < 3)%nat) by (rewrite Hpe1; lia).
  rewrite <- Hp1 in Hto. split.
  - intros f2 o2 a2 c2 H2.
    apply (ai_token_poll f1 now2 _ apps (Some sa) 0 sa) in H2 as (-> & _ & -> & _ & _ & _ & _ & Hacc & _); try assumption; try reflexivity; [|congruence].
    repeat split. apply Hacc. right. reflexivity.
  - intros sb f2 o2 a2 c2 Hsb Hsbts Hsbps H2.
    apply (ai_token_poll f1 now2 _ apps (Some sa) 0 sb) in H2 as (-> & _ & -> & _ & _ & _ & _ & _ & Hrej); try assumption; try reflexivity.
    destruct Hrej as [Hs2 Hr2]; [intros [X|[= X]]; congruence|]. repeat split; assumption.
Qed.

(* C11_supervise, second half: while supervising a pass the station transmits only when the slot
   timer has run out *)
Lemma supervise_tx_only_expired f now pin (apps : list A) f' o a c att :
  f_state f = CheckTokenPass att -> poll ops f now pin apps = Ok (f', o, a, c) ->
  tx o <> None -> slot_expired f now pin = true.
Proof.
  intros Hst H Htx. destruct (check_pass_poll f now pin apps f' o a c att Hst H) as [_ [_ [_ D]]].
  destruct (slot_expired f now pin); [reflexivity|]. destruct D as [D _]. contradiction.
Qed.

(* C11_heard_not_removed: bus activity seen by the poll (new bytes in the receive buffer) while the
   pass is supervised: nothing is transmitted and nobody is removed (the ring view changes by witnessed
   passes only); a complete telegram takes the station out of the hand-over (to ActiveIdle, where the
   telegrams are handled), an incomplete one lets it wait on, undecodable bytes are dropped. *)
Lemma heard_not_removed f now pin (apps : list A) f' o a c att :
  f_state f = CheckTokenPass att -> 0 <= slot_time (f_p f) ->
  tx_busy pin = false -> predicted f now = false -> (f_pending f < length (rx pin))%nat ->
  poll ops f now pin apps = Ok (f', o, a, c) ->
  tx o = None /\ c = [] /\ ring_witnessed (f_ring f) (f_ring f') /\
  match decode_spec (rx pin) with
  | Accept _ _ => heard_kind (f_state f')
  | Reject => f_state f' = CheckTokenPass att /\ f_ring f' = f_ring f /\ rx_left o = []
  | NeedMore => f_state f' = CheckTokenPass att /\ f_ring f' = f_ring f /\ rx_left o = rx pin
  end.
Proof.
  intros Hst Hs Hb Hp Hn H. destruct (check_pass_poll f now pin apps f' o a c att Hst H) as [_ [Hc [_ D]]].
  (* new bytes restart the slot timer *)
  replace (slot_expired f now pin) with false in D
    by (symmetry; apply not_true_is_false; intros (_ & Hl & _)%slot_expired_iff; [lia|exact Hs]).
  rewrite Hb, Hp in D. destruct D as [Htx [Hrw D]]. repeat split; assumption.
Qed.

End WithApps.

Arguments run_polls {A}.

(* a concrete run (non-vacuity of C11_retry_discipline): station 1 with successor 5 in its ring view,
   nobody answers.  Observed per poll: state kind afterwards, transmission, ghost count afterwards. *)

Fixpoint ghost_trace (c : nat) (steps : list step_rec) : list (state_kind * option bytes * nat) :=
  match steps with
  | [] => []
  | s :: t => let c' := ghost_next c (s_f' s) (s_out s) in
              (kind_of (f_state (s_f' s)), tx (s_out s), c') :: ghost_trace c' t
  end.

Definition ex_ring : res ring :=
  let* r := ring_new 1 in let* r := set_next_station r 5 in Ok (claim_token r).

Definition ex_station (r : ring) : fdl :=
  mkFdl default_params r ConnOnline (GapWaiting 0) (PassToken false AttFirst) (Some 0) 0 0 0 0.

Definition ex_inputs : list (Z * phy_in) :=
  [(100000, mkPhyIn false []); (200000, mkPhyIn false []); (300000, mkPhyIn false []);
   (301000, mkPhyIn false []); (303000, mkPhyIn false []); (400000, mkPhyIn false [])].

Definition ex_trace : res (list (state_kind * option bytes * nat)) :=
  let* r := ex_ring in
  let* steps := run_polls unit_app_ops (ex_station r) [tt] ex_inputs in
  Ok (ghost_trace 0 steps).
