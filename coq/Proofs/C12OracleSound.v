(* C12, soundness of the monitor on the model: on every transcript of the MODEL the executable rules R12_sweep_bound,
   R12_post_claim_scan_incomplete and R12_gap_wait_never_ends of Model/FdlOracle.v never fire.
   Sweep bound and post-claim scan: two simulations between the bookkeeping of the second monitor (visit counter
   g_visit, per-address marks g_last: SW; scan list g_scan: SC) and the GAP state of the model.  Both rest on one
   reading of C12Proofs.poll_sweep_rel in the monitor's words (poll_sweep_read); the potential of SW is the ranking
   function of C12_sweep_bound (visits_until) plus the GAP step that is still due in the visit (pend).
   Liveness: exact bookkeeping of last_bus_activity / pending_bytes in the states that await a GAP reply
   (await_poll_exact, entry_plb), simulation LW between l_ref / l_txend / l_spur of the monitor and the model.
   One induction over the transcript with all three (JC): fdl_oracle_sound3, and rule by rule c12_oracle_sound_sweep,
   _claim_scan, _gap_wait, c12_oracle_sound. *)
From Coq Require Import Arith FinFun.
From PB Require Import Common Tables FdlTables Telegram Phy TokenRing Params Fdl FdlOracle FdlProofs FdlStepProofs.
From PB Require Import C05Proofs C11Proofs C13Proofs C12Proofs.
From PB Require Import FdlOracleSound1 FdlOracleSound2 FdlOracleSound3 FdlOracleSound5 FdlOracleSound6
                       FdlOracleSound7 FdlOracleSound11 FdlOracleSoundAll C11Liveness.

(* the GAP of a station whose NS may lie at or above HSA: for addresses below HSA it is the GAP up to
   "NS = 0" (everything above TS) *)

Definition ens (H n : Z) : Z := if H <=? n then 0 else n.

Lemma ens_range H n : 0 < H -> 0 <= n -> 0 <= ens H n < H.
Proof. unfold ens. intros. destruct (Z.leb_spec H n); lia. Qed.

Lemma in_gapb_ens t n H x : 0 <= t < H -> 0 <= x < H -> in_gapb t n x = in_gapb t (ens H n) x.
Proof.
  unfold ens, in_gapb. intros Ht Hx. destruct (Z.leb_spec H n); [|reflexivity].
  destruct (Z.ltb_spec t n); [|lia]. destruct (Z.ltb_spec t 0); [lia|].
  destruct (Z.ltb_spec t x); destruct (Z.ltb_spec x n); destruct (Z.ltb_spec x 0); try lia; reflexivity.
Qed.

Lemma gnext_ens t n H c : 0 <= t < H -> 0 <= c < H -> gnext t n H c = gnext t (ens H n) H c.
Proof. intros Ht Hc. unfold gnext. rewrite (in_gapb_ens t n H (nxt H c) Ht (nxt_range H c Hc)). reflexivity. Qed.

Lemma gstep_ens t n H gw g : 0 <= t < H -> gap_wf H gw g -> gstep t n H gw g = gstep t (ens H n) H gw g.
Proof.
  intros Ht Hw. unfold gstep. destruct g as [rc|c]; cbn in Hw.
  - destruct (gw <? rc); [apply gnext_ens; assumption|reflexivity].
  - apply gnext_ens; assumption.
Qed.

(* The sweep of a station in the terms of C12_sweep_bound: HSA, the successor as above, the rotations to wait; sB the
   bound of the property, vu f a the visits until a is polled, sstep one GAP step. *)
Definition sH (f : fdl) : Z := p_hsa (f_p f).
Definition sN (f : fdl) : Z := ens (sH f) (r_ns (f_ring f)).
Definition sG (f : fdl) : Z := p_gap_wait (f_p f).
Definition sB (f : fdl) : Z := gap_size (ts f) (sN f) (sH f) + sG f + 2.
Definition vu (f : fdl) (a : Z) : Z := visits_until (ts f) (sN f) (sH f) (sG f) a (f_gap f).
Definition sstep (f : fdl) (g : gap_state) : gap_state := gstep (ts f) (sN f) (sH f) (sG f) g.

Definition sweep_ok (f : fdl) : Prop :=
  0 <= ts f < sH f /\ sH f <= 126 /\ 0 <= r_ns (f_ring f) /\ 0 <= sG f <= 254 /\ gap_wf (sH f) (sG f) (f_gap f).

Lemma Rep_sweep_ok n f : Rep n f -> sweep_ok f.
Proof.
  intros R. pose proof (Rep_ts _ _ R) as Hts. pose proof (bv_ranges _ (rep_p _ _ R)) as Hb.
  pose proof (ring_ok_ns _ _ (rep_ring _ _ R) ltac:(lia)) as Hns. pose proof (rep_gap _ _ R) as Hg.
  unfold sweep_ok, sH, sG. split; [lia|]. split; [lia|]. split; [lia|]. split; [lia|].
  unfold gap_ok in Hg. destruct (f_gap f); cbn; lia.
Qed.

Lemma Rep_cursor_ok n f : Rep n f -> gap_cursor_ok f.
Proof.
  intros R. pose proof (Rep_ts _ _ R). split; [lia|]. intros c Ec. pose proof (rep_gap _ _ R) as G. rewrite Ec in G. exact G.
Qed.

Lemma in_gap_sN f x : sweep_ok f -> 0 <= x < sH f -> (in_gap (ts f) (r_ns (f_ring f)) x <-> in_gap (ts f) (sN f) x).
Proof.
  intros (Ht & _) Hx. rewrite <- !in_gapb_spec. unfold sN. rewrite (in_gapb_ens _ (r_ns (f_ring f)) (sH f) x Ht Hx). tauto.
Qed.

Lemma gap_visit_step_sstep f : sweep_ok f -> gap_visit_step f = Ok (sstep f (f_gap f)).
Proof.
  intros (Ht & Hh & Hn & Hgw & Hw). unfold sstep, sN. rewrite <- (gstep_ens _ (r_ns (f_ring f)) _ _ _ Ht Hw).
  apply gap_visit_step_pure; unfold sH, sG in *; (assumption || lia).
Qed.

Lemma vu_step f a : sweep_ok f -> 0 <= a < sH f -> in_gap (ts f) (r_ns (f_ring f)) a ->
  1 <= vu f a <= sB f /\
  (vu f a = 1 -> sstep f (f_gap f) = GapDoPoll a) /\
  (1 < vu f a -> visits_until (ts f) (sN f) (sH f) (sG f) a (sstep f (f_gap f)) = vu f a - 1).
Proof.
  intros Hok Ha Hin. pose proof Hok as (Ht & Hh & Hn & Hgw & Hw).
  apply (in_gap_sN f a Hok Ha) in Hin.
  assert (H0 : 0 < sH f) by lia.
  exact (visits_until_step _ _ _ _ _ _ Ht (ens_range (sH f) (r_ns (f_ring f)) H0 Hn) (proj1 Hgw) Ha Hin Hw).
Qed.

Lemma vu_dec f f' a : sweep_ok f -> 0 <= a < sH f -> in_gap (ts f) (r_ns (f_ring f)) a ->
  f_p f' = f_p f -> r_ns (f_ring f') = r_ns (f_ring f) -> f_gap f' = sstep f (f_gap f) -> f_gap f' <> GapDoPoll a ->
  vu f' a = vu f a - 1.
Proof.
  intros Hok Ha Hin Hp Hns Hg Hne. destruct (vu_step f a Hok Ha Hin) as (Hr & H1 & H2).
  assert (Hgt : 1 < vu f a).
  { destruct (Z.eq_dec (vu f a) 1) as [E|E]; [|lia]. exfalso. apply Hne. rewrite Hg. exact (H1 E). }
  unfold vu at 1. unfold sN, sH, sG, ts. rewrite Hp, Hns, Hg. exact (H2 Hgt).
Qed.

Lemma vu_upper f a : sweep_ok f -> 0 <= a < sH f -> in_gap (ts f) (r_ns (f_ring f)) a -> 1 <= vu f a <= sB f.
Proof. intros Hok Ha Hin. exact (proj1 (vu_step f a Hok Ha Hin)). Qed.

Lemma vu_same f f' a : f_p f' = f_p f -> r_ns (f_ring f') = r_ns (f_ring f) -> f_gap f' = f_gap f -> vu f' a = vu f a.
Proof. intros Hp Hns Hg. unfold vu, sN, sH, sG, ts. rewrite Hp, Hns, Hg. reflexivity. Qed.
Lemma sB_same f f' : f_p f' = f_p f -> r_ns (f_ring f') = r_ns (f_ring f) -> sB f' = sB f.
Proof. intros Hp Hns. unfold sB, sN, sH, sG, ts. rewrite Hp, Hns. reflexivity. Qed.

Lemma in_gap_addrs p ns a : In a (gap_addrs p ns) <-> 0 <= a < 126 /\ in_gapb (p_address p) ns a = true /\ a < p_hsa p.
Proof.
  unfold gap_addrs. rewrite filter_In, in_map_iff. split.
  - intros ((k & <- & Hk) & Hb). apply in_seq in Hk. apply andb_true_iff in Hb. destruct Hb as (H1 & H2). apply Z.ltb_lt in H2.
    unfold addr_count in Hk. split; [lia|]. split; assumption.
  - intros (Ha & H1 & H2). split.
    + exists (Z.to_nat a). split; [lia|]. apply in_seq. unfold addr_count. lia.
    + apply andb_true_iff. split; [exact H1|apply Z.ltb_lt; exact H2].
Qed.

Definition addr_at (t H k : Z) : Z := if t + k <? H then t + k else t + k - H.

Lemma addr_at_spec t H k : 0 <= t < H -> 1 <= k < H -> 0 <= addr_at t H k < H /\ off t H (addr_at t H k) = k.
Proof.
  intros Ht Hk. unfold addr_at, off. destruct (Z.ltb_spec (t + k) H).
  - split; [lia|]. destruct (Z.leb_spec t (t + k)); lia.
  - split; [lia|]. destruct (Z.leb_spec t (t + k - H)); lia.
Qed.

Lemma gap_addrs_length p ns : builder_valid p -> 0 <= ns ->
  gap_size (p_address p) (ens (p_hsa p) ns) (p_hsa p) <= Z.of_nat (length (gap_addrs p ns)).
Proof.
  intros Hbv Hns. pose proof (bv_ranges _ Hbv) as Hb.
  set (t := p_address p). set (H := p_hsa p). set (n := ens H ns).
  assert (Ht : 0 <= t < H) by (unfold t, H; lia).
  assert (Hn : 0 <= n < H) by (apply ens_range; unfold H; lia).
  pose proof (gap_size_range t n H Ht Hn) as Hgs.
  set (ks := map Z.of_nat (seq 1 (Z.to_nat (gap_size t n H)))).
  assert (Hks : forall k, In k ks <-> 1 <= k <= gap_size t n H).
  { intros k. unfold ks. rewrite in_map_iff. split.
    - intros (j & <- & Hj). apply in_seq in Hj. lia.
    - intros Hk. exists (Z.to_nat k). split; [lia|]. apply in_seq. lia. }
  assert (Hnd : NoDup (map (addr_at t H) ks)).
  { apply (NoDup_map_inv (off t H)). rewrite map_map.
    rewrite (map_ext_in _ (fun k => k)); [rewrite map_id; unfold ks; apply FinFun.Injective_map_NoDup; [intros x y E; lia|apply seq_NoDup]|].
    intros k Hk. apply Hks in Hk. apply (addr_at_spec t H k Ht). lia. }
  assert (Hincl : incl (map (addr_at t H) ks) (gap_addrs p ns)).
  { intros x Hx. apply in_map_iff in Hx. destruct Hx as (k & <- & Hk). apply Hks in Hk.
    destruct (addr_at_spec t H k Ht ltac:(lia)) as (Hr & Ho).
    apply in_gap_addrs. fold t H. split; [unfold H in *; lia|]. split; [|lia].
    rewrite (in_gapb_ens t ns H _ Ht Hr). fold n. apply in_gapb_spec. apply (gap_offsets t n H _ Ht Hn Hr). lia. }
  pose proof (NoDup_incl_length Hnd Hincl) as Hlen. rewrite map_length in Hlen. unfold ks in Hlen. rewrite map_length, seq_length in Hlen. lia.
Qed.

Lemma set_nth_nat_length l i v : length (set_nth_nat l i v) = length l.
Proof. revert i. induction l as [|x l IH]; intros i; [reflexivity|]. destruct i; cbn; [reflexivity|]. rewrite IH. reflexivity. Qed.

Lemma nth_set_nth_nat l i v j : nth j (set_nth_nat l i v) 0%nat = if Nat.eqb j i && Nat.ltb i (length l) then v else nth j l 0%nat.
Proof.
  revert i j. induction l as [|x l IH]; intros i j.
  - cbn. rewrite andb_false_r. destruct j; reflexivity.
  - destruct i as [|i]; destruct j as [|j]; cbn [set_nth_nat nth Nat.eqb length]; try reflexivity.
    rewrite IH. change (Nat.ltb (S i) (S (length l))) with (Nat.ltb i (length l)). reflexivity.
Qed.

Lemma nth_repeat_lt {X} (v d : X) k i : (i < k)%nat -> nth i (repeat v k) d = v.
Proof. revert i. induction k as [|k IH]; intros i Hi; [lia|]. destruct i; cbn; [reflexivity|]. apply IH. lia. Qed.

Lemma nth_repeat_le (v : nat) k i : (nth i (repeat v k) 0 <= v)%nat.
Proof. destruct (Nat.lt_ge_cases i k); [rewrite nth_repeat_lt by assumption; lia|rewrite nth_overflow by (rewrite repeat_length; assumption); lia]. Qed.

Lemma forall_no_send_app_sent calls : Forall no_send calls -> app_sent calls = false.
Proof.
  intros Hf. unfold app_sent. induction calls as [|c l IH]; [reflexivity|]. inversion Hf as [|? ? H1 H2]; subst. cbn [existsb]. rewrite (IH H2).
  destruct c as [i hp [r|]|i a t|i a]; try reflexivity. contradiction.
Qed.

Lemma bv_not_short_slot f : builder_valid (f_p f) -> ~ short_slot f.
Proof.
  intros Hbv. unfold short_slot, slot_time, p_bits_to_time.
  assert (Hs : sync_pause_bits <= p_slot_bits (f_p f)).
  { destruct Hbv as (_ & (Hmin & _) & _). change sync_pause_bits with 33. destruct (p_baud (f_p f)); cbn in Hmin; lia. }
  pose proof (bits_to_time_mono (p_baud (f_p f)) _ _ Hs). lia.
Qed.

Lemma y_in_list_spec a l : y_in_list a l = true <-> In a l.
Proof.
  unfold y_in_list. rewrite existsb_exists. split.
  - intros (x & Hx & E). apply Z.eqb_eq in E. subst x. exact Hx.
  - intros H. exists a. split; [exact H|apply Z.eqb_refl].
Qed.

Lemma kind_offline s : kind_of s = KOffline -> s = Offline.
Proof. destruct s; cbn; intros H; try discriminate H; reflexivity. Qed.

Lemma skeqb_eq k k' : state_kind_eqb k k' = true <-> k = k'.
Proof. split; [destruct k, k'; intros H; try discriminate H; reflexivity|intros <-; destruct k; reflexivity]. Qed.

Section Sweep.
Variable A : Type.
Variable ops : app_ops A.
Variable p : params.
Variable n : nat.
Hypothesis Hbv : builder_valid p.
Hypothesis Hdata : app_sends_data A ops.

Definition lastv (g : mon2) (a : Z) : nat := nth (Z.to_nat a) (g_last g) 0%nat.

(* the simulation: for every GAP address, the visits counted since its last poll plus the visits the model still
   needs to poll it stay within the bound (one more while the GAP step of the current visit is still due) *)
Record SW (f : fdl) (g : mon2) : Prop := mkSW {
  sw_len : length (g_last g) = addr_count;
  sw_le : forall i, (nth i (g_last g) 0 <= g_visit g)%nat;
  sw_off : f_state f = Offline -> forall i, (i < addr_count)%nat -> nth i (g_last g) 0%nat = g_visit g;
  sw_main : forall a, 0 <= a < sH f -> in_gap (ts f) (r_ns (f_ring f)) a ->
            Z.of_nat (g_visit g - lastv g a) + vu f a <= sB f + pend (f_state f)
}.

Lemma sw_fresh f : sweep_ok f -> SW f mon2_reset.
Proof.
  intros Hok. constructor; cbn [mon2_reset g_last g_visit].
  - apply repeat_length.
  - intros i. apply nth_repeat_le.
  - intros _ i Hi. apply nth_repeat_lt. exact Hi.
  - intros x Hx Hin. pose proof (vu_upper f x Hok Hx Hin). pose proof (pend_range (f_state f)). cbn. lia.
Qed.

Lemma sw_api a f f' m g : SW f g -> api_result p a f = Ok f' -> Rep n f' ->
  SW f' (snd (mon_after_api a (view_of f') m g)).
Proof.
  intros HS E R'. pose proof (sw_fresh f' (Rep_sweep_ok _ _ R')) as Hnew.
  destruct a; cbn [api_result mon_after_api snd] in *; try exact Hnew.
  - unfold set_online, set_state in E. injection E as <-. destruct HS as [S1 S2 S3 S4]. constructor; assumption.
  - discriminate E.
Qed.

(* R12_post_claim_scan_incomplete: the scan list of the monitor lies ahead of the cursor, or outside the GAP once
   the sweep has ended *)
Definition ahead (f : fdl) (l : list Z) : Prop :=
  match f_gap f with
  | GapDoPoll c => forall a, In a l -> 0 <= a < sH f /\ off (ts f) (sH f) c < off (ts f) (sH f) a
  | GapWaiting _ => forall a, In a l -> ~ In a (gap_addrs p (r_ns (f_ring f)))
  end.

Record SC (f : fdl) (g : mon2) : Prop := mkSC {
  sc_none : kind_of (f_state f) <> KClaimToken -> g_scan g = None;
  sc_list : forall l, g_scan g = Some l -> ahead f l
}.

Lemma sc_init f0 : SC f0 mon2_reset.
Proof. constructor; cbn [mon2_reset g_scan]; [reflexivity|intros l C; discriminate C]. Qed.

Lemma sc_api a f f' m g : SC f g -> api_result p a f = Ok f' ->
  SC f' (snd (mon_after_api a (view_of f') m g)).
Proof.
  intros [C1 C2] E. destruct a; cbn [api_result mon_after_api snd] in *; try apply sc_init.
  - unfold set_online, set_state in E. injection E as <-. constructor; assumption.
  - discriminate E.
Qed.

Lemma in_gap_addrs_off f a : sweep_ok f -> f_p f = p -> In a (gap_addrs p (r_ns (f_ring f))) ->
  0 <= a < sH f /\ 1 <= off (ts f) (sH f) a <= gap_size (ts f) (sN f) (sH f).
Proof.
  intros (Ht & Hh & Hn & _) Hp Ha. apply in_gap_addrs in Ha. destruct Ha as (Ha & Hb & Hah).
  assert (Ha' : 0 <= a < sH f) by (unfold sH; rewrite Hp; lia). split; [exact Ha'|].
  replace (p_address p) with (ts f) in Hb by (unfold ts; rewrite Hp; reflexivity).
  rewrite (in_gapb_ens _ _ (sH f) a Ht Ha') in Hb.
  assert (H0 : 0 < sH f) by lia.
  unfold sN in Hb |- *. rewrite (in_gapb_off _ _ _ _ Ht (ens_range (sH f) (r_ns (f_ring f)) H0 Hn) Ha') in Hb. apply andb_true_iff in Hb. destruct Hb as (H1 & H2).
  apply Z.leb_le in H1. apply Z.leb_le in H2. lia.
Qed.

Lemma ahead_step f l c : sweep_ok f -> f_p f = p -> 0 <= c < sH f ->
  (forall x, In x l -> 0 <= x < sH f /\ off (ts f) (sH f) c < off (ts f) (sH f) x) ->
  match sstep f (GapDoPoll c) with
  | GapDoPoll a => forall x, In x (filter (fun y => negb (y =? a)) l) -> 0 <= x < sH f /\ off (ts f) (sH f) a < off (ts f) (sH f) x
  | GapWaiting _ => forall x, In x l -> ~ In x (gap_addrs p (r_ns (f_ring f)))
  end.
Proof.
  intros Hok Hp Hc Hl. pose proof Hok as (Ht & _ & Hnsr & _).
  assert (HnN : 0 <= sN f < sH f) by (apply ens_range; lia).
  unfold sstep, gstep.
  destruct (gnext_by_offset (ts f) (sN f) (sH f) c Ht HnN Hc) as [(-> & G2 & _)|(-> & G2)]; intros x Hx.
  - apply filter_In in Hx. destruct Hx as (Hx & Hne). apply negb_true_iff, Z.eqb_neq in Hne.
    destruct (Hl x Hx) as (Hxr & Hox). split; [exact Hxr|]. rewrite G2.
    assert (off (ts f) (sH f) x <> off (ts f) (sH f) (nxt (sH f) c)).
    { intros C. apply Hne. apply (off_inj (ts f) (sH f)); try assumption. apply nxt_range. exact Hc. }
    lia.
  - intros Hin. destruct (Hl x Hx) as (Hxr & Hox). destruct (in_gap_addrs_off f x Hok Hp Hin) as (_ & Hgx).
    pose proof (off_range (ts f) (sH f) x Ht Hxr). lia.
Qed.

(* what the second monitor reads from the transmission of a poll: L_poll a GAP request, L_tok a token *)
Section Decode.
Variables (f f' : fdl) (now : Z) (busy : bool) (rxb : bytes) (o : phy_out) (calls : list call).
Hypothesis Hp : f_p f = p.
Let s := poll_event now busy rxb f' o calls.

Lemma L_poll a : tx o = Some (sr_wire a (ts f)) -> Forall no_send calls -> 0 <= a < 128 -> 0 <= ts f < 128 ->
  y_gap_poll p s = Some a /\ y_token_tx p s = None.
Proof.
  intros Htx Hns Ha Hts.
  assert (Hwf : wf_header (status_request_header a (ts f))) by (unfold wf_header, is_addr7; cbn; lia).
  assert (Hd : y_txt s = Some (TData (status_request_header a (ts f)) [])).
  { rewrite (y_txt_tx _ (sr_wire a (ts f))) by (cbn; exact Htx). unfold sr_wire. apply (decode_one_data _ [] Hwf). cbn. lia. }
  split.
  - unfold y_gap_poll. rewrite Hd. cbn [s poll_event s_calls status_request_header h_fc h_sa h_da is_fdl_status_request].
    rewrite app_sent_conv, (forall_no_send_app_sent _ Hns). unfold y_ts, ts. rewrite Hp, Z.eqb_refl. reflexivity.
  - unfold y_token_tx. rewrite Hd. reflexivity.
Qed.

Lemma L_tok da : tx o = Some (encode_token da (ts f)) -> y_token_tx p s = Some da /\ y_gap_poll p s = None.
Proof.
  intros Htx. assert (Hts : ts f = p_address p) by (unfold ts; rewrite Hp; reflexivity). rewrite Hts in Htx.
  split; [apply y_token_of_wire; exact Htx|].
  unfold y_gap_poll. rewrite (y_txt_tx _ (encode_token da (p_address p))) by (cbn; exact Htx). rewrite decode_one_token. reflexivity.
Qed.
End Decode.

Lemma visit_state_kind s : visit_state s <-> kind_in (kind_of s) [KPassToken; KAwaitStatusResponse; KUseToken; KAwaitDataResponse] = true.
Proof. unfold visit_state, in_use. destruct (kind_of s); cbn; intuition discriminate. Qed.

Lemma early_claim_poll f now pin (apps : list A) f' o apps' calls :
  poll ops f now pin apps = Ok (f', o, apps', calls) ->
  f_state f = ClaimToken StepFirstToken \/ f_state f = ClaimToken StepSecondToken ->
  kind_of (f_state f') = KClaimToken.
Proof.
  intros H Hst. apply poll_unfold in H. destruct H as (w' & Hi & _).
  assert (Hk : online_entry_kind (kind_of (f_state f)) = false /\ passive_entry_kind (kind_of (f_state f)) = false)
    by (destruct Hst as [S|S]; rewrite S; split; reflexivity).
  apply poll_inner_cases in Hi. destruct Hi as [Hpre|(f3 & w3 & Hpre & _ & Hd)].
  - pose proof (pre_rel_state A _ _ _ _ Hpre (proj1 Hk) (proj2 Hk)) as Hs. rewrite Hs. destruct Hst as [S|S]; rewrite S; reflexivity.
  - pose proof (pre_rel_state A _ _ _ _ Hpre (proj1 Hk) (proj2 Hk)) as Hs.
    unfold dispatch in Hd. rewrite Hs in Hd.
    assert (Hdc : do_claim_token A f3 now w3 = Ok (f', w')) by (destruct Hst as [S|S]; rewrite S in Hd; exact Hd).
    apply do_claim_token_spec in Hdc. destruct Hdc as (st0 & Es & _ & _ & _ & _ & Hcases). rewrite Hs in Es.
    destruct Hst as [S|S]; rewrite S in Es; injection Es as <-;
      destruct Hcases as (_ & [(_ & S1 & _)|(_ & _ & S1 & _)]); rewrite S1; try rewrite Hs, S; reflexivity.
Qed.

Section Poll.
Variables (f : fdl) (apps : list A) (buf : bytes) (tl : Z) (m : mon) (g : mon2) (now : Z) (busy : bool) (nb : bytes)
          (f' : fdl) (o : phy_out) (apps' : list A) (calls : list call).
Hypothesis HB : Base A p n f apps buf tl m.
Hypothesis E : poll ops f now (mkPhyIn busy (buf ++ nb)) apps = Ok (f', o, apps', calls).
Hypothesis R' : Rep (length apps') f'.
Hypothesis Hp' : f_p f' = p.
Let s := poll_event now busy (buf ++ nb) f' o calls.

Lemma poll_eqs :
  Rep (length apps) f /\ f_p f = p /\ f_p f' = f_p f /\ y_k0 m = kind_of (f_state f) /\
  v_ns (y_pre m) = r_ns (f_ring f) /\ ts f = p_address p /\ ts f' = ts f /\ sH f' = sH f.
Proof.
  destruct HB as [R Hp _ Hv _ _ _ _]. unfold y_k0, y_pre, ts, sH. rewrite Hv, Hp, Hp'. split; [exact R|]. repeat split; reflexivity.
Qed.

Lemma no_flags : y_token_tx p s = None \/ kind_of (f_state f) = KCheckTokenPass \/ f_state f = Offline ->
  y_visit_tx p m s = false /\ y_claim_tx p m s = false.
Proof.
  destruct poll_eqs as (_ & _ & _ & Hk0 & _). unfold y_visit_tx, y_claim_tx. rewrite Hk0.
  intros [-> |[-> | ->]]; [split; reflexivity| |]; destruct (y_token_tx p s); split; try reflexivity; apply andb_false_r.
Qed.

Lemma visit_not_claim : y_visit_tx p m s = true -> y_claim_tx p m s = false.
Proof.
  unfold y_visit_tx, y_claim_tx. destruct (y_token_tx p s); [|reflexivity].
  destruct (y_k0 m); try discriminate; intros _; apply andb_false_r.
Qed.

Lemma token_tx_model da : y_token_tx p s = Some da ->
  tx_token f f' now (encode_token da (ts f)) /\ tx o = Some (encode_token da (ts f)).
Proof.
  destruct poll_eqs as (R & Hp & _). intros Et. apply y_token_x in Et.
  destruct (tf_token _ _ _ _ _ _ (poll_txflags A ops p Hdata _ _ _ _ _ _ _ _ _ R Hp E) _ _ Et) as (_ & Hcl & Hw). split; assumption.
Qed.

Lemma visit_tx_pend : y_visit_tx p m s = true -> pend (f_state f') = 1 /\ f_state f' <> Offline.
Proof.
  destruct poll_eqs as (_ & _ & _ & Hk0 & _).
  unfold y_visit_tx. destruct (y_token_tx p s) as [da|] eqn:Et; [|discriminate]. rewrite Hk0. intros Hk.
  destruct (token_tx_model da Et) as ((da' & _ & Hcl) & _).
  destruct Hcl as [(_ & [(S1 & _)|(_ & Hpre)])|([S1|(att & S1)] & _)]; try (rewrite S1; split; [reflexivity|discriminate]).
  rewrite Hpre in Hk. discriminate Hk.
Qed.

Lemma claim_tx_claims : y_claim_tx p m s = true -> kind_of (f_state f') = KClaimToken.
Proof.
  destruct poll_eqs as (_ & _ & _ & Hk0 & _).
  unfold y_claim_tx. destruct (y_token_tx p s) as [da|] eqn:Et; [|discriminate]. rewrite Hk0. intros Hc.
  apply andb_true_iff in Hc. destruct Hc as (_ & Hk). destruct (token_tx_model da Et) as ((da' & _ & Hcl) & _).
  destruct Hcl as [(_ & [(S1 & _)|(S1 & _)])|(_ & Hpre)]; try (rewrite S1; reflexivity).
  exfalso. destruct Hpre as [K|[K|[K|[K|K]]]]; rewrite K in Hk; discriminate Hk.
Qed.

(* What one poll does to the sweep, in the words of the second monitor (C12Proofs.poll_sweep_rel read through the
   transmission).  The station claims the token and its cursor is back at TS; or the picture is reset (it was or
   goes offline, goes back to listening); or a GAP request goes out after exactly one GAP step; or the token of the
   visit goes out, after the GAP step of the visit if that was still due; or neither, and the GAP state stays (but
   for the end of the post-claim scan). *)
Lemma poll_sweep_read :
  (y_claim_tx p m s = true /\ f_gap f' = GapDoPoll (ts f)) \/
  y_claim_tx p m s = false /\
  (f_state f = Offline \/ kind_of (f_state f') = KOffline \/ kind_of (f_state f') = KListenToken \/
   (exists a, y_gap_poll p s = Some a /\ y_visit_tx p m s = false /\ 0 <= a < sH f /\
      sstep f (f_gap f) = GapDoPoll a /\ f_gap f' = GapDoPoll a /\ pend (f_state f') = 0 /\ f_ring f' = f_ring f /\
      (kind_of (f_state f) = KClaimToken -> exists c, f_gap f = GapDoPoll c)) \/
   (y_gap_poll p s = None /\ y_visit_tx p m s = true /\ visit_state (f_state f) /\ pend (f_state f') = 1 /\
      ((pend (f_state f) = 1 /\ f_gap f' = sstep f (f_gap f) /\ exists k, f_gap f' = GapWaiting k) \/
       (pend (f_state f) = 0 /\ f_gap f' = f_gap f))) \/
   (y_gap_poll p s = None /\ y_visit_tx p m s = false /\
      ((f_gap f' = f_gap f /\ pend (f_state f) <= pend (f_state f')) \/
       (pend (f_state f) = 0 /\ pend (f_state f') = 0 /\ f_gap f' = sstep f (f_gap f) /\
        (exists c, f_gap f = GapDoPoll c) /\ (exists k, f_gap f' = GapWaiting k) /\ f_ring f' = f_ring f)))).
Proof.
  destruct poll_eqs as (R & Hp & _ & Hk0 & _ & Hts & _).
  pose proof (Rep_sweep_ok _ _ R) as Hok. pose proof (Rep_ts _ _ R) as Htsr.
  pose proof (poll_txflags A ops p Hdata _ _ _ _ _ _ _ _ _ R Hp E) as Htf. fold s in Htf.
  assert (Hnc : kind_of (f_state f') <> KClaimToken -> y_claim_tx p m s = false).
  { intros Hn. destruct (y_claim_tx p m s) eqn:Ec; [contradiction (Hn (claim_tx_claims Ec))|reflexivity]. }
  assert (Hgst : forall x, gap_visit_step f = Ok x -> x = sstep f (f_gap f)).
  { intros x Hx. rewrite (gap_visit_step_sstep f Hok) in Hx. injection Hx as <-. reflexivity. }
  destruct (poll_sweep_rel A ops _ _ _ _ _ _ _ _ E) as
    [Hres|[(a & Htx & (l & Hl & Hnsd) & Hstep & Hg' & Hp0 & Hring & Hcur)|[(da & Htx & (l & Hl & Hnsd) & Hvs & Hp1 & Hgs)|(Hq & Hrel)]]].
  - destruct Hres as [K|[K|[K|[K|[(Htx & Hkk & G & _)|K]]]]].
    + apply kind_offline in K. right. split; [apply no_flags; tauto|left; exact K].
    + exfalso. pose proof (rep_st _ _ R) as St. destruct (f_state f); try discriminate K. exact St.
    + right. split; [apply Hnc; rewrite K; discriminate|tauto].
    + right. split; [apply Hnc; rewrite K; discriminate|tauto].
    + left. split; [|exact G]. destruct (L_tok f f' now busy (buf ++ nb) o calls Hp _ Htx) as (Ht & _). fold s in Ht.
      unfold y_claim_tx. rewrite Ht, Hk0. unfold y_ts. rewrite <- Hts, Z.eqb_refl.
      destruct Hkk as [K|[K|K]]; rewrite K; reflexivity.
    + exfalso. apply (bv_not_short_slot f); [rewrite Hp; exact Hbv|exact K].
  - cbn in Hl. subst l. destruct (gap_visit_step_in_gap f a Hstep) as (_ & Hrng).
    pose proof (Hrng (Rep_cursor_ok _ _ R)) as Ha.
    destruct (L_poll f f' now busy (buf ++ nb) o calls Hp a Htx Hnsd ltac:(lia) ltac:(lia)) as (Hgp & Htk). fold s in Hgp, Htk.
    destruct (no_flags (or_introl Htk)) as (Hv & Hc).
    right. split; [exact Hc|]. do 3 right. left. exists a.
    apply Hgst in Hstep. repeat (split; [first [assumption | symmetry; assumption | lia]|]). exact Hcur.
  - cbn in Hl. subst l.
    destruct (L_tok f f' now busy (buf ++ nb) o calls Hp da Htx) as (Htk & Hgp). fold s in Htk, Hgp.
    assert (Hv : y_visit_tx p m s = true) by (unfold y_visit_tx; rewrite Htk, Hk0; apply visit_state_kind; exact Hvs).
    right. split; [exact (visit_not_claim Hv)|]. do 4 right. left.
    repeat (split; [assumption|]).
    destruct Hgs as [(Hpf & Hstep & Hw)|Hsame]; [left; apply Hgst in Hstep; tauto|right; exact Hsame].
  - assert (Hgk : forall a, y_gap_poll p s = Some a ->
                         kind_in (kind_of (f_state f)) [KPassToken; KUseToken; KAwaitDataResponse; KClaimToken] = true).
    { intros a Eg. destruct (tf_gap _ _ _ _ _ _ Htf a Eg) as (_ & _ & _ & _ & [(_ & [(att & ->)|[-> | ->]])|(_ & ->)]); reflexivity. }
    assert (Hread : y_gap_poll p s = None /\ (y_token_tx p s = None \/ kind_of (f_state f) = KCheckTokenPass)).
    { destruct Hq as [Htx|[(wire & cs & i & hp & er & Htx & Hcs)|[(src & st & Htx & Hkk)|(da & Htx & Hkk)]]].
      - destruct (y_tx_none p now busy (buf ++ nb) f' o calls Htx) as (H1 & H2). split; [exact H2|left; exact H1].
      - destruct (app_wire_is_data A ops Hdata _ _ _ _ _ _ _ _ _ _ _ _ _ E Hcs) as (h & pdu & Hd).
        split; [unfold y_gap_poll|left; unfold y_token_tx]; rewrite (y_txt_tx _ wire) by (cbn; exact Htx); rewrite Hd; [|reflexivity].
        cbn [s poll_event s_calls]. rewrite app_sent_conv, Hcs, app_sent_last. cbn [negb]. rewrite andb_false_r. reflexivity.
      - split.
        + destruct (y_gap_poll p s) as [a|]; [|reflexivity]. pose proof (Hgk a eq_refl) as Eg. destruct Hkk as [Q|Q]; rewrite Q in Eg; discriminate Eg.
        + left. destruct (y_token_tx p s) as [da|] eqn:Et; [exfalso|reflexivity].
          destruct (token_tx_model da Et) as (_ & Hw). rewrite Htx in Hw. discriminate Hw.
      - split; [|right; exact Hkk].
        destruct (y_gap_poll p s) as [a|]; [|reflexivity]. pose proof (Hgk a eq_refl) as Eg. rewrite Hkk in Eg. discriminate Eg. }
    destruct Hread as (Hgp & Htk). destruct (no_flags ltac:(tauto)) as (Hv & Hc).
    right. split; [exact Hc|]. do 5 right. split; [exact Hgp|]. split; [exact Hv|].
    destruct Hrel as [Hsame|(H0 & H0' & Hstep & Hrest)]; [left; exact Hsame|right; apply Hgst in Hstep; tauto].
Qed.

Lemma claim_tx_model : y_claim_tx p m s = true -> kind_of (f_state f') = KClaimToken /\ f_gap f' = GapDoPoll (ts f).
Proof.
  intros Hc. split; [exact (claim_tx_claims Hc)|].
  destruct poll_sweep_read as [(_ & G)|(C & _)]; [exact G|congruence].
Qed.

Lemma no_restart : y_restart p m s = false ->
  r_ns (f_ring f') = r_ns (f_ring f) /\ kind_of (f_state f') <> KListenToken /\ f_state f' <> Offline.
Proof.
  destruct poll_eqs as (_ & _ & _ & _ & Hn0 & _). unfold y_restart. rewrite Hn0.
  change (v_ns (y_post s)) with (r_ns (f_ring f')). change (y_k1 s) with (kind_of (f_state f')).
  intros H. apply orb_false_iff in H. destruct H as (H & H3). apply orb_false_iff in H. destruct H as (H1 & _).
  apply negb_false_iff, Z.eqb_eq in H1. repeat split; [exact H1| |]; intros C; rewrite C in H3; discriminate H3.
Qed.

Lemma last2_length : length (g_last g) = addr_count -> length (y_last2 p m g s) = addr_count.
Proof.
  intros SL. unfold y_last2, y_last1. destruct (y_restart p m s); [apply repeat_length|].
  destruct (y_gap_poll p s) as [da|]; [|exact SL]. destruct ((0 <=? da) && (da <? 126)); [rewrite set_nth_nat_length|]; exact SL.
Qed.

Lemma last2_le i : (forall j, nth j (g_last g) 0 <= g_visit g)%nat -> (nth i (y_last2 p m g s) 0 <= g_visit g)%nat.
Proof.
  intros SLe. unfold y_last2, y_last1. destruct (y_restart p m s); [apply nth_repeat_le|].
  destruct (y_gap_poll p s) as [da|]; [|apply SLe]. destruct ((0 <=? da) && (da <? 126)); [|apply SLe].
  rewrite nth_set_nth_nat. destruct (_ && _); [apply Nat.le_refl|apply SLe].
Qed.

Lemma last2_nth i : length (g_last g) = addr_count -> (i < addr_count)%nat ->
  nth i (y_last2 p m g s) 0%nat = g_visit g \/
  (y_restart p m s = false /\ y_gap_poll p s <> Some (Z.of_nat i) /\ nth i (y_last2 p m g s) 0%nat = nth i (g_last g) 0%nat).
Proof.
  intros SL Hi. unfold y_last2, y_last1. destruct (y_restart p m s); [left; apply nth_repeat_lt; exact Hi|].
  destruct (y_gap_poll p s) as [da|]; [|right; repeat split; discriminate].
  destruct (Z.leb_spec 0 da); [destruct (Z.ltb_spec da 126)|]; cbn [andb];
    [|right; repeat split; intros C; injection C as ->; unfold addr_count in Hi; lia ..].
  rewrite nth_set_nth_nat, SL. destruct (Nat.eqb_spec i (Z.to_nat da)) as [->|Hne].
  - left. replace (Nat.ltb (Z.to_nat da) addr_count) with true; [reflexivity|].
    symmetry. apply Nat.ltb_lt. unfold addr_count. lia.
  - right. repeat split. intros C. injection C as ->. lia.
Qed.

(* while the window goes on, the potential vu + pend of an address that is not polled now falls by the visit the
   monitor counts in this poll *)
Lemma sweep_potential a : y_restart p m s = false -> 0 <= a < sH f -> in_gap (ts f) (r_ns (f_ring f)) a ->
  y_gap_poll p s <> Some a ->
  f_state f = Offline \/
  (if y_visit_tx p m s then 1 else 0) + vu f' a + pend (f_state f) <= vu f a + pend (f_state f').
Proof.
  intros Hr Ha Hin Hne. destruct poll_eqs as (R & _ & Hpp & _). pose proof (Rep_sweep_ok _ _ R) as Hok.
  destruct (no_restart Hr) as (Hns & Hl' & Hoff').
  assert (Hdec : f_gap f' = sstep f (f_gap f) -> f_gap f' <> GapDoPoll a -> vu f' a = vu f a - 1)
    by exact (vu_dec f f' a Hok Ha Hin Hpp Hns).
  pose proof (vu_same f f' a Hpp Hns) as Hsame. pose proof (pend_range (f_state f)).
  unfold y_restart in Hr.
  destruct poll_sweep_read as [(C & _)|(_ & [C|[C|[C|[G|[T|Q]]]]])].
  - rewrite C, orb_true_r in Hr. discriminate Hr.
  - left. exact C.
  - contradiction (Hoff' (kind_offline _ C)).
  - contradiction.
  - right. destruct G as (a0 & Hg & -> & _ & Hgs & Hg' & -> & _).
    rewrite Hdec; [lia|congruence|]. rewrite Hg'. intros C. injection C as ->. exact (Hne Hg).
  - right. destruct T as (_ & -> & _ & -> & [(H1 & Hg' & k & Hk)|(H0 & Hg')]).
    + rewrite Hdec; [lia|exact Hg'|]. rewrite Hk. discriminate.
    + rewrite (Hsame Hg'). lia.
  - right. destruct Q as (_ & -> & [(Hg' & Hle)|(H0 & H0' & Hg' & _ & (k & Hk) & _)]).
    + rewrite (Hsame Hg'). lia.
    + rewrite Hdec; [lia|exact Hg'|]. rewrite Hk. discriminate.
Qed.

Lemma sw_poll : SW f g -> y_e_sweep p m g s = [] /\ SW f' (y_g' p n m g s).
Proof.
  intros [SL SLe SOff SMain]. destruct poll_eqs as (R & Hp & Hpp & Hk0 & Hn0 & Hts & Hts' & HH').
  pose proof (Rep_sweep_ok _ _ R') as Hok'. pose proof (pend_range (f_state f')) as Hpr.
  assert (HS' : SW f' (y_g' p n m g s)).
  { constructor; unfold y_g', lastv; cbn [g_last g_visit].
    - exact (last2_length SL).
    - intros i. pose proof (last2_le i SLe). unfold y_visit. destruct (y_visit_tx p m s); lia.
    - intros Hoff i Hi. unfold y_last2, y_restart. change (y_k1 s) with (kind_of (f_state f')). rewrite Hoff, orb_true_r.
      rewrite nth_repeat_lt by exact Hi. unfold y_visit.
      destruct (y_visit_tx p m s) eqn:Ev; [destruct (visit_tx_pend Ev) as (_ & C); contradiction|reflexivity].
    - intros a Ha Hin. pose proof (vu_upper f' a Hok' Ha Hin) as Hu.
      assert (Hi : (Z.to_nat a < addr_count)%nat) by (destruct Hok' as (_ & Hh & _); unfold addr_count; lia).
      (* for a mark that is the count before the poll *)
      assert (Hfresh : Z.of_nat (y_visit p m g s - g_visit g) + vu f' a <= sB f' + pend (f_state f')).
      { unfold y_visit. destruct (y_visit_tx p m s) eqn:Ev; [destruct (visit_tx_pend Ev) as (-> & _)|]; lia. }
      destruct (last2_nth (Z.to_nat a) SL Hi) as [->|(Hr & Hne & ->)]; [exact Hfresh|].
      rewrite Z2Nat.id in Hne by lia. destruct (no_restart Hr) as (Hns & _).
      rewrite HH' in Ha. rewrite Hts', Hns in Hin.
      destruct (sweep_potential a Hr Ha Hin Hne) as [Hoff|Hpot]; [rewrite (SOff Hoff _ Hi); exact Hfresh|].
      pose proof (SMain a Ha Hin) as Hm. unfold lastv in Hm. pose proof (SLe (Z.to_nat a)).
      rewrite (sB_same f f' Hpp Hns). unfold y_visit. destruct (y_visit_tx p m s); lia. }
  split; [|exact HS'].
  (* the rule: a consequence of the invariant after the poll *)
  unfold y_e_sweep. cbv zeta. destruct (y_visit_tx p m s && negb (y_restart p m s)) eqn:Ec; [|reflexivity].
  match goal with |- check ?b _ = [] => replace b with true; [reflexivity|symmetry] end.
  apply forallb_forall. intros a Ha. apply Nat.leb_le. change (v_ns (y_post s)) with (r_ns (f_ring f')) in *.
  apply in_gap_addrs in Ha. destruct Ha as (Ha & Hgb & Hah).
  destruct HS' as [_ _ _ SMain']. unfold lastv, y_g' in SMain'. cbn [g_last g_visit] in SMain'.
  assert (Ha' : 0 <= a < sH f') by (unfold sH; rewrite Hp'; lia).
  assert (Hin' : in_gap (ts f') (r_ns (f_ring f')) a) by (apply in_gapb_spec; rewrite Hts', Hts; exact Hgb).
  pose proof (SMain' a Ha' Hin') as Hm. pose proof (vu_upper f' a Hok' Ha' Hin').
  destruct Hok' as (_ & _ & Hns' & _).
  pose proof (gap_addrs_length p (r_ns (f_ring f')) Hbv Hns') as Hlen2.
  unfold sB, sN, sH, sG, ts in Hm. rewrite Hp' in Hm. pose proof (bv_ranges _ Hbv). lia.
Qed.

Lemma scan_end_waiting : kind_of (f_state f) = KClaimToken -> kind_of (f_state f') = KPassToken ->
  exists k, f_gap f' = GapWaiting k.
Proof.
  intros Hkc Hkp. destruct (f_state f) as [ | | | | |[ | | |a0]| | | | ] eqn:Es; try discriminate Hkc.
  - rewrite (early_claim_poll _ _ _ _ _ _ _ _ E (or_introl Es)) in Hkp. discriminate Hkp.
  - rewrite (early_claim_poll _ _ _ _ _ _ _ _ E (or_intror Es)) in Hkp. discriminate Hkp.
  - destruct (claim_scan_step A ops _ _ _ _ _ _ _ _ E (or_introl Es)) as (_ & [(_ & [S1|[S1|[S1|(_ & Hw)]]])|(x & (_ & [S1|S1]) & _)]);
      try exact Hw; rewrite S1 in Hkp; try rewrite Es in Hkp; discriminate Hkp.
  - destruct (claim_scan_step A ops _ _ _ _ _ _ _ _ E (or_intror (ex_intro _ a0 Es))) as (_ & [(_ & [S1|[S1|[S1|(_ & Hw)]]])|(x & (_ & [S1|S1]) & _)]);
      try exact Hw; rewrite S1 in Hkp; try rewrite Es in Hkp; discriminate Hkp.
Qed.

(* a claiming station whose GAP state is Waiting does not wait for a reply: its ring view stays *)
Lemma claim_waiting_ns k : kind_of (f_state f) = KClaimToken -> f_gap f = GapWaiting k ->
  r_ns (f_ring f') = r_ns (f_ring f).
Proof.
  intros Hkc Hg. destruct poll_eqs as (R & _). destruct (f_state f) as [ | | | | |st| | | | ] eqn:Es; try discriminate Hkc.
  destruct (FdlOracleSound7.claim_poll_facts A ops (length apps) _ _ _ _ _ _ _ _ st E Es R) as (_ & Hst).
  destruct st as [ | | |a0]; try (destruct Hst as (X & _); exact X).
  exfalso. pose proof (rep_st _ _ R) as St. rewrite Es in St. cbn in St. destruct St as (St & _). rewrite Hg in St. discriminate St.
Qed.

Lemma scan1_ahead l' : SC f g -> y_scan1 p m g s = Some l' ->
  y_scan_ends m s = false \/ kind_of (f_state f') = KPassToken -> ahead f' l'.
Proof.
  intros [CN CL] Hl' Hk'. destruct poll_eqs as (R & Hp & _ & Hk0 & _ & _ & Hts' & HH').
  pose proof (Rep_sweep_ok _ _ R) as Hok. unfold ahead, y_scan1 in *.
  destruct (y_claim_tx p m s) eqn:Ec.
  { destruct (claim_tx_model Ec) as (_ & ->). injection Hl' as <-. intros a Ha.
    destruct (in_gap_addrs_off f' a (Rep_sweep_ok _ _ R') Hp' Ha) as (Hr & Ho). rewrite Hts', off_self in *. lia. }
  destruct (g_scan g) as [l|] eqn:Eg; [|destruct (y_gap_poll p s); discriminate Hl'].
  assert (Hkc : kind_of (f_state f) = KClaimToken).
  { apply skeqb_eq. destruct (state_kind_eqb (kind_of (f_state f)) KClaimToken) eqn:Ek; [reflexivity|].
    enough (Some l = None) by discriminate. apply CN. intros C. rewrite C in Ek. discriminate Ek. }
  assert (Hkc' : kind_of (f_state f') = KClaimToken \/ kind_of (f_state f') = KPassToken).
  { destruct Hk' as [Ese|K]; [left|right; exact K]. unfold y_scan_ends in Ese. rewrite Hk0, Hkc in Ese.
    apply negb_false_iff, skeqb_eq in Ese. exact Ese. }
  pose proof (CL l eq_refl) as Hinv. pose proof Hok as (_ & _ & _ & _ & Hwf).
  destruct poll_sweep_read as [(C & _)|(_ & [C|[C|[C|[G|[T|Q]]]]])].
  - congruence.
  - rewrite C in Hkc. discriminate Hkc.
  - destruct Hkc' as [K|K]; rewrite K in C; discriminate C.
  - destruct Hkc' as [K|K]; rewrite K in C; discriminate C.
  - destruct G as (a & Hgp & _ & _ & Hgs & -> & _ & _ & Hcur). destruct (Hcur Hkc) as (c & Ec0).
    rewrite Hgp in Hl'. injection Hl' as <-. rewrite Ec0 in *. rewrite Hts', HH'.
    pose proof (ahead_step f l c Hok Hp Hwf Hinv) as Hst. rewrite Hgs in Hst. exact Hst.
  - exfalso. destruct T as (_ & _ & [K|[K|[K|K]]] & _); rewrite Hkc in K; discriminate K.
  - destruct Q as (Hgp & _ & [(Hg' & _)|(_ & _ & Hg' & (c & Ec0) & (k & Ew) & Hring)]); rewrite Hgp in Hl'; injection Hl' as <-.
    + rewrite Hg'. destruct (f_gap f) as [rc|c] eqn:Egf; [|rewrite Hts', HH'; exact Hinv].
      rewrite (claim_waiting_ns rc Hkc Egf). exact Hinv.
    + rewrite Ec0 in *. pose proof (ahead_step f l c Hok Hp Hwf Hinv) as Hst. rewrite <- Hg', Ew in Hst.
      rewrite Ew, Hring. exact Hst.
Qed.

Lemma sc_poll : SC f g -> y_e_scan p m g s = [] /\ SC f' (y_g' p n m g s).
Proof.
  intros HC. pose proof HC as [CN CL]. destruct poll_eqs as (_ & _ & _ & Hk0 & _).
  split.
  - unfold y_e_scan. cbv zeta. destruct (y_scan_ends m s && state_kind_eqb (y_k1 s) KPassToken) eqn:Ec; [|reflexivity].
    apply andb_true_iff in Ec. destruct Ec as (Ese & Ekp). apply skeqb_eq in Ekp. change (y_k1 s) with (kind_of (f_state f')) in Ekp.
    unfold y_scan_ends in Ese. rewrite Hk0 in Ese. apply andb_true_iff in Ese. destruct Ese as (Ekc & _). apply skeqb_eq in Ekc.
    destruct (y_scan1 p m g s) as [l'|] eqn:El'; [|reflexivity].
    pose proof (scan1_ahead l' HC El' (or_intror Ekp)) as Hah. unfold ahead in Hah.
    destruct (scan_end_waiting Ekc Ekp) as (k & Ew). rewrite Ew in Hah.
    match goal with |- check ?b _ = [] => replace b with true; [reflexivity|symmetry] end.
    apply negb_true_iff, not_true_is_false. intros Hex. apply existsb_exists in Hex. destruct Hex as (a & Hal & Ha2).
    apply y_in_list_spec in Ha2. exact (Hah a Hal Ha2).
  - unfold y_g'. constructor; cbn [g_scan]; unfold y_scan.
    + (* outside the claim phase there is no scan list *)
      intros Hnk'. destruct (y_scan_ends m s) eqn:Ese; [reflexivity|].
      destruct (kind_in (y_k1 s) [KClaimToken; KListenToken; KActiveIdle]); [|reflexivity].
      unfold y_scan1. destruct (y_claim_tx p m s) eqn:Ec; [contradiction (Hnk' (claim_tx_claims Ec))|].
      rewrite CN; [reflexivity|]. intros C. unfold y_scan_ends in Ese. rewrite Hk0, C in Ese.
      apply negb_false_iff, skeqb_eq in Ese. exact (Hnk' Ese).
    + intros l' Hl'. destruct (y_scan_ends m s) eqn:Ese; [discriminate Hl'|].
      destruct (kind_in (y_k1 s) [KClaimToken; KListenToken; KActiveIdle]); [|discriminate Hl'].
      exact (scan1_ahead l' HC Hl' (or_introl Ese)).
Qed.

End Poll.

End Sweep.

(* the liveness rule R12_gap_wait_never_ends: exact bookkeeping of last_bus_activity / pending_bytes in the states
   that await a GAP reply *)

Section LiveModel.
Variable A : Type.
Variable ops : app_ops A.
Notation W := (world A).

Lemma token_poll_exact f now pin (apps : list A) f' o apps' calls :
  poll ops f now pin apps = Ok (f', o, apps', calls) -> have_token (f_state f) = true \/ in_pass (f_state f) = true ->
  ((tx_busy pin = true \/ predicted f now = true) /\ f' = mark_bus_activity f now /\ tx o = None /\ rx_left o = rx pin) \/
  (tx_busy pin = false /\ predicted f now = false /\ exists f1 w1 w',
     f_state f1 = f_state f /\ f_p f1 = f_p f /\ w_rx w1 = rx pin /\ covered A f1 w1 /\
     f_lba f1 = (if Nat.ltb (f_pending f) (length (rx pin))
                 then Some (match f_lba f with Some l => Z.max l now | None => now end) else f_lba f) /\
     C11Proofs.dispatch A ops f1 now w1 = Ok (f', w') /\ o = mkPhyOut (w_tx w') (w_rx w')).
Proof.
  intros H Hht. apply (C11Proofs.poll_inv A ops) in H. destruct H as (w' & H & -> & _).
  apply (C11Proofs.poll_inner_cases A ops) in H.
  destruct H as [(_ & Hs & _)|(_ & f0 & w0 & Hpro & Hb)]; [rewrite Hs in Hht; destruct Hht as [C|C]; discriminate C|].
  assert (E0 : f0 = f /\ w0 = mkWorld (rx pin) None apps [] []).
  { destruct Hht as [Hht|Hht]; [exact (prologue_have_token A _ _ _ _ Hpro Hht)|exact (prologue_in_pass A _ _ _ _ Hpro Hht)]. }
  destruct E0 as (-> & ->).
  unfold C11Proofs.body in Hb.
  destruct (tx_busy pin || predicted f now) eqn:Eb.
  - injection Hb as <- <-. left. cbn. apply orb_true_iff in Eb. repeat split; try reflexivity. exact Eb.
  - apply orb_false_iff in Eb. destruct Eb as (Hbusy & Hpred).
    destruct (check_for_bus_activity A f now _) as [f1 w1] eqn:Ec.
    apply cfba_spec in Ec. destruct Ec as ((Hp1 & _ & _ & _ & Hs1 & _) & _ & _ & Hrx1 & _ & Hif). cbn [w_rx] in Hrx1, Hif.
    right. split; [exact Hbusy|]. split; [exact Hpred|]. exists f1, w1, w'. do 3 (split; [assumption|]).
    unfold covered. rewrite Hrx1.
    destruct (Nat.ltb_spec (f_pending f) (length (rx pin))); [destruct Hif as (-> & ->)|subst f1]; repeat split; try assumption; lia.
Qed.

Lemma agpr_none f now (w : W) a f' w' r :
  await_gap_poll_response A f now w a = Ok (f', w', r) ->
  r = GprWaiting \/ r = GprNoResponse ->
  f_lba f' = Some (gv now (f_lba f)) /\ f_pending f' = Nat.min (f_pending f) (length (w_rx w')) /\
  (exists k, w_rx w' = skipn k (w_rx w)) /\ (r = GprNoResponse <-> gv now (f_lba f) + slot_time (f_p f) < now).
Proof.
  intros H Hr.
  destruct (await_gap_spec A _ _ _ _ _ _ _ H) as (_ & _ & _ & _ & _ & _ & _ & _ & _ & _ & _ & _ & rest & received & Er & _ & Hc).
  assert (received = None) by (destruct Hc as [(C & _)|[(C & _)|(C & _)]]; [destruct Hr; congruence ..|exact C]). subst received.
  unfold await_gap_poll_response in H. destruct (a =? ts f); [discriminate H|]. destruct (negb _); [discriminate H|].
  rewrite Er in H. cbn [bind] in H. apply receive_telegram_suffix in Er.
  revert H. generalize (Nat.ltb (length rest) (length (w_rx w))). intros c H.
  destruct (check_slot_expired _ now) as [[f2 ex]| |] eqn:Ec; cbn [bind] in H; try discriminate H.
  apply cse_spec in Ec. destruct Ec as ((_ & _ & _ & _ & _ & Hpd2 & _) & l & Hm & Hl2 & ->).
  cbn [sync_pending_bytes set_pending f_lba f_pending f_p w_rx set_rx] in *.
  assert (l = gv now (f_lba f)) by (destruct (f_lba f); exact Hm). subst l.
  destruct (_ <? now) eqn:Ex; injection H as <- <- <-; (split; [exact Hl2|]); (split; [destruct c; exact Hpd2|]); (split; [destruct c; exact Er|]).
  - apply Z.ltb_lt in Ex. split; [intros _; exact Ex|reflexivity].
  - apply Z.ltb_ge in Ex. split; [discriminate|lia].
Qed.

Lemma not_awaiting_scan a : ~ awaiting_state (ClaimToken StepScan) a.
Proof. intros [C|C]; discriminate C. Qed.

Lemma claim_scan_live f now (w : W) f' w' :
  do_claim_token_scan A f now w = Ok (f', w') -> f_state f = ClaimToken StepScan ->
  f_pending f' = f_pending f /\ w_rx w' = w_rx w /\ ((forall a, ~ awaiting_state (f_state f') a) \/ w_tx w' <> None).
Proof.
  intros H Es. unfold do_claim_token_scan in H.
  apply bind_ok in H as ([f1 wait] & [-> _]%wait_sync_inv & H).
  destruct wait; [injection H as <- <-; cbn; rewrite Es; repeat split; left; exact not_awaiting_scan|].
  cbn [f_gap set_lba] in H. destruct (f_gap f) as [rc|cur].
  - apply bind_ok in H as ([f2 w2] & (s' & Et & -> & ->)%trans_inv & [= <- <-]).
    apply bind_ok in Et as (_ & _ & [= <-]). cbn. repeat split. left. intros a [C|C]; discriminate C.
  - apply bind_ok in H as ([f2 w2] & (g & _ & -> & ->)%next_gap_poll_traced_inv & H).
    apply bind_ok in H as ([[f3 w3] polled] & Et%transmit_gap_poll_inv & H). destruct polled as [pa|].
    + destruct Et as (_ & _ & _ & e & wire & -> & ->).
      apply bind_ok in H as (f4 & (_ & _ & [= <-])%bind_ok & [= <- <-]). cbn. repeat split. right. discriminate.
    + destruct Et as (_ & -> & ->). injection H as <- <-. cbn. rewrite Es. repeat split. left. exact not_awaiting_scan.
Qed.

Lemma awaiting_have_token s a : awaiting_state s a -> have_token s = true.
Proof. intros [-> | ->]; reflexivity. Qed.

(* `covered` (C11Liveness): pending_bytes is not less than the bytes in the buffer *)
Lemma pass_token_plb f now (w : W) f' w' : do_pass_token A f now w = Ok (f', w') -> covered A f w -> covered A f' w'.
Proof.
  intros H P. unfold covered. rewrite (do_pass_token_pending A _ _ _ _ _ H), (do_pass_token_rx A _ _ _ _ _ H). exact P.
Qed.

Lemma agpr_plb f now (w : W) a f' w' r :
  await_gap_poll_response A f now w a = Ok (f', w', r) -> r = GprWaiting \/ r = GprNoResponse -> covered A f w -> covered A f' w'.
Proof.
  intros H Hr P. destruct (agpr_none _ _ _ _ _ _ _ H Hr) as (_ & P2 & (k & R2) & _).
  unfold covered in *. rewrite P2. rewrite R2, skipn_length in *. lia.
Qed.

(* The two states that await a GAP reply run the same code: await_gap_poll_response, and then - nothing while
   waiting; when the slot time is over, the token pass (AwaitStatusResponse) or the next step of the scan
   (ClaimToken), which leave such a state behind only with a new GAP request; after a telegram, a state that does
   not wait. *)
Lemma awaiting_dispatch f now (w : W) a f' w' :
  awaiting_state (f_state f) a -> C11Proofs.dispatch A ops f now w = Ok (f', w') ->
  exists f2 w2 r, await_gap_poll_response A f now w a = Ok (f2, w2, r) /\
    match r with
    | GprWaiting => f' = f2 /\ w' = w2
    | GprNoResponse => (covered A f2 w2 -> covered A f' w') /\
                       ((forall a', ~ awaiting_state (f_state f') a') \/ w_tx w' <> None)
    | _ => forall a', ~ awaiting_state (f_state f') a'
    end.
Proof.
  intros Haw Hd. unfold C11Proofs.dispatch in Hd.
  destruct Haw as [Es|Es]; rewrite Es in Hd; cbn [kind_of poll_dispatch] in Hd.
  - unfold do_await_status_response, assert_entry in Hd. rewrite Es in Hd.
    cbn [kind_of do_fn_entry state_kind_eqb bind get_await_status_response_address] in Hd.
    destruct (await_gap_poll_response A f now w a) as [[[f2 w2] r]| |] eqn:Ea; cbn [bind] in Hd; try discriminate Hd.
    pose proof (await_gap_bk0 A now _ _ _ _ _ _ Ea) as (_ & Hs2). rewrite Es in Hs2.
    exists f2, w2, r. split; [reflexivity|].
    destruct r; try (apply trans_spec in Hd; destruct Hd as (s' & Ht & -> & _); rewrite Hs2 in Ht; cbn in Ht; injection Ht as <-;
                     intros a' [C|C]; discriminate C).
    + injection Hd as <- <-. split; reflexivity.
    + apply bind_ok in Hd as ([f3 w3] & (s' & Ht & -> & ->)%trans_inv & Hd). rewrite Hs2 in Ht. cbn in Ht. injection Ht as <-.
      split; [exact (pass_token_plb _ _ _ _ _ Hd)|]. left. intros a' Haw'.
      destruct (C12Proofs.do_pass_token_spec A _ _ _ _ _ Hd) as (dg & att & Es3 & _ & _ & _ & _ & _ & [(_ & Hs & _)|[(Hdg & _)|(_ & _ & _ & Htp)]]).
      * rewrite Hs in Haw'. destruct Haw' as [C|C]; discriminate C.
      * cbn [f_state set_st] in Es3. injection Es3 as <- _. discriminate Hdg.
      * destruct Htp as (_ & [(_ & Hs)|(_ & Hs)]); rewrite Hs in Haw'; destruct Haw' as [C|C]; discriminate C.
  - unfold do_claim_token, assert_entry in Hd. rewrite Es in Hd.
    cbn [kind_of do_fn_entry state_kind_eqb bind get_claim_token_step] in Hd.
    destruct (await_gap_poll_response A f now w a) as [[[f2 w2] r]| |] eqn:Ea; cbn [bind] in Hd; try discriminate Hd.
    pose proof (await_gap_bk0 A now _ _ _ _ _ _ Ea) as (_ & Hs2). rewrite Es in Hs2.
    exists f2, w2, r. split; [reflexivity|].
    destruct r.
    + injection Hd as <- <-. split; reflexivity.
    + apply bind_ok in Hd as (f3 & ->%set_claim_step_spec' & Hd).
      destruct (claim_scan_live _ _ _ _ _ Hd eq_refl) as (Hpd & Hrx & Hor). split; [|exact Hor].
      unfold covered. rewrite Hpd, Hrx. exact (fun P => P).
    + apply bind_ok in Hd as (f3 & ->%set_claim_step_spec' & [= <- <-]). exact not_awaiting_scan.
    + apply trans_spec in Hd. destruct Hd as (s' & Ht & -> & _). rewrite Hs2 in Ht. cbn in Ht. injection Ht as <-.
      intros a' [C|C]; discriminate C.
Qed.

(* A poll in a state that awaits a GAP reply, which stays in that state and transmits nothing: either the poll
   ends at the check for an ongoing transmission, or the buffer is looked at and the slot time has not expired
   - with the exact values of last_bus_activity and pending_bytes *)
Lemma await_poll_exact f now pin (apps : list A) f' o apps' calls a l :
  poll ops f now pin apps = Ok (f', o, apps', calls) -> awaiting_state (f_state f) a -> f_lba f = Some l ->
  f_state f' = f_state f -> tx o = None ->
  ((tx_busy pin = true \/ now <= l) /\ f_lba f' = Some (Z.max l now) /\ f_pending f' = f_pending f /\ rx_left o = rx pin) \/
  (tx_busy pin = false /\ l < now /\
   let l1 := if Nat.ltb (f_pending f) (length (rx pin)) then now else l in
   f_lba f' = Some l1 /\ f_pending f' = length (rx_left o) /\ (exists k, rx_left o = skipn k (rx pin)) /\
   ~ l1 + slot_time (f_p f) < now).
Proof.
  intros H Haw Hl Hst Htx.
  destruct (token_poll_exact _ _ _ _ _ _ _ _ H (or_introl (awaiting_have_token _ _ Haw))) as
    [(Hb & -> & _ & Hrx)|(Hbusy & Hpred & f1 & w1 & w' & Hs1 & Hp1 & Hrx1 & Hpd1 & Hl1 & Hd & ->)].
  - left. unfold predicted in Hb. rewrite Hl, Z.leb_le in Hb. split; [exact Hb|].
    unfold mark_bus_activity, lba_get_or_insert. rewrite Hl. repeat split. exact Hrx.
  - right. split; [exact Hbusy|]. unfold predicted in Hpred. rewrite Hl in Hpred. apply Z.leb_gt in Hpred. split; [exact Hpred|].
    cbn [tx rx_left] in *. rewrite <- Hp1. unfold covered in Hpd1. rewrite Hrx1 in Hpd1.
    set (l1 := if Nat.ltb (f_pending f) (length (rx pin)) then now else l).
    assert (Hl1' : f_lba f1 = Some l1) by (rewrite Hl1, Hl; subst l1; destruct (Nat.ltb _ _); [f_equal; lia|reflexivity]).
    pose proof Haw as Haw1. rewrite <- Hs1 in Haw1. rewrite <- Hst in Haw.
    destruct (awaiting_dispatch f1 now w1 a f' w' Haw1 Hd) as (f2 & w2 & r & Ea & Hr).
    destruct r; [|exfalso; destruct Hr as (_ & [Hna|Ht]); [exact (Hna a Haw)|exact (Ht Htx)]|contradiction (Hr a Haw)..].
    destruct Hr as (-> & ->).
    destruct (agpr_none _ _ _ _ _ _ _ Ea (or_introl eq_refl)) as (L2 & P2 & (k & R2) & X2).
    rewrite Hl1' in L2, X2. cbn [gv] in L2, X2. rewrite Hrx1 in R2.
    split; [exact L2|]. split; [rewrite P2; apply Nat.min_r; rewrite R2, skipn_length; lia|]. split; [exists k; exact R2|].
    intros C. apply X2 in C. discriminate C.
Qed.

(* *_plb: a state that awaits a GAP reply is entered with pending_bytes >= the bytes left in the buffer *)

Lemma use_token_plb f now (w : W) f' w' a :
  do_use_token A ops f now w = Ok (f', w') -> covered A f w -> awaiting_state (f_state f') a -> covered A f' w'.
Proof.
  intros H P Haw. pose proof H as H0. rewrite do_use_token_split in H.
  destruct (do_use_token_head A ops f now w) as [[f2 w2]| |] eqn:Eh; cbn [bind] in H; try discriminate H.
  assert (Hst : exists tk fa fcd, f_state f = UseToken tk fa fcd).
  { unfold do_use_token, assert_entry in H0. destruct (f_state f); cbn in H0; try discriminate H0. eauto. }
  destruct Hst as (tk & fa & fcd & Es).
  destruct (do_use_token_head_state A ops _ _ _ _ _ _ _ _ Eh Es) as (_ & _ & Hst2).
  destruct (is_pass_token (f_state f2)) eqn:Ep.
  - destruct (do_use_token_head_pass A ops _ _ _ _ _ Eh Ep) as (_ & _ & (_ & _ & _ & _ & Hpd & _ & Hrx & _)).
    apply (pass_token_plb _ _ _ _ _ H). unfold covered. rewrite Hpd, Hrx. exact P.
  - injection H as <- <-. exfalso.
    destruct Hst2 as [(E & _)|[(fa' & E)|[(a1 & fa' & E)|E]]]; try (rewrite E in Haw; try rewrite Es in Haw; destruct Haw as [C|C]; discriminate C).
Qed.

Lemma await_data_plb f now (w : W) f' w' a :
  do_await_data_response A ops f now w = Ok (f', w') -> covered A f w -> awaiting_state (f_state f') a -> covered A f' w'.
Proof.
  unfold do_await_data_response. intros H P Haw. apply bind_ok in H as (_ & _ & H).
  destruct (f_state f) as [ | | | | | |a0 tk fa| | | ] eqn:Es; try discriminate H. cbn [get_await_data_response bind] in H.
  destruct (nth_error (w_apps w) (f_next_app f)) as [app|]; [|discriminate H].
  apply bind_ok in H as ([rest received] & Er & H). cbv zeta in H. destruct received as [t|].
  - (* a telegram: the reply is delivered or the token is given up *)
    exfalso. rewrite mark_rx_max in H. destruct (is_valid_response _ a0 t).
    + apply bind_ok in H as (app' & _ & H). apply bind_ok in H as ([f1 w1] & (s' & _ & -> & ->)%trans_inv & H).
      apply bind_ok in H as (f2 & ([[x y] z] & _ & [= <-])%bind_ok & [= <- <-]). destruct Haw as [C|C]; discriminate C.
    + apply trans_inv in H as (s' & Et & -> & _). cbn [f_state set_lba set_pending] in Et. rewrite Es in Et.
      injection Et as <-. destruct Haw as [C|C]; discriminate C.
  - apply receive_telegram_suffix in Er as (k & Er).
    apply bind_ok in H as ([f2 ex] & (-> & ->)%check_slot_inv & H).
    assert (P2 : (length rest <= Nat.min (f_pending f) (length rest))%nat).
    { unfold covered in P. rewrite Er, skipn_length in *. lia. }
    destruct (_ <? now).
    + (* time-out: the applications are asked at once *)
      apply bind_ok in H as (app' & _ & H). apply bind_ok in H as ([f3 w3] & (s' & _ & -> & ->)%trans_inv & H).
      apply bind_ok in H as (f4 & ([[x y] z] & _ & [= <-])%bind_ok & H).
      eapply use_token_plb; [exact H| |exact Haw]. unfold covered. cbn. destruct (Nat.ltb _ _); exact P2.
    + injection H as <- <-. exfalso. cbn in Haw. rewrite Es in Haw. destruct Haw as [C|C]; discriminate C.
Qed.

(* a poll that enters (or re-enters) a state that awaits a GAP reply with a transmission leaves
   pending_bytes >= the bytes left in the buffer: such a poll transmits a GAP request, out of the token pass of a
   visit or out of the post-claim scan (C12Proofs.poll_gap_request_in_gap) *)
Lemma entry_plb f now pin (apps : list A) f' o apps' calls a :
  poll ops f now pin apps = Ok (f', o, apps', calls) -> awaiting_state (f_state f') a -> tx o <> None ->
  (length (rx_left o) <= f_pending f')%nat.
Proof.
  intros H Haw Hn.
  destruct (poll_gap_request_in_gap A ops _ _ _ _ _ _ _ _ a H (conj Hn Haw)) as (_ & _ & _ & _ & _ & _ & _ & _ & Hfrom).
  assert (Hht : have_token (f_state f) = true \/ in_pass (f_state f) = true).
  { destruct Hfrom as [(_ & [(att & ->)|[K|K]])|(_ & [-> |(a0 & ->)])]; try (left; reflexivity); try (right; reflexivity);
      destruct (f_state f); try discriminate K; left; reflexivity. }
  destruct (token_poll_exact _ _ _ _ _ _ _ _ H Hht) as [(_ & _ & Htx & _)|(_ & _ & f1 & w1 & w' & Hs1 & _ & _ & P1 & _ & Hd & ->)]; [contradiction|].
  cbn [tx rx_left] in *. change (covered A f' w').
  destruct Hfrom as [(_ & [(att & Es)|[K|K]])|(_ & [Es|(a0 & Es)])].
  - unfold C11Proofs.dispatch in Hd. rewrite Hs1, Es in Hd. exact (pass_token_plb _ _ _ _ _ Hd P1).
  - unfold C11Proofs.dispatch in Hd. rewrite Hs1 in Hd. destruct (f_state f); try discriminate K. exact (use_token_plb _ _ _ _ _ _ Hd P1 Haw).
  - unfold C11Proofs.dispatch in Hd. rewrite Hs1 in Hd. destruct (f_state f); try discriminate K. exact (await_data_plb _ _ _ _ _ _ Hd P1 Haw).
  - unfold C11Proofs.dispatch in Hd. rewrite Hs1, Es in Hd. cbn [kind_of poll_dispatch] in Hd.
    unfold do_claim_token, assert_entry in Hd. rewrite Hs1, Es in Hd.
    cbn [kind_of do_fn_entry state_kind_eqb bind get_claim_token_step] in Hd. rewrite <- Hs1 in Es.
    destruct (claim_scan_live _ _ _ _ _ Hd Es) as (Hpd & Hrx & _). unfold covered. rewrite Hpd, Hrx. exact P1.
  - rewrite <- Hs1 in Es.
    destruct (awaiting_dispatch f1 now w1 a0 f' w' (or_intror Es) Hd) as (f2 & w2 & r & Ea & Hr).
    destruct r; [| |contradiction (Hr a Haw)..].
    + destruct Hr as (-> & ->). exact (agpr_plb _ _ _ _ _ _ _ Ea (or_introl eq_refl) P1).
    + exact (proj1 Hr (agpr_plb _ _ _ _ _ _ _ Ea (or_intror eq_refl) P1)).
Qed.

End LiveModel.

Section Live.
Variable A : Type.
Variable ops : app_ops A.
Variable p : params.
Variable n : nat.

(* In a state that awaits a GAP reply: the reference instant of the monitor is not earlier than
   last_bus_activity; the predicted end of the last transmission is not later; last_bus_activity is that end or
   lies before the last poll; and unless the monitor expects a spurious growth of the buffer, pending_bytes is
   at least the number of bytes in the buffer. *)
Definition LW (f : fdl) (buf : bytes) (tl : Z) (g : mon2) : Prop :=
  forall a, awaiting_state (f_state f) a ->
  exists l r, f_lba f = Some l /\ l_ref g = Some r /\ l <= r /\
    (forall e, l_txend g = Some e -> e <= l) /\ (l <= tl \/ l_txend g = Some l) /\
    (l_spur g = false -> (length buf <= f_pending f)%nat).

Lemma view_awaiting f : 
  (kind_of (f_state f) = KAwaitStatusResponse \/ (kind_of (f_state f) = KClaimToken /\ v_scan_await (view_of f) = true)) ->
  exists a, awaiting_state (f_state f) a.
Proof.
  unfold view_of. cbn [v_scan_await]. intros [H|(H1 & H2)].
  - destruct (f_state f); try discriminate H. eexists. left. reflexivity.
  - destruct (f_state f) as [ | | | | |st| | | | ]; try discriminate H1. destruct st; try discriminate H2. eexists. right. reflexivity.
Qed.

Section LivePoll.
Variables (f : fdl) (apps : list A) (buf : bytes) (tl : Z) (m : mon) (g : mon2) (now : Z) (busy : bool) (nb : bytes)
          (f' : fdl) (o : phy_out) (apps' : list A) (calls : list call).
Hypothesis HB : Base A p n f apps buf tl m.
Hypothesis HL : LW f buf tl g.
Hypothesis Hlt : tl < now.
Hypothesis E : poll ops f now (mkPhyIn busy (buf ++ nb)) apps = Ok (f', o, apps', calls).
Let s := poll_event now busy (buf ++ nb) f' o calls.

(* A poll that ends in a state that awaits a GAP reply and transmits nothing began in that state (await_entry): LW
   before the poll, and await_poll_exact next to what the monitor makes of the poll - it "looks" exactly when the
   station gets as far as the receive buffer *)
Lemma lw_stay a : awaiting_state (f_state f') a -> tx o = None ->
  exists l r, f_lba f = Some l /\ l_ref g = Some r /\ l <= r /\ (forall e, l_txend g = Some e -> e <= l) /\
    (l <= tl \/ l_txend g = Some l) /\ (l_spur g = false -> (length buf <= f_pending f)%nat) /\
    (((busy = true \/ now <= l) /\ y_looks g s = false /\
      f_lba f' = Some (Z.max l now) /\ f_pending f' = f_pending f /\ rx_left o = buf ++ nb) \/
     (busy = false /\ l < now /\ y_looks g s = true /\
      let l1 := if Nat.ltb (f_pending f) (length (buf ++ nb)) then now else l in
      f_lba f' = Some l1 /\ f_pending f' = length (rx_left o) /\ ~ l1 + slot_time p < now)).
Proof.
  intros Haw' Htx. destruct HB as [R Hp Hn _ _ _ _ _]. rewrite Hn in R.
  pose proof (await_entry A ops n _ _ _ _ _ _ _ _ _ E R Haw' Htx) as Hst.
  rewrite Hst in Haw'. destruct (HL a Haw') as (l & r & Hlba & Hr & Hlr & He & Hlt2 & Hsp).
  exists l, r. do 6 (split; [assumption|]).
  assert (Hlooks : y_looks g s = negb busy && negb (match l_txend g with Some e => now <=? e | None => false end)) by reflexivity.
  rewrite Hlooks.
  destruct (await_poll_exact A ops _ _ _ _ _ _ _ _ _ _ E Haw' Hlba Hst Htx) as [(Hb1 & L1 & P1 & R1)|(Hb1 & Hl1 & L1 & P1 & _ & X1)];
    cbn [tx_busy rx] in *.
  - left. split; [exact Hb1|]. split; [|repeat split; assumption].
    destruct Hb1 as [->|Hb1]; [reflexivity|].
    destruct Hlt2 as [C|C]; [lia|]. rewrite C. destruct (Z.leb_spec now l); [|lia]. apply andb_false_r.
  - right. split; [exact Hb1|]. split; [exact Hl1|]. split.
    + rewrite Hb1. destruct (l_txend g) as [e|] eqn:Ee; [|reflexivity].
      pose proof (He e eq_refl). destruct (Z.leb_spec now e); [lia|reflexivity].
    + rewrite Hp in X1. cbv zeta. repeat split; assumption.
Qed.

Lemma lw_grew : y_grew m s = Nat.ltb (length buf) (length (buf ++ nb)).
Proof. unfold y_grew. rewrite (b_left _ _ _ _ _ _ _ _ HB). reflexivity. Qed.

(* bytes the station has not counted yet are something the monitor sees happen: the buffer grows now, or it grew
   in a poll that did not look at it *)
Lemma lw_uncounted : (l_spur g = false -> (length buf <= f_pending f)%nat) -> y_looks g s = true ->
  (f_pending f < length (buf ++ nb))%nat -> y_grew m s = true \/ y_spur_now g s = true.
Proof.
  intros Hsp Hlk Hun. rewrite lw_grew. destruct (Nat.ltb_spec (length buf) (length (buf ++ nb))) as [Eg|Eg]; [left; reflexivity|right].
  unfold y_spur_now. rewrite Hlk. change (s_rx s) with (buf ++ nb).
  destruct (l_spur g); [|pose proof (Hsp eq_refl); lia]. destruct (buf ++ nb); [cbn in Hun; lia|reflexivity].
Qed.

(* the liveness rule of C12 is silent: when the monitor calls the poll quiet, expired and without action, the slot
   timer of the model has run out as well, and the model acts *)
Lemma lw_rule : y_quiet m g s && y_expired p g s && negb (y_acted m s) = true -> y_waiting_c12 m = false.
Proof.
  intros Hq. destruct (y_waiting_c12 m) eqn:Ew; [exfalso|reflexivity].
  unfold y_quiet, y_acted, y_waiting_c12, y_k0, y_pre in *. rewrite (b_view _ _ _ _ _ _ _ _ HB) in *.
  change (y_k1 s) with (kind_of (f_state f')) in Hq. change (v_kind (view_of f)) with (kind_of (f_state f)) in *.
  rewrite !andb_true_iff, !negb_true_iff, !orb_false_iff, negb_false_iff, skeqb_eq in Hq.
  destruct Hq as ((((Hlk & Hng) & Hnsp) & Hexp) & (((_ & Hc2) & Hc3) & _) & Hc5).
  assert (Htx : tx o = None) by (change (s_tx s) with (tx o) in Hc3; destruct (tx o); [discriminate Hc3|reflexivity]).
  assert (Hk1 : kind_of (f_state f') = KAwaitStatusResponse \/ (kind_of (f_state f') = KClaimToken /\ v_scan_await (view_of f') = true)).
  { rewrite Hc2. apply orb_true_iff in Ew. destruct Ew as [Ew|Ew]; [left; apply skeqb_eq; exact Ew|right].
    apply andb_true_iff in Ew. destruct Ew as (E1 & _). apply skeqb_eq in E1. split; [exact E1|].
    rewrite E1 in Hc5. apply negb_false_iff in Hc5. exact Hc5. }
  destruct (view_awaiting f' Hk1) as (a & Haw').
  destruct (lw_stay a Haw' Htx) as (l & r & Hlba & Hr & Hlr & He & Hlt2 & Hsp & [(_ & C & _)|(_ & Hl1 & _ & X)]); [congruence|].
  cbv zeta in X. destruct X as (_ & _ & X). apply X.
  unfold y_expired in Hexp. rewrite Hr in Hexp. change (y_now s) with now in Hexp. apply Z.ltb_lt in Hexp.
  destruct (Nat.ltb_spec (f_pending f) (length (buf ++ nb))) as [Hun|_]; [|lia].
  destruct (lw_uncounted Hsp Hlk Hun); congruence.
Qed.

Lemma lw_keep : LW f' (rx_left o) now (y_g' p n m g s).
Proof.
  intros a Haw'. change (l_ref (y_g' p n m g s)) with (y_ref2 p m g s). change (l_txend (y_g' p n m g s)) with (y_txend p g s).
  change (l_spur (y_g' p n m g s)) with (y_spur m g s). unfold y_ref2, y_txend, y_tx_end. change (s_tx s) with (tx o).
  destruct (tx o) as [wire|] eqn:Etx.
  - (* a GAP request: the station's time stamp is the predicted end of the transmission, as the monitor's *)
    pose proof (poll_lba_case A ops _ _ _ _ _ _ _ _ _ E) as LC. rewrite Etx in LC.
    destruct LC as [wire0 l0 Hw L' _ _ _ _|C _|C _|C _ _|C _ _]; try discriminate C.
    injection Hw as <-. rewrite (b_p _ _ _ _ _ _ _ _ HB) in L'. change (y_now s) with now. rewrite dur_is_prop.
    set (e := now + dur p (length wire)) in *.
    exists e, (zmax_opt (y_ref1 m g s) e). split; [exact L'|]. split; [reflexivity|].
    split; [unfold zmax_opt; destruct (y_ref1 m g s); lia|]. split; [intros e0 H0; injection H0 as <-; lia|]. split; [right; reflexivity|].
    intros _. apply (entry_plb A ops _ _ _ _ _ _ _ _ _ E Haw'). rewrite Etx. discriminate.
  - destruct (lw_stay a Haw' Etx) as (l & r & Hlba & Hr & Hlr & He & Hlt2 & Hsp & Hcase).
    assert (Hhap : y_happened m g s = y_grew m s || busy || y_consumed s || y_spur_now g s) by reflexivity.
    assert (Hr' : y_ref1 m g s = Some (if y_happened m g s then Z.max r now else r)).
    { unfold y_ref1. rewrite Hr. destruct (y_happened m g s); reflexivity. }
    rewrite Hr'.
    destruct Hcase as [(Hb1 & Hlk & L1 & P1 & R1)|(Hb1 & Hl1 & Hlk & L1 & P1 & _)].
    + exists (Z.max l now), (if y_happened m g s then Z.max r now else r). split; [exact L1|]. split; [reflexivity|].
      split.
      { destruct Hb1 as [Hb1|Hb1]; [|destruct (y_happened m g s); lia].
        rewrite Hhap, Hb1, orb_true_r. cbn [orb]. lia. }
      split; [intros e0 H0; pose proof (He e0 H0); lia|].
      split.
      { destruct (Z.le_gt_cases l now); [left; lia|right]. destruct Hlt2 as [C|C]; [lia|]. rewrite Z.max_l by lia. exact C. }
      rewrite R1, P1. unfold y_spur, y_consumed. change (s_consumed s) with (length (buf ++ nb) - length (rx_left o))%nat.
      rewrite R1, Nat.sub_diag, Hlk, lw_grew. cbn [Nat.eqb negb]. intros Hs0.
      apply orb_false_iff in Hs0. destruct Hs0 as (Hs1 & Hs2). apply Nat.ltb_ge in Hs2. pose proof (Hsp Hs1). lia.
    + exists (if Nat.ltb (f_pending f) (length (buf ++ nb)) then now else l), (if y_happened m g s then Z.max r now else r).
      split; [exact L1|]. split; [reflexivity|].
      split.
      { destruct (Nat.ltb_spec (f_pending f) (length (buf ++ nb))) as [Hact|Hact]; [|destruct (y_happened m g s); lia].
        assert (Hh : y_happened m g s = true); [|rewrite Hh; lia].
        rewrite Hhap. destruct (lw_uncounted Hsp Hlk Hact) as [X|X]; rewrite X, ?orb_true_r; reflexivity. }
      split; [intros e0 H0; pose proof (He e0 H0); destruct (Nat.ltb (f_pending f) (length (buf ++ nb))); lia|].
      split; [left; destruct (Nat.ltb (f_pending f) (length (buf ++ nb))); lia|].
      intros _. rewrite P1. lia.
Qed.

End LivePoll.

Lemma not_awaiting_offline f buf tl g : f_state f = Offline -> LW f buf tl g.
Proof. intros Hs a [C|C]; rewrite Hs in C; discriminate C. Qed.

Lemma fdl_new_offline q f0 : fdl_new q = Ok f0 -> f_state f0 = Offline.
Proof.
  unfold fdl_new. destruct (negb _); [discriminate|]. destruct (negb _); [discriminate|].
  destruct (ring_new _); cbn [bind]; try discriminate. intros H. injection H as <-. reflexivity.
Qed.

Lemma lw_api a f f' buf tl m g : LW f buf tl g -> api_result p a f = Ok f' ->
  LW f' buf tl (snd (mon_after_api a (view_of f') m g)).
Proof.
  intros HL E. destruct a; cbn [api_result mon_after_api snd] in *.
  - apply not_awaiting_offline. exact (fdl_new_offline _ _ E).
  - unfold set_online, set_state in E. injection E as <-. exact HL.
  - apply not_awaiting_offline. unfold set_offline, set_state in E. exact (fdl_new_offline _ _ E).
  - discriminate E.
Qed.

Lemma lw_init f0 : fdl_new p = Ok f0 -> LW f0 [] 0 mon2_reset.
Proof. intros E. apply not_awaiting_offline. exact (fdl_new_offline _ _ E). Qed.

End Live.

(* The induction over model transcripts: JA of FdlOracleSoundAll.v plus the three simulations.  What it leaves
   (open_rules3_req): R05_panic and the liveness rules of C11 and C15; open_rules3 holds in addition the three rules
   of the status reply, which need app_sends_requests. *)

Definition open_rules3_req : list rule := [R05_panic; R11_supervision_never_ends; R15_no_reply_no_timeout].
Definition open_rules3 : list rule :=
  [R12_reply_without_request; R12_reply_untruthful; R12_reply_from_wrong_state] ++ open_rules3_req.

Section Master.
Variable A : Type.
Variable ops : app_ops A.
Variable p : params.
Hypothesis Happs : apps_total A ops.
Hypothesis Hbv : builder_valid p.
Hypothesis Hdata : app_sends_data A ops.

Definition JC (n : nat) (f : fdl) (apps : list A) (buf : bytes) (tl : Z) (m : mon) (g : mon2) : Prop :=
  JA A p n f apps buf tl m g /\ SW f g /\ SC p f g /\ LW f buf tl g.

Lemma JA_base n f apps buf tl m g : JA A p n f apps buf tl m g -> Base A p n f apps buf tl m.
Proof. intros ((((HB & _) & _) & _) & _). exact HB. Qed.

Lemma y_e_live_rules m g s :
  (y_quiet m g s && y_expired p g s && negb (y_acted m s) = true -> y_waiting_c12 m = false) ->
  incl (y_e_live p m g s) [R11_supervision_never_ends; R15_no_reply_no_timeout].
Proof.
  intros Hw. unfold y_e_live. destruct (y_quiet m g s && y_expired p g s && negb (y_acted m s)); [|intros r []].
  rewrite (Hw eq_refl). destruct (state_kind_eqb _ _), (state_kind_eqb _ _); intros r H; cbn in *; tauto.
Qed.

Lemma JC_init n f0 apps : fdl_new p = Ok f0 -> length apps = n -> JC n f0 apps [] 0 (mon_reset (view_of f0) 0) mon2_reset.
Proof.
  intros E Hn. pose proof (JA_init A p Hbv n f0 apps E Hn) as HJ. split; [exact HJ|].
  pose proof (b_rep _ _ _ _ _ _ _ _ (JA_base _ _ _ _ _ _ _ HJ)) as R.
  split; [exact (sw_fresh f0 (Rep_sweep_ok _ _ R))|]. split; [apply sc_init|exact (lw_init p f0 E)].
Qed.

Lemma JC_api n a f apps buf tl m g f' :
  JC n f apps buf tl m g -> api_result p a f = Ok f' ->
  JC n f' apps buf tl (fst (mon_after_api a (view_of f') m g)) (snd (mon_after_api a (view_of f') m g)).
Proof.
  intros (HJ & HS & HC & HL) E. pose proof (JA_api A p Hbv n a f apps buf tl m g f' HJ E) as HJ'. split; [exact HJ'|].
  pose proof (JA_base _ _ _ _ _ _ _ HJ') as HB'. pose proof (b_rep _ _ _ _ _ _ _ _ HB') as R'. rewrite (b_n _ _ _ _ _ _ _ _ HB') in R'.
  split; [exact (sw_api p n a f f' m g HS E R')|]. split; [exact (sc_api p a f f' m g HC E)|exact (lw_api p a f f' buf tl m g HL E)].
Qed.

Lemma JC_poll n f apps buf tl m g now busy nb f' o apps' calls :
  length apps = n ->
  JC n f apps buf tl m g -> tl < now -> time_ok now -> all_bytes nb ->
  poll ops f now (mkPhyIn busy (buf ++ nb)) apps = Ok (f', o, apps', calls) ->
  let s := poll_event now busy (buf ++ nb) f' o calls in
  snd (mon_poll p n m s) = x_e12b p m s /\
  incl (snd (mon_poll2 p n m g s)) [R11_supervision_never_ends; R15_no_reply_no_timeout] /\
  JC n f' apps' (rx_left o) now (fst (mon_poll p n m s)) (fst (mon_poll2 p n m g s)) /\
  Base A p n f apps buf tl m /\ FdlOracleSound11.RQ f m.
Proof.
  intros Hlen (HJ & HS & HC & HL) Hlt Hnow Hnb E s.
  destruct (JA_poll A ops p Happs Hbv Hdata n f apps buf tl m g now busy nb f' o apps' calls Hlen HJ Hlt Hnow Hnb E) as (H1 & H2 & HJ' & HB & HR).
  fold s in H1, H2, HJ'.
  pose proof (JA_base _ _ _ _ _ _ _ HJ') as HB'. pose proof (b_rep _ _ _ _ _ _ _ _ HB') as R'. pose proof (b_p _ _ _ _ _ _ _ _ HB') as Hp'.
  destruct (sw_poll A ops p n Hbv Hdata f apps buf tl m g now busy nb f' o apps' calls HB E R' Hp' HS) as (Hsw & HS').
  destruct (sc_poll A ops p n Hbv Hdata f apps buf tl m g now busy nb f' o apps' calls HB E R' Hp' HC) as (Hsc & HC').
  pose proof (lw_rule A ops p n f apps buf tl m g now busy nb f' o apps' calls HB HL Hlt E) as Hw.
  pose proof (lw_keep A ops p n f apps buf tl m g now busy nb f' o apps' calls HB HL Hlt E) as HL'.
  fold s in Hsw, HS', Hsc, HC', Hw, HL'.
  split; [exact H1|]. split; [rewrite H2, Hsw, Hsc; exact (y_e_live_rules m g s Hw)|]. split; [|split; assumption].
  split; [exact HJ'|]. rewrite mon_poll2_eq. cbn [fst]. split; [exact HS'|]. split; assumption.
Qed.

Lemma fdl_oracle_sound_in (l : list rule) (apps : list A) (ins : list minput) :
  incl open_rules3_req l ->
  (forall f apps0 buf tl m now busy nb f' o apps' calls, Base A p (length apps) f apps0 buf tl m -> FdlOracleSound11.RQ f m ->
     poll ops f now (mkPhyIn busy (buf ++ nb)) apps0 = Ok (f', o, apps', calls) ->
     incl (x_e12b p m (poll_event now busy (buf ++ nb) f' o calls)) l) ->
  ins_ok 0 ins ->
  forall k r, In (k, r) (monitor p (length apps) (model_transcript A ops p apps ins)) -> In r l.
Proof.
  intros Hl H12 Hok.
  apply (generic_sound_transcript A ops p (length apps) (fun r => In r l) (JC (length apps)) (fun _ => True)); try assumption; try reflexivity.
  - apply Hl. left. reflexivity.
  - intros a f apps0 buf tl m g f' HJ E _. exact (JC_api _ _ _ _ _ _ _ _ _ HJ E).
  - intros f apps0 buf tl m g now busy nb f' o apps' calls HJ Hlt Hnow Hnb E _.
    assert (Hlen : length apps0 = length apps) by (destruct HJ as (HJ & _); exact (b_n _ _ _ _ _ _ _ _ (JA_base _ _ _ _ _ _ _ HJ))).
    destruct (JC_poll _ _ _ _ _ _ _ _ _ _ _ _ _ _ Hlen HJ Hlt Hnow Hnb E) as (H1 & H2 & HJ' & HB & HR).
    split; [|split; [|exact HJ']].
    + rewrite H1. exact (H12 _ _ _ _ _ _ _ _ _ _ _ _ HB HR E).
    + intros r Hr. apply Hl. right. exact (H2 r Hr).
  - intros f0 apps0 E Hn _. exact (JC_init _ _ _ E Hn).
  - apply transcript_ok_true.
Qed.

(* ORACLE SOUNDNESS for the monitors of the FDL layer including the liveness rule of C12: on a transcript of the
   model only the three status-reply rules (see fdl_oracle_sound3_req), R05_panic (treated in C05Proofs) and the
   liveness rules of C11 and C15 can be reported. *)
Theorem fdl_oracle_sound3 (apps : list A) (ins : list minput) :
  ins_ok 0 ins ->
  forall k r, In (k, r) (monitor p (length apps) (model_transcript A ops p apps ins)) -> In r open_rules3.
Proof.
  apply fdl_oracle_sound_in; [apply incl_appr, incl_refl|].
  intros f apps0 buf tl m now busy nb f' o apps' calls _ _ _. apply incl_appl. exact (x_e12b_rules p m _).
Qed.

Theorem fdl_oracle_sound3_req (apps : list A) (ins : list minput) :
  app_sends_requests A ops -> ins_ok 0 ins ->
  forall k r, In (k, r) (monitor p (length apps) (model_transcript A ops p apps ins)) -> In r open_rules3_req.
Proof.
  intros Hreq. apply fdl_oracle_sound_in; [apply incl_refl|].
  intros f apps0 buf tl m now busy nb f' o apps' calls HB HR E.
  rewrite (e12b_ok A ops p (length apps) Hdata Hreq _ _ _ _ _ _ _ _ _ _ _ _ HB HR E). intros r [].
Qed.

Lemma c12_rules_closed r : In r open_rules3 ->
  r <> R12_sweep_bound /\ r <> R12_post_claim_scan_incomplete /\ r <> R12_gap_wait_never_ends.
Proof. intros H. cbn in H. repeat split; intros ->; intuition discriminate. Qed.

Corollary c12_oracle_sound_sweep (apps : list A) (ins : list minput) :
  ins_ok 0 ins ->
  forall k r, In (k, r) (monitor p (length apps) (model_transcript A ops p apps ins)) -> r <> R12_sweep_bound.
Proof. intros Hok k r Hin. apply c12_rules_closed. exact (fdl_oracle_sound3 _ _ Hok _ _ Hin). Qed.

Corollary c12_oracle_sound_claim_scan (apps : list A) (ins : list minput) :
  ins_ok 0 ins ->
  forall k r, In (k, r) (monitor p (length apps) (model_transcript A ops p apps ins)) -> r <> R12_post_claim_scan_incomplete.
Proof. intros Hok k r Hin. apply c12_rules_closed. exact (fdl_oracle_sound3 _ _ Hok _ _ Hin). Qed.

Corollary c12_oracle_sound_gap_wait (apps : list A) (ins : list minput) :
  ins_ok 0 ins ->
  forall k r, In (k, r) (monitor p (length apps) (model_transcript A ops p apps ins)) -> r <> R12_gap_wait_never_ends.
Proof. intros Hok k r Hin. apply c12_rules_closed. exact (fdl_oracle_sound3 _ _ Hok _ _ Hin). Qed.

Corollary c12_oracle_sound (apps : list A) (ins : list minput) :
  app_sends_requests A ops -> ins_ok 0 ins ->
  forall k r, In (k, r) (monitor p (length apps) (model_transcript A ops p apps ins)) -> rule_prop r <> PC12.
Proof.
  intros Hreq Hok k r Hin Hp. pose proof (fdl_oracle_sound3_req _ _ Hreq Hok _ _ Hin) as H. cbn in H.
  repeat (destruct H as [<-|H]; [discriminate Hp|]). contradiction.
Qed.

(* Under these hypotheses no rule of C12 is reported at all (c12_oracle_sound), so this statement holds because its
   premise rule_prop r = PC12 never does; it is kept for Properties/C12.v. *)
Corollary c12_oracle_sound_safety (apps : list A) (ins : list minput) :
  app_sends_requests A ops -> ins_ok 0 ins ->
  forall k r, In (k, r) (monitor p (length apps) (model_transcript A ops p apps ins)) -> rule_prop r = PC12 ->
  r = R12_gap_wait_never_ends.
Proof. intros Hreq Hok k r Hin Hp. contradiction (c12_oracle_sound _ _ Hreq Hok _ _ Hin Hp). Qed.

End Master.
