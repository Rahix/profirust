(* C12 - GAP maintenance polls exactly the own GAP and status replies are truthful.
   Proofs over Model/Fdl.v: complete case analyses ("specs") of the functions that take part in GAP
   maintenance and status replies, a classification of every transmission of a poll, and the
   theorems of DESIGN.md section 4 / C12 built on them.
   `facts` says what one step (a do_* function, a whole poll) can do; the do_* functions establish it through
   one lemma per kind of outcome: facts_silent, facts_quiet, facts_gap_request, facts_visit_token,
   facts_claim_token, facts_scan_end, facts_reply (and use_facts_from for an application's telegram).
   do_pass_token, in which several functions end, is treated relative to the state in which the poll began. *)
From PB Require Import Common Tables FdlTables Telegram Phy TokenRing Params Fdl FdlProofs FdlStepProofs.
From PB Require C02Proofs LasRep LasOracle.

(* C11Proofs defines a second, identical `dispatch`; here, and in the files that import this one last, the name
   means FdlProofs.dispatch, over which the lemmas of this file are stated *)
Notation dispatch := FdlProofs.dispatch (only parsing).

Definition sr_wire (a t : Z) : bytes := encode (TData (status_request_header a t) []).
Definition reply_wire (da t : Z) (st : resp_state) : bytes :=
  encode (TData (status_response_header da t st status_reply_status) []).

Lemma encode_nosap da sa fc :
  encode_data_in tx_buffer_size (mkHeader da sa None None fc) [] = Ok (encode (TData (mkHeader da sa None None fc) [])).
Proof.
  unfold encode_data_in, serialize_data, tx_buffer_size.
  cbn -[fc_to_byte Z.lor sum8 Z.eqb].
  rewrite !Z.lor_0_r. change (SD1 =? SD2) with false. cbv iota.
  cbn -[fc_to_byte sum8]. rewrite !Z.add_0_r. reflexivity.
Qed.

Lemma encode_nosap_length da sa fc : length (encode (TData (mkHeader da sa None None fc) [])) = 6%nat.
Proof. reflexivity. Qed.

Lemma receive_all_last_inv {S R : Type} (P : S -> Prop) (Q : S -> telegram -> Prop)
      (cb : S -> telegram -> bool -> res (S * R)) :
  (forall s t s' r, P s -> cb s t false = Ok (s', r) -> P s') ->
  (forall s t s' r, P s -> cb s t true = Ok (s', r) -> P s' \/ Q s' t) ->
  forall fuel s buf s' rest r, P s -> receive_all cb fuel s buf = Ok (s', rest, r) ->
  P s' \/ (exists pre suf t, buf = pre ++ suf /\ decode suf = Ok (Accept t (length suf)) /\ Q s' t /\ rest = []).
Proof.
  intros Hf Ht. induction fuel as [|fuel IH]; intros s buf s' rest r Hp H; [discriminate H|].
  cbn [receive_all] in H.
  destruct (decode buf) as [d| |] eqn:Ed; cbn [bind] in H; try discriminate H.
  destruct d as [ | |t n].
  - injection H as <- _ _. left. exact Hp.
  - injection H as <- _ _. left. exact Hp.
  - destruct (cb s t (Nat.eqb n (length buf))) as [[s1 r1]| |] eqn:E; cbn [bind] in H; try discriminate H.
    destruct (Nat.eqb_spec n (length buf)) as [En|En].
    + injection H as <- <- _. destruct (Ht _ _ _ _ Hp E) as [X|X]; [left; exact X|].
      right. exists [], buf, t. split; [reflexivity|]. split; [rewrite <- En; exact Ed|]. split; [exact X|].
      subst n. apply skipn_all.
    + pose proof (Hf _ _ _ _ Hp E) as Hp1.
      destruct (IH _ _ _ _ _ Hp1 H) as [X|[pre [suf [t' [Hb [Hd [Hq Hr]]]]]]]; [left; exact X|].
      right. exists (firstn n buf ++ pre), suf, t'. split; [|repeat split; assumption].
      rewrite <- app_assoc, <- Hb. symmetry. apply firstn_skipn.
Qed.

(* offset of x from TS on the circle of the addresses 0 .. HSA-1 *)
Definition off (t H x : Z) : Z := if t <=? x then x - t else x - t + H.
(* number of addresses in the GAP: those with offset 1 .. gap_size *)
Definition gap_size (t n H : Z) : Z := if n =? t then H - 1 else off t H n - 1.
Definition nxt (H c : Z) : Z := if c =? H - 1 then 0 else c + 1.

Lemma off_range t H x : 0 <= t < H -> 0 <= x < H -> 0 <= off t H x < H.
Proof. unfold off. intros. destruct (Z.leb_spec t x); lia. Qed.

Lemma off_inj t H x y : 0 <= t < H -> 0 <= x < H -> 0 <= y < H -> off t H x = off t H y -> x = y.
Proof. unfold off. intros. destruct (Z.leb_spec t x); destruct (Z.leb_spec t y); lia. Qed.

Lemma off_self t H : off t H t = 0.
Proof. unfold off. rewrite Z.leb_refl. lia. Qed.

Lemma nxt_range H c : 0 <= c < H -> 0 <= nxt H c < H.
Proof. unfold nxt. intros. destruct (Z.eqb_spec c (H - 1)); lia. Qed.

Lemma off_nxt t H c : 0 <= t < H -> 0 <= c < H ->
  off t H (nxt H c) = if off t H c =? H - 1 then 0 else off t H c + 1.
Proof.
  unfold off, nxt. intros Ht Hc.
  destruct (Z.eqb_spec c (H - 1)); destruct (Z.leb_spec t c);
    repeat match goal with |- context [?a <=? ?b] => destruct (Z.leb_spec a b) end;
    repeat match goal with |- context [?a =? ?b] => destruct (Z.eqb_spec a b) end; lia.
Qed.

Lemma gap_size_range t n H : 0 <= t < H -> 0 <= n < H -> 0 <= gap_size t n H <= H - 1.
Proof.
  unfold gap_size, off. intros. destruct (Z.eqb_spec n t); [lia|]. destruct (Z.leb_spec t n); lia.
Qed.

Lemma in_gapb_off t n H x : 0 <= t < H -> 0 <= n < H -> 0 <= x < H ->
  in_gapb t n x = (1 <=? off t H x) && (off t H x <=? gap_size t n H).
Proof.
  unfold in_gapb, gap_size, off. intros Ht Hn Hx.
  destruct (Z.ltb_spec t n); destruct (Z.eqb_spec n t); try lia;
    destruct (Z.leb_spec t x); destruct (Z.leb_spec t n); try lia;
    repeat match goal with |- context [?a <? ?b] => destruct (Z.ltb_spec a b) end;
    repeat match goal with |- context [?a <=? ?b] => destruct (Z.leb_spec a b) end; cbn; try reflexivity; lia.
Qed.

Lemma gap_offsets t n H x : 0 <= t < H -> 0 <= n < H -> 0 <= x < H ->
  (in_gap t n x <-> 1 <= off t H x <= gap_size t n H).
Proof.
  intros Ht Hn Hx. rewrite <- in_gapb_spec, (in_gapb_off t n H x Ht Hn Hx), andb_true_iff, !Z.leb_le. tauto.
Qed.

Lemma gap_offsets_onto t n H k : 0 <= t < H -> 0 <= n < H -> 1 <= k <= gap_size t n H ->
  exists x, 0 <= x < H /\ off t H x = k /\ in_gap t n x.
Proof.
  intros Ht Hn Hk. pose proof (gap_size_range t n H Ht Hn).
  exists (if t + k <? H then t + k else t + k - H).
  assert (Hx : 0 <= (if t + k <? H then t + k else t + k - H) < H) by (destruct (Z.ltb_spec (t + k) H); lia).
  assert (Ho : off t H (if t + k <? H then t + k else t + k - H) = k).
  { unfold off. destruct (Z.ltb_spec (t + k) H); [destruct (Z.leb_spec t (t + k)); lia|destruct (Z.leb_spec t (t + k - H)); lia]. }
  split; [exact Hx|]. split; [exact Ho|]. apply (gap_offsets t n H _ Ht Hn Hx). lia.
Qed.

Lemma gap_size_counts t n H : 0 <= t < H -> 0 <= n < H ->
  (forall x, 0 <= x < H -> (in_gap t n x <-> 1 <= off t H x <= gap_size t n H)) /\
  (forall k, 1 <= k <= gap_size t n H -> exists x, 0 <= x < H /\ off t H x = k /\ in_gap t n x) /\
  (forall x y, 0 <= x < H -> 0 <= y < H -> off t H x = off t H y -> x = y).
Proof.
  intros Ht Hn. split; [intros x Hx; exact (gap_offsets t n H x Ht Hn Hx)|].
  split; [intros k Hk; exact (gap_offsets_onto t n H k Ht Hn Hk)|intros x y Hx Hy; exact (off_inj t H x y Ht Hx Hy)].
Qed.

(* the GAP step of a visit as a pure function of (TS, NS, HSA, gap_wait_rotations) *)
Definition gnext (t n H c : Z) : gap_state :=
  if in_gapb t n (nxt H c) then GapDoPoll (nxt H c) else GapWaiting 0.
Definition gstep (t n H gw : Z) (g : gap_state) : gap_state :=
  match g with
  | GapWaiting rc => if gw <? rc then gnext t n H t else GapWaiting (rc + 1)
  | GapDoPoll c => gnext t n H c
  end.

Definition gap_wf (H gw : Z) (g : gap_state) : Prop :=
  match g with GapDoPoll c => 0 <= c < H | GapWaiting rc => 0 <= rc end.

(* number of visits until address a is polled *)
Definition visits_until (t n H gw a : Z) (g : gap_state) : Z :=
  let k := off t H a in
  let N := gap_size t n H + 1 in
  match g with
  | GapDoPoll c =>
      let j := off t H c in
      if j <? k then k - j else (if j <? N - 1 then N - j else 1) + (gw + 1) + k
  | GapWaiting rc => if gw <? rc then k else (gw + 1 - rc) + k
  end.

Lemma gnext_off t n H c : 0 <= t < H -> 0 <= n < H -> 0 <= c < H ->
  let j' := if off t H c =? H - 1 then 0 else off t H c + 1 in
  gnext t n H c = if (1 <=? j') && (j' <=? gap_size t n H) then GapDoPoll (nxt H c) else GapWaiting 0.
Proof.
  intros Ht Hn Hc. cbv zeta. unfold gnext.
  rewrite (in_gapb_off t n H (nxt H c) Ht Hn (nxt_range H c Hc)), (off_nxt t H c Ht Hc). reflexivity.
Qed.

Lemma gnext_by_offset t n H c : 0 <= t < H -> 0 <= n < H -> 0 <= c < H ->
  (gnext t n H c = GapDoPoll (nxt H c) /\ off t H (nxt H c) = off t H c + 1 /\ off t H c + 1 <= gap_size t n H) \/
  (gnext t n H c = GapWaiting 0 /\ (off t H c = H - 1 \/ gap_size t n H < off t H c + 1)).
Proof.
  intros Ht Hn Hc. pose proof (off_range t H c Ht Hc). pose proof (gap_size_range t n H Ht Hn).
  rewrite (gnext_off t n H c Ht Hn Hc), (off_nxt t H c Ht Hc). cbv zeta.
  destruct (Z.eqb_spec (off t H c) (H - 1)); [right; split; [reflexivity|left; assumption]|].
  destruct (Z.leb_spec 1 (off t H c + 1)); [|lia]. destruct (Z.leb_spec (off t H c + 1) (gap_size t n H)); cbn [andb].
  - left. repeat split; lia || reflexivity.
  - right. split; [reflexivity|right; lia].
Qed.

Lemma gstep_wf t n H gw g : 0 <= t < H -> 0 <= n < H -> gap_wf H gw g -> gap_wf H gw (gstep t n H gw g).
Proof.
  intros Ht Hn Hw. unfold gstep, gnext. destruct g as [rc|c]; cbn in Hw.
  - destruct (gw <? rc); [|cbn; lia]. destruct (in_gapb _ _ _); cbn; [apply nxt_range; lia|lia].
  - destruct (in_gapb _ _ _); cbn; [apply nxt_range; lia|lia].
Qed.

(* next_gap_poll in closed form; the bounds are those under which its u8 arithmetic cannot overflow *)
Lemma next_gap_poll_gnext f c : 1 <= p_hsa (f_p f) <= 256 -> 0 <= c < p_hsa (f_p f) ->
  next_gap_poll f c = Ok (gnext (ts f) (r_ns (f_ring f)) (p_hsa (f_p f)) c).
Proof.
  intros Hh Hc. unfold next_gap_poll, gnext, nxt, u8_sub, u8_add.
  destruct (Z.leb_spec 0 (p_hsa (f_p f) - 1)); [|lia]. cbn [bind].
  destruct (Z.eqb_spec c (p_hsa (f_p f) - 1)); cbn [bind].
  - destruct (in_gapb _ _ 0); reflexivity.
  - destruct (Z.leb_spec (c + 1) 255); [|lia]. cbn [bind]. destruct (in_gapb _ _ (c + 1)); reflexivity.
Qed.

Lemma visits_until_step t n H gw a g :
  0 <= t < H -> 0 <= n < H -> 0 <= gw -> 0 <= a < H -> in_gap t n a -> gap_wf H gw g ->
  1 <= visits_until t n H gw a g <= gap_size t n H + gw + 2 /\
  (visits_until t n H gw a g = 1 -> gstep t n H gw g = GapDoPoll a) /\
  (1 < visits_until t n H gw a g -> visits_until t n H gw a (gstep t n H gw g) = visits_until t n H gw a g - 1).
Proof.
  intros Ht Hn Hgw Ha Hin Hw. apply (gap_offsets t n H a Ht Hn Ha) in Hin.
  pose proof (gap_size_range t n H Ht Hn) as Hgs.
  (* the address with the offset of a is a *)
  assert (Hinj : forall c, 0 <= c < H -> off t H (nxt H c) = off t H a -> GapDoPoll (nxt H c) = GapDoPoll a)
    by (intros c Hc E; f_equal; exact (off_inj t H _ _ Ht (nxt_range H c Hc) Ha E)).
  unfold visits_until, gstep. destruct g as [rc|c]; cbn in Hw.
  - destruct (Z.ltb_spec gw rc) as [Hrc|Hrc].
    + (* the sweep restarts at TS *)
      pose proof (off_self t H) as H0.
      destruct (gnext_by_offset t n H t Ht Hn Ht) as [[G [O B]]|[G B]]; rewrite G; [|lia].
      split; [lia|]. split; [intros E; apply (Hinj t Ht); lia|]. intros Hgt. rewrite O, H0.
      destruct (Z.ltb_spec (0 + 1) (off t H a)); lia.
    + split; [lia|]. split; [intros; lia|]. intros Hgt. destruct (Z.ltb_spec gw (rc + 1)); lia.
  - pose proof (off_range t H c Ht Hw) as Hj.
    destruct (gnext_by_offset t n H c Ht Hn Hw) as [[G [O B]]|[G B]]; rewrite G.
    + rewrite O. destruct (Z.ltb_spec (off t H c) (off t H a)).
      * split; [lia|]. split; [intros E; apply (Hinj c Hw); lia|]. intros Hgt.
        destruct (Z.ltb_spec (off t H c + 1) (off t H a)); lia.
      * destruct (Z.ltb_spec (off t H c) (gap_size t n H + 1 - 1)); [|lia].
        split; [lia|]. split; [intros; lia|]. intros Hgt.
        destruct (Z.ltb_spec (off t H c + 1) (off t H a)); [lia|].
        destruct (Z.ltb_spec (off t H c + 1) (gap_size t n H + 1 - 1)); lia.
    + destruct (Z.ltb_spec (off t H c) (off t H a)); [lia|].
      destruct (Z.ltb_spec (off t H c) (gap_size t n H + 1 - 1)); [lia|].
      split; [lia|]. split; [intros; lia|]. intros Hgt. destruct (Z.ltb_spec gw 0); lia.
Qed.

Fixpoint giter (t n H gw : Z) (g : gap_state) (m : nat) : list gap_state :=
  match m with O => [] | S m' => let g' := gstep t n H gw g in g' :: giter t n H gw g' m' end.

Lemma sweep_bound_pure t n H gw a : 0 <= t < H -> 0 <= n < H -> 0 <= gw -> 0 <= a < H -> in_gap t n a ->
  forall m g, gap_wf H gw g -> visits_until t n H gw a g = Z.of_nat (S m) ->
  exists l, giter t n H gw g (S m) = l ++ [GapDoPoll a].
Proof.
  intros Ht Hn Hgw Ha Hin. induction m as [|m IH]; intros g Hw Hv.
  - destruct (visits_until_step t n H gw a g Ht Hn Hgw Ha Hin Hw) as [_ [H1 _]].
    exists []. cbn [giter app]. rewrite H1 by lia. reflexivity.
  - destruct (visits_until_step t n H gw a g Ht Hn Hgw Ha Hin Hw) as [_ [_ H2]].
    destruct (IH (gstep t n H gw g) (gstep_wf _ _ _ _ _ Ht Hn Hw)) as [l Hl]; [rewrite H2; lia|].
    exists (gstep t n H gw g :: l). change (giter t n H gw g (S (S m))) with (gstep t n H gw g :: giter t n H gw (gstep t n H gw g) (S m)).
    rewrite Hl. reflexivity.
Qed.

Lemma set_next_station_effect r a r' :
  length (r_las r) = 128%nat -> 0 <= r_ts r < 128 -> a <> r_ts r ->
  set_next_station r a = Ok r' ->
  0 <= a < 128 /\ r_ns r' = a /\ r_ts r' = r_ts r /\ r_state r' = r_state r /\ length (r_las r') = 128%nat /\
  (forall x, LasOracle.activeb (r_las r') x =
             (x =? r_ts r) || (((x =? a) || LasOracle.activeb (r_las r) x) && negb (in_gapb (r_ts r) a x))).
Proof.
  intros HL Ht Hne H.
  assert (Ha : 0 <= a < 128).
  { destruct (Z.lt_ge_cases a 0); [rewrite C02Proofs.set_next_station_panics in H by lia; discriminate H|].
    destruct (Z.lt_ge_cases a 128); [lia|rewrite C02Proofs.set_next_station_panics in H by lia; discriminate H]. }
  rewrite C02Proofs.set_next_station_ok in H by assumption. injection H as <-.
  set (r1 := mkRing (set_nth (r_las r) (Z.to_nat a) true) (r_state r) (r_ts r) (r_ns r) (r_ps r)).
  destruct (C02Proofs.upd_fields r1 (r_ts r) a) as [Hlas [Hst [Hts [Hns _]]]].
  assert (HL1 : length (r_las r1) = 128%nat) by (cbn; rewrite LasRep.set_nth_length; exact HL).
  assert (Hact : forall x, LasOracle.activeb (r_las (C02Proofs.upd r1 (r_ts r) a)) x =
             (x =? r_ts r) || (((x =? a) || LasOracle.activeb (r_las r) x) && negb (in_gapb (r_ts r) a x))).
  { intros x. rewrite Hlas, C02Proofs.activeb_las_after by (assumption || lia).
    cbn [r_las r1]. rewrite LasRep.activeb_set by lia.
    destruct (Z.eqb_spec x (r_ts r)) as [E|E]; [reflexivity|]. cbn [orb].
    assert (Hg : LasOracle.in_gapb (r_ts r) a x = in_gapb (r_ts r) a x).
    { unfold LasOracle.in_gapb, in_gapb. destruct (r_ts r <? a).
      - destruct (Z.leb_spec (r_ts r) x); destruct (Z.ltb_spec (r_ts r) x); try lia; reflexivity.
      - destruct (Z.leb_spec (r_ts r) x); destruct (Z.ltb_spec (r_ts r) x); try lia; reflexivity. }
    rewrite Hg. destruct (Z.eqb_spec x a); reflexivity. }
  split; [exact Ha|]. split; [|split; [exact Hts|split; [exact Hst|split; [|exact Hact]]]].
  - (* NS: a is active, and no other active station but TS lies in the GAP before it *)
    rewrite Hns, <- Hlas.
    set (las' := r_las (C02Proofs.upd r1 (r_ts r) a)) in *.
    pose proof (LasRep.next_of_spec (las_ones las') (r_ts r) (LasRep.las_ones_sorted las')) as Hspec.
    refine (LasRep.cyc_next_unique _ _ _ _ Hspec _).
    assert (Hin : forall x, In x (las_ones las') <-> LasOracle.activeb las' x = true) by (intros x; apply LasRep.In_las_ones).
    assert (Hina : In a (las_ones las')).
    { apply Hin. rewrite Hact, Z.eqb_refl.
      replace (in_gapb (r_ts r) a a) with false; [apply orb_true_r|].
      symmetry. apply not_true_is_false. rewrite in_gapb_spec. unfold in_gap. lia. }
    assert (Hout : forall x, In x (las_ones las') -> x = r_ts r \/ ~ in_gap (r_ts r) a x).
    { intros x Hx. apply Hin in Hx. rewrite Hact in Hx. apply orb_true_iff in Hx. destruct Hx as [Hx|Hx].
      - left. apply Z.eqb_eq. exact Hx.
      - right. apply andb_true_iff in Hx. destruct Hx as [_ Hx]. apply negb_true_iff in Hx.
        rewrite <- in_gapb_spec, Hx. discriminate. }
    unfold LasOracle.cyc_next, in_gap in *. destruct (las_ones las') as [|x0 rest] eqn:El; [contradiction Hina|]. rewrite <- El in *.
    split; [exact Hina|].
    destruct (Z.lt_ge_cases (r_ts r) a); [left|right]; repeat split; try assumption; intros x Hx; destruct (Hout x Hx); lia.
  - rewrite Hlas, C02Proofs.las_after_length. exact HL1.
Qed.

(* a bit count as a time, rounded UP to whole microseconds (bits_to_time rounds down) *)
Definition bits_to_time_up (b : baudrate) (bits : Z) : Z := (bits * 1000000 + baud_to_rate b - 1) / baud_to_rate b.

Lemma baud_rate_pos b : 0 < baud_to_rate b.
Proof. destruct b; reflexivity. Qed.

Lemma bits_to_time_mono b n m : n <= m -> bits_to_time b n <= bits_to_time b m.
Proof. intros H. unfold bits_to_time. apply Z.div_le_mono; [apply baud_rate_pos|lia]. Qed.

(* where the bound P <= Tslot / 4 comes from: two poll periods, the synchronisation pause (33 bit), the first
   byte of the reply (11 bit, rounded up) and 1 us of rounding of the requester's time stamp fit into Tslot *)
Lemma slot_time_covers_reply p P :
  builder_valid p -> 0 <= P -> 4 * P <= slot_time p ->
  2 * P + p_bits_to_time p sync_pause_bits + bits_to_time_up (p_baud p) bits_per_byte + 1 <= slot_time p.
Proof.
  intros [_ [[Hmin _] _]] HP H4.
  assert (Hs : bits_to_time (p_baud p) (min_slot_bits (p_baud p)) <= slot_time p)
    by (apply bits_to_time_mono; exact Hmin).
  unfold p_bits_to_time, bits_to_time_up in *. unfold bits_to_time in Hs |- *.
  (* per baud rate the three quotients (33 bit, 11 bit rounded up, the minimal slot time) are numbers: compute them, then lia *)
  destruct (p_baud p); vm_compute baud_to_rate in *; vm_compute min_slot_bits in Hs;
    change sync_pause_bits with 33; change bits_per_byte with 11;
    match goal with |- context [33 * 1000000 / ?r] => let v := eval vm_compute in (33 * 1000000 / r) in change (33 * 1000000 / r) with v end;
    match goal with |- context [(11 * 1000000 + ?r - 1) / ?r] => let v := eval vm_compute in ((11 * 1000000 + r - 1) / r) in change ((11 * 1000000 + r - 1) / r) with v end;
    match type of Hs with ?a <= _ => let v := eval vm_compute in a in change a with v in Hs end; lia.
Qed.

Lemma token_lost_timeout_ge_slot p : builder_valid p -> slot_time p <= token_lost_timeout p.
Proof.
  intros [[Ha _] [[Hmin _] _]]. unfold slot_time, token_lost_timeout, p_bits_to_time.
  apply bits_to_time_mono.
  assert (0 <= p_slot_bits p) by (pose proof Hmin; destruct (p_baud p); cbn in *; lia).
  change token_lost_base with 6. change token_lost_per_addr with 2. nia.
Qed.

Fixpoint spaced (prev P : Z) (times : list Z) : Prop :=
  match times with [] => True | t :: r => prev < t <= prev + P /\ spaced t P r end.

Lemma spaced_first_after prev P T waits tk :
  0 <= T -> 0 <= P -> spaced prev P (waits ++ [tk]) -> Forall (fun t => t <= prev + T) waits ->
  tk <= prev + T + P /\ Forall (fun t => prev < t) waits /\ prev < tk.
Proof.
  intros HT HP. revert prev T HT. induction waits as [|t r IH]; intros prev T HT Hs Hf.
  - cbn in Hs. split; [lia|]. split; [constructor|lia].
  - cbn [app spaced] in Hs. destruct Hs as [Ht Hs]. inversion Hf as [|? ? Hft Hfr]; subst.
    destruct (IH t (prev + T - t) ltac:(lia) Hs) as [I1 [I2 I3]].
    + apply Forall_forall. intros x Hx. rewrite Forall_forall in Hfr. specialize (Hfr x Hx). lia.
    + split; [lia|]. split; [|lia]. constructor; [lia|].
      apply Forall_forall. intros x Hx. rewrite Forall_forall in I2. specialize (I2 x Hx). lia.
Qed.

Section WithApps.
Variable A : Type.
Variable ops : app_ops A.
Notation W := (world A).

Definition sent (w : W) (wire : bytes) : W := mkWorld (w_rx w) (Some wire) (w_apps w) (w_calls w) (w_trace w).

Lemma phy_send_data_spec (w : W) da sa fc w' n :
  phy_send A w (TxData (mkHeader da sa None None fc) []) = Ok (w', n) ->
  w_tx w = None /\ n = 6%nat /\ w' = sent w (encode (TData (mkHeader da sa None None fc) [])).
Proof.
  unfold phy_send, transmit. rewrite encode_nosap. cbn [bind]. unfold phy_transmit.
  destruct (w_tx w); cbn [bind]; [discriminate|]. intros H. injection H as <- <-.
  split; [reflexivity|]. split; reflexivity.
Qed.

Lemma phy_send_token_spec (w : W) da sa w' n :
  phy_send A w (TxToken da sa) = Ok (w', n) ->
  w_tx w = None /\ n = 3%nat /\ w' = sent w (encode_token da sa).
Proof.
  unfold phy_send, transmit. change (Nat.ltb tx_buffer_size 3) with false. cbn [bind]. unfold phy_transmit.
  destruct (w_tx w); cbn [bind]; [discriminate|]. intros H. injection H as <- <-.
  split; [reflexivity|]. split; reflexivity.
Qed.

Lemma ts_ext f1 f : f_p f1 = f_p f -> ts f1 = ts f.
Proof. unfold ts. intros ->. reflexivity. Qed.

Lemma next_gap_poll_ext f1 f c : f_p f1 = f_p f -> f_ring f1 = f_ring f -> next_gap_poll f1 c = next_gap_poll f c.
Proof. intros Hp Hr. unfold next_gap_poll, ts. rewrite Hp, Hr. reflexivity. Qed.

Lemma in_gap_not_ns t n a : in_gap t n a -> a <> n.
Proof. unfold in_gap. intros [H1 H2] ->. destruct (Z.lt_ge_cases t n) as [H|H]; [specialize (H1 H)|specialize (H2 H)]; lia. Qed.

Lemma transmit_gap_poll_wire f now (w : W) f' w' polled :
  transmit_gap_poll_if_pending A f now w = Ok (f', w', polled) ->
  same_but_lba f f' /\
  match polled with
  | Some a => f_gap f = GapDoPoll a /\ a <> ts f /\ w_tx w = None /\ w' = sent w (sr_wire a (ts f))
  | None => (exists n, f_gap f = GapWaiting n) /\ w' = w /\ f' = f
  end.
Proof.
  unfold transmit_gap_poll_if_pending. destruct (f_gap f) as [n|cur] eqn:Eg.
  - intros H. injection H as <- <- <-. split; [apply same_but_lba_refl|]. split; [exists n; reflexivity|]. split; reflexivity.
  - destruct (Z.eqb_spec cur (ts f)) as [E|E]; [discriminate|].
    unfold status_request_header.
    destruct (phy_send A w _) as [[w1 n]| |] eqn:Ep; cbn [bind]; try discriminate.
    destruct (mark_tx f now n) as [f1| |] eqn:Em; cbn [bind]; try discriminate.
    intros H. injection H as <- <- <-. apply mark_tx_same in Em. apply phy_send_data_spec in Ep.
    destruct Ep as [Hn [_ ->]].
    split; [exact Em|]. split; [reflexivity|]. split; [exact E|]. split; [exact Hn|reflexivity].
Qed.

Definition is_reply_from (tsa a : Z) (t : telegram) : Prop :=
  exists h pdu st s, t = TData h pdu /\ h_fc h = FcResponse st s /\ h_sa h = a /\ h_da h = tsa.

(* what the code accepts as "a master that wants to be / is in the ring": status Ok and state
   "master ready to enter the ring" (MasterWithoutToken) or "master in ring" *)
Definition is_master_ready_reply (tsa a : Z) (t : telegram) : Prop :=
  exists h pdu st, t = TData h pdu /\ h_fc h = FcResponse st StOk /\
    (st = RsMasterWithoutToken \/ st = RsMasterInRing) /\ h_sa h = a /\ h_da h = tsa.

Lemma resp_status_eqb_ok s : resp_status_eqb s gap_reply_status = true <-> s = StOk.
Proof. destruct s; split; intros H; try reflexivity; try discriminate H. Qed.

Lemma gap_master_spec st : gap_reply_state_is_master st = true <-> (st = RsMasterWithoutToken \/ st = RsMasterInRing).
Proof. destruct st; split; intros H; try discriminate H; try reflexivity; try (destruct H as [H|H]; discriminate H); tauto. Qed.

Lemma await_gap_spec f now (w : W) pa f' w' r :
  await_gap_poll_response A f now w pa = Ok (f', w', r) ->
  pa <> ts f /\ f_gap f = GapDoPoll pa /\
  f_p f' = f_p f /\ f_gap f' = f_gap f /\ f_state f' = f_state f /\ f_conn f' = f_conn f /\
  f_last_token_time f' = f_last_token_time f /\ f_end_tht f' = f_end_tht f /\ f_next_app f' = f_next_app f /\
  w_tx w' = w_tx w /\ w_calls w' = w_calls w /\ w_apps w' = w_apps w /\
  exists rest received, receive_telegram (fun t => t) (w_rx w) = Ok (rest, received) /\ w_rx w' = rest /\
  ( (r = GprStationResponded /\ exists t, received = Some t /\ is_reply_from (ts f) pa t /\
       ((is_master_ready_reply (ts f) pa t /\ set_next_station (f_ring f) pa = Ok (f_ring f')) \/
        (~ is_master_ready_reply (ts f) pa t /\ f_ring f' = f_ring f)))
  \/ (r = GprUnexpectedTelegram /\ exists t, received = Some t /\ ~ is_reply_from (ts f) pa t /\ f_ring f' = f_ring f)
  \/ (received = None /\ f_ring f' = f_ring f /\ (r = GprNoResponse \/ r = GprWaiting)) ).
Proof.
  unfold await_gap_poll_response. intros H.
  destruct (Z.eqb_spec pa (ts f)) as [E|Ene]; [discriminate H|].
  destruct (f_gap f) as [n|c] eqn:Eg; cbn [negb] in H; [discriminate H|].
  destruct (Z.eqb_spec c pa) as [Ec|Ec]; cbn [negb] in H; [|discriminate H]. subst c.
  split; [exact Ene|]. split; [reflexivity|].
  destruct (receive_telegram (fun t => t) (w_rx w)) as [[rest received]| |] eqn:Er; cbn [bind] in H; try discriminate H.
  destruct received as [t|].
  - destruct (mark_rx_frame f now) as [Mp [Mr [Mg [Ms [Mc [Me [Mn Ml]]]]]]].
    pose proof (ts_ext _ _ Mp) as Hts.
    assert (Hun : forall tg, (f', w', r) = (mark_rx f now, note A (set_rx A w rest) tg, GprUnexpectedTelegram) ->
              ~ is_reply_from (ts f) pa t ->
              f_p f' = f_p f /\ f_gap f' = GapDoPoll pa /\ f_state f' = f_state f /\ f_conn f' = f_conn f /\
              f_last_token_time f' = f_last_token_time f /\ f_end_tht f' = f_end_tht f /\ f_next_app f' = f_next_app f /\
              w_tx w' = w_tx w /\ w_calls w' = w_calls w /\ w_apps w' = w_apps w /\
              exists rest0 received, Ok (rest, Some t) = Ok (rest0, received) /\ w_rx w' = rest0 /\
              ( (r = GprStationResponded /\ exists t0, received = Some t0 /\ is_reply_from (ts f) pa t0 /\
                   ((is_master_ready_reply (ts f) pa t0 /\ set_next_station (f_ring f) pa = Ok (f_ring f')) \/
                    (~ is_master_ready_reply (ts f) pa t0 /\ f_ring f' = f_ring f)))
              \/ (r = GprUnexpectedTelegram /\ exists t0, received = Some t0 /\ ~ is_reply_from (ts f) pa t0 /\ f_ring f' = f_ring f)
              \/ (received = None /\ f_ring f' = f_ring f /\ (r = GprNoResponse \/ r = GprWaiting)) )).
    { intros tg Heq Hno. injection Heq as -> -> ->. cbn. rewrite Mp, Mg, Ms, Mc, Me, Mn, Ml, Eg.
      repeat (split; [reflexivity|]). exists rest, (Some t). split; [reflexivity|]. split; [reflexivity|].
      right. left. split; [reflexivity|]. exists t. split; [reflexivity|]. split; [exact Hno|exact Mr]. }
    destruct t as [[da sa dsap ssap fc] pdu|da sa|].
    + destruct fc as [fb rq|st status].
      * injection H as <- <- <-. apply (Hun TGapUnexpected eq_refl).
        intros [h [pdu' [st [s [Ht [Hfc _]]]]]]. injection Ht as <- _. discriminate Hfc.
      * rewrite Hts in H.
        destruct (Z.eqb_spec sa pa) as [Esa|Esa]; cbn [andb] in H.
        -- destruct (Z.eqb_spec da (ts f)) as [Eda|Eda].
           ++ assert (Hfrom : is_reply_from (ts f) pa (TData (mkHeader da sa dsap ssap (FcResponse st status)) pdu)).
              { eexists; eexists; eexists; eexists. split; [reflexivity|]. cbn. split; [reflexivity|]. split; assumption. }
              destruct (resp_status_eqb status gap_reply_status && gap_reply_state_is_master st) eqn:Em.
              ** apply andb_true_iff in Em. destruct Em as [E1 E2]. apply resp_status_eqb_ok in E1. apply gap_master_spec in E2.
                 rewrite Mr in H.
                 destruct (set_next_station (f_ring f) pa) as [r'| |] eqn:Es; cbn [bind] in H; try discriminate H.
                 injection H as <- <- <-. cbn. rewrite Mp, Mg, Ms, Mc, Me, Mn, Ml, Eg.
                 repeat (split; [reflexivity|]). eexists; eexists. split; [reflexivity|]. split; [reflexivity|].
                 left. split; [reflexivity|]. eexists. split; [reflexivity|]. split; [exact Hfrom|]. left.
                 split; [|reflexivity]. subst status. eexists; eexists; eexists. split; [reflexivity|]. cbn.
                 split; [reflexivity|]. split; [exact E2|]. split; assumption.
              ** injection H as <- <- <-. cbn. rewrite Mp, Mg, Ms, Mc, Me, Mn, Ml, Eg.
                 repeat (split; [reflexivity|]). eexists; eexists. split; [reflexivity|]. split; [reflexivity|].
                 left. split; [reflexivity|]. eexists. split; [reflexivity|]. split; [exact Hfrom|]. right.
                 split; [|exact Mr]. intros [h [pdu' [st' [Ht [Hfc [Hst _]]]]]]. injection Ht as <- _. cbn in Hfc. injection Hfc as Ha Hb. subst st' status.
                 apply gap_master_spec in Hst. rewrite Hst in Em. cbn in Em. discriminate Em.
           ++ injection H as <- <- <-. apply (Hun TGapUnexpected eq_refl).
              intros [h [pdu' [st' [s [Ht [_ [_ Hd]]]]]]]. injection Ht as <- _. cbn in Hd. contradiction.
        -- injection H as <- <- <-. apply (Hun TGapUnexpected eq_refl).
           intros [h [pdu' [st' [s [Ht [_ [Hs _]]]]]]]. injection Ht as <- _. cbn in Hs. contradiction.
    + injection H as <- <- <-. apply (Hun TGapUnexpected eq_refl).
      intros [h [pdu' [st' [s [Ht _]]]]]. discriminate Ht.
    + injection H as <- <- <-. apply (Hun TGapUnexpected eq_refl).
      intros [h [pdu' [st' [s [Ht _]]]]]. discriminate Ht.
  - destruct (check_slot_expired _ now) as [[f1 expired]| |] eqn:Ec; cbn [bind] in H; try discriminate H.
    apply check_slot_expired_same in Ec. destruct Ec as [Hp [Hr [Hc [Hg [Hs [_ [Hl [He Hn]]]]]]]]. cbn in Hp, Hr, Hc, Hg, Hs, Hl, He, Hn.
    destruct (Nat.ltb _ _), expired; injection H as <- <- <-; cbn; rewrite Hp, Hg, Hs, Hc, Hl, He, Hn, Eg.
    all: repeat (split; [reflexivity|]); exists rest, None; repeat (split; [reflexivity|]); right; right.
    all: split; [reflexivity|]; split; [exact Hr|]; auto.
Qed.

(* the GAP step of one token visit: exactly the `if do_gap` block of do_pass_token *)
Definition gap_visit_step (f : fdl) : res gap_state :=
  match f_gap f with
  | GapWaiting rc =>
      if p_gap_wait (f_p f) <? rc then next_gap_poll f (ts f)
      else let* rc' := u8_add rc 1 in Ok (GapWaiting rc')
  | GapDoPoll cur => next_gap_poll f cur
  end.

Lemma gap_visit_step_ext f1 f : f_p f1 = f_p f -> f_ring f1 = f_ring f -> f_gap f1 = f_gap f ->
  gap_visit_step f1 = gap_visit_step f.
Proof.
  intros Hp Hr Hg. unfold gap_visit_step. rewrite Hg, Hp. unfold ts. rewrite Hp.
  destruct (f_gap f); [destruct (_ <? _)|]; try reflexivity; apply next_gap_poll_ext; assumption.
Qed.

Lemma scan_spec f now (w : W) f' w' st0 :
  do_claim_token_scan A f now w = Ok (f', w') -> f_state f = ClaimToken st0 ->
  f_p f' = f_p f /\ f_ring f' = f_ring f /\ f_conn f' = f_conn f /\
  w_calls w' = w_calls w /\ w_apps w' = w_apps w /\ w_rx w' = w_rx w /\
  ( (w_tx w' = w_tx w /\ f_state f' = f_state f /\ f_gap f' = f_gap f)
  \/ (w_tx w' = w_tx w /\ (exists n, f_gap f = GapWaiting n) /\ f_gap f' = f_gap f /\ f_state f' = PassToken false AttFirst)
  \/ (w_tx w' = w_tx w /\ exists cur, f_gap f = GapDoPoll cur /\ next_gap_poll f cur = Ok (GapWaiting 0) /\
        f_gap f' = GapWaiting 0 /\ f_state f' = f_state f)
  \/ (exists cur a, f_gap f = GapDoPoll cur /\ next_gap_poll f cur = Ok (GapDoPoll a) /\ f_gap f' = GapDoPoll a /\
        f_state f' = ClaimToken (StepScanAwaitResponse a) /\ w_tx w = None /\ w_tx w' = Some (sr_wire a (ts f))) ).
Proof.
  unfold do_claim_token_scan. intros H Es.
  destruct (wait_synchronization_pause f now) as [[f1 wait]| |] eqn:Ew; cbn [bind] in H; try discriminate H.
  apply wait_sync_same in Ew. destruct Ew as [[Hp1 [Hr1 [Hc1 [Hg1 [Hs1 _]]]]] _].
  destruct wait.
  - injection H as <- <-. cbn. repeat (split; [assumption || reflexivity|]). left. repeat split; assumption || reflexivity.
  - rewrite Hg1 in H. destruct (f_gap f) as [rc|cur] eqn:Eg.
    + match type of H with bind ?x _ = _ => destruct x as [[f2 w2]| |] eqn:Et end; cbn [bind] in H; try discriminate H.
      injection H as <- <-. apply trans_spec in Et. destruct Et as [s' [Ht [-> ->]]].
      rewrite Hs1, Es in Ht. cbn in Ht. injection Ht as <-. cbn.
      repeat (split; [assumption || reflexivity|]). right. left.
      split; [reflexivity|]. split; [exists rc; reflexivity|]. split; [exact Hg1|reflexivity].
    + destruct (next_gap_poll_traced A f1 w cur) as [[f2 w2]| |] eqn:En; cbn [bind] in H; try discriminate H.
      unfold next_gap_poll_traced in En.
      destruct (next_gap_poll f1 cur) as [g| |] eqn:Eng; cbn [bind] in En; try discriminate En.
      injection En as <- <-.
      rewrite (next_gap_poll_ext f1 f cur Hp1 Hr1) in Eng.
      destruct (transmit_gap_poll_if_pending A (set_gap f1 g) now _) as [[[f3 w3] polled]| |] eqn:Et; cbn [bind] in H; try discriminate H.
      apply transmit_gap_poll_wire in Et. destruct Et as [[Hp3 [Hr3 [Hc3 [Hg3 [Hs3 _]]]]] Hpol].
      cbn [set_gap f_p f_ring f_conn f_gap f_state] in Hp3, Hr3, Hc3, Hg3, Hs3.
      destruct polled as [pa|].
      * unfold set_claim_step in H. rewrite Hs3, Hs1, Es in H.
        cbn [get_claim_token_step bind] in H. injection H as <- <-.
        destruct Hpol as [Hgp [Hne [Hnone ->]]]. cbn in Hgp. rewrite Hgp in Hg3, Eng. cbn.
        rewrite Hp3, Hr3, Hc3, Hg3. repeat (split; [assumption || reflexivity|]).
        right. right. right. exists cur, pa. split; [reflexivity|]. split; [exact Eng|].
        split; [reflexivity|]. split; [reflexivity|]. split; [exact Hnone|]. unfold ts. cbn. rewrite Hp1. reflexivity.
      * injection H as <- <-. destruct Hpol as [[n Hn] [-> ->]]. cbn in Hn. rewrite Hn in Eng. cbn. rewrite Hn.
        repeat (split; [assumption || reflexivity|]). right. right. left.
        split; [reflexivity|]. exists cur. split; [reflexivity|].
        pose proof (next_gap_poll_waiting _ _ _ Eng) as ->.
        split; [exact Eng|]. split; [reflexivity|exact Hs1].
Qed.

(* the step after a claim token: the second token after the first, the scan after the second *)
Definition claim_next (s : claim_step) : claim_step :=
  match s with StepFirstToken => StepSecondToken | _ => StepScan end.

Lemma do_claim_token_spec f now (w : W) f' w' :
  do_claim_token A f now w = Ok (f', w') ->
  exists st0, f_state f = ClaimToken st0 /\
  f_p f' = f_p f /\ f_conn f' = f_conn f /\ w_calls w' = w_calls w /\ w_apps w' = w_apps w /\
  match st0 with
  | StepFirstToken | StepSecondToken =>
      w_rx w' = w_rx w /\
      ( (w_tx w' = w_tx w /\ f_state f' = f_state f /\ f_gap f' = f_gap f /\ f_ring f' = f_ring f)
      \/ (w_tx w = None /\ w_tx w' = Some (encode_token (ts f) (ts f)) /\ f_state f' = ClaimToken (claim_next st0) /\
          f_gap f' = GapDoPoll (ts f) /\ f_ring f' = claim_token (f_ring f)) )
  | StepScan =>
      f_ring f' = f_ring f /\ w_rx w' = w_rx w /\
      ( (w_tx w' = w_tx w /\ f_state f' = f_state f /\ f_gap f' = f_gap f)
      \/ (w_tx w' = w_tx w /\ (exists n, f_gap f = GapWaiting n) /\ f_gap f' = f_gap f /\ f_state f' = PassToken false AttFirst)
      \/ (w_tx w' = w_tx w /\ exists cur, f_gap f = GapDoPoll cur /\ next_gap_poll f cur = Ok (GapWaiting 0) /\
            f_gap f' = GapWaiting 0 /\ f_state f' = f_state f)
      \/ (exists cur a, f_gap f = GapDoPoll cur /\ next_gap_poll f cur = Ok (GapDoPoll a) /\ f_gap f' = GapDoPoll a /\
            f_state f' = ClaimToken (StepScanAwaitResponse a) /\ w_tx w = None /\ w_tx w' = Some (sr_wire a (ts f))) )
  | StepScanAwaitResponse a0 =>
      a0 <> ts f /\ f_gap f = GapDoPoll a0 /\
      exists rest received, receive_telegram (fun t => t) (w_rx w) = Ok (rest, received) /\ w_rx w' = rest /\
      ( (* still waiting *)
        (received = None /\ w_tx w' = w_tx w /\ f_state f' = f_state f /\ f_gap f' = f_gap f /\ f_ring f' = f_ring f)
      \/ (* a reply from the polled station: evaluated, the scan goes on with the next poll *)
        (exists t, received = Some t /\ is_reply_from (ts f) a0 t /\ w_tx w' = w_tx w /\
           f_state f' = ClaimToken StepScan /\ f_gap f' = f_gap f /\
           ((is_master_ready_reply (ts f) a0 t /\ set_next_station (f_ring f) a0 = Ok (f_ring f')) \/
            (~ is_master_ready_reply (ts f) a0 t /\ f_ring f' = f_ring f)))
      \/ (* anything else: the token is given up *)
        (exists t, received = Some t /\ ~ is_reply_from (ts f) a0 t /\ w_tx w' = w_tx w /\
           f_state f' = ActiveIdle None None 0 /\ f_gap f' = f_gap f /\ f_ring f' = f_ring f)
      \/ (* slot time over: the next address is polled at once, or the sweep ends *)
        (received = None /\ f_ring f' = f_ring f /\
         ( (w_tx w' = w_tx w /\ f_state f' = ClaimToken StepScan /\ f_gap f' = f_gap f)
         \/ (w_tx w' = w_tx w /\ next_gap_poll f a0 = Ok (GapWaiting 0) /\ f_gap f' = GapWaiting 0 /\ f_state f' = ClaimToken StepScan)
         \/ (exists a, next_gap_poll f a0 = Ok (GapDoPoll a) /\ f_gap f' = GapDoPoll a /\
               f_state f' = ClaimToken (StepScanAwaitResponse a) /\ w_tx w = None /\ w_tx w' = Some (sr_wire a (ts f))) )) )
  end.
Proof.
  unfold do_claim_token, assert_entry. intros H.
  destruct (f_state f) as [ | | | | |step| | | | ] eqn:Es; cbn [kind_of do_fn_entry state_kind_eqb bind get_claim_token_step] in H; try discriminate H.
  exists step. split; [reflexivity|].
  assert (Htok : forall st1, step = st1 ->
    (let* (f0, wait) := wait_synchronization_pause f now in
     if wait then Ok (f0, note A w TSyncWait)
     else let* (w0, n) := phy_send A w (TxToken (ts f0) (ts f0)) in
          let f1 := set_ring f0 (claim_token (f_ring f0)) in
          let* f2 := set_claim_step f1 (claim_next st1) in
          let f3 := set_gap f2 (GapDoPoll (ts f2)) in
          let* f4 := mark_tx f3 now n in Ok (f4, note A w0 TClaimSendToken)) = Ok (f', w') ->
    f_p f' = f_p f /\ f_conn f' = f_conn f /\ w_calls w' = w_calls w /\ w_apps w' = w_apps w /\
    w_rx w' = w_rx w /\
      ( (w_tx w' = w_tx w /\ f_state f' = f_state f /\ f_gap f' = f_gap f /\ f_ring f' = f_ring f)
      \/ (w_tx w = None /\ w_tx w' = Some (encode_token (ts f) (ts f)) /\ f_state f' = ClaimToken (claim_next st1) /\
          f_gap f' = GapDoPoll (ts f) /\ f_ring f' = claim_token (f_ring f)) )).
  { intros st1 -> H1.
    destruct (wait_synchronization_pause f now) as [[f1 wait]| |] eqn:Ew; cbn [bind] in H1; try discriminate H1.
    apply wait_sync_same in Ew. destruct Ew as [[Hp1 [Hr1 [Hc1 [Hg1 [Hs1 _]]]]] _].
    destruct wait.
    - injection H1 as <- <-. cbn. repeat (split; [assumption || reflexivity|]). left. repeat split; assumption.
    - destruct (phy_send A w _) as [[w1 n]| |] eqn:Ep; cbn [bind] in H1; try discriminate H1.
      apply phy_send_token_spec in Ep. destruct Ep as [Hn [_ ->]].
      unfold set_claim_step in H1. cbn [set_ring f_state] in H1. rewrite Hs1, Es in H1. cbn [get_claim_token_step bind] in H1.
      destruct (mark_tx _ now n) as [f2| |] eqn:Em; cbn [bind] in H1; try discriminate H1.
      injection H1 as <- <-. apply mark_tx_same in Em. destruct Em as [Hp2 [Hr2 [Hc2 [Hg2 [Hs2 _]]]]].
      cbn in Hp2, Hr2, Hc2, Hg2, Hs2. cbn. rewrite Hp2, Hc2, Hs2, Hg2, Hr2.
      repeat (split; [assumption || reflexivity|]). right.
      unfold ts in *. cbn. rewrite Hp1, Hr1. repeat split; assumption || reflexivity. }
  destruct step as [ | | |a0].
  - rewrite <- Es. exact (Htok StepFirstToken eq_refl H).
  - rewrite <- Es. exact (Htok StepSecondToken eq_refl H).
  - rewrite <- Es. destruct (scan_spec f now w f' w' StepScan H Es) as [Hp [Hr [Hc [Hca [Hap [Hrx Hcases]]]]]].
    repeat (split; [assumption|]). exact Hcases.
  - destruct (await_gap_poll_response A f now w a0) as [[[f1 w1] r]| |] eqn:Ea; cbn [bind] in H; try discriminate H.
    apply await_gap_spec in Ea. rewrite <- Es.
    destruct Ea as [Hne [Hg0 [Hp1 [Hg1 [Hs1 [Hc1 [_ [_ [_ [Htx1 [Hca1 [Hap1 [rest [received [Hrcv [Hrx1 Hcase]]]]]]]]]]]]]]]].
    destruct Hcase as [[-> [t [-> [Hfrom Hm]]]]|[[-> [t [-> [Hnf Hr1]]]]|[-> [Hr1 [-> | ->]]]]].
    + unfold set_claim_step in H. rewrite Hs1, Es in H. cbn [get_claim_token_step bind] in H. injection H as <- <-. cbn.
      repeat (split; [assumption|]). exists rest, (Some t). split; [exact Hrcv|]. split; [exact Hrx1|].
      right. left. exists t. repeat (split; [assumption || reflexivity|]). exact Hm.
    + apply trans_spec in H. destruct H as [s' [Ht [-> ->]]]. rewrite Hs1, Es in Ht. cbn in Ht. injection Ht as <-. cbn.
      repeat (split; [assumption|]). exists rest, (Some t). split; [exact Hrcv|]. split; [exact Hrx1|].
      right. right. left. exists t. repeat (split; [assumption || reflexivity|]). exact Hr1.
    + unfold set_claim_step in H. rewrite Hs1, Es in H. cbn [get_claim_token_step bind] in H.
      destruct (scan_spec (set_st f1 (ClaimToken StepScan)) now w1 f' w' StepScan H eq_refl) as [Hp [Hr [Hc [Hca [Hap [Hrx Hcases]]]]]].
      cbn [set_st f_p f_ring f_conn f_gap f_state] in *.
      assert (Hngp : forall c, next_gap_poll (set_st f1 (ClaimToken StepScan)) c = next_gap_poll f c)
        by (intros c; apply next_gap_poll_ext; cbn; assumption).
      assert (Hts : ts (set_st f1 (ClaimToken StepScan)) = ts f) by exact (ts_ext f1 f Hp1).
      rewrite Hp, Hc, Hca, Hap, Hp1, Hc1, Hca1, Hap1. repeat (split; [assumption || reflexivity|]).
      exists rest, None. split; [exact Hrcv|]. split; [rewrite Hrx; exact Hrx1|].
      right. right. right. split; [reflexivity|]. split; [rewrite Hr; exact Hr1|].
      destruct Hcases as [[T [S G]]|[[T [[n G0] _]]|[[T [cur [G0 [N [G S]]]]]|[cur [a [G0 [N [G [S [T0 T]]]]]]]]]].
      * left. rewrite T, S, G. repeat split; assumption || reflexivity.
      * rewrite Hg1, Hg0 in G0. discriminate G0.
      * right. left. rewrite Hg1, Hg0 in G0. injection G0 as <-. rewrite Hngp in N. rewrite T, S. repeat split; assumption || reflexivity.
      * right. right. rewrite Hg1, Hg0 in G0. injection G0 as <-. rewrite Hngp in N. rewrite Hts in T. exists a.
        rewrite <- Htx1. repeat split; assumption.
    + injection H as <- <-.
      repeat (split; [assumption|]). exists rest, None. split; [exact Hrcv|]. split; [exact Hrx1|].
      left. repeat split; assumption || reflexivity.
Qed.

Definition token_passed (f f' : fdl) (now : Z) (att : attempt) : Prop :=
  witness (f_ring f) (ts f) (r_ns (f_ring f)) = Ok (f_ring f') /\
  ((r_ns (f_ring f') = ts f /\ f_state f' = UseToken now None false) \/
   (r_ns (f_ring f') <> ts f /\ f_state f' = CheckTokenPass att)).

Lemma do_pass_token_spec f now (w : W) f' w' :
  do_pass_token A f now w = Ok (f', w') ->
  exists dg att, f_state f = PassToken dg att /\
  f_p f' = f_p f /\ f_conn f' = f_conn f /\ w_calls w' = w_calls w /\ w_apps w' = w_apps w /\ w_rx w' = w_rx w /\
  ( (* synchronisation pause not over *)
    (w_tx w' = w_tx w /\ f_state f' = f_state f /\ f_gap f' = f_gap f /\ f_ring f' = f_ring f)
  \/ (* GAP request *)
    (dg = true /\ exists a, gap_visit_step f = Ok (GapDoPoll a) /\ f_gap f' = GapDoPoll a /\
       f_state f' = AwaitStatusResponse a /\ f_ring f' = f_ring f /\ w_tx w = None /\ w_tx w' = Some (sr_wire a (ts f)))
  \/ (* the token goes to NS *)
    ((if dg then exists n, gap_visit_step f = Ok (GapWaiting n) /\ f_gap f' = GapWaiting n else f_gap f' = f_gap f) /\
     w_tx w = None /\ w_tx w' = Some (encode_token (r_ns (f_ring f)) (ts f)) /\ token_passed f f' now att) ).
Proof.
  unfold do_pass_token, assert_entry. intros H.
  destruct (f_state f) as [ | | | | | | |dg att| | ] eqn:Es; cbn [kind_of do_fn_entry state_kind_eqb bind] in H; try discriminate H.
  exists dg, att. split; [reflexivity|]. rewrite <- Es.
  destruct (wait_synchronization_pause f now) as [[f1 wait]| |] eqn:Ew; cbn [bind] in H; try discriminate H.
  apply wait_sync_same in Ew. destruct Ew as [[Hp1 [Hr1 [Hc1 [Hg1 [Hs1 _]]]]] _].
  destruct wait.
  - injection H as <- <-. cbn. repeat (split; [assumption || reflexivity|]). left. repeat split; assumption.
  - rewrite Hs1, Es in H. cbn [get_pass_token bind] in H.
    match type of H with bind ?x _ = _ => destruct x as [[[f2 w2] polled]| |] eqn:E2 end; cbn [bind] in H; try discriminate H.
    (* the GAP step of the visit, if it is due, and its request *)
    assert (H2 : (f_p f2 = f_p f /\ f_ring f2 = f_ring f /\ f_conn f2 = f_conn f /\ f_state f2 = f_state f) /\
                 (w_calls w2 = w_calls w /\ w_apps w2 = w_apps w /\ w_rx w2 = w_rx w) /\
                 (if dg then gap_visit_step f = Ok (f_gap f2) else f_gap f2 = f_gap f /\ polled = None) /\
                 match polled with
                 | Some a => f_gap f2 = GapDoPoll a /\ w_tx w = None /\ w_tx w2 = Some (sr_wire a (ts f))
                 | None => w_tx w2 = w_tx w /\ (dg = true -> exists n, f_gap f2 = GapWaiting n)
                 end).
    { destruct dg; [|injection E2 as <- <- <-; repeat split; try assumption; intros C; discriminate C].
      match type of E2 with bind ?r _ = _ => destruct r as [[f3 w3]| |] eqn:Eg end; cbn [bind] in E2; try discriminate E2.
      assert (H3 : gap_visit_step f = Ok (f_gap f3) /\ (f_p f3 = f_p f /\ f_ring f3 = f_ring f /\ f_conn f3 = f_conn f /\ f_state f3 = f_state f) /\
                   w_tx w3 = w_tx w /\ w_calls w3 = w_calls w /\ w_apps w3 = w_apps w /\ w_rx w3 = w_rx w).
      { rewrite <- (gap_visit_step_ext f1 f Hp1 Hr1 Hg1). unfold gap_visit_step.
        destruct (f_gap f1) as [rc|cur]; [destruct (p_gap_wait (f_p f1) <? rc)|];
          [unfold next_gap_poll_traced in Eg; destruct (next_gap_poll f1 _) as [g| |]
          |destruct (u8_add rc 1) as [rc'| |]
          |unfold next_gap_poll_traced in Eg; destruct (next_gap_poll f1 _) as [g| |]];
          cbn [bind] in Eg; try discriminate Eg; injection Eg as <- <-; cbn; repeat split; assumption. }
      destruct H3 as [Hstep [[Hp3 [Hr3 [Hc3 Hs3]]] [Ht3 [Hca3 [Hap3 Hrx3]]]]].
      apply transmit_gap_poll_wire in E2. destruct E2 as [[Hp2 [Hr2 [Hc2 [Hg2 [Hs2 _]]]]] Hpol]. rewrite Hg2.
      split; [repeat split; congruence|]. destruct polled as [pa|].
      - destruct Hpol as [Hgp [Hne [Hnone ->]]]. cbn. rewrite (ts_ext f3 f Hp3).
        repeat split; try assumption; congruence.
      - destruct Hpol as [[n Hn] [-> ->]]. repeat split; try assumption. intros _. exists n. exact Hn. }
    destruct H2 as [[Hp2 [Hr2 [Hc2 Hs2]]] [[Hca2 [Hap2 Hrx2]] [Hstep Hpol]]].
    destruct polled as [pa|].
    + destruct dg; [|destruct Hstep as [_ C]; discriminate C]. destruct Hpol as [Hgp [Hnone Htx]].
      apply trans_spec in H. destruct H as [s' [Htr [-> ->]]]. rewrite Hs2, Es in Htr. cbn in Htr. injection Htr as <-. cbn.
      repeat (split; [assumption|]). right. left. split; [reflexivity|]. exists pa. rewrite Hgp in Hstep. repeat split; assumption.
    + destruct Hpol as [Ht2 Hw].
      rewrite (ts_ext f2 f Hp2), Hr2 in H.
      destruct (phy_send A w2 _) as [[w3 n]| |] eqn:Ep; cbn [bind] in H; try discriminate H.
      apply phy_send_token_spec in Ep. destruct Ep as [Hn [_ ->]].
      destruct (witness (f_ring f) (ts f) (r_ns (f_ring f))) as [r| |] eqn:Ewi; cbn [bind] in H; try discriminate H.
      cbn [set_ring f_ring f_state] in H. rewrite (ts_ext (set_ring f2 r) f Hp2) in H.
      match type of H with bind ?x _ = _ => destruct x as [[f3 w3]| |] eqn:Et end; cbn [bind] in H; try discriminate H.
      destruct (mark_tx f3 now n) as [f4| |] eqn:Em; cbn [bind] in H; try discriminate H.
      injection H as <- <-. apply mark_tx_same in Em. destruct Em as [Hp4 [Hr4 [Hc4 [Hg4 [Hs4 _]]]]].
      assert (H3 : (f_p f3 = f_p f2 /\ f_conn f3 = f_conn f2 /\ f_gap f3 = f_gap f2 /\ f_ring f3 = r) /\
                   w_calls w3 = w_calls w2 /\ w_apps w3 = w_apps w2 /\ w_rx w3 = w_rx w2 /\
                   w_tx w3 = Some (encode_token (r_ns (f_ring f)) (ts f)) /\
                   ((r_ns r = ts f /\ f_state f3 = UseToken now None false) \/ (r_ns r <> ts f /\ f_state f3 = CheckTokenPass att))).
      { destruct (Z.eqb_spec (r_ns r) (ts f)) as [Ens|Ens]; [|rewrite Hs2, Es in Et; cbn [get_pass_token bind] in Et];
          apply trans_spec in Et; destruct Et as [s' [Htr [-> ->]]]; cbn in Htr; rewrite Hs2, Es in Htr; cbn in Htr; injection Htr as <-;
          cbn; repeat split; auto. }
      destruct H3 as [[Hp3 [Hc3 [Hg3 Hr3]]] [Hca3 [Hap3 [Hrx3 [Htx3 Hst3]]]]].
      split; [congruence|]. split; [congruence|]. split; [congruence|]. split; [congruence|]. split; [congruence|].
      right. right. split.
      * destruct dg; [destruct (Hw eq_refl) as [m Hm]; exists m; split; congruence|destruct Hstep; congruence].
      * split; [rewrite <- Ht2; exact Hn|]. split; [exact Htx3|]. unfold token_passed. rewrite Hr4, Hs4, Hr3. split; [exact Ewi|exact Hst3].
Qed.

Lemma do_await_status_response_spec f now (w : W) f' w' :
  do_await_status_response A f now w = Ok (f', w') ->
  exists a0, f_state f = AwaitStatusResponse a0 /\ a0 <> ts f /\ f_gap f = GapDoPoll a0 /\
  f_p f' = f_p f /\ f_conn f' = f_conn f /\ w_calls w' = w_calls w /\ w_apps w' = w_apps w /\ f_gap f' = f_gap f /\
  exists rest received, receive_telegram (fun t => t) (w_rx w) = Ok (rest, received) /\ w_rx w' = rest /\
  ( (* still waiting *)
    (received = None /\ w_tx w' = w_tx w /\ f_state f' = f_state f /\ f_ring f' = f_ring f)
  \/ (* a reply from the polled station *)
    (exists t, received = Some t /\ is_reply_from (ts f) a0 t /\ w_tx w' = w_tx w /\
       f_state f' = PassToken false AttFirst /\
       ((is_master_ready_reply (ts f) a0 t /\ set_next_station (f_ring f) a0 = Ok (f_ring f')) \/
        (~ is_master_ready_reply (ts f) a0 t /\ f_ring f' = f_ring f)))
  \/ (* anything else: the token is given up *)
    (exists t, received = Some t /\ ~ is_reply_from (ts f) a0 t /\ w_tx w' = w_tx w /\
       f_state f' = ActiveIdle None None 0 /\ f_ring f' = f_ring f)
  \/ (* slot time over: straight on to passing the token (or waiting for the pause) *)
    (received = None /\
     ( (w_tx w' = w_tx w /\ f_state f' = PassToken false AttFirst /\ f_ring f' = f_ring f)
     \/ (w_tx w = None /\ w_tx w' = Some (encode_token (r_ns (f_ring f)) (ts f)) /\
         witness (f_ring f) (ts f) (r_ns (f_ring f)) = Ok (f_ring f') /\
         ((r_ns (f_ring f') = ts f /\ f_state f' = UseToken now None false) \/
          (r_ns (f_ring f') <> ts f /\ f_state f' = CheckTokenPass AttFirst))) )) ).
Proof.
  unfold do_await_status_response, assert_entry. intros H.
  destruct (f_state f) as [ | | | | | | | | |a0] eqn:Es; cbn [kind_of do_fn_entry state_kind_eqb bind get_await_status_response_address] in H; try discriminate H.
  exists a0. split; [reflexivity|]. rewrite <- Es.
  destruct (await_gap_poll_response A f now w a0) as [[[f1 w1] r]| |] eqn:Ea; cbn [bind] in H; try discriminate H.
  apply await_gap_spec in Ea.
  destruct Ea as [Hne [Hg0 [Hp1 [Hg1 [Hs1 [Hc1 [_ [_ [_ [Htx1 [Hca1 [Hap1 [rest [received [Hrcv [Hrx1 Hcase]]]]]]]]]]]]]]]].
  split; [exact Hne|]. split; [exact Hg0|].
  destruct Hcase as [[-> [t [-> [Hfrom Hm]]]]|[[-> [t [-> [Hnf Hr1]]]]|[-> [Hr1 [-> | ->]]]]].
  - apply trans_spec in H. destruct H as [s' [Ht [-> ->]]]. rewrite Hs1, Es in Ht. cbn in Ht. injection Ht as <-. cbn.
    repeat (split; [assumption|]). exists rest, (Some t). split; [exact Hrcv|]. split; [exact Hrx1|].
    right. left. exists t. repeat (split; [assumption || reflexivity|]). exact Hm.
  - apply trans_spec in H. destruct H as [s' [Ht [-> ->]]]. rewrite Hs1, Es in Ht. cbn in Ht. injection Ht as <-. cbn.
    repeat (split; [assumption|]). exists rest, (Some t). split; [exact Hrcv|]. split; [exact Hrx1|].
    right. right. left. exists t. repeat (split; [assumption || reflexivity|]). exact Hr1.
  - match type of H with bind ?x _ = _ => destruct x as [[f2 w2]| |] eqn:Et end; cbn [bind] in H; try discriminate H.
    apply trans_spec in Et. destruct Et as [s' [Ht [-> ->]]]. rewrite Hs1, Es in Ht. cbn in Ht. injection Ht as <-.
    apply do_pass_token_spec in H. destruct H as [dg [att [Hst [Hp [Hc [Hca [Hap [Hrx Hcases]]]]]]]].
    cbn [set_st f_state f_p f_conn f_gap f_ring note w_calls w_apps w_rx w_tx] in *. injection Hst as <- <-.
    assert (Hts : ts (set_st f1 (PassToken false AttFirst)) = ts f) by exact (ts_ext f1 f Hp1).
    rewrite Hp, Hc, Hca, Hap, Hp1, Hc1, Hca1, Hap1.
    assert (Hgf : f_gap f' = f_gap f).
    { destruct Hcases as [[_ [_ [G _]]]|[[D _]|[G _]]]; [rewrite G; exact Hg1|discriminate D|rewrite G; exact Hg1]. }
    repeat (split; [assumption || reflexivity|]).
    exists rest, None. split; [exact Hrcv|]. split; [rewrite Hrx; exact Hrx1|].
    right. right. right. split; [reflexivity|].
    destruct Hcases as [[T [S [_ R]]]|[[D _]|[_ [T0 [T [Wi St]]]]]].
    + left. rewrite T, S, R. repeat split; assumption || reflexivity.
    + discriminate D.
    + right. cbn [set_st f_ring] in Wi. rewrite Hts, Hr1 in *. rewrite <- Htx1. repeat split; assumption.
  - injection H as <- <-. repeat (split; [assumption|]).
    exists rest, None. split; [exact Hrcv|]. split; [exact Hrx1|]. left. repeat split; assumption || reflexivity.
Qed.

(* the pending status request of a listening / idle station *)
Definition marker (s : state) : option Z :=
  match s with ListenToken sr _ => sr | ActiveIdle sr _ _ => sr | _ => None end.

Definition is_status_request_to (tsa src : Z) (t : telegram) : Prop :=
  exists h pdu, t = TData h pdu /\ is_fdl_status_request h = true /\ h_da h = tsa /\ h_sa h = src.

(* the buffer ends with a status request src -> tsa (everything before it is consumed first) *)
Definition last_request (buf : bytes) (tsa src : Z) : Prop :=
  exists pre suf t, buf = pre ++ suf /\ decode suf = Ok (Accept t (length suf)) /\ is_status_request_to tsa src t.

Definition rx_kind (s : state) : Prop :=
  kind_of s = KListenToken \/ kind_of s = KOffline \/ kind_of s = KActiveIdle \/ kind_of s = KUseToken.

(* what one call of a receive callback may do; fw projects the callback's state onto station and world *)
Definition cb_facts {St : Type} (now : Z) (fw : St -> fdl * W) (cb : St -> telegram -> bool -> res (St * unit)) : Prop :=
  forall s t il s' u, cb s t il = Ok (s', u) ->
  let f := fst (fw s) in let w := snd (fw s) in let f' := fst (fw s') in let w' := snd (fw s') in
  (f_state f' = f_state f \/ rx_kind (f_state f')) /\
  (f_lba f' = f_lba (mark_rx f now) \/ (f_lba f' = None /\ f_state f' = Offline)) /\
  f_p f' = f_p f /\ w_tx w' = w_tx w /\ w_calls w' = w_calls w /\ w_apps w' = w_apps w /\
  ((f_gap f' = f_gap f /\ f_conn f' = f_conn f) \/ (f_state f' = Offline /\ f_conn f' = ConnOffline)) /\
  (f_conn f = ConnOffline -> f_state f = Offline -> f_state f' = f_state f /\ f_gap f' = f_gap f) /\
  (forall src, marker (f_state f') = Some src ->
     marker (f_state f) = Some src \/ (il = true /\ is_status_request_to (ts f) src t)).

Lemma mark_rx_ts f now : ts (mark_rx f now) = ts f.
Proof. unfold ts. destruct (mark_rx_frame f now) as [-> _]. reflexivity. Qed.

Lemma status_request_to h pdu tsa il :
  is_fdl_status_request h && (h_da h =? tsa) && il = true -> il = true /\ is_status_request_to tsa (h_sa h) (TData h pdu).
Proof.
  intros E. apply andb_true_iff in E. destruct E as [E ->]. apply andb_true_iff in E. destruct E as [E1 E2%Z.eqb_eq].
  split; [reflexivity|]. exists h, pdu. auto.
Qed.

(* At a leaf of a callback the result is an explicit record: every clause but the one about a new marker
   holds by computation. *)
Ltac cb_leaf H := injection H as <- <-; cbn; repeat split; auto 6; try discriminate.

Lemma handle_telegram_step now f (w : W) t il f' w' :
  handle_telegram A now f w t il = Ok (f', w') ->
  f_state f <> Offline /\ (f_state f' = f_state f \/ rx_kind (f_state f')) /\ f_lba f' = f_lba f /\
  f_p f' = f_p f /\ w_tx w' = w_tx w /\ w_calls w' = w_calls w /\ w_apps w' = w_apps w /\
  f_gap f' = f_gap f /\ f_conn f' = f_conn f /\
  (forall src, marker (f_state f') = Some src ->
     marker (f_state f) = Some src \/ (il = true /\ is_status_request_to (ts f) src t)).
Proof.
  unfold handle_telegram, trans, rx_kind. intros H.
  destruct (f_state f) as [ | |sr0 cc0|sr nps cc| | | | | | ] eqn:Es; cbn in H; try discriminate H.
  - cb_leaf H. rewrite Es. auto.
  - destruct t as [h pdu|da sa|].
    + destruct (_ && il) eqn:Ec in H; cb_leaf H; [|rewrite Es; auto].
      intros src Hm. injection Hm as <-. right. exact (status_request_to h pdu _ il Ec).
    + (* a token: seven leaves, none of which sets a marker *)
      repeat ok_step H; try (destruct nps as [address|]; repeat ok_step H); cb_leaf H; rewrite ?Es; auto.
    + cb_leaf H. rewrite Es. auto.
Qed.

Lemma active_idle_cb_facts now : cb_facts now (fun s : fdl * W => s) (active_idle_telegram A now).
Proof.
  intros [f w] t il [f' w'] u H. cbn [fst snd]. unfold active_idle_telegram in H.
  destruct (handle_telegram A now (mark_rx f now) w t il) as [[f1 w1]| |] eqn:Eh; cbn [bind] in H; try discriminate H.
  injection H as <- <- _. apply handle_telegram_step in Eh.
  destruct (mark_rx_frame f now) as [Mp [_ [Mg [Ms [Mc _]]]]]. rewrite mark_rx_ts, Mp, Mg, Mc, Ms in Eh.
  destruct Eh as [Hno [Hk [Hl [Hp [Ht [Hca [Hap [Hg [Hc Hm]]]]]]]]]. repeat (split; [tauto|]). exact Hm.
Qed.

Lemma check_cb_facts now : cb_facts now (fun s : fdl * W * bool => fst s) (check_token_pass_telegram A now).
Proof.
  intros [[f w] fi] t il [[f' w'] fi'] u H. cbn [fst snd]. unfold check_token_pass_telegram in H.
  match type of H with bind ?x _ = _ => destruct x as [[f1 w1]| |] eqn:E1 end; cbn [bind] in H; try discriminate H.
  destruct (handle_telegram A now f1 w1 t il) as [[f2 w2]| |] eqn:Eh; cbn [bind] in H; try discriminate H.
  injection H as <- <- _ _. apply handle_telegram_step in Eh.
  destruct (mark_rx_frame f now) as [Mp [_ [Mg [Ms [Mc _]]]]].
  destruct fi.
  - (* the first telegram takes the station to ActiveIdle before it is handled *)
    apply trans_spec in E1. destruct E1 as [s' [Htr [-> ->]]]. rewrite Ms in Htr.
    unfold transition_active_idle in Htr. destruct (assert_kind _ _) eqn:Ea; cbn [bind] in Htr; try discriminate Htr. injection Htr as <-.
    cbn in Eh. rewrite Mp, Mg, Mc in Eh. change (ts (set_st (mark_rx f now) _)) with (ts (mark_rx f now)) in Eh. rewrite mark_rx_ts in Eh.
    destruct Eh as [_ [Hk [Hl [Hp [Ht [Hca [Hap [Hg [Hc Hm]]]]]]]]].
    split; [right; destruct Hk as [->|Hk]; [unfold rx_kind; cbn; tauto|exact Hk]|].
    repeat (split; [tauto|]). split.
    + intros _ Hoff. rewrite Hoff in Ea. discriminate Ea.
    + intros src Hs. destruct (Hm src Hs) as [X|X]; [discriminate X|right; exact X].
  - injection E1 as <- <-. rewrite mark_rx_ts, Mp, Mg, Mc, Ms in Eh.
    destruct Eh as [Hno [Hk [Hl [Hp [Ht [Hca [Hap [Hg [Hc Hm]]]]]]]]]. repeat (split; [tauto|]). exact Hm.
Qed.

Lemma get_listen_token_ok s sr cc : get_listen_token s = Ok (sr, cc) -> s = ListenToken sr cc.
Proof. destruct s; cbn; intros H; try discriminate H. injection H as <- <-. reflexivity. Qed.

Lemma set_offline_spec f f' : set_offline f = Ok f' ->
  f_p f' = f_p f /\ f_conn f' = ConnOffline /\ f_state f' = Offline /\ f_lba f' = None.
Proof.
  unfold set_offline, set_state, fdl_new. intros H. repeat ok_step H. injection H as <-. repeat split; reflexivity.
Qed.

Lemma listen_cb_facts now : cb_facts now (fun s : fdl * W => s) (listen_token_telegram A now).
Proof.
  intros [f w] t il [f' w'] u. cbn [fst snd]. unfold listen_token_telegram, rx_kind.
  destruct (mark_rx_frame f now) as [Mp [Mr [Mg [Ms [Mc _]]]]]. rewrite mark_rx_ts, Mc, Ms.
  intros H. apply conn_match_inv in H as [(Ec & H)|(Ec & H)].
  - injection H as <- <- _. rewrite Mp, Mg, Mc, Ms. repeat split; auto 6.
  - destruct (opt_eqb _ _).
    + (* address collision *)
      destruct (get_listen_token _) as [[sr cc]| |] eqn:Es; cbn [bind] in H; try discriminate H.
      apply get_listen_token_ok in Es.
      destruct (u8_add cc 1) as [cc'| |]; cbn [bind] in H; try discriminate H.
      destruct (cc' =? listen_collision_tolerated).
      * cb_leaf H; try contradiction. rewrite Es. auto.
      * destruct (set_offline _) as [f1| |] eqn:Eo; cbn [bind] in H; try discriminate H.
        apply set_offline_spec in Eo. destruct Eo as [Op [Oc [Os Ol]]]. cbn in Op.
        injection H as <- <- _. rewrite Op, Oc, Os, Ol, Mp. repeat split; auto 6; try contradiction. discriminate.
    + destruct t as [h pdu|da sa|].
      * destruct (_ && _) eqn:Eq; [destruct il|].
        -- destruct (get_listen_token _) as [[sr cc]| |] eqn:Es; cbn [bind] in H; try discriminate H.
           cb_leaf H; try contradiction. intros src Hm. injection Hm as <-. right.
           apply (status_request_to h pdu (ts f) true). rewrite Eq. reflexivity.
        -- cb_leaf H; try contradiction; rewrite Ms; auto.
        -- cb_leaf H; try contradiction; rewrite Ms; auto.
      * rewrite Mr in H. ok_step H. cb_leaf H; try contradiction; rewrite Ms; auto.
      * cb_leaf H; try contradiction; rewrite Ms; auto.
Qed.

(* the status reply and the state change that goes with it, exactly as coded: a listening station
   reports "ready" (MasterWithoutToken) iff its LAS is valid and the requester is its PS, "not
   ready" otherwise, and enters the ring (ActiveIdle) iff its LAS is valid; an idle station in the
   ring reports "in ring" *)
Definition reply_sent (f f' : fdl) (src : Z) (st : resp_state) : Prop :=
  (exists cc, f_state f = ListenToken (Some src) cc /\
     st = (if ready_for_ring (f_ring f) && (src =? r_ps (f_ring f)) then listen_reply_ready else listen_reply_not_ready) /\
     f_state f' = (if ready_for_ring (f_ring f) then ActiveIdle None None 0 else ListenToken None cc))
  \/ (exists nps cc, f_state f = ActiveIdle (Some src) nps cc /\ st = active_idle_reply /\
        f_state f' = ActiveIdle None nps cc).

Definition gap_cursor_ok (f : fdl) : Prop :=
  0 <= ts f < p_hsa (f_p f) /\ forall c, f_gap f = GapDoPoll c -> 0 <= c < p_hsa (f_p f).

(* the token-use states.  A poll that begins in one of them and finds nothing (more) to send goes on to
   do_pass_token in the same poll: the GAP request or the token goes out at once. *)
Definition in_use (s : state) : Prop := kind_of s = KUseToken \/ kind_of s = KAwaitDataResponse.

(* the states from which the GAP step of a token visit is taken *)
Definition gap_origin (s : state) : Prop := (exists att, s = PassToken true att) \/ in_use s.

(* no application has sent anything: no callback of the poll (beyond `calls`) is a transmit_telegram that
   returned a telegram - and there are none at all unless the poll began in a token-use state *)
Definition no_send (c : call) : Prop := match c with CallTransmit _ _ (Some _) => False | _ => True end.
Definition quiet_calls (f : fdl) (calls calls' : list call) : Prop :=
  exists l, calls' = calls ++ l /\ Forall no_send l /\ (l <> [] -> in_use (f_state f)).

Lemma quiet_calls_same f calls calls' : calls' = calls -> quiet_calls f calls calls'.
Proof. intros ->. exists []. rewrite app_nil_r. split; [reflexivity|]. split; [constructor|]. intros C; contradiction C; reflexivity. Qed.

Lemma quiet_calls_idle f calls calls' : ~ in_use (f_state f) -> quiet_calls f calls calls' -> calls' = calls.
Proof.
  intros Hn [l [-> [_ Hu]]]. destruct l as [|c l]; [apply app_nil_r|]. exfalso. apply Hn, Hu. discriminate.
Qed.

Definition tx_app (f f' : fdl) (calls' : list call) (wire : bytes) : Prop :=
  exists cs i hp er, calls' = cs ++ [CallTransmit i hp (Some (wire, er))] /\
    (kind_of (f_state f) = KUseToken \/ kind_of (f_state f) = KAwaitDataResponse) /\
    (kind_of (f_state f') = KUseToken \/ kind_of (f_state f') = KAwaitDataResponse).

(* listening / idle, or about to start listening (first poll after set_online) *)
Definition idle_kind (f : fdl) : Prop :=
  kind_of (f_state f) = KListenToken \/ kind_of (f_state f) = KActiveIdle \/
  online_entry_kind (kind_of (f_state f)) = true.

Definition tx_token (f f' : fdl) (now : Z) (wire : bytes) : Prop :=
  exists da, wire = encode_token da (ts f) /\
    ((da = ts f /\
      ((f_state f' = ClaimToken StepSecondToken /\ (idle_kind f \/ f_state f = ClaimToken StepFirstToken)) \/
       (f_state f' = ClaimToken StepScan /\ f_state f = ClaimToken StepSecondToken))) \/
     ((f_state f' = UseToken now None false \/ exists att, f_state f' = CheckTokenPass att) /\
      (kind_of (f_state f) = KPassToken \/ kind_of (f_state f) = KAwaitStatusResponse \/
       kind_of (f_state f) = KCheckTokenPass \/ in_use (f_state f)))).

Definition tx_gap (f f' : fdl) (wire : bytes) : Prop :=
  exists a, wire = sr_wire a (ts f) /\ in_gap (ts f) (r_ns (f_ring f)) a /\
    (gap_cursor_ok f -> 0 <= a < p_hsa (f_p f)) /\
    f_ring f' = f_ring f /\ f_gap f' = GapDoPoll a /\
    ((f_state f' = AwaitStatusResponse a /\ gap_origin (f_state f)) \/
     (f_state f' = ClaimToken (StepScanAwaitResponse a) /\
      (f_state f = ClaimToken StepScan \/ exists a0, f_state f = ClaimToken (StepScanAwaitResponse a0)))).

Definition tx_reply (f f' : fdl) (wire : bytes) : Prop :=
  exists src st, wire = reply_wire src (ts f) st /\ reply_sent f f' src st.

Definition tx_class (f f' : fdl) (now : Z) (calls calls' : list call) (wire : bytes) : Prop :=
  tx_app f f' calls' wire \/
  (quiet_calls f calls calls' /\ (tx_token f f' now wire \/ tx_gap f f' wire \/ tx_reply f f' wire)).

Definition gap_change (f f' : fdl) : Prop :=
  (gap_origin (f_state f) /\ gap_visit_step f = Ok (f_gap f')) \/
  kind_of (f_state f) = KClaimToken \/
  (f_state f' = ClaimToken StepSecondToken /\ f_gap f' = GapDoPoll (ts f)) \/
  (f_state f' = Offline /\ f_conn f' = ConnOffline).

(* The GAP sweep as seen poll by poll (used by Proofs/C12OracleSound.v).
   pend s = 1: the next token transmission of a visit out of s is preceded by a GAP step of the visit;
   pend s = 0: the GAP step of this visit is done (AwaitStatusResponse, PassToken{do_gap: No}) or the
   station scans the GAP after a claim. *)
Definition pend (s : state) : Z :=
  match s with
  | AwaitStatusResponse _ | PassToken false _ | ClaimToken StepScan | ClaimToken (StepScanAwaitResponse _) => 0
  | _ => 1
  end.

(* the states of a token visit out of which the token of the visit is transmitted *)
Definition visit_state (s : state) : Prop :=
  kind_of s = KPassToken \/ kind_of s = KAwaitStatusResponse \/ in_use s.

(* the call log grew by callbacks in which no application handed over a telegram *)
Definition nosend_ext (calls calls' : list call) : Prop := exists l, calls' = calls ++ l /\ Forall no_send l.

(* a slot time shorter than the synchronisation pause: excluded by the parameter builder *)
Definition short_slot (f : fdl) : Prop := slot_time (f_p f) < p_bits_to_time (f_p f) sync_pause_bits.

(* steps after which nothing is claimed about the sweep: the station is (or was) offline or passive, goes back
   to listening, transmits its claim token, or has a slot time below the synchronisation pause *)
Definition sw_reset (f f' : fdl) (txb : option bytes) : Prop :=
  kind_of (f_state f) = KOffline \/ kind_of (f_state f) = KPassiveIdle \/
  kind_of (f_state f') = KOffline \/ kind_of (f_state f') = KListenToken \/
  (txb = Some (encode_token (ts f) (ts f)) /\
   (kind_of (f_state f) = KListenToken \/ kind_of (f_state f) = KActiveIdle \/ kind_of (f_state f) = KClaimToken) /\
   f_gap f' = GapDoPoll (ts f) /\ kind_of (f_state f') = KClaimToken) \/
  short_slot f.

(* the transmission of a step that is neither a GAP request nor the token of a visit *)
Definition sw_qtx (f : fdl) (calls' : list call) (txb : option bytes) : Prop :=
  txb = None \/
  (exists wire cs i hp er, txb = Some wire /\ calls' = cs ++ [CallTransmit i hp (Some (wire, er))]) \/
  (exists src st, txb = Some (reply_wire src (ts f) st) /\
     (kind_of (f_state f) = KListenToken \/ kind_of (f_state f) = KActiveIdle)) \/
  (exists da, txb = Some (encode_token da (ts f)) /\ kind_of (f_state f) = KCheckTokenPass).

Definition sw_rel (f f' : fdl) (calls calls' : list call) (txb : option bytes) : Prop :=
  sw_reset f f' txb \/
  (exists a, txb = Some (sr_wire a (ts f)) /\ nosend_ext calls calls' /\
     gap_visit_step f = Ok (GapDoPoll a) /\ f_gap f' = GapDoPoll a /\ pend (f_state f') = 0 /\ f_ring f' = f_ring f /\
     (kind_of (f_state f) = KClaimToken -> exists cur, f_gap f = GapDoPoll cur)) \/
  (exists da, txb = Some (encode_token da (ts f)) /\ nosend_ext calls calls' /\
     visit_state (f_state f) /\ pend (f_state f') = 1 /\
     ((pend (f_state f) = 1 /\ gap_visit_step f = Ok (f_gap f') /\ exists n, f_gap f' = GapWaiting n) \/
      (pend (f_state f) = 0 /\ f_gap f' = f_gap f))) \/
  (sw_qtx f calls' txb /\
   ((f_gap f' = f_gap f /\ pend (f_state f) <= pend (f_state f')) \/
    (pend (f_state f) = 0 /\ pend (f_state f') = 0 /\ gap_visit_step f = Ok (f_gap f') /\
     (exists cur, f_gap f = GapDoPoll cur) /\ (exists n, f_gap f' = GapWaiting n) /\ f_ring f' = f_ring f))).

Lemma sw_rel_pre f0 f f' calls0 calls calls' txb pre :
  f_p f = f_p f0 -> f_ring f = f_ring f0 -> f_state f = f_state f0 -> f_gap f = f_gap f0 ->
  calls = calls0 ++ pre -> Forall no_send pre ->
  sw_rel f f' calls calls' txb -> sw_rel f0 f' calls0 calls' txb.
Proof.
  intros Hp Hr Hs Hg -> Hpre.
  assert (Hn : nosend_ext (calls0 ++ pre) calls' -> nosend_ext calls0 calls').
  { intros [l [Hl Hf]]. exists (pre ++ l). split; [rewrite Hl, app_assoc; reflexivity|apply Forall_app; split; assumption]. }
  unfold sw_rel, sw_reset, sw_qtx, short_slot, visit_state, in_use.
  rewrite (gap_visit_step_ext f f0 Hp Hr Hg). unfold ts. rewrite Hp, Hr, Hs, Hg.
  intros [H|[[a H]|[[da H]|H]]].
  - left. exact H.
  - right. left. exists a. destruct H as [H1 [H2 H3]]. split; [exact H1|]. split; [exact (Hn H2)|exact H3].
  - right. right. left. exists da. destruct H as [H1 [H2 H3]]. split; [exact H1|]. split; [exact (Hn H2)|exact H3].
  - right. right. right. exact H.
Qed.

Lemma sw_rel_silent f f' calls calls' : f_state f' = f_state f -> f_gap f' = f_gap f -> sw_rel f f' calls calls' None.
Proof.
  intros Hs Hg. right. right. right. split; [left; reflexivity|]. left. split; [exact Hg|rewrite Hs; lia].
Qed.

Lemma sw_rel_quiet f f' calls calls' : pend (f_state f) <= pend (f_state f') -> f_gap f' = f_gap f -> sw_rel f f' calls calls' None.
Proof.
  intros Hs Hg. right. right. right. split; [left; reflexivity|]. left. split; assumption.
Qed.

Lemma pend_range s : 0 <= pend s <= 1.
Proof. destruct s as [ | | | | |[ | | | ]| |[|] ?| | ]; cbn; lia. Qed.

(* last_bus_activity, if set, is not in the future *)
Definition lba_le (f : fdl) (now : Z) : Prop := forall l, f_lba f = Some l -> l <= now.

Lemma mark_rx_lba f now : lba_le f now -> f_lba (mark_rx f now) = Some now.
Proof.
  unfold lba_le, mark_rx, mark_bus_activity, lba_get_or_insert. cbn [set_pending f_lba]. intros H.
  destruct (f_lba f) as [l|]; cbn; f_equal; [specialize (H l eq_refl)|]; lia.
Qed.

(* what a step (a do_* function, or a whole poll) can do, as far as C12 is concerned: the parameters stay,
   its transmission, a newly pending status request (with the time stamp the pause is measured from:
   L is what is known about last_bus_activity before the step), the GAP state, the sweep relation *)
Definition facts_l (L : Prop) (f f' : fdl) (w w' : W) (now : Z) : Prop :=
  f_p f' = f_p f /\
  (w_tx w = None -> w_tx w' = None \/ exists wire, w_tx w' = Some wire /\ tx_class f f' now (w_calls w) (w_calls w') wire) /\
  (forall src, marker (f_state f') = Some src ->
     marker (f_state f) = Some src \/
     (last_request (w_rx w) (ts f) src /\ w_rx w' = [] /\ f_pending f' = 0%nat /\ (L -> f_lba f' = Some now))) /\
  ((f_gap f' = f_gap f \/ gap_change f f') /\
   (w_tx w = None -> sw_rel f f' (w_calls w) (w_calls w') (w_tx w'))).

Definition facts (f f' : fdl) (w w' : W) (now : Z) : Prop := facts_l (lba_le f now) f f' w w' now.

Lemma tx_class_pre f0 f f' now calls calls' wire :
  f_p f = f_p f0 -> f_ring f = f_ring f0 -> f_state f = f_state f0 -> f_gap f = f_gap f0 ->
  tx_class f f' now calls calls' wire -> tx_class f0 f' now calls calls' wire.
Proof.
  (* tx_class looks at f only through f_p, f_ring, f_state and f_gap: unfold down to these, rewrite, and the two sides coincide *)
  intros Hp Hr Hs Hg. unfold tx_class, quiet_calls, tx_app, tx_token, idle_kind, tx_gap, gap_origin, in_use, tx_reply, reply_sent, gap_cursor_ok, ts. rewrite Hp, Hr, Hs, Hg. tauto.
Qed.

Lemma gap_change_pre f0 f f' :
  f_p f = f_p f0 -> f_ring f = f_ring f0 -> f_state f = f_state f0 -> f_gap f = f_gap f0 ->
  gap_change f f' -> gap_change f0 f'.
Proof.
  intros Hp Hr Hs Hg. unfold gap_change, gap_origin, in_use. rewrite (gap_visit_step_ext f f0 Hp Hr Hg). unfold ts. rewrite Hp, Hs. tauto.
Qed.

Lemma facts_l_pre (L0 L : Prop) f0 f f' (w0 w w' : W) now :
  f_p f = f_p f0 -> f_ring f = f_ring f0 -> f_state f = f_state f0 -> f_gap f = f_gap f0 ->
  w_tx w = w_tx w0 -> w_calls w = w_calls w0 -> w_rx w = w_rx w0 -> (L0 -> L) ->
  facts_l L f f' w w' now -> facts_l L0 f0 f' w0 w' now.
Proof.
  intros Hp Hr Hs Hg Ht Hc Hx HL [F1 [F2 [F3 F4]]]. unfold facts_l.
  split; [rewrite F1; exact Hp|]. split.
  - intros Hn. rewrite <- Ht in Hn. destruct (F2 Hn) as [X|[wire [X Y]]]; [left; exact X|].
    right. exists wire. split; [exact X|]. rewrite <- Hc. exact (tx_class_pre _ _ _ _ _ _ _ Hp Hr Hs Hg Y).
  - split.
    + intros src Hm. rewrite <- Hs, <- Hx. unfold ts. rewrite <- Hp.
      destruct (F3 src Hm) as [X|[X1 [X2 [X3 X4]]]]; [left; exact X|right]. repeat (split; [assumption|]). intros H0. exact (X4 (HL H0)).
    + destruct F4 as [F4 F5]. split.
      * rewrite <- Hg. destruct F4 as [X|X]; [left; exact X|right; exact (gap_change_pre _ _ _ Hp Hr Hs Hg X)].
      * intros Hn. rewrite <- Ht in Hn. rewrite <- Hc. eapply sw_rel_pre; [exact Hp|exact Hr|exact Hs|exact Hg|symmetry; apply app_nil_r|constructor|exact (F5 Hn)].
Qed.

Lemma facts_pre f0 f f' (w0 w w' : W) now :
  f_p f = f_p f0 -> f_ring f = f_ring f0 -> f_state f = f_state f0 -> f_gap f = f_gap f0 ->
  w_tx w = w_tx w0 -> w_calls w = w_calls w0 -> w_rx w = w_rx w0 -> (lba_le f0 now -> lba_le f now) ->
  facts f f' w w' now -> facts f0 f' w0 w' now.
Proof. unfold facts. intros. eapply facts_l_pre; eassumption. Qed.

Lemma gap_visit_step_in_gap f a : gap_visit_step f = Ok (GapDoPoll a) ->
  in_gap (ts f) (r_ns (f_ring f)) a /\ (gap_cursor_ok f -> 0 <= a < p_hsa (f_p f)).
Proof.
  unfold gap_visit_step, gap_cursor_ok. intros H.
  destruct (f_gap f) as [rc|cur] eqn:Eg.
  - destruct (p_gap_wait (f_p f) <? rc).
    + apply next_gap_poll_in_gap in H. destruct H as [H1 [_ H3]]. split; [exact H1|]. intros [Ht _]. exact (H3 Ht).
    + destruct (u8_add rc 1); cbn [bind] in H; discriminate H.
  - apply next_gap_poll_in_gap in H. destruct H as [H1 [_ H3]]. split; [exact H1|]. intros [_ Hc]. exact (H3 (Hc cur eq_refl)).
Qed.

Lemma gap_visit_step_cursor f cur : f_gap f = GapDoPoll cur -> gap_visit_step f = next_gap_poll f cur.
Proof. unfold gap_visit_step. intros ->. reflexivity. Qed.

Lemma facts_silent L f f' (w w' : W) now :
  f_p f' = f_p f -> f_state f' = f_state f -> f_gap f' = f_gap f -> w_tx w' = w_tx w -> facts_l L f f' w w' now.
Proof.
  intros Hp Hs Hg Ht. unfold facts_l. split; [exact Hp|]. split; [intros Hn; left; rewrite Ht; exact Hn|].
  split; [intros src Hm; left; rewrite <- Hs; exact Hm|]. split; [left; exact Hg|].
  intros Hn. rewrite Ht, Hn. apply sw_rel_silent; assumption.
Qed.

Lemma facts_quiet L f f' (w w' : W) now :
  f_p f' = f_p f -> marker (f_state f') = None -> f_gap f' = f_gap f -> w_tx w' = w_tx w ->
  pend (f_state f) <= pend (f_state f') -> facts_l L f f' w w' now.
Proof.
  intros Hp Hs Hg Ht Hpd. unfold facts_l. split; [exact Hp|]. split; [intros Hn; left; rewrite Ht; exact Hn|].
  split; [intros src Hm; rewrite Hs in Hm; discriminate Hm|]. split; [left; exact Hg|].
  intros Hn. rewrite Ht, Hn. apply sw_rel_quiet; assumption.
Qed.

Lemma facts_tx L f f' (w w' : W) now wire :
  f_p f' = f_p f -> w_tx w' = Some wire -> marker (f_state f') = None ->
  tx_class f f' now (w_calls w) (w_calls w') wire -> (f_gap f' = f_gap f \/ gap_change f f') ->
  sw_rel f f' (w_calls w) (w_calls w') (Some wire) -> facts_l L f f' w w' now.
Proof.
  intros Hp Ht Hm Hc Hg Hs. unfold facts_l. split; [exact Hp|]. rewrite Ht.
  split; [intros _; right; exists wire; split; [reflexivity|exact Hc]|].
  split; [intros src E; rewrite Hm in E; discriminate E|]. split; [exact Hg|intros _; exact Hs].
Qed.

Lemma quiet_calls_nosend f calls calls' : quiet_calls f calls calls' -> nosend_ext calls calls'.
Proof. intros [l [Hl [Hf _]]]. exists l. split; assumption. Qed.

Lemma facts_gap_request L f f' (w w' : W) now a :
  f_p f' = f_p f -> w_tx w' = Some (sr_wire a (ts f)) -> quiet_calls f (w_calls w) (w_calls w') ->
  gap_visit_step f = Ok (GapDoPoll a) -> f_gap f' = GapDoPoll a -> f_ring f' = f_ring f ->
  ((f_state f' = AwaitStatusResponse a /\ gap_origin (f_state f)) \/
   (f_state f' = ClaimToken (StepScanAwaitResponse a) /\
    (f_state f = ClaimToken StepScan \/ exists a0, f_state f = ClaimToken (StepScanAwaitResponse a0)) /\
    exists cur, f_gap f = GapDoPoll cur)) ->
  facts_l L f f' w w' now.
Proof.
  intros Hp Ht Hq Hstep Hg Hr Hst. destruct (gap_visit_step_in_gap f a Hstep) as [I1 I2].
  assert (Hs' : pend (f_state f') = 0 /\ marker (f_state f') = None) by (destruct Hst as [[-> _]|[-> _]]; split; reflexivity).
  apply (facts_tx L f f' w w' now _ Hp Ht (proj2 Hs')).
  - right. split; [exact Hq|]. right. left. exists a. repeat (split; [assumption || reflexivity|]).
    destruct Hst as [X|[S [O _]]]; [left; exact X|right; split; assumption].
  - right. destruct Hst as [[_ O]|[_ [O _]]].
    + left. split; [exact O|]. rewrite Hg. exact Hstep.
    + right. left. destruct O as [->|[a0 ->]]; reflexivity.
  - right. left. exists a. split; [reflexivity|]. split; [exact (quiet_calls_nosend _ _ _ Hq)|].
    repeat (split; [assumption|]). split; [exact (proj1 Hs')|]. split; [exact Hr|].
    intros K. destruct Hst as [[_ O]|[_ [_ C]]]; [exfalso|exact C].
    destruct O as [[att E]|[E|E]]; [rewrite E in K; discriminate K|congruence|congruence].
Qed.

Lemma facts_visit_token L f f' (w w' : W) now da :
  f_p f' = f_p f -> w_tx w' = Some (encode_token da (ts f)) -> quiet_calls f (w_calls w) (w_calls w') ->
  (f_state f' = UseToken now None false \/ exists att, f_state f' = CheckTokenPass att) ->
  visit_state (f_state f) ->
  ((pend (f_state f) = 1 /\ gap_origin (f_state f) /\ gap_visit_step f = Ok (f_gap f') /\ exists n, f_gap f' = GapWaiting n) \/
   (pend (f_state f) = 0 /\ f_gap f' = f_gap f)) ->
  facts_l L f f' w w' now.
Proof.
  intros Hp Ht Hq Hst Hv Hg.
  assert (Hs' : pend (f_state f') = 1 /\ marker (f_state f') = None) by (destruct Hst as [->|[att ->]]; split; reflexivity).
  apply (facts_tx L f f' w w' now _ Hp Ht (proj2 Hs')).
  - right. split; [exact Hq|]. left. exists da. split; [reflexivity|]. right. split; [exact Hst|].
    destruct Hv as [K|[K|K]]; tauto.
  - destruct Hg as [[_ [O [S _]]]|[_ G]]; [right; left; split; assumption|left; exact G].
  - right. right. left. exists da. split; [reflexivity|]. split; [exact (quiet_calls_nosend _ _ _ Hq)|].
    split; [exact Hv|]. split; [exact (proj1 Hs')|].
    destruct Hg as [[P [_ G]]|G]; [left; split; [exact P|exact G]|right; exact G].
Qed.

Lemma facts_claim_token L f f' (w w' : W) now :
  f_p f' = f_p f -> w_tx w' = Some (encode_token (ts f) (ts f)) -> w_calls w' = w_calls w ->
  f_gap f' = GapDoPoll (ts f) ->
  ((f_state f' = ClaimToken StepSecondToken /\
    ((kind_of (f_state f) = KListenToken \/ kind_of (f_state f) = KActiveIdle) \/ f_state f = ClaimToken StepFirstToken)) \/
   (f_state f' = ClaimToken StepScan /\ f_state f = ClaimToken StepSecondToken)) ->
  facts_l L f f' w w' now.
Proof.
  intros Hp Ht Hc Hg Hst.
  assert (Hs' : kind_of (f_state f') = KClaimToken /\ marker (f_state f') = None) by (destruct Hst as [[-> _]|[-> _]]; split; reflexivity).
  assert (Hk : kind_of (f_state f) = KListenToken \/ kind_of (f_state f) = KActiveIdle \/ kind_of (f_state f) = KClaimToken)
    by (destruct Hst as [[_ [[K|K]| ->]]|[_ ->]]; auto).
  apply (facts_tx L f f' w w' now _ Hp Ht (proj2 Hs')).
  - right. split; [apply quiet_calls_same; exact Hc|]. left. exists (ts f). split; [reflexivity|]. left. split; [reflexivity|].
    destruct Hst as [[S O]|X]; [left; split; [exact S|]|right; exact X].
    destruct O as [K|E]; [left; unfold idle_kind; tauto|right; exact E].
  - right. destruct Hst as [[S [K|E]]|[_ E]].
    + right. right. left. split; assumption.
    + right. left. rewrite E. reflexivity.
    + right. left. rewrite E. reflexivity.
  - left. right. right. right. right. left. repeat split; try assumption; apply Hs'.
Qed.

Lemma facts_scan_end L f f' (w w' : W) now cur :
  f_p f' = f_p f -> w_tx w' = w_tx w -> f_gap f = GapDoPoll cur -> next_gap_poll f cur = Ok (GapWaiting 0) ->
  f_gap f' = GapWaiting 0 -> f_ring f' = f_ring f -> kind_of (f_state f) = KClaimToken -> pend (f_state f) = 0 ->
  f_state f' = ClaimToken StepScan -> facts_l L f f' w w' now.
Proof.
  intros Hp Ht G0 N G R K P0 S. unfold facts_l. split; [exact Hp|]. split; [intros Hn; left; rewrite Ht; exact Hn|].
  split; [intros src Hm; rewrite S in Hm; discriminate Hm|]. split; [right; right; left; exact K|].
  intros Hn. rewrite Ht, Hn. right. right. right. split; [left; reflexivity|]. right.
  split; [exact P0|]. split; [rewrite S; reflexivity|]. split; [rewrite (gap_visit_step_cursor f cur G0), G; exact N|].
  split; [exists cur; exact G0|]. split; [exists 0; exact G|exact R].
Qed.

Lemma facts_reply L f f' (w w' : W) now src st :
  f_p f' = f_p f -> w_tx w' = Some (reply_wire src (ts f) st) -> w_calls w' = w_calls w -> f_gap f' = f_gap f ->
  reply_sent f f' src st -> facts_l L f f' w w' now.
Proof.
  intros Hp Ht Hc Hg Hr.
  assert (Hk : (kind_of (f_state f) = KListenToken \/ kind_of (f_state f) = KActiveIdle) /\ marker (f_state f') = None /\
               pend (f_state f) <= pend (f_state f')).
  { destruct Hr as [[cc [-> [_ ->]]]|[nps [cc [-> [_ ->]]]]]; [destruct (ready_for_ring _)|]; cbn; repeat split; auto; lia. }
  destruct Hk as [Hk [Hm Hpd]].
  apply (facts_tx L f f' w w' now _ Hp Ht Hm).
  - right. split; [apply quiet_calls_same; exact Hc|]. right. right. exists src, st. split; [reflexivity|exact Hr].
  - left. exact Hg.
  - right. right. right. split; [right; right; left; exists src, st; split; [reflexivity|exact Hk]|]. left. split; assumption.
Qed.

(* (f, w) is (f0, w0) further on in the same poll of a token visit: what do_pass_token looks at is unchanged,
   and the applications asked in between have all declined *)
Definition visit_prefix (f0 f : fdl) (w0 w : W) : Prop :=
  f_p f = f_p f0 /\ f_ring f = f_ring f0 /\ f_gap f = f_gap f0 /\ w_tx w = w_tx w0 /\ quiet_calls f0 (w_calls w0) (w_calls w).

Lemma visit_prefix_refl f (w : W) : visit_prefix f f w w.
Proof. unfold visit_prefix. repeat (split; [reflexivity|]). apply quiet_calls_same. reflexivity. Qed.

(* do_pass_token at the end of a poll that began in (f0, w0) - which is how do_use_token, do_await_status_response
   and do_await_data_response end *)
Lemma do_pass_token_from L f0 f now (w0 w : W) f' w' dg att :
  do_pass_token A f now w = Ok (f', w') -> f_state f = PassToken dg att -> visit_prefix f0 f w0 w ->
  visit_state (f_state f0) -> pend (f_state f0) = (if dg then 1 else 0) -> (dg = true -> gap_origin (f_state f0)) ->
  facts_l L f0 f' w0 w' now.
Proof.
  intros H Es [Pp [Pr [Pg [Pt Pc]]]] Hv Hpd Ho.
  apply do_pass_token_spec in H. destruct H as [dg' [att' [Es' [Hp [Hc [Hca [Hap [Hrx Hcases]]]]]]]].
  rewrite Es in Es'. injection Es' as <- <-. rewrite <- Hca in Pc.
  pose proof (ts_ext _ _ Pp) as Hts.
  unfold token_passed in Hcases. rewrite (gap_visit_step_ext f f0 Pp Pr Pg), Hts, Pr, Pg, Es in Hcases.
  destruct Hcases as [[T [S [G R]]]|[[-> [a [Hstep [G [S [R [T0 T]]]]]]]|[G [T0 [T [Wi St]]]]]].
  - apply facts_quiet; try congruence; rewrite S; [reflexivity|]. rewrite Hpd. destruct dg; cbn; lia.
  - apply (facts_gap_request L f0 f' w0 w' now a); try congruence. left. split; [exact S|exact (Ho eq_refl)].
  - apply (facts_visit_token L f0 f' w0 w' now (r_ns (f_ring f0))); try congruence.
    + destruct St as [[_ S]|[_ S]]; [left|right; exists att]; exact S.
    + destruct dg.
      * destruct G as [n [Hstep G]]. left. split; [exact Hpd|]. split; [exact (Ho eq_refl)|]. split; [rewrite G; exact Hstep|exists n; exact G].
      * right. split; [exact Hpd|exact G].
Qed.

Lemma do_pass_token_facts f now (w : W) f' w' :
  do_pass_token A f now w = Ok (f', w') -> facts f f' w w' now.
Proof.
  intros H. destruct (do_pass_token_spec _ _ _ _ _ H) as [dg [att [Es _]]].
  apply (do_pass_token_from _ f f now w w f' w' dg att H Es (visit_prefix_refl f w)); rewrite Es.
  - left. reflexivity.
  - destruct dg; reflexivity.
  - intros ->. left. exists att. reflexivity.
Qed.

Lemma do_await_status_response_facts f now (w : W) f' w' :
  do_await_status_response A f now w = Ok (f', w') -> facts f f' w w' now.
Proof.
  intros H. apply do_await_status_response_spec in H.
  destruct H as [a0 [Es [Hne [Hg0 [Hp [Hc [Hca [Hap [Hg [rest [received [Hrcv [Hrx Hcases]]]]]]]]]]]]].
  assert (Hp0 : pend (f_state f) = 0) by (rewrite Es; reflexivity).
  destruct Hcases as [[_ [T [S R]]]|[[t [_ [_ [T [S _]]]]]|[[t [_ [_ [T [S R]]]]]|[_ [[T [S R]]|[T0 [T [Wi St]]]]]]]].
  - apply facts_silent; assumption.
  - apply facts_quiet; try assumption; rewrite S; [reflexivity|rewrite Hp0; cbn; lia].
  - apply facts_quiet; try assumption; rewrite S; [reflexivity|rewrite Hp0; cbn; lia].
  - apply facts_quiet; try assumption; rewrite S; [reflexivity|rewrite Hp0; cbn; lia].
  - apply (facts_visit_token _ f f' w w' now (r_ns (f_ring f))); try assumption.
    + apply quiet_calls_same. exact Hca.
    + destruct St as [[_ S]|[_ S]]; [left|right; exists AttFirst]; exact S.
    + right. left. rewrite Es. reflexivity.
    + right. split; assumption.
Qed.

Lemma do_claim_token_facts f now (w : W) f' w' :
  do_claim_token A f now w = Ok (f', w') -> facts f f' w w' now.
Proof.
  intros H. apply do_claim_token_spec in H. destruct H as [st0 [Es [Hp [Hc [Hca [Hap Hcases]]]]]].
  assert (Hk : kind_of (f_state f) = KClaimToken) by (rewrite Es; reflexivity).
  assert (Hq : quiet_calls f (w_calls w) (w_calls w')) by (apply quiet_calls_same; exact Hca).
  destruct st0 as [ | | |a0].
  - destruct Hcases as [Hrx [[T [S [G R]]]|[T0 [T [S [G R]]]]]]; [apply facts_silent; assumption|].
    apply facts_claim_token; try assumption. left. split; [exact S|right; exact Es].
  - destruct Hcases as [Hrx [[T [S [G R]]]|[T0 [T [S [G R]]]]]]; [apply facts_silent; assumption|].
    apply facts_claim_token; try assumption. right. split; [exact S|exact Es].
  - destruct Hcases as [Hr [Hrx Hsc]].
    destruct Hsc as [[T [S G]]|[[T [_ [G S]]]|[[T [cur [G0 [N [G S]]]]]|[cur [a [G0 [N [G [S [T0 T]]]]]]]]]].
    + apply facts_silent; assumption.
    + apply facts_quiet; try assumption; rewrite S; [reflexivity|rewrite Es; cbn; lia].
    + apply (facts_scan_end _ f f' w w' now cur); try assumption; rewrite ?S, Es; reflexivity.
    + apply (facts_gap_request _ f f' w w' now a); try assumption; [rewrite (gap_visit_step_cursor f cur G0); exact N|].
      right. split; [exact S|]. split; [left; exact Es|exists cur; exact G0].
  - destruct Hcases as [Hne [Hg0 [rest [received [Hrcv [Hrx Hcs]]]]]].
    destruct Hcs as [[_ [T [S [G R]]]]|[[t [_ [_ [T [S [G _]]]]]]|[[t [_ [_ [T [S [G _]]]]]]|[_ [R Hsc]]]]].
    + apply facts_silent; assumption.
    + apply facts_quiet; try assumption; rewrite S; [reflexivity|rewrite Es; cbn; lia].
    + apply facts_quiet; try assumption; rewrite S; [reflexivity|rewrite Es; cbn; lia].
    + destruct Hsc as [[T [S G]]|[[T [N [G S]]]|[a [N [G [S [T0 T]]]]]]].
      * apply facts_quiet; try assumption; rewrite S; [reflexivity|rewrite Es; cbn; lia].
      * apply (facts_scan_end _ f f' w w' now a0); try assumption. rewrite Es. reflexivity.
      * apply (facts_gap_request _ f f' w w' now a); try assumption; [rewrite (gap_visit_step_cursor f a0 Hg0); exact N|].
        right. split; [exact S|]. split; [right; exists a0; exact Es|exists a0; exact Hg0].
Qed.

Lemma handle_lost_token_facts f now (w : W) f' w' d :
  handle_lost_token A f now w = Ok (f', w', d) ->
  kind_of (f_state f) = KListenToken \/ kind_of (f_state f) = KActiveIdle ->
  if d then facts f f' w w' now /\ marker (f_state f') = None
  else same_but_lba f f' /\ w' = w /\ (lba_le f now -> lba_le f' now).
Proof.
  unfold handle_lost_token. intros H Hkind.
  destruct (lba_get_or_insert f now) as [l f0] eqn:El.
  apply lba_get_or_insert_same in El. destruct El as [[Hp0 [Hr0 [Hc0 [Hg0 [Hs0 Hrest0]]]]] [Hl0 Hm0]].
  destruct (inst_diff now l); cbn [bind] in H; try discriminate H.
  match type of H with (if ?c then _ else _) = _ => destruct c end.
  - match type of H with context [trans A ?a ?b ?c] => destruct (trans A a b c) as [[f1 w1]| |] eqn:Et end; cbn [bind] in H; try discriminate H.
    apply trans_spec in Et. destruct Et as [s' [Ht [-> ->]]].
    unfold transition_claim_token in Ht. destruct (assert_kind _ _); cbn [bind] in Ht; try discriminate Ht. injection Ht as <-.
    destruct (do_claim_token A _ now _) as [[f2 w2]| |] eqn:Ed; cbn [bind] in H; try discriminate H.
    injection H as <- <- <-.
    apply do_claim_token_spec in Ed. destruct Ed as [st0 [Es [Hp [Hc [Hca [Hap Hcases]]]]]].
    cbn [set_st f_state] in Es. injection Es as <-.
    assert (Hts : ts (set_st f0 (ClaimToken StepFirstToken)) = ts f) by exact (ts_ext f0 f Hp0).
    rewrite Hts in Hcases. cbn [set_st f_p f_conn f_gap f_ring f_state note w_tx w_calls w_apps w_rx] in *.
    destruct Hcases as [Hrx [[T [S [G R]]]|[T0 [T [S [G R]]]]]]; (split; [|rewrite S; reflexivity]).
    + apply facts_quiet; try congruence; rewrite S; [reflexivity|].
      destruct Hkind as [K|K]; destruct (f_state f); try discriminate K; cbn; lia.
    + apply facts_claim_token; try congruence. left. split; [exact S|left; exact Hkind].
  - injection H as <- <- <-. split; [unfold same_but_lba; tauto|]. split; [reflexivity|].
    intros Hle l' Hl'. rewrite Hl0 in Hl'. injection Hl' as <-. destruct (f_lba f) as [l0|] eqn:E0; [subst l; exact (Hle l0 E0)|lia].
Qed.

Lemma marker_dec s src : marker s = Some src \/ marker s <> Some src.
Proof.
  destruct (marker s) as [m|]; [|right; discriminate].
  destruct (Z.eq_dec m src) as [->|Hne]; [left; reflexivity|right; congruence].
Qed.

Lemma receive_all_cb_facts {St : Type} now (fw : St -> fdl * W) cb fuel s buf s' rest r :
  cb_facts now fw cb -> receive_all cb fuel s buf = Ok (s', rest, r) ->
  let f := fst (fw s) in let w := snd (fw s) in let f' := fst (fw s') in let w' := snd (fw s') in
  f_p f' = f_p f /\ w_tx w' = w_tx w /\ w_calls w' = w_calls w /\ w_apps w' = w_apps w /\
  (f_gap f' = f_gap f \/ (f_state f' = Offline /\ f_conn f' = ConnOffline)) /\
  (forall src, marker (f_state f') = Some src ->
     marker (f_state f) = Some src \/
     (last_request buf (ts f) src /\ rest = [] /\ (lba_le f now -> f_lba f' = Some now))).
Proof.
  intros Hcb H. cbv zeta.
  assert (Hfr : f_p (fst (fw s')) = f_p (fst (fw s)) /\ w_tx (snd (fw s')) = w_tx (snd (fw s)) /\
                w_calls (snd (fw s')) = w_calls (snd (fw s)) /\ w_apps (snd (fw s')) = w_apps (snd (fw s)) /\
                (f_gap (fst (fw s')) = f_gap (fst (fw s)) \/ (f_state (fst (fw s')) = Offline /\ f_conn (fst (fw s')) = ConnOffline))).
  { refine (receive_all_inv (fun x => f_p (fst (fw x)) = f_p (fst (fw s)) /\ w_tx (snd (fw x)) = w_tx (snd (fw s)) /\
                w_calls (snd (fw x)) = w_calls (snd (fw s)) /\ w_apps (snd (fw x)) = w_apps (snd (fw s)) /\
                (f_gap (fst (fw x)) = f_gap (fst (fw s)) \/ (f_state (fst (fw x)) = Offline /\ f_conn (fst (fw x)) = ConnOffline)))
              cb _ fuel s buf s' rest r _ H).
    - intros x t il x' u [I1 [I2 [I3 [I4 I5]]]] Hc. destruct (Hcb _ _ _ _ _ Hc) as [CK [_ [C1 [C2 [C3 [C4 [C5 [C6 _]]]]]]]].
      rewrite C1, C2, C3, C4. repeat (split; [assumption|]).
      destruct I5 as [I5|[I5 I6]].
      + destruct C5 as [[C5 _]|C5]; [left; rewrite C5; exact I5|right; exact C5].
      + right. destruct (C6 I6 I5) as [D1 D2]. split; [rewrite D1; exact I5|]. destruct C5 as [[_ C5]|[_ C5]]; [rewrite C5; exact I6|exact C5].
    - repeat (split; [reflexivity|]). left. reflexivity. }
  destruct Hfr as [F1 [F2 [F3 [F4 F5]]]]. repeat (split; [assumption|]).
  intros src Hm. destruct (marker_dec (f_state (fst (fw s))) src) as [Hd|Hd]; [left; exact Hd|]. right.
  (* every callback stamps last_bus_activity with `now` *)
  assert (Hstamp : forall x t il x' u, cb x t il = Ok (x', u) -> lba_le (fst (fw x)) now ->
            lba_le (fst (fw x')) now /\ (marker (f_state (fst (fw x'))) = Some src -> f_lba (fst (fw x')) = Some now)).
  { intros x t il x' u Hc Hle. destruct (Hcb _ _ _ _ _ Hc) as [_ [[C0|[C0 C0']] _]].
    - unfold lba_le. rewrite C0, (mark_rx_lba _ _ Hle). split; [intros l Hl; injection Hl as <-; lia|reflexivity].
    - unfold lba_le. rewrite C0. split; [intros l Hl; discriminate Hl|]. intros Hx. rewrite C0' in Hx. discriminate Hx. }
  (* until the last telegram no request is pending; only the last one can leave one *)
  destruct (receive_all_last_inv
      (fun x => marker (f_state (fst (fw x))) <> Some src /\ f_p (fst (fw x)) = f_p (fst (fw s)) /\
                (lba_le (fst (fw s)) now -> lba_le (fst (fw x)) now))
      (fun x t => is_status_request_to (ts (fst (fw s))) src t /\ (lba_le (fst (fw s)) now -> f_lba (fst (fw x)) = Some now)) cb)
      with (fuel := fuel) (s := s) (buf := buf) (s' := s') (rest := rest) (r := r)
      as [[X _]|[pre [suf [t [Hb [Hdc [[Hq Hlb] Hrest]]]]]]]; try assumption.
  - intros x t x' u [I1 [I2 I3]] Hc. destruct (Hcb _ _ _ _ _ Hc) as [_ [_ [C1 [_ [_ [_ [_ [_ C7]]]]]]]].
    split; [|split; [rewrite C1; exact I2|intros Hs; exact (proj1 (Hstamp _ _ _ _ _ Hc (I3 Hs)))]].
    intros Hx. destruct (C7 src Hx) as [Y|[Y _]]; [contradiction|discriminate Y].
  - intros x t x' u [I1 [I2 I3]] Hc. destruct (Hcb _ _ _ _ _ Hc) as [_ [_ [C1 [_ [_ [_ [_ [_ C7]]]]]]]].
    destruct (marker_dec (f_state (fst (fw x'))) src) as [Hm'|Hm'].
    + right. destruct (C7 src Hm') as [Y|[_ Y]]; [contradiction|]. split.
      * unfold ts in *. rewrite I2 in Y. exact Y.
      * intros Hs. exact (proj2 (Hstamp _ _ _ _ _ Hc (I3 Hs)) Hm').
    + left. split; [exact Hm'|]. split; [rewrite C1; exact I2|intros Hs; exact (proj1 (Hstamp _ _ _ _ _ Hc (I3 Hs)))].
  - split; [exact Hd|]. split; [reflexivity|]. intros Hs. exact Hs.
  - contradiction.
  - split; [exists pre, suf, t; repeat split; assumption|]. split; assumption.
Qed.

Lemma receive_all_cb_kind {St : Type} now (fw : St -> fdl * W) cb fuel s buf s' rest r :
  cb_facts now fw cb -> receive_all cb fuel s buf = Ok (s', rest, r) ->
  f_state (fst (fw s')) = f_state (fst (fw s)) \/ rx_kind (f_state (fst (fw s'))).
Proof.
  intros Hcb H.
  refine (receive_all_inv (fun x => f_state (fst (fw x)) = f_state (fst (fw s)) \/ rx_kind (f_state (fst (fw x))))
            cb _ fuel s buf s' rest r _ H).
  - intros x t il x' u I Hc. destruct (Hcb _ _ _ _ _ Hc) as [CK _].
    destruct CK as [CK|CK]; [rewrite CK; exact I|right; exact CK].
  - left. reflexivity.
Qed.

Lemma rx_kind_sw f f' calls calls' : rx_kind (f_state f') -> f_gap f' = f_gap f -> sw_rel f f' calls calls' None.
Proof.
  intros [K|[K|[K|K]]] Hg.
  - left. right. right. right. left. exact K.
  - left. right. right. left. exact K.
  - apply sw_rel_quiet; [|exact Hg]. pose proof (pend_range (f_state f)). destruct (f_state f'); try discriminate K. cbn. lia.
  - apply sw_rel_quiet; [|exact Hg]. pose proof (pend_range (f_state f)). destruct (f_state f'); try discriminate K. cbn. lia.
Qed.

(* a whole receive loop; w2 is the world the caller makes of the loop's result *)
Lemma receive_all_facts {St : Type} now (fw : St -> fdl * W) cb fuel s s' rest r (w2 : W) :
  cb_facts now fw cb -> receive_all cb fuel s (w_rx (snd (fw s))) = Ok (s', rest, r) ->
  w_tx w2 = w_tx (snd (fw s')) -> w_calls w2 = w_calls (snd (fw s')) -> w_rx w2 = rest ->
  facts (fst (fw s)) (sync_pending_bytes A (fst (fw s')) w2) (snd (fw s)) w2 now.
Proof.
  intros Hcb Er T2 C2 R2.
  destruct (receive_all_cb_facts now fw cb _ _ _ _ _ _ Hcb Er) as [F1 [F2 [F3 [F4 [F5 F6]]]]].
  pose proof (receive_all_cb_kind now fw cb _ _ _ _ _ _ Hcb Er) as HK.
  unfold facts, facts_l, sync_pending_bytes. cbn [set_pending f_p f_state f_gap f_conn f_lba f_pending]. rewrite T2, C2, R2.
  split; [exact F1|]. split; [intros Hn; left; rewrite F2; exact Hn|]. split.
  { intros src Hm. destruct (F6 src Hm) as [X|[X1 [-> X3]]]; [left; exact X|right].
    split; [exact X1|]. split; [reflexivity|]. split; [apply Nat.min_0_r|exact X3]. }
  split; [destruct F5 as [F5|F5]; [left; exact F5|right; right; right; right; exact F5]|].
  intros Hn. rewrite F2, Hn. destruct F5 as [F5|[F5 _]].
  - destruct HK as [HK|HK]; [apply sw_rel_silent; assumption|apply rx_kind_sw; assumption].
  - left. right. right. left. cbn [set_pending f_state]. rewrite F5. reflexivity.
Qed.

Lemma receive_all_telegrams_facts cb f now (w : W) f' w' :
  cb_facts now (fun s : fdl * W => s) cb ->
  receive_all_telegrams A cb f w = Ok (f', w') -> facts f f' w w' now.
Proof.
  intros Hcb. unfold receive_all_telegrams. intros H.
  destruct (receive_all cb _ (f, w) (w_rx w)) as [[[[f1 w1] rest] r]| |] eqn:Er; cbn [bind] in H; try discriminate H.
  injection H as <- <-.
  exact (receive_all_facts now (fun s : fdl * W => s) cb _ (f, w) (f1, w1) rest r (set_rx A w1 rest) Hcb Er eq_refl eq_refl eq_refl).
Qed.

Lemma do_listen_token_facts f now (w : W) f' w' :
  do_listen_token A f now w = Ok (f', w') -> facts f f' w w' now.
Proof.
  unfold do_listen_token, assert_entry. intros H.
  destruct (f_state f) as [ | |sr0 cc0| | | | | | | ] eqn:Es; cbn [kind_of do_fn_entry state_kind_eqb bind] in H; try discriminate H.
  destruct (handle_lost_token A f now w) as [[[f0 w0] d]| |] eqn:Eh; cbn [bind] in H; try discriminate H.
  apply handle_lost_token_facts in Eh; [|rewrite Es; cbn; tauto]. destruct d.
  - injection H as <- <-. exact (proj1 Eh).
  - destruct Eh as [[Hp0 [Hr0 [Hc0 [Hg0 [Hs0 _]]]]] [-> Hle0]].
    rewrite Hs0, Es in H. cbn [get_listen_token bind] in H.
    destruct sr0 as [src|].
    + destruct (wait_synchronization_pause f0 now) as [[f1 wait]| |] eqn:Ew; cbn [bind] in H; try discriminate H.
      apply wait_sync_same in Ew. destruct Ew as [[Hp1 [Hr1 [Hc1 [Hg1 [Hs1 _]]]]] _].
      destruct wait.
      * injection H as <- <-. apply facts_silent; cbn; congruence.
      * unfold status_response_header in H.
        destruct (phy_send A w _) as [[w1 n]| |] eqn:Ep; cbn [bind] in H; try discriminate H.
        apply phy_send_data_spec in Ep. destruct Ep as [Hn [_ ->]].
        assert (Hts : ts f1 = ts f) by (unfold ts; rewrite Hp1, Hp0; reflexivity).
        assert (Hring : f_ring f1 = f_ring f) by (rewrite Hr1; exact Hr0).
        rewrite Hts, Hring in H.
        match type of H with bind ?x _ = _ => destruct x as [[f2 w2]| |] eqn:Et end; cbn [bind] in H; try discriminate H.
        destruct (mark_tx f2 now n) as [f3| |] eqn:Em; cbn [bind] in H; try discriminate H.
        injection H as <- <-. apply mark_tx_same in Em. destruct Em as [Hp3 [Hr3 [Hc3 [Hg3 [Hs3 _]]]]].
        assert (H2 : f_p f2 = f_p f /\ f_gap f2 = f_gap f /\ w_calls w2 = w_calls w /\
                     w_tx w2 = Some (reply_wire src (ts f) (if ready_for_ring (f_ring f) && (src =? r_ps (f_ring f)) then listen_reply_ready else listen_reply_not_ready)) /\
                     f_state f2 = (if ready_for_ring (f_ring f) then ActiveIdle None None 0 else ListenToken None cc0)).
        { destruct (ready_for_ring (f_ring f)).
          - apply trans_spec in Et. destruct Et as [s' [Htr [-> ->]]]. rewrite Hs1, Hs0, Es in Htr. cbn in Htr. injection Htr as <-.
            cbn. repeat split; try congruence; try (destruct (src =? r_ps (f_ring f)); reflexivity).
          - rewrite Hs1, Hs0, Es in Et. cbn [get_listen_token bind] in Et. injection Et as <- <-. cbn. repeat split; congruence. }
        destruct H2 as [Hp2 [Hg2 [Hca2 [Htx2 Hs2]]]].
        apply (facts_reply _ f f3 w w2 now src _ ltac:(congruence) Htx2 Hca2 ltac:(congruence)).
        left. exists cc0. split; [exact Es|]. split; [reflexivity|]. rewrite Hs3. exact Hs2.
    + apply receive_all_telegrams_facts with (now := now) in H; [|apply listen_cb_facts].
      apply (facts_pre f f0 f' w w w' now); try assumption; try reflexivity.
Qed.

Lemma do_active_idle_facts f now (w : W) f' w' :
  do_active_idle A f now w = Ok (f', w') -> facts f f' w w' now.
Proof.
  unfold do_active_idle, assert_entry. intros H.
  destruct (f_state f) as [ | | |sr0 nps0 cc0| | | | | | ] eqn:Es; cbn [kind_of do_fn_entry state_kind_eqb bind] in H; try discriminate H.
  destruct (handle_lost_token A f now w) as [[[f0 w0] d]| |] eqn:Eh; cbn [bind] in H; try discriminate H.
  apply handle_lost_token_facts in Eh; [|rewrite Es; cbn; tauto]. destruct d.
  - injection H as <- <-. exact (proj1 Eh).
  - destruct Eh as [[Hp0 [Hr0 [Hc0 [Hg0 [Hs0 _]]]]] [-> Hle0]].
    rewrite Hs0, Es in H. cbn [get_active_idle bind] in H.
    destruct sr0 as [src|].
    + destruct (wait_synchronization_pause f0 now) as [[f1 wait]| |] eqn:Ew; cbn [bind] in H; try discriminate H.
      apply wait_sync_same in Ew. destruct Ew as [[Hp1 [Hr1 [Hc1 [Hg1 [Hs1 _]]]]] _].
      destruct wait.
      * injection H as <- <-. apply facts_silent; cbn; congruence.
      * unfold status_response_header in H.
        destruct (phy_send A w _) as [[w1 n]| |] eqn:Ep; cbn [bind] in H; try discriminate H.
        apply phy_send_data_spec in Ep. destruct Ep as [Hn [_ ->]].
        assert (Hts : ts f1 = ts f) by (unfold ts; rewrite Hp1, Hp0; reflexivity).
        rewrite Hts in H.
        destruct (mark_tx _ now n) as [f3| |] eqn:Em; cbn [bind] in H; try discriminate H.
        injection H as <- <-. apply mark_tx_same in Em. destruct Em as [Hp3 [Hr3 [Hc3 [Hg3 [Hs3 _]]]]].
        cbn in Hp3, Hg3, Hs3.
        apply (facts_reply _ f f3 w _ now src active_idle_reply); try reflexivity; try congruence.
        right. exists nps0, cc0. split; [exact Es|]. split; [reflexivity|exact Hs3].
    + apply receive_all_telegrams_facts with (now := now) in H; [|apply active_idle_cb_facts].
      apply (facts_pre f f0 f' w w w' now); try assumption; try reflexivity.
Qed.

Lemma check_slot_expired_lba f now f' b : check_slot_expired f now = Ok (f', b) -> lba_le f now -> lba_le f' now.
Proof.
  unfold check_slot_expired. destruct (lba_get_or_insert f now) as [l f1] eqn:E.
  apply lba_get_or_insert_same in E. destruct E as [_ [Hl Hm]].
  destruct (inst_add _ _); cbn [bind]; try discriminate. intros H. injection H as <- _.
  intros Hle l' Hl'. rewrite Hl in Hl'. injection Hl' as <-. destruct (f_lba f) as [l0|] eqn:E0; [subst l; exact (Hle l0 E0)|lia].
Qed.

Lemma do_pass_token_wait_timing f now (w : W) f' w' l :
  do_pass_token A f now w = Ok (f', w') -> kind_of (f_state f') = KPassToken -> f_lba f = Some l ->
  now <= l + p_bits_to_time (f_p f) sync_pause_bits.
Proof.
  unfold do_pass_token, assert_entry. intros H Hk Hl.
  destruct (f_state f) as [ | | | | | | |dg att| | ] eqn:Es; cbn [kind_of do_fn_entry state_kind_eqb bind] in H; try discriminate H.
  unfold wait_synchronization_pause, lba_get_or_insert in H. rewrite Hl in H.
  destruct (inst_add l _) as [dl| |] eqn:Ed; cbn [bind] in H; try discriminate H.
  unfold inst_add in Ed. destruct (i64_ok _); [|discriminate Ed]. injection Ed as <-.
  destruct (Z.leb_spec now (l + p_bits_to_time (f_p f) sync_pause_bits)) as [Hle|Hgt]; [exact Hle|exfalso].
  rewrite Es in H. cbn [get_pass_token bind] in H.
  match type of H with bind ?x _ = _ => destruct x as [[[f2 w2] polled]| |] eqn:E2 end; cbn [bind] in H; try discriminate H.
  destruct polled as [pa|].
  - apply trans_spec in H. destruct H as [s' [Ht [-> _]]].
    unfold transition_await_status_response in Ht. destruct (assert_kind _ _); cbn [bind] in Ht; try discriminate Ht.
    injection Ht as <-. discriminate Hk.
  - apply pass_token_tail_state in H. destruct H as [[tk S]|[a S]]; rewrite S in Hk; discriminate Hk.
Qed.

Lemma check_slot_expired_timing f now f1 : check_slot_expired f now = Ok (f1, true) ->
  exists l, f_lba f1 = Some l /\ l + slot_time (f_p f) < now.
Proof.
  unfold check_slot_expired. destruct (lba_get_or_insert f now) as [l f0] eqn:E.
  apply lba_get_or_insert_same in E. destruct E as [[Hp _] [Hl _]].
  unfold inst_add. destruct (i64_ok _); cbn [bind]; [|discriminate].
  intros H. injection H as <- Hb. exists l. split; [exact Hl|]. apply Z.ltb_lt in Hb. rewrite Hp in Hb. exact Hb.
Qed.

Lemma do_check_token_pass_facts f now (w : W) f' w' :
  do_check_token_pass A f now w = Ok (f', w') -> facts f f' w w' now.
Proof.
  unfold do_check_token_pass, assert_entry. intros H.
  destruct (f_state f) as [ | | | | | | | |att0| ] eqn:Es; cbn [kind_of do_fn_entry state_kind_eqb bind] in H; try discriminate H.
  destruct (check_slot_expired f now) as [[f1 expired]| |] eqn:Ec; cbn [bind] in H; try discriminate H.
  pose proof (check_slot_expired_lba _ _ _ _ Ec) as Hle1.
  assert (Htm : expired = true -> exists l, f_lba f1 = Some l /\ l + slot_time (f_p f) < now)
    by (intros ->; eapply check_slot_expired_timing; exact Ec).
  apply check_slot_expired_same in Ec. destruct Ec as [Hp1 [Hr1 [Hc1 [Hg1 [Hs1 _]]]]].
  destruct expired.
  - rewrite Hs1, Es in H. cbn [get_check_token_pass_attempt bind] in H.
    match type of H with bind ?x _ = _ => destruct x as [[f2 w2]| |] eqn:E2 end; cbn [bind] in H; try discriminate H.
    assert (H2 : f_p f2 = f_p f /\ f_gap f2 = f_gap f /\ f_state f2 = f_state f /\ w_tx w2 = w_tx w /\ w_calls w2 = w_calls w /\ f_lba f2 = f_lba f1).
    { destruct (check_pass_removes att0).
      - destruct (remove_station _ _) as [r| |]; cbn [bind] in E2; try discriminate E2.
        injection E2 as <- <-. cbn. repeat split; assumption || reflexivity.
      - injection E2 as <- <-. cbn. repeat split; assumption || reflexivity. }
    destruct H2 as [Hp2 [Hg2 [Hs2 [Ht2 [Hca2 Hl2]]]]].
    match type of H with context [trans A ?a ?b ?c] => destruct (trans A a b c) as [[f3 w3]| |] eqn:Et end; cbn [bind] in H; try discriminate H.
    apply trans_spec in Et. destruct Et as [s' [Htr [-> ->]]]. rewrite Hs2, Es in Htr. cbn in Htr. injection Htr as <-.
    pose proof H as Hraw.
    apply do_pass_token_spec in H. destruct H as [dg [att [Hst [Hp [Hc [Hca [Hap [Hrx Hcases]]]]]]]].
    cbn [set_st f_state f_p f_conn f_gap f_ring note w_calls w_apps w_rx w_tx] in *. injection Hst as <- <-.
    assert (Hts : ts (set_st f2 (PassToken false (check_pass_next att0))) = ts f) by exact (ts_ext f2 f Hp2).
    destruct Hcases as [[T [S [G R]]]|[[D _]|[G [T0 [T [Wi St]]]]]].
    + (* the pause is not over although the slot time is: only with a slot time below 33 bit *)
      destruct (Htm eq_refl) as [l [El Hlt]].
      assert (Hshort : short_slot f).
      { pose proof (do_pass_token_wait_timing _ _ _ _ _ l Hraw ltac:(rewrite S; reflexivity) ltac:(cbn; congruence)) as Hw.
        cbn [set_st f_p] in Hw. rewrite Hp2 in Hw. unfold short_slot. lia. }
      unfold facts, facts_l. split; [congruence|]. split; [intros Hn; left; congruence|].
      split; [intros src Hm; rewrite S in Hm; discriminate Hm|]. split; [left; congruence|].
      intros _. left. right. right. right. right. right. exact Hshort.
    + discriminate D.
    + unfold facts, facts_l. split; [congruence|]. split; [|split].
      * intros _. right. eexists. split; [exact T|]. right. split; [apply quiet_calls_same; congruence|]. left.
        eexists. split; [rewrite Hts; reflexivity|]. right. split; [|right; right; left; rewrite Es; reflexivity].
        destruct St as [[_ S]|[_ S]]; [left; exact S|right; eexists; exact S].
      * intros src Hm. destruct St as [[_ S]|[_ S]]; rewrite S in Hm; discriminate Hm.
      * split; [left; congruence|]. intros _. rewrite T. right. right. right.
        split; [right; right; right; eexists; split; [rewrite Hts; reflexivity|rewrite Es; reflexivity]|].
        left. split; [congruence|]. rewrite Es. destruct St as [[_ S]|[_ S]]; rewrite S; cbn; lia.
  - destruct (receive_all _ _ (f1, w, true) (w_rx w)) as [[[[[f2 w2] fi] rest] r]| |] eqn:Er; cbn [bind] in H; try discriminate H.
    injection H as <- <-.
    apply (facts_pre f f1 _ w w _ now); try assumption; try reflexivity.
    apply (receive_all_facts now (fun s : fdl * W * bool => fst s) _ _ (f1, w, true) (f2, w2, fi) rest r _ (check_cb_facts now) Er);
      destruct fi; reflexivity.
Qed.

Lemma app_transmit_facts f now (w : W) idx app hp f' w' d :
  app_transmit_telegram A ops f now w idx app hp = Ok (f', w', d) -> kind_of (f_state f) = KUseToken ->
  f_p f' = f_p f /\ f_gap f' = f_gap f /\
  (if d then exists wire er, w_tx w' = Some wire /\ w_calls w' = w_calls w ++ [CallTransmit idx hp (Some (wire, er))] /\
               (kind_of (f_state f') = KUseToken \/ kind_of (f_state f') = KAwaitDataResponse)
   else w_tx w' = w_tx w /\ f_state f' = f_state f).
Proof.
  intros H Hk. apply app_transmit_inv in H as (r & Hc & _ & Hr). destruct r as [[wire er]|].
  - destruct Hr as (-> & _ & Ht & s & e & -> & Hs). cbn. repeat (split; [reflexivity|]).
    exists wire, er. split; [exact Ht|]. split; [exact Hc|]. destruct Hs as [-> |Hs]; [left; exact Hk|right; exact Hs].
  - destruct Hr as (-> & -> & Ht). repeat split; try reflexivity. exact Ht.
Qed.

Lemma apps_loop_facts n : forall f now (w : W) hp f' w' d,
  apps_transmit_loop A ops n f now w hp = Ok (f', w', d) -> kind_of (f_state f) = KUseToken ->
  f_p f' = f_p f /\ f_gap f' = f_gap f /\
  (if d then exists wire cs i er, w_tx w' = Some wire /\ w_calls w' = cs ++ [CallTransmit i hp (Some (wire, er))] /\
               (kind_of (f_state f') = KUseToken \/ kind_of (f_state f') = KAwaitDataResponse)
   else w_tx w' = w_tx w /\ kind_of (f_state f') = KUseToken).
Proof.
  induction n as [|n IH]; intros f now w hp f' w' d H Hk; cbn [apps_transmit_loop] in H.
  - injection H as <- <- <-. repeat split; try reflexivity; assumption.
  - destruct (nth_error (w_apps w) (f_next_app f)) as [app|]; [|discriminate H].
    destruct (app_transmit_telegram A ops f now w (f_next_app f) app hp) as [[[f1 w1] d1]| |] eqn:Ea; cbn [bind] in H; try discriminate H.
    apply app_transmit_facts in Ea; try assumption. destruct Ea as [Hp1 [Hg1 Hd1]].
    destruct d1.
    + injection H as <- <- <-. split; [exact Hp1|]. split; [exact Hg1|].
      destruct Hd1 as [wire [er [T [C K]]]]. exists wire, (w_calls w), (f_next_app f), er. repeat split; assumption.
    + destruct Hd1 as [T1 S1].
      unfold schedule_next_application in H.
      destruct (get_use_token (f_state f1)) as [[[tk fa] fcd]| |]; cbn [bind] in H; try discriminate H.
      destruct (Nat.eqb (length (w_apps w1)) 0); [discriminate H|]. cbn [bind] in H.
      match type of H with (if ?c then _ else _) = _ => destruct c end.
      * injection H as <- <- <-. cbn. repeat split; assumption || reflexivity.
      * apply IH in H; [|reflexivity]. cbn [set_next_app set_st f_p f_gap] in H.
        destruct H as [Hp [Hg Hd]]. split; [congruence|]. split; [congruence|].
        destruct d; [exact Hd|]. split; [rewrite <- T1|]; apply Hd.
Qed.

(* what the head of do_use_token does: at most an application's telegram goes out; the GAP state is untouched *)
Definition use_facts (f f' : fdl) (w w' : W) : Prop :=
  f_p f' = f_p f /\ f_gap f' = f_gap f /\ (marker (f_state f') = None /\ pend (f_state f') = 1) /\
  (w_tx w = None -> w_tx w' = None \/ exists wire, w_tx w' = Some wire /\ tx_app f f' (w_calls w') wire).

Lemma use_facts_from L f0 f f' (w0 w w' : W) now :
  use_facts f f' w w' -> f_p f = f_p f0 -> f_gap f = f_gap f0 -> w_tx w = w_tx w0 ->
  (in_use (f_state f) -> in_use (f_state f0)) -> facts_l L f0 f' w0 w' now.
Proof.
  intros [U1 [U2 [[U3 U3'] U4]]] Pp Pg Pt Pu. pose proof (pend_range (f_state f0)).
  assert (Hg : f_gap f' = f_gap f0) by congruence.
  unfold facts_l. split; [congruence|]. rewrite <- Pt. split; [|split; [|split; [left; exact Hg|]]].
  - intros Hn. destruct (U4 Hn) as [X|[wire [X [cs [i [hp [er [C [K K']]]]]]]]]; [left; exact X|].
    right. exists wire. split; [exact X|]. left. exists cs, i, hp, er. split; [exact C|]. split; [exact (Pu K)|exact K'].
  - intros src Hm. rewrite U3 in Hm. discriminate Hm.
  - intros Hn. right. right. right. split; [|left; split; [exact Hg|lia]].
    destruct (U4 Hn) as [X|[wire [X [cs [i [hp [er [C _]]]]]]]]; [left; exact X|].
    right. left. exists wire, cs, i, hp, er. split; assumption.
Qed.

Lemma use_facts_facts f f' (w w' : W) now : use_facts f f' w w' -> facts f f' w w' now.
Proof. intros U. apply (use_facts_from _ f f f' w w w' now U); auto. Qed.

Lemma do_use_token_head_use_facts f now (w : W) f' w' :
  do_use_token_head A ops f now w = Ok (f', w') -> use_facts f f' w w'.
Proof.
  unfold do_use_token_head, assert_entry. intros H.
  destruct (f_state f) as [ | | | |tk fa fcd| | | | | ] eqn:Es; cbn [kind_of do_fn_entry state_kind_eqb bind get_use_token] in H; try discriminate H.
  match type of H with bind ?x _ = _ => destruct x as [[f1 w1]| |] eqn:E1 end; cbn [bind] in H; try discriminate H.
  assert (H1 : f_p f1 = f_p f /\ f_gap f1 = f_gap f /\ f_state f1 = f_state f /\ w_tx w1 = w_tx w).
  { destruct (negb _).
    - destruct (inst_add _ _) as [e| |]; cbn [bind] in E1; try discriminate E1.
      destruct (f_gap f) eqn:Eg.
      + injection E1 as <- <-. repeat split; try reflexivity; cbn; congruence.
      + destruct (inst_sub_dur _ _) as [e2| |]; cbn [bind] in E1; try discriminate E1.
        injection E1 as <- <-. repeat split; try reflexivity; cbn; congruence.
    - injection E1 as <- <-. repeat split; reflexivity. }
  destruct H1 as [Hp1 [Hg1 [Hs1 Ht1]]].
  destruct (wait_synchronization_pause f1 now) as [[f2 wait]| |] eqn:Ew; cbn [bind] in H; try discriminate H.
  apply wait_sync_same in Ew. destruct Ew as [[Hp2 [_ [_ [Hg2 [Hs2 _]]]]] _].
  assert (Hpass : forall f3 (w3 : W), f_p f3 = f_p f -> f_gap f3 = f_gap f -> w_tx w3 = w_tx w ->
            trans A f3 w3 (fun s : state => transition_pass_token s true first_attempt) = Ok (f', w') -> use_facts f f' w w').
  { intros f3 w3 Q1 Q2 Q3 Hfin. apply trans_spec in Hfin. destruct Hfin as [s' [Htr [-> ->]]].
    unfold transition_pass_token in Htr. destruct (assert_kind _ _); cbn [bind] in Htr; try discriminate Htr. injection Htr as <-.
    unfold use_facts. cbn. repeat split; try assumption. intros Hn. left. congruence. }
  destruct wait.
  - injection H as <- <-. unfold use_facts. cbn. split; [congruence|]. split; [congruence|].
    split; [rewrite Hs2, Hs1, Es; split; reflexivity|]. intros Hn. left. congruence.
  - rewrite Hs2, Hs1, Es in H. cbn [get_use_token bind] in H.
    assert (Hloop : forall hp (wx : W) f3 w3 d, w_tx wx = w_tx w ->
      (let* f0 := set_first_cycle_done f2 in apps_transmit_telegram A ops f0 now wx hp) = Ok (f3, w3, d) ->
      (if d then Ok (f3, w3) else trans A f3 w3 (fun s : state => transition_pass_token s true first_attempt)) = Ok (f', w') ->
      use_facts f f' w w').
    { intros hp wx f3 w3 d Hwx Hl Hfin.
      unfold set_first_cycle_done in Hl. rewrite Hs2, Hs1, Es in Hl. cbn [get_use_token bind] in Hl.
      apply apps_loop_facts in Hl; [|reflexivity]. cbn [set_st f_p f_gap] in Hl. destruct Hl as [Q1 [Q2 Q3]].
      destruct d; [|destruct Q3 as [T K]; apply (Hpass f3 w3); congruence].
      injection Hfin as <- <-. destruct Q3 as [wire [cs [i [er [T [C K]]]]]].
      split; [congruence|]. split; [congruence|]. split.
      - destruct K as [K|K]; destruct (f_state f3); try discriminate K; split; reflexivity.
      - intros _. right. exists wire. split; [exact T|]. exists cs, i, hp, er. split; [exact C|]. split; [left; rewrite Es; reflexivity|exact K]. }
    destruct (now <? f_end_tht f2).
    + match type of H with bind ?x _ = _ => destruct x as [[[f3 w3] d]| |] eqn:El end; cbn [bind] in H; try discriminate H.
      exact (Hloop false (note A w1 TUseLowPrio) f3 w3 d Ht1 El H).
    + destruct fcd; cbn [negb] in H.
      * cbn [bind] in H. apply (Hpass f2 (note A w1 TUseHoldOver)); [congruence|congruence|exact Ht1|exact H].
      * match type of H with bind ?x _ = _ => destruct x as [[[f3 w3] d]| |] eqn:El end; cbn [bind] in H; try discriminate H.
        exact (Hloop true (note A w1 TUseHighPrioOnce) f3 w3 d Ht1 El H).
Qed.

Lemma is_decline_no_send c : is_decline c -> no_send c.
Proof. intros [i [hp ->]]. exact I. Qed.

(* The whole do_use_token: the head, then - when the head found nothing (more) to send -
   do_pass_token in the same poll.  What it transmits is an application's telegram, or (no application
   having sent anything) the GAP request / the token of do_pass_token; the GAP state is left alone or
   advanced by exactly the GAP step of the visit.  Stated for a poll that began in (f0, w0), so that it
   also serves the time-out path of do_await_data_response. *)
Lemma do_use_token_from L f0 f now (w0 w : W) f' w' :
  do_use_token A ops f now w = Ok (f', w') -> visit_prefix f0 f w0 w -> in_use (f_state f0) ->
  facts_l L f0 f' w0 w' now.
Proof.
  rewrite do_use_token_split. intros H [Pp [Pr [Pg [Pt [l0 [Pc [Pf _]]]]]]] Hu.
  destruct (do_use_token_head A ops f now w) as [[f1 w1]| |] eqn:Eh; cbn [bind] in H; try discriminate H.
  destruct (is_pass_token (f_state f1)) eqn:Ek.
  - destruct (do_use_token_head_pass _ _ _ _ _ _ _ Eh Ek) as [Es1 [_ [Hp1 [Hr1 [_ [Hg1 [_ [Ht1 [_ [l [Hl Hdl]]]]]]]]]]].
    apply (do_pass_token_from L f0 f1 now w0 w1 f' w' true first_attempt H Es1).
    + unfold visit_prefix. repeat (split; [congruence|]). exists (l0 ++ l).
      split; [rewrite Hl, Pc, app_assoc; reflexivity|]. split; [|intros _; exact Hu].
      apply Forall_app. split; [exact Pf|]. eapply Forall_impl; [|exact Hdl]. exact is_decline_no_send.
    + right. right. exact Hu.
    + destruct Hu as [K|K]; destruct (f_state f0); try discriminate K; reflexivity.
    + intros _. right. exact Hu.
  - injection H as <- <-. apply (use_facts_from L f0 f f1 w0 w w1 now (do_use_token_head_use_facts _ _ _ _ _ Eh)); auto.
Qed.

Lemma do_use_token_facts f now (w : W) f' w' :
  do_use_token A ops f now w = Ok (f', w') -> facts f f' w w' now.
Proof.
  intros H. apply (do_use_token_from _ f f now w w f' w' H (visit_prefix_refl f w)).
  left. unfold do_use_token, assert_entry in H. destruct (f_state f); cbn in H; try discriminate H. reflexivity.
Qed.

Lemma do_await_data_response_facts f now (w : W) f' w' :
  do_await_data_response A ops f now w = Ok (f', w') -> facts f f' w w' now.
Proof.
  unfold do_await_data_response, assert_entry. intros H.
  destruct (f_state f) as [ | | | | | |addr tk fa| | | ] eqn:Es; cbn [kind_of do_fn_entry state_kind_eqb bind get_await_data_response] in H; try discriminate H.
  destruct (nth_error (w_apps w) (f_next_app f)) as [app|]; [|discriminate H].
  destruct (receive_telegram (fun t => t) (w_rx w)) as [[rest received]| |]; cbn [bind] in H; try discriminate H.
  destruct received as [t|].
  - destruct (mark_rx_frame f now) as [Mp [Mr [Mg [Ms _]]]].
    destruct (is_valid_response (mark_rx f now) addr t).
    + destruct (a_rx ops app now _ addr t) as [app'| |]; cbn [bind] in H; try discriminate H.
      match type of H with context [trans A ?a ?b ?c] => destruct (trans A a b c) as [[f1 w1]| |] eqn:Et end; cbn [bind] in H; try discriminate H.
      apply trans_spec in Et. destruct Et as [s' [Htr [-> ->]]].
      unfold transition_use_token in Htr. destruct (assert_kind _ _); cbn [bind] in Htr; try discriminate Htr. injection Htr as <-.
      unfold set_first_cycle_done in H. cbn [set_st f_state get_use_token bind] in H. injection H as <- <-.
      apply facts_quiet; cbn; try congruence. rewrite Es. cbn. lia.
    + apply trans_spec in H. destruct H as [s' [Htr [-> ->]]].
      unfold transition_active_idle in Htr. destruct (assert_kind _ _); cbn [bind] in Htr; try discriminate Htr. injection Htr as <-.
      apply facts_quiet; cbn; try congruence. rewrite Es. cbn. lia.
  - destruct (check_slot_expired _ now) as [[f1 expired]| |] eqn:Ec; cbn [bind] in H; try discriminate H.
    apply check_slot_expired_same in Ec. destruct Ec as [Hp1 [Hr1 [_ [Hg1 [Hs1 _]]]]]. cbn in Hp1, Hr1, Hg1, Hs1.
    destruct expired.
    + destruct (a_to ops app now _ addr) as [app'| |]; cbn [bind] in H; try discriminate H.
      match type of H with context [trans A ?a ?b ?c] => destruct (trans A a b c) as [[f2 w2]| |] eqn:Et end; cbn [bind] in H; try discriminate H.
      apply trans_spec in Et. destruct Et as [s' [Htr [-> ->]]].
      unfold transition_use_token in Htr. destruct (assert_kind _ _); cbn [bind] in Htr; try discriminate Htr. injection Htr as <-.
      unfold set_first_cycle_done in H. cbn [set_st f_state get_use_token bind] in H.
      assert (Hu : in_use (f_state f)) by (right; rewrite Es; reflexivity).
      apply (do_use_token_from _ f _ now w _ f' w' H); [|exact Hu].
      unfold visit_prefix. cbn [set_st f_p f_ring f_gap]. repeat (split; [assumption|]).
      cbn [w_tx w_calls note log_call set_app set_rx]. split; [destruct (Nat.ltb _ _); reflexivity|].
      exists [CallHandleTimeout (f_next_app f) addr]. split; [destruct (Nat.ltb _ _); reflexivity|].
      split; [constructor; [exact I|constructor]|intros _; exact Hu].
    + injection H as <- <-. apply facts_silent; cbn; try congruence.
      match goal with |- context [if ?c then _ else _] => destruct c end; reflexivity.
Qed.

(* what the prologue of poll_inner (connectivity, ongoing transmission, bus activity) may change *)
Definition pre_rel (f f3 : fdl) (w w3 : W) : Prop :=
  f_p f3 = f_p f /\ f_ring f3 = f_ring f /\ f_gap f3 = f_gap f /\ f_conn f3 = f_conn f /\
  w_tx w3 = w_tx w /\ w_calls w3 = w_calls w /\ w_rx w3 = w_rx w /\ w_apps w3 = w_apps w /\
  (f_state f3 = f_state f \/
   (online_entry_kind (kind_of (f_state f)) = true /\ f_state f3 = ListenToken None 0) \/
   (passive_entry_kind (kind_of (f_state f)) = true /\ f_state f3 = PassiveIdle)).

Lemma pre_rel_refl f (w : W) : pre_rel f f w w.
Proof. unfold pre_rel. repeat (split; [reflexivity|]). left. reflexivity. Qed.

Lemma poll_inner_cases f now busy (w : W) f' w' :
  poll_inner ops f now busy w = Ok (f', w') ->
  pre_rel f f' w w' \/ exists f3 w3, pre_rel f f3 w w3 /\ lba_le f3 now /\ dispatch A ops f3 now w3 = Ok (f', w').
Proof.
  intros E. apply poll_inner_inv in E as [(_ & _ & -> & ->)|(f2 & w2 & _ & Hpro & E)]; [left; apply pre_rel_refl|].
  assert (Hpre : pre_rel f f2 w w2).
  { destruct Hpro as [[-> ->]|(s' & -> & -> & Hs')]; [apply pre_rel_refl|].
    unfold pre_rel. cbn. repeat (split; [reflexivity|]). right. destruct Hs' as [(_ & K & ->)|(_ & K & ->)]; auto. }
  assert (Hact : forall tg, pre_rel f (mark_bus_activity f2 now) w (note A w2 tg)).
  { intros tg. rewrite mark_bus_activity_eq. destruct Hpre as [P1 [P2 [P3 [P4 [P5 [P6 [P7 [P8 P9]]]]]]]].
    unfold pre_rel. cbn. repeat (split; [assumption|]). exact P9. }
  destruct (busy || _) eqn:Eb.
  - destruct E as [-> ->]. left. apply Hact.
  - destruct E as (f3 & w3 & Ec & Hd). right. exists f3, w3. apply orb_false_iff in Eb as [_ Eb].
    assert (Hle2 : lba_le f2 now) by (intros l Hl; rewrite Hl in Eb; apply Z.leb_gt in Eb; lia).
    unfold check_for_bus_activity in Ec. destruct (Nat.ltb _ _); injection Ec as <- <-; (split; [|split; [|exact Hd]]);
      try assumption.
    + specialize (Hact TBusActivity). destruct Hact as [P1 [P2 [P3 [P4 [P5 [P6 [P7 [P8 P9]]]]]]]].
      unfold pre_rel. cbn in *. repeat (split; [assumption|]). exact P9.
    + rewrite mark_bus_activity_eq. intros l Hl. cbn in Hl. injection Hl as <-.
      pose proof (goi_val_cases f2 now) as Hg. destruct (f_lba f2) as [l2|] eqn:E2; [specialize (Hle2 l2 E2)|]; lia.
Qed.

Lemma dispatch_facts f now (w : W) f' w' : dispatch A ops f now w = Ok (f', w') -> facts f f' w w' now.
Proof.
  unfold dispatch. intros E.
  destruct (poll_dispatch (kind_of (f_state f))) as [ | |[ | | | | | | | ]]; try discriminate E;
    [eapply do_listen_token_facts|eapply do_active_idle_facts|eapply do_claim_token_facts|eapply do_use_token_facts
    |eapply do_await_data_response_facts|eapply do_pass_token_facts|eapply do_await_status_response_facts
    |eapply do_check_token_pass_facts]; exact E.
Qed.

Lemma listen_idle_tx f f' now calls calls' wire :
  tx_class f f' now calls calls' wire -> kind_of (f_state f) = KListenToken \/ kind_of (f_state f) = KActiveIdle ->
  calls' = calls /\
  ((wire = encode_token (ts f) (ts f) /\ f_state f' = ClaimToken StepSecondToken) \/
   (exists src st, marker (f_state f) = Some src /\ wire = reply_wire src (ts f) st /\ reply_sent f f' src st)).
Proof.
  intros Hc Hk.
  assert (Hnu : ~ in_use (f_state f)) by (intros [K|K]; destruct Hk as [Q|Q]; rewrite Q in K; discriminate K).
  destruct Hc as [Y|[Yc [Y|[Y|Y]]]].
  - exfalso. destruct Y as [cs [i [hp [er [_ [K _]]]]]]. exact (Hnu K).
  - split; [exact (quiet_calls_idle _ _ _ Hnu Yc)|]. left. destruct Y as [da [Hw [[Hda [[S _]|[_ S]]]|[_ [K|[K|[K|K]]]]]]].
    + subst da. split; assumption.
    + exfalso. destruct Hk as [Q|Q]; rewrite S in Q; discriminate Q.
    + exfalso. destruct Hk as [Q|Q]; rewrite Q in K; discriminate K.
    + exfalso. destruct Hk as [Q|Q]; rewrite Q in K; discriminate K.
    + exfalso. destruct Hk as [Q|Q]; rewrite Q in K; discriminate K.
    + exfalso. exact (Hnu K).
  - exfalso. destruct Y as [a [_ [_ [_ [_ [_ [[_ [[att S]|S]]|[_ [S|[a0 S]]]]]]]]]]; [| exact (Hnu S)| |];
      destruct Hk as [Q|Q]; rewrite S in Q; discriminate Q.
  - split; [exact (quiet_calls_idle _ _ _ Hnu Yc)|]. right. destruct Y as [src [st [Hw Hr]]]. exists src, st. split; [|split; assumption].
    destruct Hr as [[cc [S _]]|[nps [cc [S _]]]]; rewrite S; reflexivity.
Qed.

Lemma facts_entry f f3 f' (w w3 w' : W) now :
  pre_rel f f3 w w3 -> lba_le f3 now -> f_state f3 <> PassiveIdle -> facts f3 f' w3 w' now -> facts_l True f f' w w' now.
Proof.
  intros [P1 [P2 [P3 [P4 [P5 [P6 [P7 [P8 P9]]]]]]]] Hle3 Hnp Hf.
  destruct P9 as [P9|[[Hent Hst]|[_ X]]]; [|clear Hnp|contradiction].
  - exact (facts_l_pre True (lba_le f3 now) f f3 f' w w3 w' now P1 P2 P9 P3 P5 P6 P7 (fun _ => Hle3) Hf).
  - (* the station goes online in this poll: it starts to listen, and may at once find the bus silent for its time-out *)
    destruct Hf as [F1 [F2 [F3 [F4 F5]]]].
    pose proof (ts_ext _ _ P1) as Hts.
    unfold facts_l. rewrite <- P5, <- P6, <- P7, <- P3. split; [congruence|]. split; [|split; [|split]].
    + intros Hn. destruct (F2 Hn) as [X|[wire [X Y]]]; [left; exact X|]. right. exists wire. split; [exact X|].
      destruct (listen_idle_tx _ _ _ _ _ _ Y ltac:(rewrite Hst; left; reflexivity)) as [Hc [[-> S]|[src [st [M _]]]]];
        [|rewrite Hst in M; discriminate M].
      right. split; [apply quiet_calls_same; exact Hc|]. left. exists (ts f). rewrite Hts. split; [reflexivity|]. left. split; [reflexivity|].
      left. split; [exact S|]. left. right. right. exact Hent.
    + intros src Hm. destruct (F3 src Hm) as [X|[X1 [X2 [X3 X4]]]]; [rewrite Hst in X; discriminate X|].
      right. rewrite <- Hts. repeat (split; [assumption|]). intros _. exact (X4 Hle3).
    + destruct F4 as [X|[[O _]|[K|[[S G]|X]]]]; [left; exact X| | |right; right; right; left|right; right; right; right; exact X].
      * exfalso. rewrite Hst in O. destruct O as [[att E]|[E|E]]; discriminate E.
      * rewrite Hst in K. discriminate K.
      * rewrite <- Hts. split; assumption.
    + intros _. left. unfold sw_reset. destruct (f_state f); cbn in Hent; try discriminate Hent; cbn; tauto.
Qed.

Lemma pre_rel_facts L f f' (w w' : W) now : pre_rel f f' w w' -> facts_l L f f' w w' now.
Proof.
  intros [P1 [P2 [P3 [P4 [P5 [P6 [P7 [P8 P9]]]]]]]].
  destruct P9 as [P9|[[_ P9]|[_ P9]]].
  - apply facts_silent; assumption.
  - apply facts_quiet; try assumption; [rewrite P9; reflexivity|]. rewrite P9. pose proof (pend_range (f_state f)). cbn. lia.
  - apply facts_quiet; try assumption; [rewrite P9; reflexivity|]. rewrite P9. pose proof (pend_range (f_state f)). cbn. lia.
Qed.

Lemma poll_inner_facts f now busy (w : W) f' w' :
  poll_inner ops f now busy w = Ok (f', w') -> facts_l True f f' w w' now.
Proof.
  intros H. apply poll_inner_cases in H. destruct H as [H|[f3 [w3 [Hpre [Hle Hd]]]]].
  - exact (pre_rel_facts _ _ _ _ _ _ H).
  - assert (Hnp : f_state f3 <> PassiveIdle) by (intros E; unfold dispatch in Hd; rewrite E in Hd; discriminate Hd).
    exact (facts_entry _ _ _ _ _ _ _ Hpre Hle Hnp (dispatch_facts _ _ _ _ _ Hd)).
Qed.

Lemma poll_unfold f now pin (apps : list A) f' o apps' calls :
  poll ops f now pin apps = Ok (f', o, apps', calls) ->
  exists w', poll_inner ops f now (tx_busy pin) (mkWorld (rx pin) None apps [] []) = Ok (f', w') /\
             o = mkPhyOut (w_tx w') (w_rx w') /\ apps' = w_apps w' /\ calls = w_calls w'.
Proof.
  unfold poll, poll_traced. intros H.
  destruct (poll_inner ops f now (tx_busy pin) _) as [[f1 w1]| |] eqn:E; cbn [bind] in H; try discriminate H.
  injection H as <- <- <- <-. exists w1. repeat split; reflexivity.
Qed.

(* the facts of a whole poll; the theorems below are its clauses *)
Lemma poll_facts f now pin (apps : list A) f' o apps' calls :
  poll ops f now pin apps = Ok (f', o, apps', calls) ->
  facts_l True f f' (mkWorld (rx pin) None apps [] []) (mkWorld (rx_left o) (tx o) apps' calls []) now.
Proof.
  intros H. apply poll_unfold in H. destruct H as [w' [Hi [-> [-> ->]]]].
  apply poll_inner_facts in Hi. destruct w'. exact Hi.
Qed.

Theorem poll_transmissions f now pin (apps : list A) f' o apps' calls wire :
  poll ops f now pin apps = Ok (f', o, apps', calls) -> tx o = Some wire ->
  tx_class f f' now [] calls wire.
Proof.
  intros H Htx. destruct (poll_facts _ _ _ _ _ _ _ _ H) as [_ [F2 _]]. cbn [w_tx w_calls] in F2.
  destruct (F2 eq_refl) as [X|[wire' [X Y]]]; [congruence|]. rewrite X in Htx. injection Htx as <-. exact Y.
Qed.

Theorem poll_marks_last_request f now pin (apps : list A) f' o apps' calls src :
  poll ops f now pin apps = Ok (f', o, apps', calls) -> marker (f_state f') = Some src ->
  marker (f_state f) = Some src \/
  (last_request (rx pin) (ts f) src /\ rx_left o = [] /\ f_pending f' = 0%nat /\ f_lba f' = Some now).
Proof.
  intros H Hm. destruct (poll_facts _ _ _ _ _ _ _ _ H) as [_ [_ [F3 _]]].
  destruct (F3 src Hm) as [X|[X1 [X2 [X3 X4]]]]; [left; exact X|right]. repeat (split; [assumption|]). exact (X4 I).
Qed.

Theorem poll_gap_state_frame f now pin (apps : list A) f' o apps' calls :
  poll ops f now pin apps = Ok (f', o, apps', calls) -> f_gap f' = f_gap f \/ gap_change f f'.
Proof. intros H. exact (proj1 (proj2 (proj2 (proj2 (poll_facts _ _ _ _ _ _ _ _ H))))). Qed.

Theorem poll_sweep_rel f now pin (apps : list A) f' o apps' calls :
  poll ops f now pin apps = Ok (f', o, apps', calls) -> sw_rel f f' [] calls (tx o).
Proof. intros H. exact (proj2 (proj2 (proj2 (proj2 (poll_facts _ _ _ _ _ _ _ _ H)))) eq_refl). Qed.

Theorem poll_keeps_parameters f now pin (apps : list A) f' o apps' calls :
  poll ops f now pin apps = Ok (f', o, apps', calls) -> f_p f' = f_p f.
Proof. intros H. exact (proj1 (poll_facts _ _ _ _ _ _ _ _ H)). Qed.

(* a GAP request as seen from outside: the poll transmits and ends waiting for the reply *)
Definition gap_request (f' : fdl) (o : phy_out) (a : Z) : Prop :=
  tx o <> None /\ (f_state f' = AwaitStatusResponse a \/ f_state f' = ClaimToken (StepScanAwaitResponse a)).

Theorem poll_gap_request_in_gap f now pin (apps : list A) f' o apps' calls a :
  poll ops f now pin apps = Ok (f', o, apps', calls) -> gap_request f' o a ->
  in_gap (ts f) (r_ns (f_ring f)) a /\ a <> ts f /\ a <> r_ns (f_ring f) /\
  (gap_cursor_ok f -> 0 <= a < p_hsa (f_p f)) /\
  tx o = Some (sr_wire a (ts f)) /\ (Forall no_send calls /\ (calls <> [] -> in_use (f_state f))) /\
  f_ring f' = f_ring f /\ f_gap f' = GapDoPoll a /\
  ((f_state f' = AwaitStatusResponse a /\ gap_origin (f_state f)) \/
   (f_state f' = ClaimToken (StepScanAwaitResponse a) /\
    (f_state f = ClaimToken StepScan \/ exists a0, f_state f = ClaimToken (StepScanAwaitResponse a0)))).
Proof.
  intros H [Htx Hst]. destruct (tx o) as [wire|] eqn:Et; [|contradiction Htx; reflexivity].
  pose proof (poll_transmissions _ _ _ _ _ _ _ _ _ H Et) as Hc.
  destruct Hc as [Y|[Yc [Y|[Y|Y]]]].
  - exfalso. destruct Y as [cs [i [hp [er [_ [_ [K|K]]]]]]]; destruct Hst as [S|S]; rewrite S in K; discriminate K.
  - exfalso. destruct Y as [da [_ [[_ [[S' _]|[S' _]]]|[[S'|[att S']] _]]]]; destruct Hst as [S|S]; rewrite S in S'; discriminate S'.
  - destruct Y as [a' [Hw [Hin [Hr [Hring [Hg Hs]]]]]].
    assert (a' = a).
    { destruct Hs as [[S' _]|[S' _]]; destruct Hst as [S|S]; rewrite S in S'; try discriminate S'; injection S' as S'; symmetry; exact S'. }
    subst a'. split; [exact Hin|]. split; [exact (in_gap_not_self _ _ _ Hin)|]. split; [exact (in_gap_not_ns _ _ _ Hin)|].
    split; [exact Hr|]. split; [rewrite Hw; reflexivity|].
    split; [destruct Yc as [l [Hl [Hf Hu]]]; cbn in Hl; subst l; split; assumption|]. split; [exact Hring|]. split; [exact Hg|exact Hs].
  - exfalso. destruct Y as [src [st [_ [[cc [_ [_ S']]]|[nps [cc [_ [_ S']]]]]]]].
    + destruct (ready_for_ring (f_ring f)); destruct Hst as [S|S]; rewrite S in S'; discriminate S'.
    + destruct Hst as [S|S]; rewrite S in S'; discriminate S'.
Qed.

Lemma pre_rel_state f f3 (w w3 : W) :
  pre_rel f f3 w w3 -> online_entry_kind (kind_of (f_state f)) = false ->
  passive_entry_kind (kind_of (f_state f)) = false -> f_state f3 = f_state f.
Proof.
  intros [_ [_ [_ [_ [_ [_ [_ [_ P9]]]]]]]] Ho Hp. destruct P9 as [P9|[[P9 _]|[P9 _]]]; [exact P9|congruence|congruence].
Qed.

Lemma poll_inner_dispatches f now (w : W) :
  f_conn f = ConnOnline -> online_entry_kind (kind_of (f_state f)) = false ->
  (forall l, f_lba f = Some l -> l < now) ->
  poll_inner ops f now false w =
  dispatch A ops (fst (check_for_bus_activity A f now w)) now (snd (check_for_bus_activity A f now w)).
Proof.
  intros Hc Hk Hl. unfold poll_inner. rewrite Hc, Hk. cbn [bind].
  unfold check_for_ongoing_transmision.
  assert (Hp : ongoing_uses_predicted_end && match f_lba f with Some l => now <=? l | None => false end = false).
  { destruct (f_lba f) as [l|]; [|apply andb_false_r]. specialize (Hl l eq_refl).
    destruct (Z.leb_spec now l); [lia|apply andb_false_r]. }
  rewrite Hp. cbn [orb].
  destruct (check_for_bus_activity A f now w) as [f3 w3]. reflexivity.
Qed.

Lemma check_for_bus_activity_pre f now (w : W) :
  pre_rel f (fst (check_for_bus_activity A f now w)) w (snd (check_for_bus_activity A f now w)).
Proof.
  unfold check_for_bus_activity. destruct (Nat.ltb _ _); cbn [fst snd]; [|apply pre_rel_refl].
  unfold pre_rel, mark_bus_activity, lba_get_or_insert. destruct (f_lba f); cbn; repeat (split; [reflexivity|]); left; reflexivity.
Qed.

(* the poll reaches the state function, which runs on (f3, w3): the beginning of the poll but for the
   bus-activity bookkeeping *)
Definition poll_dispatched (f : fdl) (now : Z) (pin : phy_in) (apps : list A) (f' : fdl) (o : phy_out) (apps' : list A)
           (calls : list call) : Prop :=
  exists f3 w3 w', f_p f3 = f_p f /\ f_ring f3 = f_ring f /\ f_gap f3 = f_gap f /\ f_state f3 = f_state f /\
    w_tx w3 = None /\ w_calls w3 = [] /\ w_rx w3 = rx pin /\ w_apps w3 = apps /\
    dispatch A ops f3 now w3 = Ok (f', w') /\ o = mkPhyOut (w_tx w') (w_rx w') /\ apps' = w_apps w' /\ calls = w_calls w'.

(* A poll from a state that the connectivity prologue leaves alone: it ends before the state function is
   reached and nothing happens, or the state function runs. *)
Lemma poll_cases f now pin (apps : list A) f' o apps' calls :
  poll ops f now pin apps = Ok (f', o, apps', calls) ->
  online_entry_kind (kind_of (f_state f)) = false -> passive_entry_kind (kind_of (f_state f)) = false ->
  (f_ring f' = f_ring f /\ f_gap f' = f_gap f /\ f_state f' = f_state f /\ tx o = None /\ calls = [] /\
   apps' = apps /\ rx_left o = rx pin) \/
  poll_dispatched f now pin apps f' o apps' calls.
Proof.
  intros H Ho Hp. apply poll_unfold in H. destruct H as [w' [Hi [-> [-> ->]]]]. cbn [tx rx_left].
  apply poll_inner_cases in Hi. destruct Hi as [Hpre|[f3 [w3 [Hpre [_ Hd]]]]];
    pose proof (pre_rel_state _ _ _ _ Hpre Ho Hp) as Hs; destruct Hpre as [P1 [P2 [P3 [_ [P5 [P6 [P7 [P8 _]]]]]]]].
  - left. repeat split; assumption.
  - right. exists f3, w3, w'. repeat split; assumption.
Qed.

Lemma poll_through f now pin (apps : list A) f' o apps' calls :
  poll ops f now pin apps = Ok (f', o, apps', calls) ->
  online_entry_kind (kind_of (f_state f)) = false -> passive_entry_kind (kind_of (f_state f)) = false ->
  f_conn f = ConnOnline -> tx_busy pin = false -> (forall l, f_lba f = Some l -> l < now) ->
  poll_dispatched f now pin apps f' o apps' calls.
Proof.
  intros H Ho Hp Hc Hb Hl. apply poll_unfold in H. destruct H as [w' [Hi [-> [-> ->]]]].
  rewrite Hb, (poll_inner_dispatches f now _ Hc Ho Hl) in Hi.
  pose proof (check_for_bus_activity_pre f now (mkWorld (rx pin) None apps [] [])) as Hpre.
  destruct (check_for_bus_activity A f now _) as [f3 w3]. cbn [fst snd] in Hi, Hpre.
  pose proof (pre_rel_state _ _ _ _ Hpre Ho Hp) as Hs. destruct Hpre as [P1 [P2 [P3 [_ [P5 [P6 [P7 [P8 _]]]]]]]].
  exists f3, w3, w'. repeat split; assumption.
Qed.

(* a poll in PassToken: do_pass_token_spec for the whole poll *)
Theorem poll_pass_token f now pin (apps : list A) f' o apps' calls dg att :
  poll ops f now pin apps = Ok (f', o, apps', calls) -> f_state f = PassToken dg att ->
  apps' = apps /\ calls = [] /\ rx_left o = rx pin /\ f_p f' = f_p f /\
  ( (tx o = None /\ f_state f' = f_state f /\ f_gap f' = f_gap f /\ f_ring f' = f_ring f)
  \/ (dg = true /\ exists a, gap_visit_step f = Ok (GapDoPoll a) /\ f_gap f' = GapDoPoll a /\
        f_state f' = AwaitStatusResponse a /\ f_ring f' = f_ring f /\ tx o = Some (sr_wire a (ts f)))
  \/ ((if dg then exists n, gap_visit_step f = Ok (GapWaiting n) /\ f_gap f' = GapWaiting n else f_gap f' = f_gap f) /\
      tx o = Some (encode_token (r_ns (f_ring f)) (ts f)) /\ token_passed f f' now att) ).
Proof.
  intros H Es. pose proof (poll_keeps_parameters _ _ _ _ _ _ _ _ H) as Hp'.
  destruct (poll_cases _ _ _ _ _ _ _ _ H ltac:(rewrite Es; reflexivity) ltac:(rewrite Es; reflexivity))
    as [[R [G [S [T [C [Ap X]]]]]]|[f3 [w3 [w' [P1 [P2 [P3 [Hs [T3 [C3 [X3 [A3 [Hd [-> [-> ->]]]]]]]]]]]]]]]; [tauto|]. cbn [tx rx_left].
  unfold dispatch in Hd. rewrite Hs, Es in Hd. cbn [kind_of poll_dispatch] in Hd.
  apply do_pass_token_spec in Hd. destruct Hd as [dg' [att' [Est [Hp [Hc [Hca [Hap [Hrx Hcases]]]]]]]].
  rewrite Hs, Es in Est. injection Est as <- <-.
  unfold token_passed in *. rewrite (gap_visit_step_ext f3 f P1 P2 P3), (ts_ext _ _ P1), P2, P3, Hs, T3 in Hcases.
  repeat (split; [congruence|]).
  destruct Hcases as [C1|[[D [a [Hstep [G [S [R [_ T]]]]]]]|[G [_ C3']]]]; [left; exact C1| |right; right; split; assumption].
  right. left. split; [exact D|]. exists a. repeat split; assumption.
Qed.

(* the phase of a token visit after its GAP request: waiting for the reply, then passing the token *)
Definition gap_done (s : state) : bool :=
  match s with AwaitStatusResponse _ => true | PassToken false _ => true | _ => false end.

Theorem after_gap_request_step f now pin (apps : list A) f' o apps' calls :
  poll ops f now pin apps = Ok (f', o, apps', calls) -> gap_done (f_state f) = true ->
  calls = [] /\ f_gap f' = f_gap f /\
  ( (tx o = None /\
     (f_state f' = f_state f \/ f_state f' = PassToken false AttFirst \/ f_state f' = ActiveIdle None None 0))
  \/ (tx o = Some (encode_token (r_ns (f_ring f)) (ts f)) /\
      witness (f_ring f) (ts f) (r_ns (f_ring f)) = Ok (f_ring f') /\
      (f_state f' = UseToken now None false \/ exists att, f_state f' = CheckTokenPass att)) ).
Proof.
  intros H Hgd.
  destruct (f_state f) as [ | | | | | | |[|] att| |a0] eqn:Es; try discriminate Hgd.
  - destruct (poll_pass_token _ _ _ _ _ _ _ _ _ _ H Es) as [_ [C [_ [_ Hcases]]]]. split; [exact C|].
    destruct Hcases as [[T [S [G R]]]|[[D _]|[G [T [Wi St]]]]]; [|discriminate D|].
    + split; [exact G|]. left. split; [exact T|]. left. congruence.
    + split; [exact G|]. right. split; [exact T|]. split; [exact Wi|].
      destruct St as [[_ S]|[_ S]]; [left; exact S|right; exists att; exact S].
  - destruct (poll_cases _ _ _ _ _ _ _ _ H ltac:(rewrite Es; reflexivity) ltac:(rewrite Es; reflexivity))
      as [[R [G [S [T [C _]]]]]|[f3 [w3 [w' [P1 [P2 [P3 [Hs [T3 [C3 [X3 [_ [Hd [-> [_ ->]]]]]]]]]]]]]]]; [rewrite <- Es; tauto|]. cbn [tx].
    pose proof (ts_ext _ _ P1) as Hts. unfold dispatch in Hd. rewrite Hs, Es in Hd. cbn [kind_of poll_dispatch] in Hd.
    apply do_await_status_response_spec in Hd.
    destruct Hd as [a0' [Est [Hne [Hg0 [Hp [Hc [Hca [Hap [Hg [rest [received [Hrcv [Hrx Hcases]]]]]]]]]]]]].
    rewrite Hs, Hts, P2 in *. split; [congruence|]. split; [congruence|].
    destruct Hcases as [[_ [T [S R]]]|[[t [_ [_ [T [S _]]]]]|[[t [_ [_ [T [S R]]]]]|[_ [[T [S R]]|[T0 [T [Wi St]]]]]]]].
    + left. split; [congruence|]. left. congruence.
    + left. split; [congruence|]. right. left. exact S.
    + left. split; [congruence|]. right. right. exact S.
    + left. split; [congruence|]. right. left. exact S.
    + right. split; [exact T|]. split; [exact Wi|].
      destruct St as [[_ S]|[_ S]]; [left; exact S|right; exists AttFirst; exact S].
Qed.

(* ghost counter: GAP requests of the token-passing kind since the station last left the phase
   "after the GAP request" (which, by after_gap_request_step, it leaves only by transmitting the
   token or by giving it up) *)
Definition is_pass_gap_request (f' : fdl) (o : phy_out) : bool :=
  match tx o, f_state f' with Some _, AwaitStatusResponse _ => true | _, _ => false end.

Definition visit_count (c : nat) (f' : fdl) (o : phy_out) : nat :=
  if is_pass_gap_request f' o then S c else if gap_done (f_state f') then c else O.

Fixpoint gap_counters (f : fdl) (c : nat) (ins : list (Z * phy_in * list A)) : list nat :=
  match ins with
  | [] => []
  | (now, pin, apps) :: t =>
      match poll ops f now pin apps with
      | Ok (f', o, _, _) => let c' := visit_count c f' o in c' :: gap_counters f' c' t
      | _ => []
      end
  end.

Lemma visit_count_inv f c now pin (apps : list A) f' o apps' calls :
  poll ops f now pin apps = Ok (f', o, apps', calls) ->
  (c = 0%nat \/ (c = 1%nat /\ gap_done (f_state f) = true)) ->
  visit_count c f' o = 0%nat \/ (visit_count c f' o = 1%nat /\ gap_done (f_state f') = true).
Proof.
  intros Ep Hinv. unfold visit_count. destruct (is_pass_gap_request f' o) eqn:Eg.
  - unfold is_pass_gap_request in Eg. destruct (tx o) as [wire|] eqn:Et; [|discriminate Eg].
    destruct (f_state f') as [ | | | | | | | | |a] eqn:Es'; try discriminate Eg.
    assert (Hgr : gap_request f' o a) by (split; [rewrite Et; discriminate|left; exact Es']).
    destruct (poll_gap_request_in_gap _ _ _ _ _ _ _ _ _ Ep Hgr) as [_ [_ [_ [_ [_ [_ [_ [_ Hst]]]]]]]].
    destruct Hst as [[_ Hor]|[S _]]; [|rewrite Es' in S; discriminate S].
    destruct Hinv as [->|[_ Hgd]]; [right; split; reflexivity|]. exfalso.
    destruct Hor as [[att Hpt]|[Hu|Hu]]; [rewrite Hpt in Hgd; discriminate Hgd| |];
      destruct (f_state f); try discriminate Hu; discriminate Hgd.
  - destruct (gap_done (f_state f')); [|left; reflexivity].
    destruct Hinv as [->|[-> _]]; [left; reflexivity|right; split; reflexivity].
Qed.

Theorem one_gap_request_per_visit ins : forall f c,
  (c = 0%nat \/ (c = 1%nat /\ gap_done (f_state f) = true)) ->
  Forall (fun x => (x <= 1)%nat) (gap_counters f c ins).
Proof.
  induction ins as [|[[now pin] apps] t IH]; intros f c Hinv; cbn [gap_counters]; [constructor|].
  destruct (poll ops f now pin apps) as [[[[f' o] apps'] calls]| |] eqn:Ep; try constructor.
  - destruct (visit_count_inv _ _ _ _ _ _ _ _ _ Ep Hinv) as [->|[-> _]]; lia.
  - exact (IH _ _ (visit_count_inv _ _ _ _ _ _ _ _ _ Ep Hinv)).
Qed.

Theorem pass_token_performs_gap_step f now pin (apps : list A) f' o apps' calls att :
  poll ops f now pin apps = Ok (f', o, apps', calls) -> f_state f = PassToken true att ->
  (tx o = None /\ f_state f' = f_state f /\ f_gap f' = f_gap f /\ f_ring f' = f_ring f) \/
  (gap_visit_step f = Ok (f_gap f') /\
   ( (exists a, f_gap f' = GapDoPoll a /\ f_state f' = AwaitStatusResponse a /\ tx o = Some (sr_wire a (ts f)) /\ f_ring f' = f_ring f)
   \/ (exists n, f_gap f' = GapWaiting n /\ tx o = Some (encode_token (r_ns (f_ring f)) (ts f)) /\
         witness (f_ring f) (ts f) (r_ns (f_ring f)) = Ok (f_ring f') /\
         (f_state f' = UseToken now None false \/ f_state f' = CheckTokenPass att)) )).
Proof.
  intros H Es. destruct (poll_pass_token _ _ _ _ _ _ _ _ _ _ H Es) as [_ [_ [_ [_ Hcases]]]].
  destruct Hcases as [C1|[[_ [a [Hstep [G [S [R T]]]]]]|[[n [Hstep G]] [T [Wi St]]]]]; [left; exact C1| |]; right; (split; [rewrite G; exact Hstep|]).
  - left. exists a. repeat split; assumption.
  - right. exists n. split; [exact G|]. split; [exact T|]. split; [exact Wi|].
    destruct St as [[_ S]|[_ S]]; [left|right]; exact S.
Qed.

Theorem claim_scan_step f now pin (apps : list A) f' o apps' calls :
  poll ops f now pin apps = Ok (f', o, apps', calls) ->
  (f_state f = ClaimToken StepScan \/ exists a0, f_state f = ClaimToken (StepScanAwaitResponse a0)) ->
  calls = [] /\
  ( (tx o = None /\
     (f_state f' = f_state f \/ f_state f' = ClaimToken StepScan \/ f_state f' = ActiveIdle None None 0 \/
      (f_state f' = PassToken false AttFirst /\ exists n, f_gap f' = GapWaiting n)))
  \/ (exists a, gap_request f' o a /\ tx o = Some (sr_wire a (ts f))) ).
Proof.
  intros H Hst.
  assert (Hk : kind_of (f_state f) = KClaimToken) by (destruct Hst as [S|[a0 S]]; rewrite S; reflexivity).
  destruct (poll_cases _ _ _ _ _ _ _ _ H ltac:(rewrite Hk; reflexivity) ltac:(rewrite Hk; reflexivity))
    as [[R [G [S [T [C _]]]]]|[f3 [w3 [w' [P1 [P2 [P3 [Hs [T3 [C3 [X3 [_ [Hd [-> [_ ->]]]]]]]]]]]]]]]; [tauto|]. cbn [tx].
  pose proof (ts_ext _ _ P1) as Hts. unfold dispatch in Hd. rewrite Hs, Hk in Hd. cbn [poll_dispatch] in Hd.
  apply do_claim_token_spec in Hd. destruct Hd as [st0 [Est [Hp [Hc [Hca [Hap Hcases]]]]]].
  split; [congruence|]. rewrite Hs in Est. unfold gap_request. cbn [tx].
  destruct Hst as [S|[a0 S]]; rewrite S in Est; injection Est as <-.
  - destruct Hcases as [Hr [Hrx Hsc]].
    destruct Hsc as [[T [S' G]]|[[T [[n G0] [G S']]]|[[T [cur [_ [_ [G S']]]]]|[cur [a [G0 [N [G [S' [T0 T]]]]]]]]]].
    + left. split; [congruence|]. left. congruence.
    + left. split; [congruence|]. right. right. right. split; [exact S'|]. exists n. congruence.
    + left. split; [congruence|]. left. congruence.
    + right. exists a. split; [|congruence]. split; [rewrite T; discriminate|right; exact S'].
  - destruct Hcases as [Hne [Hg0 [rest [received [Hrcv [Hrx Hcs]]]]]].
    destruct Hcs as [[_ [T [S' [G R]]]]|[[t [_ [_ [T [S' _]]]]]|[[t [_ [_ [T [S' _]]]]]|[_ [R Hsc]]]]].
    + left. split; [congruence|]. left. congruence.
    + left. split; [congruence|]. right. left. exact S'.
    + left. split; [congruence|]. right. right. left. exact S'.
    + destruct Hsc as [[T [S' G]]|[[T [N [G S']]]|[a [N [G [S' [T0 T]]]]]]].
      * left. split; [congruence|]. right. left. exact S'.
      * left. split; [congruence|]. right. left. exact S'.
      * right. exists a. split; [|congruence]. split; [rewrite T; discriminate|right; exact S'].
Qed.

Definition sweep_params_ok (f : fdl) : Prop :=
  0 <= ts f < p_hsa (f_p f) /\ 0 <= r_ns (f_ring f) < p_hsa (f_p f) /\ p_hsa (f_p f) <= 126 /\
  0 <= p_gap_wait (f_p f) <= 254.

Lemma gap_visit_step_pure f :
  0 <= ts f < p_hsa (f_p f) -> p_hsa (f_p f) <= 256 -> 0 <= p_gap_wait (f_p f) <= 254 ->
  gap_wf (p_hsa (f_p f)) (p_gap_wait (f_p f)) (f_gap f) ->
  gap_visit_step f = Ok (gstep (ts f) (r_ns (f_ring f)) (p_hsa (f_p f)) (p_gap_wait (f_p f)) (f_gap f)).
Proof.
  intros Ht Hh Hgw Hw. unfold gap_visit_step, gstep. destruct (f_gap f) as [rc|c]; cbn in Hw.
  - destruct (Z.ltb_spec (p_gap_wait (f_p f)) rc); [apply next_gap_poll_gnext; lia|].
    unfold u8_add. destruct (Z.leb_spec (rc + 1) 255); [reflexivity|lia].
  - apply next_gap_poll_gnext; lia.
Qed.

(* the GAP states after each of the next m token visits while NS does not change *)
Fixpoint visit_gaps (f : fdl) (m : nat) : res (list gap_state) :=
  match m with
  | O => Ok []
  | S m' => let* g := gap_visit_step f in let* l := visit_gaps (set_gap f g) m' in Ok (g :: l)
  end.

Lemma visit_gaps_pure m : forall f, sweep_params_ok f -> gap_wf (p_hsa (f_p f)) (p_gap_wait (f_p f)) (f_gap f) ->
  visit_gaps f m = Ok (giter (ts f) (r_ns (f_ring f)) (p_hsa (f_p f)) (p_gap_wait (f_p f)) (f_gap f) m).
Proof.
  induction m as [|m IH]; intros f Hok Hw; [reflexivity|]. pose proof Hok as [Ht [Hn [Hh Hgw]]].
  cbn [visit_gaps giter]. rewrite (gap_visit_step_pure f Ht ltac:(lia) Hgw Hw). cbn [bind].
  rewrite IH; [reflexivity|exact Hok|exact (gstep_wf _ _ _ _ _ Ht Hn Hw)].
Qed.

Theorem sweep_bound f a :
  sweep_params_ok f -> gap_wf (p_hsa (f_p f)) (p_gap_wait (f_p f)) (f_gap f) ->
  in_gap (ts f) (r_ns (f_ring f)) a -> 0 <= a < p_hsa (f_p f) ->
  exists m l, (1 <= m)%nat /\
    Z.of_nat m <= gap_size (ts f) (r_ns (f_ring f)) (p_hsa (f_p f)) + p_gap_wait (f_p f) + 2 /\
    visit_gaps f m = Ok (l ++ [GapDoPoll a]).
Proof.
  intros Hok Hw Hin Ha. pose proof Hok as [Ht [Hn [Hh Hgw]]].
  destruct (visits_until_step _ _ _ _ _ _ Ht Hn (proj1 Hgw) Ha Hin Hw) as [Hr _].
  set (v := visits_until (ts f) (r_ns (f_ring f)) (p_hsa (f_p f)) (p_gap_wait (f_p f)) a (f_gap f)) in *.
  destruct (sweep_bound_pure _ _ _ _ _ Ht Hn (proj1 Hgw) Ha Hin (Z.to_nat (v - 1)) (f_gap f) Hw) as [l Hl]; [fold v; lia|].
  exists (S (Z.to_nat (v - 1))), l. split; [lia|]. split; [lia|].
  rewrite (visit_gaps_pure _ f Hok Hw), Hl. reflexivity.
Qed.

Lemma receive_telegram_accept (buf : bytes) t n :
  decode buf = Ok (Accept t n) -> receive_telegram (fun t => t) buf = Ok (skipn n buf, Some t).
Proof. intros H. unfold receive_telegram. rewrite H. reflexivity. Qed.

Lemma receive_telegram_some (buf rest : bytes) t :
  receive_telegram (fun t => t) buf = Ok (rest, Some t) -> exists n, decode buf = Ok (Accept t n) /\ rest = skipn n buf.
Proof.
  unfold receive_telegram. destruct (decode buf) as [d| |]; cbn [bind]; try discriminate.
  destruct d as [ | |t' n]; try discriminate. intros H. injection H as <- <-. exists n. split; reflexivity.
Qed.

Lemma master_ready_is_reply tsa a t : is_master_ready_reply tsa a t -> is_reply_from tsa a t.
Proof. intros [h [pdu [st [Ht [Hfc [_ [Hs Hd]]]]]]]. exists h, pdu, st, StOk. repeat split; assumption. Qed.

Theorem found_becomes_successor f now pin (apps : list A) f' o apps' calls a0 t n :
  poll ops f now pin apps = Ok (f', o, apps', calls) ->
  (f_state f = AwaitStatusResponse a0 \/ f_state f = ClaimToken (StepScanAwaitResponse a0)) ->
  f_conn f = ConnOnline -> tx_busy pin = false -> (forall l, f_lba f = Some l -> l < now) ->
  decode (rx pin) = Ok (Accept t n) -> is_master_ready_reply (ts f) a0 t ->
  a0 <> ts f /\ set_next_station (f_ring f) a0 = Ok (f_ring f') /\ tx o = None /\ rx_left o = skipn n (rx pin) /\
  f_gap f' = f_gap f /\ calls = [] /\ f_p f' = f_p f /\
  (f_state f = AwaitStatusResponse a0 -> f_state f' = PassToken false AttFirst) /\
  (f_state f = ClaimToken (StepScanAwaitResponse a0) -> f_state f' = ClaimToken StepScan).
Proof.
  intros H Hst Hc Hb Hl Hd Hm.
  destruct (poll_through _ _ _ _ _ _ _ _ H ltac:(destruct Hst as [S|S]; rewrite S; reflexivity)
              ltac:(destruct Hst as [S|S]; rewrite S; reflexivity) Hc Hb Hl)
    as [f3 [w3 [w' [P1 [P2 [P3 [Hs3 [T3 [C3 [P7 [_ [Hi [-> [_ ->]]]]]]]]]]]]]]. cbn [tx rx_left].
  pose proof (ts_ext _ _ P1) as Hts. unfold dispatch in Hi. rewrite Hs3 in Hi.
  destruct Hst as [S|S]; rewrite S in Hi; cbn [kind_of poll_dispatch] in Hi.
  - apply do_await_status_response_spec in Hi.
    destruct Hi as [a0' [Est [Hne [Hg0 [Hp [Hc' [Hca [Hap [Hg [rest [received [Hrcv [Hrx Hcases]]]]]]]]]]]]].
    rewrite Hs3, S in Est. injection Est as <-.
    rewrite P7, (receive_telegram_accept _ _ _ Hd) in Hrcv. injection Hrcv as <- <-.
    rewrite Hts, P2 in Hcases.
    destruct Hcases as [[C _]|[[t' [C [_ [T [S' Hr]]]]]|[[t' [C [Hnf _]]]|[C _]]]]; try discriminate C.
    + injection C as <-. destruct Hr as [[_ Hr]|[Hn _]]; [|contradiction].
      split; [rewrite <- Hts; exact Hne|].
      split; [exact Hr|]. split; [congruence|]. split; [exact Hrx|]. split; [congruence|]. split; [congruence|]. split; [congruence|].
      split; [intros _; exact S'|intros X; rewrite S in X; discriminate X].
    + injection C as <-. exfalso. apply Hnf. apply master_ready_is_reply. exact Hm.
  - apply do_claim_token_spec in Hi. destruct Hi as [st0 [Est [Hp [Hc' [Hca [Hap Hcases]]]]]].
    rewrite Hs3, S in Est. injection Est as <-.
    destruct Hcases as [Hne [Hg0 [rest [received [Hrcv [Hrx Hcs]]]]]].
    rewrite P7, (receive_telegram_accept _ _ _ Hd) in Hrcv. injection Hrcv as <- <-.
    rewrite Hts, P2 in Hcs.
    destruct Hcs as [[C _]|[[t' [C [_ [T [S' [G Hr]]]]]]|[[t' [C [Hnf _]]]|[C _]]]]; try discriminate C.
    + injection C as <-. destruct Hr as [[_ Hr]|[Hn _]]; [|contradiction].
      split; [rewrite <- Hts; exact Hne|].
      split; [exact Hr|]. split; [congruence|]. split; [exact Hrx|]. split; [congruence|]. split; [congruence|]. split; [congruence|].
      split; [intros X; rewrite S in X; discriminate X|intros _; exact S'].
    + injection C as <-. exfalso. apply Hnf. apply master_ready_is_reply. exact Hm.
Qed.

Theorem successor_unchanged_otherwise f now pin (apps : list A) f' o apps' calls a0 :
  poll ops f now pin apps = Ok (f', o, apps', calls) ->
  (f_state f = AwaitStatusResponse a0 \/ f_state f = ClaimToken (StepScanAwaitResponse a0)) ->
  ~ (exists t n, decode (rx pin) = Ok (Accept t n) /\ is_master_ready_reply (ts f) a0 t) ->
  f_ring f' = f_ring f \/
  (f_state f = AwaitStatusResponse a0 /\ tx o = Some (encode_token (r_ns (f_ring f)) (ts f)) /\
   witness (f_ring f) (ts f) (r_ns (f_ring f)) = Ok (f_ring f')).
Proof.
  intros H Hst Hno.
  destruct (poll_cases _ _ _ _ _ _ _ _ H ltac:(destruct Hst as [S|S]; rewrite S; reflexivity) ltac:(destruct Hst as [S|S]; rewrite S; reflexivity))
    as [[R _]|[f3 [w3 [w' [P1 [P2 [P3 [Hs [T3 [C3 [X3 [_ [Hd [-> [_ ->]]]]]]]]]]]]]]]; [left; exact R|]. cbn [tx].
  pose proof (ts_ext _ _ P1) as Hts. unfold dispatch in Hd. rewrite Hs in Hd.
  assert (Hrcv0 : forall rest t', receive_telegram (fun t => t) (w_rx w3) = Ok (rest, Some t') -> ~ is_master_ready_reply (ts f) a0 t').
  { intros rest t' Hrcv Hm. rewrite X3 in Hrcv. apply receive_telegram_some in Hrcv. destruct Hrcv as [n [Hd' _]].
    apply Hno. exists t', n. split; assumption. }
  destruct Hst as [S|S]; rewrite S in Hd; cbn [kind_of poll_dispatch] in Hd.
  - apply do_await_status_response_spec in Hd.
    destruct Hd as [a0' [Est [Hne [Hg0 [Hp [Hc' [Hca [Hap [Hg [rest [received [Hrcv [Hrx Hcases]]]]]]]]]]]]].
    rewrite Hs, S in Est. injection Est as <-. rewrite Hts, P2 in Hcases.
    destruct Hcases as [[_ [_ [_ R]]]|[[t' [C [_ [_ [_ Hr]]]]]|[[t' [_ [_ [_ [_ R]]]]]|[_ [[_ [_ R]]|[T0 [T [Wi _]]]]]]]]; try (left; congruence).
    + destruct Hr as [[Hm _]|[_ R]]; [|left; congruence]. subst received. contradiction (Hrcv0 _ _ Hrcv Hm).
    + right. split; [exact S|]. split; assumption.
  - apply do_claim_token_spec in Hd. destruct Hd as [st0 [Est [Hp [Hc' [Hca [Hap Hcases]]]]]].
    rewrite Hs, S in Est. injection Est as <-.
    destruct Hcases as [Hne [Hg0 [rest [received [Hrcv [Hrx Hcs]]]]]]. rewrite Hts, P2 in Hcs. left.
    destruct Hcs as [[_ [_ [_ [_ R]]]]|[[t' [C [_ [_ [_ [_ Hr]]]]]]|[[t' [_ [_ [_ [_ [_ R]]]]]]|[_ [R _]]]]]; try congruence.
    destruct Hr as [[Hm _]|[_ R]]; [|congruence]. subst received. contradiction (Hrcv0 _ _ Hrcv Hm).
Qed.

Theorem found_gets_next_token f now pin (apps : list A) f' o apps' calls a0 t n
        now2 pin2 (apps2 : list A) f'' o2 apps2' calls2 wire :
  poll ops f now pin apps = Ok (f', o, apps', calls) ->
  f_state f = AwaitStatusResponse a0 ->
  f_conn f = ConnOnline -> tx_busy pin = false -> (forall l, f_lba f = Some l -> l < now) ->
  decode (rx pin) = Ok (Accept t n) -> is_master_ready_reply (ts f) a0 t ->
  length (r_las (f_ring f)) = 128%nat -> r_ts (f_ring f) = ts f -> 0 <= ts f < 128 ->
  poll ops f' now2 pin2 apps2 = Ok (f'', o2, apps2', calls2) -> tx o2 = Some wire ->
  r_ns (f_ring f') = a0 /\ wire = encode_token a0 (ts f).
Proof.
  intros H Hst Hc Hb Hl Hd Hm HL Hrts Hts H2 Htx.
  destruct (found_becomes_successor _ _ _ _ _ _ _ _ _ _ _ H (or_introl Hst) Hc Hb Hl Hd Hm)
    as [Hne [Hset [_ [_ [_ [_ [Hp [Hs' _]]]]]]]].
  specialize (Hs' Hst).
  destruct (set_next_station_effect _ _ _ HL ltac:(rewrite Hrts; exact Hts) ltac:(rewrite Hrts; exact Hne) Hset) as [_ [Hns _]].
  split; [exact Hns|].
  destruct (after_gap_request_step _ _ _ _ _ _ _ _ H2 ltac:(rewrite Hs'; reflexivity)) as [_ [_ [[T _]|[T _]]]].
  - rewrite T in Htx. discriminate Htx.
  - rewrite T in Htx. injection Htx as <-. rewrite Hns. unfold ts. rewrite Hp. reflexivity.
Qed.

Theorem listen_idle_transmissions f now pin (apps : list A) f' o apps' calls wire :
  poll ops f now pin apps = Ok (f', o, apps', calls) ->
  kind_of (f_state f) = KListenToken \/ kind_of (f_state f) = KActiveIdle ->
  tx o = Some wire ->
  calls = [] /\
  ((wire = encode_token (ts f) (ts f) /\ f_state f' = ClaimToken StepSecondToken) \/
   (exists src st, marker (f_state f) = Some src /\ wire = reply_wire src (ts f) st /\ reply_sent f f' src st)).
Proof. intros H Hk Htx. exact (listen_idle_tx _ _ _ _ _ _ (poll_transmissions _ _ _ _ _ _ _ _ _ H Htx) Hk). Qed.

Theorem reply_state_truth f f' src st : reply_sent f f' src st ->
  (st = RsMasterInRing <-> exists nps cc, f_state f = ActiveIdle (Some src) nps cc) /\
  (st = RsMasterWithoutToken <->
     (exists cc, f_state f = ListenToken (Some src) cc) /\ ready_for_ring (f_ring f) = true /\ src = r_ps (f_ring f)) /\
  (st = RsMasterNotReady <->
     (exists cc, f_state f = ListenToken (Some src) cc) /\ ~ (ready_for_ring (f_ring f) = true /\ src = r_ps (f_ring f))) /\
  st <> RsSlave.
Proof.
  intros [[cc [S [-> _]]]|[nps [cc [S [-> _]]]]].
  - unfold listen_reply_ready, listen_reply_not_ready.
    destruct (ready_for_ring (f_ring f)) eqn:Er; destruct (Z.eqb_spec src (r_ps (f_ring f))) as [E|E]; cbn [andb].
    + split; [split; [discriminate|intros [nps [cc' X]]; rewrite S in X; discriminate X]|].
      split; [split; [intros _; split; [exists cc; exact S|split; [reflexivity|exact E]]|reflexivity]|].
      split; [split; [discriminate|intros [_ N]; exfalso; apply N; split; [reflexivity|exact E]]|discriminate].
    + split; [split; [discriminate|intros [nps [cc' X]]; rewrite S in X; discriminate X]|].
      split; [split; [discriminate|intros [_ [_ X]]; contradiction]|].
      split; [split; [intros _; split; [exists cc; exact S|intros [_ X]; contradiction]|reflexivity]|discriminate].
    + split; [split; [discriminate|intros [nps [cc' X]]; rewrite S in X; discriminate X]|].
      split; [split; [discriminate|intros [_ [X _]]; discriminate X]|].
      split; [split; [intros _; split; [exists cc; exact S|intros [X _]; discriminate X]|reflexivity]|discriminate].
    + split; [split; [discriminate|intros [nps [cc' X]]; rewrite S in X; discriminate X]|].
      split; [split; [discriminate|intros [_ [X _]]; discriminate X]|].
      split; [split; [intros _; split; [exists cc; exact S|intros [X _]; discriminate X]|reflexivity]|discriminate].
  - unfold active_idle_reply.
    split; [split; [intros _; exists nps, cc; exact S|reflexivity]|].
    split; [split; [discriminate|intros [[cc' X] _]; rewrite S in X; discriminate X]|].
    split; [split; [discriminate|intros [[cc' X] _]; rewrite S in X; discriminate X]|discriminate].
Qed.

Definition idle_in : phy_in := mkPhyIn false [].
Definition t_sync (f : fdl) : Z := p_bits_to_time (f_p f) sync_pause_bits.

Definition reply_pending (f : fdl) (src : Z) : Prop :=
  (exists cc, f_state f = ListenToken (Some src) cc) \/ (exists nps cc, f_state f = ActiveIdle (Some src) nps cc).

Lemma t_sync_bounds f : 0 <= t_sync f <= 100000 * 1000000.
Proof. unfold t_sync, p_bits_to_time. apply bits_to_time_bounds. vm_compute. split; discriminate. Qed.

Lemma handle_lost_token_not_yet f now (w : W) l :
  f_lba f = Some l -> time_ok l -> time_ok now -> l <= now -> now - l < token_lost_timeout (f_p f) ->
  handle_lost_token A f now w = Ok (f, w, false).
Proof.
  intros Hl Tl Tn Hle Hto. unfold handle_lost_token, lba_get_or_insert, inst_diff, time_ok in *. rewrite Hl.
  rewrite i64_ok_small by lia. cbn [bind]. rewrite Z.abs_eq by lia.
  destruct (Z.leb_spec (token_lost_timeout (f_p f)) (now - l)); [lia|reflexivity].
Qed.

Lemma wait_sync_eval f now l : f_lba f = Some l -> time_ok l ->
  wait_synchronization_pause f now = Ok (f, now <=? l + t_sync f).
Proof.
  intros Hl Tl. pose proof (t_sync_bounds f).
  unfold wait_synchronization_pause, lba_get_or_insert, inst_add, t_sync, time_ok in *.
  rewrite Hl, i64_ok_small by lia. reflexivity.
Qed.

(* a poll with a silent bus of a station that has a reply pending: the state function, up to the pause test *)
Lemma reply_poll f src l now (apps : list A) :
  f_conn f = ConnOnline -> reply_pending f src -> f_lba f = Some l -> time_ok l -> time_ok now ->
  l < now -> now - l < token_lost_timeout (f_p f) ->
  poll_inner ops f now false (mkWorld [] None apps [] []) = dispatch A ops f now (mkWorld [] None apps [] []) /\
  handle_lost_token A f now (mkWorld [] None apps [] []) = Ok (f, mkWorld [] None apps [] [], false) /\
  wait_synchronization_pause f now = Ok (f, now <=? l + t_sync f).
Proof.
  intros Hc Hst Hl Tl Tn Hlt Hto.
  assert (Hk : online_entry_kind (kind_of (f_state f)) = false) by (destruct Hst as [[cc ->]|[nps [cc ->]]]; reflexivity).
  split; [|split; [apply (handle_lost_token_not_yet f now _ l); assumption || lia|exact (wait_sync_eval f now l Hl Tl)]].
  rewrite (poll_inner_dispatches f now _ Hc Hk) by (intros l0 E; rewrite Hl in E; injection E as <-; exact Hlt).
  reflexivity.
Qed.

Lemma reply_waits f src l now (apps : list A) :
  f_conn f = ConnOnline -> reply_pending f src -> f_lba f = Some l -> time_ok l -> time_ok now ->
  l < now <= l + t_sync f -> now - l < token_lost_timeout (f_p f) ->
  poll ops f now idle_in apps = Ok (f, mkPhyOut None [], apps, []).
Proof.
  intros Hc Hst Hl Tl Tn Hnow Hto.
  destruct (reply_poll f src l now apps Hc Hst Hl Tl Tn (proj1 Hnow) Hto) as [Hd [Hh Hw]].
  unfold poll, poll_traced. cbn [tx_busy rx idle_in]. rewrite Hd. unfold dispatch.
  destruct (Z.leb_spec now (l + t_sync f)) as [_|C]; [|lia].
  destruct Hst as [[cc Hs]|[nps [cc Hs]]]; rewrite Hs; cbn [kind_of poll_dispatch].
  - unfold do_listen_token, assert_entry. rewrite Hs. cbn [kind_of do_fn_entry state_kind_eqb bind].
    rewrite Hh. cbn [bind]. rewrite Hs. cbn [get_listen_token bind]. rewrite Hw. reflexivity.
  - unfold do_active_idle, assert_entry. rewrite Hs. cbn [kind_of do_fn_entry state_kind_eqb bind].
    rewrite Hh. cbn [bind]. rewrite Hs. cbn [get_active_idle bind]. rewrite Hw. reflexivity.
Qed.

Lemma reply_goes_out f src l now (apps : list A) :
  f_conn f = ConnOnline -> reply_pending f src -> f_lba f = Some l -> time_ok l -> time_ok now ->
  l + t_sync f < now -> now - l < token_lost_timeout (f_p f) ->
  exists f' st, poll ops f now idle_in apps = Ok (f', mkPhyOut (Some (reply_wire src (ts f) st)) [], apps, []) /\
                reply_sent f f' src st.
Proof.
  intros Hc Hst Hl Tl Tn Hnow Hto. pose proof (t_sync_bounds f) as Hb.
  pose proof (bits_to_time_bounds (p_baud (f_p f)) (bits_per_byte * 6) ltac:(vm_compute; split; discriminate)) as Hb2.
  destruct (reply_poll f src l now apps Hc Hst Hl Tl Tn ltac:(lia) Hto) as [Hd [Hh Hw]].
  unfold poll, poll_traced. cbn [tx_busy rx idle_in]. rewrite Hd. unfold dispatch.
  destruct (Z.leb_spec now (l + t_sync f)) as [C|_]; [lia|].
  assert (Hmark : forall g, f_p g = f_p f -> mark_tx g now 6 = Ok (set_lba g (Some (now + bits_to_time (p_baud (f_p f)) (bits_per_byte * 6))))).
  { intros g Hg. unfold mark_tx. change (Z.of_nat 6) with 6.
    replace (4294967295 <? 6) with false by reflexivity. replace (4294967295 <? bits_per_byte * 6) with false by reflexivity.
    rewrite Hg. unfold inst_add, time_ok in *. rewrite i64_ok_small by lia. reflexivity. }
  destruct Hst as [[cc Hs]|[nps [cc Hs]]]; rewrite Hs; cbn [kind_of poll_dispatch].
  - unfold do_listen_token, assert_entry. rewrite Hs. cbn [kind_of do_fn_entry state_kind_eqb bind].
    rewrite Hh. cbn [bind]. rewrite Hs. cbn [get_listen_token bind]. rewrite Hw. cbn [bind].
    unfold phy_send, transmit, status_response_header. rewrite encode_nosap. cbn [bind phy_transmit w_tx].
    destruct (ready_for_ring (f_ring f)) eqn:Er.
    + unfold trans, transition_active_idle, assert_kind. rewrite Hs. cbn [kind_of may_transition_active_idle bind]. rewrite encode_nosap_length.
      rewrite (Hmark (set_st f (ActiveIdle None None 0)) eq_refl). cbn [bind].
      eexists; eexists. split; [reflexivity|]. left. exists cc. split; [exact Hs|]. rewrite Er. split; reflexivity.
    + rewrite Hs. cbn [get_listen_token bind andb].
      rewrite encode_nosap_length, (Hmark (set_st f (ListenToken None cc)) eq_refl). cbn [bind].
      eexists; eexists. split; [reflexivity|]. left. exists cc. split; [exact Hs|]. rewrite Er. split; reflexivity.
  - unfold do_active_idle, assert_entry. rewrite Hs. cbn [kind_of do_fn_entry state_kind_eqb bind].
    rewrite Hh. cbn [bind]. rewrite Hs. cbn [get_active_idle bind]. rewrite Hw. cbn [bind].
    unfold phy_send, transmit, status_response_header. rewrite encode_nosap. cbn [bind phy_transmit w_tx].
    rewrite encode_nosap_length, (Hmark (set_st f (ActiveIdle None nps cc)) eq_refl). cbn [bind].
    eexists; eexists. split; [reflexivity|]. right. exists nps, cc. split; [exact Hs|]. split; reflexivity.
Qed.

Lemma bits_to_time_up_nonneg b n : 0 <= n -> 0 <= bits_to_time_up b n.
Proof. intros H. unfold bits_to_time_up. pose proof (baud_rate_pos b). apply Z.div_pos; lia. Qed.

(* l is the time of the poll that received the request (poll_marks_last_request), t_end the end of the request, at
   most one poll period before l; the last clause allows 1 us of rounding slack. *)
Theorem status_reply_in_slot f src l P waits tk (apps : list A) :
  builder_valid (f_p f) -> f_conn f = ConnOnline -> reply_pending f src ->
  f_lba f = Some l -> time_ok l -> time_ok tk ->
  0 <= P -> 4 * P <= slot_time (f_p f) ->
  spaced l P (waits ++ [tk]) -> Forall (fun t => t <= l + t_sync f) waits -> l + t_sync f < tk ->
  (forall t, In t waits -> poll ops f t idle_in apps = Ok (f, mkPhyOut None [], apps, [])) /\
  (exists f' st, poll ops f tk idle_in apps = Ok (f', mkPhyOut (Some (reply_wire src (ts f) st)) [], apps, []) /\
                 reply_sent f f' src st) /\
  tk <= l + t_sync f + P /\
  (forall t_end, t_end <= l <= t_end + P ->
     tk <= t_end + 2 * P + t_sync f /\
     tk + bits_to_time_up (p_baud (f_p f)) bits_per_byte + 1 <= t_end + slot_time (f_p f)).
Proof.
  intros Hbv Hc Hst Hl Tl Tk HP H4 Hsp Hw Hk.
  pose proof (t_sync_bounds f) as Hb.
  destruct (spaced_first_after l P (t_sync f) waits tk (proj1 Hb) HP Hsp Hw) as [Hbound [Hafter Hlt]].
  pose proof (slot_time_covers_reply (f_p f) P Hbv HP H4) as Hslot. fold (t_sync f) in Hslot.
  pose proof (bits_to_time_up_nonneg (p_baud (f_p f)) bits_per_byte ltac:(vm_compute; discriminate)) as Hup.
  pose proof (token_lost_timeout_ge_slot (f_p f) Hbv) as Hlost.
  split; [|split; [|split]].
  - intros t Hin. rewrite Forall_forall in Hw, Hafter. specialize (Hw t Hin). specialize (Hafter t Hin).
    apply (reply_waits f src l t apps Hc Hst Hl Tl); [unfold time_ok in *; lia|lia|lia].
  - apply (reply_goes_out f src l tk apps Hc Hst Hl Tl Tk Hk). lia.
  - exact Hbound.
  - intros t_end Hend. split; lia.
Qed.

(* the requester's side of "within the slot time": it looks for new bytes before it tests the slot timer *)

Lemma await_status_keeps_waiting f now (w : W) a0 l :
  f_state f = AwaitStatusResponse a0 -> f_gap f = GapDoPoll a0 -> a0 <> ts f ->
  f_lba f = Some l -> time_ok l -> 0 <= slot_time (f_p f) <= 100000 * 1000000 ->
  decode (w_rx w) = Ok NeedMore -> now <= l + slot_time (f_p f) ->
  exists f' w', do_await_status_response A f now w = Ok (f', w') /\ f_state f' = f_state f /\
                w_tx w' = w_tx w /\ w_rx w' = w_rx w /\ w_apps w' = w_apps w /\ w_calls w' = w_calls w.
Proof.
  intros Hs Hg Hne Hl Tl Hslot Hd Hnow.
  unfold do_await_status_response, assert_entry. rewrite Hs. cbn [kind_of do_fn_entry state_kind_eqb bind get_await_status_response_address].
  unfold await_gap_poll_response. destruct (Z.eqb_spec a0 (ts f)) as [E|_]; [contradiction|].
  rewrite Hg, Z.eqb_refl. cbn [negb]. unfold receive_telegram. rewrite Hd. cbn [bind].
  rewrite Nat.ltb_irrefl.
  unfold check_slot_expired, lba_get_or_insert, sync_pending_bytes. cbn [set_pending f_lba set_rx w_rx]. rewrite Hl.
  cbn [f_p set_pending]. unfold inst_add, time_ok in *. rewrite i64_ok_small by lia. cbn [bind].
  destruct (Z.ltb_spec (l + slot_time (f_p f)) now) as [C|_]; [lia|].
  eexists; eexists. split; [reflexivity|]. cbn. repeat split; try reflexivity; exact Hs.
Qed.

Theorem requester_keeps_waiting f now pin (apps : list A) a0 l :
  f_conn f = ConnOnline -> f_state f = AwaitStatusResponse a0 -> f_gap f = GapDoPoll a0 -> a0 <> ts f ->
  tx_busy pin = false -> f_lba f = Some l -> time_ok l -> time_ok now -> l < now ->
  0 <= slot_time (f_p f) <= 100000 * 1000000 ->
  decode (rx pin) = Ok NeedMore ->
  ((f_pending f < length (rx pin))%nat \/ now <= l + slot_time (f_p f)) ->
  exists f', poll ops f now pin apps = Ok (f', mkPhyOut None (rx pin), apps, []) /\ f_state f' = f_state f.
Proof.
  intros Hc Hs Hg Hne Hb Hl Tl Tn Hlt Hslot Hd Hcase.
  unfold poll, poll_traced. rewrite Hb.
  rewrite (poll_inner_dispatches f now _ Hc ltac:(rewrite Hs; reflexivity) ltac:(intros l0 E; rewrite Hl in E; injection E as <-; exact Hlt)).
  unfold check_for_bus_activity. cbn [w_rx].
  destruct (Nat.ltb_spec (f_pending f) (length (rx pin))) as [Hnew|Hold]; cbn [fst snd].
  - assert (E3 : mark_bus_activity f now = set_lba f (Some now)).
    { unfold mark_bus_activity, lba_get_or_insert. rewrite Hl. cbn. rewrite Z.max_r by lia. reflexivity. }
    rewrite E3.
    destruct (await_status_keeps_waiting (set_pending (set_lba f (Some now)) (length (rx pin))) now
                (note A (mkWorld (rx pin) None apps [] []) TBusActivity) a0 now)
      as [f' [w' [Hd' [Hs' [Ht [Hr [Ha Hca]]]]]]]; try assumption; try reflexivity; [cbn; lia|].
    unfold dispatch. cbn [set_pending set_lba f_state]. rewrite Hs. cbn [kind_of poll_dispatch]. rewrite Hd'. cbn [bind].
    exists f'. cbn in Ht, Hr, Ha, Hca. rewrite Ht, Hr, Ha, Hca. split; [reflexivity|]. rewrite Hs'. exact Hs.
  - destruct Hcase as [Hnew|Hin]; [lia|].
    destruct (await_status_keeps_waiting f now (mkWorld (rx pin) None apps [] []) a0 l)
      as [f' [w' [Hd' [Hs' [Ht [Hr [Ha Hca]]]]]]]; try assumption.
    unfold dispatch. rewrite Hs. cbn [kind_of poll_dispatch]. rewrite Hd'. cbn [bind].
    exists f'. cbn in Ht, Hr, Ha, Hca. rewrite Ht, Hr, Ha, Hca. split; [reflexivity|rewrite Hs'; exact Hs].
Qed.

End WithApps.

Definition ex_params : params := mkParams 7 B19200 100 20000 10 16 3 11 None.
Definition ex_ring (st : las_state) (ns ps : Z) : ring := mkRing (set_nth (repeat false 128) 7 true) st 7 ns ps.
Definition ex_station (s : state) (g : gap_state) (ps : Z) : fdl :=
  mkFdl ex_params (ex_ring LasValid 7 ps) ConnOnline g s (Some 0) 0 0 0 0.

(* station 7 alone in the ring (NS = TS, HSA = 16), cursor at TS: the GAP step polls address 8 *)
Lemma example_gap_request :
  exists f' o, poll unit_app_ops (ex_station (PassToken true AttFirst) (GapDoPoll 7) 7) 10000 (mkPhyIn false []) [tt]
               = Ok (f', o, [tt], []) /\
    tx o = Some (sr_wire 8 7) /\ f_state f' = AwaitStatusResponse 8 /\ f_gap f' = GapDoPoll 8.
Proof. eexists; eexists. split; [vm_compute; reflexivity|]. repeat split; reflexivity. Qed.

(* cursor at HSA-1 = 15: wraps to 0, which is in the GAP of (7, 7) *)
Lemma example_gap_request_wrap :
  exists f' o, poll unit_app_ops (ex_station (PassToken true AttFirst) (GapDoPoll 15) 7) 10000 (mkPhyIn false []) [tt]
               = Ok (f', o, [tt], []) /\
    tx o = Some (sr_wire 0 7) /\ f_state f' = AwaitStatusResponse 0.
Proof. eexists; eexists. split; [vm_compute; reflexivity|]. repeat split; reflexivity. Qed.

(* cursor at TS-1 = 6: the sweep ends, the token goes to NS (= TS here) *)
Lemma example_sweep_end :
  exists f' o, poll unit_app_ops (ex_station (PassToken true AttFirst) (GapDoPoll 6) 7) 10000 (mkPhyIn false []) [tt]
               = Ok (f', o, [tt], []) /\
    tx o = Some (encode_token 7 7) /\ f_gap f' = GapWaiting 0.
Proof. eexists; eexists. split; [vm_compute; reflexivity|]. repeat split; reflexivity. Qed.

(* a listening station with a valid LAS answers its predecessor (3) "ready" and enters the ring *)
Lemma example_status_reply :
  exists f' o, poll unit_app_ops (ex_station (ListenToken (Some 3) 0) (GapDoPoll 7) 3) 10000 (mkPhyIn false []) [tt]
               = Ok (f', o, [tt], []) /\
    tx o = Some (reply_wire 3 7 RsMasterWithoutToken) /\ f_state f' = ActiveIdle None None 0.
Proof. eexists; eexists. split; [vm_compute; reflexivity|]. repeat split; reflexivity. Qed.

(* ... and anybody else "not ready" *)
Lemma example_status_reply_not_ready :
  exists f' o, poll unit_app_ops (ex_station (ListenToken (Some 4) 0) (GapDoPoll 7) 3) 10000 (mkPhyIn false []) [tt]
               = Ok (f', o, [tt], []) /\
    tx o = Some (reply_wire 4 7 RsMasterNotReady).
Proof. eexists; eexists. split; [vm_compute; reflexivity|]. repeat split; reflexivity. Qed.

(* a ready master at 9 answers the poll of 9: it becomes NS *)
Lemma example_found :
  exists f' o, poll unit_app_ops (ex_station (AwaitStatusResponse 9) (GapDoPoll 9) 7) 10000
                 (mkPhyIn false (encode (TData (status_response_header 7 9 RsMasterWithoutToken StOk) []))) [tt]
               = Ok (f', o, [tt], []) /\
    tx o = None /\ r_ns (f_ring f') = 9 /\ f_state f' = PassToken false AttFirst.
Proof. eexists; eexists. split; [vm_compute; reflexivity|]. repeat split; reflexivity. Qed.

Lemma example_params_builder_valid : builder_valid ex_params.
Proof. unfold builder_valid. vm_compute. repeat split; discriminate. Qed.

Arguments gap_counters {A}.
Arguments facts {A}.
Arguments facts_l {A}.
