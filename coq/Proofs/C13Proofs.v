(* C13 - token hold time (statements: Properties/C13.v): the deadline do_use_token computes and the hold rule,
   for one poll from any state; over histories three monitors with one invariant each - rounds only before
   the deadline or once after it, one GAP request per visit, one deadline per visit; and visits of N stations
   as a rotation_trace, so that the hold inequality per visit gives rotation_bound.  NOT proved: that the
   composed N-station timed system produces such visit sequences. *)
From Coq Require Import Arith.
From PB Require Import Common Tables FdlTables Telegram Phy TokenRing Params Fdl FdlProofs FdlStepProofs C15Proofs.
From PB Require Import Rotation RotationBound.

(* the reserve that do_use_token subtracts from the hold time when a GAP poll is due (active.rs:1177-1180) *)
Definition gap_reserve (f : fdl) : Z :=
  match f_gap f with
  | GapDoPoll _ => p_bits_to_time (f_p f) (p_slot_bits (f_p f) + gap_reserve_extra_bits)
  | GapWaiting _ => 0
  end.

(* C13_visit_bounded.  h_asked: an application has been asked in this visit, in an earlier poll;
   h_lp / h_hp: the current poll has asked for low-priority / high-priority-only telegrams. *)
Record hst : Set := mkH { h_kind : state_kind; h_asked : bool; h_lp : bool; h_hp : bool }.

Definition hpre (s : hst) (x : hitem) : Prop :=
  match x with
  | HCall (CallTransmit _ hp _) =>
      (* the high-priority-only round is the first round of the visit, and is not mixed with another *)
      if hp then h_lp s = false /\ h_asked s = false else h_hp s = false
  | HCall _ => True
  | HEnd now f =>
      (* a normal round starts only before the deadline of the visit; the extra round only after it *)
      (h_lp s = true -> now < f_end_tht f) /\ (h_hp s = true -> f_end_tht f <= now)
  | HReset => True
  end.

Definition hpost (s : hst) (x : hitem) : hst :=
  match x with
  | HCall (CallTransmit _ hp _) =>
      if hp then mkH (h_kind s) (h_asked s) (h_lp s) true else mkH (h_kind s) (h_asked s) true (h_hp s)
  | HCall _ => s
  | HEnd now f =>
      let k' := kind_of (f_state f) in
      (* a first-visit state (C15Proofs.fresh_visit) is the station's NEXT visit when it passed the token
         to itself in this poll; inside a visit it means that nobody has been asked yet *)
      mkH k' (if in_visit k' then (if in_visit (h_kind s) then (if fresh_visit (f_state f) then false else h_asked s || h_lp s || h_hp s) else false) else false)
          false false
  | HReset => mkH KOffline false false false
  end.

Definition hst_init : hst := mkH KOffline false false false.

(* C13_one_gap_poll_per_visit.  g_gaps: entries into AwaitStatusResponse (each is one GAP request, see
   C12_pass_token_polls_in_gap) since the station left the token-use states. *)
Record gst : Set := mkG { g_kind : state_kind; g_gaps : nat }.

Definition gpre (s : gst) (x : hitem) : Prop :=
  match x with
  | HEnd now f =>
      kind_of (f_state f) = KAwaitStatusResponse -> g_kind s <> KAwaitStatusResponse ->
      (* the GAP request goes out in the poll that finds nothing (more) to send (do_use_token ends in do_pass_token), or - when
         that poll had to wait for the synchronisation pause - from PassToken *)
      (g_kind s = KPassToken \/ in_visit (g_kind s) = true) /\ g_gaps s = 0%nat
  | _ => True
  end.

Definition gpost (s : gst) (x : hitem) : gst :=
  match x with
  | HCall _ => s
  | HEnd now f =>
      let k' := kind_of (f_state f) in
      mkG k' (if in_visit k' then 0%nat
              else match k', g_kind s with
                   | KAwaitStatusResponse, KAwaitStatusResponse => g_gaps s
                   | KAwaitStatusResponse, _ => S (g_gaps s)
                   | _, _ => g_gaps s
                   end)
  | HReset => mkG KOffline 0
  end.

Definition gst_init : gst := mkG KOffline 0.

(* C13_deadline_constant_in_visit.  d_dead: the deadline seen at the end of the latest poll of this visit
   in which an application was asked; d_cur: an application has been asked in the current poll. *)
Record dst : Set := mkD { d_kind : state_kind; d_dead : option Z; d_cur : bool }.

Definition dpre (s : dst) (x : hitem) : Prop :=
  match x with
  | HEnd now f => d_cur s = true -> forall e, d_dead s = Some e -> f_end_tht f = e
  | _ => True
  end.

Definition dpost (s : dst) (x : hitem) : dst :=
  match x with
  | HCall (CallTransmit _ _ _) => mkD (d_kind s) (d_dead s) true
  | HCall _ => s
  | HEnd now f =>
      let k' := kind_of (f_state f) in
      mkD k' (if in_visit k' then (if in_visit (d_kind s) then (if fresh_visit (f_state f) then None else if d_cur s then Some (f_end_tht f) else d_dead s) else None) else None)
          false
  | HReset => mkD KOffline None false
  end.

Definition dst_init : dst := mkD KOffline None false.

Definition prio_of (hp : bool) (c : call) : Prop :=
  match c with CallTransmit _ hp' _ => hp' = hp | _ => True end.
Definition asks (calls : list call) : Prop := exists i hp r, In (CallTransmit i hp r) calls.

Lemma asks_nil : ~ asks []. Proof. intros [i [hp [r []]]]. Qed.

Lemma asks_cons c l : asks (c :: l) <-> (exists i hp r, c = CallTransmit i hp r) \/ asks l.
Proof.
  split.
  - intros (i & hp & r & [E|Hin]); [left; exists i, hp, r; exact E|right; exists i, hp, r; exact Hin].
  - intros [(i & hp & r & ->)|(i & hp & r & Hin)]; exists i, hp, r; [left; reflexivity|right; exact Hin].
Qed.

Lemma asks_skip c l : (forall i hp r, c <> CallTransmit i hp r) -> (asks (c :: l) <-> asks l).
Proof. intros Hc. rewrite asks_cons. split; [intros [(i & hp & r & E)|H]; [destruct (Hc _ _ _ E)|exact H]|intros H; right; exact H]. Qed.

Lemma asks_dec calls : asks calls \/ ~ asks calls.
Proof.
  induction calls as [|c l IH]; [right; apply asks_nil|].
  destruct c as [i hp r|i a t|i a]; [left; exists i, hp, r; left; reflexivity|..]; rewrite asks_skip by discriminate; exact IH.
Qed.

Lemma transmit_calls_prio hp l : Forall (is_transmit_call hp) l -> Forall (prio_of hp) l.
Proof. apply Forall_impl. intros c [i [r ->]]. reflexivity. Qed.

Lemma prio_any hp l : ~ asks l -> Forall (prio_of hp) l.
Proof.
  intros Hno. apply Forall_forall. intros c Hin. destruct c as [i hp' r|i a t|i a]; try exact I.
  exfalso. apply Hno. exists i, hp', r. exact Hin.
Qed.

Section Apps.
Variable A : Type.
Variable ops : app_ops A.
Notation W := (world A).

(* The deadline of the visit as coded: computed once per visit, at the first do_use_token of the visit
   (recognised by last_token_time <> token_time), as previous token time + TTR - GAP reserve; and
   what state do_use_token_head leaves. *)
Lemma do_use_token_head_state f now (w : W) f' w' tk fa fcd :
  do_use_token_head A ops f now w = Ok (f', w') -> f_state f = UseToken tk fa fcd ->
  f_p f' = f_p f /\
  (if f_last_token_time f =? tk
   then f_last_token_time f' = f_last_token_time f /\ f_end_tht f' = f_end_tht f
   else f_last_token_time f' = tk /\
        f_end_tht f' = f_last_token_time f + token_rotation_time (f_p f) - gap_reserve f) /\
  ((f_state f' = f_state f /\ w_calls w' = w_calls w) \/
   (exists fa', f_state f' = UseToken tk fa' true) \/
   (exists a fa', f_state f' = AwaitDataResponse a tk fa') \/
   f_state f' = PassToken true first_attempt).
Proof.
  intros H Es. apply do_use_token_head_inv in H. destruct H as (tk' & fa' & fcd' & f1 & f2 & Es' & Hf1 & Hsame & Hcases).
  rewrite Es in Es'. injection Es' as <- <- <-.
  assert (Hk : keeph f2 f' /\
    ((f_state f' = f_state f /\ w_calls w' = w_calls w) \/ (exists fa', f_state f' = UseToken tk fa' true) \/
     (exists a fa', f_state f' = AwaitDataResponse a tk fa') \/ f_state f' = PassToken true first_attempt)).
  { destruct Hcases as [(-> & Hw')|[(_ & _ & -> & _)|(hp & w2 & f3 & w3 & d & _ & _ & Hloop & Hfin)]].
    - split; [apply keeph_refl|left]. split; [|apply Hw']. destruct Hsame as (_ & _ & _ & _ & -> & _).
      destruct Hf1 as [(-> & _)|(-> & _)]; reflexivity.
    - split; [unfold keeph; cbn; tauto|right; right; right; reflexivity].
    - eapply apps_transmit_loop_spec in Hloop; [|reflexivity]. destruct Hloop as (Kh & _ & Hst). cbn in Kh. destruct d.
      + destruct Hfin as (-> & _). split; [exact Kh|]. destruct Hst as [Hst|(_ & Hst)]; [right; left|right; right; left]; exact Hst.
      + destruct Hfin as (-> & _). split; [exact Kh|right; right; right; reflexivity]. }
  destruct Hk as ((Kp & Kl & Ke) & Hst). destruct Hsame as (Hp & _ & _ & _ & _ & _ & Hl & He & _).
  rewrite Kp, Kl, Ke, Hp, Hl, He. split; [|split; [|exact Hst]].
  - destruct Hf1 as [(-> & _)|(-> & _)]; reflexivity.
  - destruct Hf1 as [(-> & El)|(-> & El)]; [rewrite El, Z.eqb_refl; tauto|].
    apply Z.eqb_neq in El. rewrite El. split; reflexivity.
Qed.

(* the token has been passed on in this poll: what do_pass_token leaves (C15Proofs.do_pass_token_ends) *)
Definition passed_on (now : Z) (s : state) : Prop :=
  pass_kind (kind_of s) = true \/ s = UseToken now None false.

Lemma do_use_token_state f now (w : W) f' w' tk fa fcd :
  do_use_token A ops f now w = Ok (f', w') -> f_state f = UseToken tk fa fcd ->
  f_p f' = f_p f /\
  (if f_last_token_time f =? tk
   then f_last_token_time f' = f_last_token_time f /\ f_end_tht f' = f_end_tht f
   else f_last_token_time f' = tk /\
        f_end_tht f' = f_last_token_time f + token_rotation_time (f_p f) - gap_reserve f) /\
  ((f_state f' = f_state f /\ w_calls w' = w_calls w) \/
   (exists fa', f_state f' = UseToken tk fa' true) \/
   (exists a fa', f_state f' = AwaitDataResponse a tk fa') \/
   passed_on now (f_state f')).
Proof.
  rewrite do_use_token_split. intros H Es.
  destruct (do_use_token_head A ops f now w) as [[f1 w1]| |] eqn:Eh; cbn [bind] in H; try discriminate H.
  eapply do_use_token_head_state in Eh; [|exact Es]. destruct Eh as [Hp [Hd Hst]].
  destruct (is_pass_token (f_state f1)) eqn:Ek.
  - pose proof (do_pass_token_ends _ _ _ _ _ _ H) as Hends.
    apply do_pass_token_hold in H. destruct H as [Kp [Kl [Ke _]]].
    split; [congruence|]. split; [rewrite Kl, Ke; exact Hd|]. right. right. right. exact Hends.
  - injection H as <- <-. split; [exact Hp|]. split; [exact Hd|].
    destruct Hst as [X|[X|[X|X]]]; [left; exact X|right; left; exact X|right; right; left; exact X|].
    rewrite X in Ek. discriminate Ek.
Qed.

(* C13_hold_rule for a whole poll, from ANY state: the transmit callbacks of a poll are of one priority
   class; if there are any, then the time is before the deadline of the visit (low-priority round), or
   the deadline has passed, the round asks for high priority only and the visit had not had a round
   yet (first_cycle_done = false when the poll began) *)
Lemma poll_hold_rule f now pin (apps : list A) f' o apps' calls :
  poll ops f now pin apps = Ok (f', o, apps', calls) ->
  exists hp, Forall (prio_of hp) calls /\
    (asks calls ->
     if hp then (exists tk fa, f_state f = UseToken tk fa false) /\ f_end_tht f' <= now
     else now < f_end_tht f').
Proof.
  intros H. apply poll_calls in H.
  destruct H as [-> |[(a & t & -> & _)|(pre & f3 & w3 & w' & Hpre & _ & Hc3 & Hd & ->)]].
  - exists false. split; [constructor|]. intros C. destruct (asks_nil C).
  - exists false. split; [constructor; [exact I|constructor]|]. intros (i & hp & r & [C|[]]). discriminate C.
  - apply do_use_token_hold_rule in Hd. destruct Hd as (l & hp & -> & Hf & Hrule). rewrite Hc3. apply transmit_calls_prio in Hf.
    destruct Hpre as [(-> & Es3)|(a & tk & fa & -> & Es3)]; rewrite Es3 in Hrule.
    + exists hp. split; [exact Hf|]. intros Ha. apply Hrule. intros ->. destruct (asks_nil Ha).
    + (* after a time-out the visit has had its round: a round that follows is a normal one *)
      cbn [app]. destruct l as [|c l].
      * exists false. split; [repeat constructor|]. rewrite asks_skip by discriminate. intros C. destruct (asks_nil C).
      * specialize (Hrule ltac:(discriminate)). destruct hp; [destruct Hrule as ((tk' & fa' & C) & _); discriminate C|].
        exists false. split; [constructor; [exact I|exact Hf]|]. intros _. exact Hrule.
Qed.

(* the bookkeeping of the hold time in a poll of a visit with token time tk: kept, or - at the first
   do_use_token of the visit - the deadline is computed from the previous token time and the reserve for
   the GAP state g of that moment *)
Definition deadline_step (tk : Z) (f f' : fdl) : Prop :=
  (f_last_token_time f' = f_last_token_time f /\ f_end_tht f' = f_end_tht f) \/
  (f_last_token_time f <> tk /\ f_last_token_time f' = tk /\
   exists g, f_end_tht f' = f_last_token_time f + token_rotation_time (f_p f) - gap_reserve (set_gap f g)).

Definition visit_to (tk now : Z) (f : fdl) (calls : list call) (f' : fdl) : Prop :=
  (f_state f' = f_state f /\ calls = []) \/
  (f_state f' = ActiveIdle None None 0 /\ calls = [] /\ exists a fa, f_state f = AwaitDataResponse a tk fa) \/
  (exists fa', f_state f' = UseToken tk fa' true) \/
  (exists a fa', f_state f' = AwaitDataResponse a tk fa') \/
  passed_on now (f_state f').

Lemma use_in_visit f f3 now (w3 : W) f' w' tk fa fcd :
  keepf f f3 -> f_state f3 = UseToken tk fa fcd -> do_use_token A ops f3 now w3 = Ok (f', w') ->
  f_p f' = f_p f /\ deadline_step tk f f' /\ f_last_token_time f' = tk /\
  ((f_state f' = f_state f3 /\ w_calls w' = w_calls w3) \/ (exists fa', f_state f' = UseToken tk fa' true) \/
   (exists a fa', f_state f' = AwaitDataResponse a tk fa') \/ passed_on now (f_state f')).
Proof.
  intros (Kp & _ & Kl & Ke) Es H. destruct (do_use_token_state _ _ _ _ _ _ _ _ H Es) as (Hp & Hdl & Hst).
  assert (Hr : gap_reserve f3 = gap_reserve (set_gap f (f_gap f3))) by (unfold gap_reserve; cbn; rewrite Kp; reflexivity).
  rewrite Hr, Kl, Ke, Kp in *. split; [exact Hp|]. split; [|split; [|exact Hst]].
  - destruct (Z.eqb_spec (f_last_token_time f) tk) as [El|El]; [left; exact Hdl|right].
    split; [exact El|]. split; [apply Hdl|]. exists (f_gap f3). apply Hdl.
  - destruct (Z.eqb_spec (f_last_token_time f) tk) as [El|El]; destruct Hdl as (D1 & _); congruence.
Qed.

(* One poll that begins in a visit with token time tk.  The token is passed on only by do_use_token, which
   has made last_token_time the token time of the visit. *)
Lemma poll_in_visit f now pin (apps : list A) f' o apps' calls tk :
  poll ops f now pin apps = Ok (f', o, apps', calls) ->
  (exists fa fcd, f_state f = UseToken tk fa fcd) \/ (exists a fa, f_state f = AwaitDataResponse a tk fa) ->
  f_p f' = f_p f /\ deadline_step tk f f' /\ (asks calls -> f_last_token_time f' = tk) /\ visit_to tk now f calls f' /\
  (f_state f' <> f_state f -> passed_on now (f_state f') -> f_last_token_time f' = tk).
Proof.
  intros H Hv. apply poll_calls_cases in H.
  destruct H as [(-> & _ & _ & Hin)|(f3 & w3 & w' & Kf3 & Hs3 & Hc3 & _ & -> & _ & Hd)].
  - destruct Hin as ((Kp & _ & Kl & Ke) & Hs); [destruct Hv as [(fa & fcd & ->)|(a & fa & ->)]; reflexivity|].
    split; [exact Kp|]. split; [left; split; assumption|]. split; [intros C; destruct (asks_nil C)|].
    split; [left; split; [exact Hs|reflexivity]|]. intros C. contradiction.
  - destruct Hv as [(fa & fcd & Es)|(a & fa & Es)]; rewrite Es in Hd, Hs3.
    + destruct (use_in_visit _ _ _ _ _ _ _ _ _ Kf3 Hs3 Hd) as (Hp & Hdl & Hl & Hst).
      split; [exact Hp|]. split; [exact Hdl|]. split; [intros _; exact Hl|]. split; [|intros _ _; exact Hl].
      destruct Hst as [(E1 & E2)|[E|[E|E]]]; [left; split; congruence|right; right; left; exact E|right; right; right; left; exact E|right; right; right; right; exact E].
    + apply do_await_data_response_split in Hd. destruct Hd as (a' & tk' & fa' & app & Es' & _ & Hcases).
      rewrite Hs3 in Es'. injection Es' as <- <- <-.
      assert (Hk : forall g, keepf f3 g -> f_p g = f_p f /\ deadline_step tk f g)
        by (intros g Kg; destruct (keepf_trans _ _ _ Kf3 Kg) as (Kp & _ & Kl & Ke); split; [exact Kp|left; split; assumption]).
      destruct Hcases as [(t & app' & _ & _ & Hc & _ & Kf & Es')|[((Hw & _) & Kf & Es')|[((Hw & _) & Kf & Es')|(app' & f4 & w4 & _ & Hc4 & _ & Kf4 & Es4 & Hdo)]]].
      * destruct (Hk _ Kf) as (Hp & Hdl). split; [exact Hp|]. split; [exact Hdl|].
        split; [rewrite Hc, Hc3; intros (i & hp & r & [C|[]]); discriminate C|].
        split; [right; right; left; exists fa; exact Es'|]. rewrite Es'. intros _ [C|C]; discriminate C.
      * destruct (Hk _ Kf) as (Hp & Hdl). split; [exact Hp|]. split; [exact Hdl|].
        split; [rewrite Hw, Hc3; intros C; destruct (asks_nil C)|].
        split; [right; left; split; [exact Es'|]; split; [congruence|]; exists a, fa; exact Es|]. rewrite Es'. intros _ [C|C]; discriminate C.
      * destruct (Hk _ Kf) as (Hp & Hdl). split; [exact Hp|]. split; [exact Hdl|].
        split; [rewrite Hw, Hc3; intros C; destruct (asks_nil C)|].
        split; [left; split; congruence|]. intros C. contradiction C. congruence.
      * destruct (use_in_visit _ _ _ _ _ _ _ _ _ (keepf_trans _ _ _ Kf3 Kf4) Es4 Hdo) as (Hp & Hdl & Hl & Hst).
        split; [exact Hp|]. split; [exact Hdl|]. split; [intros _; exact Hl|]. split; [|intros _ _; exact Hl].
        destruct Hst as [(E1 & _)|[E|[E|E]]]; [right; right; left; exists fa; congruence|right; right; left; exact E|right; right; right; left; exact E|right; right; right; right; exact E].
Qed.

Definition visit_step (now : Z) (f : fdl) (calls : list call) (f' : fdl) : Prop :=
  exists tk,
    ((exists fa fcd, f_state f = UseToken tk fa fcd) \/ (exists a fa, f_state f = AwaitDataResponse a tk fa)) /\
    visit_to tk now f calls f' /\
    (* the deadline of the visit: kept once last_token_time is the token time of the visit, which it is
       as soon as applications have been asked *)
    (f_last_token_time f = tk -> f_last_token_time f' = tk /\ f_end_tht f' = f_end_tht f) /\
    (asks calls -> f_last_token_time f' = tk).

Lemma poll_state_cases f now pin (apps : list A) f' o apps' calls :
  poll ops f now pin apps = Ok (f', o, apps', calls) ->
  (calls = [] /\ quiet_poll now f f') \/ visit_step now f calls f'.
Proof.
  intros H.
  assert (Hv : forall tk, (exists fa fcd, f_state f = UseToken tk fa fcd) \/ (exists a fa, f_state f = AwaitDataResponse a tk fa) ->
                visit_step now f calls f').
  { intros tk Hv. destruct (poll_in_visit _ _ _ _ _ _ _ _ _ H Hv) as (_ & Hdl & Ha & Hto & _).
    exists tk. split; [exact Hv|]. split; [exact Hto|]. split; [|exact Ha].
    intros El. destruct Hdl as [(D1 & D2)|(C & _)]; [split; congruence|contradiction]. }
  destruct (f_state f) as [ | | | |tk fa fcd| |a tk fa| | | ] eqn:Es.
  5: { right. apply (Hv tk). left. exists fa, fcd. reflexivity. }
  6: { right. apply (Hv tk). right. exists a, fa. reflexivity. }
  all: left; apply poll_calls_cases in H; destruct H as [(-> & _ & Hq & _)|(f3 & w3 & w' & _ & _ & _ & _ & _ & _ & Hd)];
    [split; [reflexivity|exact Hq]|rewrite Es in Hd; destruct Hd].
Qed.

Lemma poll_outside_visit f now pin (apps : list A) f' o apps' calls :
  poll ops f now pin apps = Ok (f', o, apps', calls) -> in_visit (kind_of (f_state f)) = false ->
  calls = [] /\ f_p f' = f_p f /\ (is_reset f' \/ keepf f f') /\
  (in_visit (kind_of (f_state f')) = true -> f_state f' = UseToken now None false).
Proof.
  intros H Hin. destruct (poll_state_cases _ _ _ _ _ _ _ _ H) as [(-> & Hp & Hq)|(tk & [(fa & fcd & Es)|(a & fa & Es)] & _)];
    try (rewrite Es in Hin; discriminate Hin).
  split; [reflexivity|]. split; [exact Hp|]. destruct Hq as [R|(K & s3 & Hpro & Hqs & _)].
  - split; [left; exact R|]. destruct R as (-> & _). discriminate.
  - split; [right; exact K|]. intros Hin'.
    assert (Hs3 : in_visit (kind_of s3) = false) by (destruct Hpro as [-> |(_ & [-> | ->])]; [exact Hin|reflexivity..]).
    destruct (f_state f') as [ | | | |tk fa fcd| |a tk fa| | | ]; try discriminate Hin'; cbn in Hqs.
    + destruct Hqs as [<-|Hqs]; [discriminate Hs3|exact Hqs].
    + rewrite <- Hqs in Hs3. discriminate Hs3.
Qed.

Definition InvH (f : fdl) (s : hst) : Prop :=
  h_kind s = kind_of (f_state f) /\ h_lp s = false /\ h_hp s = false /\
  match f_state f with UseToken _ _ fcd => h_asked s = true -> fcd = true | _ => True end.

Lemma hcalls hp : forall l s, Forall (prio_of hp) l ->
  (if hp then h_lp s = false /\ h_asked s = false else h_hp s = false) ->
  accepts hpre hpost s (map HCall l) /\
  ((~ asks l /\ posts hpost s (map HCall l) = s) \/
   (asks l /\ posts hpost s (map HCall l) = hpost s (HCall (CallTransmit 0 hp None)))).
Proof.
  induction l as [|c l IH]; intros s Hf Hs; [split; [exact I|left; split; [apply asks_nil|reflexivity]]|].
  inversion Hf as [|c' l' Hc Hl]; subst. cbn [map accepts posts fold_left]. fold (posts hpost (hpost s (HCall c)) (map HCall l)).
  destruct c as [i hp' r|i a t|i a]; cbn in Hc.
  - subst hp'. destruct (IH (hpost s (HCall (CallTransmit i hp r))) Hl) as (Ha & Hp); [destruct hp; cbn; tauto|].
    split; [split; [destruct hp; exact Hs|exact Ha]|]. right. split; [apply asks_cons; left; exists i, hp, r; reflexivity|].
    destruct Hp as [(_ & ->)|(_ & ->)]; destruct hp; reflexivity.
  - rewrite asks_skip by discriminate. destruct (IH s Hl Hs) as (Ha & Hp). split; [split; [exact I|exact Ha]|exact Hp].
  - rewrite asks_skip by discriminate. destruct (IH s Hl Hs) as (Ha & Hp). split; [split; [exact I|exact Ha]|exact Hp].
Qed.

Lemma in_visit_tk s : in_visit (kind_of s) = true ->
  exists tk, (exists fa fcd, s = UseToken tk fa fcd) \/ (exists a fa, s = AwaitDataResponse a tk fa).
Proof.
  destruct s as [ | | | |tk fa fcd| |a tk fa| | | ]; try discriminate; intros _; exists tk;
    [left; exists fa, fcd|right; exists a, fa]; reflexivity.
Qed.

Lemma InvH_poll f (apps : list A) s now pin f' o apps' calls :
  InvH f s -> poll ops f now pin apps = Ok (f', o, apps', calls) ->
  let h := map HCall calls ++ [HEnd now f'] in accepts hpre hpost s h /\ InvH f' (posts hpost s h).
Proof.
  intros (Hk & Hlp & Hhp & Hfcd) Ep. cbv zeta.
  destruct (poll_hold_rule _ _ _ _ _ _ _ _ Ep) as (hp & Hprio & Hrule).
  (* the calls: the flag of the round is set when somebody was asked, and then the hold rule applies *)
  assert (Hcalls : accepts hpre hpost s (map HCall calls) /\ exists s1, posts hpost s (map HCall calls) = s1 /\
            h_kind s1 = h_kind s /\ h_asked s1 = h_asked s /\
            (h_lp s1 = true -> now < f_end_tht f') /\ (h_hp s1 = true -> f_end_tht f' <= now) /\
            (h_lp s1 || h_hp s1 = true -> asks calls)).
  { destruct (asks_dec calls) as [Hasks|Hno].
    - specialize (Hrule Hasks).
      destruct (hcalls hp calls s Hprio) as (Ha & [(Hn & _)|(_ & E)]); [|contradiction|].
      + destruct hp; [|exact Hhp]. split; [exact Hlp|]. destruct Hrule as ((tk & fa & Es) & _). rewrite Es in Hfcd.
        destruct (h_asked s); [discriminate (Hfcd eq_refl)|reflexivity].
      + split; [exact Ha|]. eexists. split; [exact E|].
        destruct hp; cbn; rewrite ?Hlp, ?Hhp; repeat split; intros; try discriminate; tauto.
    - destruct (hcalls false calls s (prio_any _ _ Hno) Hhp) as (Ha & [(_ & E)|(C & _)]); [|contradiction].
      split; [exact Ha|]. exists s. split; [exact E|]. rewrite Hlp, Hhp. repeat split; intros; discriminate. }
  destruct Hcalls as (Hacc & s1 & E1 & P1 & P2 & P3 & P4 & P5).
  split; [apply accepts_app; split; [exact Hacc|]; rewrite E1; split; [split; assumption|exact I]|].
  rewrite posts_app, E1. cbn. split; [reflexivity|]. split; [reflexivity|]. split; [reflexivity|].
  destruct (f_state f') as [ | | | |tk1 fa1 fcd1| | | | | ] eqn:Es1; try exact I. cbn. rewrite P1, P2, Hk.
  destruct (in_visit (kind_of (f_state f))) eqn:Hin; [|discriminate].
  destruct (in_visit_tk _ Hin) as (tk & Hv). destruct (poll_in_visit _ _ _ _ _ _ _ _ _ Ep Hv) as (_ & _ & _ & Hto & _).
  unfold visit_to in Hto. rewrite Es1 in Hto. intros Hor.
  destruct Hto as [(E & ->)|[(E & _)|[(fa' & E)|[(a & fa' & E)|[E|E]]]]]; try discriminate E.
  - (* state unchanged, nobody asked now: somebody had been asked before *)
    rewrite <- E in Hfcd. apply Hfcd. destruct (h_lp s1 || h_hp s1) eqn:El; [destruct (asks_nil (P5 eq_refl))|].
    apply orb_false_iff in El. destruct El as (E1l & E1h). rewrite E1l, E1h, !orb_false_r in Hor.
    destruct fa1; [exact Hor|destruct fcd1; [exact Hor|discriminate Hor]].
  - injection E as _ _ ->. reflexivity.
  - (* the next visit of a station that passed the token to itself: nobody has been asked *)
    injection E as _ -> ->. discriminate Hor.
Qed.

Definition InvG (f : fdl) (s : gst) : Prop :=
  g_kind s = kind_of (f_state f) /\
  (in_visit (kind_of (f_state f)) = true -> g_gaps s = 0%nat) /\
  (forall att, f_state f = PassToken true att -> g_gaps s = 0%nat).

Lemma gcalls : forall l s, accepts gpre gpost s (map HCall l) /\ posts gpost s (map HCall l) = s.
Proof. induction l as [|c l IH]; intros s; cbn; [tauto|]. destruct (IH s) as [H1 H2]. split; [split; [exact I|exact H1]|exact H2]. Qed.

Lemma InvG_poll f (apps : list A) s now pin f' o apps' calls :
  InvG f s -> poll ops f now pin apps = Ok (f', o, apps', calls) ->
  let h := map HCall calls ++ [HEnd now f'] in accepts gpre gpost s h /\ InvG f' (posts gpost s h).
Proof.
  intros (Hk & Hvis & Hpt) Ep. cbv zeta. destruct (gcalls calls s) as (Hacc & Hsame).
  (* outside a visit, a state that only do_pass_token produces comes from itself or from PassToken{do_gap} *)
  assert (Hfrom : in_visit (kind_of (f_state f)) = true \/
            ((forall a, f_state f' = AwaitStatusResponse a -> f_state f = f_state f' \/ exists att, f_state f = PassToken true att) /\
             (forall att, f_state f' = PassToken true att -> f_state f = f_state f'))).
  { destruct (in_visit (kind_of (f_state f))) eqn:Hin; [left; reflexivity|right].
    destruct (poll_state_cases _ _ _ _ _ _ _ _ Ep) as [(_ & _ & [(R & _)|(_ & s3 & Hp & Hq & _)])|(tk & Hfr & _)].
    - split; intros x E; rewrite R in E; discriminate E.
    - split; intros x E; rewrite E in Hq; cbn in Hq.
      + destruct Hq as [Hq|(att & Hq)]; destruct Hp as [Hp|(_ & [Hp|Hp])]; try congruence; [left|right; exists att]; congruence.
      + destruct Hp as [Hp|(_ & [Hp|Hp])]; congruence.
    - destruct Hfr as [(fa & fcd & Es)|(a & fa & Es)]; rewrite Es in Hin; discriminate Hin. }
  split.
  - apply accepts_app. split; [exact Hacc|]. rewrite Hsame. split; [|exact I].
    intros Ek Hne. destruct (f_state f') as [ | | | | | | | | |a] eqn:Es1; try discriminate Ek. rewrite Hk.
    destruct Hfrom as [Hin|(Hasr & _)]; [split; [right; exact Hin|exact (Hvis Hin)]|].
    destruct (Hasr a eq_refl) as [E|(att & E)]; [contradiction Hne; rewrite Hk, E; reflexivity|].
    split; [left; rewrite E; reflexivity|exact (Hpt _ E)].
  - rewrite posts_app, Hsame. cbn. split; [reflexivity|]. split; [intros ->; reflexivity|].
    intros att E. rewrite E. cbn. destruct Hfrom as [Hin|(_ & Hpass)]; [exact (Hvis Hin)|].
    apply (Hpt att). rewrite (Hpass att E). exact E.
Qed.

Definition InvD (f : fdl) (s : dst) : Prop :=
  d_kind s = kind_of (f_state f) /\ d_cur s = false /\
  forall e, d_dead s = Some e ->
    match f_state f with
    | UseToken tk _ _ | AwaitDataResponse _ tk _ => f_last_token_time f = tk /\ f_end_tht f = e
    | _ => False
    end.

Lemma dcalls : forall l s, accepts dpre dpost s (map HCall l) /\
  let s' := posts dpost s (map HCall l) in
  d_kind s' = d_kind s /\ d_dead s' = d_dead s /\ (d_cur s' = true -> d_cur s = true \/ asks l).
Proof.
  induction l as [|c l IH]; intros s; cbn; [tauto|].
  destruct c as [i hp r|i a t|i a]; [|rewrite asks_skip by discriminate; destruct (IH s) as (Ha & H); split; [split; [exact I|exact Ha]|exact H]..].
  destruct (IH (mkD (d_kind s) (d_dead s) true)) as (Ha & H1 & H2 & H3). split; [split; [exact I|exact Ha]|].
  split; [exact H1|]. split; [exact H2|]. intros _. right. exists i, hp, r. left. reflexivity.
Qed.

Lemma InvD_poll f (apps : list A) s now pin f' o apps' calls :
  InvD f s -> poll ops f now pin apps = Ok (f', o, apps', calls) ->
  let h := map HCall calls ++ [HEnd now f'] in accepts dpre dpost s h /\ InvD f' (posts dpost s h).
Proof.
  intros (Hk & Hcur & Hdead) Ep. cbv zeta.
  destruct (dcalls calls s) as (Hacc & P1 & P2 & P3). cbv zeta in *.
  set (s1 := posts dpost s (map HCall calls)) in *.
  assert (Hasks : d_cur s1 = true -> asks calls) by (intros X; destruct (P3 X) as [Y|Y]; [congruence|exact Y]).
  rewrite posts_app, accepts_app. fold s1. clearbody s1. cbn. rewrite P1, P2, Hk.
  destruct (in_visit (kind_of (f_state f))) eqn:Hin.
  - destruct (in_visit_tk _ Hin) as (tk & Hv). destruct (poll_in_visit _ _ _ _ _ _ _ _ _ Ep Hv) as (_ & Hdl & Ha & Hto & _).
    (* a recorded deadline is the one in force, and stays *)
    assert (Htk : forall e0, d_dead s = Some e0 -> f_last_token_time f' = tk /\ f_end_tht f' = e0).
    { intros e0 He0. specialize (Hdead _ He0).
      assert (T : f_last_token_time f = tk /\ f_end_tht f = e0) by (destruct Hv as [(fa & fcd & Es)|(a & fa & Es)]; rewrite Es in Hdead; exact Hdead).
      destruct Hdl as [(D1 & D2)|(C & _)]; [split; destruct T; congruence|destruct T; contradiction]. }
    split; [split; [exact Hacc|]; split; [|exact I]; intros _ e0 He0; apply (Htk _ He0)|].
    split; [reflexivity|]. split; [reflexivity|]. intros e0 He0.
    destruct (in_visit (kind_of (f_state f'))) eqn:Hin'; [|discriminate He0].
    destruct (fresh_visit (f_state f')) eqn:Hfr; [discriminate He0|].
    assert (Hgoal : f_last_token_time f' = tk /\ f_end_tht f' = e0)
      by (destruct (d_cur s1) eqn:Ec; [injection He0 as <-; split; [exact (Ha (Hasks eq_refl))|reflexivity]|exact (Htk _ He0)]).
    (* the station is still in the visit with token time tk *)
    destruct Hto as [(E & _)|[(E & _)|[(fa' & E)|[(a & fa' & E)|[E|E]]]]].
    + rewrite E. destruct Hv as [(fa & fcd & ->)|(a & fa & ->)]; exact Hgoal.
    + rewrite E in Hin'. discriminate Hin'.
    + rewrite E. exact Hgoal.
    + rewrite E. exact Hgoal.
    + destruct (f_state f'); discriminate.
    + rewrite E in Hfr. discriminate Hfr.
  - split; [split; [exact Hacc|]; split; [|exact I]; intros _ e0 He0|].
    + specialize (Hdead _ He0). destruct (f_state f); try contradiction; discriminate Hin.
    + split; [reflexivity|]. split; [reflexivity|]. intros e0 He0. destruct (in_visit (kind_of (f_state f'))); discriminate He0.
Qed.

Lemma InvD_init p f : fdl_new p = Ok f -> InvD f dst_init.
Proof.
  intros H. apply fdl_new_spec in H. destruct H as [[Rs _] _]. unfold InvD. rewrite Rs. cbn.
  split; [reflexivity|]. split; [reflexivity|discriminate].
Qed.

Lemma InvH_init p f : fdl_new p = Ok f -> InvH f hst_init.
Proof. intros H. apply fdl_new_spec in H. destruct H as [[Rs _] _]. unfold InvH. rewrite Rs. cbn. tauto. Qed.
Lemma InvG_init p f : fdl_new p = Ok f -> InvG f gst_init.
Proof.
  intros H. apply fdl_new_spec in H. destruct H as [[Rs _] _]. unfold InvG. rewrite Rs. cbn.
  split; [reflexivity|]. split; [discriminate|discriminate].
Qed.

(* the three invariants depend on the state and the hold-time fields of the station only, so set_online keeps
   them, and a re-created station satisfies them with the monitor reset *)
Lemma step_hold f (apps : list A) e f' apps' h s :
  InvH f s -> step A ops f apps e = Ok (f', apps', h) -> accepts hpre hpost s h /\ InvH f' (posts hpost s h).
Proof.
  revert f apps e f' apps' h s. apply (step_invariant A ops hst hpre hpost (fun f _ s => InvH f s)).
  - intros f apps s. apply InvH_poll.
  - intros f _ s HI. exact HI.
  - intros f _ s f' _ En. split; [exact I|exact (InvH_init _ _ En)].
  - intros f _ s _ HI. exact HI.
Qed.

Lemma step_gap f (apps : list A) e f' apps' h s :
  InvG f s -> step A ops f apps e = Ok (f', apps', h) -> accepts gpre gpost s h /\ InvG f' (posts gpost s h).
Proof.
  revert f apps e f' apps' h s. apply (step_invariant A ops gst gpre gpost (fun f _ s => InvG f s)).
  - intros f apps s. apply InvG_poll.
  - intros f _ s HI. exact HI.
  - intros f _ s f' _ En. split; [exact I|exact (InvG_init _ _ En)].
  - intros f _ s _ HI. exact HI.
Qed.

Lemma step_dead f (apps : list A) e f' apps' h s :
  InvD f s -> step A ops f apps e = Ok (f', apps', h) -> accepts dpre dpost s h /\ InvD f' (posts dpost s h).
Proof.
  revert f apps e f' apps' h s. apply (step_invariant A ops dst dpre dpost (fun f _ s => InvD f s)).
  - intros f apps s. apply InvD_poll.
  - intros f _ s HI. exact HI.
  - intros f _ s f' _ En. split; [exact I|exact (InvD_init _ _ En)].
  - intros f _ s _ HI. exact HI.
Qed.

Theorem visit_bounded_from_inv f s (apps : list A) evs f' apps' h :
  InvH f s -> run A ops f apps evs = Ok (f', apps', h) -> accepts hpre hpost s h /\ InvH f' (posts hpost s h).
Proof. exact (run_invariant A ops _ _ _ _ step_hold _ _ _ _ _ _ _). Qed.

Theorem one_gap_poll_from_inv f s (apps : list A) evs f' apps' h :
  InvG f s -> run A ops f apps evs = Ok (f', apps', h) -> accepts gpre gpost s h /\ InvG f' (posts gpost s h).
Proof. exact (run_invariant A ops _ _ _ _ step_gap _ _ _ _ _ _ _). Qed.

Theorem deadline_constant_from_inv f s (apps : list A) evs f' apps' h :
  InvD f s -> run A ops f apps evs = Ok (f', apps', h) -> accepts dpre dpost s h /\ InvD f' (posts dpost s h).
Proof. exact (run_invariant A ops _ _ _ _ step_dead _ _ _ _ _ _ _). Qed.

Theorem visit_bounded_history p f0 (apps : list A) evs f apps' h :
  fdl_new p = Ok f0 -> run A ops f0 apps evs = Ok (f, apps', h) -> accepts hpre hpost hst_init h.
Proof. intros Hn Hr. exact (proj1 (visit_bounded_from_inv _ _ _ _ _ _ _ (InvH_init _ _ Hn) Hr)). Qed.

Theorem one_gap_poll_history p f0 (apps : list A) evs f apps' h :
  fdl_new p = Ok f0 -> run A ops f0 apps evs = Ok (f, apps', h) -> accepts gpre gpost gst_init h.
Proof. intros Hn Hr. exact (proj1 (one_gap_poll_from_inv _ _ _ _ _ _ _ (InvG_init _ _ Hn) Hr)). Qed.

Theorem deadline_constant_history p f0 (apps : list A) evs f apps' h :
  fdl_new p = Ok f0 -> run A ops f0 apps evs = Ok (f, apps', h) -> accepts dpre dpost dst_init h.
Proof. intros Hn Hr. exact (proj1 (deadline_constant_from_inv _ _ _ _ _ _ _ (InvD_init _ _ Hn) Hr)). Qed.

End Apps.

(* One token visit of one station on a common time line.  The fields are what the theorems above speak
   about: vi_prev = last_token_time when the visit begins (the token time of the station's previous
   visit), vi_arrival = token_time of the visit, vi_end_tht = the deadline do_use_token computes for the
   visit (do_use_token_state), vi_rounds = the polls of the visit in which applications were asked, as
   (time of the poll, high_prio_only), in order - the polls in which the monitor of C13_visit_bounded
   sets h_lp / h_hp; vi_release = the time the last message cycle of the visit is over (or, without any,
   the time the station turns to passing the token); vi_next = arrival of the token at the next station. *)
Record visit : Set := mkVisit {
  vi_prev : Z; vi_arrival : Z; vi_end_tht : Z;
  vi_rounds : list (Z * bool);
  vi_release : Z; vi_next : Z }.

(* exactly the conclusion of C13_hold_rule / C13_visit_bounded, per round: a normal round starts before
   the deadline; a high-priority-only round starts after it and is the first round of the visit *)
Definition hold_ok (v : visit) : Prop :=
  forall j now hp, nth_error (vi_rounds v) j = Some (now, hp) ->
    if hp : bool then j = 0%nat /\ vi_end_tht v <= now else now < vi_end_tht v.

(* the deadline as coded: previous token time + TTR - GAP reserve, reserve >= 0 *)
Definition deadline_ok (TTR : Z) (v : visit) : Prop := vi_end_tht v <= vi_prev v + TTR.

(* C bounds one message cycle: from the start of a round to the end of its last cycle; and from the
   arrival of the token to the end of the guaranteed first round / to the decision to pass when nobody
   wants to send.  O bounds the hand-over (GAP poll, token telegram, retries, idle times). *)
Definition timing_ok (C O : Z) (v : visit) : Prop :=
  vi_arrival v <= vi_release v /\
  match rev (vi_rounds v) with
  | [] => vi_release v <= vi_arrival v + C
  | (now, hp) :: _ => vi_release v <= (if hp : bool then vi_arrival v else now) + C
  end /\
  0 <= vi_next v - vi_release v <= O.

Definition visit_ok (TTR C O : Z) (v : visit) : Prop :=
  hold_ok v /\ deadline_ok TTR v /\ timing_ok C O v.

(* the token time line of a stable ring of N stations: visit v is at station v mod N *)
Definition ring_run (N : nat) (V : nat -> visit) : Prop :=
  (forall v, vi_arrival (V (S v)) = vi_next (V v)) /\
  (forall v, (N <= v)%nat -> vi_prev (V v) = vi_arrival (V (v - N)%nat)).

Definition trace_of (N : nat) (V : nat -> visit) : rotation_trace :=
  mkTrace N (fun v => vi_arrival (V v))
            (fun v => vi_release (V v) - vi_arrival (V v))
            (fun v => vi_next (V v) - vi_release (V v)).

Lemma hold_inequality TTR C O v : visit_ok TTR C O v -> 0 <= C ->
  vi_release v - vi_arrival v <= Z.max 0 (TTR - (vi_arrival v - vi_prev v)) + C.
Proof.
  intros [Hh [Hd [Ha [Hc _]]]] HC. unfold deadline_ok in Hd.
  destruct (rev (vi_rounds v)) as [|[now hp] tl] eqn:Er.
  - lia.
  - assert (Hlast : nth_error (vi_rounds v) (length tl) = Some (now, hp)).
    { assert (E : vi_rounds v = rev tl ++ [(now, hp)]) by (rewrite <- (rev_involutive (vi_rounds v)), Er; reflexivity).
      rewrite E, nth_error_app2 by (rewrite rev_length; lia). rewrite rev_length, Nat.sub_diag. reflexivity. }
    specialize (Hh _ _ _ Hlast). destruct hp; lia.
Qed.

Lemma trace_of_wf N V C O TTR : (1 <= N)%nat -> ring_run N V -> (forall v, visit_ok TTR C O (V v)) ->
  trace_wf (trace_of N V).
Proof.
  intros HN [Hchain _] Hok. split; [exact HN|]. intros v. cbn.
  destruct (Hok v) as [_ [_ [Ha [_ Ho]]]]. rewrite Hchain. lia.
Qed.

Lemma trace_of_obeys N V C O TTR : ring_run N V -> (forall v, visit_ok TTR C O (V v)) -> 0 <= C ->
  obeys_hold_rule (trace_of N V) TTR C O.
Proof.
  intros [_ Hprev] Hok HC v Hv. cbn in *. split.
  - rewrite <- (Hprev v Hv). apply (hold_inequality TTR C O); [apply Hok|exact HC].
  - destruct (Hok v) as [_ [_ [_ [_ Ho]]]]. lia.
Qed.

Theorem rotation_bound_conditional N V TTR C O :
  (1 <= N)%nat -> ring_run N V -> (forall v, visit_ok TTR C O (V v)) -> 0 <= TTR -> 0 <= C -> 0 <= O ->
  forall v, (N <= v)%nat ->
  vi_arrival (V (v + N)%nat) - vi_arrival (V v) <= TTR + Z.of_nat N * (C + O).
Proof.
  intros HN Hrun Hok HT HC HO v Hv.
  exact (rotation_bound (trace_of N V) TTR C O (trace_of_wf N V C O TTR HN Hrun Hok)
           (trace_of_obeys N V C O TTR Hrun Hok HC) HT HC HO v Hv).
Qed.

(* non-vacuity: three stations, TTR = 100; every visit asks once at arrival + 1 (before the deadline),
   the cycle takes 9 more, the hand-over 1 *)
Definition example_visit (v : nat) : visit :=
  let a := Z.of_nat v * 11 in
  mkVisit (a - 33) a (a - 33 + 100) [(a + 1, false)] (a + 10) (a + 11).

Lemma example_ring_ok : ring_run 3 example_visit /\ forall v, visit_ok 100 10 1 (example_visit v).
Proof.
  split; [split|].
  - intros v. cbn. lia.
  - intros v Hv. cbn. lia.
  - intros v. split; [|split].
    + intros j now hp Hn. cbn in Hn. destruct j as [|j]; [|destruct j; discriminate Hn]. injection Hn as <- <-. cbn. lia.
    + unfold deadline_ok. cbn. lia.
    + unfold timing_ok. cbn. lia.
Qed.

(* the monitor of C13_visit_bounded is not trivially true: a normal round after the deadline, and a
   high-priority-only round after another round of the same visit, are rejected *)
Definition stub_fdl (st : state) (end_tht : Z) : fdl :=
  mkFdl default_params (mkRing [] LasValid 2 2 2) ConnOnline (GapWaiting 0) st None 0 0 end_tht 0.

Lemma hold_rejects_late_round :
  ~ accepts hpre hpost (mkH KUseToken true false false)
      [HCall (CallTransmit 0 false None); HEnd 500 (stub_fdl (PassToken true AttFirst) 400)].
Proof. cbn. intros [_ [[C _] _]]. specialize (C eq_refl). lia. Qed.

Lemma hold_rejects_second_extra_round :
  ~ accepts hpre hpost (mkH KUseToken true false false) [HCall (CallTransmit 0 true None)].
Proof. cbn. intros [[_ C] _]. discriminate C. Qed.

Lemma gap_rejects_second_poll :
  ~ accepts gpre gpost (mkG KPassToken 1) [HEnd 0 (stub_fdl (AwaitStatusResponse 9) 0)].
Proof. cbn. intros [C _]. destruct (C eq_refl ltac:(discriminate)) as [_ C']. discriminate C'. Qed.

Lemma deadline_rejects_change :
  ~ accepts dpre dpost (mkD KUseToken (Some 400) false)
      [HCall (CallTransmit 0 false None); HEnd 100 (stub_fdl (UseToken 0 None true) 900)].
Proof. cbn. intros [_ [C _]]. specialize (C eq_refl 400 eq_refl). discriminate C. Qed.
