(* C13 - extraction of token visits from a station's history (visits_of), and the station-local part of
   visit_ok: for histories of a newly created station with strictly increasing poll times every extracted visit
   satisfies sv_ok (per round hold_ok, one deadline per visit, at most previous token time + TTR) and the visits
   are linked.  So hold_ok / deadline_ok and the second half of ring_run in C13_rotation_bound_conditional are
   THEOREMS about model stations (rotation_bound_stations); what remains assumed are the ring hypotheses: which
   station's visit follows which, the token arrival chain, and the timing bounds C (message cycle), O (hand-over). *)
From Coq Require Import Arith.
From PB Require Import Common Tables FdlTables Telegram Phy TokenRing Params Fdl FdlProofs FdlStepProofs C01Proofs C15Proofs C13Proofs.
From PB Require Import Rotation RotationBound.
From PB Require Import FdlOracleSound2 C15Liveness.

Record svisit : Set := mkSv {
  sv_prev : Z;                       (* last_token_time when the visit began *)
  sv_arrival : Z;                    (* token_time of the visit *)
  sv_end_tht : Z;                    (* end_token_hold_time seen at the first round; without a round:
                                        previous token time + TTR (the deadline without GAP reserve) *)
  sv_rounds : list (Z * bool);       (* polls in which applications were asked: (now, high_prio_only) *)
  sv_release : option Z              (* the poll in which the token was passed on *)
}.

Record xst : Set := mkX {
  x_open : option svisit;            (* the visit the station is in *)
  x_cur : option bool;               (* priority of the transmit callbacks of the current poll, if any *)
  x_done : list svisit               (* closed visits, latest first *)
}.

Definition x_init : xst := mkX None None [].

Definition tk_of (s : state) : option Z :=
  match s with UseToken tk _ _ | AwaitDataResponse _ tk _ => Some tk | _ => None end.

Definition add_round (v : svisit) (now : Z) (cur : option bool) (e : Z) : svisit :=
  match cur with
  | Some hp => mkSv (sv_prev v) (sv_arrival v) (match sv_rounds v with [] => e | _ => sv_end_tht v end)
                    (sv_rounds v ++ [(now, hp)]) (sv_release v)
  | None => v
  end.

Definition close (v : svisit) (r : option Z) : svisit :=
  mkSv (sv_prev v) (sv_arrival v) (sv_end_tht v) (sv_rounds v) r.

Definition fresh (f : fdl) (tk : Z) : svisit :=
  mkSv (f_last_token_time f) tk (f_last_token_time f + token_rotation_time (f_p f)) [] None.

Definition xpost (s : xst) (x : hitem) : xst :=
  match x with
  | HCall (CallTransmit _ hp _) => mkX (x_open s) (match x_cur s with None => Some hp | c => c end) (x_done s)
  | HCall _ => s
  | HEnd now f =>
      match x_open s with
      | Some v =>
          let v1 := add_round v now (x_cur s) (f_end_tht f) in
          match tk_of (f_state f) with
          | Some tk =>
              if tk =? sv_arrival v then mkX (Some v1) None (x_done s)
              else (* the station passed the token to itself in this poll: its next visit *)
                   mkX (Some (fresh f tk)) None (close v1 (Some now) :: x_done s)
          | None => mkX None None (close v1 (if pass_kind (kind_of (f_state f)) then Some now else None) :: x_done s)
          end
      | None =>
          match tk_of (f_state f) with
          | Some tk => mkX (Some (fresh f tk)) None (x_done s)
          | None => mkX None None (x_done s)
          end
      end
  | HReset => mkX None None (match x_open s with Some v => close v None :: x_done s | None => x_done s end)
  end.

Definition x_all (s : xst) : list svisit :=
  rev (match x_open s with Some v => v :: x_done s | None => x_done s end).

(* the visits of a history, in order; the last one may still be open *)
Definition visits_of (h : list hitem) : list svisit := x_all (fold_left xpost h x_init).

Definition sv_ok (TTR : Z) (v : svisit) : Prop :=
  sv_prev v < sv_arrival v /\
  (forall j now hp, nth_error (sv_rounds v) j = Some (now, hp) ->
     sv_arrival v <= now /\ if hp : bool then j = 0%nat /\ sv_end_tht v <= now else now < sv_end_tht v) /\
  sv_end_tht v <= sv_prev v + TTR /\
  (forall r, sv_release v = Some r -> sv_arrival v <= r /\ forall now hp, In (now, hp) (sv_rounds v) -> now <= r).

(* the visit record of C13Proofs from an extracted visit that was completed, given the arrival of the
   token at the next station *)
Definition to_visit (v : svisit) (next : Z) : visit :=
  mkVisit (sv_prev v) (sv_arrival v) (sv_end_tht v) (sv_rounds v)
          (match sv_release v with Some r => r | None => sv_arrival v end) next.

Lemma sv_ok_hold TTR v next : sv_ok TTR v -> hold_ok (to_visit v next) /\ deadline_ok TTR (to_visit v next).
Proof.
  intros (_ & Hr & Hd & _). split; [|exact Hd].
  intros j now hp Hn. exact (proj2 (Hr j now hp Hn)).
Qed.

Fixpoint mono {A : Type} (tl : Z) (evs : list (event A)) : Prop :=
  match evs with
  | [] => True
  | EvPoll _ now _ :: r => tl < now /\ mono now r
  | _ :: r => mono tl r
  end.

Section Apps.
Variable A : Type.
Variable ops : app_ops A.
Notation W := (world A).

Lemma tk_of_visit s tk : tk_of s = Some tk ->
  (exists fa fcd, s = UseToken tk fa fcd) \/ (exists a fa, s = AwaitDataResponse a tk fa).
Proof. destruct s; try discriminate; intros H; injection H as <-; [left|right]; eexists; eexists; reflexivity. Qed.

Lemma tk_of_in_visit s : in_visit (kind_of s) = match tk_of s with Some _ => true | None => false end.
Proof. destruct s; reflexivity. Qed.

Lemma gap_reserve_nonneg f : 0 <= p_slot_bits (f_p f) -> 0 <= gap_reserve f.
Proof.
  intros H. unfold gap_reserve. destruct (f_gap f); [lia|]. unfold p_bits_to_time. apply btt_nonneg.
  unfold gap_reserve_extra_bits. lia.
Qed.

Section Inv.
Variable p : params.
Hypothesis Hslot : 0 <= p_slot_bits p.
Let TTR := token_rotation_time p.

Definition rounds_ok (v : svisit) : Prop :=
  forall j now hp, nth_error (sv_rounds v) j = Some (now, hp) ->
    sv_arrival v <= now /\ if hp : bool then j = 0%nat /\ sv_end_tht v <= now else now < sv_end_tht v.

(* what is known of an open visit from the history alone ... *)
Definition vstat (tl : Z) (v : svisit) : Prop :=
  sv_prev v < sv_arrival v /\ sv_arrival v <= tl /\ sv_release v = None /\ rounds_ok v /\
  (forall now hp, In (now, hp) (sv_rounds v) -> now <= tl) /\ sv_end_tht v <= sv_prev v + TTR.

(* ... and its link to the station: before the first do_use_token of the visit last_token_time is still the
   previous token time; afterwards it is the token time of the visit and the deadline is computed; once
   applications have been asked the deadline is the recorded one and first_cycle_done is set *)
Definition vdl (f : fdl) (v : svisit) : Prop :=
  (sv_rounds v = [] /\
   (f_last_token_time f = sv_prev v \/
    (f_last_token_time f = sv_arrival v /\ f_end_tht f <= sv_prev v + TTR))) \/
  (sv_rounds v <> [] /\ f_last_token_time f = sv_arrival v /\ f_end_tht f = sv_end_tht v).

Definition vdyn (f : fdl) (v : svisit) : Prop :=
  vdl f v /\ (sv_rounds v <> [] -> forall tk' fa fcd, f_state f = UseToken tk' fa fcd -> fcd = true).

Definition InvX (f : fdl) (tl : Z) (s : xst) : Prop :=
  f_p f = p /\ 0 <= tl /\ Forall (sv_ok TTR) (x_done s) /\ x_cur s = None /\ f_last_token_time f <= tl /\
  match x_open s, tk_of (f_state f) with
  | Some v, Some tk => sv_arrival v = tk /\ vstat tl v /\ vdyn f v
  | None, None => True
  | _, _ => False
  end.

Lemma vstat_mono tl tl' v : vstat tl v -> tl <= tl' -> vstat tl' v.
Proof.
  intros (H1 & H2 & H3 & H4 & H5 & H6) Hle. split; [exact H1|]. split; [lia|]. split; [exact H3|]. split; [exact H4|].
  split; [|exact H6]. intros now hp Hin. specialize (H5 _ _ Hin). lia.
Qed.

Lemma vstat_close tl v r : vstat tl v -> (r = None \/ exists t, r = Some t /\ tl <= t) -> sv_ok TTR (close v r).
Proof.
  intros (H1 & H2 & H3 & H4 & H5 & H6) Hr. split; [exact H1|]. split; [exact H4|]. split; [exact H6|].
  cbn [close sv_release sv_arrival sv_rounds]. intros r0 E. destruct Hr as [-> |(t & -> & Ht)]; [discriminate E|]. injection E as <-.
  split; [lia|]. intros now hp Hin. specialize (H5 _ _ Hin). lia.
Qed.

Lemma vstat_open tl v : vstat tl v -> sv_ok TTR v.
Proof.
  intros (H1 & H2 & H3 & H4 & H5 & H6). split; [exact H1|]. split; [exact H4|]. split; [exact H6|].
  intros r E. rewrite H3 in E. discriminate E.
Qed.

Lemma fresh_ok f tl now : f_p f = p -> f_last_token_time f <= tl -> tl < now ->
  vstat now (fresh f now) /\ vdyn f (fresh f now).
Proof.
  intros Hp Hl Hlt. unfold fresh, vstat, vdyn, vdl, rounds_ok. cbn. rewrite Hp. fold TTR. split.
  - split; [lia|]. split; [lia|]. split; [reflexivity|]. split; [intros [|j] ? ? C; discriminate C|].
    split; [intros ? ? []|lia].
  - split; [left; split; [reflexivity|left; reflexivity]|]. intros C. contradiction C. reflexivity.
Qed.

Lemma nth_error_snoc {X} (l : list X) x j y : nth_error (l ++ [x]) j = Some y ->
  (nth_error l j = Some y /\ (j < length l)%nat) \/ (j = length l /\ y = x).
Proof.
  intros H. destruct (lt_dec j (length l)) as [L|L].
  - rewrite nth_error_app1 in H by exact L. left. split; assumption.
  - rewrite nth_error_app2 in H by lia. right.
    destruct (j - length l)%nat as [|k] eqn:Ek; cbn in H; [injection H as <-; split; [lia|reflexivity]|destruct k; discriminate H].
Qed.

Lemma add_round_fields v now c e :
  sv_prev (add_round v now c e) = sv_prev v /\ sv_arrival (add_round v now c e) = sv_arrival v /\
  sv_release (add_round v now c e) = sv_release v.
Proof. unfold add_round. destruct c; cbn; tauto. Qed.

Lemma vstat_round tl now v hp e : vstat tl v -> tl < now ->
  let v1 := add_round v now (Some hp) e in
  sv_end_tht v1 <= sv_prev v + TTR ->
  (if hp : bool then sv_rounds v = [] /\ sv_end_tht v1 <= now else now < sv_end_tht v1) ->
  vstat now v1.
Proof.
  intros (S1 & S2 & S3 & S4 & S5 & S6) Hlt v1 He Hhp.
  split; [exact S1|]. split; [cbn; lia|]. split; [exact S3|]. split; [|split; [|exact He]].
  - intros j t0 h0 Hn. cbn [v1 add_round sv_rounds sv_arrival] in Hn |- *.
    apply nth_error_snoc in Hn. destruct Hn as [(Hn & Hj)|(Hj & Hy)].
    + destruct (sv_rounds v) as [|x l] eqn:Er; [destruct j; discriminate Hn|].
      replace (sv_end_tht v1) with (sv_end_tht v) by (unfold v1, add_round; rewrite Er; reflexivity).
      rewrite <- Er in Hn. exact (S4 _ _ _ Hn).
    + injection Hy as -> ->. split; [lia|]. destruct hp; [|exact Hhp]. destruct Hhp as (Hr & Hle). split; [rewrite Hj, Hr; reflexivity|exact Hle].
  - intros t0 h0 Hin. cbn [v1 add_round sv_rounds] in Hin. apply in_app_or in Hin.
    destruct Hin as [Hin|[Hin|[]]]; [specialize (S5 _ _ Hin); lia|injection Hin as <- _; lia].
Qed.

Lemma vdl_step f f' v : f_p f = p -> sv_prev v < sv_arrival v -> vdl f v -> deadline_step (sv_arrival v) f f' -> vdl f' v.
Proof.
  intros Hp Hlt [(Hr & Hl)|(Hr & Hl & He)] [(D1 & D2)|(D0 & D1 & g & D2)].
  - left. split; [exact Hr|]. rewrite D1, D2. exact Hl.
  - left. split; [exact Hr|]. right. split; [exact D1|]. destruct Hl as [Hl|(Hl & _)]; [|contradiction].
    pose proof (gap_reserve_nonneg (set_gap f g)) as Hg. cbn [f_p set_gap] in Hg. rewrite Hp in Hg, D2. fold TTR in D2. lia.
  - right. split; [exact Hr|]. rewrite D1, D2. split; assumption.
  - contradiction.
Qed.

Lemma vdl_round f v now hp : vdl f v -> f_last_token_time f = sv_arrival v -> sv_prev v < sv_arrival v ->
  sv_end_tht v <= sv_prev v + TTR ->
  let v1 := add_round v now (Some hp) (f_end_tht f) in
  sv_end_tht v1 = f_end_tht f /\ f_end_tht f <= sv_prev v + TTR /\ vdl f v1.
Proof.
  intros Hd Hl Hlt He v1.
  assert (Hne : sv_rounds v1 <> []) by (cbn; intros C; apply app_eq_nil in C; destruct C as (_ & C); discriminate C).
  assert (H1 : sv_end_tht v1 = f_end_tht f /\ f_end_tht f <= sv_prev v + TTR).
  { unfold v1, add_round. cbn [sv_end_tht]. destruct Hd as [(-> & [Hp|(_ & Hd)])|(Hr & _ & Hd)]; [lia|tauto|].
    destruct (sv_rounds v); [contradiction Hr; reflexivity|]. split; [symmetry; exact Hd|lia]. }
  destruct H1 as (E1 & E2). split; [exact E1|]. split; [exact E2|]. right. split; [exact Hne|]. split; [exact Hl|symmetry; exact E1].
Qed.

Lemma xcalls hp : forall l s, Forall (prio_of hp) l -> (x_cur s = None \/ x_cur s = Some hp) ->
  let s' := fold_left xpost (map HCall l) s in
  x_open s' = x_open s /\ x_done s' = x_done s /\
  ((x_cur s' = Some hp /\ (asks l \/ x_cur s = Some hp)) \/ (x_cur s' = None /\ ~ asks l /\ x_cur s = None)).
Proof.
  induction l as [|c l IH]; intros s Hf Hc; cbn [map fold_left].
  - split; [reflexivity|]. split; [reflexivity|]. destruct Hc as [Hc|Hc]; [right|left]; (split; [exact Hc|]); [split; [apply asks_nil|exact Hc]|right; exact Hc].
  - inversion Hf as [|c' l' Hc0 Hl]; subst.
    destruct c as [i hp' r|i a t|i a]; cbn [xpost]; [|rewrite asks_skip by discriminate; exact (IH s Hl Hc)..].
    cbn in Hc0. subst hp'.
    destruct (IH (mkX (x_open s) (match x_cur s with None => Some hp | c => c end) (x_done s)) Hl) as (H1 & H2 & H3).
    { right. cbn. destruct Hc as [-> | ->]; reflexivity. }
    split; [exact H1|]. split; [exact H2|]. left. destruct H3 as [(E & _)|(_ & _ & C)].
    + split; [exact E|]. left. exists i, hp, r. left. reflexivity.
    + cbn in C. destruct (x_cur s); discriminate C.
Qed.

(* the time of the last poll after e, tl being that before e; `tl < ev_time (tl + 1) e` says: if e is a poll, it is
   later than tl *)
Definition ev_time (tl : Z) (e : event A) : Z := match e with EvPoll _ now _ => now | _ => tl end.

Lemma poll_x_in f (apps : list A) now pin f' o apps' calls tl s v :
  InvX f tl s -> x_open s = Some v -> poll ops f now pin apps = Ok (f', o, apps', calls) -> tl < now ->
  InvX f' now (fold_left xpost (map HCall calls ++ [HEnd now f']) s).
Proof.
  intros (Hp & Htl & Hdone & Hcur & Hltt & Hopen) Eo Ep Hlt. rewrite Eo in Hopen.
  destruct (tk_of (f_state f)) as [tk|] eqn:Etk; [|contradiction]. destruct Hopen as (Ha & Hst & Hdl0 & Hfcd). subst tk.
  pose proof Hst as (S1 & S2 & S3 & S4 & S5 & S6).
  destruct (poll_hold_rule A ops _ _ _ _ _ _ _ _ Ep) as (hp & Hprio & Hrule).
  destruct (poll_in_visit A ops _ _ _ _ _ _ _ _ _ Ep (tk_of_visit _ _ Etk)) as (Hp1 & Hdl & Hask & Hto & _).
  rewrite fold_left_app. destruct (xcalls hp calls s Hprio (or_introl Hcur)) as (X1 & X2 & X3). cbv zeta in X1, X2, X3.
  set (s1 := fold_left xpost (map HCall calls) s) in *. clearbody s1. cbn [fold_left xpost]. rewrite X1, X2, Eo.
  (* the station's bookkeeping after the poll, against the record before it *)
  pose proof (vdl_step _ _ _ Hp S1 Hdl0 Hdl) as Hdl1.
  (* the record after the poll: with a round when somebody was asked *)
  set (v1 := add_round v now (x_cur s1) (f_end_tht f')).
  destruct (add_round_fields v now (x_cur s1) (f_end_tht f')) as (V2 & V1 & V3). fold v1 in V1, V2, V3.
  assert (H1 : vstat now v1 /\ vdl f' v1 /\ (asks calls \/ v1 = v)).
  { destruct X3 as [(Ec & [Has|C])|(Ec & Hno & _)]; [|congruence|]; unfold v1; rewrite Ec.
    - destruct (vdl_round _ _ now hp Hdl1 (Hask Has) S1 S6) as (E1 & E2 & Hdl2).
      split; [|split; [exact Hdl2|left; exact Has]]. apply (vstat_round tl); [exact Hst|exact Hlt|cbv zeta; rewrite E1; exact E2|].
      cbv zeta. rewrite E1. specialize (Hrule Has). destruct hp; [|exact Hrule]. destruct Hrule as ((tk' & fa & Es) & Hend).
      split; [|exact Hend]. destruct (sv_rounds v) eqn:Er; [reflexivity|]. discriminate (Hfcd ltac:(discriminate) _ _ _ Es).
    - split; [apply (vstat_mono tl); [exact Hst|lia]|]. split; [exact Hdl1|right; reflexivity]. }
  destruct H1 as (Hst1 & Hdl2 & Hv1).
  assert (Hl1 : f_last_token_time f' <= tl) by (destruct Hdl2 as [(_ & [E|(E & _)])|(_ & E & _)]; lia).
  assert (Hp1' : f_p f' = p) by congruence.
  unfold visit_to in Hto. unfold InvX. destruct (tk_of (f_state f')) as [tk1|] eqn:Etk1.
  - destruct (Z.eqb_spec tk1 (sv_arrival v)) as [Eq|Ne]; cbn [x_open x_cur x_done].
    + (* the visit goes on *)
      subst tk1. split; [exact Hp1'|]. split; [lia|]. split; [exact Hdone|]. split; [reflexivity|]. split; [lia|].
      split; [exact V1|]. split; [exact Hst1|]. split; [exact Hdl2|]. intros Hne tk' fa fcd Es1. rewrite Es1 in Hto, Etk1.
      destruct Hto as [(E & Hc0)|[(E & _)|[(fa' & E)|[(a & fa' & E)|[E|E]]]]]; try discriminate E.
      * destruct Hv1 as [Has|Ev]; [rewrite Hc0 in Has; destruct (asks_nil Has)|]. rewrite Ev in Hne. exact (Hfcd Hne _ _ _ (eq_sym E)).
      * injection E as _ _ ->. reflexivity.
      * injection E as -> _ _. injection Etk1 as Etk1. lia.
    + (* the token was passed to the station itself: the next visit has begun *)
      assert (Es1 : f_state f' = UseToken now None false).
      { destruct Hto as [(E & _)|[(E & _)|[(fa' & E)|[(a & fa' & E)|[E|E]]]]]; [| | | | |exact E].
        - rewrite E, Etk in Etk1. congruence.
        - rewrite E in Etk1. discriminate Etk1.
        - rewrite E in Etk1. injection Etk1 as Etk1. congruence.
        - rewrite E in Etk1. injection Etk1 as Etk1. congruence.
        - destruct (f_state f'); try discriminate E; discriminate Etk1. }
      rewrite Es1 in Etk1. injection Etk1 as <-. destruct (fresh_ok f' tl now Hp1' Hl1 Hlt) as (F1 & F2).
      split; [exact Hp1'|]. split; [lia|].
      split; [constructor; [apply (vstat_close now); [exact Hst1|right; exists now; split; [reflexivity|lia]]|exact Hdone]|].
      split; [reflexivity|]. split; [lia|]. split; [reflexivity|]. split; [exact F1|exact F2].
  - cbn [x_open x_cur x_done]. split; [exact Hp1'|]. split; [lia|].
    split; [constructor; [apply (vstat_close now); [exact Hst1|destruct (pass_kind _); [right; exists now; split; [reflexivity|lia]|left; reflexivity]]|exact Hdone]|].
    split; [reflexivity|]. split; [lia|exact I].
Qed.

Lemma poll_x_out f (apps : list A) now pin f' o apps' calls tl s :
  InvX f tl s -> x_open s = None -> poll ops f now pin apps = Ok (f', o, apps', calls) -> tl < now ->
  InvX f' now (fold_left xpost (map HCall calls ++ [HEnd now f']) s).
Proof.
  intros (Hp & Htl & Hdone & Hcur & Hltt & Hopen) Eo Ep Hlt. rewrite Eo in Hopen.
  destruct (tk_of (f_state f)) as [tk|] eqn:Etk; [contradiction|].
  assert (Hnv : in_visit (kind_of (f_state f)) = false) by (rewrite tk_of_in_visit, Etk; reflexivity).
  destruct (poll_outside_visit A ops _ _ _ _ _ _ _ _ Ep Hnv) as (-> & Hp1 & Hk & Hin).
  assert (Hl1 : f_last_token_time f' <= tl) by (destruct Hk as [(_ & _ & _ & -> & _)|(_ & _ & -> & _)]; lia).
  assert (Hp1' : f_p f' = p) by congruence.
  cbn [map app fold_left xpost]. rewrite Eo. rewrite tk_of_in_visit in Hin. unfold InvX.
  destruct (tk_of (f_state f')) as [tk1|] eqn:Etk1; cbn [x_open x_cur x_done].
  - rewrite (Hin eq_refl) in Etk1. injection Etk1 as <-. destruct (fresh_ok f' tl now Hp1' Hl1 Hlt) as (F1 & F2).
    split; [exact Hp1'|]. split; [lia|]. split; [exact Hdone|]. split; [reflexivity|]. split; [lia|].
    split; [reflexivity|]. split; [exact F1|exact F2].
  - split; [exact Hp1'|]. split; [lia|]. split; [exact Hdone|]. split; [reflexivity|]. split; [lia|exact I].
Qed.

Lemma step_x f apps e f' apps' h tl s :
  InvX f tl s -> step A ops f apps e = Ok (f', apps', h) -> tl < ev_time (tl + 1) e ->
  InvX f' (ev_time tl e) (fold_left xpost h s).
Proof.
  intros HI H Hlt. destruct e as [now pin| | |g]; cbn [step ev_time] in *.
  - destruct (poll ops f now pin apps) as [[[[f1 o1] a1] calls]| |] eqn:Ep; cbn [bind] in H; try discriminate H.
    injection H as <- _ <-. destruct (x_open s) as [v|] eqn:Eo; [eapply poll_x_in|eapply poll_x_out]; eassumption.
  - injection H as <- _ <-. exact HI.
  - unfold set_offline, set_state in H. destruct (fdl_new (f_p f)) as [f1| |] eqn:En; cbn [bind] in H; try discriminate H.
    injection H as <- _ <-. apply fdl_new_spec in En. destruct En as ((Rs & _ & _ & Rl & _) & Rp).
    destruct HI as (Hp & Htl & Hdone & Hcur & Hltt & Hopen).
    cbn [fold_left xpost]. unfold InvX. rewrite Rs. cbn [tk_of x_open x_cur x_done].
    split; [congruence|]. split; [exact Htl|]. split; [|split; [reflexivity|split; [lia|exact I]]].
    destruct (x_open s) as [v|]; [|exact Hdone]. destruct (tk_of (f_state f)); [|contradiction].
    destruct Hopen as (_ & Hst & _). constructor; [apply (vstat_close tl); [exact Hst|left; reflexivity]|exact Hdone].
  - injection H as <- _ <-. exact HI.
Qed.

Lemma InvX_all f tl s : InvX f tl s -> Forall (sv_ok TTR) (x_all s).
Proof.
  intros (_ & _ & Hdone & _ & _ & Hopen). unfold x_all. apply Forall_rev.
  destruct (x_open s) as [v|]; [|exact Hdone]. destruct (tk_of (f_state f)); [|contradiction].
  destruct Hopen as (_ & Hst & _). constructor; [exact (vstat_open _ _ Hst)|exact Hdone].
Qed.

End Inv.

(* latest first *)
Fixpoint linked_rev (l : list svisit) : Prop :=
  match l with
  | v' :: ((v :: _) as tl) => (sv_release v <> None -> sv_prev v' = sv_arrival v \/ sv_prev v' = 0) /\ linked_rev tl
  | _ => True
  end.

(* in order: a visit that follows a completed visit has that visit's token time as its previous token
   time - or 0, when the station was re-created in between *)
Fixpoint linked (l : list svisit) : Prop :=
  match l with
  | v :: ((v' :: _) as tl) => (sv_release v <> None -> sv_prev v' = sv_arrival v \/ sv_prev v' = 0) /\ linked tl
  | _ => True
  end.

Lemma linked_snoc l : forall v v', linked (l ++ [v]) -> (sv_release v <> None -> sv_prev v' = sv_arrival v \/ sv_prev v' = 0) ->
  linked ((l ++ [v]) ++ [v']).
Proof.
  induction l as [|x l IH]; intros v v' Hl Hv; [cbn; tauto|].
  destruct l as [|y l]; [cbn in *; tauto|].
  change (linked (x :: (y :: l ++ [v]) ++ [v'])). cbn [linked app] in Hl |- *. destruct Hl as (H1 & H2).
  split; [exact H1|]. exact (IH v v' H2 Hv).
Qed.

Lemma linked_rev_rev l : linked_rev l -> linked (rev l).
Proof.
  induction l as [|v' l IH]; intros H; [exact I|]. destruct l as [|v l]; [exact I|].
  cbn [linked_rev] in H. destruct H as (H1 & H2). specialize (IH H2).
  change (rev (v' :: v :: l)) with ((rev l ++ [v]) ++ [v']). apply linked_snoc; [exact IH|exact H1].
Qed.

Lemma linked_rev_head v1 v d : sv_prev v1 = sv_prev v -> linked_rev (v :: d) -> linked_rev (v1 :: d).
Proof. intros E H. destruct d as [|w d]; [exact I|]. cbn [linked_rev] in *. rewrite E. exact H. Qed.

Definition x_list (s : xst) : list svisit := match x_open s with Some v => v :: x_done s | None => x_done s end.

Definition LK (f : fdl) (s : xst) : Prop :=
  linked_rev (x_list s) /\
  (x_open s = None -> match x_done s with
                      | v :: _ => sv_release v <> None -> f_last_token_time f = sv_arrival v \/ f_last_token_time f = 0
                      | [] => True
                      end).

Lemma xcalls_frame : forall l s, x_open (fold_left xpost (map HCall l) s) = x_open s /\
                                  x_done (fold_left xpost (map HCall l) s) = x_done s.
Proof.
  induction l as [|c l IH]; intros s; [split; reflexivity|]. cbn [map fold_left].
  destruct (IH (xpost s (HCall c))) as (H1 & H2). rewrite H1, H2. destruct c; split; reflexivity.
Qed.

Section Link.
Variable p : params.

(* a poll while a visit is open: when it closes the visit by passing the token, last_token_time - the previous
   token time of the station's next visit - is the token time of the visit that ends *)
Lemma poll_lk_in f (apps : list A) now pin f' o apps' calls tl s v :
  InvX p f tl s -> LK f s -> x_open s = Some v -> poll ops f now pin apps = Ok (f', o, apps', calls) ->
  LK f' (fold_left xpost (map HCall calls ++ [HEnd now f']) s).
Proof.
  intros (Hp & Htl & Hdone & Hcur & Hltt & Hopen) (Hlk & _) Eo Ep. unfold x_list in Hlk. rewrite Eo in Hopen, Hlk.
  destruct (tk_of (f_state f)) as [tk|] eqn:Etk; [|contradiction]. destruct Hopen as (Ha & (S1 & S2 & _) & _). subst tk.
  destruct (poll_in_visit A ops _ _ _ _ _ _ _ _ _ Ep (tk_of_visit _ _ Etk)) as (_ & _ & _ & Hto & Hpass).
  rewrite fold_left_app. destruct (xcalls_frame calls s) as (X1 & X2).
  set (s1 := fold_left xpost (map HCall calls) s) in *. clearbody s1. cbn [fold_left xpost]. rewrite X1, X2, Eo.
  set (v1 := add_round v now (x_cur s1) (f_end_tht f')).
  destruct (add_round_fields v now (x_cur s1) (f_end_tht f')) as (A1 & A2 & A3). fold v1 in A1, A2, A3.
  (* the token has been passed on, in a poll that changed the state *)
  assert (Hl : passed_on now (f_state f') -> tk_of (f_state f') <> Some (sv_arrival v) -> f_last_token_time f' = sv_arrival v).
  { intros Hpo Hne. apply Hpass; [|exact Hpo]. intros E. rewrite E, Etk in Hne. contradiction Hne. reflexivity. }
  unfold LK, x_list. destruct (tk_of (f_state f')) as [tk1|] eqn:Etk1.
  - destruct (Z.eqb_spec tk1 (sv_arrival v)) as [Eq|Ne]; cbn [x_open x_done]; (split; [|discriminate]).
    + exact (linked_rev_head _ _ _ A1 Hlk).
    + cbn [linked_rev]. split; [|apply (linked_rev_head (close v1 (Some now)) v); [exact A1|exact Hlk]].
      intros _. left. cbn [fresh sv_prev close sv_arrival]. rewrite A2. apply Hl; [|congruence].
      unfold visit_to in Hto. destruct Hto as [(E & _)|[(E & _)|[(fa' & E)|[(a & fa' & E)|E]]]]; [| | | |exact E]; exfalso.
      * rewrite E, Etk in Etk1. congruence.
      * rewrite E in Etk1. discriminate Etk1.
      * rewrite E in Etk1. injection Etk1 as Etk1. congruence.
      * rewrite E in Etk1. injection Etk1 as Etk1. congruence.
  - cbn [x_open x_done]. split; [apply (linked_rev_head (close v1 _) v); [exact A1|exact Hlk]|].
    intros _. cbn [close sv_release sv_arrival]. intros Hrel. left. rewrite A2.
    destruct (pass_kind (kind_of (f_state f'))) eqn:Epk; [|contradiction Hrel; reflexivity].
    apply Hl; [left; exact Epk|discriminate].
Qed.

Lemma poll_lk_out f (apps : list A) now pin f' o apps' calls tl s :
  InvX p f tl s -> LK f s -> x_open s = None -> poll ops f now pin apps = Ok (f', o, apps', calls) ->
  LK f' (fold_left xpost (map HCall calls ++ [HEnd now f']) s).
Proof.
  intros (_ & _ & _ & _ & _ & Hopen) (Hlk & Hfact) Eo Ep. unfold x_list in Hlk. rewrite Eo in Hopen, Hlk. specialize (Hfact Eo).
  destruct (tk_of (f_state f)) as [tk|] eqn:Etk; [contradiction|].
  assert (Hnv : in_visit (kind_of (f_state f)) = false) by (rewrite tk_of_in_visit, Etk; reflexivity).
  destruct (poll_outside_visit A ops _ _ _ _ _ _ _ _ Ep Hnv) as (-> & _ & Hk & _).
  assert (Hl1 : f_last_token_time f' = f_last_token_time f \/ f_last_token_time f' = 0)
    by (destruct Hk as [(_ & _ & _ & R & _)|(_ & _ & K & _)]; [right; exact R|left; exact K]).
  cbn [map app fold_left xpost]. rewrite Eo. unfold LK, x_list.
  destruct (tk_of (f_state f')) as [tk1|]; cbn [x_open x_done].
  - split; [|discriminate]. destruct (x_done s) as [|v d]; [exact I|]. cbn [linked_rev]. split; [|exact Hlk].
    intros Hrel. cbn [fresh sv_prev]. destruct (Hfact Hrel) as [E|E]; destruct Hl1 as [E1|E1]; [left|right|right|right]; congruence.
  - split; [exact Hlk|]. intros _. destruct (x_done s) as [|v d]; [exact I|].
    intros Hrel. destruct (Hfact Hrel) as [E|E]; destruct Hl1 as [E1|E1]; [left|right|right|right]; congruence.
Qed.

Lemma step_lk f apps e f' apps' h tl s :
  InvX p f tl s -> LK f s -> step A ops f apps e = Ok (f', apps', h) -> tl < ev_time (tl + 1) e ->
  LK f' (fold_left xpost h s).
Proof.
  intros HI HL H Hlt. destruct e as [now pin| | |g]; cbn [step ev_time] in *.
  - destruct (poll ops f now pin apps) as [[[[f1 o1] a1] calls]| |] eqn:Ep; cbn [bind] in H; try discriminate H.
    injection H as <- _ <-. destruct (x_open s) as [v|] eqn:Eo; [eapply poll_lk_in|eapply poll_lk_out]; eassumption.
  - injection H as <- _ <-. exact HL.
  - unfold set_offline, set_state in H. destruct (fdl_new (f_p f)) as [f1| |] eqn:En; cbn [bind] in H; try discriminate H.
    injection H as <- _ <-. apply fdl_new_spec in En. destruct En as ((Rs & _ & _ & Rl & _) & Rp). destruct HL as (Hlk & Hfact).
    cbn [fold_left xpost]. unfold LK, x_list in *. cbn [x_open x_done].
    destruct (x_open s) as [v|].
    + split; [apply (linked_rev_head (close v None) v); [reflexivity|exact Hlk]|]. intros _ C. contradiction C. reflexivity.
    + split; [exact Hlk|]. intros _. destruct (x_done s) as [|v d]; [exact I|]. intros _. right. exact Rl.
  - injection H as <- _ <-. exact HL.
Qed.

Lemma run_x (Hslot : 0 <= p_slot_bits p) : forall evs f apps tl s f' apps' h,
  InvX p f tl s -> LK f s -> mono tl evs -> run A ops f apps evs = Ok (f', apps', h) ->
  (exists tl', InvX p f' tl' (fold_left xpost h s)) /\ LK f' (fold_left xpost h s).
Proof.
  induction evs as [|e r IH]; intros f apps tl s f' apps' h HI HL Hm H; cbn [run] in H.
  - injection H as <- _ <-. split; [exists tl; exact HI|exact HL].
  - destruct (step A ops f apps e) as [[[f1 apps1] h1]| |] eqn:Es; cbn [bind] in H; try discriminate H.
    destruct (run A ops f1 apps1 r) as [[[f2 apps2] h2]| |] eqn:Er; cbn [bind] in H; try discriminate H.
    injection H as <- _ <-. rewrite fold_left_app.
    assert (Hlt : tl < ev_time (tl + 1) e) by (destruct e; cbn in *; [tauto|lia|lia|lia]).
    assert (Hm1 : mono (ev_time tl e) r) by (destruct e; cbn in *; tauto).
    exact (IH _ _ _ _ _ _ _ (step_x p Hslot _ _ _ _ _ _ _ _ HI Es Hlt) (step_lk _ _ _ _ _ _ _ _ HI HL Es Hlt) Hm1 Er).
Qed.

End Link.

(* C13_station_visits_ok and C13_visits_linked: every visit read off the history of a newly created station is
   well-formed, and the visits are linked *)
Theorem station_visits p f0 (apps : list A) evs f apps' h :
  0 <= p_slot_bits p -> fdl_new p = Ok f0 -> mono 0 evs -> run A ops f0 apps evs = Ok (f, apps', h) ->
  Forall (sv_ok (token_rotation_time p)) (visits_of h) /\ linked (visits_of h).
Proof.
  intros Hs Hn Hm Hr. apply fdl_new_spec in Hn. destruct Hn as ((Rs & _ & _ & Rl & _) & Rp).
  assert (HI : InvX p f0 0 x_init).
  { split; [exact Rp|]. split; [lia|]. split; [constructor|]. split; [reflexivity|]. split; [lia|]. cbn. rewrite Rs. exact I. }
  assert (HL : LK f0 x_init) by (split; [exact I|intros _; exact I]).
  destruct (run_x p Hs _ _ _ _ _ _ _ _ HI HL Hm Hr) as ((tl' & HI') & HL' & _).
  split; [exact (InvX_all p _ _ _ HI')|]. unfold visits_of, x_all. apply linked_rev_rev. exact HL'.
Qed.

Theorem visits_linked p f0 (apps : list A) evs f apps' h :
  0 <= p_slot_bits p -> fdl_new p = Ok f0 -> mono 0 evs -> run A ops f0 apps evs = Ok (f, apps', h) ->
  linked (visits_of h).
Proof. intros Hs Hn Hm Hr. exact (proj2 (station_visits _ _ _ _ _ _ _ Hs Hn Hm Hr)). Qed.

Theorem station_visits_ok p f0 (apps : list A) evs f apps' h :
  0 <= p_slot_bits p -> fdl_new p = Ok f0 -> mono 0 evs -> run A ops f0 apps evs = Ok (f, apps', h) ->
  Forall (sv_ok (token_rotation_time p)) (visits_of h).
Proof. intros Hs Hn Hm Hr. exact (proj1 (station_visits _ _ _ _ _ _ _ Hs Hn Hm Hr)). Qed.

End Apps.

Definition station_history (p : params) (h : list hitem) : Prop :=
  exists (A : Type) (ops : app_ops A) (f0 : fdl) (apps : list A) (evs : list (event A)) (f : fdl) (apps' : list A),
    fdl_new p = Ok f0 /\ mono 0 evs /\ run A ops f0 apps evs = Ok (f, apps', h).

Lemma linked_adjacent : forall l k a b, linked l -> nth_error l k = Some a -> nth_error l (S k) = Some b ->
  sv_release a <> None -> sv_prev b = sv_arrival a \/ sv_prev b = 0.
Proof.
  induction l as [|x l IH]; intros k a b Hl Ha Hb; [destruct k; discriminate Ha|].
  destruct l as [|y l]; [destruct k as [|[|k]]; discriminate Hb|].
  cbn [linked] in Hl. destruct Hl as (H1 & H2). destruct k as [|k].
  - cbn in Ha, Hb. injection Ha as <-. injection Hb as <-. exact H1.
  - exact (IH k a b H2 Ha Hb).
Qed.

Section Ring.
Variable N : nat.
Variable P : nat -> params.                 (* parameters of station i *)
Variable H : nat -> list hitem.             (* history of station i *)
Variable st : nat -> nat.                   (* the station of the v-th token visit of the ring ... *)
Variable ix : nat -> nat.                   (* ... and which of that station's visits it is *)
Variable SV : nat -> svisit.
Variables TTR C O : Z.

(* the stations are model stations *)
Hypothesis Hstations : forall i, station_history (P i) (H i) /\ 0 <= p_slot_bits (P i) /\ token_rotation_time (P i) <= TTR.
(* RING hypotheses.  Order: the v-th visit of the ring is visit ix v of station st v, completed by passing
   the token; N visits later it is the same station's next visit; no station is re-created. *)
Hypothesis Hvisit : forall v, nth_error (visits_of (H (st v))) (ix v) = Some (SV v) /\ sv_release (SV v) <> None.
Hypothesis Horder : forall v, st (v + N) = st v /\ ix (v + N) = S (ix v).
Hypothesis Hnoreset : forall v, (N <= v)%nat -> sv_prev (SV v) <> 0.
(* Medium and schedule: the token released by one visit arrives as the next visit within O; a message cycle
   (and the decision to pass when nobody sends) takes at most C *)
Definition ring_visit (v : nat) : visit := to_visit (SV v) (sv_arrival (SV (S v))).
Hypothesis Htiming : forall v, timing_ok C O (ring_visit v).

Lemma ring_visit_ok v : visit_ok TTR C O (ring_visit v).
Proof.
  destruct (Hstations (st v)) as ((A & ops & f0 & apps & evs & f & apps' & Hn & Hm & Hr) & Hs & Ht).
  destruct (Hvisit v) as (Hnth & _).
  pose proof (station_visits_ok A ops _ _ _ _ _ _ _ Hs Hn Hm Hr) as Hall.
  rewrite Forall_forall in Hall. specialize (Hall _ (nth_error_In _ _ Hnth)).
  destruct (sv_ok_hold _ _ (sv_arrival (SV (S v))) Hall) as (Hh & Hd).
  split; [exact Hh|]. split; [|exact (Htiming v)]. unfold deadline_ok, ring_visit in *. lia.
Qed.

Lemma ring_is_run : ring_run N ring_visit.
Proof.
  split.
  - intros v. reflexivity.
  - intros v Hv. unfold ring_visit, to_visit. cbn [vi_prev vi_arrival].
    replace v with ((v - N) + N)%nat at 1 by lia.
    destruct (Horder (v - N)%nat) as (Hst & Hix).
    destruct (Hvisit (v - N)%nat) as (Ha & Hra). destruct (Hvisit ((v - N) + N)%nat) as (Hb & _).
    rewrite Hst, Hix in Hb.
    destruct (Hstations (st (v - N)%nat)) as ((A & ops & f0 & apps & evs & f & apps' & Hn & Hm & Hr) & Hs & _).
    pose proof (visits_linked A ops _ _ _ _ _ _ _ Hs Hn Hm Hr) as Hl.
    destruct (linked_adjacent _ _ _ _ Hl Ha Hb Hra) as [E|E]; [exact E|].
    exfalso. apply (Hnoreset ((v - N) + N)%nat); [lia|exact E].
Qed.

Theorem rotation_bound_stations : (1 <= N)%nat -> 0 <= TTR -> 0 <= C -> 0 <= O ->
  forall v, (N <= v)%nat ->
  sv_arrival (SV (v + N)%nat) - sv_arrival (SV v) <= TTR + Z.of_nat N * (C + O).
Proof.
  intros HN HT HC HO v Hv.
  exact (rotation_bound_conditional N ring_visit TTR C O HN ring_is_run ring_visit_ok HT HC HO v Hv).
Qed.

End Ring.

(* The explicit core of the message-cycle bound C (one step, all states): a request that expects a reply
   sets last_bus_activity to the time of its poll + 11 bit times per byte of the request
   (use_poll_into_adr / adr_poll in C15Liveness.v); from then on, on a silent bus - PHY not busy, nothing
   complete in the receive buffer, every buffered byte counted - the FIRST poll later than
   last_bus_activity + Tslot delivers the time-out, which ends the message cycle.  So with polls at most
   delta apart a cycle without reply takes at most  11 bit * |request| + Tslot + delta  from the poll that
   sent the request.  (What C additionally has to cover in a ring - a reply and its reception, the
   synchronisation pause before the next transmission - and the hand-over O are NOT derived here: they
   depend on the other stations and the medium.) *)
Section Cycle.
Variable A : Type.
Variable ops : app_ops A.

Theorem reply_wait_expires f now rxb (apps : list A) f' o apps' calls a tk fa l :
  poll ops f now (mkPhyIn false rxb) apps = Ok (f', o, apps', calls) ->
  f_state f = AwaitDataResponse a tk fa -> f_conn f = ConnOnline -> f_lba f = Some l ->
  f_pending f = length rxb -> decode rxb = Ok NeedMore -> 0 <= p_slot_bits (f_p f) ->
  l + slot_time (f_p f) < now ->
  exists cl, calls = CallHandleTimeout (f_next_app f) a :: cl.
Proof.
  intros E Es Ec El Hpd Hdec Hs Hexp.
  assert (Hslot : 0 <= slot_time (f_p f)) by (unfold slot_time, p_bits_to_time; apply btt_nonneg; exact Hs).
  destruct (adr_poll A ops _ _ _ _ _ _ _ _ _ _ _ _ _ E Es Ec El ltac:(lia)) as [([C|C] & _)|(_ & Hl & Hcase)]; [discriminate C|lia|].
  cbv zeta in Hcase. rewrite Hpd, Nat.ltb_irrefl in Hcase.
  destruct Hcase as [(_ & _ & _ & _ & _ & Hne & _)|[(_ & t & k & Hd)|(Hc & _)]]; [contradiction|congruence|exact Hc].
Qed.

(* the request poll, where the wait starts: C15Liveness.use_poll_into_adr *)
Theorem request_starts_wait f now busy rxb (apps : list A) f' o apps' calls :
  poll ops f now (mkPhyIn busy rxb) apps = Ok (f', o, apps', calls) ->
  kind_of (f_state f) = KUseToken -> f_conn f = ConnOnline -> (f_pending f <= length rxb)%nat ->
  kind_of (f_state f') = KAwaitDataResponse ->
  exists wire, tx o = Some wire /\ f_lba f' = Some (now + dur (f_p f) (length wire)) /\
               f_pending f' = length (rx_left o).
Proof. exact (use_poll_into_adr A ops f now busy rxb apps f' o apps' calls). Qed.

End Cycle.

(* Non-vacuity: a newly created station alone on the bus (HSA 4), polled every 3 ms, with the demo application
   of C15Proofs (one SRD request to station 5, then declines): it claims the token, scans its GAP, and then
   visits itself; the first visit asks twice (the request, and - after the time-out - the decline that ends
   the visit), the following visits once. *)
Definition demo4_params : params :=
  mkParams 2 default_baudrate default_slot_bits default_token_rotation_bits default_gap_wait_rotations 4
           default_max_retry_limit default_min_tsdr_bits None.
Definition demo4_events : list (event nat) :=
  EvOnline nat :: map (fun k => EvPoll nat (1 + Z.of_nat k * 3000) (mkPhyIn false [])) (seq 0 45).

Lemma demo4_visits : exists f0 f apps h,
  fdl_new demo4_params = Ok f0 /\ mono 0 demo4_events /\
  run nat demo_ops f0 [0%nat] demo4_events = Ok (f, apps, h) /\
  firstn 2 (visits_of h) =
    [mkSv 0 99001 1689375 [(105001, false); (117001, false)] (Some 117001);
     mkSv 99001 117001 1788376 [(123001, false)] (Some 123001)] /\
  firstn 3 (calls_of h) = [CallTransmit 0 false (Some (demo_wire, Some 5)); CallHandleTimeout 0 5; CallTransmit 0 false None].
Proof.
  destruct (fdl_new demo4_params) as [f0| |] eqn:E0;
    [|exfalso; assert (X : is_ok (fdl_new demo4_params) = true) by (vm_compute; reflexivity); rewrite E0 in X; discriminate X
     |exfalso; assert (X : is_ok (fdl_new demo4_params) = true) by (vm_compute; reflexivity); rewrite E0 in X; discriminate X].
  assert (X : match fdl_new demo4_params with
              | Ok f0 => match run nat demo_ops f0 [0%nat] demo4_events with
                         | Ok (_, _, h) => Some (firstn 2 (visits_of h), firstn 3 (calls_of h))
                         | _ => None
                         end
              | _ => None
              end =
              Some ([mkSv 0 99001 1689375 [(105001, false); (117001, false)] (Some 117001);
                     mkSv 99001 117001 1788376 [(123001, false)] (Some 123001)],
                    [CallTransmit 0 false (Some (demo_wire, Some 5)); CallHandleTimeout 0 5; CallTransmit 0 false None]))
    by (vm_compute; reflexivity).
  rewrite E0 in X. destruct (run nat demo_ops f0 [0%nat] demo4_events) as [[[f apps] h]| |] eqn:Er; try discriminate X.
  injection X as X1 X2. exists f0, f, apps, h. split; [reflexivity|]. split; [vm_compute; repeat split|].
  split; [exact Er|]. split; assumption.
Qed.
