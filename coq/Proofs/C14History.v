(* C14 history theorems: the DP master visits the occupied slots in index order, one turn each, and reports
   cycle_completed once per pass; exact event accounting; life cycle of every peripheral; global control.
   `tx_loop_g dp_transmit_g dp_receive_reply_g` are the model functions with a ghost log of the peripheral calls
   they make (`*_erase`: forgetting the log gives the model back); `run_g` runs a list of callbacks `cb`, a Panic
   ends the run, so the theorems speak about every prefix of every execution.  `pos_rem` is the spec's view of
   the cycle position; `tx_rel` / `tx_rel_turns` describe one call of the slot loop as a sequence of turns,
   `callback` / `cstep_g_inv` what each callback does; every monitor has a one-step lemma over `callback` from
   every state satisfying its invariant, lifted by `lift`. *)
From PB Require Import DpMaster DpOracle DpStepProofs C14Proofs.

Inductive gent : Set :=
| GSend (i : nat) (p p' : periph) (h : header) (pdu : bytes)       (* slot i sent a request (first or repeated) *)
| GSkip (i : nat) (p p' : periph) (ev : option pevent)             (* slot i had nothing to send: its turn is over *)
| GReply (i : nat) (p p' : periph) (t : telegram) (ev : option pevent) (* slot i got the reply: its turn is over *)
| GGc.                                                             (* a global control broadcast was written *)

Definition opt_pair (hd : handle) (ev : option pevent) : option (handle * pevent) :=
  match ev with Some e => Some (hd, e) | None => None end.

(* dp_tx_loop with the log *)
Fixpoint tx_loop_g (fuel : nat) (pa : params) (bufsize : nat) (m : dpm) (pev : option (handle * pevent))
  : res (dpm * txout * list gent) :=
  match fuel with
  | O => OutOfFuel
  | S fuel' =>
      match dm_cycle m with
      | CyCompleted =>
          Ok (set_events (set_cycle m (CyDataExchange 0)) (mkEvents false pev), None, [])
      | CyDataExchange index =>
          let* g := get_at_index (dm_slots m) index in
          match g with
          | Some (hd, p) =>
              let* (p1, r) := p_transmit pa (dm_op m) p in
              let m1 := set_slots m (put_slot (dm_slots m) (hd_index hd) p1) in
              match r with
              | PtxSend h pdu =>
                  let* o := send_data bufsize h pdu in
                  Ok (set_events m1 (mkEvents false pev), Some o, [GSend (hd_index hd) p p1 h pdu])
              | PtxSkip ev =>
                  let* pev1 :=
                    (match ev with
                     | Some e =>
                         match pev with
                         | Some _ => Panic SiteAssert
                         | None => Ok (Some (hd, e))
                         end
                     | None => Ok pev
                     end) in
                  let* (m2, completed) := increment_cycle m1 index in
                  if completed then
                    Ok (set_events (set_cycle m2 (CyDataExchange 0)) (mkEvents true pev1), None,
                        [GSkip (hd_index hd) p p1 ev])
                  else
                    match pev1 with
                    | Some _ => Ok (set_events m2 (mkEvents false pev1), None, [GSkip (hd_index hd) p p1 ev])
                    | None =>
                        let* (x, log) := tx_loop_g fuel' pa bufsize m2 pev1 in
                        Ok (x, GSkip (hd_index hd) p p1 ev :: log)
                    end
              end
          | None =>
              Ok (set_events (set_cycle m (CyDataExchange 0)) (mkEvents true pev), None, [])
          end
      end
  end.

Definition dp_transmit_g (pa : params) (bufsize : nat) (m : dpm) (now : Z) (high_prio_only : bool)
  : res (dpm * txout * list gent) :=
  if opstate_eqb (dm_op m) OpStop then Ok (set_events m events_default, None, []) else
  let* due := (if high_prio_only then Ok false else gc_due pa m now) in
  if due then
    let m1 := set_events (set_last_gc m (Some now)) events_default in
    let* b := (match dm_op m with
               | OpClear => Ok dp_gc_clear
               | OpOperate => Ok dp_gc_operate
               | OpStop => Panic SiteUnreachable
               end) in
    let* o := send_data bufsize (gc_header pa) [b; dp_gc_groups] in
    Ok (m1, Some o, [GGc])
  else tx_loop_g (dp_tx_fuel m) pa bufsize m None.

Definition dp_receive_reply_g (m : dpm) (addr : Z) (t : telegram) : res (dpm * list gent) :=
  match dm_cycle m with
  | CyCompleted => Panic SiteUnreachable
  | CyDataExchange index =>
      let* g := get_at_index (dm_slots m) index in
      match g with
      | Some (hd, p) =>
          if addr =? pe_addr p then
            let* (p1, ev) := p_receive_reply p t in
            let m1 := set_slots m (put_slot (dm_slots m) (hd_index hd) p1) in
            let* (m2, completed) := increment_cycle m1 index in
            Ok (set_events m2 (mkEvents completed (opt_pair hd ev)), [GReply (hd_index hd) p p1 t ev])
          else Panic SiteUnreachable
      | None => Panic SiteUnreachable
      end
  end.

Definition drop_log {A} (r : res (A * list gent)) : res A :=
  match r with Ok (x, _) => Ok x | Panic s => Panic s | OutOfFuel => OutOfFuel end.

Lemma tx_loop_erase : forall fuel pa bufsize m pev,
  drop_log (tx_loop_g fuel pa bufsize m pev) = dp_tx_loop fuel pa bufsize m pev.
Proof.
  induction fuel as [|fuel IH]; intros pa bufsize m pev; [reflexivity|].
  cbn [tx_loop_g dp_tx_loop].
  destruct (dm_cycle m) as [index|]; [|reflexivity].
  destruct (get_at_index (dm_slots m) index) as [[[hd p]|]| |]; cbn [bind]; try reflexivity.
  destruct (p_transmit pa (dm_op m) p) as [[p1 r]| |]; cbn [bind]; try reflexivity.
  destruct r as [h pdu|ev].
  - destruct (send_data bufsize h pdu); reflexivity.
  - destruct (match ev with
              | Some e => match pev with Some _ => Panic SiteAssert | None => Ok (Some (hd, e)) end
              | None => Ok pev
              end) as [pev1| |]; cbn [bind]; try reflexivity.
    destruct (increment_cycle _ index) as [[m2 completed]| |]; cbn [bind]; try reflexivity.
    destruct completed; [reflexivity|].
    destruct pev1; [reflexivity|].
    rewrite <- IH.
    destruct (tx_loop_g fuel pa bufsize m2 None) as [[x log]| |]; reflexivity.
Qed.

Lemma dp_transmit_erase : forall pa bufsize m now hp,
  drop_log (dp_transmit_g pa bufsize m now hp) = dp_transmit pa bufsize m now hp.
Proof.
  intros. unfold dp_transmit_g, dp_transmit.
  destruct (opstate_eqb (dm_op m) OpStop); [reflexivity|].
  destruct (if hp then Ok false else gc_due pa m now) as [due| |]; cbn [bind]; try reflexivity.
  destruct due.
  - destruct (match dm_op m with OpStop => Panic SiteUnreachable | OpClear => Ok dp_gc_clear | OpOperate => Ok dp_gc_operate end);
      cbn [bind]; try reflexivity.
    destruct (send_data _ _ _); reflexivity.
  - apply tx_loop_erase.
Qed.

Lemma dp_receive_reply_erase : forall m addr t,
  drop_log (dp_receive_reply_g m addr t) = dp_receive_reply m addr t.
Proof.
  intros. unfold dp_receive_reply_g, dp_receive_reply.
  destruct (dm_cycle m) as [index|]; [|reflexivity].
  destruct (get_at_index (dm_slots m) index) as [[[hd p]|]| |]; cbn [bind]; try reflexivity.
  destruct (addr =? pe_addr p); [|reflexivity].
  destruct (p_receive_reply p t) as [[p1 ev]| |]; cbn [bind]; try reflexivity.
  destruct (increment_cycle _ index) as [[m2 completed]| |]; cbn [bind]; reflexivity.
Qed.

(* the slots that still have to get their turn in the current pass, in order: the spec's view of the
   cycle position *)
Definition pos_rem (m : dpm) : list nat :=
  match dm_cycle m with
  | CyDataExchange i => occupied_from (skipn i (dm_slots m)) i
  | CyCompleted => occupied m
  end.

Definition mask (m : dpm) : list bool := map occ (dm_slots m).

Lemma find_occupied_spec : forall l j,
  match find_occupied l j with
  | Some (i, p) => exists k r, i = (j + k)%nat /\ nth_error l k = Some (Some p) /\ occupied_from l j = i :: r
  | None => occupied_from l j = []
  end.
Proof.
  induction l as [|[q|] l IH]; intro j; cbn; [reflexivity| |].
  - exists 0%nat. eexists. split; [lia|]. split; reflexivity.
  - specialize (IH (S j)). destruct (find_occupied l (S j)) as [[i p]|]; [|exact IH].
    destruct IH as (k & r & -> & Hn & Ho). exists (S k), r. split; [lia|]. split; assumption.
Qed.

(* PeripheralSet::get_at_index_mut in terms of the occupied positions at or after the index *)
Lemma get_at_index_inv : forall l index,
  match get_at_index l index with
  | Ok (Some (hd, p)) =>
      exists r, occupied_from (skipn index l) index = hd_index hd :: r /\
                nth_error l (hd_index hd) = Some (Some p) /\ hd_addr hd = pe_addr p
  | Ok None => occupied_from (skipn index l) index = []
  | Panic _ => exists i r, occupied_from (skipn index l) index = i :: r /\ (255 < i)%nat
  | OutOfFuel => False
  end.
Proof.
  intros l index. unfold get_at_index. pose proof (find_occupied_spec (skipn index l) index) as H.
  destruct (find_occupied (skipn index l) index) as [[i p]|]; [|exact H].
  destruct H as (k & r & -> & Hn & Ho). rewrite nth_error_skipn' in Hn. unfold bind, u8_index.
  destruct (Nat.ltb_spec 255 (index + k)); [exists (index + k)%nat, r|exists r]; auto.
Qed.

Lemma get_at_index_none : forall l index,
  get_at_index l index = Ok None -> occupied_from (skipn index l) index = [].
Proof. intros l index H. pose proof (get_at_index_inv l index) as Hi. rewrite H in Hi. exact Hi. Qed.

Lemma increment_spec : forall m index a r m2 c,
  occupied_from (skipn index (dm_slots m)) index = a :: r ->
  increment_cycle m index = Ok (m2, c) ->
  if c then m2 = set_cycle m CyCompleted /\ r = []
  else exists b, m2 = set_cycle m (CyDataExchange b) /\ occupied_from (skipn b (dm_slots m)) b = r /\ r <> [].
Proof.
  intros m index a r m2 c Ho H. unfold increment_cycle, get_next_index in H. rewrite Ho in H.
  destruct r as [|b r'].
  - cbn [bind] in H. inversion H; subst. split; reflexivity.
  - unfold bind, u8_index in H. destruct (Nat.ltb 255 b); [discriminate H|].
    inversion H; subst. exists b. split; [reflexivity|].
    destruct (occupied_second _ _ _ _ _ Ho) as (k & Hk & Hs).
    rewrite skipn_skipn' in Hs. replace (index + k)%nat with b in Hs by lia.
    split; [exact Hs|discriminate].
Qed.

Lemma put_slot_length : forall l i p, length (put_slot l i p) = length l.
Proof. induction l as [|x l IH]; intros [|i] p; cbn; auto. Qed.

Lemma put_slot_same : forall l i p q, nth_error l i = Some q -> nth_error (put_slot l i p) i = Some (Some p).
Proof.
  induction l as [|x l IH]; intros [|i] p q H; cbn in *; try discriminate H; [reflexivity|].
  exact (IH _ _ _ H).
Qed.

Lemma put_slot_other : forall l i j p, i <> j -> nth_error (put_slot l i p) j = nth_error l j.
Proof.
  induction l as [|x l IH]; intros [|i] [|j] p H; cbn; try reflexivity; [now elim H|].
  apply IH. intro; subst; now elim H.
Qed.

Lemma put_slot_id : forall l i p, nth_error l i = Some (Some p) -> put_slot l i p = l.
Proof.
  induction l as [|x l IH]; intros [|i] p H; try discriminate H; cbn in *; [congruence|]. f_equal. exact (IH _ _ H).
Qed.

Lemma slot_put_same : forall m i p q, slot m i = Some q -> slot (set_slots m (put_slot (dm_slots m) i p)) i = Some p.
Proof.
  intros m i p q H. unfold slot in *. cbn [dm_slots set_slots].
  destruct (nth_error (dm_slots m) i) as [[q'|]|] eqn:Hn; try discriminate H.
  rewrite (put_slot_same _ _ p _ Hn). reflexivity.
Qed.

Lemma slot_put_other : forall m i j p, i <> j -> slot (set_slots m (put_slot (dm_slots m) i p)) j = slot m j.
Proof. intros. unfold slot. cbn [dm_slots set_slots]. rewrite put_slot_other by assumption. reflexivity. Qed.

Lemma slot_nth : forall m i p, slot m i = Some p <-> nth_error (dm_slots m) i = Some (Some p).
Proof.
  intros m i p. unfold slot. destruct (nth_error (dm_slots m) i) as [[q|]|]; split; intro H; inversion H; reflexivity.
Qed.

Lemma mask_put : forall m i p q, slot m i = Some q -> mask (set_slots m (put_slot (dm_slots m) i p)) = mask m.
Proof. intros m i p q H. apply slot_nth in H. apply (put_slot_mask _ _ _ _ H). Qed.

Definition all_slots (Q : nat -> periph -> Prop) (m : dpm) : Prop := forall i p, slot m i = Some p -> Q i p.

Lemma all_slots_put : forall (Q Q' : nat -> periph -> Prop) m i p p1,
  all_slots Q m -> slot m i = Some p -> Q' i p1 -> (forall j q, j <> i -> Q j q -> Q' j q) ->
  all_slots Q' (set_slots m (put_slot (dm_slots m) i p1)).
Proof.
  intros Q Q' m i p p1 HI Hs Hp Hoth j q Hq. destruct (Nat.eq_dec i j) as [<-|Hne].
  - rewrite (slot_put_same _ _ p1 _ Hs) in Hq. inversion Hq; subst. exact Hp.
  - rewrite slot_put_other in Hq by exact Hne. apply Hoth; [intro; subst; now elim Hne|]. apply HI. exact Hq.
Qed.

Lemma all_slots_put_same : forall (Q : nat -> periph -> Prop) m i p p1,
  all_slots Q m -> slot m i = Some p -> Q i p1 -> all_slots Q (set_slots m (put_slot (dm_slots m) i p1)).
Proof. intros Q m i p p1 HI Hs Hp. apply (all_slots_put Q Q m i p p1 HI Hs Hp). auto. Qed.

Lemma occupied_of_mask : forall m m', mask m = mask m' -> occupied m = occupied m'.
Proof. intros. unfold occupied. apply occupied_mask. assumption. Qed.

Lemma occupied_from_mask_skip : forall m m' n, mask m = mask m' ->
  occupied_from (skipn n (dm_slots m)) n = occupied_from (skipn n (dm_slots m')) n.
Proof. intros m m' n H. apply occupied_mask. rewrite <- !skipn_map. unfold mask in H. rewrite H. reflexivity. Qed.

Lemma occ_skip_nil : forall i l j, occupied_from l j = [] -> occupied_from (skipn i l) (i + j) = [].
Proof.
  induction i as [|i IH]; intros l j H; [exact H|].
  destruct l as [|x l]; [reflexivity|]. destruct x as [q|]; cbn [occupied_from] in H; [discriminate H|].
  cbn [skipn]. replace (S i + j)%nat with (i + S j)%nat by lia. apply IH. exact H.
Qed.

Lemma pos_rem_occupied : forall m i a r,
  occupied_from (skipn i (dm_slots m)) i = a :: r -> occupied m <> [].
Proof.
  intros m i a r H Hn. unfold occupied in Hn. pose proof (occ_skip_nil i _ _ Hn) as H0.
  rewrite Nat.add_0_r in H0. rewrite H0 in H. discriminate H.
Qed.

Lemma pos_rem_mask : forall m m', mask m' = mask m -> dm_cycle m' = dm_cycle m -> pos_rem m' = pos_rem m.
Proof.
  intros m m' Hm Hc. unfold pos_rem. rewrite Hc. destruct (dm_cycle m).
  - apply occupied_from_mask_skip. exact Hm.
  - apply occupied_of_mask. exact Hm.
Qed.

Lemma pos_rem_zero : forall m, dm_cycle m = CyDataExchange 0 -> pos_rem m = occupied m.
Proof. intros m H. unfold pos_rem. rewrite H. reflexivity. Qed.

Lemma pos_rem_events : forall m e, pos_rem (set_events m e) = pos_rem m.
Proof. reflexivity. Qed.

Section Rel.
Variables (pa : params) (bufsize : nat).

Definition put_cur (m : dpm) (hd : handle) (p1 : periph) : dpm :=
  set_slots m (put_slot (dm_slots m) (hd_index hd) p1).

Inductive tx_rel : dpm -> dpm -> txout -> list gent -> Prop :=
| TxCompleted : forall m,
    dm_cycle m = CyCompleted ->
    tx_rel m (set_events (set_cycle m (CyDataExchange 0)) (mkEvents false None)) None []
| TxEmpty : forall m index,
    dm_cycle m = CyDataExchange index -> get_at_index (dm_slots m) index = Ok None ->
    tx_rel m (set_events (set_cycle m (CyDataExchange 0)) (mkEvents true None)) None []
| TxSend : forall m index hd p p1 h pdu o,
    dm_cycle m = CyDataExchange index -> get_at_index (dm_slots m) index = Ok (Some (hd, p)) ->
    p_transmit pa (dm_op m) p = Ok (p1, PtxSend h pdu) -> send_data bufsize h pdu = Ok o ->
    tx_rel m (set_events (put_cur m hd p1) (mkEvents false None)) (Some o) [GSend (hd_index hd) p p1 h pdu]
| TxSkipLast : forall m index hd p p1 ev m2,
    dm_cycle m = CyDataExchange index -> get_at_index (dm_slots m) index = Ok (Some (hd, p)) ->
    p_transmit pa (dm_op m) p = Ok (p1, PtxSkip ev) ->
    increment_cycle (put_cur m hd p1) index = Ok (m2, true) ->
    tx_rel m (set_events (set_cycle m2 (CyDataExchange 0)) (mkEvents true (opt_pair hd ev))) None
           [GSkip (hd_index hd) p p1 ev]
| TxSkipEvent : forall m index hd p p1 e m2,
    dm_cycle m = CyDataExchange index -> get_at_index (dm_slots m) index = Ok (Some (hd, p)) ->
    p_transmit pa (dm_op m) p = Ok (p1, PtxSkip (Some e)) ->
    increment_cycle (put_cur m hd p1) index = Ok (m2, false) ->
    tx_rel m (set_events m2 (mkEvents false (Some (hd, e)))) None [GSkip (hd_index hd) p p1 (Some e)]
| TxSkipNext : forall m index hd p p1 m2 m' o log,
    dm_cycle m = CyDataExchange index -> get_at_index (dm_slots m) index = Ok (Some (hd, p)) ->
    p_transmit pa (dm_op m) p = Ok (p1, PtxSkip None) ->
    increment_cycle (put_cur m hd p1) index = Ok (m2, false) ->
    tx_rel m2 m' o log ->
    tx_rel m m' o (GSkip (hd_index hd) p p1 None :: log).

Lemma tx_loop_rel : forall fuel m m' o log,
  tx_loop_g fuel pa bufsize m None = Ok (m', o, log) -> tx_rel m m' o log.
Proof.
  induction fuel as [|fuel IH]; intros m m' o log H; [discriminate H|].
  cbn [tx_loop_g] in H.
  destruct (dm_cycle m) as [index|] eqn:Hc.
  2:{ inversion H; subst. apply TxCompleted; assumption. }
  destruct (get_at_index (dm_slots m) index) as [[[hd p]|]| |] eqn:Hg; cbn [bind] in H; try discriminate H.
  2:{ inversion H; subst. eapply TxEmpty; eassumption. }
  destruct (p_transmit pa (dm_op m) p) as [[p1 r]| |] eqn:Hp; cbn [bind] in H; try discriminate H.
  destruct r as [h pdu|ev].
  - destruct (send_data bufsize h pdu) as [o1| |] eqn:Hs; cbn [bind] in H; try discriminate H.
    inversion H; subst. eapply TxSend; eassumption.
  - destruct ev as [e|]; cbn [bind] in H.
    + destruct (increment_cycle _ index) as [[m2 completed]| |] eqn:Hi; cbn [bind] in H; try discriminate H.
      destruct completed; inversion H; subst.
      * eapply (TxSkipLast m index hd p p1 (Some e)); eassumption.
      * eapply TxSkipEvent; eassumption.
    + destruct (increment_cycle _ index) as [[m2 completed]| |] eqn:Hi; cbn [bind] in H; try discriminate H.
      destruct completed.
      * inversion H; subst. eapply (TxSkipLast m index hd p p1 None); eassumption.
      * destruct (tx_loop_g fuel pa bufsize m2 None) as [[[m3 o3] log3]| |] eqn:Hl; cbn [bind] in H; try discriminate H.
        inversion H; subst. eapply TxSkipNext; try eassumption. apply IH. exact Hl.
Qed.

End Rel.

Definition is_nil {A} (l : list A) : bool := match l with [] => true | _ => false end.

Lemma cur_slot : forall m index hd p,
  dm_cycle m = CyDataExchange index -> get_at_index (dm_slots m) index = Ok (Some (hd, p)) ->
  exists r, pos_rem m = hd_index hd :: r /\ slot m (hd_index hd) = Some p /\ hd_addr hd = pe_addr p.
Proof.
  intros m index hd p Hc Hg. pose proof (get_at_index_inv (dm_slots m) index) as Hi. rewrite Hg in Hi.
  destruct Hi as (r & Ho & Hn & Ha).
  exists r. unfold pos_rem. rewrite Hc. split; [exact Ho|]. split; [apply slot_nth; exact Hn|exact Ha].
Qed.

Lemma put_cur_facts : forall m hd p p1,
  slot m (hd_index hd) = Some p ->
  mask (put_cur m hd p1) = mask m /\ dm_cycle (put_cur m hd p1) = dm_cycle m /\
  pos_rem (put_cur m hd p1) = pos_rem m /\ occupied (put_cur m hd p1) = occupied m.
Proof.
  intros m hd p p1 Hs. pose proof (mask_put m (hd_index hd) p1 p Hs) as Hm.
  split; [exact Hm|]. split; [reflexivity|]. split; [apply pos_rem_mask; [exact Hm|reflexivity]|].
  apply occupied_of_mask. exact Hm.
Qed.

(* it is the turn of the slot of handle hd: it is the head of the remaining pass and holds p *)
Definition at_turn (m : dpm) (hd : handle) (p : periph) (rest : list nat) : Prop :=
  pos_rem m = hd_index hd :: rest /\ slot m (hd_index hd) = Some p /\ hd_addr hd = pe_addr p /\
  dm_cycle m <> CyCompleted.

(* the cycle state with which the master m1 goes on when the turn of the head is over: the rest of the
   pass, or the next pass *)
Definition passes_on (m1 : dpm) (rest : list nat) (cy : cycle_state) : Prop :=
  pos_rem (set_cycle m1 cy) = (if is_nil rest then occupied m1 else rest) /\ (cy = CyCompleted -> rest = []).

Lemma turn_put : forall m hd p rest p1,
  at_turn m hd p rest ->
  mask (put_cur m hd p1) = mask m /\ pos_rem (put_cur m hd p1) = pos_rem m /\
  occupied (put_cur m hd p1) = occupied m /\ occupied m <> [].
Proof.
  intros m hd p rest p1 (Hr & Hs & _ & Hc). destruct (put_cur_facts m hd p p1 Hs) as (Hm & _ & Hp & Ho).
  repeat split; try assumption. unfold pos_rem in Hr.
  destruct (dm_cycle m); [eapply pos_rem_occupied; exact Hr|now elim Hc].
Qed.

(* the current slot is at its turn; incrementing the cycle state passes the turn on *)
Lemma cursor_turn : forall m index hd p,
  dm_cycle m = CyDataExchange index -> get_at_index (dm_slots m) index = Ok (Some (hd, p)) ->
  exists rest, at_turn m hd p rest /\
    forall p1 m2 c, increment_cycle (put_cur m hd p1) index = Ok (m2, c) ->
      c = is_nil rest /\ exists cy, m2 = set_cycle (put_cur m hd p1) cy /\ passes_on (put_cur m hd p1) rest cy.
Proof.
  intros m index hd p Hc Hg. destruct (cur_slot _ _ _ _ Hc Hg) as (rest & Hr & Hs & Ha).
  exists rest. split; [repeat split; try assumption; rewrite Hc; discriminate|]. intros p1 m2 c Hi.
  destruct (put_cur_facts m hd p p1 Hs) as (_ & _ & Hp & _). rewrite Hr in Hp. unfold pos_rem in Hp.
  cbn [dm_cycle put_cur set_slots] in Hp. rewrite Hc in Hp.
  pose proof (increment_spec _ _ _ _ _ _ Hp Hi) as Hsp. destruct c.
  - destruct Hsp as [-> ->]. split; [reflexivity|]. eexists. split; [reflexivity|]. split; reflexivity.
  - destruct Hsp as (b & -> & Hb & Hne). destruct rest; [now elim Hne|]. split; [reflexivity|].
    eexists. split; [reflexivity|]. split; [exact Hb|discriminate].
Qed.

Section Turns.
Variables (pa : params) (bufsize : nat).

(* induction over one call of the slot loop, in the words of the spec *)
Lemma tx_rel_turns : forall P : dpm -> dpm -> txout -> list gent -> Prop,
  (forall m, dm_cycle m = CyCompleted ->
     P m (set_events (set_cycle m (CyDataExchange 0)) (mkEvents false None)) None []) ->
  (forall m, dm_cycle m <> CyCompleted -> pos_rem m = [] ->
     P m (set_events (set_cycle m (CyDataExchange 0)) (mkEvents true None)) None []) ->
  (forall m hd p rest p1 h pdu o,
     at_turn m hd p rest -> p_transmit pa (dm_op m) p = Ok (p1, PtxSend h pdu) -> send_data bufsize h pdu = Ok o ->
     P m (set_events (put_cur m hd p1) (mkEvents false None)) (Some o) [GSend (hd_index hd) p p1 h pdu]) ->
  (forall m hd p rest p1 ev cy,
     at_turn m hd p rest -> p_transmit pa (dm_op m) p = Ok (p1, PtxSkip ev) -> rest = [] \/ ev <> None ->
     passes_on (put_cur m hd p1) rest cy -> cy <> CyCompleted ->
     P m (set_events (set_cycle (put_cur m hd p1) cy) (mkEvents (is_nil rest) (opt_pair hd ev))) None
       [GSkip (hd_index hd) p p1 ev]) ->
  (forall m hd p rest p1 cy m' o log,
     at_turn m hd p rest -> p_transmit pa (dm_op m) p = Ok (p1, PtxSkip None) -> rest <> [] ->
     passes_on (put_cur m hd p1) rest cy -> cy <> CyCompleted ->
     tx_rel pa bufsize (set_cycle (put_cur m hd p1) cy) m' o log -> P (set_cycle (put_cur m hd p1) cy) m' o log ->
     P m m' o (GSkip (hd_index hd) p p1 None :: log)) ->
  forall m m' o log, tx_rel pa bufsize m m' o log -> P m m' o log.
Proof.
  intros P HC HE HS HK HN m m' o log H. induction H as
    [m Hc|m index Hc Hg|m index hd p p1 h pdu o Hc Hg Hp Hs|m index hd p p1 ev m2 Hc Hg Hp Hi
    |m index hd p p1 e m2 Hc Hg Hp Hi|m index hd p p1 m2 m' o log Hc Hg Hp Hi Hrel IH].
  - apply HC. exact Hc.
  - apply HE; [rewrite Hc; discriminate|]. unfold pos_rem. rewrite Hc. apply get_at_index_none. exact Hg.
  - destruct (cursor_turn m index hd p Hc Hg) as (rest & Ht & _). eapply HS; eassumption.
  - destruct (cursor_turn m index hd p Hc Hg) as (rest & Ht & Hn).
    destruct (Hn _ _ _ Hi) as (Hl & cy & -> & Hpo & _). destruct rest; [|discriminate Hl].
    apply (HK m hd p [] p1 ev (CyDataExchange 0)); auto; [split; [reflexivity|discriminate]|discriminate].
  - destruct (cursor_turn m index hd p Hc Hg) as (rest & Ht & Hn).
    destruct (Hn _ _ _ Hi) as (Hl & cy & -> & Hpo). destruct rest as [|b rest]; [discriminate Hl|].
    apply (HK m hd p (b :: rest) p1 (Some e) cy); auto; [right; discriminate|].
    intros ->. destruct Hpo as [_ Hx]. discriminate (Hx eq_refl).
  - destruct (cursor_turn m index hd p Hc Hg) as (rest & Ht & Hn).
    destruct (Hn _ _ _ Hi) as (Hl & cy & -> & Hpo). destruct rest as [|b rest]; [discriminate Hl|].
    apply (HN m hd p (b :: rest) p1 cy); auto; [discriminate|].
    intros ->. destruct Hpo as [_ Hx]. discriminate (Hx eq_refl).
Qed.

End Turns.

(* induction over the turns of one call of the slot loop (tx_rel_turns) under the names used throughout:
   Ht : at_turn m hd p rest;  Hp : what Peripheral::transmit_telegram returned (p1 and a request h pdu /
   an event ev);  Hpo : passes_on (put_cur m hd p1) rest cy, Hcy : cy <> CyCompleted;  in the last case the loop
   goes on (Hne : rest <> []) with the log lg, Hrel and IH speak about the rest of the call *)
Ltac by_turns H :=
  induction H as [m Hc|m Hc Hr|m hd p rest p1 h pdu o Ht Hp Hs|m hd p rest p1 ev cy Ht Hp _ Hpo Hcy
                 |m hd p rest p1 cy m' o lg Ht Hp Hne Hpo Hcy Hrel IH] using tx_rel_turns.

Inductive cb : Set :=
| CTx (now : Z) (hp : bool)              (* FdlApplication::transmit_telegram *)
| CRx (addr : Z) (t : telegram)          (* FdlApplication::receive_reply *)
| CTo (addr : Z)                         (* FdlApplication::handle_timeout *)
| CTake                                  (* take_last_events() *)
| CReqDiag (h : handle)                  (* get_mut(h).request_diagnostics() *)
| CWriteQ (h : handle) (q : bytes)       (* get_mut(h).pi_q_mut().copy_from_slice(q) *)
| CEnter (s : opstate).                  (* enter_state(s), a todo!() unwinding caught *)

Inductive cout : Set :=
| OTx (o : txout)
| OUnit
| OEvents (e : dpevents).

Definition cstep (pa : params) (bufsize : nat) (m : dpm) (c : cb) : res (dpm * cout) :=
  match c with
  | CTx now hp => let* (m1, o) := dp_transmit pa bufsize m now hp in Ok (m1, OTx o)
  | CRx a t => let* m1 := dp_receive_reply m a t in Ok (m1, OUnit)
  | CTo a => let* m1 := dp_handle_timeout m a in Ok (m1, OUnit)
  | CTake => let (m1, e) := dp_take_last_events m in Ok (m1, OEvents e)
  | CReqDiag h => let* m1 := dp_request_diagnostics m h in Ok (m1, OUnit)
  | CWriteQ h q => let* m1 := dp_write_q m h q in Ok (m1, OUnit)
  | CEnter s => Ok (dp_enter_state_unwound m s, OUnit)
  end.

Definition cstep_g (pa : params) (bufsize : nat) (m : dpm) (c : cb) : res (dpm * cout * list gent) :=
  match c with
  | CTx now hp => let* (x, log) := dp_transmit_g pa bufsize m now hp in Ok (fst x, OTx (snd x), log)
  | CRx a t => let* (m1, log) := dp_receive_reply_g m a t in Ok (m1, OUnit, log)
  | _ => let* (m1, o) := cstep pa bufsize m c in Ok (m1, o, [])
  end.

Lemma cstep_erase : forall pa bufsize m c, drop_log (cstep_g pa bufsize m c) = cstep pa bufsize m c.
Proof.
  intros pa bufsize m c. destruct c as [now hp|a t|a| |h|h q|s]; cbn [cstep_g cstep].
  - rewrite <- dp_transmit_erase. destruct (dp_transmit_g pa bufsize m now hp) as [[[m1 o] log]| |]; reflexivity.
  - rewrite <- dp_receive_reply_erase. destruct (dp_receive_reply_g m a t) as [[m1 log]| |]; reflexivity.
  - reflexivity.
  - reflexivity.
  - destruct (dp_request_diagnostics m h); reflexivity.
  - destruct (dp_write_q m h q); reflexivity.
  - reflexivity.
Qed.

Definition is_bus (c : cb) : bool := match c with CTx _ _ | CRx _ _ | CTo _ => true | _ => false end.

Record item : Set := mkItem {
  it_cb : cb;
  it_out : cout;
  it_log : list gent;
  it_pre : dpm;                   (* the master when the callback is made *)
  it_post : dpm;                  (* the master when the callback returns *)
  it_taken : option dpevents;     (* result of the take_last_events() that follows it (auto mode) *)
  it_m : dpm }.                   (* the master when the next callback is made *)

Definition auto_take_m (auto : bool) (c : cb) (m : dpm) : dpm * option dpevents :=
  if auto && is_bus c then (fst (dp_take_last_events m), Some (snd (dp_take_last_events m))) else (m, None).

Fixpoint run_g (auto : bool) (pa : params) (bufsize : nat) (m : dpm) (cbs : list cb) : res (list item) :=
  match cbs with
  | [] => Ok []
  | c :: r =>
      let* (x, log) := cstep_g pa bufsize m c in
      let m1 := fst x in
      let m2 := fst (auto_take_m auto c m1) in
      let* tr := run_g auto pa bufsize m2 r in
      Ok (mkItem c (snd x) log m m1 (snd (auto_take_m auto c m1)) m2 :: tr)
  end.

Fixpoint run (auto : bool) (pa : params) (bufsize : nat) (m : dpm) (cbs : list cb)
  : res (list (cb * cout * option dpevents) * dpm) :=
  match cbs with
  | [] => Ok ([], m)
  | c :: r =>
      let* (m1, o) := cstep pa bufsize m c in
      let* (tr, mf) := run auto pa bufsize (fst (auto_take_m auto c m1)) r in
      Ok ((c, o, snd (auto_take_m auto c m1)) :: tr, mf)
  end.

Definition final (m0 : dpm) (tr : list item) : dpm := fold_left (fun _ it => it_m it) tr m0.

Definition strip (it : item) : cb * cout * option dpevents := (it_cb it, it_out it, it_taken it).

Lemma run_erase : forall auto pa bufsize cbs m,
  match run_g auto pa bufsize m cbs with
  | Ok tr => run auto pa bufsize m cbs = Ok (map strip tr, final m tr)
  | Panic s => run auto pa bufsize m cbs = Panic s
  | OutOfFuel => run auto pa bufsize m cbs = OutOfFuel
  end.
Proof.
  intros auto pa bufsize. induction cbs as [|c r IH]; intro m; [reflexivity|].
  cbn [run_g run]. rewrite <- cstep_erase.
  destruct (cstep_g pa bufsize m c) as [[[m1 o] log]| |]; cbn [drop_log bind fst snd]; try reflexivity.
  specialize (IH (fst (auto_take_m auto c m1))).
  destruct (run_g auto pa bufsize (fst (auto_take_m auto c m1)) r) as [tr| |]; cbn [bind]; rewrite IH; try reflexivity.
Qed.

(* what a callback reports in DpMaster.last_events: both transmit_telegram and receive_reply overwrite it
   completely on every path; the other calls report nothing *)
Definition reported (it : item) : dpevents :=
  match it_cb it with
  | CTx _ _ | CRx _ _ => dm_events (it_post it)
  | _ => events_default
  end.

Fixpoint chained (m : dpm) (tr : list item) : Prop :=
  match tr with
  | [] => True
  | it :: r => it_pre it = m /\ chained (it_m it) r
  end.

Lemma run_g_chained : forall auto pa bufsize cbs m tr, run_g auto pa bufsize m cbs = Ok tr -> chained m tr.
Proof.
  intros auto pa bufsize. induction cbs as [|c r IH]; intros m tr H; cbn [run_g] in H.
  - inversion H; subst. exact I.
  - destruct (cstep_g pa bufsize m c) as [[[m1 o] log]| |]; cbn [bind fst snd] in H; try discriminate H.
    destruct (run_g auto pa bufsize _ r) as [tr'| |] eqn:Hr; cbn [bind] in H; try discriminate H.
    inversion H; subst. cbn [chained it_pre it_m]. split; [reflexivity|]. apply IH. exact Hr.
Qed.

Section Lift.
Variables (auto : bool) (pa : params) (bufsize : nat).

Definition mk_item (m : dpm) (c : cb) (x : dpm * cout) (log : list gent) : item :=
  mkItem c (snd x) log m (fst x) (snd (auto_take_m auto c (fst x))) (fst (auto_take_m auto c (fst x))).

Variable St : Type.
Variable I : dpm -> St -> Prop.
Variable mon : St -> item -> option St.

(* the monitor accepts the trace, and the invariant links its state to the master before every callback
   and at the end *)
Fixpoint accepts (s : St) (m : dpm) (tr : list item) : Prop :=
  match tr with
  | [] => I m s
  | it :: r => I m s /\ it_pre it = m /\ exists s', mon s it = Some s' /\ accepts s' (it_m it) r
  end.

Hypothesis Hstep : forall m s c x log,
  I m s -> cstep_g pa bufsize m c = Ok (x, log) ->
  exists s', mon s (mk_item m c x log) = Some s' /\ I (it_m (mk_item m c x log)) s'.

Lemma lift : forall cbs m s tr, I m s -> run_g auto pa bufsize m cbs = Ok tr -> accepts s m tr.
Proof.
  induction cbs as [|c r IH]; intros m s tr HI H; cbn [run_g] in H.
  - inversion H; subst. exact HI.
  - destruct (cstep_g pa bufsize m c) as [[x log]| |] eqn:Hc; cbn [bind] in H; try discriminate H.
    destruct (run_g auto pa bufsize _ r) as [tr'| |] eqn:Hr; cbn [bind] in H; try discriminate H.
    inversion H; subst. cbn [accepts it_pre it_m].
    destruct (Hstep _ _ _ _ _ HI Hc) as (s' & Hm & HI').
    split; [exact HI|]. split; [reflexivity|]. exists s'. split; [exact Hm|].
    apply IH; [exact HI'|exact Hr].
Qed.

End Lift.

Lemma accepts_weaken : forall St (I I' : dpm -> St -> Prop) mon,
  (forall m s, I m s -> I' m s) ->
  forall tr s m, accepts St I mon s m tr -> accepts St I' mon s m tr.
Proof.
  intros St I I' mon HW. induction tr as [|it r IH]; intros s m H; cbn [accepts] in *.
  - apply HW; exact H.
  - destruct H as (HI & Hp & s' & Hm & Ha). split; [apply HW; exact HI|]. split; [exact Hp|].
    exists s'. split; [exact Hm|apply IH; exact Ha].
Qed.

Section LiftP.
Variables (auto : bool) (pa : params) (bufsize : nat).
Variable I : dpm -> Prop.
Variable P : item -> Prop.
Hypothesis Hstep : forall m c x log,
  I m -> cstep_g pa bufsize m c = Ok (x, log) ->
  P (mk_item auto m c x log) /\ I (it_m (mk_item auto m c x log)).

Lemma liftP : forall cbs m tr, I m -> run_g auto pa bufsize m cbs = Ok tr -> Forall P tr /\ I (final m tr).
Proof.
  induction cbs as [|c r IH]; intros m tr HI H; cbn [run_g] in H.
  - inversion H; subst. split; [constructor|exact HI].
  - destruct (cstep_g pa bufsize m c) as [[x log]| |] eqn:Hc; cbn [bind] in H; try discriminate H.
    destruct (run_g auto pa bufsize _ r) as [tr'| |] eqn:Hr; cbn [bind] in H; try discriminate H.
    inversion H; subst. destruct (Hstep _ _ _ _ HI Hc) as [HP HI'].
    destruct (IH _ _ HI' Hr) as [HF Hfin]. split; [constructor; assumption|exact Hfin].
Qed.
End LiftP.

(* a user call changes one peripheral and leaves its bus-side control state alone *)
Definition same_ctrl (p p' : periph) : Prop :=
  pe_addr p' = pe_addr p /\ pe_state p' = pe_state p /\ pe_retry p' = pe_retry p /\ pe_fcb p' = pe_fcb p /\
  pe_pi_i p' = pe_pi_i p /\ pe_diag_in_flight p' = pe_diag_in_flight p /\ pe_opts p' = pe_opts p /\
  length (pe_pi_q p') = length (pe_pi_q p).

Definition user_upd (m m1 : dpm) : Prop :=
  exists i p p', slot m i = Some p /\ m1 = set_slots m (put_slot (dm_slots m) i p') /\ same_ctrl p p'.

Lemma dp_get_mut_slot : forall m h p, dp_get_mut m h = Ok p -> slot m (hd_index h) = Some p.
Proof.
  intros m h p H. unfold dp_get_mut in H. unfold slot.
  destruct (nth_error (dm_slots m) (hd_index h)) as [[q|]|]; try discriminate H. inversion H; reflexivity.
Qed.

Lemma user_upd_mask : forall m m1, user_upd m m1 -> mask m1 = mask m /\ dm_cycle m1 = dm_cycle m /\
  dm_events m1 = dm_events m /\ dm_op m1 = dm_op m /\ dm_last_gc m1 = dm_last_gc m.
Proof.
  intros m m1 (i & p & p' & Hs & -> & _). split; [eapply mask_put; eassumption|]. repeat split; reflexivity.
Qed.

Lemma opstate_eqb_true : forall a b, opstate_eqb a b = true <-> a = b.
Proof. intros a b. destruct a, b; cbn; split; intro H; try reflexivity; try discriminate H. Qed.

Definition is_gc (e : gent) : bool := match e with GGc => true | _ => false end.

Lemma tx_rel_no_gc : forall pa bufsize m m' o log, tx_rel pa bufsize m m' o log -> existsb is_gc log = false.
Proof. intros pa bufsize m m' o log H. induction H; cbn; auto. Qed.

Lemma dp_transmit_g_cases : forall pa bufsize m now hp m' o log,
  dp_transmit_g pa bufsize m now hp = Ok (m', o, log) ->
  (dm_op m = OpStop /\ m' = set_events m events_default /\ o = None /\ log = []) \/
  (dm_op m <> OpStop /\ hp = false /\ gc_due pa m now = Ok true /\
   m' = set_events (set_last_gc m (Some now)) events_default /\ log = [GGc] /\
   exists b w, (b = dp_gc_clear /\ dm_op m = OpClear \/ b = dp_gc_operate /\ dm_op m = OpOperate) /\
             send_data bufsize (gc_header pa) [b; dp_gc_groups] = Ok (w, None) /\ o = Some (w, None)) \/
  (dm_op m <> OpStop /\ (hp = true \/ gc_due pa m now = Ok false) /\ tx_rel pa bufsize m m' o log).
Proof.
  intros pa bufsize m now hp m' o log H. unfold dp_transmit_g in H.
  destruct (opstate_eqb (dm_op m) OpStop) eqn:Hop.
  - left. apply opstate_eqb_true in Hop. inversion H; subst. auto.
  - right. assert (Hne : dm_op m <> OpStop).
    { intro E. apply opstate_eqb_true in E. rewrite E in Hop. discriminate Hop. }
    destruct hp.
    + cbn [bind] in H. right. split; [exact Hne|]. split; [left; reflexivity|].
      eapply tx_loop_rel. exact H.
    + destruct (gc_due pa m now) as [due| |] eqn:Hd; cbn [bind] in H; try discriminate H.
      destruct due.
      * left. split; [exact Hne|]. split; [reflexivity|]. split; [reflexivity|].
        destruct (dm_op m) eqn:Hopm; cbn [bind] in H; try discriminate H;
          (destruct (send_data bufsize (gc_header pa) _) as [[w e]| |] eqn:Hs; cbn [bind] in H; try discriminate H;
           assert (e = None) by (unfold send_data in Hs; destruct (encode_data_in _ _ _); inversion Hs; reflexivity);
           subst e; inversion H; subst; split; [reflexivity|]; split; [reflexivity|]; eexists; exists w; eauto).
      * right. split; [exact Hne|]. split; [right; reflexivity|]. eapply tx_loop_rel. exact H.
Qed.

Lemma rx_cases : forall m a t m' log,
  dp_receive_reply_g m a t = Ok (m', log) ->
  exists index hd p p1 ev m2 c,
    dm_cycle m = CyDataExchange index /\ get_at_index (dm_slots m) index = Ok (Some (hd, p)) /\
    a = pe_addr p /\ p_receive_reply p t = Ok (p1, ev) /\
    increment_cycle (put_cur m hd p1) index = Ok (m2, c) /\
    m' = set_events m2 (mkEvents c (opt_pair hd ev)) /\ log = [GReply (hd_index hd) p p1 t ev].
Proof.
  intros m a t m' log H. unfold dp_receive_reply_g in H.
  destruct (dm_cycle m) as [index|] eqn:Hc; [|discriminate H].
  destruct (get_at_index (dm_slots m) index) as [[[hd p]|]| |] eqn:Hg; cbn [bind] in H; try discriminate H.
  destruct (a =? pe_addr p) eqn:Ha; [|discriminate H]. apply Z.eqb_eq in Ha.
  destruct (p_receive_reply p t) as [[p1 ev]| |] eqn:Hr; cbn [bind] in H; try discriminate H.
  destruct (increment_cycle _ index) as [[m2 c]| |] eqn:Hi; cbn [bind] in H; try discriminate H.
  inversion H; subst. exists index, hd, p, p1, ev, m2, c. repeat split; try reflexivity; assumption.
Qed.

Lemma rx_turn : forall m a t m' log,
  dp_receive_reply_g m a t = Ok (m', log) ->
  exists hd p rest p1 ev cy,
    at_turn m hd p rest /\ a = pe_addr p /\ p_receive_reply p t = Ok (p1, ev) /\
    passes_on (put_cur m hd p1) rest cy /\
    m' = set_events (set_cycle (put_cur m hd p1) cy) (mkEvents (is_nil rest) (opt_pair hd ev)) /\
    log = [GReply (hd_index hd) p p1 t ev].
Proof.
  intros m a t m' log H.
  destruct (rx_cases _ _ _ _ _ H) as (index & hd & p & p1 & ev & m2 & c & Hc & Hgi & -> & Hrx & Hi & -> & ->).
  destruct (cursor_turn m index hd p Hc Hgi) as (rest & Ht & Hn). destruct (Hn _ _ _ Hi) as (-> & cy & -> & Hpo).
  exists hd, p, rest, p1, ev, cy. auto 7.
Qed.

(* every callback, with the master it leaves behind written out *)
Inductive callback (pa : params) (bufsize : nat) (m : dpm) : cb -> dpm -> cout -> list gent -> Prop :=
| CbStopped : forall now hp, dm_op m = OpStop ->
    callback pa bufsize m (CTx now hp) (set_events m events_default) (OTx None) []
| CbGc : forall now w, dm_op m <> OpStop -> gc_due pa m now = Ok true ->
    callback pa bufsize m (CTx now false) (set_events (set_last_gc m (Some now)) events_default)
             (OTx (Some (w, None))) [GGc]
| CbLoop : forall now hp m' o log, dm_op m <> OpStop -> tx_rel pa bufsize m m' o log ->
    callback pa bufsize m (CTx now hp) m' (OTx o) log
| CbReply : forall hd p rest t p1 ev cy,
    at_turn m hd p rest -> p_receive_reply p t = Ok (p1, ev) -> passes_on (put_cur m hd p1) rest cy ->
    callback pa bufsize m (CRx (pe_addr p) t)
             (set_events (set_cycle (put_cur m hd p1) cy) (mkEvents (is_nil rest) (opt_pair hd ev))) OUnit
             [GReply (hd_index hd) p p1 t ev]
| CbTimeout : forall a, callback pa bufsize m (CTo a) m OUnit []
| CbTake : callback pa bufsize m CTake (set_events m events_default) (OEvents (dm_events m)) []
| CbReqDiag : forall h p, slot m (hd_index h) = Some p ->
    callback pa bufsize m (CReqDiag h) (put_cur m h (p_request_diagnostics p)) OUnit []
| CbWriteQ : forall h q p, slot m (hd_index h) = Some p -> length q = length (pe_pi_q p) ->
    callback pa bufsize m (CWriteQ h q) (put_cur m h (set_pi_q p q)) OUnit []
| CbEnter : forall s, callback pa bufsize m (CEnter s) (dp_enter_state_unwound m s) OUnit [].

Lemma cstep_g_inv : forall pa bufsize m c m1 o log,
  cstep_g pa bufsize m c = Ok (m1, o, log) -> callback pa bufsize m c m1 o log.
Proof.
  intros pa bufsize m c m1 o log H. destruct c as [now hp|a t|a| |h|h q|s]; cbn [cstep_g cstep] in H.
  - destruct (dp_transmit_g pa bufsize m now hp) as [[[m' o'] lg]| |] eqn:Hg; inversion H; subst.
    destruct (dp_transmit_g_cases _ _ _ _ _ _ _ _ Hg) as
      [(Hop & -> & -> & ->)|[(Hop & -> & Hd & -> & -> & b & w & _ & _ & ->)|(Hop & _ & Hrel)]].
    + apply CbStopped; exact Hop.
    + apply CbGc; assumption.
    + apply CbLoop; assumption.
  - destruct (dp_receive_reply_g m a t) as [[m' lg]| |] eqn:Hg; inversion H; subst.
    destruct (rx_turn _ _ _ _ _ Hg) as (hd & p & rest & p1 & ev & cy & Ht & -> & Hrx & Hpo & -> & ->).
    apply CbReply; assumption.
  - inversion H; subst. apply CbTimeout.
  - inversion H; subst. apply CbTake.
  - unfold dp_request_diagnostics, dp_update in H.
    destruct (dp_get_mut m h) as [p| |] eqn:Hg; inversion H; subst. apply CbReqDiag, dp_get_mut_slot, Hg.
  - unfold dp_write_q in H. destruct (dp_get_mut m h) as [p| |] eqn:Hg; try discriminate H. cbn [bind] in H.
    unfold copy_from_slice in H. destruct (Nat.eqb_spec (length (pe_pi_q p)) (length q)); inversion H; subst.
    apply CbWriteQ; [apply dp_get_mut_slot; exact Hg|congruence].
  - inversion H; subst. apply CbEnter.
Qed.

(* the cases of `callback` under the names used throughout: Hop : dm_op m = / <> OpStop;  Hd : gc_due .. = Ok true;
   Hrel : tx_rel pa bufsize m m' o lg;  Ht : at_turn m hd p rest, Hrx : p_receive_reply p t = Ok (p1, ev),
   Hpo : passes_on ..;  Hs : slot m (hd_index h) = Some p, Hl : length q = length (pe_pi_q p) *)
Ltac by_callback H :=
  destruct H as [now hp Hop|now w Hop Hd|now hp m' o lg Hop Hrel|hd p rest t p1 ev cy Ht Hrx Hpo|a| |h p Hs|h q p Hs Hl|st].

(* an invariant that does not look at the reported events survives the take_last_events() of auto mode *)
Lemma take_inv : forall (P : dpm -> Prop) auto c m,
  (forall e, P m -> P (set_events m e)) -> P m -> P (fst (auto_take_m auto c m)).
Proof. intros P auto c m He H. unfold auto_take_m. destruct (auto && is_bus c); [apply He|]; exact H. Qed.

(* The spec: `rem` = the occupied slots that still have to get their turn in this pass.  A request may only
   be sent by the head of rem (its turn is in progress); a turn ends (nothing to send / reply handled) only
   for the head of rem, which is then removed. *)
Definition turn_entry (rem : list nat) (e : gent) : option (list nat) :=
  match e with
  | GSend i _ _ _ _ =>
      match rem with j :: _ => if Nat.eqb i j then Some rem else None | [] => None end
  | GSkip i _ _ _ | GReply i _ _ _ _ =>
      match rem with j :: r => if Nat.eqb i j then Some r else None | [] => None end
  | GGc => Some rem
  end.

Fixpoint turn_entries (rem : list nat) (log : list gent) : option (list nat) :=
  match log with
  | [] => Some rem
  | e :: r => match turn_entry rem e with Some rem' => turn_entries rem' r | None => None end
  end.

(* did the slot scheduler run in this callback?  (receive_reply always; transmit_telegram unless the master
   is stopped or used the call for a global control broadcast) *)
Definition sched_ran (it : item) : bool :=
  match it_cb it with
  | CRx _ _ => true
  | CTx _ _ => negb (opstate_eqb (dm_op (it_pre it)) OpStop) && negb (existsb is_gc (it_log it))
  | _ => false
  end.

(* cycle_completed is reported by exactly the callback in which the last turn of the pass ends (for an
   empty master: by every callback in which the scheduler runs); the next pass starts with all of occ *)
Definition cycle_item (occ : list nat) (rem : list nat) (it : item) : option (list nat) :=
  match turn_entries rem (it_log it) with
  | None => None
  | Some rem' =>
      if sched_ran it && is_nil rem'
      then (if ev_cycle_completed (reported it) then Some occ else None)
      else (if ev_cycle_completed (reported it) then None else Some rem')
  end.

Definition cycle_inv (occ : list nat) (m : dpm) (rem : list nat) : Prop :=
  rem = pos_rem m /\ occupied m = occ /\ (dm_cycle m = CyCompleted -> occ <> []).

Lemma cycle_inv_same : forall occ m rem m1,
  cycle_inv occ m rem -> mask m1 = mask m -> dm_cycle m1 = dm_cycle m -> cycle_inv occ m1 rem.
Proof.
  intros occ m rem m1 (-> & <- & Hc) Hm Hcy. split; [symmetry; apply pos_rem_mask; assumption|].
  split; [apply occupied_of_mask; exact Hm|]. rewrite Hcy. exact Hc.
Qed.

Lemma turn_over : forall m hd p rest p1 cy e,
  at_turn m hd p rest -> passes_on (put_cur m hd p1) rest cy ->
  let m' := set_events (set_cycle (put_cur m hd p1) cy) e in
  mask m' = mask m /\ pos_rem m' = (if is_nil rest then occupied m else rest) /\ occupied m <> [].
Proof.
  intros m hd p rest p1 cy e Ht [Hp _]. destruct (turn_put m hd p rest p1 Ht) as (Hm & _ & Ho & Hne).
  split; [exact Hm|]. split; [|exact Hne]. rewrite <- Ho. exact Hp.
Qed.

(* the outcome of one call of the slot loop, in the words of the spec *)
Definition cyc_post (m m' : dpm) (rem' : list nat) : Prop :=
  mask m' = mask m /\ dm_cycle m' <> CyCompleted /\
  if ev_cycle_completed (dm_events m') then rem' = [] /\ pos_rem m' = occupied m'
  else rem' <> [] /\ pos_rem m' = rem'.

Lemma tx_rel_cycle : forall pa bufsize m m' o log,
  tx_rel pa bufsize m m' o log ->
  (dm_cycle m = CyCompleted -> occupied m <> []) ->
  exists rem', turn_entries (pos_rem m) log = Some rem' /\ cyc_post m m' rem'.
Proof.
  intros pa bufsize m m' o log H. unfold cyc_post.
  by_turns H;
    intro Hinv; cbn [turn_entries dm_events set_events ev_cycle_completed].
  - exists (pos_rem m). split; [reflexivity|]. split; [reflexivity|]. split; [discriminate|].
    unfold pos_rem at 1 3. rewrite Hc. auto.
  - exists []. rewrite Hr. split; [reflexivity|]. split; [reflexivity|]. split; [discriminate|]. auto.
  - destruct (turn_put m hd p rest p1 Ht) as (Hm & Hpr & _). destruct Ht as (Hr & _ & _ & Hc).
    rewrite Hr. cbn [turn_entry]. rewrite Nat.eqb_refl. eexists. split; [reflexivity|].
    split; [exact Hm|]. split; [exact Hc|]. split; [discriminate|]. rewrite <- Hr. exact Hpr.
  - destruct (turn_over m hd p rest p1 cy (mkEvents (is_nil rest) (opt_pair hd ev)) Ht Hpo) as (Hm & Hpr & _).
    destruct Ht as (Hr & _). rewrite Hr. cbn [turn_entry]. rewrite Nat.eqb_refl. exists rest. split; [reflexivity|].
    split; [exact Hm|]. split; [exact Hcy|]. rewrite Hpr.
    destruct rest; cbn [is_nil]; split; try reflexivity; try discriminate.
    symmetry. apply occupied_of_mask. exact Hm.
  - destruct (turn_put m hd p rest p1 Ht) as (Hm & _). destruct Ht as (Hr & _).
    destruct IH as (rem' & Ht' & Hm' & Hpost); [intro E; now elim Hcy|].
    destruct Hpo as [Hpo _]. destruct rest; [now elim Hne|]. cbn [is_nil] in Hpo. rewrite Hpo in Ht'.
    exists rem'. rewrite Hr. cbn [turn_entry]. rewrite Nat.eqb_refl. split; [exact Ht'|].
    split; [rewrite Hm'; exact Hm|exact Hpost].
Qed.

Lemma cycle_step : forall auto pa bufsize occ m rem c x log,
  cycle_inv occ m rem -> cstep_g pa bufsize m c = Ok (x, log) ->
  exists rem', cycle_item occ rem (mk_item auto m c x log) = Some rem' /\
               cycle_inv occ (it_m (mk_item auto m c x log)) rem'.
Proof.
  intros auto pa bufsize occ m rem c [m1 o] log HI H. apply cstep_g_inv in H.
  unfold cycle_item, sched_ran, reported, mk_item. cbn [it_cb it_log it_pre it_post it_m fst snd].
  assert (Take : forall rem', cycle_inv occ m1 rem' -> cycle_inv occ (fst (auto_take_m auto c m1)) rem')
    by (intros rem' Hx; apply take_inv; auto).
  assert (Same : mask m1 = mask m -> dm_cycle m1 = dm_cycle m -> cycle_inv occ (fst (auto_take_m auto c m1)) rem)
    by (intros; apply Take; eapply cycle_inv_same; eassumption).
  by_callback H; try (exists rem; split; [reflexivity|apply Same; reflexivity]).
  - rewrite Hop. exists rem. split; [reflexivity|apply Same; reflexivity].
  - exists rem. cbn. rewrite andb_false_r. split; [reflexivity|apply Same; reflexivity].
  - destruct HI as (Hrem & Hocc & Hcc).
    assert (Hinv : dm_cycle m = CyCompleted -> occupied m <> []) by (rewrite Hocc; exact Hcc).
    destruct (tx_rel_cycle _ _ _ _ _ _ Hrel Hinv) as (rem' & Ht & Hmask & Hncc & Hpost).
    rewrite Hrem, Ht, (tx_rel_no_gc _ _ _ _ _ _ Hrel), (opstate_eqb_stop _ Hop). cbn [negb andb].
    assert (Hocc' : occupied m' = occ) by (rewrite <- Hocc; apply occupied_of_mask; exact Hmask).
    destruct (ev_cycle_completed (dm_events m')).
    + destruct Hpost as [-> Hp]. exists occ. split; [reflexivity|]. apply Take. repeat split; congruence.
    + destruct Hpost as [Hne Hp]. exists rem'. split; [destruct rem'; [now elim Hne|reflexivity]|].
      apply Take. repeat split; congruence.
  - destruct HI as (-> & <- & _).
    destruct (turn_over m hd p rest p1 cy (mkEvents (is_nil rest) (opt_pair hd ev)) Ht Hpo) as (Hm & Hpr & Hne).
    destruct Ht as (Hr & _). rewrite Hr. cbn [turn_entries turn_entry]. rewrite Nat.eqb_refl.
    cbn [andb dm_events set_events ev_cycle_completed].
    exists (if is_nil rest then occupied m else rest). split; [destruct rest; reflexivity|].
    apply Take. split; [symmetry; exact Hpr|]. split; [apply occupied_of_mask; exact Hm|]. intros _. exact Hne.
  - exists rem. split; [reflexivity|]. apply Same; [eapply mask_put; exact Hs|reflexivity].
  - exists rem. split; [reflexivity|]. apply Same; [eapply mask_put; exact Hs|reflexivity].
Qed.

(* from any master and monitor state that satisfy the invariant *)
Theorem cycle_history : forall auto pa bufsize occ m0 rem cbs tr,
  cycle_inv occ m0 rem -> run_g auto pa bufsize m0 cbs = Ok tr ->
  accepts (list nat) (cycle_inv occ) (cycle_item occ) rem m0 tr.
Proof.
  intros auto pa bufsize occ m0 rem cbs tr. exact (lift auto pa bufsize _ _ _ (cycle_step auto pa bufsize occ) cbs m0 rem tr).
Qed.

Theorem one_turn_each_history : forall auto pa bufsize m0 cbs tr,
  (dm_cycle m0 = CyCompleted -> occupied m0 <> []) ->
  run_g auto pa bufsize m0 cbs = Ok tr ->
  accepts (list nat) (cycle_inv (occupied m0)) (cycle_item (occupied m0)) (pos_rem m0) m0 tr.
Proof. intros auto pa bufsize m0 cbs tr Hinv. apply cycle_history. repeat split. exact Hinv. Qed.

Definition opt_list {A} (o : option A) : list A := match o with Some x => [x] | None => [] end.

(* events the peripherals produced in this callback: the Some(event) results of
   Peripheral::transmit_telegram / Peripheral::receive_reply, with the handle of the slot *)
Definition entry_event (e : gent) : list (handle * pevent) :=
  match e with
  | GSkip i p _ (Some ev) => [(mkHandle i (pe_addr p), ev)]
  | GReply i p _ _ (Some ev) => [(mkHandle i (pe_addr p), ev)]
  | _ => []
  end.
Definition produced (it : item) : list (handle * pevent) := flat_map entry_event (it_log it).

(* events the application collected at this item: an explicit take_last_events() and the one that follows
   every FdlApplication callback in auto mode *)
Definition taken_events (it : item) : list dpevents :=
  (match it_out it with OEvents e => [e] | _ => [] end) ++ opt_list (it_taken it).
Definition collected (it : item) : list (handle * pevent) :=
  flat_map (fun e => opt_list (ev_peripheral e)) (taken_events it).
Definition collected_cc (it : item) : nat :=
  length (filter ev_cycle_completed (taken_events it)).

Definition bool_nat (b : bool) : nat := if b then 1%nat else 0%nat.

Definition accounted (it : item) : Prop :=
  collected it = produced it /\ collected_cc it = bool_nat (ev_cycle_completed (reported it)).

Lemma handle_eta : forall hd p, hd_addr hd = pe_addr p -> mkHandle (hd_index hd) (pe_addr p) = hd.
Proof. intros [i a] p H. cbn in *. subst. reflexivity. Qed.

Lemma entry_event_skip : forall hd p p1 ev, hd_addr hd = pe_addr p ->
  entry_event (GSkip (hd_index hd) p p1 ev) = opt_list (opt_pair hd ev).
Proof. intros hd p p1 [e|] H; cbn; [rewrite (handle_eta _ _ H)|]; reflexivity. Qed.

Lemma tx_rel_events : forall pa bufsize m m' o log,
  tx_rel pa bufsize m m' o log -> flat_map entry_event log = opt_list (ev_peripheral (dm_events m')).
Proof.
  intros pa bufsize m m' o log H.
  by_turns H;
    try reflexivity; [|exact IH].
  destruct Ht as (_ & _ & Ha & _). cbn [flat_map]. rewrite (entry_event_skip _ _ _ _ Ha). apply app_nil_r.
Qed.

Lemma accounted_step : forall pa bufsize m c x log,
  dm_events m = events_default -> cstep_g pa bufsize m c = Ok (x, log) ->
  accounted (mk_item true m c x log) /\ dm_events (it_m (mk_item true m c x log)) = events_default.
Proof.
  intros pa bufsize m c [m1 o] log He H. apply cstep_g_inv in H.
  unfold accounted, collected, collected_cc, taken_events, produced, reported, mk_item, auto_take_m.
  cbn [it_out it_taken it_log it_cb it_post it_m fst snd andb].
  by_callback H;
    cbn; rewrite ?He; cbn; auto.
  - rewrite (tx_rel_events _ _ _ _ _ _ Hrel), app_nil_r. destruct (ev_cycle_completed (dm_events m')); auto.
  - destruct Ht as (_ & _ & Ha & _). fold (entry_event (GSkip (hd_index hd) p p1 ev)).
    rewrite (entry_event_skip _ _ _ _ Ha). destruct (is_nil rest); auto.
Qed.

Theorem no_event_lost_history : forall pa bufsize m0 cbs tr,
  dm_events m0 = events_default ->
  run_g true pa bufsize m0 cbs = Ok tr ->
  Forall accounted tr /\
  flat_map collected tr = flat_map produced tr /\
  fold_right (fun it n => (collected_cc it + n)%nat) 0%nat tr =
  fold_right (fun it n => (bool_nat (ev_cycle_completed (reported it)) + n)%nat) 0%nat tr.
Proof.
  intros pa bufsize m0 cbs tr He H.
  destruct (liftP true pa bufsize (fun m => dm_events m = events_default) accounted
              (accounted_step pa bufsize) cbs m0 tr He H) as [HF _].
  split; [exact HF|]. clear H. induction HF as [|it r [Hc Hn] _ [IH1 IH2]]; [split; reflexivity|].
  cbn [flat_map fold_right]. rewrite Hc, IH1, Hn, IH2. split; reflexivity.
Qed.

(* which (state, event, next state) triples Peripheral::receive_reply can produce *)
Definition rx_allowed (s : pstate) (ev : option pevent) (s1 : pstate) : bool :=
  match s, ev, s1 with
  | PsOffline, Some EvOnline, PsWaitForParam => true
  | PsOffline, None, PsOffline => true
  | PsWaitForParam, None, PsWaitForConfig => true
  | PsWaitForParam, None, PsWaitForParam => true
  | PsWaitForConfig, None, PsValidateConfig => true
  | PsWaitForConfig, None, PsWaitForConfig => true
  | PsValidateConfig, Some EvParameterError, PsOffline => true
  | PsValidateConfig, Some EvConfigError, PsOffline => true
  | PsValidateConfig, None, PsWaitForParam => true
  | PsValidateConfig, Some EvConfigured, PsPreDataExchange => true
  | PsValidateConfig, None, PsValidateConfig => true
  | PsPreDataExchange, Some EvDiagnostics, PsPreDataExchange => true
  | PsPreDataExchange, Some EvDiagnostics, PsWaitForParam => true
  | PsPreDataExchange, None, PsPreDataExchange => true
  | PsPreDataExchange, Some EvDataExchanged, PsDataExchange => true
  | PsPreDataExchange, None, PsValidateConfig => true
  | PsDataExchange, Some EvDiagnostics, PsDataExchange => true
  | PsDataExchange, Some EvDiagnostics, PsWaitForParam => true
  | PsDataExchange, None, PsDataExchange => true
  | PsDataExchange, Some EvDataExchanged, PsDataExchange => true
  | PsDataExchange, None, PsValidateConfig => true
  | _, _, _ => false
  end.

Lemma validate_outcome_allowed : forall f,
  rx_allowed PsValidateConfig (snd (validate_outcome f)) (fst (validate_outcome f)) = true.
Proof.
  intro f. unfold validate_outcome.
  repeat match goal with |- context [if ?c then _ else _] => destruct c end; reflexivity.
Qed.

Lemma receive_reply_outcome : forall p t p1 ev,
  p_receive_reply p t = Ok (p1, ev) ->
  rx_allowed (pe_state p) ev (pe_state p1) = true /\
  (pe_state p1 = PsOffline -> pe_state p = PsOffline /\ pe_retry p1 = pe_retry p \/ pe_retry p1 = 0) /\
  pe_addr p1 = pe_addr p.
Proof.
  intros p t p1 ev H. apply p_receive_reply_inv in H.
  destruct H as [_|f di x Hs _|f Hs _ _|f di x Hs _|f di x Hx _ _|p2 ev f Hx _ Hd _].
  - split; [destruct (pe_state p); reflexivity|]. auto.
  - cbn. rewrite Hs. auto.
  - cbn. destruct Hs as [-> | ->]; auto.
  - cbn. rewrite Hs. split; [apply validate_outcome_allowed|]. auto.
  - cbv zeta. destruct Hx as [Hs|Hs]; destruct (flags_contains _ _); cbn; rewrite Hs; repeat split; discriminate.
  - destruct (receive_dx_inv _ _ _ _ Hd) as (_ & n & Hi).
    destruct (dx_data p t); destruct Hi as [-> ->]; cbn; [|destruct (is_rs t)];
      destruct Hx as [Hs|Hs]; rewrite Hs; repeat split; discriminate.
Qed.

(* the automaton state a peripheral state is compatible with: Off = not live; Cfg is required in the two
   data exchange states; On or Cfg otherwise (Cfg remains after a re-validation / re-parameterisation) *)
Definition agree_b (l : lstate) (s : pstate) : bool :=
  match s with
  | PsOffline => lstate_eqb l LOff
  | PsPreDataExchange | PsDataExchange => lstate_eqb l LCfg
  | _ => negb (lstate_eqb l LOff)
  end.

Lemma rx_allowed_life : forall l s ev s1,
  agree_b l s = true -> rx_allowed s ev s1 = true ->
  match ev with
  | Some e => match l_step l e with Some l' => agree_b l' s1 | None => false end
  | None => agree_b l s1
  end = true.
Proof.
  intros l s ev s1. destruct l, s, ev as [[]|], s1; cbn; intros H1 H2; try reflexivity; try discriminate.
Qed.

Definition agree (l : lstate) (p : periph) : Prop :=
  agree_b l (pe_state p) = true /\ (pe_state p = PsOffline -> pe_retry p <= 1).

(* the public reading: is_live / is_running *)
Lemma agree_public : forall l p, agree l p ->
  is_live p = negb (lstate_eqb l LOff) /\ (is_running p = true -> l = LCfg) /\
  (l = LOff <-> pe_state p = PsOffline).
Proof.
  intros l p [H _]. unfold is_live, is_running. destruct l, (pe_state p); cbn in *; try discriminate H;
    repeat split; try reflexivity; try discriminate; intros; discriminate.
Qed.

Lemma rx_agree : forall l p t p1 ev,
  agree l p -> p_receive_reply p t = Ok (p1, ev) ->
  match ev with
  | Some e => exists l', l_step l e = Some l' /\ agree l' p1
  | None => agree l p1
  end.
Proof.
  intros l p t p1 ev [Ha Hr] H. destruct (receive_reply_outcome _ _ _ _ H) as (Hal & Hoff & _).
  pose proof (rx_allowed_life _ _ _ _ Ha Hal) as Hl.
  assert (Hretry : pe_state p1 = PsOffline -> pe_retry p1 <= 1).
  { intro E. destruct (Hoff E) as [[E1 E2]|E2]; [rewrite E2; apply Hr; exact E1|lia]. }
  destruct ev as [e|].
  - destruct (l_step l e) as [l'|]; [|discriminate Hl]. exists l'. split; [reflexivity|]. split; assumption.
  - split; assumption.
Qed.

Lemma tx_agree : forall pa op l p p1 r,
  1 <= p_max_retry pa -> agree l p -> p_transmit pa op p = Ok (p1, r) ->
  match r with
  | PtxSkip (Some e) => exists l', l_step l e = Some l' /\ agree l' p1
  | _ => agree l p1
  end.
Proof.
  intros pa op l p p1 r Hmax [Ha Hr] H. apply p_transmit_inv in H.
  destruct H as [_ [Hex|p2 h pdu _ R _|p2 _ I]].
  - assert (Hlive : pe_state p <> PsOffline).
    { intro E. specialize (Hr E). unfold dp_retry_exhausted in Hex. apply Z.ltb_lt in Hex. lia. }
    exists LOff. split; [|split; [reflexivity|intros _; cbn; lia]].
    destruct l; destruct (pe_state p); try discriminate Ha; try reflexivity; now elim Hlive.
  - inversion R as [Hs Hz| | | |[Hs|Hs] _|[Hs|Hs] _]; subst; (split; [exact Ha|]); cbn; intro E; try congruence. lia.
  - destruct I as [Hs _|Hs _|Hs _]; (split; [exact Ha|]); cbn; intros _; lia.
Qed.

(* the monitor: per slot the state of the life-cycle automaton DpOracle.l_step *)
Definition upd (f : nat -> lstate) (i : nat) (l : lstate) : nat -> lstate :=
  fun j => if Nat.eqb j i then l else f j.

Fixpoint life_events (life : nat -> lstate) (evs : list (handle * pevent)) : option (nat -> lstate) :=
  match evs with
  | [] => Some life
  | (h, ev) :: r =>
      match l_step (life (hd_index h)) ev with
      | Some l' => life_events (upd life (hd_index h) l') r
      | None => None
      end
  end.

Definition life_item (life : nat -> lstate) (it : item) : option (nat -> lstate) :=
  life_events life (produced it).

Definition life_inv (m : dpm) (life : nat -> lstate) : Prop :=
  forall i p, slot m i = Some p -> agree (life i) p.

Lemma life_turn : forall m life hd p p1 ev,
  life_inv m life -> slot m (hd_index hd) = Some p ->
  match ev with
  | Some e => exists l', l_step (life (hd_index hd)) e = Some l' /\ agree l' p1
  | None => agree (life (hd_index hd)) p1
  end ->
  exists life', life_events life (opt_list (opt_pair hd ev)) = Some life' /\ life_inv (put_cur m hd p1) life'.
Proof.
  intros m life hd p p1 [e|] HI Hs Ha; cbn [opt_pair opt_list life_events].
  - destruct Ha as (l' & -> & Ha). eexists. split; [reflexivity|].
    apply (all_slots_put (fun i q => agree (life i) q) (fun i q => agree (upd life (hd_index hd) l' i) q) m _ p p1 HI Hs).
    + unfold upd. rewrite Nat.eqb_refl. exact Ha.
    + intros j q Hj Hq. unfold upd. apply Nat.eqb_neq in Hj. rewrite Hj. exact Hq.
  - exists life. split; [reflexivity|]. exact (all_slots_put_same _ m _ p p1 HI Hs Ha).
Qed.

Lemma tx_rel_life : forall pa bufsize m m' o log,
  1 <= p_max_retry pa ->
  tx_rel pa bufsize m m' o log -> forall life, life_inv m life ->
  exists life', life_events life (flat_map entry_event log) = Some life' /\ life_inv m' life'.
Proof.
  intros pa bufsize m m' o log Hmax H.
  by_turns H;
    intros life HI; try (exists life; split; [reflexivity|exact HI]);
    destruct Ht as (_ & Hsl & Hadr & _); pose proof (tx_agree _ _ _ _ _ _ Hmax (HI _ _ Hsl) Hp) as Ha.
  - exists life. split; [reflexivity|]. exact (all_slots_put_same _ m _ p p1 HI Hsl Ha).
  - cbn [flat_map]. rewrite app_nil_r, (entry_event_skip _ _ _ _ Hadr).
    apply (life_turn m life hd p p1 ev HI Hsl). destruct ev; exact Ha.
  - apply IH. exact (all_slots_put_same _ m _ p p1 HI Hsl Ha).
Qed.

Lemma life_step : forall auto pa bufsize m life c x log,
  1 <= p_max_retry pa ->
  life_inv m life -> cstep_g pa bufsize m c = Ok (x, log) ->
  exists life', life_item life (mk_item auto m c x log) = Some life' /\
                life_inv (it_m (mk_item auto m c x log)) life'.
Proof.
  intros auto pa bufsize m life c [m1 o] log Hmax HI H. apply cstep_g_inv in H.
  unfold life_item, produced, mk_item. cbn [it_log it_m fst snd].
  assert (Take : forall life', life_inv m1 life' -> life_inv (fst (auto_take_m auto c m1)) life')
    by (intros life' Hx; apply take_inv; auto).
  by_callback H;
    try (exists life; split; [reflexivity|apply Take; exact HI]).
  - destruct (tx_rel_life _ _ _ _ _ _ Hmax Hrel life HI) as (life' & Hl & HI'). exists life'. auto.
  - destruct Ht as (_ & Hsl & Hadr & _). pose proof (entry_event_skip hd p p1 ev Hadr) as He.
    cbn [flat_map]. rewrite app_nil_r. change (entry_event (GReply (hd_index hd) p p1 t ev)) with
      (entry_event (GSkip (hd_index hd) p p1 ev)). rewrite He.
    destruct (life_turn m life hd p p1 ev HI Hsl (rx_agree _ _ _ _ _ (HI _ _ Hsl) Hrx)) as (life' & Hl & HI').
    exists life'. auto.
  - exists life. split; [reflexivity|]. apply Take.
    exact (all_slots_put_same _ m _ p (p_request_diagnostics p) HI Hs (HI _ _ Hs)).
  - exists life. split; [reflexivity|]. apply Take. exact (all_slots_put_same _ m _ p (set_pi_q p q) HI Hs (HI _ _ Hs)).
Qed.

Theorem lifecycle_history : forall auto pa bufsize m0 life0 cbs tr,
  1 <= p_max_retry pa -> life_inv m0 life0 ->
  run_g auto pa bufsize m0 cbs = Ok tr ->
  accepts (nat -> lstate) life_inv life_item life0 m0 tr.
Proof.
  intros auto pa bufsize m0 life0 cbs tr Hmax.
  exact (lift auto pa bufsize _ _ _ (fun m s c x log => life_step auto pa bufsize m s c x log Hmax) cbs m0 life0 tr).
Qed.

(* fresh peripherals (what Peripheral::new produces) start with the automaton in Off *)
Definition fresh (p : periph) : Prop := pe_state p = PsOffline /\ pe_retry p = 0 /\ pe_fcb p <> FcbInactive.

Lemma fresh_life_inv : forall m, (forall i p, slot m i = Some p -> fresh p) -> life_inv m (fun _ => LOff).
Proof.
  intros m H i p Hs. destruct (H _ _ Hs) as (Hst & Hr & _). split; [rewrite Hst; reflexivity|]. intros _. lia.
Qed.

Lemma tx_rel_frame : forall pa bufsize m m' o log,
  tx_rel pa bufsize m m' o log -> dm_op m' = dm_op m /\ dm_last_gc m' = dm_last_gc m /\ dm_owned m' = dm_owned m.
Proof.
  intros pa bufsize m m' o log H.
  by_turns H;
    [..|exact IH]; repeat split; reflexivity.
Qed.

Lemma gc_due_spec : forall pa m now,
  gc_due pa m now = Ok true ->
  match dm_last_gc m with
  | None => True
  | Some t0 => slot_time pa * dp_gc_interval_slots <= Z.abs (now - t0)
  end.
Proof.
  intros pa m now H. unfold gc_due in H. destruct (dm_last_gc m) as [t0|]; [|exact I].
  unfold instant_diff, bind in H. destruct (_ || _); [discriminate H|].
  inversion H as [H1]. apply Z.leb_le in H1. exact H1.
Qed.

(* a global control broadcast: only in a transmit call with HighPrioOnly::No of a master that is not
   stopped, when due; it is an SDN request (expects no reply, so nothing will be routed back), the cycle
   position and all peripherals are untouched, the event slot is emptied *)
Lemma gc_broadcast : forall pa bufsize m now hp m' o log,
  dp_transmit_g pa bufsize m now hp = Ok (m', o, log) ->
  existsb is_gc log = true ->
  log = [GGc] /\ hp = false /\ dm_op m <> OpStop /\ gc_due pa m now = Ok true /\
  (exists b w, (b = dp_gc_clear /\ dm_op m = OpClear \/ b = dp_gc_operate /\ dm_op m = OpOperate) /\
               send_data bufsize (gc_header pa) [b; dp_gc_groups] = Ok (w, None) /\ o = Some (w, None)) /\
  dm_cycle m' = dm_cycle m /\ dm_slots m' = dm_slots m /\ pos_rem m' = pos_rem m /\
  dm_events m' = events_default /\ dm_last_gc m' = Some now /\ dm_op m' = dm_op m.
Proof.
  intros pa bufsize m now hp m' o log H Hgc.
  destruct (dp_transmit_g_cases _ _ _ _ _ _ _ _ H) as
    [(_ & _ & _ & ->)|[(Hop & Hhp & Hd & Hm & -> & Hb)|(_ & _ & Hrel)]].
  - discriminate Hgc.
  - subst m'. repeat split; try assumption; try reflexivity.
  - rewrite (tx_rel_no_gc _ _ _ _ _ _ Hrel) in Hgc. discriminate Hgc.
Qed.

(* ... and whenever one is due it is sent, whatever the cycle position *)
Lemma gc_when_due : forall pa bufsize m now,
  dm_op m <> OpStop -> gc_due pa m now = Ok true ->
  match dp_transmit_g pa bufsize m now false with
  | Ok (_, _, log) => log = [GGc]
  | Panic _ => True
  | OutOfFuel => False
  end.
Proof.
  intros pa bufsize m now Hop Hd. unfold dp_transmit_g.
  destruct (opstate_eqb (dm_op m) OpStop) eqn:E; [apply opstate_eqb_true in E; now elim Hop|].
  rewrite Hd. cbn [bind]. destruct (dm_op m); cbn [bind]; try exact I;
    destruct (send_data _ _ _) as [o1| |] eqn:Hs; cbn [bind]; auto; exact (nf_send_data _ _ _ Hs).
Qed.

(* at most one broadcast per interval: monitor state = time of the last broadcast since the last
   enter_state *)
Definition gc_item (pa : params) (last : option Z) (it : item) : option (option Z) :=
  match it_cb it with
  | CEnter _ => Some None
  | CTx now _ =>
      if existsb is_gc (it_log it) then
        match last with
        | Some t0 => if slot_time pa * dp_gc_interval_slots <=? Z.abs (now - t0) then Some (Some now) else None
        | None => Some (Some now)
        end
      else Some last
  | _ => Some last
  end.

Definition gc_inv (m : dpm) (last : option Z) : Prop := dm_last_gc m = last.

Lemma gc_step : forall auto pa bufsize m last c x log,
  gc_inv m last -> cstep_g pa bufsize m c = Ok (x, log) ->
  exists last', gc_item pa last (mk_item auto m c x log) = Some last' /\
                gc_inv (it_m (mk_item auto m c x log)) last'.
Proof.
  intros auto pa bufsize m last c [m1 o] log HI H. apply cstep_g_inv in H.
  unfold gc_item, mk_item. cbn [it_cb it_log it_m fst snd].
  assert (Take : forall last', gc_inv m1 last' -> gc_inv (fst (auto_take_m auto c m1)) last')
    by (intros last' Hx; apply take_inv; auto).
  by_callback H;
    try (exists last; split; [reflexivity|apply Take; exact HI]).
  - exists (Some now). split; [|apply Take; reflexivity].
    pose proof (gc_due_spec _ _ _ Hd) as Hs. rewrite HI in Hs. cbn [existsb is_gc orb].
    destruct last as [t0|]; [|reflexivity]. apply Z.leb_le in Hs. rewrite Hs. reflexivity.
  - rewrite (tx_rel_no_gc _ _ _ _ _ _ Hrel). exists last. split; [reflexivity|]. apply Take.
    destruct (tx_rel_frame _ _ _ _ _ _ Hrel) as (_ & Hl & _). unfold gc_inv. rewrite Hl. exact HI.
  - exists None. split; [reflexivity|apply Take; reflexivity].
Qed.

Theorem gc_interval_history : forall auto pa bufsize m0 cbs tr,
  run_g auto pa bufsize m0 cbs = Ok tr ->
  accepts (option Z) gc_inv (gc_item pa) (dm_last_gc m0) m0 tr.
Proof.
  intros auto pa bufsize m0 cbs tr.
  exact (lift auto pa bufsize _ _ _ (gc_step auto pa bufsize) cbs m0 _ tr eq_refl).
Qed.

Lemma empty_get_at_index : forall m i, occupied m = [] -> get_at_index (dm_slots m) i = Ok None.
Proof.
  intros m i H. apply (occ_skip_nil i) in H. rewrite Nat.add_0_r in H.
  pose proof (get_at_index_inv (dm_slots m) i) as Hi.
  destruct (get_at_index (dm_slots m) i) as [[[hd p]|]| |]; [destruct Hi as (r & Hr & _)|reflexivity
    |destruct Hi as (j & r & Hr & _)|contradiction]; rewrite H in Hr; discriminate Hr.
Qed.

(* an empty master (no slot occupied; in particular no slots at all): transmit_telegram returns None at
   once, having reported cycle_completed -- unless it is stopped or a global control broadcast is due *)
Lemma zero_peripherals_tx : forall pa bufsize m now hp index,
  occupied m = [] -> dm_cycle m = CyDataExchange index -> dm_op m <> OpStop ->
  (hp = true \/ gc_due pa m now = Ok false) ->
  dp_transmit pa bufsize m now hp =
    Ok (set_events (set_cycle m (CyDataExchange 0)) (mkEvents true None), None).
Proof.
  intros pa bufsize m now hp index Hocc Hc Hop Hgc. unfold dp_transmit.
  destruct (opstate_eqb (dm_op m) OpStop) eqn:E; [apply opstate_eqb_true in E; now elim Hop|].
  assert (Hd : (if hp then Ok false else gc_due pa m now) = Ok false).
  { destruct Hgc as [->|Hg]; [reflexivity|]. destruct hp; [reflexivity|exact Hg]. }
  rewrite Hd. cbn [bind]. unfold dp_tx_fuel. rewrite Nat.add_comm. cbn [Nat.add dp_tx_loop].
  rewrite Hc. rewrite (empty_get_at_index _ _ Hocc). reflexivity.
Qed.

Definition empty_inv (m : dpm) : Prop := occupied m = [] /\ dm_cycle m <> CyCompleted.

(* in a history of an empty master every transmit call returns None (reporting cycle_completed unless
   stopped) or writes a global control broadcast; a reply is never processed *)
Definition empty_item (it : item) : Prop :=
  match it_cb it with
  | CTx _ _ =>
      (it_out it = OTx None /\ it_log it = [] /\
       (dm_op (it_pre it) = OpStop /\ reported it = events_default \/
        dm_op (it_pre it) <> OpStop /\ reported it = mkEvents true None)) \/
      (exists w, it_out it = OTx (Some (w, None)) /\ it_log it = [GGc] /\ reported it = events_default)
  | CRx _ _ => False
  | _ => True
  end.

Lemma tx_rel_empty : forall pa bufsize m m' o log,
  empty_inv m -> tx_rel pa bufsize m m' o log ->
  m' = set_events (set_cycle m (CyDataExchange 0)) (mkEvents true None) /\ o = None /\ log = [].
Proof.
  intros pa bufsize m m' o log [Hocc Hnc] H.
  by_turns H;
    try (destruct (turn_put m hd p rest p1 Ht) as (_ & _ & _ & Hx); now elim Hx).
  - now elim Hnc.
  - auto.
Qed.

Lemma empty_step : forall auto pa bufsize m c x log,
  empty_inv m -> cstep_g pa bufsize m c = Ok (x, log) ->
  empty_item (mk_item auto m c x log) /\ empty_inv (it_m (mk_item auto m c x log)).
Proof.
  intros auto pa bufsize m c [m1 o] log HI H. apply cstep_g_inv in H.
  unfold empty_item, reported, mk_item. cbn [it_cb it_out it_log it_pre it_post it_m fst snd].
  assert (Take : empty_inv m1 -> empty_inv (fst (auto_take_m auto c m1))) by (apply take_inv; auto).
  by_callback H;
    try (split; [exact I|apply Take; exact HI]).
  - split; [left; auto|apply Take; exact HI].
  - split; [right; exists w; auto|apply Take; exact HI].
  - destruct (tx_rel_empty _ _ _ _ _ _ HI Hrel) as (-> & -> & ->).
    split; [left; auto|]. apply Take. destruct HI as [Ho _]. split; [exact Ho|discriminate].
  - destruct (turn_put m hd p rest p1 Ht) as (_ & _ & _ & Hx). destruct HI as [Ho _]. now elim Hx.
  - split; [exact I|]. apply Take. destruct HI as [Ho Hc]. split; [|exact Hc].
    rewrite <- Ho. apply occupied_of_mask. eapply mask_put. exact Hs.
  - split; [exact I|]. apply Take. destruct HI as [Ho Hc]. split; [|exact Hc].
    rewrite <- Ho. apply occupied_of_mask. eapply mask_put. exact Hs.
Qed.

Theorem zero_peripherals_history : forall auto pa bufsize m0 cbs tr,
  occupied m0 = [] -> dm_cycle m0 <> CyCompleted ->
  run_g auto pa bufsize m0 cbs = Ok tr -> Forall empty_item tr.
Proof.
  intros auto pa bufsize m0 cbs tr Ho Hc H.
  destruct (liftP auto pa bufsize empty_inv empty_item (empty_step auto pa bufsize) cbs m0 tr (conj Ho Hc) H)
    as [HF _]. exact HF.
Qed.

(* monitor state: number of transmissions in the turn in progress and the frame count bit they carried.
   Every transmission of a turn carries the same frame count bit as the one before (for the FDL peer: a
   repetition of the same request) and there are at most 1 + max_retry of them. *)
Definition sends_entry (maxr : Z) (s : nat * option fcbit) (e : gent) : option (nat * option fcbit) :=
  match e with
  | GSend _ _ _ h _ =>
      match req_fcbit h with
      | Some f =>
          if (Z.of_nat (fst s) <=? maxr) &&
             (match snd s with Some f0 => fcbit_eqb f0 f | None => true end)
          then Some (S (fst s), Some f) else None
      | None => None
      end
  | GSkip _ _ _ _ | GReply _ _ _ _ _ => Some (0%nat, None)
  | GGc => Some s
  end.

Fixpoint sends_entries (maxr : Z) (s : nat * option fcbit) (log : list gent) : option (nat * option fcbit) :=
  match log with
  | [] => Some s
  | e :: r => match sends_entry maxr s e with Some s' => sends_entries maxr s' r | None => None end
  end.

Definition sends_item (maxr : Z) (s : nat * option fcbit) (it : item) : option (nat * option fcbit) :=
  sends_entries maxr s (it_log it).

Definition sends_inv (m : dpm) (s : nat * option fcbit) : Prop :=
  (forall i p, slot m i = Some p -> 0 <= pe_retry p) /\
  (forall i r p, pos_rem m = i :: r -> slot m i = Some p ->
     Z.of_nat (fst s) <= pe_retry p /\ (forall f, snd s = Some f -> pe_fcb p = f)) /\
  (pos_rem m = [] -> s = (0%nat, None)).

Lemma fcbit_eqb_refl : forall f, fcbit_eqb f f = true.
Proof. destruct f; reflexivity. Qed.

Lemma sends_inv_reset : forall m, (forall i p, slot m i = Some p -> 0 <= pe_retry p) -> sends_inv m (0%nat, None).
Proof.
  intros m H. split; [exact H|]. split; [|reflexivity].
  intros i r p _ Hs. split; [cbn; apply (H _ _ Hs)|]. intros f Hf. discriminate Hf.
Qed.

Lemma transmit_retry_nonneg : forall pa op p p1 r,
  p_transmit pa op p = Ok (p1, r) -> 0 <= pe_retry p -> 0 <= pe_retry p1.
Proof.
  intros pa op p p1 r H Hp. pose proof (transmit_spec _ _ _ _ _ H) as Hs.
  destruct r as [h pdu|[e|]]; [destruct Hs as (_ & _ & _ & _ & _ & -> & _)|destruct Hs as (_ & _ & _ & _ & ->)
                              |destruct Hs as (_ & -> & _)]; lia.
Qed.

Lemma tx_rel_sends : forall pa bufsize m m' o log,
  tx_rel pa bufsize m m' o log -> forall s, sends_inv m s ->
  exists s', sends_entries (p_max_retry pa) s log = Some s' /\ sends_inv m' s'.
Proof.
  intros pa bufsize m m' o log H.
  by_turns H;
    intros s (Hnn & Hhead & Hnil); cbn [sends_entries sends_entry];
    try (assert (Hnn1 : all_slots (fun _ q => 0 <= pe_retry q) (put_cur m hd p1))
           by (destruct Ht as (_ & Hsl & _);
               exact (all_slots_put_same _ m _ p p1 Hnn Hsl (transmit_retry_nonneg _ _ _ _ _ Hp (Hnn _ _ Hsl))))).
  - exists s. split; [reflexivity|]. unfold sends_inv, pos_rem in *. cbn [dm_cycle set_cycle set_events]. rewrite Hc in *. auto.
  - exists s. split; [reflexivity|]. rewrite (Hnil Hr). apply sends_inv_reset. exact Hnn.
  - destruct (turn_put m hd p rest p1 Ht) as (_ & Hpr & _). destruct Ht as (Hr & Hsl & _).
    destruct (Hhead _ _ _ Hr Hsl) as (Hn & Hf).
    destruct (transmit_spec _ _ _ _ _ Hp) as (Hex & (rq & Hfc) & _ & _ & Hfcb & Hre & _).
    unfold dp_retry_exhausted in Hex. apply Z.ltb_ge in Hex. unfold req_fcbit. rewrite Hfc.
    replace (Z.of_nat (fst s) <=? p_max_retry pa) with true by (symmetry; apply Z.leb_le; lia).
    replace (match snd s with Some f0 => fcbit_eqb f0 (pe_fcb p) | None => true end) with true
      by (destruct (snd s) as [f0|]; [rewrite (Hf f0 eq_refl); symmetry; apply fcbit_eqb_refl|reflexivity]).
    eexists. split; [reflexivity|]. split; [exact Hnn1|]. rewrite pos_rem_events, Hpr, Hr. split; [|discriminate].
    intros i r' q E Hq. inversion E; subst i r'.
    change (slot (put_cur m hd p1) (hd_index hd) = Some q) in Hq. unfold put_cur in Hq.
    rewrite (slot_put_same _ _ p1 _ Hsl) in Hq. inversion Hq; subst q.
    cbn [fst snd]. split; [lia|]. intros f E'. inversion E'; subst. exact Hfcb.
  - eexists. split; [reflexivity|]. apply sends_inv_reset. exact Hnn1.
  - apply IH. apply sends_inv_reset. exact Hnn1.
Qed.

Lemma sends_inv_events : forall m s e, sends_inv m s -> sends_inv (set_events m e) s.
Proof. intros m s e H. exact H. Qed.

Lemma sends_step : forall auto pa bufsize m s c x log,
  sends_inv m s -> cstep_g pa bufsize m c = Ok (x, log) ->
  exists s', sends_item (p_max_retry pa) s (mk_item auto m c x log) = Some s' /\
             sends_inv (it_m (mk_item auto m c x log)) s'.
Proof.
  intros auto pa bufsize m s c [m1 o] log HI H. apply cstep_g_inv in H.
  unfold sends_item, mk_item. cbn [it_log it_m fst snd].
  assert (Take : forall s', sends_inv m1 s' -> sends_inv (fst (auto_take_m auto c m1)) s')
    by (intros s' Hx; apply take_inv; auto).
  assert (User : forall hd p p', slot m (hd_index hd) = Some p -> pe_retry p' = pe_retry p -> pe_fcb p' = pe_fcb p ->
            sends_inv (put_cur m hd p') s).
  { intros hd p p' Hs Hre Hfc. destruct HI as (Hnn & Hhead & Hnil).
    destruct (put_cur_facts m hd p p' Hs) as (_ & _ & Hpr & _). unfold sends_inv. rewrite Hpr.
    split; [apply (all_slots_put_same _ m _ p p' Hnn Hs); rewrite Hre; apply (Hnn _ _ Hs)|]. split; [|exact Hnil].
    intros j r q Hj Hq. change (slot (put_cur m hd p') j = Some q) in Hq. unfold put_cur in Hq.
    destruct (Nat.eq_dec (hd_index hd) j) as [<-|Hne].
    - rewrite (slot_put_same _ _ p' _ Hs) in Hq. inversion Hq; subst q. rewrite Hre, Hfc. apply (Hhead _ _ _ Hj Hs).
    - rewrite slot_put_other in Hq by exact Hne. apply (Hhead _ _ _ Hj Hq). }
  by_callback H;
    try (exists s; split; [reflexivity|apply Take; exact HI]).
  - destruct (tx_rel_sends _ _ _ _ _ _ Hrel s HI) as (s' & Hs & HI'). exists s'. auto.
  - eexists. split; [reflexivity|]. apply Take, sends_inv_reset. destruct HI as (Hnn & _). destruct Ht as (_ & Hsl & _).
    apply (all_slots_put_same _ m _ p p1 Hnn Hsl).
    destruct (fcb_after_reply _ _ _ _ Hrx) as [[_ ->]|[_ ->]]; [apply (Hnn _ _ Hsl)|lia].
  - exists s. split; [reflexivity|]. apply Take. apply (User h p); auto.
  - exists s. split; [reflexivity|]. apply Take. apply (User h p); auto.
Qed.

Theorem sends_history : forall auto pa bufsize m0 s cbs tr,
  sends_inv m0 s -> run_g auto pa bufsize m0 cbs = Ok tr ->
  accepts (nat * option fcbit) sends_inv (sends_item (p_max_retry pa)) s m0 tr.
Proof.
  intros auto pa bufsize m0 s cbs tr. exact (lift auto pa bufsize _ _ _ (sends_step auto pa bufsize) cbs m0 s tr).
Qed.

Theorem turn_sends_history : forall auto pa bufsize m0 cbs tr,
  (forall i p, slot m0 i = Some p -> pe_retry p = 0) ->
  run_g auto pa bufsize m0 cbs = Ok tr ->
  accepts (nat * option fcbit) sends_inv (sends_item (p_max_retry pa)) (0%nat, None) m0 tr.
Proof.
  intros auto pa bufsize m0 cbs tr H0. apply sends_history, sends_inv_reset.
  intros i p Hs. rewrite (H0 _ _ Hs). lia.
Qed.

(* the contract (C15) as a monitor over the trace: `pend` = the station a reply is outstanding from.
   receive_reply(a, t) / handle_timeout(a) only for the outstanding request, t only what the FDL admits
   (DpOracle.admissible: SC, or a response from a to this master); a request may also be dropped without
   any callback (token given up), so transmit_telegram is always allowed. *)
Definition pend_item (own : Z) (pend : option Z) (it : item) : option (option Z) :=
  match it_cb it with
  | CTx _ _ => match it_out it with OTx (Some (_, exp)) => Some exp | _ => Some None end
  | CRx a t =>
      match pend with
      | Some da => if (a =? da) && admissible own da t then Some None else None
      | None => None
      end
  | CTo a => match pend with Some da => if a =? da then Some None else None | None => None end
  | _ => Some pend
  end.

Fixpoint pend_run (own : Z) (pend : option Z) (tr : list item) : option (option Z) :=
  match tr with
  | [] => Some pend
  | it :: r => match pend_item own pend it with Some p' => pend_run own p' r | None => None end
  end.

Definition safe_inv (m : dpm) (pend : option Z) : Prop :=
  (forall i p, slot m i = Some p -> pe_fcb p <> FcbInactive) /\
  (length (dm_slots m) <= 256)%nat /\
  (forall da, pend = Some da ->
     exists index hd p, dm_cycle m = CyDataExchange index /\
                        get_at_index (dm_slots m) index = Ok (Some (hd, p)) /\ pe_addr p = da).

Lemma get_at_index_of_occ : forall l index i r p,
  occupied_from (skipn index l) index = i :: r -> nth_error l i = Some (Some p) -> (i <= 255)%nat ->
  get_at_index l index = Ok (Some (mkHandle i (pe_addr p), p)).
Proof.
  intros l index i r p Ho Hn Hi. pose proof (get_at_index_inv l index) as H. rewrite Ho in H.
  destruct (get_at_index l index) as [[[[j a] q]|]| |]; [|discriminate H| |contradiction].
  - destruct H as (r' & Hr & Hq & Ha). cbn in *. inversion Hr; subst. rewrite Hn in Hq. inversion Hq; reflexivity.
  - destruct H as (j & r' & Hr & Hj). inversion Hr; subst. lia.
Qed.

Lemma occupied_from_bound : forall l j i, In i (occupied_from l j) -> (i < j + length l)%nat.
Proof.
  induction l as [|x l IH]; intros j i H; [destruct H|].
  destruct x as [q|]; cbn in H |- *.
  - destruct H as [<-|H]; [lia|]. specialize (IH _ _ H). lia.
  - specialize (IH _ _ H). lia.
Qed.

Lemma pos_bound : forall l index i, In i (occupied_from (skipn index l) index) -> (i < length l)%nat.
Proof.
  intros l index i H. destruct (Nat.le_gt_cases index (length l)) as [Hle|Hgt].
  - apply occupied_from_bound in H. rewrite skipn_length in H. lia.
  - rewrite skipn_all2 in H by lia. destruct H.
Qed.

(* with at most 256 slots the slot at its turn is the one get_at_index finds *)
Lemma cursor_of_turn : forall m hd p rest,
  at_turn m hd p rest -> (length (dm_slots m) <= 256)%nat ->
  exists index, dm_cycle m = CyDataExchange index /\ get_at_index (dm_slots m) index = Ok (Some (hd, p)).
Proof.
  intros m hd p rest (Hr & Hs & Ha & Hc) Hlen. unfold pos_rem in Hr.
  destruct (dm_cycle m) as [index|]; [|now elim Hc]. exists index. split; [reflexivity|].
  rewrite <- (handle_eta hd p Ha). eapply get_at_index_of_occ; [exact Hr|apply slot_nth; exact Hs|].
  assert (Hb : (hd_index hd < length (dm_slots m))%nat) by (apply (pos_bound _ index); rewrite Hr; left; reflexivity).
  lia.
Qed.

Lemma turn_after_put : forall m hd p rest j q q',
  at_turn m hd p rest -> slot m j = Some q -> pe_addr q' = pe_addr q ->
  exists p', at_turn (set_slots m (put_slot (dm_slots m) j q')) hd p' rest /\ pe_addr p' = pe_addr p.
Proof.
  intros m hd p rest j q q' (Hr & Hs & Ha & Hc) Hq Hadr.
  assert (Hpr : pos_rem (set_slots m (put_slot (dm_slots m) j q')) = pos_rem m)
    by (apply pos_rem_mask; [eapply mask_put; exact Hq|reflexivity]).
  destruct (Nat.eq_dec j (hd_index hd)) as [->|Hne].
  - rewrite Hs in Hq. inversion Hq; subst q. exists q'. split; [|exact Hadr].
    repeat split; [congruence|eapply slot_put_same; exact Hs|congruence|exact Hc].
  - exists p. split; [|reflexivity]. repeat split; try assumption; [congruence|]. rewrite slot_put_other; assumption.
Qed.

Lemma safe_inv_put : forall m pend j q q',
  safe_inv m pend -> slot m j = Some q -> pe_addr q' = pe_addr q -> pe_fcb q' <> FcbInactive ->
  safe_inv (set_slots m (put_slot (dm_slots m) j q')) pend.
Proof.
  intros m pend j q q' (Hf & Hlen & Hp) Hs Ha Hfc.
  assert (Hlen' : (length (dm_slots (set_slots m (put_slot (dm_slots m) j q'))) <= 256)%nat)
    by (cbn; rewrite put_slot_length; exact Hlen).
  split; [exact (all_slots_put_same _ m j q q' Hf Hs Hfc)|]. split; [exact Hlen'|].
  intros da E. destruct (Hp da E) as (index & hd & p & Hc & Hg & <-).
  destruct (cursor_turn m index hd p Hc Hg) as (rest & Ht & _).
  destruct (turn_after_put _ _ _ _ _ _ _ Ht Hs Ha) as (p' & Ht' & Ha').
  destruct (cursor_of_turn _ _ _ _ Ht' Hlen') as (index' & Hc' & Hg'). exists index', hd, p'. auto.
Qed.

Lemma transmit_fcb_ok : forall pa op p p1 r,
  p_transmit pa op p = Ok (p1, r) -> pe_fcb p <> FcbInactive -> pe_fcb p1 <> FcbInactive.
Proof.
  intros pa op p p1 r H Hf. pose proof (transmit_spec _ _ _ _ _ H) as Hs.
  destruct r as [h pdu|[e|]].
  - destruct Hs as (_ & _ & _ & _ & -> & _). exact Hf.
  - destruct Hs as (_ & _ & -> & _). discriminate.
  - destruct Hs as (_ & _ & _ & [->|[_ ->]]); [exact Hf|discriminate].
Qed.

Lemma reply_fcb_ok : forall p t p1 ev,
  p_receive_reply p t = Ok (p1, ev) -> pe_fcb p <> FcbInactive -> pe_fcb p1 <> FcbInactive.
Proof.
  intros p t p1 ev H Hf. destruct (fcb_after_reply _ _ _ _ H) as [[-> _]|[Hc _]]; [exact Hf|].
  destruct (pe_fcb p); inversion Hc; discriminate.
Qed.

Lemma select_keeps : forall pa op p,
  let p1 := fst (p_transmit_select pa op p) in
  pe_addr p1 = pe_addr p /\ pe_pi_i p1 = pe_pi_i p /\ pe_pi_q p1 = pe_pi_q p /\ pe_opts p1 = pe_opts p /\
  pe_diag_needed p1 = pe_diag_needed p /\ pe_diag p1 = pe_diag p /\ pe_ext p1 = pe_ext p.
Proof.
  intros pa op p. unfold p_transmit_select.
  repeat match goal with
         | |- context [if ?c then _ else _] => destruct c
         | |- context [match ?x with _ => _ end] => destruct x
         end; cbn; repeat split; reflexivity.
Qed.

Lemma transmit_keeps : forall pa op p p1 r,
  p_transmit pa op p = Ok (p1, r) ->
  pe_addr p1 = pe_addr p /\ pe_pi_i p1 = pe_pi_i p /\ pe_pi_q p1 = pe_pi_q p /\ pe_opts p1 = pe_opts p /\
  pe_diag_needed p1 = pe_diag_needed p /\ pe_diag p1 = pe_diag p /\ pe_ext p1 = pe_ext p.
Proof.
  intros pa op p p1 r H. unfold p_transmit in H. destruct (opstate_eqb op OpStop); [discriminate H|].
  pose proof (select_keeps pa op p) as Hk. destruct (p_transmit_select pa op p) as [p2 r2]. cbn [fst] in Hk.
  destruct r2; [destruct (255 <=? pe_retry p2); [discriminate H|]|]; inversion H; subst; exact Hk.
Qed.

Lemma tx_rel_all_slots : forall (Q : nat -> periph -> Prop) pa bufsize,
  (forall op i p p1 r, Q i p -> p_transmit pa op p = Ok (p1, r) -> Q i p1) ->
  forall m m' o log, tx_rel pa bufsize m m' o log -> all_slots Q m -> all_slots Q m'.
Proof.
  intros Q pa bufsize HQ m m' o log H.
  by_turns H;
    intro HI; try exact HI; [| |apply IH]; destruct Ht as (_ & Hsl & _);
    exact (all_slots_put_same Q m _ p p1 HI Hsl (HQ _ _ _ _ _ (HI _ _ Hsl) Hp)).
Qed.

(* a request that expects a reply is addressed to the peripheral that stays current *)
Lemma tx_rel_safe : forall pa bufsize m m' o log,
  tx_rel pa bufsize m m' o log -> (length (dm_slots m) <= 256)%nat ->
  length (dm_slots m') = length (dm_slots m) /\
  (forall w da, o = Some (w, Some da) ->
     exists index hd p, dm_cycle m' = CyDataExchange index /\
                        get_at_index (dm_slots m') index = Ok (Some (hd, p)) /\ pe_addr p = da).
Proof.
  intros pa bufsize m m' o log H.
  by_turns H;
    intro Hlen; try (split; [try reflexivity; apply put_slot_length|intros w da E; discriminate E]).
  - split; [apply put_slot_length|]. intros w da E. inversion E; subst o. clear E.
    destruct (transmit_spec _ _ _ _ _ Hp) as (_ & (rq & Hfc) & Hda & _).
    unfold send_data in Hs. destruct (encode_data_in bufsize h pdu); cbn [bind] in Hs; try discriminate Hs.
    inversion Hs as [[Hw He]]. unfold tx_expects_reply in He. rewrite Hfc in He.
    destruct (req_expects_reply rq); inversion He as [Hd].
    pose proof Ht as (_ & Hsl & _).
    destruct (turn_after_put _ _ _ _ _ _ p1 Ht Hsl (proj1 (transmit_keeps _ _ _ _ _ Hp))) as (p' & Ht' & Ha').
    destruct (cursor_of_turn _ _ _ _ Ht') as (index & Hc' & Hg'); [cbn; rewrite put_slot_length; exact Hlen|].
    exists index, hd, p'. split; [exact Hc'|]. split; [exact Hg'|congruence].
  - destruct IH as [Hl Hreq]; [cbn; rewrite put_slot_length; exact Hlen|].
    split; [rewrite Hl; apply put_slot_length|exact Hreq].
Qed.

Lemma safe_step : forall auto pa bufsize m pend c x log pend',
  safe_inv m pend -> cstep_g pa bufsize m c = Ok (x, log) ->
  pend_item (p_address pa) pend (mk_item auto m c x log) = Some pend' ->
  safe_inv (it_m (mk_item auto m c x log)) pend'.
Proof.
  intros auto pa bufsize m pend c [m1 o] log pend' HI H Hpi. apply cstep_g_inv in H.
  unfold pend_item, mk_item in *. cbn [it_cb it_out it_m fst snd] in *. apply take_inv; [auto|].
  assert (Hnone : forall m2, all_slots (fun _ q => pe_fcb q <> FcbInactive) m2 ->
                    (length (dm_slots m2) <= 256)%nat -> safe_inv m2 None)
    by (intros m2 Hf Hl; split; [exact Hf|split; [exact Hl|intros da E; discriminate E]]).
  pose proof HI as (Hf & Hlen & Hp).
  by_callback H;
    try (inversion Hpi; subst pend'; try exact HI; apply Hnone; assumption).
  - destruct (tx_rel_safe _ _ _ _ _ _ Hrel Hlen) as (Hlen' & Hreq).
    split; [|split; [rewrite Hlen'; exact Hlen|]].
    + apply (tx_rel_all_slots _ pa bufsize) with (3 := Hf) (2 := Hrel). intros op i q q1 r Hq Hx.
      exact (transmit_fcb_ok _ _ _ _ _ Hx Hq).
    + destruct o as [[w exp]|]; inversion Hpi; subst pend'; intros da E; [subst exp; eapply Hreq; reflexivity|discriminate E].
  - assert (E : pend' = None).
    { destruct pend as [da|]; [|discriminate Hpi]. destruct (_ && _); inversion Hpi; reflexivity. }
    subst pend'. destruct Ht as (_ & Hsl & _). apply Hnone; [|cbn; rewrite put_slot_length; exact Hlen].
    exact (all_slots_put_same _ m _ p p1 Hf Hsl (reply_fcb_ok _ _ _ _ Hrx (Hf _ _ Hsl))).
  - assert (E : pend' = None).
    { destruct pend as [da|]; [|discriminate Hpi]. destruct (a =? da); inversion Hpi; reflexivity. }
    subst pend'. apply Hnone; assumption.
  - inversion Hpi; subst pend'. apply (safe_inv_put m pend _ p); auto. apply (Hf _ _ Hs).
  - inversion Hpi; subst pend'. apply (safe_inv_put m pend _ p); auto. apply (Hf _ _ Hs).
Qed.

Lemma safe_run : forall auto pa bufsize cbs m pend tr pend',
  safe_inv m pend -> run_g auto pa bufsize m cbs = Ok tr ->
  pend_run (p_address pa) pend tr = Some pend' -> safe_inv (final m tr) pend'.
Proof.
  intros auto pa bufsize. induction cbs as [|c r IH]; intros m pend tr pend' HI H Hp; cbn [run_g] in H.
  - inversion H; subst. cbn in Hp. inversion Hp; subst. exact HI.
  - destruct (cstep_g pa bufsize m c) as [[x log]| |] eqn:Hc; cbn [bind] in H; try discriminate H.
    destruct (run_g auto pa bufsize _ r) as [tr'| |] eqn:Hr; cbn [bind] in H; try discriminate H.
    inversion H; subst. cbn [pend_run] in Hp.
    destruct (pend_item _ pend _) as [p1|] eqn:Hpi; [|discriminate Hp].
    pose proof (safe_step auto _ _ _ _ _ _ _ _ HI Hc Hpi) as HI'.
    unfold final. cbn [fold_left]. eapply IH; eassumption.
Qed.

Definition reply_shape (t : telegram) : Prop :=
  t = TShortConf \/ exists h pdu st s, t = TData h pdu /\ h_fc h = FcResponse st s.

Lemma admissible_shape : forall own da t, admissible own da t = true -> reply_shape t.
Proof.
  intros own da t H. destruct t as [h pdu| |]; cbn in H; [|discriminate H|left; reflexivity].
  right. destruct (h_fc h) as [|st s] eqn:E; [rewrite Bool.andb_false_r in H; discriminate H|].
  exists h, pdu, st, s. split; [reflexivity|exact E].
Qed.

Lemma receive_reply_total : forall p t,
  pe_fcb p <> FcbInactive -> reply_shape t -> exists r, p_receive_reply p t = Ok r.
Proof.
  intros p t Hf Hsh. apply p_receive_reply_defined; [exact Hf|].
  destruct Hsh as [->|(h & pdu & st & s & -> & Hfc)]; cbn; eauto.
Qed.

Lemma increment_total : forall m index a r,
  occupied_from (skipn index (dm_slots m)) index = a :: r ->
  (length (dm_slots m) <= 256)%nat -> exists x, increment_cycle m index = Ok x.
Proof.
  intros m index a r Ho Hlen. unfold increment_cycle, get_next_index. rewrite Ho.
  destruct r as [|b r']; [eexists; reflexivity|].
  assert (Hb : (b < length (dm_slots m))%nat) by (apply (pos_bound _ index); rewrite Ho; right; left; reflexivity).
  unfold bind, u8_index. destruct (Nat.ltb 255 b) eqn:E; [apply Nat.ltb_lt in E; lia|]. eexists; reflexivity.
Qed.

(* the reply to the outstanding request is processed without panic, whatever the FDL lets through as a reply *)
Lemma reply_shape_total : forall m a t,
  safe_inv m (Some a) -> reply_shape t -> exists m', dp_receive_reply m a t = Ok m'.
Proof.
  intros m a t (Hf & Hlen & Hp) Hsh. destruct (Hp a eq_refl) as (index & hd & p & Hc & Hg & Hadr).
  unfold dp_receive_reply. rewrite Hc, Hg. cbn [bind].
  assert (E : (a =? pe_addr p) = true) by (apply Z.eqb_eq; symmetry; exact Hadr). rewrite E.
  destruct (cur_slot _ _ _ _ Hc Hg) as (r & Hr & Hsl & _).
  destruct (receive_reply_total p t (Hf _ _ Hsl) Hsh) as ([p1 ev] & ->). cbn [bind].
  destruct (put_cur_facts m hd p p1 Hsl) as (_ & _ & Hpr & _). rewrite Hr in Hpr.
  unfold pos_rem in Hpr. cbn [dm_cycle put_cur set_slots] in Hpr. rewrite Hc in Hpr.
  destruct (increment_total (put_cur m hd p1) index _ _ Hpr) as ([m2 c] & Hi).
  { cbn. rewrite put_slot_length. exact Hlen. }
  unfold put_cur in Hi. rewrite Hi. cbn [bind]. eexists; reflexivity.
Qed.

Lemma reply_total : forall m a t own,
  safe_inv m (Some a) -> admissible own a t = true -> exists m', dp_receive_reply m a t = Ok m'.
Proof. intros m a t own Hs Ha. exact (reply_shape_total m a t Hs (admissible_shape _ _ _ Ha)). Qed.

Definition safe_init (m : dpm) : Prop :=
  (forall i p, slot m i = Some p -> pe_fcb p <> FcbInactive) /\ (length (dm_slots m) <= 256)%nat.

Theorem contract_safe_history : forall auto pa bufsize m0 cbs tr a t,
  safe_init m0 -> run_g auto pa bufsize m0 cbs = Ok tr ->
  pend_run (p_address pa) None tr = Some (Some a) -> admissible (p_address pa) a t = true ->
  exists m', dp_receive_reply (final m0 tr) a t = Ok m'.
Proof.
  intros auto pa bufsize m0 cbs tr a t [Hf Hlen] H Hp Ha.
  eapply reply_total; [|exact Ha].
  eapply safe_run; [|exact H|exact Hp].
  split; [exact Hf|]. split; [exact Hlen|]. intros da E; discriminate E.
Qed.

(* zero or more turns that end silently (nothing to send, no event), then: a request (the call returns
   Some), or a turn that ends with the Offline event (the call returns None: it ends after the
   first event, the next call continues with the next slot), or the end of the pass *)
Fixpoint call_shape (log : list gent) (o : txout) : Prop :=
  match log with
  | [] => o = None
  | e :: r =>
      match e with
      | GSend _ _ _ h _ => r = [] /\ exists w, o = Some (w, tx_expects_reply h)
      | GSkip _ _ _ (Some ev) => r = [] /\ o = None /\ ev = EvOffline
      | GSkip _ _ _ None => call_shape r o
      | _ => False
      end
  end.

Lemma tx_rel_shape : forall pa bufsize m m' o log, tx_rel pa bufsize m m' o log -> call_shape log o.
Proof.
  intros pa bufsize m m' o log H.
  by_turns H;
    cbn [call_shape]; try reflexivity; [| |exact IH].
  - split; [reflexivity|]. unfold send_data in Hs.
    destruct (encode_data_in bufsize h pdu) as [w| |]; inversion Hs. exists w. reflexivity.
  - destruct ev as [e|]; [|reflexivity]. destruct (transmit_spec _ _ _ _ _ Hp) as [-> _]. auto.
Qed.

Lemma call_shape_transmit : forall pa bufsize m now hp m' o log,
  dp_transmit_g pa bufsize m now hp = Ok (m', o, log) -> existsb is_gc log = false -> call_shape log o.
Proof.
  intros pa bufsize m now hp m' o log H Hgc.
  destruct (dp_transmit_g_cases _ _ _ _ _ _ _ _ H) as
    [(_ & _ & -> & ->)|[(_ & _ & _ & _ & -> & _)|(_ & _ & Hrel)]].
  - reflexivity.
  - discriminate Hgc.
  - eapply tx_rel_shape. exact Hrel.
Qed.

Lemma cycle_item_spec : forall occ rem it rem2,
  cycle_item occ rem it = Some rem2 ->
  exists rem', turn_entries rem (it_log it) = Some rem' /\
    (ev_cycle_completed (reported it) = true <-> (sched_ran it = true /\ rem' = [])) /\
    rem2 = (if ev_cycle_completed (reported it) then occ else rem').
Proof.
  intros occ rem it rem2 H. unfold cycle_item in H.
  destruct (turn_entries rem (it_log it)) as [rem'|]; [|discriminate H].
  exists rem'. split; [reflexivity|].
  destruct (sched_ran it); destruct rem' as [|a r]; cbn [andb is_nil] in H;
    destruct (ev_cycle_completed (reported it)); try discriminate H; inversion H; subst;
    (split; [split; [intro E; try discriminate E; split; reflexivity|intros [E1 E2]; try discriminate E1; try discriminate E2; reflexivity]|reflexivity]).
Qed.

Lemma cycle_completed_once_step : forall auto pa bufsize occ m rem c x log,
  cycle_inv occ m rem -> cstep_g pa bufsize m c = Ok (x, log) ->
  let it := mk_item auto m c x log in
  exists rem',
    turn_entries rem (it_log it) = Some rem' /\
    (ev_cycle_completed (reported it) = true <-> (sched_ran it = true /\ rem' = [])) /\
    cycle_inv occ (it_m it) (if ev_cycle_completed (reported it) then occ else rem').
Proof.
  intros auto pa bufsize occ m rem c x log HI H it.
  destruct (cycle_step auto pa bufsize occ m rem c x log HI H) as (rem2 & Hm & HI').
  destruct (cycle_item_spec _ _ _ _ Hm) as (rem' & Ht & Hiff & ->).
  exists rem'. split; [exact Ht|]. split; [exact Hiff|exact HI'].
Qed.

