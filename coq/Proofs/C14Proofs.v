(* C14_turn_ends: <DpMaster as FdlApplication>::transmit_telegram always returns: the slot loop of the model
   never runs out of the fuel `length slots + 2`, for every master state (any slot vector incl. empty and
   all-None, any cycle state), every parameter set and time. *)
From PB Require Import DpMaster.

Definition no_fuel {A} (r : res A) : Prop := r <> OutOfFuel.

Lemma nf_ok : forall A (a : A), no_fuel (Ok a).
Proof. intros A a H; discriminate H. Qed.
Lemma nf_panic : forall A s, no_fuel (@Panic A s).
Proof. intros A s H; discriminate H. Qed.
Lemma nf_bind : forall A B (r : res A) (f : A -> res B),
  no_fuel r -> (forall a, no_fuel (f a)) -> no_fuel (bind r f).
Proof. intros A B r f Hr Hf. destruct r; cbn; [apply Hf|apply nf_panic|now elim Hr]. Qed.
#[local] Hint Resolve nf_ok nf_panic : nf.

Lemma nf_put : forall buf i v, no_fuel (put buf i v).
Proof. intros. unfold put. destruct (Nat.ltb i (length buf)); auto with nf. Qed.

Lemma nf_put_all : forall vs buf i, no_fuel (put_all buf i vs).
Proof.
  induction vs as [|v vs IH]; intros buf i; cbn [put_all]; [auto with nf|].
  apply nf_bind; [apply nf_put|intro b; apply IH].
Qed.

Lemma nf_serialize : forall h pdu buf, no_fuel (serialize_data h pdu buf).
Proof.
  intros h pdu buf. unfold serialize_data.
  apply nf_bind; [apply nf_put|intro b0].
  apply nf_bind.
  { destruct (_ =? SD2); [|auto with nf].
    destruct (Nat.ltb 249 _); [auto with nf|]. destruct (Nat.ltb 255 _); [auto with nf|].
    repeat (apply nf_bind; [apply nf_put|intro]). auto with nf. }
  intros [b1 c1].
  repeat (apply nf_bind; [apply nf_put|intro]).
  apply nf_bind.
  { destruct (h_dsap h); [apply nf_bind; [apply nf_put|intro; auto with nf]|auto with nf]. }
  intros [b2 c2].
  apply nf_bind.
  { destruct (h_ssap h); [apply nf_bind; [apply nf_put|intro; auto with nf]|auto with nf]. }
  intros [b3 c3].
  destruct (Nat.ltb _ _); [auto with nf|].
  apply nf_bind; [apply nf_put_all|intro].
  repeat (apply nf_bind; [apply nf_put|intro]).
  destruct (negb _); auto with nf.
Qed.

Lemma nf_send_data : forall n h pdu, no_fuel (send_data n h pdu).
Proof.
  intros. unfold send_data, encode_data_in.
  apply nf_bind; [|intro; auto with nf].
  apply nf_bind; [apply nf_serialize|intros [b c]; auto with nf].
Qed.

Lemma nf_p_transmit : forall pa op p, no_fuel (p_transmit pa op p).
Proof.
  intros. unfold p_transmit. destruct (opstate_eqb op OpStop); [auto with nf|].
  destruct (p_transmit_select pa op p) as [p1 r]. destruct r; [|auto with nf].
  destruct (255 <=? pe_retry p1); auto with nf.
Qed.

Lemma nf_u8 : forall i, no_fuel (u8_index i).
Proof. intros. unfold u8_index. destruct (Nat.ltb 255 i); auto with nf. Qed.

Lemma nf_get_at_index : forall l i, no_fuel (get_at_index l i).
Proof.
  intros. unfold get_at_index. destruct (find_occupied _ _) as [[j p]|]; [|auto with nf].
  apply nf_bind; [apply nf_u8|intro; auto with nf].
Qed.

Lemma nf_get_next_index : forall l i, no_fuel (get_next_index l i).
Proof.
  intros. unfold get_next_index. destruct (occupied_from _ _) as [|a [|b r]]; auto with nf.
  apply nf_bind; [apply nf_u8|intro; auto with nf].
Qed.

Lemma nf_increment_cycle : forall m i, no_fuel (increment_cycle m i).
Proof.
  intros. unfold increment_cycle. apply nf_bind; [apply nf_get_next_index|intros [n|]; auto with nf].
Qed.

Definition occ (o : option periph) : bool := match o with Some _ => true | None => false end.

Lemma occupied_mask : forall l l' j, map occ l = map occ l' -> occupied_from l j = occupied_from l' j.
Proof.
  induction l as [|x l IH]; intros [|y l'] j H; try discriminate H; [reflexivity|].
  cbn in H. inversion H as [[Hx Hl]].
  destruct x, y; try discriminate Hx; cbn [occupied_from]; rewrite (IH l' (S j) Hl); reflexivity.
Qed.

Lemma put_slot_mask : forall l i p q, nth_error l i = Some (Some q) -> map occ (put_slot l i p) = map occ l.
Proof.
  induction l as [|x l IH]; intros i p q H; [destruct i; discriminate H|].
  destruct i; cbn in *.
  - inversion H; subst. reflexivity.
  - rewrite (IH i p q H). reflexivity.
Qed.

Lemma put_slot_occupied : forall l i p q n,
  nth_error l i = Some (Some q) ->
  occupied_from (skipn n (put_slot l i p)) n = occupied_from (skipn n l) n.
Proof.
  intros. apply occupied_mask. rewrite <- !skipn_map. rewrite (put_slot_mask l i p q H). reflexivity.
Qed.

Lemma find_occupied_nth : forall l j i p,
  find_occupied l j = Some (i, p) -> exists k, i = (j + k)%nat /\ nth_error l k = Some (Some p).
Proof.
  induction l as [|x l IH]; intros j i p H; [discriminate H|].
  destruct x as [q|]; cbn in H.
  - inversion H; subst. exists 0%nat. split; [lia|reflexivity].
  - destruct (IH _ _ _ H) as (k & Hk & Hn). exists (S k). split; [lia|exact Hn].
Qed.

Lemma nth_error_skipn' : forall A n (l : list A) k, nth_error (skipn n l) k = nth_error l (n + k).
Proof. induction n; intros [|x l] k; cbn; auto. destruct k; reflexivity. Qed.

Lemma occupied_head : forall l i b r,
  occupied_from l i = b :: r ->
  exists k, b = (i + k)%nat /\ occupied_from (skipn k l) b = b :: r.
Proof.
  induction l as [|x l IH]; intros i b r H; [discriminate H|].
  destruct x as [q|]; cbn [occupied_from] in H.
  - inversion H; subst. exists 0%nat. split; [lia|]. cbn. reflexivity.
  - destruct (IH _ _ _ H) as (k & Hk & Ho). exists (S k). split; [lia|exact Ho].
Qed.

Lemma occupied_second : forall l i a b r,
  occupied_from l i = a :: b :: r ->
  exists k, b = (i + k)%nat /\ occupied_from (skipn k l) b = b :: r.
Proof.
  induction l as [|x l IH]; intros i a b r H; [discriminate H|].
  destruct x as [q|]; cbn [occupied_from] in H.
  - injection H as Ha Hrest.
    destruct (occupied_head _ _ _ _ Hrest) as (k & Hk & Ho). exists (S k). split; [lia|exact Ho].
  - destruct (IH _ _ _ _ H) as (k & Hk & Ho). exists (S k). split; [lia|exact Ho].
Qed.

Lemma occupied_length : forall l j, (length (occupied_from l j) <= length l)%nat.
Proof. induction l as [|[q|] l IH]; intro j; cbn; [lia| |]; specialize (IH (S j)); lia. Qed.

(* measure of the loop: occupied slots at or after the cycle index *)
Definition mu (m : dpm) : nat :=
  match dm_cycle m with
  | CyCompleted => 0%nat
  | CyDataExchange i => length (occupied_from (skipn i (dm_slots m)) i)
  end.

Lemma mu_le : forall m, (mu m <= length (dm_slots m))%nat.
Proof.
  intro m. unfold mu. destruct (dm_cycle m); [|lia].
  etransitivity; [apply occupied_length|]. rewrite skipn_length. lia.
Qed.

Lemma skipn_skipn' : forall A k n (l : list A), skipn k (skipn n l) = skipn (n + k) l.
Proof. induction n; intros [|x l]; cbn; auto. destruct k; reflexivity. Qed.

Lemma get_at_index_some : forall l index hd p,
  get_at_index l index = Ok (Some (hd, p)) -> nth_error l (hd_index hd) = Some (Some p).
Proof.
  intros l index hd p H. unfold get_at_index in H.
  destruct (find_occupied (skipn index l) index) as [[i q]|] eqn:Hf; [|discriminate H].
  unfold bind, u8_index in H. destruct (Nat.ltb 255 i); [discriminate H|].
  inversion H; subst. cbn.
  destruct (find_occupied_nth _ _ _ _ Hf) as (k & Hk & Hn).
  rewrite nth_error_skipn' in Hn. subst i. exact Hn.
Qed.

Lemma increment_mu : forall m index m2,
  dm_cycle m = CyDataExchange index ->
  increment_cycle m index = Ok (m2, false) ->
  (S (mu m2) = mu m)%nat.
Proof.
  intros m index m2 Hc H. unfold increment_cycle, get_next_index in H.
  destruct (occupied_from (skipn index (dm_slots m)) index) as [|a [|b r]] eqn:Ho; cbn [bind] in H;
    try (inversion H; fail).
  unfold bind, u8_index in H. destruct (Nat.ltb 255 b); [discriminate H|].
  inversion H; subst. unfold mu. cbn [dm_cycle set_cycle dm_slots]. rewrite Hc, Ho.
  destruct (occupied_second _ _ _ _ _ Ho) as (k & Hk & Hs).
  rewrite skipn_skipn' in Hs. replace (index + k)%nat with b in Hs by lia.
  rewrite Hs. reflexivity.
Qed.

Lemma tx_loop_ends : forall fuel pa bufsize m pev,
  (mu m < fuel)%nat -> no_fuel (dp_tx_loop fuel pa bufsize m pev).
Proof.
  induction fuel as [|fuel IH]; intros pa bufsize m pev Hmu; [lia|].
  cbn [dp_tx_loop].
  destruct (dm_cycle m) as [index|] eqn:Hc; [|apply nf_ok].
  destruct (get_at_index (dm_slots m) index) as [[[hd p]|]| |] eqn:Hg; cbn [bind];
    [|apply nf_ok|apply nf_panic|exact (False_ind _ (nf_get_at_index _ _ Hg))].
  pose proof (get_at_index_some _ _ _ _ Hg) as Hnth.
  destruct (p_transmit pa (dm_op m) p) as [[p1 r]| |] eqn:Hp; cbn [bind];
    [|apply nf_panic|exact (False_ind _ (nf_p_transmit _ _ _ Hp))].
  destruct r as [h pdu|ev].
  - apply nf_bind; [apply nf_send_data|intro; apply nf_ok].
  - apply nf_bind; [destruct ev; [destruct pev|]; auto using nf_ok, nf_panic|intro pev1].
    set (m1 := set_slots m (put_slot (dm_slots m) (hd_index hd) p1)).
    destruct (increment_cycle m1 index) as [[m2 completed]| |] eqn:Hi; cbn [bind];
      [|apply nf_panic|exact (False_ind _ (nf_increment_cycle _ _ Hi))].
    destruct completed; [apply nf_ok|].
    destruct pev1; [apply nf_ok|].
    apply IH.
    assert (Hm1 : mu m1 = mu m).
    { unfold mu, m1. cbn [dm_cycle set_slots dm_slots]. rewrite Hc.
      rewrite (put_slot_occupied _ _ p1 p index Hnth). reflexivity. }
    assert (Hc1 : dm_cycle m1 = CyDataExchange index) by (unfold m1; cbn; exact Hc).
    pose proof (increment_mu _ _ _ Hc1 Hi). lia.
Qed.

Lemma dp_transmit_ends : forall pa bufsize m now hp, dp_transmit pa bufsize m now hp <> OutOfFuel.
Proof.
  intros. unfold dp_transmit.
  destruct (opstate_eqb (dm_op m) OpStop); [apply nf_ok|].
  apply nf_bind.
  { destruct hp; [apply nf_ok|]. unfold gc_due. destruct (dm_last_gc m); [|apply nf_ok].
    apply nf_bind; [|intro; apply nf_ok]. unfold instant_diff. destruct (_ || _); auto using nf_ok, nf_panic. }
  intros due. destruct due.
  - apply nf_bind; [destruct (dm_op m); auto using nf_ok, nf_panic|intro b].
    apply nf_bind; [apply nf_send_data|intro; apply nf_ok].
  - apply tx_loop_ends. unfold dp_tx_fuel. pose proof (mu_le m). lia.
Qed.
