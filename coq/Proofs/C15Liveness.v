(* C15, oracle soundness of the liveness rule R15_no_reply_no_timeout (Model/FdlOracle.v, mon_poll2):
   "in AwaitDataResponse, when the bus has brought nothing new for more than one slot time after the
   monitor's reference instant, the poll must deliver the reply or the time-out (or otherwise act)".
   The rule never fires on a transcript of the model.

   The relation between the monitor and the station while the station waits for a data reply (WA below):
     - last_bus_activity = Some l and the reference instant l_ref = Some r satisfy l <= r
       (on entry l = predicted end of the request <= r; l moves to `now` only in polls in which the monitor
       sees something happen: PHY busy, RX growth, bytes the station had not counted yet - l_spur);
     - the predicted end of the last transmission the monitor keeps (l_txend) is not later than l, so the
       monitor's "the poll looks at the receive buffer" coincides with the station's
       check_for_ongoing_transmision;
     - bytes in the PHY buffer that pending_bytes does not cover are announced by l_spur.
   With these, a poll in AwaitDataResponse that is quiet for the monitor takes the `None` branch of
   do_await_data_response with last_bus_activity = l unchanged, and check_slot_expired compares exactly
   l + Tslot < now; as r + Tslot < now and l <= r, the time-out callback is made - the rule's `acted`. *)
From Coq Require Import Arith.
From PB Require Import Common Tables FdlTables Telegram Phy TokenRing Params Fdl FdlOracle FdlProofs FdlStepProofs.
From PB Require Import C05Proofs C01Proofs C11Proofs C15Proofs C13Proofs C12Proofs.
From PB Require Import FdlOracleSound1 FdlOracleSound2 FdlOracleSound3 FdlOracleSound4 FdlOracleSound5 FdlOracleSound8.

Section Model.
Variable A : Type.
Variable ops : app_ops A.
Notation W := (world A).

Lemma do_use_token_into_adr f now (w : W) f' w' :
  do_use_token A ops f now w = Ok (f', w') -> w_tx w = None ->
  kind_of (f_state f') = KAwaitDataResponse ->
  exists wire, w_tx w' = Some wire /\ w_rx w' = w_rx w /\ f_pending f' = f_pending f /\
               f_lba f' = Some (now + dur (f_p f) (length wire)) /\ f_p f' = f_p f.
Proof.
  rewrite do_use_token_split. intros H Hw Hk.
  destruct (do_use_token_head A ops f now w) as [[f1 w1]| |] eqn:Eh; cbn [bind] in H; try discriminate H.
  destruct (is_pass_token (f_state f1)).
  { apply do_pass_token_ends in H. destruct H as [H|H]; destruct (f_state f'); discriminate. }
  injection H as <- <-. apply do_use_token_head_inv in Eh.
  destruct Eh as (tk & fa & fcd & f0 & f2 & Es & Hf0 & (Hp2 & _ & _ & _ & Hs2 & Hpd2 & _) & Hcases).
  assert (H0 : f_state f0 = f_state f /\ f_p f0 = f_p f /\ f_pending f0 = f_pending f)
    by (destruct Hf0 as [(-> & _)|(-> & _)]; repeat split; reflexivity).
  destruct H0 as (Hs0 & Hp0 & Hpd0).
  destruct Hcases as [(-> & _)|[(_ & _ & -> & _)|(hp & w2 & f3 & w3 & d & (Hr2 & Ht2 & _) & _ & Hloop & Hfin)]];
    [rewrite Hs2, Hs0, Es in Hk; discriminate Hk|discriminate Hk|].
  destruct d; [destruct Hfin as (-> & ->)|destruct Hfin as (-> & _); discriminate Hk].
  apply apps_loop_bk in Hloop. destruct (Hloop ltac:(congruence)) as (_ & wire & T3 & R3 & L3 & P3 & Q3). cbn in L3, P3, Q3.
  exists wire. split; [exact T3|]. split; [congruence|]. split; [congruence|]. split; [rewrite L3; congruence|congruence].
Qed.

Lemma adr_exact f now (w : W) f' w' a tk fa l :
  do_await_data_response A ops f now w = Ok (f', w') -> w_tx w = None ->
  f_state f = AwaitDataResponse a tk fa -> f_lba f = Some l ->
  (* still waiting: nothing complete in the buffer (or undecodable bytes, discarded), slot time not over *)
  (w_tx w' = None /\ w_calls w' = w_calls w /\ f_state f' = f_state f /\ f_lba f' = Some l /\
   f_pending f' = Nat.min (f_pending f) (length (w_rx w')) /\ ~ (l + slot_time (f_p f) < now) /\
   (w_rx w' = w_rx w \/ (w_rx w' = [] /\ w_rx w <> [])))
  \/ (* a telegram was received: reply delivered (UseToken) or token given up (ActiveIdle) *)
  (kind_of (f_state f') <> KAwaitDataResponse /\ exists t k, decode (w_rx w) = Ok (Accept t k))
  \/ (* slot time over: time-out callback, then do_use_token *)
  ((exists cl, w_calls w' = w_calls w ++ CallHandleTimeout (f_next_app f) a :: cl) /\
   (kind_of (f_state f') = KAwaitDataResponse ->
    exists wire, w_tx w' = Some wire /\ f_lba f' = Some (now + dur (f_p f) (length wire)) /\
                 f_pending f' = Nat.min (f_pending f) (length (w_rx w')))).
Proof.
  unfold do_await_data_response, assert_entry. intros H Hw Es El. rewrite Es in H.
  cbn [f_state kind_of do_fn_entry state_kind_eqb bind get_await_data_response] in H.
  destruct (nth_error (w_apps w) (f_next_app f)) as [app|]; [|discriminate H].
  destruct (receive_telegram (fun t => t) (w_rx w)) as [[rest received]| |] eqn:Er; cbn [bind] in H; try discriminate H.
  unfold receive_telegram in Er. destruct received as [t|].
  - right. left. split.
    + destruct (is_valid_response (mark_rx f now) a t).
      * destruct (a_rx ops app now _ a t) as [app'| |]; cbn [bind] in H; try discriminate H.
        match type of H with bind ?x _ = _ => destruct x as [[f2 w2]| |] eqn:E2 end; cbn [bind] in H; try discriminate H.
        apply trans_to in E2. destruct E2 as (-> & _). cbn in H. injection H as <- _. discriminate.
      * apply trans_to in H. destruct H as (-> & _). discriminate.
    + destruct (decode (w_rx w)) as [[ | |t0 k]| |]; cbn [bind] in Er; try discriminate Er. exists t0, k. reflexivity.
  - (* nothing delivered: rest = the buffer (NeedMore) or [] (Reject) *)
    assert (Hrest : rest = w_rx w \/ (rest = [] /\ w_rx w <> [])).
    { destruct (decode (w_rx w)) as [[ | |t n]| |] eqn:Ed; cbn [bind] in Er; try discriminate Er; injection Er as <-.
      - left. reflexivity.
      - right. split; [reflexivity|]. intros C. rewrite C, decode_nil in Ed. discriminate Ed. }
    set (w0 := set_rx A (if Nat.ltb (length rest) (length (w_rx w)) then note A w TReplyRxDiscard else w) rest) in *.
    assert (Hw0 : w_tx w0 = None /\ w_calls w0 = w_calls w /\ w_rx w0 = rest)
      by (subst w0; destruct (Nat.ltb _ _); cbn; tauto).
    destruct Hw0 as (T0 & C0 & R0). clearbody w0.
    (* last_bus_activity is known: check_slot_expired compares l + Tslot with now and changes nothing *)
    unfold check_slot_expired, lba_get_or_insert, inst_add, sync_pending_bytes in H. cbn [f_lba set_pending] in H. rewrite El in H.
    cbn [f_p set_pending] in H.
    destruct (i64_ok _); cbn [bind] in H; [|discriminate H].
    destruct (Z.ltb_spec (l + slot_time (f_p f)) now) as [Hexp|Hexp].
    + right. right.
      destruct (a_to ops app now _ a) as [app'| |]; cbn [bind] in H; try discriminate H.
      match type of H with bind ?x _ = _ => destruct x as [[f2 w2]| |] eqn:E2 end; cbn [bind] in H; try discriminate H.
      apply trans_to in E2. destruct E2 as (-> & ->). cbn [set_first_cycle_done f_state set_st get_use_token bind] in H.
      split.
      * pose proof (do_use_token_results A ops _ _ _ _ _ H) as (cl & Hc & _). exists cl. rewrite Hc. cbn. rewrite C0, <- app_assoc. reflexivity.
      * intros Hk. destruct (do_use_token_into_adr _ _ _ _ _ H T0 Hk) as (wire & T' & R' & P' & L' & Q').
        exists wire. split; [exact T'|]. split; [rewrite L'; reflexivity|]. rewrite P', R'. cbn. rewrite R0. reflexivity.
    + left. injection H as <- <-. cbn. rewrite R0. repeat split; try assumption. lia.
Qed.

Lemma visit_poll_dispatch f now busy rxb (apps : list A) f' o apps' calls :
  poll ops f now (mkPhyIn busy rxb) apps = Ok (f', o, apps', calls) ->
  f_conn f = ConnOnline -> in_visit (kind_of (f_state f)) = true -> (f_pending f <= length rxb)%nat ->
  let guard := busy || match f_lba f with Some l => now <=? l | None => false end in
  (guard = true /\ f' = mark_bus_activity f now /\ o = mkPhyOut None rxb /\ calls = []) \/
  (guard = false /\
   exists f3 w3 w', FdlProofs.dispatch A ops f3 now w3 = Ok (f', w') /\ o = mkPhyOut (w_tx w') (w_rx w') /\ calls = w_calls w' /\
     f_state f3 = f_state f /\ f_p f3 = f_p f /\ f_next_app f3 = f_next_app f /\ f_pending f3 = length rxb /\
     f_lba f3 = (if Nat.ltb (f_pending f) (length rxb) then f_lba (mark_bus_activity f now) else f_lba f) /\
     w_tx w3 = None /\ w_rx w3 = rxb /\ w_calls w3 = []).
Proof.
  unfold poll, poll_traced. intros H Ec Hv Hpd. cbv zeta.
  destruct (poll_inner ops f now (tx_busy (mkPhyIn busy rxb)) (mkWorld (Fdl.rx (mkPhyIn busy rxb)) None apps [] [])) as [[f1 w1]| |] eqn:E;
    cbn [bind] in H; try discriminate H.
  injection H as <- <- _ <-. cbn [tx_busy Fdl.rx] in E.
  apply poll_inner_inv in E as [(C & _)|(f0 & w0 & _ & Hpro & Hb)]; [congruence|].
  (* a token-use state is no entry state of the prologue *)
  destruct Hpro as [(-> & ->)|(s' & _ & _ & [(_ & Ek & _)|(C & _)])]; [|destruct (f_state f); discriminate|congruence].
  destruct (busy || _); [left; destruct Hb as (-> & ->); repeat split; reflexivity|right].
  destruct Hb as (f3 & w3 & Eb & Hd). split; [reflexivity|]. unfold check_for_bus_activity in Eb. cbn [w_rx] in Eb.
  exists f3, w3, w1. split; [exact Hd|]. rewrite mark_bus_activity_eq in *.
  destruct (Nat.ltb_spec (f_pending f) (length rxb)) as [Hlt|Hge]; injection Eb as <- <-; cbn; repeat split; try reflexivity. lia.
Qed.

Lemma adr_poll f now busy rxb (apps : list A) f' o apps' calls a tk fa l :
  poll ops f now (mkPhyIn busy rxb) apps = Ok (f', o, apps', calls) ->
  f_state f = AwaitDataResponse a tk fa -> f_conn f = ConnOnline -> f_lba f = Some l ->
  (f_pending f <= length rxb)%nat ->
  (* the PHY is busy or the own transmission is not over: bus activity is marked, nothing else *)
  ((busy = true \/ now <= l) /\ tx o = None /\ calls = [] /\ rx_left o = rxb /\ f_state f' = f_state f /\
   f_lba f' = Some (Z.max l now) /\ f_pending f' = f_pending f)
  \/
  (busy = false /\ l < now /\
   let l1 := if Nat.ltb (f_pending f) (length rxb) then now else l in
   ((tx o = None /\ calls = [] /\ f_state f' = f_state f /\ f_lba f' = Some l1 /\
     f_pending f' = length (rx_left o) /\ ~ (l1 + slot_time (f_p f) < now) /\
     (rx_left o = rxb \/ (rx_left o = [] /\ rxb <> [])))
    \/ (kind_of (f_state f') <> KAwaitDataResponse /\ exists t k, decode rxb = Ok (Accept t k))
    \/ ((exists cl, calls = CallHandleTimeout (f_next_app f) a :: cl) /\
        (kind_of (f_state f') = KAwaitDataResponse ->
         exists wire, tx o = Some wire /\ f_lba f' = Some (now + dur (f_p f) (length wire)) /\
                      f_pending f' = length (rx_left o))))).
Proof.
  intros H Es Ec El Hpd. apply visit_poll_dispatch in H; [|exact Ec|rewrite Es; reflexivity|exact Hpd].
  destruct (mark_bus_activity_spec f now) as (ML & MP & MS & _). rewrite El in ML. cbn [gv] in ML.
  cbv zeta in H. rewrite El in H.
  destruct H as [(Hb & -> & -> & ->)|(Hb & f3 & w3 & w' & Hd & -> & -> & S3 & Q3 & N3 & P3 & L3 & T3 & R3 & C3)].
  - left. split; [|cbn; tauto]. apply orb_true_iff in Hb. destruct Hb as [Hb|Hb]; [left; exact Hb|right; apply Z.leb_le; exact Hb].
  - right. apply orb_false_iff in Hb. destruct Hb as (-> & Hb). apply Z.leb_gt in Hb. split; [reflexivity|]. split; [exact Hb|]. cbv zeta.
    set (l1 := if Nat.ltb (f_pending f) (length rxb) then now else l).
    assert (L3' : f_lba f3 = Some l1) by (rewrite L3; unfold l1; destruct (Nat.ltb _ _); [rewrite ML; f_equal; lia|reflexivity]).
    unfold FdlProofs.dispatch in Hd. rewrite S3, Es in Hd. cbn [kind_of poll_dispatch tx rx_left].
    assert (Es3 : f_state f3 = AwaitDataResponse a tk fa) by congruence.
    destruct (adr_exact _ _ _ _ _ _ _ _ _ Hd T3 Es3 L3') as [(T' & C' & S' & L' & P' & Hne & Hrx)|[(Hk & Hdec)|((cl & Hc) & Hadr)]].
    + left. rewrite P3, R3 in *. rewrite Q3 in Hne.
      assert (Hlen : (length (w_rx w') <= length rxb)%nat) by (destruct Hrx as [-> |(-> & _)]; cbn; lia).
      split; [exact T'|]. split; [congruence|]. split; [congruence|]. split; [exact L'|].
      split; [rewrite P'; lia|]. split; [exact Hne|exact Hrx].
    + right. left. split; [exact Hk|rewrite <- R3; exact Hdec].
    + right. right. split; [exists cl; rewrite Hc, C3, N3; reflexivity|]. intros Hk.
      destruct (Hadr Hk) as (wire & T' & L' & P'). exists wire. split; [exact T'|]. split; [rewrite L', Q3; reflexivity|].
      rewrite P', P3.
      assert (Hsuf : (length (w_rx w') <= length rxb)%nat).
      { pose proof (do_await_data_response_bk A ops now _ _ _ _ Hd T3) as ((k & Ek) & _). rewrite Ek, R3, skipn_length. lia. }
      lia.
Qed.

Lemma use_poll_into_adr f now busy rxb (apps : list A) f' o apps' calls :
  poll ops f now (mkPhyIn busy rxb) apps = Ok (f', o, apps', calls) ->
  kind_of (f_state f) = KUseToken -> f_conn f = ConnOnline -> (f_pending f <= length rxb)%nat ->
  kind_of (f_state f') = KAwaitDataResponse ->
  exists wire, tx o = Some wire /\ f_lba f' = Some (now + dur (f_p f) (length wire)) /\
               f_pending f' = length (rx_left o).
Proof.
  intros H Hk0 Ec Hpd Hk. apply visit_poll_dispatch in H; [|exact Ec|rewrite Hk0; reflexivity|exact Hpd].
  destruct H as [(_ & -> & _)|(_ & f3 & w3 & w' & Hd & -> & _ & S3 & Q3 & _ & P3 & _ & T3 & R3 & _)].
  - destruct (mark_bus_activity_spec f now) as (_ & _ & MS & _). rewrite MS in Hk. congruence.
  - unfold FdlProofs.dispatch in Hd. rewrite S3 in Hd. destruct (f_state f); try discriminate Hk0. cbn [kind_of poll_dispatch] in Hd.
    destruct (do_use_token_into_adr _ _ _ _ _ Hd T3 Hk) as (wire & T' & R' & P' & L' & Q').
    exists wire. cbn [tx rx_left]. split; [exact T'|]. split; [rewrite L', Q3; reflexivity|]. rewrite P', P3, R', R3. reflexivity.
Qed.

Lemma into_adr_from f now pin (apps : list A) f' o apps' calls :
  poll ops f now pin apps = Ok (f', o, apps', calls) ->
  kind_of (f_state f') = KAwaitDataResponse ->
  kind_of (f_state f) = KUseToken \/ kind_of (f_state f) = KAwaitDataResponse.
Proof.
  intros H Hk. destruct (in_visit (kind_of (f_state f))) eqn:Hin.
  - destruct (f_state f); try discriminate Hin; [left|right]; reflexivity.
  - destruct (poll_outside_visit A ops _ _ _ _ _ _ _ _ H Hin) as (_ & _ & _ & Hf).
    rewrite Hf in Hk; [discriminate Hk|]. destruct (f_state f'); try discriminate Hk; reflexivity.
Qed.

End Model.

Section Sound.
Variable A : Type.
Variable ops : app_ops A.
Variable p : params.
Variable n : nat.

(* The relation between the second monitor and a station that waits for a data reply; buf = the PHY
   receive buffer between the polls. *)
Definition WA (f : fdl) (buf : bytes) (g : mon2) : Prop :=
  kind_of (f_state f) = KAwaitDataResponse ->
  exists l r, f_lba f = Some l /\ l_ref g = Some r /\ l <= r /\
    (forall e, l_txend g = Some e -> e <= l) /\
    ((f_pending f < length buf)%nat -> l_spur g = true).

Lemma ref1_facts m g s r : l_ref g = Some r ->
  exists r1, y_ref1 m g s = Some r1 /\ r <= r1 /\ (y_happened m g s = true -> y_now s <= r1).
Proof.
  intros Hr. unfold y_ref1. rewrite Hr. destruct (y_happened m g s); cbn [zmax_opt].
  - eexists. split; [reflexivity|]. split; [lia|]. intros _. lia.
  - exists r. split; [reflexivity|]. split; [lia|]. discriminate.
Qed.

Lemma WA_enter m g now busy rxb f' o calls wire l :
  tx o = Some wire -> f_lba f' = Some l -> l = now + dur p (length wire) ->
  f_pending f' = length (rx_left o) ->
  WA f' (rx_left o) (y_g' p n m g (poll_event now busy rxb f' o calls)).
Proof.
  intros Etx El Hl Hpd _. set (s := poll_event now busy rxb f' o calls).
  change (l_ref (y_g' p n m g s)) with (y_ref2 p m g s).
  change (l_txend (y_g' p n m g s)) with (y_txend p g s).
  change (l_spur (y_g' p n m g s)) with (y_spur m g s).
  assert (Hte : y_tx_end p s = Some l).
  { unfold y_tx_end, y_now. cbn [s poll_event s_tx FdlOracle.s_now]. rewrite Etx, dur_is_prop, Hl. reflexivity. }
  unfold y_ref2, y_txend. rewrite Hte.
  exists l, (zmax_opt (y_ref1 m g s) l). split; [exact El|]. split; [reflexivity|].
  split; [destruct (y_ref1 m g s); cbn; lia|]. split; [intros e He; injection He as <-; lia|]. lia.
Qed.

Section Poll.
Variables (f : fdl) (apps : list A) (buf : bytes) (tl : Z) (m : mon) (g : mon2).
Variables (now : Z) (busy : bool) (nb : bytes) (f' : fdl) (o : phy_out) (apps' : list A) (calls : list call).
Hypothesis HB : Base A p n f apps buf tl m.
Hypothesis HU : UB f tl g.
Hypothesis HW : WA f buf g.
Hypothesis Hlt : tl < now.
Hypothesis E : poll ops f now (mkPhyIn busy (buf ++ nb)) apps = Ok (f', o, apps', calls).

Let s := poll_event now busy (buf ++ nb) f' o calls.

Lemma s_facts :
  y_now s = now /\ s_busy s = busy /\ s_rx s = buf ++ nb /\ s_tx s = tx o /\
  y_k0 m = kind_of (f_state f) /\ y_k1 s = kind_of (f_state f') /\
  y_grew m s = Nat.ltb (length buf) (length (buf ++ nb)) /\ f_p f = p /\ (f_pending f <= length (buf ++ nb))%nat.
Proof.
  pose proof (x_k0_base A p n _ _ _ _ _ HB) as Hk0. destruct HB as [R Hp Hn Hv Hl Hpd Hb Htl].
  repeat split; try reflexivity; try assumption.
  - unfold y_grew. rewrite Hl. reflexivity.
  - rewrite app_length. lia.
Qed.

(* while now <= last_bus_activity the monitor does not count the poll as looking (by UB); converse: looks_when *)
Lemma predicted_not_looks l : f_lba f = Some l -> now <= l -> y_looks g s = false.
Proof.
  intros El Hle. unfold y_looks, y_ongoing. destruct s_facts as (Hn & _).
  destruct (HU l El) as [H|(e & He & H)]; [lia|]. rewrite He, Hn.
  destruct (Z.leb_spec now e); [apply andb_false_r|lia].
Qed.

Lemma looks_when l : f_lba f = Some l -> (forall e, l_txend g = Some e -> e <= l) -> busy = false -> l < now ->
  y_looks g s = true.
Proof.
  intros El Ht Hb Hl. unfold y_looks, y_ongoing. destruct s_facts as (Hn & Hbs & _). rewrite Hbs, Hb, Hn.
  destruct (l_txend g) as [e|]; [|reflexivity]. specialize (Ht e eq_refl).
  destruct (Z.leb_spec now e); [lia|reflexivity].
Qed.

Lemma uncounted_happened l : f_lba f = Some l -> (forall e, l_txend g = Some e -> e <= l) ->
  ((f_pending f < length buf)%nat -> l_spur g = true) -> busy = false -> l < now ->
  (f_pending f < length (buf ++ nb))%nat -> y_grew m s = true \/ y_spur_now g s = true.
Proof.
  intros El Ht Hsp Hb Hl Hun. destruct s_facts as (_ & _ & Hrx & _ & _ & _ & Hg & _).
  destruct (Nat.ltb_spec (length buf) (length (buf ++ nb))) as [Hgr|Hng]; [left; exact Hg|].
  right. unfold y_spur_now. rewrite (looks_when l El Ht Hb Hl), Hrx, Hsp by lia.
  destruct (buf ++ nb); [cbn in Hun; lia|reflexivity].
Qed.

Lemma live_ok : ~ In R15_no_reply_no_timeout (y_e_live p m g s).
Proof.
  intros Hin. unfold y_e_live in Hin.
  destruct (y_quiet m g s && y_expired p g s && negb (y_acted m s)) eqn:Ec; [|contradiction].
  apply in_app_or in Hin. destruct Hin as [Hin|Hin].
  { destruct (y_waiting_c12 m); [destruct Hin as [C|[]]; discriminate C|contradiction]. }
  apply in_app_or in Hin. destruct Hin as [Hin|Hin].
  { destruct (state_kind_eqb (y_k0 m) KCheckTokenPass); [destruct Hin as [C|[]]; discriminate C|contradiction]. }
  destruct (state_kind_eqb (y_k0 m) KAwaitDataResponse) eqn:Ek; [|contradiction]. clear Hin.
  destruct s_facts as (Hn & Hbs & Hrx & Htx & Hk0 & Hk1 & Hg & Hp & Hpd).
  rewrite Hk0 in Ek.
  destruct (f_state f) as [ | | | | | |a tk fa| | | ] eqn:Es; try discriminate Ek.
  destruct (HW ltac:(rewrite Es; reflexivity)) as (l & r & El & Er & Hlr & Ht & Hsp).
  assert (Hconn : f_conn f = ConnOnline).
  { pose proof (rep_conn _ _ (b_rep _ _ _ _ _ _ _ _ HB)) as C. rewrite Es in C. exact C. }
  apply andb_true_iff in Ec. destruct Ec as (Ec & Hact). apply andb_true_iff in Ec. destruct Ec as (Hq & Hexp).
  unfold y_quiet in Hq. apply andb_true_iff in Hq. destruct Hq as (Hq & Hnsp). apply andb_true_iff in Hq. destruct Hq as (Hlooks & Hngr).
  apply negb_true_iff in Hnsp, Hngr, Hact.
  unfold y_expired in Hexp. rewrite Er, Hn in Hexp. apply Z.ltb_lt in Hexp.
  unfold y_acted in Hact. apply orb_false_iff in Hact. destruct Hact as (Hact & _).
  apply orb_false_iff in Hact. destruct Hact as (Hact & Hcalls).
  apply orb_false_iff in Hact. destruct Hact as (Hact & Htxn).
  apply orb_false_iff in Hact. destruct Hact as (Hcons & Hkk).
  apply negb_false_iff in Hkk. rewrite Hk0, Hk1 in Hkk. cbn [kind_of] in Hkk.
  assert (Hcalls' : calls = []) by (cbn [s poll_event s_calls] in Hcalls; destruct calls; [reflexivity|discriminate Hcalls]).
  assert (Hbusy : busy = false).
  { unfold y_looks in Hlooks. rewrite Hbs in Hlooks. destruct busy; [discriminate Hlooks|reflexivity]. }
  destruct (adr_poll A ops _ _ _ _ _ _ _ _ _ _ _ _ _ E Es Hconn El Hpd) as [([Hb|Hb] & _)|(_ & Hl & Hcase)].
  - congruence.
  - rewrite (predicted_not_looks l El Hb) in Hlooks. discriminate Hlooks.
  - cbv zeta in Hcase. destruct Hcase as [(_ & _ & _ & _ & _ & Hne & _)|[(Hk & _)|((cl & Hc) & _)]].
    + destruct (Nat.ltb_spec (f_pending f) (length (buf ++ nb))) as [Hun|_].
      * destruct (uncounted_happened l El Ht Hsp Hbusy Hl Hun); congruence.
      * rewrite Hp in Hne. lia.
    + apply Hk. destruct (f_state f'); try discriminate Hkk. reflexivity.
    + rewrite Hcalls' in Hc. discriminate Hc.
Qed.

Lemma wa_poll : WA f' (rx_left o) (y_g' p n m g s).
Proof.
  intros Hk'.
  destruct s_facts as (Hn & Hbs & Hrx & Htx & Hk0 & Hk1 & Hg & Hp & Hpd).
  pose proof (b_rep _ _ _ _ _ _ _ _ HB) as R.
  destruct (into_adr_from A ops _ _ _ _ _ _ _ _ E Hk') as [Hu|Ha].
  - assert (Hconn : f_conn f = ConnOnline).
    { pose proof (rep_conn _ _ R) as C. destruct (f_state f); try discriminate Hu. exact C. }
    destruct (use_poll_into_adr A ops _ _ _ _ _ _ _ _ _ E Hu Hconn Hpd Hk') as (wire & Etx & El' & Hpd').
    eapply (WA_enter m g now busy (buf ++ nb) f' o calls wire); [exact Etx|exact El'|rewrite Hp; reflexivity|exact Hpd'|exact Hk'].
  - destruct (f_state f) as [ | | | | | |a tk fa| | | ] eqn:Es; try discriminate Ha.
    destruct (HW ltac:(rewrite Es; reflexivity)) as (l & r & El & Er & Hlr & Ht & Hsp).
    assert (Hconn : f_conn f = ConnOnline) by (pose proof (rep_conn _ _ R) as C; rewrite Es in C; exact C).
    change (l_ref (y_g' p n m g s)) with (y_ref2 p m g s).
    change (l_txend (y_g' p n m g s)) with (y_txend p g s).
    change (l_spur (y_g' p n m g s)) with (y_spur m g s).
    destruct (ref1_facts m g s r Er) as (r1 & Er1 & Hr1 & Hhap). rewrite Hn in Hhap.
    destruct (adr_poll A ops _ _ _ _ _ _ _ _ _ _ _ _ _ E Es Hconn El Hpd)
      as [(Hb & Etx & Hc & Hrl & Hs' & El' & Hpd')|(Hbusy & Hl & Hcase)].
    + (* bus activity marked, nothing else *)
      assert (Hte : y_tx_end p s = None) by (unfold y_tx_end; rewrite Htx, Etx; reflexivity).
      unfold y_ref2, y_txend. rewrite Hte, Er1.
      exists (Z.max l now), r1. split; [exact El'|]. split; [reflexivity|].
      assert (Hnl : y_looks g s = false).
      { destruct Hb as [Hb|Hb]; [unfold y_looks; rewrite Hbs, Hb; reflexivity|exact (predicted_not_looks l El Hb)]. }
      split; [|split].
      * destruct Hb as [Hb|Hb]; [|lia].
        assert (Hh : y_happened m g s = true) by (unfold y_happened; rewrite Hbs, Hb; rewrite !orb_true_r; reflexivity).
        specialize (Hhap Hh). lia.
      * intros e He. specialize (Ht e He). lia.
      * intros Hun. rewrite Hrl, Hpd' in Hun. unfold y_spur, y_consumed.
        cbn [s poll_event s_consumed]. rewrite Hrl, Nat.sub_diag. cbn [Nat.eqb negb]. fold s. rewrite Hnl.
        destruct (Nat.ltb_spec (f_pending f) (length buf)) as [H1|H1]; [rewrite (Hsp H1); reflexivity|].
        rewrite Hg. replace (Nat.ltb (length buf) (length (buf ++ nb))) with true by (symmetry; apply Nat.ltb_lt; lia).
        apply orb_true_r.
    + cbv zeta in Hcase. destruct Hcase as [(Etx & Hc & Hs' & El' & Hpd' & Hne & Hrl)|[(Hk & _)|(_ & Hadr)]].
      * assert (Hte : y_tx_end p s = None) by (unfold y_tx_end; rewrite Htx, Etx; reflexivity).
        unfold y_ref2, y_txend. rewrite Hte, Er1.
        eexists. exists r1. split; [exact El'|]. split; [reflexivity|]. split; [|split].
        -- destruct (Nat.ltb_spec (f_pending f) (length (buf ++ nb))) as [Hun|_]; [|lia].
           assert (Hh : y_happened m g s = true).
           { unfold y_happened. destruct (uncounted_happened l El Ht Hsp Hbusy Hl Hun) as [X|X]; rewrite X; rewrite ?orb_true_r; reflexivity. }
           exact (Hhap Hh).
        -- intros e He. specialize (Ht e He). destruct (Nat.ltb (f_pending f) (length (buf ++ nb))); lia.
        -- lia.
      * contradiction.
      * destruct (Hadr Hk') as (wire & Etx & El' & Hpd').
        eapply (WA_enter m g now busy (buf ++ nb) f' o calls wire); [exact Etx|exact El'|rewrite Hp; reflexivity|exact Hpd'|exact Hk'].
Qed.

End Poll.

Lemma wa_api a f f' buf m g v : api_result p a f = Ok f' -> WA f buf g -> WA f' buf (snd (mon_after_api a v m g)).
Proof.
  intros E HW.
  assert (Hnew : forall p0 f1 g1, fdl_new p0 = Ok f1 -> WA f1 buf g1).
  { intros p0 f1 g1 E1 Hk. destruct (fdl_new_fields _ _ E1) as (S1 & _). rewrite S1 in Hk. discriminate Hk. }
  destruct a; cbn [api_result mon_after_api snd] in *.
  - eapply Hnew. exact E.
  - unfold set_online, set_state in E. injection E as <-. exact HW.
  - unfold set_offline, set_state in E. eapply Hnew. exact E.
  - discriminate E.
Qed.

End Sound.

Section Thm.
Variable A : Type.
Variable ops : app_ops A.
Variable p : params.
Hypothesis Happs : apps_total A ops.
Hypothesis Hbv : builder_valid p.
Hypothesis Hdata : app_sends_data A ops.

Definition JL (n : nat) (f : fdl) (apps : list A) (buf : bytes) (tl : Z) (m : mon) (g : mon2) : Prop :=
  J5 A p n f apps buf tl m g /\ UB f tl g /\ WA f buf g.

(* C15, FULL: no rule of C15 fires on a transcript of the model, for ALL input histories - the liveness rule
   R15_no_reply_no_timeout included *)
Theorem c15_oracle_sound (apps : list A) (ins : list minput) :
  ins_ok 0 ins ->
  forall k r, In (k, r) (monitor p (length apps) (model_transcript A ops p apps ins)) -> rule_prop r <> PC15.
Proof.
  intros Hok.
  apply (generic_sound_transcript A ops p (length apps) (fun r => rule_prop r <> PC15) (JL (length apps)) (fun _ => True));
    try assumption; try reflexivity.
  - discriminate.
  - intros a f apps0 buf tl m g f' ((HB & c & HV) & HU & HW) E _. split; [split; [eapply base_api; eassumption|]|split].
    + eapply vi_api; eassumption.
    + eapply ub_api; eassumption.
    + eapply wa_api; eassumption.
  - intros f apps0 buf tl m g now busy nb f' o apps' calls (HJ & HU & HW) Hlt Hnow Hnb E _.
    pose proof HJ as (HB & _).
    destruct (J5_poll A ops p (length apps) Happs Hbv Hdata _ _ _ _ _ _ _ _ _ _ _ _ _ HJ Hlt Hnow Hnb E)
      as ((c' & Hf & H15 & H13 & Hrr & Hend & HV') & HB').
    split; [|split; [|split; [split; [exact HB'|exists c'; rewrite fst_mon_poll, mon_poll2_eq; exact HV']|split]]].
    + apply (mon_poll_errs_other PC15); try discriminate; [rewrite Hf; apply onlyp_nil|intros _; exact H15].
    + intros r Hr Hp15. rewrite mon_poll2_eq in Hr. cbn [snd] in Hr.
      apply in_app_or in Hr; destruct Hr as [Hr|Hr]; [pose proof (y_e_found_only _ _ _ _ r Hr) as C; rewrite Hp15 in C; discriminate C|].
      apply in_app_or in Hr; destruct Hr as [Hr|Hr]; [pose proof (y_e_tok_only _ _ _ r Hr) as C; rewrite Hp15 in C; discriminate C|].
      apply in_app_or in Hr; destruct Hr as [Hr|Hr]; [pose proof (y_e_sweep_only _ _ _ _ r Hr) as C; rewrite Hp15 in C; discriminate C|].
      apply in_app_or in Hr; destruct Hr as [Hr|Hr]; [rewrite H13 in Hr; contradiction|].
      apply in_app_or in Hr; destruct Hr as [Hr|Hr]; [pose proof (y_e_scan_only _ _ _ _ r Hr) as C; rewrite Hp15 in C; discriminate C|].
      apply in_app_or in Hr; destruct Hr as [Hr|Hr]; [rewrite Hrr in Hr; contradiction|].
      apply in_app_or in Hr; destruct Hr as [Hr|Hr]; [rewrite Hend in Hr; contradiction|].
      apply in_app_or in Hr; destruct Hr as [Hr|Hr]; [|pose proof (y_e_backoff_only _ _ _ _ r Hr) as C; rewrite Hp15 in C; discriminate C].
      (* the liveness group *)
      assert (Hr15 : r = R15_no_reply_no_timeout).
      { unfold y_e_live in Hr.
        destruct (y_quiet m g _ && y_expired p g _ && negb (y_acted m _)); [|contradiction].
        apply in_app_or in Hr; destruct Hr as [Hr|Hr].
        { destruct (y_waiting_c12 m); [destruct Hr as [<-|[]]; discriminate Hp15|contradiction]. }
        apply in_app_or in Hr; destruct Hr as [Hr|Hr].
        { destruct (state_kind_eqb _ _); [destruct Hr as [<-|[]]; discriminate Hp15|contradiction]. }
        destruct (state_kind_eqb _ _); [destruct Hr as [<-|[]]; reflexivity|contradiction]. }
      subst r. exact (live_ok A ops p (length apps) _ _ _ _ _ _ _ _ _ _ _ _ _ HB HU HW Hlt E Hr).
    + rewrite mon_poll2_eq. cbn [fst]. eapply ub_poll; try eassumption. lia.
    + rewrite mon_poll2_eq. cbn [fst]. exact (wa_poll A ops p (length apps) _ _ _ _ _ _ _ _ _ _ _ _ _ HB HU HW Hlt E).
  - intros f0 apps0 E Hn _. split; [apply J5_init; assumption|]. destruct (fdl_new_fields _ _ E) as (S1 & _ & L1 & _). split.
    + intros l El. rewrite L1 in El. discriminate El.
    + intros Hk. rewrite S1 in Hk. discriminate Hk.
  - unfold transcript_ok. destruct (fdl_new p); [split; [exact I|apply run_ok_true]|exact I|exact I].
Qed.

End Thm.
