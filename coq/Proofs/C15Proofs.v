(* C15 - application contract, routing and round-robin, over ARBITRARY histories of the FDL station model
   (Model/Fdl.v), for arbitrary applications (statements: Properties/C15.v).  One monitor (cpre / cpost) runs
   over the history of a station; its invariant Inv is kept by every poll: the do_* functions that call no
   application leave everything the monitor sees alone, the two that do are followed call by call. *)
From Coq Require Import Arith.
From PB Require Import Common Tables FdlTables Telegram Phy TokenRing Params Fdl FdlProofs FdlStepProofs.

(* token-use states: the station holds the token and serves its applications *)
Definition in_visit (k : state_kind) : bool :=
  match k with KUseToken | KAwaitDataResponse => true | _ => false end.

Lemma in_visit_have_token (k : state_kind) : in_visit k = true -> have_token_kind k = true.
Proof. destruct k; cbn; intros H; try discriminate H; reflexivity. Qed.

(* How a visit ends.  do_use_token passes the token in the same poll that finds nothing (more) to send
   (it ends in do_pass_token), so the poll that ends a visit leaves the station in what do_pass_token
   leaves: a token-passing state (PassToken while the synchronisation pause lasts, AwaitStatusResponse
   after a GAP request, CheckTokenPass after the token telegram), or - when the station is its own
   successor - the first state of its next visit (UseToken, no first_app, no cycle done). *)
Definition pass_kind (k : state_kind) : bool :=
  match k with KPassToken | KAwaitStatusResponse | KCheckTokenPass => true | _ => false end.
Definition fresh_visit (s : state) : bool :=
  match s with UseToken _ None false => true | _ => false end.

(* One item of a station history: an application callback, the end of a poll (time of the poll and
   the station as it is afterwards), the re-creation of the station by set_offline. *)
Inductive hitem : Type :=
| HCall (c : call)
| HEnd (now : Z) (f : fdl)
| HReset.

Definition calls_of (h : list hitem) : list call :=
  flat_map (fun x => match x with HCall c => [c] | _ => [] end) h.

Lemma calls_of_app h1 h2 : calls_of (h1 ++ h2) = calls_of h1 ++ calls_of h2.
Proof. unfold calls_of. apply flat_map_app. Qed.

Lemma calls_of_map l : calls_of (map HCall l) = l.
Proof. induction l as [|c l IH]; [reflexivity|]. cbn. f_equal. exact IH. Qed.

Section Acceptor.
Variable S : Type.
Variable pre : S -> hitem -> Prop.
Variable post : S -> hitem -> S.

Fixpoint accepts (m : S) (h : list hitem) : Prop :=
  match h with
  | [] => True
  | x :: h' => pre m x /\ accepts (post m x) h'
  end.

Definition posts (m : S) (h : list hitem) : S := fold_left post h m.

Lemma accepts_app m h1 h2 : accepts m (h1 ++ h2) <-> accepts m h1 /\ accepts (posts m h1) h2.
Proof.
  revert m. induction h1 as [|x h1 IH]; intros m; cbn.
  - tauto.
  - rewrite IH. tauto.
Qed.

Lemma posts_app m h1 h2 : posts m (h1 ++ h2) = posts (posts m h1) h2.
Proof. unfold posts. apply fold_left_app. Qed.
End Acceptor.
Arguments accepts {S}. Arguments posts {S}.

Lemma accepts_sim {S1 S2 : Type} (pre1 : S1 -> hitem -> Prop) (post1 : S1 -> hitem -> S1)
      (pre2 : S2 -> hitem -> Prop) (post2 : S2 -> hitem -> S2) (proj : S1 -> S2) :
  (forall m x, pre1 m x -> pre2 (proj m) x /\ proj (post1 m x) = post2 (proj m) x) ->
  forall h m, accepts pre1 post1 m h -> accepts pre2 post2 (proj m) h /\ proj (posts post1 m h) = posts post2 (proj m) h.
Proof.
  intros Hsim. induction h as [|x h IH]; intros m Hacc; cbn in *.
  - split; [exact I|reflexivity].
  - destruct Hacc as [Hp Hrest]. destruct (Hsim m x Hp) as [Hp2 Heq].
    destruct (IH _ Hrest) as [Ha2 Hpost]. rewrite Heq in Ha2, Hpost. split; [split; assumption|exact Hpost].
Qed.

Record cst : Set := mkCst {
  c_kind : state_kind;            (* state of the station when the current poll began *)
  c_out : option (nat * Z);       (* outstanding request: (application, addressed station) *)
  c_turn : nat;                   (* the application whose turn it is *)
  c_decl : nat                    (* applications that declined since the first decline of this visit *)
}.

Definition cst_init : cst := mkCst KOffline None 0 0.

(* n = number of applications, tsa = address of this station *)
Definition cpre (n : nat) (tsa : Z) (m : cst) (x : hitem) : Prop :=
  match x with
  | HCall (CallTransmit i hp r) =>
      (* asked only while the token is held, no request is outstanding, it is i's turn, and not
         everybody has declined already *)
      in_visit (c_kind m) = true /\ c_out m = None /\ i = c_turn m /\ (i < n)%nat /\ (c_decl m < n)%nat
  | HCall (CallReceiveReply i a t) =>
      c_kind m = KAwaitDataResponse /\ c_out m = Some (i, a) /\ i = c_turn m /\ reply_ok tsa a t
  | HCall (CallHandleTimeout i a) =>
      c_kind m = KAwaitDataResponse /\ c_out m = Some (i, a) /\ i = c_turn m
  | HEnd now f =>
      let k' := kind_of (f_state f) in
      (* the station waits for a reply exactly while a request is outstanding; an outstanding request
         is dropped without callback only when the station loses the token (back to ActiveIdle) *)
      (k' = KAwaitDataResponse -> c_out m <> None) /\
      (c_out m <> None -> k' = KAwaitDataResponse \/ k' = KActiveIdle) /\
      (* once all applications have declined, the token is passed (in this very poll) ... *)
      (in_visit (c_kind m) = true -> (0 < n)%nat -> c_decl m = n ->
         pass_kind k' = true \/ fresh_visit (f_state f) = true) /\
      (* ... and it is passed only then, or when the hold time is over (a first-visit state with declines
         counted can only be the next visit of a station that passed the token to itself) *)
      (in_visit (c_kind m) = true ->
         pass_kind k' = true \/ (fresh_visit (f_state f) = true /\ c_decl m <> 0%nat) ->
         c_decl m = n \/ f_end_tht f <= now)
  | HReset => True
  end.

Definition cpost (n : nat) (m : cst) (x : hitem) : cst :=
  match x with
  | HCall (CallTransmit i hp r) =>
      match r with
      | None => mkCst (c_kind m) (c_out m) (Nat.modulo (i + 1) n) (S (c_decl m))   (* a decline ends the turn *)
      | Some (_, None) => m                                                         (* sent, no reply expected: keeps the turn *)
      | Some (_, Some da) => mkCst (c_kind m) (Some (i, da)) (c_turn m) (c_decl m)
      end
  | HCall (CallReceiveReply _ _ _) | HCall (CallHandleTimeout _ _) =>
      mkCst (c_kind m) None (c_turn m) (c_decl m)
  | HEnd now f =>
      let k' := kind_of (f_state f) in
      mkCst k'
            (match k' with KAwaitDataResponse => c_out m | _ => None end)
            (match k' with KOffline => 0%nat | _ => c_turn m end)                    (* a station that dropped offline was re-created *)
            (if in_visit k' then (if in_visit (c_kind m) then (if fresh_visit (f_state f) then 0%nat else c_decl m) else 0%nat) else 0%nat)
  | HReset => cst_init
  end.

Lemma mod_shift (n first k : nat) : (first < n)%nat -> (k <= n)%nat ->
  (Nat.modulo (first + k) n = first <-> k = 0%nat \/ k = n).
Proof.
  intros Hf Hk. destruct (lt_dec (first + k) n) as [L|L].
  - rewrite Nat.mod_small by exact L. lia.
  - replace (Nat.modulo (first + k) n) with (first + k - n)%nat by (apply Nat.mod_unique with 1%nat; lia). lia.
Qed.

(* Between two polls of a visit: no application has declined yet (first_app = None), or the
   applications first, first+1, ..., first+d-1 (mod n) have declined, 0 < d < n, and the next one is
   first+d (mod n). *)
Definition visit_inv (n : nat) (fa : option nat) (next d : nat) : Prop :=
  match fa with
  | None => d = 0%nat
  | Some first => (first < n)%nat /\ (0 < d < n)%nat /\ next = Nat.modulo (first + d) n
  end.

(* one more decline: schedule_next_application reports "cycle completed" exactly when all n have
   declined *)
Lemma decline_step n fa next d : (next < n)%nat -> visit_inv n fa next d ->
  let first := match fa with Some x => x | None => next end in
  let next' := Nat.modulo (next + 1) n in
  if Nat.eqb next' first then S d = n else visit_inv n (Some first) next' (S d).
Proof.
  intros Hn Hv. cbn zeta.
  (* in both cases next is first + d modulo n, so the next one is first + S d *)
  assert (H : exists first, first = match fa with Some x => x | None => next end /\ (first < n)%nat /\ (d < n)%nat /\
                            Nat.modulo (next + 1) n = Nat.modulo (first + S d) n).
  { destruct fa as [first|]; cbn in Hv.
    - destruct Hv as (Hf & Hd & ->). exists first. repeat split; try lia. rewrite Nat.add_mod_idemp_l by lia. f_equal. lia.
    - subst d. exists next. repeat split; lia. }
  destruct H as (first & <- & Hf & Hd & ->). pose proof (mod_shift n first (S d) Hf ltac:(lia)) as Hs.
  destruct (Nat.eqb_spec (Nat.modulo (first + S d) n) first) as [E|E]; [apply Hs in E; lia|].
  split; [exact Hf|]. split; [|reflexivity]. assert (S d <> n) by (intros C; apply E, Hs; right; exact C). lia.
Qed.

Lemma length_replace_nth {X} (l : list X) i x : length (replace_nth l i x) = length l.
Proof. revert i. induction l as [|h t IH]; intros [|i]; cbn; try reflexivity. rewrite IH. reflexivity. Qed.

Definition acalls (n : nat) (tsa : Z) (m : cst) (l : list call) : Prop :=
  accepts (cpre n tsa) (cpost n) m (map HCall l).
Definition mcalls (n : nat) (m : cst) (l : list call) : cst := posts (cpost n) m (map HCall l).

Lemma mcalls_kind n l : forall m, c_kind (mcalls n m l) = c_kind m.
Proof.
  induction l as [|c l IH]; intros m; [reflexivity|].
  change (mcalls n m (c :: l)) with (mcalls n (cpost n m (HCall c)) l). rewrite IH.
  destruct c as [i hp [[wire [da|]]|]|i a t|i a]; reflexivity.
Qed.

Lemma acalls_app n tsa m l1 l2 : acalls n tsa m (l1 ++ l2) <-> acalls n tsa m l1 /\ acalls n tsa (mcalls n m l1) l2.
Proof. unfold acalls, mcalls. rewrite map_app. apply accepts_app. Qed.
Lemma mcalls_app n m l1 l2 : mcalls n m (l1 ++ l2) = mcalls n (mcalls n m l1) l2.
Proof. unfold mcalls. rewrite map_app. apply posts_app. Qed.

Definition inv_st (n : nat) (f : fdl) (m : cst) : Prop :=
  match f_state f with
  | UseToken _ fa _ => c_out m = None /\ visit_inv n fa (f_next_app f) (c_decl m)
  | AwaitDataResponse a _ fa => c_out m = Some (f_next_app f, a) /\ visit_inv n fa (f_next_app f) (c_decl m)
  | Offline => c_out m = None /\ f_next_app f = 0%nat
  | _ => c_out m = None
  end.

(* The invariant between two events: the monitor knows the state kind, whose turn it is, the outstanding
   request, and how many applications have declined in this visit. *)
Definition Inv (n : nat) (f : fdl) (m : cst) : Prop :=
  c_kind m = kind_of (f_state f) /\ c_turn m = f_next_app f /\ inv_st n f m.

(* C15_contract - what ONE application (index i) may rely on.  Its state: idle, or waiting for the reply
   to the request it sent to da; k = state of the station when the current poll began. *)
Inductive app_st : Set := AppIdle | AppWaiting (da : Z).

Definition apre (tsa : Z) (i : nat) (s : app_st * state_kind) (x : hitem) : Prop :=
  match x with
  | HCall (CallTransmit j hp r) =>
      (* whoever is asked: the token is held and application i is not waiting for a reply *)
      fst s = AppIdle /\ in_visit (snd s) = true
  | HCall (CallReceiveReply j a t) => j = i -> fst s = AppWaiting a /\ reply_ok tsa a t
  | HCall (CallHandleTimeout j a) => j = i -> fst s = AppWaiting a
  | HEnd now f =>
      (* a request stays outstanding across polls only in AwaitDataResponse; it is dropped without a
         callback only when the station loses the token *)
      match fst s with
      | AppWaiting _ => kind_of (f_state f) = KAwaitDataResponse \/ kind_of (f_state f) = KActiveIdle
      | AppIdle => True
      end
  | HReset => True
  end.

Definition apost (i : nat) (s : app_st * state_kind) (x : hitem) : app_st * state_kind :=
  match x with
  | HCall (CallTransmit j hp r) =>
      if Nat.eqb j i then (match r with Some (_, Some da) => AppWaiting da | _ => AppIdle end, snd s) else s
  | HCall (CallReceiveReply j _ _) | HCall (CallHandleTimeout j _) => if Nat.eqb j i then (AppIdle, snd s) else s
  | HEnd now f =>
      (match fst s, kind_of (f_state f) with AppWaiting da, KAwaitDataResponse => AppWaiting da | _, _ => AppIdle end,
       kind_of (f_state f))
  | HReset => (AppIdle, KOffline)
  end.

Definition app_view (i : nat) (m : cst) : app_st * state_kind :=
  (match c_out m with Some (j, da) => if Nat.eqb j i then AppWaiting da else AppIdle | None => AppIdle end, c_kind m).

Lemma app_view_sim n tsa i m x :
  cpre n tsa m x -> apre tsa i (app_view i m) x /\ app_view i (cpost n m x) = apost i (app_view i m) x.
Proof.
  unfold app_view. destruct x as [[j hp r|j a t|j a]|now f|]; cbn.
  - intros [Hv [Ho [Hj [Hn Hd]]]]. rewrite Ho. split; [split; [reflexivity|exact Hv]|].
    destruct r as [[wire [da|]]|]; cbn; rewrite ?Ho; destruct (Nat.eqb j i); reflexivity.
  - intros [Hk [Ho [Hj Hr]]]. rewrite Ho. split.
    + intros ->. rewrite Nat.eqb_refl. split; [reflexivity|exact Hr].
    + destruct (Nat.eqb j i); reflexivity.
  - intros [Hk [Ho Hj]]. rewrite Ho. split.
    + intros ->. rewrite Nat.eqb_refl. reflexivity.
    + destruct (Nat.eqb j i); reflexivity.
  - intros [H1 [H2 _]]. destruct (c_out m) as [[j da]|] eqn:Eo.
    + split.
      * destruct (Nat.eqb j i); [apply H2; discriminate|exact I].
      * destruct (kind_of (f_state f)); cbn; rewrite ?Eo; cbn; destruct (Nat.eqb j i); reflexivity.
    + split; [exact I|]. destruct (kind_of (f_state f)); reflexivity.
  - intros _. split; [exact I|reflexivity].
Qed.

(* C15_round_robin - the turn order.  r_turn = application whose turn it is, r_decl = number of
   applications that have declined since the first decline of the visit (they are r_turn - r_decl, ...,
   r_turn - 1 modulo n, each exactly once). *)
Record rr_st : Set := mkRr { r_kind : state_kind; r_turn : nat; r_decl : nat }.

Definition rpre (n : nat) (s : rr_st) (x : hitem) : Prop :=
  match x with
  | HCall (CallTransmit i hp r) => i = r_turn s /\ (i < n)%nat /\ (r_decl s < n)%nat
  | HCall (CallReceiveReply i _ _) | HCall (CallHandleTimeout i _) => i = r_turn s
  | HEnd now f =>
      let k' := kind_of (f_state f) in
      (in_visit (r_kind s) = true -> (0 < n)%nat -> r_decl s = n ->
         pass_kind k' = true \/ fresh_visit (f_state f) = true) /\
      (in_visit (r_kind s) = true ->
         pass_kind k' = true \/ (fresh_visit (f_state f) = true /\ r_decl s <> 0%nat) ->
         r_decl s = n \/ f_end_tht f <= now)
  | HReset => True
  end.

Definition rpost (n : nat) (s : rr_st) (x : hitem) : rr_st :=
  match x with
  | HCall (CallTransmit i hp None) => mkRr (r_kind s) (Nat.modulo (i + 1) n) (S (r_decl s))
  | HCall _ => s
  | HEnd now f =>
      let k' := kind_of (f_state f) in
      mkRr k' (match k' with KOffline => 0%nat | _ => r_turn s end)
           (if in_visit k' then (if in_visit (r_kind s) then (if fresh_visit (f_state f) then 0%nat else r_decl s) else 0%nat) else 0%nat)
  | HReset => mkRr KOffline 0 0
  end.

Definition rr_view (m : cst) : rr_st := mkRr (c_kind m) (c_turn m) (c_decl m).

Lemma rr_view_sim n tsa m x :
  cpre n tsa m x -> rpre n (rr_view m) x /\ rr_view (cpost n m x) = rpost n (rr_view m) x.
Proof.
  unfold rr_view. destruct x as [[j hp r|j a t|j a]|now f|]; cbn.
  - intros [Hv [Ho [Hj [Hn Hd]]]]. split; [tauto|]. destruct r as [[wire [da|]]|]; reflexivity.
  - intros [Hk [Ho [Hj Hr]]]. split; [exact Hj|reflexivity].
  - intros [Hk [Ho Hj]]. split; [exact Hj|reflexivity].
  - intros [_ [_ [H3 H4]]]. split; [split; assumption|reflexivity].
  - intros _. split; [exact I|reflexivity].
Qed.

(* C15_routing - in the station's call log every reply / time-out is immediately preceded by the
   transmit call of the same application that sent a request expecting a reply from that address *)
Definition answers (c : call) (i : nat) (a : Z) : Prop :=
  (exists t, c = CallReceiveReply i a t) \/ c = CallHandleTimeout i a.

Fixpoint routed (prev : option call) (l : list call) : Prop :=
  match l with
  | [] => True
  | c :: l' =>
      (forall i a, answers c i a -> exists hp wire, prev = Some (CallTransmit i hp (Some (wire, Some a)))) /\
      routed (Some c) l'
  end.

Lemma last_cons {X} (l : list X) : forall x d, last (x :: l) d = last l x.
Proof. induction l as [|y l IH]; intros x d; [reflexivity|]. change (last (x :: y :: l) d) with (last (y :: l) d). rewrite !IH. reflexivity. Qed.

Lemma routed_spec : forall l prev, routed prev l ->
  forall pre c post i a, l = pre ++ c :: post -> answers c i a ->
  exists hp wire, last (map Some pre) prev = Some (CallTransmit i hp (Some (wire, Some a))).
Proof.
  induction l as [|x l IH]; intros prev Hr pre c post i a Heq Ha.
  - destruct pre; discriminate Heq.
  - cbn in Hr. destruct Hr as [Hx Hrest]. destruct pre as [|y pre].
    + cbn in Heq. injection Heq as -> ->. cbn. exact (Hx i a Ha).
    + cbn in Heq. injection Heq as -> Heq. specialize (IH _ Hrest pre c post i a Heq Ha).
      destruct IH as [hp [wire IH]]. exists hp, wire. cbn [map]. rewrite last_cons. exact IH.
Qed.

Lemma accepted_routed n tsa : forall h m prev,
  accepts (cpre n tsa) (cpost n) m h ->
  (forall i a, c_out m = Some (i, a) -> exists hp wire, prev = Some (CallTransmit i hp (Some (wire, Some a)))) ->
  routed prev (calls_of h).
Proof.
  induction h as [|x h IH]; intros m prev Hacc HJ; [exact I|].
  cbn in Hacc. destruct Hacc as [Hp Hrest].
  destruct x as [c|now f|]; cbn [calls_of flat_map app].
  - change (flat_map _ h) with (calls_of h). cbn [routed]. split.
    + intros i a [[t ->]| ->]; cbn in Hp; apply HJ; tauto.
    + apply (IH _ _ Hrest). intros i a Ho.
      destruct c as [j hp [[wire [da|]]|]|j a' t|j a']; cbn in Ho, Hp; try (destruct Hp as [_ [Hp _]]; congruence); try discriminate Ho.
      injection Ho as <- <-. exists hp, wire. reflexivity.
  - change (flat_map _ h) with (calls_of h). apply (IH _ _ Hrest). intros i a Ho. cbn in Ho.
    destruct (kind_of (f_state f)); try discriminate Ho. exact (HJ _ _ Ho).
  - change (flat_map _ h) with (calls_of h). apply (IH _ _ Hrest). intros i a Ho. discriminate Ho.
Qed.

(* C15_zero_apps, history part: without applications nobody is ever called *)
Lemma accepted_zero_apps tsa : forall h m, accepts (cpre 0 tsa) (cpost 0) m h -> c_out m = None ->
  calls_of h = [] /\ c_out (posts (cpost 0) m h) = None.
Proof.
  induction h as [|x h IH]; intros m Hacc Ho; [split; [reflexivity|exact Ho]|].
  cbn in Hacc. destruct Hacc as [Hp Hrest].
  destruct x as [c|now f|]; cbn [calls_of flat_map app posts fold_left]; change (flat_map _ h) with (calls_of h).
  - exfalso. destruct c as [j hp r|j a t|j a]; cbn in Hp; [lia|destruct Hp as [_ [Hp _]]; congruence|destruct Hp as [_ [Hp _]]; congruence].
  - apply (IH _ Hrest). cbn. rewrite Ho. destruct (kind_of (f_state f)); reflexivity.
  - apply (IH _ Hrest). reflexivity.
Qed.

Section Apps.
Variable A : Type.
Variable ops : app_ops A.
Notation W := (world A).

(* what of the station (keepf) and of the world (keepw) the monitor depends on, beside the state *)
Definition keepf (f f' : fdl) : Prop :=
  f_p f' = f_p f /\ f_next_app f' = f_next_app f /\
  f_last_token_time f' = f_last_token_time f /\ f_end_tht f' = f_end_tht f.

Definition keepw (w w' : W) : Prop := w_calls w' = w_calls w /\ w_apps w' = w_apps w.

Lemma keepf_refl f : keepf f f. Proof. unfold keepf. tauto. Qed.
Lemma keepf_trans f g h : keepf f g -> keepf g h -> keepf f h.
Proof. unfold keepf. intuition congruence. Qed.
Lemma keepw_refl w : keepw w w. Proof. unfold keepw. tauto. Qed.
Lemma keepw_trans w1 w2 w3 : keepw w1 w2 -> keepw w2 w3 -> keepw w1 w3.
Proof. unfold keepw. intuition congruence. Qed.

Lemma keepf_same f f' : same_but_lba f f' -> keepf f f'.
Proof. unfold same_but_lba, keepf. tauto. Qed.

Lemma keepf_set_st f s : keepf f (set_st f s). Proof. unfold keepf. cbn. tauto. Qed.
Lemma keepf_set_lba f l : keepf f (set_lba f l). Proof. unfold keepf. cbn. tauto. Qed.
Lemma keepf_sync_pending f (w : W) : keepf f (sync_pending_bytes A f w).
Proof. unfold keepf. cbn. tauto. Qed.

Lemma keepw_note (w : W) t : keepw w (note A w t). Proof. unfold keepw. cbn. tauto. Qed.

(* every transition_* function is an assertion on the kind of the old state, then a fixed new state *)
Lemma trans_to f (w : W) ok x f' w' :
  trans A f w (fun s => let* _ := assert_kind ok s in Ok x) = Ok (f', w') ->
  f' = set_st f x /\ w' = note A w (TTrans (kind_of (f_state f)) (kind_of x)).
Proof.
  unfold trans. destruct (assert_kind ok (f_state f)); cbn [bind]; try discriminate.
  intros H. injection H as <- <-. split; reflexivity.
Qed.

Lemma trans_keep f (w : W) t f' w' : trans A f w t = Ok (f', w') ->
  exists s', t (f_state f) = Ok s' /\ f' = set_st f s' /\ keepf f f' /\ keepw w w' /\ f_state f' = s'.
Proof.
  intros H. apply trans_spec in H. destruct H as [s' [Ht [-> ->]]]. exists s'.
  split; [exact Ht|]. split; [reflexivity|]. split; [apply keepf_set_st|]. split; [apply keepw_note|reflexivity].
Qed.

Lemma set_claim_step_spec f s f' : set_claim_step f s = Ok f' -> f' = set_st f (ClaimToken s).
Proof. unfold set_claim_step. destruct (get_claim_token_step _); cbn [bind]; try discriminate. intros H. injection H as <-. reflexivity. Qed.

(* what a quiet function may do to the state: token-use states are only kept, or entered as a fresh
   visit (token_time = now, no first_app, no cycle done); DoGap::Yes is never set; AwaitStatusResponse
   is entered only from PassToken { do_gap: Yes } *)
Definition qstate (now : Z) (s s' : state) : Prop :=
  match s' with
  | UseToken _ _ _ => s' = s \/ s' = UseToken now None false
  | AwaitDataResponse _ _ _ => s' = s
  | PassToken true _ => s' = s
  | AwaitStatusResponse _ => s' = s \/ exists att, s = PassToken true att
  | Offline => s' = s                      (* Offline only through set_offline, see is_reset *)
  | _ => True
  end.

Lemma qstate_refl now s : qstate now s s.
Proof. destruct s as [ | | | | | | |g a| | ]; cbn; try tauto. destruct g; tauto. Qed.

Lemma qstate_trans now s1 s2 s3 : qstate now s1 s2 -> qstate now s2 s3 -> qstate now s1 s3.
Proof.
  intros H12 H23. destruct s3 as [ | | | | tk fa fcd | | a tk fa | g att | | a ]; cbn in *; try exact I.
  - subst s2. exact H12.
  - destruct H23 as [<-|H]; [exact H12|right; exact H].
  - subst s2. exact H12.
  - destruct g; [|exact I]. subst s2. exact H12.
  - destruct H23 as [<-|[att ->]]; [exact H12|]. cbn in H12. right. exists att. symmetry. exact H12.
Qed.

(* the station after set_offline / FdlActiveStation::new *)
Definition is_reset (f : fdl) : Prop :=
  f_state f = Offline /\ f_conn f = ConnOffline /\ f_next_app f = 0%nat /\ f_last_token_time f = 0 /\ f_end_tht f = 0.

Lemma fdl_new_spec p f : fdl_new p = Ok f -> is_reset f /\ f_p f = p.
Proof.
  unfold fdl_new. destruct (negb _); [discriminate|]. destruct (negb _); [discriminate|].
  destruct (ring_new _) as [r| |]; cbn [bind]; try discriminate. intros H. injection H as <-.
  unfold is_reset. cbn. tauto.
Qed.

(* steps that call no application: the call log and the applications (keepw), the parameters, next_application
   and the hold-time fields (keepf) stay, the state moves as qstate allows; quiet also allows the re-creation
   of the station, squiet does not *)
Definition squiet (now : Z) (f : fdl) (w : W) (f' : fdl) (w' : W) : Prop :=
  keepw w w' /\ keepf f f' /\ qstate now (f_state f) (f_state f').

Definition quiet (now : Z) (f : fdl) (w : W) (f' : fdl) (w' : W) : Prop :=
  keepw w w' /\ f_p f' = f_p f /\
  ((keepf f f' /\ qstate now (f_state f) (f_state f')) \/ is_reset f').

Lemma squiet_refl now f w : squiet now f w f w.
Proof. split; [apply keepw_refl|]. split; [apply keepf_refl|apply qstate_refl]. Qed.
Lemma squiet_trans now f1 w1 f2 w2 f3 w3 : squiet now f1 w1 f2 w2 -> squiet now f2 w2 f3 w3 -> squiet now f1 w1 f3 w3.
Proof.
  intros [A1 [B1 C1]] [A2 [B2 C2]]. split; [eapply keepw_trans; eassumption|].
  split; [eapply keepf_trans; eassumption|eapply qstate_trans; eassumption].
Qed.
Lemma squiet_quiet now f w f' w' : squiet now f w f' w' -> quiet now f w f' w'.
Proof. intros [Hw [Hf Hq]]. split; [exact Hw|]. split; [apply Hf|]. left. split; assumption. Qed.

Lemma quiet_refl now f w : quiet now f w f w.
Proof. apply squiet_quiet, squiet_refl. Qed.

Lemma quiet_trans_reset now f1 w1 f2 w2 f3 w3 :
  quiet now f1 w1 f2 w2 -> quiet now f2 w2 f3 w3 -> (is_reset f2 -> is_reset f3) -> quiet now f1 w1 f3 w3.
Proof.
  intros [A1 [P1 D1]] [A2 [P2 D2]] Hr. split; [eapply keepw_trans; eassumption|]. split; [congruence|].
  destruct D1 as [[K1 Q1]|R1].
  - destruct D2 as [[K2 Q2]|R2]; [left|right; exact R2].
    split; [eapply keepf_trans; eassumption|eapply qstate_trans; eassumption].
  - right. exact (Hr R1).
Qed.

Lemma quiet_after now f0 w0 f w f' w' : squiet now f0 w0 f w -> quiet now f w f' w' -> quiet now f0 w0 f' w'.
Proof.
  intros (A1 & K1 & Q1) (A2 & P2 & D2). split; [eapply keepw_trans; eassumption|]. split; [rewrite P2; apply K1|].
  destruct D2 as [(K2 & Q2)|R]; [left|right; exact R]. split; [eapply keepf_trans; eassumption|eapply qstate_trans; eassumption].
Qed.

Lemma squiet_same now f w f' w' : keepf f f' -> keepw w w' -> f_state f' = f_state f -> squiet now f w f' w'.
Proof. intros Hf Hw Hs. split; [exact Hw|]. split; [exact Hf|]. rewrite Hs. apply qstate_refl. Qed.

(* For goals keepf / keepw / squiet / f_state _ = _ about stations and worlds given by setters: unfolds, computes
   and closes every conjunct that is then an identity or qstate of a state to itself.  A qstate conjunct that
   needs a choice (entering a fresh visit, AwaitStatusResponse from PassToken) is left to the caller. *)
Ltac frame := unfold squiet, keepw, keepf; cbn; repeat split; try reflexivity; try apply qstate_refl.

Lemma await_gap_keep f now (w : W) pa f' w' r :
  await_gap_poll_response A f now w pa = Ok (f', w', r) ->
  keepf f f' /\ keepw w w' /\ f_state f' = f_state f.
Proof.
  unfold await_gap_poll_response. intros H.
  destruct (pa =? ts f); [discriminate H|]. destruct (negb _); [discriminate H|].
  destruct (receive_telegram (fun t => t) (w_rx w)) as [[rest received]| |]; cbn [bind] in H; try discriminate H.
  destruct received as [t|].
  - rewrite mark_rx_max in H.
    destruct t as [[da sa dsap ssap [fb rq|st status]] pdu|da sa|]; try (injection H as <- <- _; frame).
    destruct (_ && _); [|injection H as <- <- _; frame]. destruct (_ && _); [|injection H as <- <- _; frame].
    destruct (set_next_station _ _); cbn [bind] in H; try discriminate H. injection H as <- <- _. frame.
  - destruct (check_slot_expired _ now) as [[f1 expired]| |] eqn:Ec; cbn [bind] in H; try discriminate H.
    apply check_slot_inv in Ec as (-> & _).
    destruct expired; injection H as <- <- _; destruct (Nat.ltb _ _); frame.
Qed.

Lemma do_claim_token_scan_quiet f now (w : W) f' w' :
  do_claim_token_scan A f now w = Ok (f', w') -> quiet now f w f' w'.
Proof.
  unfold do_claim_token_scan. intros H. apply squiet_quiet.
  destruct (wait_synchronization_pause f now) as [[f1 wait]| |] eqn:Ew; cbn [bind] in H; try discriminate H.
  apply wait_sync_inv in Ew as (-> & _).
  destruct wait; [injection H as <- <-; frame|]. cbn [f_gap set_lba] in H. destruct (f_gap f) as [rc|cur].
  - match type of H with bind ?x _ = _ => destruct x as [[f2 w2]| |] eqn:Et end; cbn [bind] in H; try discriminate H.
    apply trans_to in Et. destruct Et as (-> & ->). injection H as <- <-. frame.
  - destruct (next_gap_poll_traced A _ w cur) as [[f2 w2]| |] eqn:En; cbn [bind] in H; try discriminate H.
    apply next_gap_poll_traced_inv in En as (g & _ & -> & ->).
    destruct (transmit_gap_poll_if_pending A _ now _) as [[[f3 w3] polled]| |] eqn:Et; cbn [bind] in H; try discriminate H.
    apply transmit_gap_poll_inv in Et. destruct polled as [address|].
    + destruct Et as (_ & _ & _ & e & wire & -> & ->).
      destruct (set_claim_step _ _) as [f4| |] eqn:Es; cbn [bind] in H; try discriminate H.
      apply set_claim_step_spec in Es. subst f4. injection H as <- <-. frame.
    + destruct Et as (_ & -> & ->). injection H as <- <-. frame.
Qed.

Lemma do_claim_token_quiet f now (w : W) f' w' :
  do_claim_token A f now w = Ok (f', w') -> quiet now f w f' w'.
Proof.
  unfold do_claim_token. intros H.
  destruct (assert_entry DoClaimToken f); cbn [bind] in H; try discriminate H.
  destruct (get_claim_token_step (f_state f)) as [step| |]; cbn [bind] in H; try discriminate H.
  assert (Hsend : forall st,
    (let* (f0, wait) := wait_synchronization_pause f now in
     if wait then Ok (f0, note A w TSyncWait) else
     let* (w0, k) := phy_send A w (TxToken (ts f0) (ts f0)) in
     let f1 := set_ring f0 (claim_token (f_ring f0)) in
     let* f2 := set_claim_step f1 st in
     let f3 := set_gap f2 (GapDoPoll (ts f2)) in
     let* f4 := mark_tx f3 now k in Ok (f4, note A w0 TClaimSendToken)) = Ok (f', w') -> quiet now f w f' w').
  { intros st H1. apply squiet_quiet.
    destruct (wait_synchronization_pause f now) as [[f1 wait]| |] eqn:Ew; cbn [bind] in H1; try discriminate H1.
    apply wait_sync_inv in Ew as (-> & _).
    destruct wait; [injection H1 as <- <-; frame|].
    destruct (phy_send A w _) as [[w1 k]| |] eqn:Ep; cbn [bind] in H1; try discriminate H1.
    apply phy_send_inv in Ep as (wire & _ & _ & _ & _ & ->).
    destruct (set_claim_step _ _) as [f2| |] eqn:Es; cbn [bind] in H1; try discriminate H1.
    apply set_claim_step_spec in Es. subst f2.
    destruct (mark_tx _ now k) as [f4| |] eqn:Em; cbn [bind] in H1; try discriminate H1.
    apply mark_tx_inv in Em as (l4 & ->). injection H1 as <- <-. frame. }
  destruct step as [ | | |a0]; [exact (Hsend _ H)|exact (Hsend _ H)|exact (do_claim_token_scan_quiet _ _ _ _ _ H)|].
  destruct (await_gap_poll_response A f now w a0) as [[[f1 w1] r]| |] eqn:Ea; cbn [bind] in H; try discriminate H.
  apply await_gap_keep in Ea. destruct Ea as (Hk1 & Hw1 & Hs1).
  eapply quiet_after; [exact (squiet_same now _ _ _ _ Hk1 Hw1 Hs1)|].
  destruct r.
  - injection H as <- <-. apply quiet_refl.
  - destruct (set_claim_step f1 StepScan) as [f2| |] eqn:Es; cbn [bind] in H; try discriminate H.
    apply set_claim_step_spec in Es. subst f2.
    eapply quiet_after; [|exact (do_claim_token_scan_quiet _ _ _ _ _ H)]. frame.
  - destruct (set_claim_step f1 StepScan) as [f2| |] eqn:Es; cbn [bind] in H; try discriminate H.
    apply set_claim_step_spec in Es. subst f2. injection H as <- <-. apply squiet_quiet. frame.
  - apply trans_to in H. destruct H as (-> & ->). apply squiet_quiet. frame.
Qed.

Lemma handle_lost_token_quiet f now (w : W) f' w' d :
  handle_lost_token A f now w = Ok (f', w', d) ->
  if d then quiet now f w f' w' else keepf f f' /\ keepw w w' /\ f_state f' = f_state f.
Proof.
  unfold handle_lost_token. intros H.
  rewrite lba_get_or_insert_eq in H.
  destruct (inst_diff now _); cbn [bind] in H; try discriminate H.
  match type of H with (if ?c then _ else _) = _ => destruct c end; [|injection H as <- <- <-; frame].
  match type of H with bind ?x _ = _ => destruct x as [[f1 w1]| |] eqn:Et end; cbn [bind] in H; try discriminate H.
  apply trans_to in Et. destruct Et as (-> & ->).
  destruct (do_claim_token A _ now _) as [[f2 w2]| |] eqn:Ed; cbn [bind] in H; try discriminate H.
  injection H as <- <- <-. eapply quiet_after; [|exact (do_claim_token_quiet _ _ _ _ _ Ed)]. frame.
Qed.

Definition conn_is_offline (c : conn_state) : bool := match c with ConnOffline => true | _ => false end.
Lemma match_offline {X} c (x y : X) :
  match c with ConnOffline => x | ConnPassive => y | ConnOnline => y end = if conn_is_offline c then x else y.
Proof. destruct c; reflexivity. Qed.

Lemma listen_token_telegram_quiet now f (w : W) t il f' w' u :
  listen_token_telegram A now (f, w) t il = Ok (f', w', u) ->
  quiet now f w f' w' /\ (is_reset f -> is_reset f').
Proof.
  unfold listen_token_telegram. rewrite match_offline. rewrite mark_rx_max. cbn [f_conn set_lba set_pending].
  intros H. destruct (conn_is_offline (f_conn f)) eqn:Ec.
  - injection H as <- <- _. split; [apply squiet_quiet; frame|]. unfold is_reset. cbn. tauto.
  - split; [|intros (_ & C & _); rewrite C in Ec; discriminate Ec].
    destruct (opt_eqb _ _).
    + destruct (get_listen_token _) as [[sr cc]| |]; cbn [bind] in H; try discriminate H.
      destruct (u8_add cc 1) as [cc'| |]; cbn [bind] in H; try discriminate H.
      destruct (cc' =? listen_collision_tolerated); [injection H as <- <- _; apply squiet_quiet; frame|].
      destruct (set_offline _) as [f1| |] eqn:Eo; cbn [bind] in H; try discriminate H.
      injection H as <- <- _. apply fdl_new_spec in Eo. destruct Eo as (Hr & Hp).
      split; [apply keepw_note|]. split; [exact Hp|right; exact Hr].
    + apply squiet_quiet. destruct t as [h pdu|da sa|].
      * destruct (is_fdl_status_request h && _); [destruct il|]; try (injection H as <- <- _; frame).
        destruct (get_listen_token _) as [[sr cc]| |]; cbn [bind] in H; try discriminate H. injection H as <- <- _. frame.
      * destruct (witness _ _ _) as [r| |]; cbn [bind] in H; try discriminate H. injection H as <- <- _. frame.
      * injection H as <- <- _. frame.
Qed.

Lemma do_listen_token_quiet f now (w : W) f' w' :
  do_listen_token A f now w = Ok (f', w') -> quiet now f w f' w'.
Proof.
  unfold do_listen_token. intros H.
  destruct (assert_entry DoListenToken f); cbn [bind] in H; try discriminate H.
  destruct (handle_lost_token A f now w) as [[[f0 w0] d]| |] eqn:Eh; cbn [bind] in H; try discriminate H.
  apply handle_lost_token_quiet in Eh.
  destruct d; [injection H as <- <-; exact Eh|]. destruct Eh as (Hk0 & Hw0 & Hs0).
  eapply quiet_after; [exact (squiet_same now _ _ _ _ Hk0 Hw0 Hs0)|]. clear Hk0 Hw0 Hs0.
  destruct (get_listen_token (f_state f0)) as [[[src|] cc]| |]; cbn [bind] in H; try discriminate H.
  - apply squiet_quiet.
    destruct (wait_synchronization_pause f0 now) as [[f1 wait]| |] eqn:Ew; cbn [bind] in H; try discriminate H.
    apply wait_sync_inv in Ew as (-> & _).
    destruct wait; [injection H as <- <-; frame|].
    destruct (phy_send A w0 _) as [[w1 k]| |] eqn:Ep; cbn [bind] in H; try discriminate H.
    apply phy_send_inv in Ep as (wire & _ & _ & _ & _ & ->).
    match type of H with bind ?x _ = _ => destruct x as [[f2 w2]| |] eqn:E2 end; cbn [bind] in H; try discriminate H.
    destruct (mark_tx f2 now k) as [f3| |] eqn:Em; cbn [bind] in H; try discriminate H.
    apply mark_tx_inv in Em as (l3 & ->). injection H as <- <-.
    destruct (ready_for_ring _).
    + apply trans_to in E2. destruct E2 as (-> & ->). frame.
    + destruct (get_listen_token _) as [[sr1 cc1]| |]; cbn [bind] in E2; try discriminate E2. injection E2 as <- <-. frame.
  - unfold receive_all_telegrams in H.
    destruct (receive_all (listen_token_telegram A now) _ (f0, w0) (w_rx w0)) as [[[[f1 w1] rest] r]| |] eqn:Er; cbn [bind] in H; try discriminate H.
    injection H as <- <-.
    assert (Hq : quiet now f0 w0 f1 w1).
    { refine (receive_all_inv (fun s : fdl * W => quiet now f0 w0 (fst s) (snd s)) (listen_token_telegram A now) _ _ (f0, w0) _ (f1, w1) rest r (quiet_refl _ _ _) Er).
      intros [fa wa] t il [fb wb] u Hp Hc. apply listen_token_telegram_quiet in Hc. eapply quiet_trans_reset; [exact Hp|apply Hc|apply Hc]. }
    destruct Hq as (Hw1 & Hp1 & D1). split; [exact Hw1|]. split; [exact Hp1|].
    destruct D1 as [(K1 & Q1)|R1]; [left; split; [exact K1|exact Q1]|right; exact R1].
Qed.

Lemma handle_telegram_squiet now f (w : W) t il f' w' :
  handle_telegram A now f w t il = Ok (f', w') -> squiet now f w f' w'.
Proof.
  unfold handle_telegram. intros H.
  destruct (f_state f) eqn:Es; cbn [negb kind_of state_kind_eqb] in H; try discriminate H; try (injection H as <- <-; frame).
  destruct t as [h pdu|da sa|]; [| |injection H as <- <-; frame].
  - destruct (is_fdl_status_request h && (h_da h =? ts f) && il); cbn [get_active_idle bind] in H; injection H as <- <-; frame.
  - cbn [get_active_idle bind] in H. destruct (sa =? ts f).
    + destruct (u8_add _ _); cbn [bind] in H; try discriminate H.
      match type of H with (if ?c then _ else _) = _ => destruct c end; [injection H as <- <-; frame|].
      apply trans_to in H. destruct H as (-> & ->). frame.
    + match type of H with (if ?c then _ else _) = _ => destruct c end.
      { destruct (witness _ _ _); cbn [bind] in H; try discriminate H. injection H as <- <-. frame. }
      match type of H with (if ?c then _ else _) = _ => destruct c end.
      { apply trans_to in H. destruct H as (-> & ->). frame. right. reflexivity. }
      destruct new_previous_station as [address|]; [destruct (address =? sa)|]; try (injection H as <- <-; frame).
      destruct (witness _ _ _); cbn [bind] in H; try discriminate H.
      apply trans_to in H. destruct H as (-> & ->). frame. right. reflexivity.
Qed.

Lemma active_idle_telegram_squiet now f (w : W) t il f' w' u :
  active_idle_telegram A now (f, w) t il = Ok (f', w', u) -> squiet now f w f' w'.
Proof.
  unfold active_idle_telegram. intros H.
  destruct (handle_telegram A now (mark_rx f now) w t il) as [[f1 w1]| |] eqn:Eh; cbn [bind] in H; try discriminate H.
  injection H as <- <- _. apply handle_telegram_squiet in Eh.
  eapply squiet_trans; [|exact Eh]. rewrite mark_rx_max. frame.
Qed.

Lemma do_active_idle_quiet f now (w : W) f' w' :
  do_active_idle A f now w = Ok (f', w') -> quiet now f w f' w'.
Proof.
  unfold do_active_idle. intros H.
  destruct (assert_entry DoActiveIdle f); cbn [bind] in H; try discriminate H.
  destruct (handle_lost_token A f now w) as [[[f0 w0] d]| |] eqn:Eh; cbn [bind] in H; try discriminate H.
  apply handle_lost_token_quiet in Eh.
  destruct d; [injection H as <- <-; exact Eh|]. destruct Eh as (Hk0 & Hw0 & Hs0).
  eapply quiet_after; [exact (squiet_same now _ _ _ _ Hk0 Hw0 Hs0)|]. clear Hk0 Hw0 Hs0. apply squiet_quiet.
  destruct (get_active_idle (f_state f0)) as [[[[src|] nps] cc]| |]; cbn [bind] in H; try discriminate H.
  - destruct (wait_synchronization_pause f0 now) as [[f1 wait]| |] eqn:Ew; cbn [bind] in H; try discriminate H.
    apply wait_sync_inv in Ew as (-> & _).
    destruct wait; [injection H as <- <-; frame|].
    destruct (phy_send A w0 _) as [[w1 k]| |] eqn:Ep; cbn [bind] in H; try discriminate H.
    apply phy_send_inv in Ep as (wire & _ & _ & _ & _ & ->).
    destruct (mark_tx _ now k) as [f3| |] eqn:Em; cbn [bind] in H; try discriminate H.
    apply mark_tx_inv in Em as (l3 & ->). injection H as <- <-. frame.
  - unfold receive_all_telegrams in H.
    destruct (receive_all (active_idle_telegram A now) _ (f0, w0) (w_rx w0)) as [[[[f1 w1] rest] r]| |] eqn:Er; cbn [bind] in H; try discriminate H.
    injection H as <- <-.
    eapply squiet_trans; [|frame].
    refine (receive_all_inv (fun s : fdl * W => squiet now f0 w0 (fst s) (snd s)) (active_idle_telegram A now) _ _ (f0, w0) _ (f1, w1) rest r (squiet_refl _ _ _) Er).
    intros [fa wa] t il [fb wb] u Hp Hc. apply active_idle_telegram_squiet in Hc. eapply squiet_trans; eassumption.
Qed.

Lemma do_pass_token_squiet f now (w : W) f' w' :
  do_pass_token A f now w = Ok (f', w') -> squiet now f w f' w'.
Proof.
  intros H. destruct (f_state f) as [ | | | | | | |dg att| | ] eqn:Es;
    try (unfold do_pass_token, assert_entry in H; rewrite Es in H; discriminate H).
  destruct (do_pass_token_result A f now w f' w' dg att Es H) as (r & g & s & l & txo & tr & -> & -> & D).
  destruct D as [(_ & _ & -> & _)|(_ & _ & [(a & _ & -> & _ & _ & _ & -> & _)|(_ & _ & ->)])]; [| |destruct (_ =? _)];
    frame; rewrite ?Es.
  - destruct dg; [reflexivity|exact I].
  - right. exists att. reflexivity.
  - right. reflexivity.
Qed.

Lemma do_pass_token_ends f now (w : W) f' w' :
  do_pass_token A f now w = Ok (f', w') ->
  pass_kind (kind_of (f_state f')) = true \/ f_state f' = UseToken now None false.
Proof.
  intros H. destruct (f_state f) as [ | | | | | | |dg att| | ] eqn:Es;
    try (unfold do_pass_token, assert_entry in H; rewrite Es in H; discriminate H).
  destruct (do_pass_token_result A f now w f' w' dg att Es H) as (r & g & s & l & txo & tr & -> & -> & D).
  destruct D as [(_ & _ & -> & _)|(_ & _ & [(a & _ & _ & _ & _ & _ & -> & _)|(_ & _ & ->)])]; [| |destruct (_ =? _)];
    cbn; auto.
Qed.

Lemma do_await_status_response_squiet f now (w : W) f' w' :
  do_await_status_response A f now w = Ok (f', w') -> squiet now f w f' w'.
Proof.
  unfold do_await_status_response. intros H.
  destruct (assert_entry DoAwaitStatusResponse f); cbn [bind] in H; try discriminate H.
  destruct (get_await_status_response_address (f_state f)) as [address| |]; cbn [bind] in H; try discriminate H.
  destruct (await_gap_poll_response A f now w address) as [[[f1 w1] r]| |] eqn:Ea; cbn [bind] in H; try discriminate H.
  apply await_gap_keep in Ea. destruct Ea as (Hk1 & Hw1 & Hs1).
  eapply squiet_trans; [exact (squiet_same now _ _ _ _ Hk1 Hw1 Hs1)|].
  destruct r; [injection H as <- <-; apply squiet_refl| |apply trans_to in H; destruct H as (-> & ->); frame..].
  match type of H with bind ?x _ = _ => destruct x as [[f2 w2]| |] eqn:Et end; cbn [bind] in H; try discriminate H.
  apply trans_to in Et. destruct Et as (-> & ->). eapply squiet_trans; [|exact (do_pass_token_squiet _ _ _ _ _ H)]. frame.
Qed.

Lemma check_token_pass_telegram_squiet now f (w : W) fi t il f' w' fi' u :
  check_token_pass_telegram A now (f, w, fi) t il = Ok (f', w', fi', u) -> squiet now f w f' w'.
Proof.
  unfold check_token_pass_telegram. rewrite mark_rx_max. intros H.
  match type of H with bind ?x _ = _ => destruct x as [[f1 w1]| |] eqn:E1 end; cbn [bind] in H; try discriminate H.
  destruct (handle_telegram A now f1 w1 t il) as [[f2 w2]| |] eqn:Eh; cbn [bind] in H; try discriminate H.
  injection H as <- <- _ _. eapply squiet_trans; [|exact (handle_telegram_squiet _ _ _ _ _ _ _ Eh)].
  destruct fi; [apply trans_to in E1; destruct E1 as (-> & ->)|injection E1 as <- <-]; frame.
Qed.

Lemma do_check_token_pass_squiet f now (w : W) f' w' :
  do_check_token_pass A f now w = Ok (f', w') -> squiet now f w f' w'.
Proof.
  unfold do_check_token_pass. intros H.
  destruct (assert_entry DoCheckTokenPass f); cbn [bind] in H; try discriminate H.
  destruct (check_slot_expired f now) as [[f1 expired]| |] eqn:Ec; cbn [bind] in H; try discriminate H.
  apply check_slot_inv in Ec as (-> & _).
  destruct expired.
  - destruct (get_check_token_pass_attempt _) as [att| |]; cbn [bind] in H; try discriminate H.
    match type of H with bind ?x _ = _ => destruct x as [[f2 w2]| |] eqn:E2 end; cbn [bind] in H; try discriminate H.
    match type of H with bind ?x _ = _ => destruct x as [[f3 w3]| |] eqn:Et end; cbn [bind] in H; try discriminate H.
    apply trans_to in Et. destruct Et as (-> & ->). eapply squiet_trans; [|exact (do_pass_token_squiet _ _ _ _ _ H)].
    destruct (check_pass_removes att); [destruct (remove_station _ _); cbn [bind] in E2; try discriminate E2|]; injection E2 as <- <-; frame.
  - destruct (receive_all _ _ (_, w, true) (w_rx w)) as [[[[[f2 w2] fi] rest] r]| |] eqn:Er; cbn [bind] in H; try discriminate H.
    injection H as <- <-.
    eapply squiet_trans; [|destruct fi; frame].
    refine (receive_all_inv (fun s : fdl * W * bool => squiet now f w (fst (fst s)) (snd (fst s))) (check_token_pass_telegram A now) _ _ (_, w, true) _ (f2, w2, fi) rest r _ Er); [|frame].
    intros [[fa wa] fia] t il [[fb wb] fib] u Hp Hc. apply check_token_pass_telegram_squiet in Hc. eapply squiet_trans; eassumption.
Qed.

Definition keeph (f f' : fdl) : Prop :=
  f_p f' = f_p f /\ f_last_token_time f' = f_last_token_time f /\ f_end_tht f' = f_end_tht f.
Lemma keeph_refl f : keeph f f. Proof. unfold keeph. tauto. Qed.
Lemma keeph_trans f g h : keeph f g -> keeph g h -> keeph f h.
Proof. unfold keeph. intuition congruence. Qed.
Lemma keepf_keeph f f' : keepf f f' -> keeph f f'.
Proof. unfold keepf, keeph. tauto. Qed.

Lemma app_transmit_spec f now (w : W) idx app hp f' w' d :
  app_transmit_telegram A ops f now w idx app hp = Ok (f', w', d) ->
  exists app' r, a_tx ops app now (f_p f) hp = Ok (app', r) /\
    w_calls w' = w_calls w ++ [CallTransmit idx hp r] /\
    w_apps w' = replace_nth (w_apps w) idx app' /\ keepf f f' /\
    match r with
    | None => d = false /\ f_state f' = f_state f
    | Some (_, None) => d = true /\ f_state f' = f_state f
    | Some (_, Some da) => d = true /\ exists tk fa fcd, f_state f = UseToken tk fa fcd /\ f_state f' = AwaitDataResponse da tk fa
    end.
Proof.
  unfold app_transmit_telegram. intros H.
  destruct (a_tx ops app now (f_p f) hp) as [[app' r]| |] eqn:Ea; cbn [bind] in H; try discriminate H.
  exists app', r. split; [reflexivity|].
  destruct r as [[wire exp]|]; [|injection H as <- <- <-; frame].
  unfold phy_transmit in H. cbn [log_call set_app w_tx] in H. destruct (w_tx w); cbn [bind] in H; [discriminate H|].
  match type of H with bind ?x _ = _ => destruct x as [[f1 w1]| |] eqn:Et end; cbn [bind] in H; try discriminate H.
  destruct (mark_tx f1 now _) as [f2| |] eqn:Em; cbn [bind] in H; try discriminate H.
  apply mark_tx_inv in Em as (l & ->). injection H as <- <- <-.
  destruct exp as [addr|]; [|injection Et as <- <-; frame].
  destruct (f_state f) as [ | | | |tk fa fcd| | | | | ] eqn:Es; cbn [get_use_token bind] in Et; try discriminate Et.
  apply trans_to in Et. destruct Et as (-> & ->). frame. exists tk, fa, fcd. split; reflexivity.
Qed.

Lemma schedule_next_spec f n f' c : schedule_next_application f n = Ok (f', c) ->
  exists tk fa fcd, f_state f = UseToken tk fa fcd /\ n <> 0%nat /\
    let first := match fa with Some x => x | None => f_next_app f end in
    let next := Nat.modulo (f_next_app f + 1) n in
    f_state f' = UseToken tk (Some first) fcd /\ f_next_app f' = next /\ c = Nat.eqb next first /\ keeph f f'.
Proof.
  unfold schedule_next_application.
  destruct (f_state f) as [ | | | |tk fa fcd| | | | | ]; cbn [get_use_token bind]; try discriminate.
  destruct (Nat.eqb_spec n 0) as [E|E]; [discriminate|]. intros H. injection H as <- <-.
  exists tk, fa, fcd. split; [reflexivity|]. split; [exact E|]. cbn. unfold keeph. cbn. tauto.
Qed.

Definition traced (w w' : W) : Prop :=
  w_rx w' = w_rx w /\ w_tx w' = w_tx w /\ w_apps w' = w_apps w /\ w_calls w' = w_calls w.
Lemma traced_refl w : traced w w. Proof. unfold traced. tauto. Qed.
Lemma traced_note w t : traced w (note A w t). Proof. unfold traced. cbn. tauto. Qed.
Lemma traced_trans w1 w2 w3 : traced w1 w2 -> traced w2 w3 -> traced w1 w3.
Proof. unfold traced. intuition congruence. Qed.

Lemma apps_transmit_loop_turn k f now (w : W) hp f' w' d tk fa fcd :
  apps_transmit_loop A ops (S k) f now w hp = Ok (f', w', d) -> f_state f = UseToken tk fa fcd ->
  exists app app' r f1 w1,
    nth_error (w_apps w) (f_next_app f) = Some app /\ a_tx ops app now (f_p f) hp = Ok (app', r) /\
    w_calls w1 = w_calls w ++ [CallTransmit (f_next_app f) hp r] /\
    w_apps w1 = replace_nth (w_apps w) (f_next_app f) app' /\ keepf f f1 /\
    match r with
    | Some (_, er) =>
        (f', w', d) = (f1, w1, true) /\
        f_state f1 = match er with Some da => AwaitDataResponse da tk fa | None => f_state f end
    | None =>
        let first := match fa with Some x => x | None => f_next_app f end in
        exists f2, f_state f2 = UseToken tk (Some first) fcd /\ keeph f f2 /\ length (w_apps w) <> 0%nat /\
          f_next_app f2 = Nat.modulo (f_next_app f + 1) (length (w_apps w)) /\
          if Nat.eqb (f_next_app f2) first then (f', w', d) = (f2, note A w1 TAppCycleCompleted, false)
          else apps_transmit_loop A ops k f2 now w1 hp = Ok (f', w', d)
    end.
Proof.
  cbn [apps_transmit_loop]. intros H Es.
  destruct (nth_error (w_apps w) (f_next_app f)) as [app|]; [|discriminate H].
  destruct (app_transmit_telegram A ops f now w (f_next_app f) app hp) as [[[f1 w1] d1]| |] eqn:Ea; cbn [bind] in H; try discriminate H.
  apply app_transmit_spec in Ea. destruct Ea as (app' & r & Htx & Hc1 & Ha1 & Hk1 & Hr).
  exists app, app', r, f1, w1. repeat (split; [reflexivity || assumption|]).
  destruct r as [[wire [da|]]|].
  - destruct Hr as (-> & tk' & fa' & fcd' & Es' & Es1). rewrite Es in Es'. injection Es' as <- <- <-.
    injection H as <- <- <-. split; [reflexivity|exact Es1].
  - destruct Hr as (-> & Es1). injection H as <- <- <-. split; [reflexivity|exact Es1].
  - destruct Hr as (-> & Es1). rewrite Ha1, length_replace_nth in H.
    destruct (schedule_next_application f1 _) as [[f2 completed]| |] eqn:Esch; cbn [bind] in H; try discriminate H.
    apply schedule_next_spec in Esch. destruct Esch as (tk2 & fa2 & fcd2 & Es2 & Hn0 & Est2 & Hnext2 & Hcomp & Kh2).
    rewrite Es1, Es in Es2. injection Es2 as <- <- <-. destruct Hk1 as (Kp & Kn & Kl & Ke). rewrite Kn in *.
    exists f2. split; [exact Est2|]. split; [unfold keeph in *; intuition congruence|]. split; [exact Hn0|]. split; [exact Hnext2|].
    rewrite Hnext2, <- Hcomp. destruct completed; [injection H as <- <- <-; reflexivity|exact H].
Qed.

Definition is_app_result (c : call) : Prop :=
  forall i hp r, c = CallTransmit i hp r -> exists a now p a', a_tx ops a now p hp = Ok (a', r).

Lemma apps_transmit_loop_spec : forall k f now (w : W) hp f' w' d tk fa fcd,
  apps_transmit_loop A ops k f now w hp = Ok (f', w', d) -> f_state f = UseToken tk fa fcd ->
  keeph f f' /\ (exists l, w_calls w' = w_calls w ++ l /\ Forall is_app_result l) /\
  ((exists fa', f_state f' = UseToken tk fa' fcd) \/ (d = true /\ exists a fa', f_state f' = AwaitDataResponse a tk fa')).
Proof.
  induction k as [|k IH]; intros f now w hp f' w' d tk fa fcd H Es.
  - injection H as <- <- <-. split; [apply keeph_refl|]. split; [exists []; rewrite app_nil_r; split; [reflexivity|constructor]|].
    left. exists fa. exact Es.
  - destruct (apps_transmit_loop_turn _ _ _ _ _ _ _ _ _ _ _ H Es) as (app & app' & r & f1 & w1 & _ & Htx & Hc1 & _ & Hk1 & Hr).
    assert (Hone : is_app_result (CallTransmit (f_next_app f) hp r)).
    { intros i hp' r' E. injection E as <- <- <-. eexists; eexists; eexists; eexists. exact Htx. }
    destruct r as [[wire er]|].
    + destruct Hr as (Hres & Es1). injection Hres as -> -> ->. split; [apply keepf_keeph; exact Hk1|].
      split; [eexists; split; [exact Hc1|constructor; [exact Hone|constructor]]|].
      rewrite Es1. destruct er as [da|]; [right; split; [reflexivity|exists da, fa; reflexivity]|left; exists fa; exact Es].
    + cbv zeta in Hr. destruct Hr as (f2 & Es2 & Kh2 & _ & _ & Hr). destruct (Nat.eqb _ _).
      * injection Hr as -> -> ->. split; [exact Kh2|].
        split; [eexists; split; [exact Hc1|constructor; [exact Hone|constructor]]|left; eexists; exact Es2].
      * destruct (IH _ _ _ _ _ _ _ _ _ _ Hr Es2) as (Kh3 & (l & Hl & Hf) & Hst). split; [eapply keeph_trans; eassumption|].
        split; [|exact Hst]. exists (CallTransmit (f_next_app f) hp None :: l).
        split; [rewrite Hl, Hc1, <- app_assoc; reflexivity|constructor; assumption].
Qed.

(* The head of do_use_token, case by case.  f1: the station once the deadline of the visit is there (it is
   computed at the first do_use_token of the visit: previous token time + TTR - the reserve for a GAP
   poll that is due); f2: after the look at the synchronisation pause. *)
Lemma do_use_token_head_inv f now (w : W) f' w' :
  do_use_token_head A ops f now w = Ok (f', w') ->
  exists tk fa fcd f1 f2,
    f_state f = UseToken tk fa fcd /\
    ((f1 = f /\ f_last_token_time f = tk) \/
     (f1 = set_hold f tk (f_last_token_time f + token_rotation_time (f_p f) -
                          match f_gap f with
                          | GapDoPoll _ => p_bits_to_time (f_p f) (p_slot_bits (f_p f) + gap_reserve_extra_bits)
                          | GapWaiting _ => 0
                          end) /\ f_last_token_time f <> tk)) /\
    same_but_lba f1 f2 /\
    ( (* the synchronisation pause is not over *)
      (f' = f2 /\ traced w w')
    \/ (* the hold time is over and the guaranteed round done: on to passing the token *)
      (fcd = true /\ f_end_tht f2 <= now /\ f' = set_st f2 (PassToken true first_attempt) /\ traced w w')
    \/ (* one round of the applications; on to passing the token unless one of them sent *)
      (exists hp w2 f3 w3 d, traced w w2 /\
         (if hp : bool then fcd = false /\ f_end_tht f2 <= now else now < f_end_tht f2) /\
         apps_transmit_loop A ops (length (w_apps w)) (set_st f2 (UseToken tk fa true)) now w2 hp = Ok (f3, w3, d) /\
         if d then f' = f3 /\ w' = w3 else f' = set_st f3 (PassToken true first_attempt) /\ traced w3 w') ).
Proof.
  unfold do_use_token_head, assert_entry. intros H.
  destruct (f_state f) as [ | | | |tk fa fcd| | | | | ] eqn:Es; cbn [kind_of do_fn_entry state_kind_eqb bind get_use_token] in H; try discriminate H.
  match type of H with bind ?x _ = _ => destruct x as [[f1 w1]| |] eqn:E1 end; cbn [bind] in H; try discriminate H.
  exists tk, fa, fcd, f1.
  assert (H1 : traced w w1 /\ f_state f1 = f_state f /\ length (w_apps w1) = length (w_apps w) /\
               ((f1 = f /\ f_last_token_time f = tk) \/
                (f1 = set_hold f tk (f_last_token_time f + token_rotation_time (f_p f) -
                          match f_gap f with
                          | GapDoPoll _ => p_bits_to_time (f_p f) (p_slot_bits (f_p f) + gap_reserve_extra_bits)
                          | GapWaiting _ => 0
                          end) /\ f_last_token_time f <> tk))).
  { destruct (Z.eqb_spec (f_last_token_time f) tk) as [El|El]; cbn [negb] in E1.
    - injection E1 as <- <-. split; [apply traced_refl|]. split; [reflexivity|]. split; [reflexivity|left; split; [reflexivity|exact El]].
    - unfold inst_add, inst_sub_dur in E1. destruct (i64_ok _); cbn [bind] in E1; [|discriminate E1].
      destruct (f_gap f).
      + injection E1 as <- <-. split; [apply traced_note|]. split; [reflexivity|]. split; [reflexivity|right; split; [f_equal; lia|exact El]].
      + destruct (i64_ok _); cbn [bind] in E1; [|discriminate E1].
        injection E1 as <- <-. split; [apply traced_note|]. split; [reflexivity|]. split; [reflexivity|right; split; [reflexivity|exact El]]. }
  destruct H1 as (Hw1 & Hs1 & Hl1 & Hf1).
  destruct (wait_synchronization_pause f1 now) as [[f2 wait]| |] eqn:Ew; cbn [bind] in H; try discriminate H.
  apply wait_sync_same in Ew. destruct Ew as (Hsame & _).
  assert (Es2 : f_state f2 = UseToken tk fa fcd) by (destruct Hsame as (_ & _ & _ & _ & -> & _); congruence).
  exists f2. split; [reflexivity|]. split; [exact Hf1|]. split; [exact Hsame|].
  assert (Hpass : forall f3 (w3 : W), trans A f3 w3 (fun s => transition_pass_token s true first_attempt) = Ok (f', w') ->
            f' = set_st f3 (PassToken true first_attempt) /\ traced w3 w').
  { intros f3 w3 Ht. apply trans_spec in Ht. destruct Ht as (s' & Ht & -> & ->).
    unfold transition_pass_token in Ht. destruct (assert_kind _ _); cbn [bind] in Ht; try discriminate Ht. injection Ht as <-.
    split; [reflexivity|apply traced_note]. }
  destruct wait.
  - injection H as <- <-. left. split; [reflexivity|]. eapply traced_trans; [exact Hw1|apply traced_note].
  - rewrite Es2 in H. cbn [get_use_token bind] in H. unfold set_first_cycle_done, apps_transmit_telegram in H.
    rewrite Es2 in H. cbn [get_use_token bind note w_apps] in H. rewrite Hl1 in H. right.
    assert (Hround : forall hp tg, (if hp : bool then fcd = false /\ f_end_tht f2 <= now else now < f_end_tht f2) ->
      (let* (f3, w3, d) := apps_transmit_loop A ops (length (w_apps w)) (set_st f2 (UseToken tk fa true)) now (note A w1 tg) hp in
       if d then Ok (f3, w3) else trans A f3 w3 (fun s => transition_pass_token s true first_attempt)) = Ok (f', w') ->
      exists hp w2 f3 w3 d, traced w w2 /\
         (if hp : bool then fcd = false /\ f_end_tht f2 <= now else now < f_end_tht f2) /\
         apps_transmit_loop A ops (length (w_apps w)) (set_st f2 (UseToken tk fa true)) now w2 hp = Ok (f3, w3, d) /\
         if d then f' = f3 /\ w' = w3 else f' = set_st f3 (PassToken true first_attempt) /\ traced w3 w').
    { intros hp tg Hhp Hr.
      match type of Hr with bind ?x _ = _ => destruct x as [[[f3 w3] d]| |] eqn:El end; cbn [bind] in Hr; try discriminate Hr.
      exists hp, (note A w1 tg), f3, w3, d. split; [eapply traced_trans; [exact Hw1|apply traced_note]|]. split; [exact Hhp|].
      split; [exact El|]. destruct d; [injection Hr as <- <-; split; reflexivity|exact (Hpass _ _ Hr)]. }
    destruct (Z.ltb_spec now (f_end_tht f2)) as [Hlt|Hge]; [right; exact (Hround false _ Hlt H)|].
    destruct fcd; cbn [negb bind] in H; [left|right; exact (Hround true _ (conj eq_refl Hge) H)].
    destruct (Hpass _ _ H) as (-> & Hw'). split; [reflexivity|]. split; [exact Hge|]. split; [reflexivity|].
    eapply traced_trans; [exact Hw1|]. eapply traced_trans; [apply traced_note|exact Hw'].
Qed.

Lemma do_use_token_p f now (w : W) f' w' : do_use_token A ops f now w = Ok (f', w') -> f_p f' = f_p f.
Proof.
  rewrite do_use_token_split. intros H.
  destruct (do_use_token_head A ops f now w) as [[f1 w1]| |] eqn:Eh; cbn [bind] in H; try discriminate H.
  assert (Hp : f_p f1 = f_p f).
  { apply do_use_token_head_inv in Eh. destruct Eh as (tk & fa & fcd & f0 & f2 & _ & Hf0 & (Hp2 & _) & Hcases).
    assert (Hp0 : f_p f0 = f_p f) by (destruct Hf0 as [(-> & _)|(-> & _)]; reflexivity).
    destruct Hcases as [(-> & _)|[(_ & _ & -> & _)|(hp & w2 & f3 & w3 & d & _ & _ & Hloop & Hfin)]]; [cbn; congruence..|].
    eapply apps_transmit_loop_spec in Hloop; [|reflexivity]. destruct Hloop as ((Kp & _) & _). cbn in Kp.
    destruct d; destruct Hfin as (-> & _); cbn; congruence. }
  destruct (is_pass_token (f_state f1)); [|injection H as <- _; exact Hp].
  apply do_pass_token_squiet in H. destruct H as (_ & (Kp & _) & _). congruence.
Qed.

Lemma do_await_data_response_split f now (w : W) f' w' :
  do_await_data_response A ops f now w = Ok (f', w') ->
  exists a tk fa app, f_state f = AwaitDataResponse a tk fa /\ nth_error (w_apps w) (f_next_app f) = Some app /\
  ( (* a valid reply is delivered *)
    (exists t app', reply_ok (ts f) a t /\ a_rx ops app now (f_p f) a t = Ok app' /\
       w_calls w' = w_calls w ++ [CallReceiveReply (f_next_app f) a t] /\
       w_apps w' = replace_nth (w_apps w) (f_next_app f) app' /\ keepf f f' /\ f_state f' = UseToken tk fa true)
  \/ (* something else arrived: the token is given up, no callback *)
    (keepw w w' /\ keepf f f' /\ f_state f' = ActiveIdle None None 0)
  \/ (* still waiting *)
    (keepw w w' /\ keepf f f' /\ f_state f' = f_state f)
  \/ (* slot time expired: time-out callback, then do_use_token in the same poll *)
    (exists app' f3 w3, a_to ops app now (f_p f) a = Ok app' /\
       w_calls w3 = w_calls w ++ [CallHandleTimeout (f_next_app f) a] /\
       w_apps w3 = replace_nth (w_apps w) (f_next_app f) app' /\ keepf f f3 /\ f_state f3 = UseToken tk fa true /\
       do_use_token A ops f3 now w3 = Ok (f', w')) ).
Proof.
  unfold do_await_data_response, assert_entry. intros H.
  destruct (f_state f) as [ | | | | | |a tk fa| | | ] eqn:Es; cbn [kind_of do_fn_entry state_kind_eqb bind get_await_data_response] in H; try discriminate H.
  destruct (nth_error (w_apps w) (f_next_app f)) as [app|] eqn:En; [|discriminate H].
  exists a, tk, fa, app. split; [reflexivity|]. split; [reflexivity|].
  destruct (receive_telegram (fun t => t) (w_rx w)) as [[rest received]| |]; cbn [bind] in H; try discriminate H.
  destruct received as [t|].
  - rewrite mark_rx_max in H.
    destruct (is_valid_response _ a t) eqn:Ev; [|right; left; apply trans_to in H; destruct H as (-> & ->); frame].
    apply is_valid_response_spec in Ev. cbn [f_p set_lba set_pending] in H.
    destruct (a_rx ops app now (f_p f) a t) as [app'| |] eqn:Ea; cbn [bind] in H; try discriminate H.
    match type of H with bind ?x _ = _ => destruct x as [[f1 w1]| |] eqn:Et end; cbn [bind] in H; try discriminate H.
    apply trans_to in Et. destruct Et as (-> & ->). cbn in H. injection H as <- <-.
    left. exists t, app'. split; [exact Ev|]. split; [exact Ea|]. frame.
  - destruct (check_slot_expired _ now) as [[f1 expired]| |] eqn:Ec; cbn [bind] in H; try discriminate H.
    apply check_slot_inv in Ec as (-> & _).
    destruct expired; [|right; right; left; injection H as <- <-; destruct (Nat.ltb _ _); frame; exact Es].
    cbn [f_p set_lba sync_pending_bytes set_pending] in H.
    destruct (a_to ops app now (f_p f) a) as [app'| |] eqn:Ea; cbn [bind] in H; try discriminate H.
    match type of H with bind ?x _ = _ => destruct x as [[f2 w2]| |] eqn:Et end; cbn [bind] in H; try discriminate H.
    apply trans_to in Et. destruct Et as (-> & ->). cbn [set_first_cycle_done f_state set_st get_use_token bind] in H.
    right; right; right. eexists app', _, _. split; [reflexivity|]. split; [|split; [|split; [|split; [|exact H]]]]; destruct (Nat.ltb _ _); frame.
Qed.

Section Mon.
Variable n : nat.       (* number of applications *)
Variable tsa : Z.       (* address of this station *)

Lemma visit_inv_decl_lt fa next d : (next < n)%nat -> visit_inv n fa next d -> (d < n)%nat.
Proof. intros Hn. destruct fa as [first|]; cbn; [intros [_ [H _]]; lia|intros ->; lia]. Qed.

Lemma inv_st_eq f f' m : f_state f' = f_state f -> f_next_app f' = f_next_app f -> inv_st n f m -> inv_st n f' m.
Proof. unfold inv_st. intros -> ->. exact (fun H => H). Qed.

(* A round of the applications against the monitor.  The round has k turns left; when these are enough for
   everybody who has not declined yet, a round that ends without a telegram has seen all n decline. *)
Lemma apps_transmit_loop_mon : forall k f now (w : W) hp f' w' d m tk fa fcd,
  apps_transmit_loop A ops k f now w hp = Ok (f', w', d) ->
  length (w_apps w) = n -> in_visit (c_kind m) = true ->
  f_state f = UseToken tk fa fcd -> c_turn m = f_next_app f -> inv_st n f m -> (n <= c_decl m + k)%nat ->
  exists l, w_calls w' = w_calls w ++ l /\ acalls n tsa m l /\ length (w_apps w') = n /\ keeph f f' /\
    let m' := mcalls n m l in
    c_turn m' = f_next_app f' /\
    if d then inv_st n f' m' /\ in_visit (kind_of (f_state f')) = true
    else c_out m' = None /\ (exists fa', f_state f' = UseToken tk fa' fcd) /\ c_decl m' = n.
Proof.
  induction k as [|k IH]; intros f now w hp f' w' d m tk fa fcd H Hlen Hvis Es Hturn Hinv Hk.
  - injection H as <- <- <-. exists []. rewrite app_nil_r. split; [reflexivity|]. split; [exact I|].
    split; [exact Hlen|]. split; [apply keeph_refl|]. split; [exact Hturn|].
    unfold inv_st in Hinv. rewrite Es in Hinv. destruct Hinv as (Hout & Hv).
    split; [exact Hout|]. split; [exists fa; exact Es|]. cbn. destruct fa; cbn in Hv; lia.
  - destruct (apps_transmit_loop_turn _ _ _ _ _ _ _ _ _ _ _ H Es) as (app & app' & r & f1 & w1 & En & _ & Hc1 & Ha1 & Hk1 & Hr).
    assert (Hidx : (f_next_app f < n)%nat) by (rewrite <- Hlen; apply nth_error_Some; rewrite En; discriminate).
    assert (Hlen1 : length (w_apps w1) = n) by (rewrite Ha1, length_replace_nth; exact Hlen).
    assert (Hinv' := Hinv). unfold inv_st in Hinv'. rewrite Es in Hinv'. destruct Hinv' as (Hout & Hv).
    assert (Hpre : cpre n tsa m (HCall (CallTransmit (f_next_app f) hp r))).
    { cbn. split; [exact Hvis|]. split; [exact Hout|]. split; [symmetry; exact Hturn|]. split; [exact Hidx|].
      eapply visit_inv_decl_lt; eassumption. }
    destruct r as [[wire er]|].
    + (* a telegram: the turn is kept; with a reply expected the request becomes the outstanding one *)
      destruct Hr as (Hres & Es1). injection Hres as -> -> ->. destruct Hk1 as (Kp & Kn & Kl & Ke).
      exists [CallTransmit (f_next_app f) hp (Some (wire, er))].
      split; [exact Hc1|]. split; [split; [exact Hpre|exact I]|]. split; [exact Hlen1|]. split; [unfold keeph; tauto|].
      unfold inv_st. rewrite Es1, Kn. destruct er as [da|]; cbn; rewrite ?Es;
        (split; [exact Hturn|]; split; [split; [first [reflexivity|exact Hout]|exact Hv]|reflexivity]).
    + (* a decline *)
      cbv zeta in Hr. destruct Hr as (f2 & Es2 & Kh2 & _ & Hnext2 & Hr). rewrite Hlen in Hnext2.
      pose proof (decline_step n fa (f_next_app f) (c_decl m) Hidx Hv) as Hstep. cbv zeta in Hstep. rewrite <- Hnext2 in Hstep.
      set (m1 := cpost n m (HCall (CallTransmit (f_next_app f) hp None))).
      destruct (Nat.eqb (f_next_app f2) _).
      * injection Hr as -> -> ->. exists [CallTransmit (f_next_app f) hp None].
        split; [exact Hc1|]. split; [split; [exact Hpre|exact I]|]. split; [exact Hlen1|]. split; [exact Kh2|].
        split; [symmetry; exact Hnext2|]. split; [exact Hout|]. split; [eexists; exact Es2|]. exact Hstep.
      * destruct (IH f2 now w1 hp f' w' d m1 _ _ _ Hr Hlen1 Hvis Es2 (eq_sym Hnext2)) as (l & Hl & Hacc & Hlen' & Kh' & Hrest).
        { unfold inv_st. rewrite Es2. split; [exact Hout|exact Hstep]. }
        { cbn. lia. }
        exists (CallTransmit (f_next_app f) hp None :: l).
        split; [rewrite Hl, Hc1, <- app_assoc; reflexivity|]. split; [split; [exact Hpre|exact Hacc]|].
        split; [exact Hlen'|]. split; [eapply keeph_trans; eassumption|exact Hrest].
Qed.

Lemma do_use_token_head_mon f now (w : W) f' w' m :
  do_use_token_head A ops f now w = Ok (f', w') ->
  length (w_apps w) = n -> in_visit (c_kind m) = true -> c_turn m = f_next_app f -> inv_st n f m ->
  exists l, w_calls w' = w_calls w ++ l /\ acalls n tsa m l /\ length (w_apps w') = n /\ f_p f' = f_p f /\
    let m' := mcalls n m l in
    c_turn m' = f_next_app f' /\ inv_st n f' m' /\
    (in_visit (kind_of (f_state f')) = true \/
     (f_state f' = PassToken true first_attempt /\ (c_decl m' = n \/ f_end_tht f' <= now))).
Proof.
  intros H Hlen Hvis Hturn Hinv.
  apply do_use_token_head_inv in H. destruct H as (tk & fa & fcd & f1 & f2 & Es & Hf1 & Hsame & Hcases).
  assert (H2 : f_state f2 = f_state f /\ f_next_app f2 = f_next_app f /\ f_p f2 = f_p f).
  { destruct Hsame as (Hp & _ & _ & _ & Hs & _ & _ & _ & Hn). rewrite Hp, Hs, Hn.
    destruct Hf1 as [(-> & _)|(-> & _)]; repeat split; reflexivity. }
  destruct H2 as (Hs2 & Hn2 & Hp2). pose proof (inv_st_eq _ _ _ Hs2 Hn2 Hinv) as Hinv2.
  assert (Hout : c_out m = None) by (unfold inv_st in Hinv; rewrite Es in Hinv; apply Hinv).
  destruct Hcases as [(-> & Hw')|[(_ & Hend & -> & Hw')|(hp & w2 & f3 & w3 & d & Hw2 & Hhp & Hloop & Hfin)]].
  - destruct Hw' as (_ & _ & Ha & Hc). exists []. rewrite app_nil_r. split; [exact Hc|]. split; [exact I|].
    split; [congruence|]. split; [exact Hp2|]. split; [cbn; congruence|]. split; [exact Hinv2|]. left. rewrite Hs2, Es. reflexivity.
  - destruct Hw' as (_ & _ & Ha & Hc). exists []. rewrite app_nil_r. split; [exact Hc|]. split; [exact I|].
    split; [congruence|]. split; [exact Hp2|]. split; [cbn; congruence|]. split; [exact Hout|]. right. split; [reflexivity|right; exact Hend].
  - destruct Hw2 as (_ & _ & Ha2 & Hc2).
    eapply apps_transmit_loop_mon with (m := m) in Hloop; [|congruence|exact Hvis|reflexivity|cbn; congruence| |lia].
    2:{ unfold inv_st in *. rewrite Hs2, Es in Hinv2. exact Hinv2. }
    destruct Hloop as (l & Hl & Hacc & Hlen3 & (Kp & _ & Ke) & Hturn3 & Hrest). cbn in Kp, Ke.
    exists l. destruct d.
    + destruct Hfin as (-> & ->). split; [congruence|]. split; [exact Hacc|]. split; [exact Hlen3|]. split; [congruence|].
      split; [exact Hturn3|]. split; [apply Hrest|left; apply Hrest].
    + destruct Hfin as (-> & _ & _ & Ha' & Hc'). destruct Hrest as (Hout3 & _ & Hdecl).
      split; [congruence|]. split; [exact Hacc|]. split; [congruence|]. split; [cbn; congruence|].
      split; [exact Hturn3|]. split; [exact Hout3|]. right. split; [reflexivity|left; exact Hdecl].
Qed.

Lemma do_use_token_mon f now (w : W) f' w' m :
  do_use_token A ops f now w = Ok (f', w') ->
  length (w_apps w) = n -> in_visit (c_kind m) = true -> c_turn m = f_next_app f -> inv_st n f m ->
  exists l, w_calls w' = w_calls w ++ l /\ acalls n tsa m l /\ length (w_apps w') = n /\ f_p f' = f_p f /\
    let m' := mcalls n m l in
    c_turn m' = f_next_app f' /\
    ((inv_st n f' m' /\ in_visit (kind_of (f_state f')) = true) \/
     (c_out m' = None /\ (c_decl m' = n \/ f_end_tht f' <= now) /\
      (pass_kind (kind_of (f_state f')) = true \/ f_state f' = UseToken now None false))).
Proof.
  rewrite do_use_token_split. intros H Hlen Hvis Hturn Hinv.
  destruct (do_use_token_head A ops f now w) as [[f1 w1]| |] eqn:Eh; cbn [bind] in H; try discriminate H.
  eapply do_use_token_head_mon in Eh; try eassumption.
  destruct Eh as [l [Hl [Hacc [Hlen1 [Hp1 Hrest]]]]]. cbn zeta in Hrest. destruct Hrest as [R1 [R2 R3]].
  exists l. cbn zeta.
  destruct (is_pass_token (f_state f1)) eqn:Ek.
  - destruct R3 as [R3|[R3 R4]].
    + exfalso. unfold is_pass_token in Ek. destruct (f_state f1); cbn in Ek, R3; discriminate.
    + pose proof (do_pass_token_ends _ _ _ _ _ H) as Hends.
      apply do_pass_token_squiet in H. destruct H as [[Hwc Hwa] [[Kp [Kn [Kl Ke]]] _]].
      split; [rewrite Hwc; exact Hl|]. split; [exact Hacc|]. split; [rewrite Hwa; exact Hlen1|]. split; [congruence|].
      split; [rewrite Kn; exact R1|]. right.
      split; [unfold inv_st in R2; rewrite R3 in R2; exact R2|]. split; [rewrite Ke; exact R4|exact Hends].
  - injection H as <- <-. split; [exact Hl|]. split; [exact Hacc|]. split; [exact Hlen1|]. split; [exact Hp1|].
    split; [exact R1|]. left. split; [exact R2|].
    destruct R3 as [R3|[R3 _]]; [exact R3|]. rewrite R3 in Ek. discriminate Ek.
Qed.

Lemma do_await_data_response_mon f now (w : W) f' w' m :
  do_await_data_response A ops f now w = Ok (f', w') -> tsa = ts f ->
  length (w_apps w) = n -> c_kind m = KAwaitDataResponse -> c_turn m = f_next_app f -> inv_st n f m ->
  exists l, w_calls w' = w_calls w ++ l /\ acalls n tsa m l /\ length (w_apps w') = n /\ f_p f' = f_p f /\
    let m' := mcalls n m l in
    ( (c_turn m' = f_next_app f' /\
       ((inv_st n f' m' /\ in_visit (kind_of (f_state f')) = true) \/
        (c_out m' = None /\ (c_decl m' = n \/ f_end_tht f' <= now) /\
         (pass_kind (kind_of (f_state f')) = true \/ f_state f' = UseToken now None false))))
    \/ (l = [] /\ kind_of (f_state f') = KActiveIdle /\ f_next_app f' = f_next_app f) ).
Proof.
  intros H Hts Hlen Hkind Hturn Hinv.
  apply do_await_data_response_split in H.
  destruct H as [a [tk [fa [app [Es [En Hcases]]]]]].
  assert (Hinv' := Hinv). unfold inv_st in Hinv'. rewrite Es in Hinv'. destruct Hinv' as [Hout Hv].
  destruct Hcases as [[t [app' [Hok [_ [Hc [Ha [Hk Hs']]]]]]]|[[Hw [Hk Hs']]|[[Hw [Hk Hs']]|[app' [f3 [w3 [_ [Hc3 [Ha3 [Hk3 [Hs3 Hdo]]]]]]]]]]].
  - exists [CallReceiveReply (f_next_app f) a t]. split; [exact Hc|].
    split; [split; [|exact I]; cbn; rewrite Hts; split; [exact Hkind|]; split; [exact Hout|]; split; [symmetry; exact Hturn|exact Hok]|].
    split; [rewrite Ha, length_replace_nth; exact Hlen|]. split; [apply Hk|]. cbn. left.
    destruct Hk as [_ [Kn _]]. split; [rewrite Kn; exact Hturn|]. left. split; [|rewrite Hs'; reflexivity].
    unfold inv_st. rewrite Hs', Kn. cbn. split; [reflexivity|exact Hv].
  - exists []. rewrite app_nil_r. split; [apply Hw|]. split; [exact I|]. split; [destruct Hw as [_ ->]; exact Hlen|]. split; [apply Hk|].
    cbn. right. split; [reflexivity|]. split; [rewrite Hs'; reflexivity|apply Hk].
  - exists []. rewrite app_nil_r. split; [apply Hw|]. split; [exact I|]. split; [destruct Hw as [_ ->]; exact Hlen|]. split; [apply Hk|].
    cbn. left. destruct Hk as [_ [Kn _]]. split; [rewrite Kn; exact Hturn|]. left. split; [|rewrite Hs', Es; reflexivity].
    unfold inv_st. rewrite Hs', Es, Kn. split; [exact Hout|exact Hv].
  - set (m1 := cpost n m (HCall (CallHandleTimeout (f_next_app f) a))).
    destruct Hk3 as [Kp [Kn [Kl Ke]]].
    eapply do_use_token_mon with (m := m1) in Hdo.
    + destruct Hdo as [l [Hl [Hacc [Hlen' [Hp' Hrest]]]]].
      exists (CallHandleTimeout (f_next_app f) a :: l).
      split; [rewrite Hl, Hc3, <- app_assoc; reflexivity|].
      split; [split; [cbn; split; [exact Hkind|]; split; [exact Hout|symmetry; exact Hturn]|exact Hacc]|].
      split; [exact Hlen'|]. split; [congruence|].
      change (mcalls n m (CallHandleTimeout (f_next_app f) a :: l)) with (mcalls n m1 l). left. exact Hrest.
    + rewrite Ha3, length_replace_nth. exact Hlen.
    + unfold m1. cbn. rewrite Hkind. reflexivity.
    + unfold m1. cbn. rewrite Kn. exact Hturn.
    + unfold inv_st, m1. rewrite Hs3, Kn. cbn. split; [reflexivity|exact Hv].
Qed.

Definition outcome (now : Z) (m : cst) (l : list call) (f' : fdl) : Prop :=
  let h := map HCall l ++ [HEnd now f'] in
  accepts (cpre n tsa) (cpost n) m h /\ Inv n f' (posts (cpost n) m h).

Lemma outcome_intro now m l f' :
  acalls n tsa m l ->
  cpre n tsa (mcalls n m l) (HEnd now f') ->
  Inv n f' (cpost n (mcalls n m l) (HEnd now f')) ->
  outcome now m l f'.
Proof.
  intros Ha Hp Hi. unfold outcome. cbn zeta. split.
  - apply accepts_app. split; [exact Ha|]. cbn. split; [exact Hp|exact I].
  - rewrite posts_app. exact Hi.
Qed.

Lemma visit_inv_not_all fa next d : (0 < n)%nat -> visit_inv n fa next d -> d <> n.
Proof. intros Hn. destruct fa as [first|]; cbn; [intros [_ [H _]]; lia|intros ->; lia]. Qed.

Lemma outcome_visit now m l f' :
  in_visit (c_kind m) = true -> acalls n tsa m l ->
  c_turn (mcalls n m l) = f_next_app f' ->
  ((inv_st n f' (mcalls n m l) /\ in_visit (kind_of (f_state f')) = true) \/
   (c_out (mcalls n m l) = None /\ (c_decl (mcalls n m l) = n \/ f_end_tht f' <= now) /\
    (pass_kind (kind_of (f_state f')) = true \/ f_state f' = UseToken now None false))) ->
  outcome now m l f'.
Proof.
  intros Hvis Hacc Hturn Hd. apply outcome_intro; [exact Hacc| |].
  - pose proof (mcalls_kind n l m) as Hk. set (m' := mcalls n m l) in *. cbn. rewrite Hk, Hvis.
    destruct Hd as [[Hinv Hv]|[Ho [Hd Hp]]].
    + unfold inv_st in Hinv.
      destruct (f_state f') as [ | | | |tk fa fcd| |a tk fa| | | ] eqn:Es; try discriminate Hv; cbn.
      * destruct Hinv as [Ho Hvi]. split; [discriminate|]. split; [intros C; contradiction|].
        split; [intros _ Hn Hdn; exfalso; exact (visit_inv_not_all _ _ _ Hn Hvi Hdn)|].
        intros _ [C|[Hf Hne]]; [discriminate C|]. exfalso.
        destruct fa as [first|]; [discriminate Hf|]. cbn in Hvi. contradiction.
      * destruct Hinv as [Ho Hvi]. split; [intros _; rewrite Ho; discriminate|]. split; [intros _; left; reflexivity|].
        split; [intros _ Hn Hdn; exfalso; exact (visit_inv_not_all _ _ _ Hn Hvi Hdn)|].
        intros _ [C|[C _]]; discriminate C.
    + split; [intros C; destruct Hp as [Hp|Hp]; [rewrite C in Hp; discriminate Hp|rewrite Hp in C; discriminate C]|].
      split; [intros C; contradiction|].
      split; [intros _ _ _; destruct Hp as [Hp|Hp]; [left; exact Hp|right; rewrite Hp; reflexivity]|].
      intros _ _. exact Hd.
  - pose proof (mcalls_kind n l m) as Hk. set (m' := mcalls n m l) in *.
    unfold Inv, inv_st in *. cbn. destruct Hd as [[Hinv Hv]|[Ho [Hd Hp]]].
    + destruct (f_state f') as [ | | | |tk fa fcd| |a tk fa| | | ] eqn:Es; try discriminate Hv; cbn.
      * rewrite Hk, Hvis. split; [reflexivity|]. split; [exact Hturn|]. split; [reflexivity|].
        destruct Hinv as [_ Hvi]. destruct fa as [first|]; [exact Hvi|]. destruct fcd; [exact Hvi|reflexivity].
      * rewrite Hk, Hvis. split; [reflexivity|]. split; [exact Hturn|]. exact Hinv.
    + destruct Hp as [Hp|Hp].
      * destruct (f_state f') as [ | | | | | | |g a| |a] eqn:Es; try discriminate Hp; cbn;
          (split; [reflexivity|]; split; [exact Hturn|reflexivity]).
      * rewrite Hp. cbn. rewrite Hk, Hvis. split; [reflexivity|]. split; [exact Hturn|]. split; reflexivity.
Qed.

Lemma outcome_quiet now m f' :
  in_visit (c_kind m) = false -> c_out m = None ->
  (f_state f' = Offline -> f_next_app f' = 0%nat) -> (f_state f' <> Offline -> c_turn m = f_next_app f') ->
  match f_state f' with AwaitDataResponse _ _ _ => False | UseToken _ fa _ => fa = None | _ => True end ->
  outcome now m [] f'.
Proof.
  intros Hvis Hout Hoff Hturn Hst. apply outcome_intro; [exact I| |]; change (mcalls n m []) with m.
  - cbn. rewrite Hvis, Hout. split; [|split; [intros C; contradiction C; reflexivity|split; discriminate]].
    intros Hk. destruct (f_state f'); try discriminate Hk. contradiction.
  - unfold Inv, inv_st. cbn. rewrite Hvis.
    destruct (f_state f') eqn:Es; cbn; try contradiction;
      try (split; [reflexivity|]; split; [apply Hturn; discriminate|reflexivity]).
    + split; [reflexivity|]. rewrite (Hoff eq_refl). repeat split; reflexivity.
    + subst first_app. split; [reflexivity|]. split; [apply Hturn; discriminate|]. split; reflexivity.
Qed.

Lemma outcome_same now m f f' :
  Inv n f m -> f_state f' = f_state f -> f_next_app f' = f_next_app f -> outcome now m [] f'.
Proof.
  intros [Hk [Hturn Hinv]] Hs Hn.
  assert (Hinv' : inv_st n f' m) by (unfold inv_st in *; rewrite Hs, Hn; exact Hinv).
  destruct (in_visit (c_kind m)) eqn:Hvis.
  - apply outcome_visit; [exact Hvis|exact I|cbn; rewrite Hn; exact Hturn|].
    left. split; [exact Hinv'|]. rewrite Hs, <- Hk. exact Hvis.
  - rewrite Hk in Hvis. unfold inv_st in Hinv'. rewrite Hs in Hinv'.
    apply outcome_quiet; [rewrite Hk; exact Hvis| | |intros _; rewrite Hn; exact Hturn|];
      rewrite ?Hs; destruct (f_state f); try discriminate Hvis; try tauto; try discriminate.
Qed.

Lemma outcome_abandon now m f f' :
  Inv n f m -> kind_of (f_state f) = KAwaitDataResponse -> kind_of (f_state f') = KActiveIdle ->
  f_next_app f' = f_next_app f -> outcome now m [] f'.
Proof.
  intros [Hk [Hturn Hinv]] Hs Hs' Hn. apply outcome_intro; [exact I| |]; change (mcalls n m []) with m.
  - cbn. rewrite Hs', Hk, Hs. cbn. unfold inv_st in Hinv.
    destruct (f_state f) as [ | | | | | |a tk fa| | | ]; try discriminate Hs. destruct Hinv as [Ho Hvi].
    split; [discriminate|]. split; [intros _; right; reflexivity|].
    split; [intros _ Hp Hd; exfalso; exact (visit_inv_not_all _ _ _ Hp Hvi Hd)|].
    intros _ [C|[C _]]; [discriminate C|]. destruct (f_state f'); try discriminate Hs'. discriminate C.
  - unfold Inv, inv_st. cbn. rewrite Hs'.
    destruct (f_state f') as [ | | |sr nps cc| | | | | | ]; try discriminate Hs'. cbn.
    split; [reflexivity|]. split; [rewrite Hn; exact Hturn|reflexivity].
Qed.

End Mon.

Definition prologue_state (s s' : state) : Prop :=
  s' = s \/ (in_visit (kind_of s) = false /\ (s' = PassiveIdle \/ s' = ListenToken None 0)).

(* poll_inner_inv, as far as the applications can see.  f3, w3: the station and the world when the dispatch
   is reached, or when the poll ends before it *)
Lemma poll_inner_cases f now busy (w : W) f' w' :
  poll_inner ops f now busy w = Ok (f', w') ->
  exists f3 w3, keepw w w3 /\ keepf f f3 /\ prologue_state (f_state f) (f_state f3) /\
    ((f' = f3 /\ w' = w3) \/ dispatch A ops f3 now w3 = Ok (f', w')).
Proof.
  intros H. apply poll_inner_inv in H as [(_ & _ & -> & ->)|(f2 & w2 & _ & Hpro & H)].
  { exists f, w. split; [apply keepw_refl|]. split; [apply keepf_refl|]. split; [left; reflexivity|left; split; reflexivity]. }
  assert (Hp : keepw w w2 /\ keepf f f2 /\ prologue_state (f_state f) (f_state f2)).
  { destruct Hpro as [(-> & ->)|(s' & -> & -> & Hs)]; [split; [apply keepw_refl|]; split; [apply keepf_refl|left; reflexivity]|].
    frame. right. destruct Hs as [(_ & Ek & ->)|(_ & Ek & ->)]; (split; [destruct (f_state f); try discriminate Ek; reflexivity|]);
      [right|left]; reflexivity. }
  unfold keepw, keepf in Hp. destruct (busy || _).
  - destruct H as (-> & ->). rewrite mark_bus_activity_eq. eexists _, _. split; [|split; [|split; [|left; split; reflexivity]]]; apply Hp.
  - destruct H as (f3 & w3 & Ec & Hd). unfold check_for_bus_activity in Ec.
    destruct (Nat.ltb _ _); injection Ec as <- <-; [rewrite mark_bus_activity_eq in Hd|];
      eexists _, _; (split; [|split; [|split; [|right; exact Hd]]]); apply Hp.
Qed.

Definition quiet_poll (now : Z) (f f' : fdl) : Prop :=
  f_p f' = f_p f /\
  (is_reset f' \/
   (keepf f f' /\ exists s3, prologue_state (f_state f) s3 /\ qstate now s3 (f_state f') /\
                             (in_visit (kind_of s3) = true -> f_state f' = s3))).

Lemma poll_calls_cases f now pin (apps : list A) f' o apps' calls :
  poll ops f now pin apps = Ok (f', o, apps', calls) ->
  (calls = [] /\ apps' = apps /\ quiet_poll now f f' /\
   (in_visit (kind_of (f_state f)) = true -> keepf f f' /\ f_state f' = f_state f)) \/
  (exists f3 w3 w', keepf f f3 /\ f_state f3 = f_state f /\ w_calls w3 = [] /\ w_apps w3 = apps /\
     calls = w_calls w' /\ apps' = w_apps w' /\
     match f_state f with
     | UseToken _ _ _ => do_use_token A ops f3 now w3 = Ok (f', w')
     | AwaitDataResponse _ _ _ => do_await_data_response A ops f3 now w3 = Ok (f', w')
     | _ => False
     end).
Proof.
  unfold poll, poll_traced. intros H.
  destruct (poll_inner ops f now (tx_busy pin) (mkWorld (rx pin) None apps [] [])) as [[f1 w1]| |] eqn:E; cbn [bind] in H; try discriminate H.
  injection H as <- _ <- <-.
  apply poll_inner_cases in E. destruct E as (f3 & w3 & (Hc3 & Ha3) & Kf3 & Hs3 & [(-> & ->)|Hd]); cbn in Hc3, Ha3.
  - left. split; [exact Hc3|]. split; [exact Ha3|]. split; [split; [apply Kf3|right; split; [exact Kf3|]]|].
    + exists (f_state f3). split; [exact Hs3|]. split; [apply qstate_refl|reflexivity].
    + intros Hv. split; [exact Kf3|]. destruct Hs3 as [E|(C & _)]; [exact E|rewrite C in Hv; discriminate Hv].
  - (* in a visit the prologue has left the state alone *)
    assert (Hin : in_visit (kind_of (f_state f3)) = true -> f_state f3 = f_state f).
    { intros Hv. destruct Hs3 as [E|(_ & [E|E])]; [exact E|rewrite E in Hv; discriminate Hv..]. }
    assert (Hq : quiet now f3 w3 f1 w1 -> in_visit (kind_of (f_state f3)) = false ->
                 (w_calls w1 = [] /\ w_apps w1 = apps /\ quiet_poll now f f1 /\
                  (in_visit (kind_of (f_state f)) = true -> keepf f f1 /\ f_state f1 = f_state f))).
    { intros ((Qc & Qa) & Qp & Qd) Hv. split; [congruence|]. split; [congruence|]. split.
      - split; [destruct Kf3 as (Kp & _); congruence|]. destruct Qd as [(K & Q)|R]; [right|left; exact R].
        split; [eapply keepf_trans; eassumption|]. exists (f_state f3). split; [exact Hs3|]. split; [exact Q|].
        intros C. rewrite C in Hv. discriminate Hv.
      - intros C. destruct Hs3 as [E|(C' & _)]; [rewrite <- E, Hv in C|rewrite C' in C]; discriminate C. }
    unfold dispatch in Hd.
    destruct (f_state f3) as [ | | | |tk fa fcd| |a tk fa| | | ] eqn:Es3; cbn [kind_of poll_dispatch] in Hd; try discriminate Hd;
      try (left; apply Hq; [|reflexivity]);
      [apply do_listen_token_quiet|apply do_active_idle_quiet| |apply do_claim_token_quiet|
      |apply squiet_quiet, do_pass_token_squiet|apply squiet_quiet, do_check_token_pass_squiet
      |apply squiet_quiet, do_await_status_response_squiet]; try exact Hd;
      (right; exists f3, w3, w1; rewrite <- (Hin eq_refl); tauto).
Qed.

Section Preserve.
Variable n : nat.       (* number of applications *)

Lemma quiet_poll_outcome now m f f' :
  Inv n f m -> quiet_poll now f f' ->
  (in_visit (kind_of (f_state f)) = true -> keepf f f' /\ f_state f' = f_state f) -> outcome n (ts f) now m [] f'.
Proof.
  intros HI (_ & Hq) Hv. pose proof HI as (Hk & Hturn & Hinv).
  destruct (in_visit (kind_of (f_state f))) eqn:Hin.
  { destruct (Hv eq_refl) as ((_ & Kn & _) & Hs). eapply outcome_same; eassumption. }
  assert (Hout : c_out m = None /\ (f_state f = Offline -> f_next_app f = 0%nat))
    by (unfold inv_st in Hinv; destruct (f_state f); try discriminate Hin; (split; [apply Hinv|first [discriminate|intros _; apply Hinv]])).
  destruct Hout as (Hout & Hoff).
  apply outcome_quiet; [rewrite Hk; exact Hin|exact Hout| | |].
  - destruct Hq as [R|((_ & Kn & _) & s3 & Hp & Q & _)]; [intros _; apply R|]. intros Eo. rewrite Eo in Q. cbn in Q. subst s3.
    rewrite Kn. apply Hoff. destruct Hp as [E|(_ & [E|E])]; [symmetry; exact E|discriminate E..].
  - destruct Hq as [(R & _)|((_ & Kn & _) & _)]; [contradiction|]. intros _. congruence.
  - destruct Hq as [(R & _)|(_ & s3 & Hp & Q & _)]; [rewrite R; exact I|].
    assert (Hs3 : in_visit (kind_of s3) = false) by (destruct Hp as [-> |(_ & [-> | ->])]; [exact Hin|reflexivity..]).
    destruct (f_state f') as [ | | | |tk fa fcd| |a tk fa| | | ]; try exact I; cbn in Q.
    + destruct Q as [Q|Q]; [rewrite <- Q in Hs3; discriminate Hs3|injection Q as _ -> _; reflexivity].
    + rewrite <- Q in Hs3. discriminate Hs3.
Qed.

Lemma poll_preserves f now pin (apps : list A) f' o apps' calls m :
  Inv n f m -> length apps = n -> poll ops f now pin apps = Ok (f', o, apps', calls) ->
  outcome n (ts f) now m calls f' /\ length apps' = n /\ f_p f' = f_p f.
Proof.
  intros HI Hlen H. pose proof HI as (Hk & Hturn & Hinv). apply poll_calls_cases in H.
  destruct H as [(-> & -> & Hq & Hv)|(f3 & w3 & w' & (Kp & Kn & _) & Hs3 & Hc3 & Ha3 & -> & -> & Hd)].
  { split; [exact (quiet_poll_outcome _ _ _ _ HI Hq Hv)|]. split; [exact Hlen|apply Hq]. }
  assert (Hinv3 : inv_st n f3 m) by exact (inv_st_eq n _ _ _ Hs3 Kn Hinv).
  rewrite <- Ha3 in Hlen.
  destruct (f_state f) as [ | | | |tk fa fcd| |a tk fa| | | ] eqn:Es; try contradiction.
  - eapply do_use_token_mon with (tsa := ts f) (m := m) in Hd; [|exact Hlen|rewrite Hk; reflexivity|congruence|exact Hinv3].
    destruct Hd as (l & Hl & Hacc & Hlen' & Hp' & R1 & R2). rewrite Hc3 in Hl. cbn in Hl. rewrite Hl.
    split; [|split; [exact Hlen'|congruence]]. apply outcome_visit; try assumption. rewrite Hk. reflexivity.
  - eapply do_await_data_response_mon with (tsa := ts f) (m := m) in Hd;
      [|unfold ts; rewrite Kp; reflexivity|exact Hlen|exact Hk|congruence|exact Hinv3].
    destruct Hd as (l & Hl & Hacc & Hlen' & Hp' & [(R1 & R2)|(-> & R2 & R3)]); rewrite Hc3 in Hl; cbn in Hl; rewrite Hl;
      (split; [|split; [exact Hlen'|congruence]]).
    + apply outcome_visit; try assumption. rewrite Hk. reflexivity.
    + eapply outcome_abandon; [exact HI|rewrite Es; reflexivity|exact R2|congruence].
Qed.

End Preserve.

(* Histories: arbitrary sequences of polls (any time, any PHY input), set_online / set_offline calls, and
   arbitrary interference of the user with the application objects between polls.  This runner keeps the call
   log as a history of hitems for the monitors; C05Proofs.run_events runs the station alone for the no-panic
   theorem, C05Apps.run_app_events runs it with the DP applications.  Its names shadow FdlOracle.event and
   TokenRing.step / run, which later files therefore qualify. *)

Inductive event : Type :=
| EvPoll (now : Z) (pin : phy_in)
| EvOnline
| EvOffline
| EvUser (g : A -> A).

Definition step (f : fdl) (apps : list A) (e : event) : res (fdl * list A * list hitem) :=
  match e with
  | EvPoll now pin =>
      let* (f', _, apps', calls) := poll ops f now pin apps in
      Ok (f', apps', map HCall calls ++ [HEnd now f'])
  | EvOnline => let* f' := set_online f in Ok (f', apps, [])
  | EvOffline => let* f' := set_offline f in Ok (f', apps, [HReset])
  | EvUser g => Ok (f, map g apps, [])
  end.

Fixpoint run (f : fdl) (apps : list A) (evs : list event) : res (fdl * list A * list hitem) :=
  match evs with
  | [] => Ok (f, apps, [])
  | e :: tl =>
      let* (f1, apps1, h1) := step f apps e in
      let* (f2, apps2, h2) := run f1 apps1 tl in
      Ok (f2, apps2, h1 ++ h2)
  end.

(* A monitor with an invariant J: J is kept by a step when it is kept by a poll, by the re-creation of the
   station, by set_online and by whatever the user does to the applications; and a monitor whose invariant
   is kept by every step accepts every history. *)
Section Invariant.
Variables (S : Type) (pre : S -> hitem -> Prop) (post : S -> hitem -> S) (J : fdl -> list A -> S -> Prop).

Lemma step_invariant :
  (forall f apps m now pin f' o apps' calls,
     J f apps m -> poll ops f now pin apps = Ok (f', o, apps', calls) ->
     let h := map HCall calls ++ [HEnd now f'] in accepts pre post m h /\ J f' apps' (posts post m h)) ->
  (forall f apps m, J f apps m -> J (set_conn f ConnOnline) apps m) ->
  (forall f apps m f', J f apps m -> fdl_new (f_p f) = Ok f' -> pre m HReset /\ J f' apps (post m HReset)) ->
  (forall f apps m g, J f apps m -> J f (map g apps) m) ->
  forall f apps e f' apps' h m,
  J f apps m -> step f apps e = Ok (f', apps', h) -> accepts pre post m h /\ J f' apps' (posts post m h).
Proof.
  intros Jpoll Jonline Jreset Juser f apps e f' apps' h m HJ H. destruct e as [now pin| | |g]; cbn [step] in H.
  - destruct (poll ops f now pin apps) as [[[[f1 o1] a1] calls]| |] eqn:Ep; cbn [bind] in H; try discriminate H.
    injection H as <- <- <-. exact (Jpoll _ _ _ _ _ _ _ _ _ HJ Ep).
  - injection H as <- <- <-. split; [exact I|apply Jonline; exact HJ].
  - unfold set_offline, set_state in H. destruct (fdl_new (f_p f)) as [f1| |] eqn:En; cbn [bind] in H; try discriminate H.
    injection H as <- <- <-. destruct (Jreset _ _ _ _ HJ En) as (Hp & HJ'). split; [split; [exact Hp|exact I]|exact HJ'].
  - injection H as <- <- <-. split; [exact I|apply Juser; exact HJ].
Qed.

Lemma run_invariant :
  (forall f apps e f' apps' h m,
     J f apps m -> step f apps e = Ok (f', apps', h) -> accepts pre post m h /\ J f' apps' (posts post m h)) ->
  forall evs f apps m f' apps' h,
  J f apps m -> run f apps evs = Ok (f', apps', h) -> accepts pre post m h /\ J f' apps' (posts post m h).
Proof.
  intros Hstep. induction evs as [|e tl IH]; intros f apps m f' apps' h HJ H; cbn [run] in H.
  - injection H as <- <- <-. split; [exact I|exact HJ].
  - destruct (step f apps e) as [[[f1 apps1] h1]| |] eqn:Es; cbn [bind] in H; try discriminate H.
    destruct (run f1 apps1 tl) as [[[f2 apps2] h2]| |] eqn:Er; cbn [bind] in H; try discriminate H.
    injection H as <- <- <-.
    destruct (Hstep _ _ _ _ _ _ _ HJ Es) as (A1 & J1). destruct (IH _ _ _ _ _ _ J1 Er) as (A2 & J2).
    split; [apply accepts_app; split; assumption|rewrite posts_app; exact J2].
Qed.
End Invariant.

Definition accepted (n : nat) (tsa : Z) (m : cst) (h : list hitem) : Prop := accepts (cpre n tsa) (cpost n) m h.
Definition after (n : nat) (m : cst) (h : list hitem) : cst := posts (cpost n) m h.

Definition InvC (n : nat) (p : params) (f : fdl) (apps : list A) (m : cst) : Prop :=
  Inv n f m /\ length apps = n /\ f_p f = p.

Lemma step_InvC n p f apps e f' apps' h m :
  InvC n p f apps m -> step f apps e = Ok (f', apps', h) ->
  accepts (cpre n (p_address p)) (cpost n) m h /\ InvC n p f' apps' (posts (cpost n) m h).
Proof.
  revert f apps e f' apps' h m. apply step_invariant.
  - intros f apps m now pin f' o apps' calls (HI & Hlen & Hp) H.
    destruct (poll_preserves n _ _ _ _ _ _ _ _ _ HI Hlen H) as ((Hacc & HI') & Hlen' & Hp').
    unfold ts in Hacc. rewrite Hp in Hacc. split; [exact Hacc|]. split; [exact HI'|]. split; [exact Hlen'|congruence].
  - intros f apps m HI. exact HI.
  - intros f apps m f' (_ & Hlen & Hp) En. apply fdl_new_spec in En. destruct En as ((Rs & _ & Rn & _) & Rp).
    split; [exact I|]. split; [|split; [exact Hlen|congruence]]. unfold Inv, inv_st. rewrite Rs, Rn. cbn. tauto.
  - intros f apps m g (HI & Hlen & Hp). split; [exact HI|]. split; [rewrite map_length; exact Hlen|exact Hp].
Qed.

Lemma step_preserves f apps e f' apps' h m :
  Inv (length apps) f m -> step f apps e = Ok (f', apps', h) ->
  accepted (length apps) (ts f) m h /\ Inv (length apps) f' (after (length apps) m h) /\
  length apps' = length apps /\ f_p f' = f_p f.
Proof.
  intros HI H. destruct (step_InvC _ (f_p f) _ _ _ _ _ _ _ (conj HI (conj eq_refl eq_refl)) H) as (Ha & HI' & Hl & Hp).
  unfold accepted, after. tauto.
Qed.

Theorem run_accepted evs f apps m f' apps' h :
  Inv (length apps) f m -> run f apps evs = Ok (f', apps', h) ->
  accepted (length apps) (ts f) m h /\ Inv (length apps) f' (after (length apps) m h) /\
  length apps' = length apps /\ f_p f' = f_p f.
Proof.
  intros HI H.
  destruct (run_invariant _ _ _ _ (step_InvC (length apps) (f_p f)) _ _ _ _ _ _ _ (conj HI (conj eq_refl eq_refl)) H)
    as (Ha & HI' & Hl & Hp).
  unfold accepted, after. tauto.
Qed.

Lemma Inv_init n p f : fdl_new p = Ok f -> Inv n f cst_init.
Proof.
  intros H. apply fdl_new_spec in H. destruct H as [[Rs [_ [Rn _]]] _].
  unfold Inv, inv_st. rewrite Rs, Rn. cbn. tauto.
Qed.

(* given the decline count, every state determines the monitor state that makes Inv true, if there is one: the
   theorems hold from any such state, not only from the initial one *)
Definition cst_of (f : fdl) (decl : nat) : cst :=
  mkCst (kind_of (f_state f))
        (match f_state f with AwaitDataResponse a _ _ => Some (f_next_app f, a) | _ => None end)
        (f_next_app f) decl.

Lemma poll_calls f now pin (apps : list A) f' o apps' calls :
  poll ops f now pin apps = Ok (f', o, apps', calls) ->
  calls = [] \/
  (exists a t, calls = [CallReceiveReply (f_next_app f) a t] /\ reply_ok (ts f) a t) \/
  (exists pre f3 w3 w',
     ((pre = [] /\ f_state f3 = f_state f) \/
      (exists a tk fa, pre = [CallHandleTimeout (f_next_app f) a] /\ f_state f3 = UseToken tk fa true)) /\
     keepf f f3 /\ w_calls w3 = pre /\ do_use_token A ops f3 now w3 = Ok (f', w') /\ calls = w_calls w').
Proof.
  intros H. apply poll_calls_cases in H.
  destruct H as [(-> & _)|(f3 & w3 & w' & Kf3 & Hs3 & Hc3 & _ & -> & _ & Hd)]; [left; reflexivity|].
  destruct (f_state f) eqn:Es; try contradiction.
  - right. right. exists [], f3, w3, w'. split; [left; split; [reflexivity|exact Hs3]|]. tauto.
  - apply do_await_data_response_split in Hd. destruct Hd as (a & tk & fa & app & _ & _ & Hcases).
    destruct Kf3 as (Kp & Kn & Kl & Ke). unfold ts in *. rewrite Kp, Kn in Hcases.
    destruct Hcases as [(t & app' & Hok & _ & Hc & _)|[((Hw & _) & _)|[((Hw & _) & _)|(app' & f4 & w4 & _ & Hc4 & _ & Kf4 & Es4 & Hdo)]]].
    + right. left. exists a, t. rewrite Hc, Hc3. split; [reflexivity|exact Hok].
    + left. congruence.
    + left. congruence.
    + right. right. exists [CallHandleTimeout (f_next_app f) a], f4, w4, w'. rewrite Hc3 in Hc4.
      split; [right; exists a, tk, fa; split; [reflexivity|exact Es4]|]. split; [eapply keepf_trans; [|exact Kf4]; unfold keepf; tauto|]. tauto.
Qed.

(* C15_delivered_reply_shape for one poll, from ANY state: whatever a poll hands to receive_reply is a
   short confirmation, or a response telegram from the addressed station to this station *)
Lemma poll_reply_shape f now pin (apps : list A) f' o apps' calls i a t :
  poll ops f now pin apps = Ok (f', o, apps', calls) ->
  In (CallReceiveReply i a t) calls -> reply_ok (ts f) a t.
Proof.
  intros H Hin. apply poll_calls in H.
  destruct H as [-> |[(a' & t' & -> & Hok)|(pre & f3 & w3 & w' & Hpre & _ & Hc3 & Hd & ->)]]; [contradiction| |].
  - destruct Hin as [Hin|[]]. injection Hin as _ <- <-. exact Hok.
  - apply do_use_token_hold_rule in Hd. destruct Hd as (l & hp & Hl & Hf & _). rewrite Hl, Hc3 in Hin.
    apply in_app_or in Hin. destruct Hin as [Hin|Hin].
    + destruct Hpre as [(-> & _)|(a0 & tk & fa & -> & _)]; [contradiction|destruct Hin as [C|[]]; discriminate C].
    + rewrite Forall_forall in Hf. destruct (Hf _ Hin) as (j & r & C). discriminate C.
Qed.

Lemma poll_keeps_p f now pin (apps : list A) f' o apps' calls :
  poll ops f now pin apps = Ok (f', o, apps', calls) -> f_p f' = f_p f.
Proof.
  intros H. apply poll_calls_cases in H.
  destruct H as [(_ & _ & (Hp & _) & _)|(f3 & w3 & w' & (Kp & _) & _ & _ & _ & _ & _ & Hd)]; [exact Hp|]. rewrite <- Kp.
  destruct (f_state f); try contradiction; [exact (do_use_token_p _ _ _ _ _ Hd)|].
  apply do_await_data_response_split in Hd. destruct Hd as (a & tk & fa & app & _ & _ & Hcases).
  destruct Hcases as [(t & app' & _ & _ & _ & _ & (Hp & _) & _)|[(_ & (Hp & _) & _)|[(_ & (Hp & _) & _)|(app' & f4 & w4 & _ & _ & _ & (Hp & _) & _ & Hdo)]]];
    try exact Hp. rewrite <- Hp. exact (do_use_token_p _ _ _ _ _ Hdo).
Qed.

Lemma step_keeps_p f apps e f' apps' h : step f apps e = Ok (f', apps', h) -> f_p f' = f_p f.
Proof.
  destruct e as [now pin| | |g]; cbn [step]; intros H.
  - destruct (poll ops f now pin apps) as [[[[f1 o1] a1] calls]| |] eqn:Ep; cbn [bind] in H; try discriminate H.
    injection H as <- _ _. exact (poll_keeps_p _ _ _ _ _ _ _ _ Ep).
  - injection H as <- _ _. reflexivity.
  - unfold set_offline, set_state in H. destruct (fdl_new (f_p f)) as [f1| |] eqn:En; cbn [bind] in H; try discriminate H.
    injection H as <- _ _. apply (fdl_new_spec _ _ En).
  - injection H as <- _ _. reflexivity.
Qed.

Lemma run_calls (P : params -> call -> Prop) :
  (forall f now pin apps f' o apps' calls, poll ops f now pin apps = Ok (f', o, apps', calls) -> Forall (P (f_p f)) calls) ->
  forall evs f apps f' apps' h, run f apps evs = Ok (f', apps', h) -> Forall (P (f_p f)) (calls_of h).
Proof.
  intros Hpoll. induction evs as [|e tl IH]; intros f apps f' apps' h H; cbn [run] in H.
  - injection H as _ _ <-. constructor.
  - destruct (step f apps e) as [[[f1 apps1] h1]| |] eqn:Es; cbn [bind] in H; try discriminate H.
    destruct (run f1 apps1 tl) as [[[f2 apps2] h2]| |] eqn:Er; cbn [bind] in H; try discriminate H.
    injection H as _ _ <-. rewrite calls_of_app. apply Forall_app. rewrite <- (step_keeps_p _ _ _ _ _ _ Es). split; [|exact (IH _ _ _ _ _ Er)].
    destruct e as [now pin| | |g]; cbn [step] in Es.
    + destruct (poll ops f now pin apps) as [[[[f3 o3] a3] c3]| |] eqn:Ep; cbn [bind] in Es; try discriminate Es.
      injection Es as <- _ <-. rewrite calls_of_app, calls_of_map. cbn. rewrite app_nil_r, (poll_keeps_p _ _ _ _ _ _ _ _ Ep).
      exact (Hpoll _ _ _ _ _ _ _ _ Ep).
    + destruct (set_online f); cbn [bind] in Es; try discriminate Es. injection Es as _ _ <-. constructor.
    + destruct (set_offline f); cbn [bind] in Es; try discriminate Es. injection Es as _ _ <-. constructor.
    + injection Es as _ _ <-. constructor.
Qed.

(* C15_delivered_reply_shape over histories, from ANY state *)
Theorem reply_shape_any evs f (apps : list A) f' apps' h i a t :
  run f apps evs = Ok (f', apps', h) -> In (CallReceiveReply i a t) (calls_of h) -> reply_ok (ts f) a t.
Proof.
  intros Hr Hin.
  assert (H : Forall (fun c => forall i a t, c = CallReceiveReply i a t -> reply_ok (ts f) a t) (calls_of h)).
  { refine (run_calls (fun p c => forall i a t, c = CallReceiveReply i a t -> reply_ok (p_address p) a t) _ _ _ _ _ _ _ Hr).
    intros f1 now pin apps1 f1' o apps1' calls Ep. apply Forall_forall. intros c Hc i' a' t' ->.
    exact (poll_reply_shape _ _ _ _ _ _ _ _ _ _ _ Ep Hc). }
  rewrite Forall_forall in H. exact (H _ Hin _ _ _ eq_refl).
Qed.

Theorem history_accepted p f0 (apps : list A) evs f apps' h :
  fdl_new p = Ok f0 -> run f0 apps evs = Ok (f, apps', h) ->
  accepted (length apps) (p_address p) cst_init h /\ Inv (length apps) f (after (length apps) cst_init h).
Proof.
  intros Hn Hr. pose proof (Inv_init (length apps) _ _ Hn) as HI.
  apply (run_accepted _ _ _ _ _ _ _ HI) in Hr. destruct Hr as [Ha [Hi _]].
  apply fdl_new_spec in Hn. destruct Hn as [_ Hp]. unfold ts in Ha. rewrite Hp in Ha. split; assumption.
Qed.

Theorem contract_from_inv f m (apps : list A) evs f' apps' h i :
  Inv (length apps) f m -> run f apps evs = Ok (f', apps', h) ->
  accepts (apre (ts f) i) (apost i) (app_view i m) h.
Proof.
  intros HI Hr. apply (run_accepted _ _ _ _ _ _ _ HI) in Hr. destruct Hr as [Ha _].
  exact (proj1 (accepts_sim _ _ _ _ (app_view i) (fun m x => app_view_sim (length apps) (ts f) i m x) h m Ha)).
Qed.

Theorem contract_history p f0 (apps : list A) evs f apps' h i :
  fdl_new p = Ok f0 -> run f0 apps evs = Ok (f, apps', h) ->
  accepts (apre (p_address p) i) (apost i) (AppIdle, KOffline) h.
Proof.
  intros Hn Hr. pose proof (contract_from_inv _ _ _ _ _ _ _ i (Inv_init (length apps) _ _ Hn) Hr) as H.
  apply fdl_new_spec in Hn. destruct Hn as (_ & Hp). unfold ts in H. rewrite Hp in H. exact H.
Qed.

Theorem routing_history p f0 (apps : list A) evs f apps' h :
  fdl_new p = Ok f0 -> run f0 apps evs = Ok (f, apps', h) ->
  forall pre c post i a, calls_of h = pre ++ c :: post -> answers c i a ->
  exists pre' hp wire, pre = pre' ++ [CallTransmit i hp (Some (wire, Some a))].
Proof.
  intros Hn Hr pre c post i a Heq Ha. destruct (history_accepted _ _ _ _ _ _ _ Hn Hr) as [Hacc _].
  assert (Hro : routed None (calls_of h)) by (eapply accepted_routed; [exact Hacc|intros i0 a0 C; discriminate C]).
  destruct (routed_spec _ _ Hro pre c post i a Heq Ha) as [hp [wire Hl]].
  destruct (@exists_last _ pre) as [pre' [x ->]].
  - intros ->. discriminate Hl.
  - exists pre', hp, wire. rewrite map_app in Hl. cbn [map] in Hl. rewrite last_last in Hl. injection Hl as ->. reflexivity.
Qed.

(* C15_delivered_reply_shape over histories *)
Theorem reply_shape_history p f0 (apps : list A) evs f apps' h i a t :
  fdl_new p = Ok f0 -> run f0 apps evs = Ok (f, apps', h) ->
  In (CallReceiveReply i a t) (calls_of h) -> reply_ok (p_address p) a t.
Proof.
  intros Hn Hr Hin. apply fdl_new_spec in Hn. destruct Hn as (_ & <-). exact (reply_shape_any _ _ _ _ _ _ _ _ _ Hr Hin).
Qed.

Theorem round_robin_from_inv f m (apps : list A) evs f' apps' h :
  Inv (length apps) f m -> run f apps evs = Ok (f', apps', h) ->
  accepts (rpre (length apps)) (rpost (length apps)) (rr_view m) h /\
  r_turn (posts (rpost (length apps)) (rr_view m) h) = f_next_app f'.
Proof.
  intros HI Hr. apply (run_accepted _ _ _ _ _ _ _ HI) in Hr. destruct Hr as (Ha & (_ & Ht & _) & _).
  destruct (accepts_sim _ _ _ _ rr_view (fun m x => rr_view_sim (length apps) (ts f) m x) h m Ha) as (H1 & H2).
  split; [exact H1|]. rewrite <- H2. exact Ht.
Qed.

Theorem round_robin_history p f0 (apps : list A) evs f apps' h :
  fdl_new p = Ok f0 -> run f0 apps evs = Ok (f, apps', h) ->
  accepts (rpre (length apps)) (rpost (length apps)) (mkRr KOffline 0 0) h /\
  r_turn (posts (rpost (length apps)) (mkRr KOffline 0 0) h) = f_next_app f.
Proof. intros Hn Hr. exact (round_robin_from_inv _ _ _ _ _ _ _ (Inv_init (length apps) _ _ Hn) Hr). Qed.

(* C15_zero_apps: history part *)
Theorem zero_apps_history p f0 evs f apps' h :
  fdl_new p = Ok f0 -> run f0 [] evs = Ok (f, apps', h) ->
  calls_of h = [] /\ apps' = [] /\ kind_of (f_state f) <> KAwaitDataResponse.
Proof.
  intros Hn Hr. pose proof (Inv_init 0 _ _ Hn) as HI.
  apply (run_accepted evs f0 (@nil A) cst_init f apps' h HI) in Hr. cbn [length] in Hr. destruct Hr as [Ha [[Hk [_ Hi]] [Hl _]]].
  destruct (accepted_zero_apps _ _ _ Ha eq_refl) as [Hc Ho].
  split; [exact Hc|]. split; [destruct apps'; [reflexivity|discriminate Hl]|].
  intros C. unfold inv_st, after in Hi. destruct (f_state f) as [ | | | | | |a tk fa| | | ]; try discriminate C.
  destruct Hi as [Hi _]. rewrite Ho in Hi. discriminate Hi.
Qed.

Lemma apps_transmit_telegram_zero f now (w : W) hp :
  w_apps w = [] -> apps_transmit_telegram A ops f now w hp = Ok (f, w, false).
Proof. intros H. unfold apps_transmit_telegram. rewrite H. reflexivity. Qed.

(* C15_zero_apps, one-step part: with no application do_use_token asks nobody, never reaches the
   `% apps.len()` of schedule_next_application, and goes on to pass the token - whether or not the hold
   time is over (hypotheses: the deadline of this visit is already computed and the synchronisation
   pause is over; without them the function waits, or computes the deadline first) *)
Lemma do_use_token_zero_apps f (w : W) now tk fa fcd l :
  w_apps w = [] -> f_state f = UseToken tk fa fcd -> f_last_token_time f = tk -> f_lba f = Some l ->
  i64_ok (l + p_bits_to_time (f_p f) sync_pause_bits) = true ->
  l + p_bits_to_time (f_p f) sync_pause_bits < now ->
  exists w1, do_use_token A ops f now w = do_pass_token A (set_st f (PassToken true first_attempt)) now w1 /\
             w_calls w1 = w_calls w /\ w_tx w1 = w_tx w /\ w_apps w1 = [] /\
             forall f' w', do_use_token A ops f now w = Ok (f', w') -> w_calls w' = w_calls w /\ w_apps w' = [].
Proof.
  intros Ha Hst Hlt Hl Hok Hsync.
  assert (Hh : exists w1, do_use_token_head A ops f now w = Ok (set_st f (PassToken true first_attempt), w1) /\
                          w_calls w1 = w_calls w /\ w_tx w1 = w_tx w /\ w_apps w1 = []).
  { unfold do_use_token_head, assert_entry. rewrite Hst. cbn [f_state kind_of do_fn_entry state_kind_eqb bind get_use_token].
    rewrite Hlt, Z.eqb_refl. cbn [negb bind].
    unfold wait_synchronization_pause, lba_get_or_insert. rewrite Hl. unfold inst_add. rewrite Hok. cbn [bind].
    destruct (Z.leb_spec now (l + p_bits_to_time (f_p f) sync_pause_bits)) as [C|_]; [lia|].
    rewrite Hst. cbn [get_use_token bind].
    destruct (now <? f_end_tht f).
    - unfold set_first_cycle_done. rewrite Hst. cbn [get_use_token bind].
      rewrite apps_transmit_telegram_zero by (cbn; exact Ha). cbn [bind].
      unfold trans. cbn. eexists. split; [reflexivity|]. cbn. repeat split; try reflexivity. exact Ha.
    - destruct fcd; cbn [negb bind].
      + unfold trans. rewrite Hst. cbn. eexists. split; [reflexivity|]. cbn. repeat split; try reflexivity. exact Ha.
      + unfold set_first_cycle_done. rewrite Hst. cbn [get_use_token bind].
        rewrite apps_transmit_telegram_zero by (cbn; exact Ha). cbn [bind].
        unfold trans. cbn. eexists. split; [reflexivity|]. cbn. repeat split; try reflexivity. exact Ha. }
  destruct Hh as [w1 [Hh [Hc [Ht Ha1]]]].
  pose proof (do_use_token_pass _ _ _ _ _ _ _ Hh eq_refl) as Hd.
  exists w1. split; [exact Hd|]. split; [exact Hc|]. split; [exact Ht|]. split; [exact Ha1|].
  intros f' w' H. rewrite Hd in H. apply do_pass_token_frame in H. destruct H as [-> [-> _]]. split; assumption.
Qed.

(* Which requests await a reply: every transmit entry of the call log is what the application's
   callback returned; an application that sends through TelegramTx (hypothesis of the section below)
   gets `expects_reply` from the table req_expects_reply (Generated/Tables.v)                            *)

Lemma do_use_token_head_results f now (w : W) f' w' :
  do_use_token_head A ops f now w = Ok (f', w') ->
  exists l, w_calls w' = w_calls w ++ l /\ Forall is_app_result l.
Proof.
  intros H. apply do_use_token_head_inv in H. destruct H as (tk & fa & fcd & f1 & f2 & _ & _ & _ & Hcases).
  destruct Hcases as [(_ & Hw')|[(_ & _ & _ & Hw')|(hp & w2 & f3 & w3 & d & Hw2 & _ & Hloop & Hfin)]].
  - exists []. rewrite app_nil_r. split; [apply Hw'|constructor].
  - exists []. rewrite app_nil_r. split; [apply Hw'|constructor].
  - eapply apps_transmit_loop_spec in Hloop; [|reflexivity]. destruct Hloop as (_ & (l & Hl & Hf) & _).
    exists l. split; [|exact Hf]. destruct Hw2 as (_ & _ & _ & <-). rewrite <- Hl.
    destruct d; [destruct Hfin as (_ & ->); reflexivity|apply Hfin].
Qed.

Lemma do_use_token_results f now (w : W) f' w' :
  do_use_token A ops f now w = Ok (f', w') ->
  exists l, w_calls w' = w_calls w ++ l /\ Forall is_app_result l.
Proof.
  rewrite do_use_token_split. intros H.
  destruct (do_use_token_head A ops f now w) as [[f1 w1]| |] eqn:Eh; cbn [bind] in H; try discriminate H.
  apply do_use_token_head_results in Eh.
  destruct (is_pass_token (f_state f1)); [|injection H as <- <-; exact Eh].
  apply do_pass_token_frame in H. destruct H as [Hc _]. rewrite Hc. exact Eh.
Qed.

Lemma poll_results f now pin (apps : list A) f' o apps' calls :
  poll ops f now pin apps = Ok (f', o, apps', calls) -> Forall is_app_result calls.
Proof.
  intros H. apply poll_calls in H.
  destruct H as [-> |[(a & t & -> & _)|(pre & f3 & w3 & w' & Hpre & _ & Hc3 & Hd & ->)]]; [constructor| |].
  - constructor; [intros i hp r C; discriminate C|constructor].
  - apply do_use_token_results in Hd. destruct Hd as (l & -> & Hf). rewrite Hc3. apply Forall_app. split; [|exact Hf].
    destruct Hpre as [(-> & _)|(a & tk & fa & -> & _)]; [constructor|]. constructor; [intros i hp r C; discriminate C|constructor].
Qed.

Lemma run_results evs f (apps : list A) f' apps' h :
  run f apps evs = Ok (f', apps', h) -> Forall is_app_result (calls_of h).
Proof. apply (run_calls (fun _ => is_app_result)). exact poll_results. Qed.

(* what TelegramTx computes (telegram.rs), through the table req_expects_reply *)
Lemma transmit_expects_reply size rq wire er : transmit size rq = Ok (wire, er) ->
  forall da, er = Some da <->
    exists h pdu fcb r, rq = TxData h pdu /\ h_fc h = FcRequest fcb r /\ req_expects_reply r = true /\ da = h_da h.
Proof.
  intros H da. destruct rq as [h pdu|d s0|]; unfold transmit in H.
  - destruct (encode_data_in size h pdu) as [w0| |]; cbn [bind] in H; try discriminate H. injection H as _ <-.
    unfold tx_expects_reply. split.
    + destruct (h_fc h) as [fcb r|st ss] eqn:Efc; [|discriminate]. destruct (req_expects_reply r) eqn:Er; [|discriminate].
      intros E. injection E as <-. exists h, pdu, fcb, r. repeat split; assumption.
    + intros [h' [pdu' [fcb [r [E [Efc [Er ->]]]]]]]. injection E as <- <-. rewrite Efc, Er. reflexivity.
  - destruct (Nat.ltb size 3); [discriminate H|]. injection H as _ <-.
    split; [discriminate|]. intros [h' [pdu' [fcb [r [E _]]]]]. discriminate E.
  - destruct (Nat.ltb size 1); [discriminate H|]. injection H as _ <-.
    split; [discriminate|]. intros [h' [pdu' [fcb [r [E _]]]]]. discriminate E.
Qed.

Section TelegramTx.
(* the application builds its telegram with the TelegramTx it is handed (any buffer size) *)
Hypothesis app_uses_telegram_tx : forall a now p hp a' wire er,
  a_tx ops a now p hp = Ok (a', Some (wire, er)) -> exists size rq, transmit size rq = Ok (wire, er).

Theorem expects_reply_by_table p f0 (apps : list A) evs f apps' h i hp wire er :
  fdl_new p = Ok f0 -> run f0 apps evs = Ok (f, apps', h) ->
  In (CallTransmit i hp (Some (wire, er))) (calls_of h) ->
  exists size rq, transmit size rq = Ok (wire, er) /\
    forall da, er = Some da <->
      exists hd pdu fcb r, rq = TxData hd pdu /\ h_fc hd = FcRequest fcb r /\ req_expects_reply r = true /\ da = h_da hd.
Proof.
  intros _ Hr Hin. apply run_results in Hr. rewrite Forall_forall in Hr.
  destruct (Hr _ Hin i hp _ eq_refl) as [a [now [p' [a' Htx]]]].
  destruct (app_uses_telegram_tx _ _ _ _ _ _ _ Htx) as [size [rq Ht]].
  exists size, rq. split; [exact Ht|]. exact (transmit_expects_reply _ _ _ _ Ht).
Qed.
End TelegramTx.

End Apps.

Arguments event A : clear implicits.

(* Non-vacuity: a concrete application on a concrete station, run through the model.  The application
   sends one SRD request to station 5 when first asked and declines afterwards; the station holds the
   token (UseToken), the hold time is far away.  Four polls: request sent, PHY still busy, short
   confirmation received, application declines -> the token is passed in that same poll; the
   station is alone in its ring, so it passes the token to itself and its next visit begins. *)
Definition demo_hdr : header := mkHeader 5 2 None None (FcRequest FcbFirst RqSrdLow).
Definition demo_ops : app_ops nat :=
  mkAppOps nat
    (fun a now p hp => match a with
                       | O => match transmit tx_buffer_size (TxData demo_hdr [1; 2]) with
                              | Ok r => Ok (1%nat, Some r) | Panic s => Panic s | OutOfFuel => OutOfFuel
                              end
                       | S _ => Ok (a, None)
                       end)
    (fun a _ _ _ _ => Ok (S a)) (fun a _ _ _ => Ok (S a)).
Definition demo_params : params :=
  mkParams 2 default_baudrate default_slot_bits default_token_rotation_bits default_gap_wait_rotations
           default_highest_station_address default_max_retry_limit default_min_tsdr_bits None.
Definition demo_start : fdl :=
  match fdl_new demo_params with
  | Ok f => mkFdl (f_p f) (f_ring f) ConnOnline (GapWaiting 0) (UseToken 0 None false) (Some 0) 0 0 1000000000 0
  | _ => mkFdl demo_params (mkRing [] LasValid 2 2 2) ConnOffline (GapWaiting 0) Offline None 0 0 0 0
  end.
Definition demo_events : list (event nat) :=
  [EvPoll nat 100000 (mkPhyIn false []); EvPoll nat 100100 (mkPhyIn true []);
   EvPoll nat 200000 (mkPhyIn false [229]); EvPoll nat 300000 (mkPhyIn false [])].
Definition demo_wire : bytes := [104; 5; 5; 104; 5; 2; 108; 1; 2; 118; 22].

Lemma demo_inv : Inv 1 demo_start (cst_of demo_start 0).
Proof. vm_compute. repeat split. Qed.

Lemma demo_history : exists f apps h,
  run nat demo_ops demo_start [0%nat] demo_events = Ok (f, apps, h) /\
  calls_of h = [CallTransmit 0 false (Some (demo_wire, Some 5)); CallReceiveReply 0 5 TShortConf; CallTransmit 0 false None] /\
  f_state f = UseToken 300000 None false /\ apps = [2%nat].
Proof.
  destruct (run nat demo_ops demo_start [0%nat] demo_events) as [[[f apps] h]| |] eqn:E.
  - exists f, apps, h. split; [reflexivity|].
    assert (E' : match run nat demo_ops demo_start [0%nat] demo_events with
                 | Ok (f, apps, h) => (calls_of h, f_state f, apps)
                 | _ => ([], Offline, [])
                 end = ([CallTransmit 0 false (Some (demo_wire, Some 5)); CallReceiveReply 0 5 TShortConf; CallTransmit 0 false None],
                        UseToken 300000 None false, [2%nat])) by (vm_compute; reflexivity).
    rewrite E in E'. injection E' as -> -> ->. repeat split.
  - exfalso. assert (E' : is_ok (run nat demo_ops demo_start [0%nat] demo_events) = true) by (vm_compute; reflexivity).
    rewrite E in E'. discriminate E'.
  - exfalso. assert (E' : is_ok (run nat demo_ops demo_start [0%nat] demo_events) = true) by (vm_compute; reflexivity).
    rewrite E in E'. discriminate E'.
Qed.

(* the acceptors are not trivially true: an unsolicited reply, a reply from the wrong station, a
   transmit call while a reply is outstanding, and an application asked out of turn are rejected *)
Lemma contract_rejects_unsolicited_reply :
  ~ accepts (apre 2 0) (apost 0) (AppIdle, KAwaitDataResponse) [HCall (CallReceiveReply 0 5 TShortConf)].
Proof. cbn. intros [H _]. destruct (H eq_refl) as [C _]. discriminate C. Qed.

Lemma contract_rejects_foreign_reply :
  ~ accepts (apre 2 0) (apost 0) (AppWaiting 5, KAwaitDataResponse)
      [HCall (CallReceiveReply 0 5 (TData (mkHeader 2 7 None None (FcResponse RsSlave StOk)) []))].
Proof.
  cbn. intros [H _]. destruct (H eq_refl) as [_ [C|[h [pdu [st [s [E [_ [Hs _]]]]]]]]]; [discriminate C|].
  injection E as <- <-. cbn in Hs. discriminate Hs.
Qed.

Lemma contract_rejects_second_request :
  ~ accepts (apre 2 0) (apost 0) (AppIdle, KUseToken)
      [HCall (CallTransmit 0 false (Some ([], Some 5))); HCall (CallTransmit 0 false None)].
Proof. cbn. intros [_ [[C _] _]]. discriminate C. Qed.

Lemma round_robin_rejects_out_of_turn :
  ~ accepts (rpre 3) (rpost 3) (mkRr KUseToken 0 0)
      [HCall (CallTransmit 0 false None); HCall (CallTransmit 2 false None)].
Proof. cbn. intros [_ [[C _] _]]. discriminate C. Qed.

(* the hypotheses of the history theorems are satisfiable from a new station: it goes online, listens,
   claims the token after its time-out; then the user touches the applications, the station is set offline and
   online again and polled once more - a run of the model that is Ok *)
Definition demo_init_events : list (event nat) :=
  [EvOnline nat; EvPoll nat 0 (mkPhyIn false []); EvPoll nat 10000000 (mkPhyIn false []);
   EvPoll nat 10000100 (mkPhyIn true []); EvUser nat (fun a => a); EvOffline nat; EvOnline nat;
   EvPoll nat 10000200 (mkPhyIn false [])].

Lemma demo_from_init : exists f0, fdl_new demo_params = Ok f0 /\
  is_ok (run nat demo_ops f0 [0%nat] demo_init_events) = true.
Proof.
  destruct (fdl_new demo_params) as [f0| |] eqn:E.
  - exists f0. split; [reflexivity|].
    assert (E' : match fdl_new demo_params with Ok f0 => is_ok (run nat demo_ops f0 [0%nat] demo_init_events) | _ => false end = true)
      by (vm_compute; reflexivity).
    rewrite E in E'. exact E'.
  - assert (E' : is_ok (fdl_new demo_params) = true) by (vm_compute; reflexivity). rewrite E in E'. discriminate E'.
  - assert (E' : is_ok (fdl_new demo_params) = true) by (vm_compute; reflexivity). rewrite E in E'. discriminate E'.
Qed.
