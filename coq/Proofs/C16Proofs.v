(* C16 - the receive path reassembles the byte stream independent of chunking. *)
From PB Require Import Common Telegram CodecOracle ByteFacts DecodeSpec C09Proofs Params Phy SimBus PhyRx PhyRxOracle.

Lemma decode_spec_accept_bounds l t n : decode_spec l = Accept t n -> (1 <= n <= length l)%nat.
Proof. intros H. apply view_accept_length with t. rewrite <- H. apply decode_view. Qed.

Lemma decode_accept_bounds l t n : decode l = Ok (Accept t n) -> (1 <= n <= length l)%nat.
Proof. rewrite decode_is_spec. intros H. injection H as H. eapply decode_spec_accept_bounds, H. Qed.

Lemma decode_total l : exists d, decode l = Ok d.
Proof. exists (decode_spec l). apply decode_is_spec. Qed.

Lemma frame_len_data h pdu : frame_len (TData h pdu) = telegram_len_data h (length pdu).
Proof. unfold frame_len. cbn [encode]. apply frame_spec_length. Qed.

Lemma frame_len_pos t : (1 <= frame_len t)%nat.
Proof.
  destruct t as [h pdu|da sa|]; [|cbn; lia|cbn; lia].
  rewrite frame_len_data. unfold telegram_len_data, length_byte.
  destruct (_ || _)%bool; lia.
Qed.

Lemma valid_wf_telegram t : valid_telegram t -> wf_telegram t.
Proof. destruct t; cbn [valid_telegram wf_telegram]; [intros ((Hda & Hsa & _) & _); auto|trivial..]. Qed.

Lemma decode_encode t rest : valid_telegram t ->
  decode (encode t ++ rest) = Ok (Accept t (frame_len t)).
Proof. intros V. unfold frame_len. rewrite encode_length. apply decode_encode_telegram, valid_wf_telegram, V. Qed.

Lemma c16_prefix_needmore t k : valid_telegram t -> (k < frame_len t)%nat ->
  decode (firstn k (encode t)) = Ok NeedMore.
Proof. intros V. apply encode_prefix_waits, valid_wf_telegram, V. Qed.

Lemma receive_all_step {St R} (f : St -> telegram -> bool -> res (St * R)) fuel s buf :
  receive_all f (S fuel) s buf =
  match decode_spec buf with
  | Reject => Ok (s, [], None)
  | NeedMore => Ok (s, buf, None)
  | Accept t n =>
      let is_last := Nat.eqb n (length buf) in
      let* x := f s t is_last in
      let '(s', r) := x in
      if is_last then Ok (s', skipn n buf, Some r) else receive_all f fuel s' (skipn n buf)
  end.
Proof.
  cbn [receive_all]. rewrite decode_is_spec. cbn [bind].
  destruct (decode_spec buf) as [| |t n]; reflexivity.
Qed.

Lemma skipn_nil_iff {A} (l : list A) n : (n <= length l)%nat -> (skipn n l = [] <-> n = length l).
Proof.
  intros H. split.
  - intros E. apply (f_equal (@length A)) in E. rewrite skipn_length in E. cbn in E. lia.
  - intros ->. apply skipn_all.
Qed.

Lemma receive_all_is_last {St R} (f : St -> telegram -> bool -> res (St * R)) fuel s buf t n :
  decode buf = Ok (Accept t n) ->
  receive_all f (S fuel) s buf =
  let* x := f s t (is_nil (skipn n buf)) in
  let '(s', r) := x in
  if is_nil (skipn n buf) then Ok (s', [], Some r) else receive_all f fuel s' (skipn n buf).
Proof.
  intros D. pose proof (decode_accept_bounds _ _ _ D) as [_ Hn].
  rewrite receive_all_step. rewrite decode_is_spec in D. injection D as ->. cbv zeta.
  destruct (Nat.eqb_spec n (length buf)) as [E|E].
  - subst n. rewrite skipn_all. reflexivity.
  - destruct (skipn n buf) eqn:SK; [|reflexivity].
    exfalso. apply E. apply skipn_nil_iff; assumption.
Qed.

Lemma receive_all_needmore {St R} (f : St -> telegram -> bool -> res (St * R)) fuel s buf :
  decode buf = Ok NeedMore -> receive_all f (S fuel) s buf = Ok (s, buf, None).
Proof. intros D. rewrite receive_all_step. rewrite decode_is_spec in D. injection D as ->. reflexivity. Qed.

Lemma receive_all_reject {St R} (f : St -> telegram -> bool -> res (St * R)) fuel s buf :
  decode buf = Ok Reject -> receive_all f (S fuel) s buf = Ok (s, [], None).
Proof. intros D. rewrite receive_all_step. rewrite decode_is_spec in D. injection D as ->. reflexivity. Qed.

Lemma receive_all_terminates {St R} (f : St -> telegram -> bool -> res (St * R)) :
  (forall s t l, f s t l <> OutOfFuel) ->
  forall fuel buf s, (length buf < fuel)%nat -> receive_all f fuel s buf <> OutOfFuel.
Proof.
  intros Hf. induction fuel as [|fuel IH]; intros buf s Hl; [lia|].
  rewrite receive_all_step. destruct (decode_spec buf) as [| |t n] eqn:D; try discriminate.
  apply decode_spec_accept_bounds in D. cbv zeta.
  destruct (f s t (Nat.eqb n (length buf))) as [[s' r]| |] eqn:F; cbn [bind]; [|discriminate|exfalso; eapply Hf, F].
  destruct (Nat.eqb n (length buf)); [discriminate|].
  apply IH. rewrite skipn_length. lia.
Qed.

Lemma receive_all_no_panic {St R} (f : St -> telegram -> bool -> res (St * R)) :
  (forall s t l, is_panic (f s t l) = false) ->
  forall fuel buf s, is_panic (receive_all f fuel s buf) = false.
Proof.
  intros Hf. induction fuel as [|fuel IH]; intros buf s; [reflexivity|].
  rewrite receive_all_step. destruct (decode_spec buf) as [| |t n]; try reflexivity.
  cbv zeta. pose proof (Hf s t (Nat.eqb n (length buf))) as F.
  destruct (f s t (Nat.eqb n (length buf))) as [[s' r]| |]; cbn [bind]; [|discriminate F|reflexivity].
  destruct (Nat.eqb n (length buf)); [reflexivity|apply IH].
Qed.

Lemma receive_all_ok {St R} (f : St -> telegram -> bool -> res (St * R)) :
  (forall s t l, exists y, f s t l = Ok y) ->
  forall fuel buf s, (length buf < fuel)%nat -> exists y, receive_all f fuel s buf = Ok y.
Proof.
  intros Hf fuel buf s Hl.
  destruct (receive_all f fuel s buf) as [y|e|] eqn:E; [exists y; reflexivity| |].
  - exfalso. assert (P : is_panic (receive_all f fuel s buf) = false).
    { apply receive_all_no_panic. intros s0 t l. destruct (Hf s0 t l) as [y ->]. reflexivity. }
    rewrite E in P. discriminate.
  - exfalso. revert E. apply receive_all_terminates; [|exact Hl].
    intros s0 t l. destruct (Hf s0 t l) as [y ->]. discriminate.
Qed.

Lemma receive_telegram_total {R} (f : telegram -> R) buf : exists y, receive_telegram f buf = Ok y.
Proof.
  unfold receive_telegram. rewrite decode_is_spec. cbn [bind].
  destruct (decode_spec buf); eexists; reflexivity.
Qed.

Lemma app_split_le {A} (c : list A) : forall a b d, a ++ b = c ++ d -> (length c <= length a)%nat ->
  exists a', a = c ++ a' /\ a' ++ b = d.
Proof.
  induction c as [|x c IH]; intros a b d E L.
  - exists a. split; [reflexivity|exact E].
  - destruct a as [|y a]; [cbn in L; lia|]. cbn [app] in E. injection E as -> E.
    destruct (IH a b d E) as (a' & -> & E'); [cbn in L; lia|]. exists a'. split; [reflexivity|exact E'].
Qed.

Lemma app_prefix {A} (a : list A) : forall b c d, a ++ b = c ++ d -> (length a <= length c)%nat ->
  a = firstn (length a) c.
Proof.
  induction a as [|x a IH]; intros b c d E L; [reflexivity|].
  destruct c as [|y c]; [cbn in L; lia|]. cbn [app] in E. injection E as -> E.
  cbn [length firstn]. f_equal. eapply IH; [exact E|cbn in L; lia].
Qed.

Lemma take_frames_zero ts : take_frames ts 0 = ([], ts, 0%nat).
Proof.
  destruct ts as [|t ts]; [reflexivity|]. cbn [take_frames].
  pose proof (frame_len_pos t). destruct (Nat.leb_spec (frame_len t) 0); [lia|reflexivity].
Qed.

Lemma take_frames_le ts : forall n, (snd (take_frames ts n) <= n)%nat.
Proof.
  induction ts as [|t ts IH]; intros n; [cbn; lia|]. cbn [take_frames].
  destruct (Nat.leb_spec (frame_len t) n) as [L|L]; [|cbn; lia].
  specialize (IH (n - frame_len t)%nat). destruct (take_frames ts (n - frame_len t)) as [[d rem] r]. cbn [snd] in *. lia.
Qed.

Lemma stream_cons t ts : stream (t :: ts) = encode t ++ stream ts.
Proof. reflexivity. Qed.

(* one poll on a fault-free stream: buf is what has arrived of stream ts (fut is still to come);
   any callback, any state *)
Lemma receive_all_stream {St R} (f : St -> telegram -> bool -> res (St * R)) :
  forall ts buf fut fuel s, Forall valid_telegram ts -> buf ++ fut = stream ts -> (length buf < fuel)%nat ->
  receive_all f fuel s buf =
  let '(d, rem, r) := take_frames ts (length buf) in
  let* x := feed f s d in
  let '(s', ro) := x in
  Ok (s', skipn (length buf - r) buf, ro).
Proof.
  induction ts as [|t ts IH]; intros buf fut fuel s V E Hf.
  - apply app_eq_nil in E. destruct E as [-> _]. destruct fuel as [|fuel]; [lia|]. reflexivity.
  - destruct fuel as [|fuel]; [lia|]. inversion V as [|? ? Vt Vts]; subst.
    rewrite stream_cons in E. cbn [take_frames].
    destruct (Nat.leb_spec (frame_len t) (length buf)) as [L|L].
    + destruct (app_split_le _ _ _ _ E L) as (buf' & -> & E').
      rewrite (receive_all_is_last f fuel s _ t (frame_len t)) by (apply decode_encode, Vt).
      rewrite skipn_app_exact by reflexivity.
      rewrite app_length. fold (frame_len t).
      replace (frame_len t + length buf' - frame_len t)%nat with (length buf') by lia.
      destruct buf' as [|b buf'].
      * (* the frame ends the buffer: flagged last *)
        cbn [is_nil length]. rewrite take_frames_zero.
        replace (Nat.eqb (frame_len t) (frame_len t + 0)) with true by (symmetry; apply Nat.eqb_eq; lia).
        cbn [feed]. destruct (f s t true) as [[s' r0]| |]; cbn [bind]; try reflexivity.
        rewrite Nat.sub_0_r. rewrite skipn_all2 by (rewrite app_length; cbn [length]; unfold frame_len; lia). reflexivity.
      * cbn [is_nil].
        replace (Nat.eqb (frame_len t) (frame_len t + length (b :: buf'))) with false
          by (symmetry; apply Nat.eqb_neq; cbn [length]; lia).
        rewrite app_length in Hf. fold (frame_len t) in Hf. pose proof (frame_len_pos t) as P.
        pose proof (take_frames_le ts (length (b :: buf'))) as TL.
        destruct (take_frames ts (length (b :: buf'))) as [[d rem] r] eqn:TF. cbn [snd] in TL.
        cbn [feed]. destruct (f s t false) as [[s' r0]| |]; cbn [bind]; try reflexivity.
        rewrite (IH (b :: buf') fut fuel s' Vts E') by lia. rewrite TF.
        destruct (feed f s' d) as [[s'' ro]| |]; cbn [bind]; try reflexivity.
        do 2 f_equal. f_equal.
        replace (frame_len t + length (b :: buf') - r)%nat with (length (encode t) + (length (b :: buf') - r))%nat
          by (unfold frame_len; lia).
        rewrite <- skipn_skipn'. rewrite skipn_app_exact by reflexivity. reflexivity.
    + (* the first outstanding frame is incomplete: nothing delivered, nothing dropped *)
      assert (PF : buf = firstn (length buf) (encode t)).
      { eapply app_prefix; [exact E|unfold frame_len in L; lia]. }
      rewrite receive_all_needmore by (rewrite PF; apply c16_prefix_needmore; [exact Vt|exact L]).
      cbn [feed bind]. rewrite Nat.sub_diag. reflexivity.
Qed.

(* only the last entry of a log may carry is_last *)
Fixpoint sane (d : rlog) : Prop :=
  match d with
  | [] => True
  | (_, l) :: d' => (l = true -> d' = []) /\ sane d'
  end.

Lemma take_frames_sane ts : forall n, sane (fst (fst (take_frames ts n))).
Proof.
  induction ts as [|t ts IH]; intros n; [exact I|]. cbn [take_frames].
  destruct (Nat.leb_spec (frame_len t) n) as [L|L]; [|exact I].
  specialize (IH (n - frame_len t)%nat).
  destruct (take_frames ts (n - frame_len t)) as [[d rem] r] eqn:TF. cbn [fst] in *. split; [|exact IH].
  intros E. apply Nat.eqb_eq in E. replace (n - frame_len t)%nat with 0%nat in TF by lia.
  rewrite take_frames_zero in TF. injection TF as <- _ _. reflexivity.
Qed.

Lemma ret_all_cons_false t d : ret_all ((t, false) :: d) = ret_all d.
Proof. unfold ret_all. destruct d as [|x d]; reflexivity. Qed.

Lemma feed_rec d : forall log, sane d -> feed rec_cb log d = Ok (log ++ d, ret_all d).
Proof.
  induction d as [|[t l] d IH]; intros log Sn.
  - cbn [feed]. rewrite app_nil_r. reflexivity.
  - destruct Sn as [Sl Sd]. cbn [feed rec_cb bind]. destruct l.
    + rewrite (Sl eq_refl). reflexivity.
    + rewrite (IH _ Sd). rewrite <- app_assoc. cbn [app]. rewrite ret_all_cons_false. reflexivity.
Qed.

Lemma poll_all_stream ts buf fut : Forall valid_telegram ts -> buf ++ fut = stream ts ->
  poll_all buf =
  let '(d, rem, r) := take_frames ts (length buf) in Ok (mkPO d (ret_all d) (skipn (length buf - r) buf)).
Proof.
  intros V E. unfold poll_all, receive_all_fuel.
  rewrite (receive_all_stream rec_cb ts buf fut (S (length buf)) [] V E) by lia.
  pose proof (take_frames_sane ts (length buf)) as Sn.
  destruct (take_frames ts (length buf)) as [[d rem] r]. cbn [fst] in Sn.
  rewrite (feed_rec d [] Sn). reflexivity.
Qed.

Lemma stream_app a b : stream (a ++ b) = stream a ++ stream b.
Proof. unfold stream. rewrite map_app, concat_app. reflexivity. Qed.

Lemma take_frames_split ts : forall buf fut, buf ++ fut = stream ts ->
  let '(d, rem, r) := take_frames ts (length buf) in
  let tail := skipn (length buf - r) buf in
  ts = map fst d ++ rem /\ buf = stream (map fst d) ++ tail /\ tail ++ fut = stream rem /\
  length tail = r /\ short rem tail.
Proof.
  induction ts as [|t ts IH]; intros buf fut E.
  - apply app_eq_nil in E. destruct E as [-> ->]. cbn. repeat split; reflexivity.
  - rewrite stream_cons in E. cbn [take_frames].
    destruct (Nat.leb_spec (frame_len t) (length buf)) as [L|L].
    + destruct (app_split_le _ _ _ _ E L) as (buf' & -> & E').
      rewrite app_length. fold (frame_len t).
      replace (frame_len t + length buf' - frame_len t)%nat with (length buf') by lia.
      specialize (IH buf' fut E'). pose proof (take_frames_le ts (length buf')) as TL.
      destruct (take_frames ts (length buf')) as [[d rem] r]. cbn [snd] in TL. cbv zeta in *.
      destruct IH as (I1 & I2 & I3 & I4 & I5).
      replace (skipn (frame_len t + length buf' - r) (encode t ++ buf')) with (skipn (length buf' - r) buf').
      2:{ replace (frame_len t + length buf' - r)%nat with (length (encode t) + (length buf' - r))%nat by (unfold frame_len; lia).
          rewrite <- skipn_skipn'. rewrite skipn_app_exact by reflexivity. reflexivity. }
      cbn [map fst]. rewrite stream_cons. repeat split; try assumption.
      * cbn [app]. f_equal. exact I1.
      * rewrite <- app_assoc. f_equal. exact I2.
    + rewrite Nat.sub_diag. cbn [skipn map stream concat app]. repeat split; try assumption; try reflexivity.
Qed.

Lemma short_stream_nil ts buf : short ts buf -> buf = stream ts -> ts = [].
Proof.
  destruct ts as [|t ts]; [reflexivity|]. cbn [short]. intros S ->. exfalso.
  rewrite stream_cons, app_length in S. unfold frame_len in S. lia.
Qed.

Lemma last_default {A} (l : list A) x d d' : last (x :: l) d = last (x :: l) d'.
Proof. revert x. induction l as [|y l IH]; intros x; [reflexivity|]. cbn [last] in *. apply IH. Qed.

Lemma final_buffer_cons buf o outs : final_buffer buf (o :: outs) = final_buffer (po_rest o) outs.
Proof.
  unfold final_buffer. cbn [map]. destruct (map po_rest outs) as [|x l]; [reflexivity|].
  change (last (po_rest o :: x :: l) buf) with (last (x :: l) buf). apply last_default.
Qed.

Lemma run_polls_all_stream : forall cs ts buf, Forall valid_telegram ts -> buf ++ concat cs = stream ts ->
  exists outs, run_polls poll_all buf cs = Ok outs /\
    map obs_of outs = spec_polls true ts (length buf) (map (@length Z) cs) /\
    history_ok ts buf cs outs /\
    (short ts buf -> delivered outs = ts /\ final_buffer buf outs = []).
Proof.
  induction cs as [|c cs IH]; intros ts buf V E.
  - exists []. cbn. repeat split; try reflexivity; cbn [concat] in E; rewrite app_nil_r in E.
    + symmetry. eapply short_stream_nil; eassumption.
    + unfold final_buffer. cbn. pose proof (short_stream_nil _ _ H E) as ->. exact E.
  - cbn [concat] in E. rewrite app_assoc in E. cbn [run_polls].
    rewrite (poll_all_stream ts (buf ++ c) (concat cs) V E).
    pose proof (take_frames_split ts (buf ++ c) (concat cs) E) as SP.
    cbn [map spec_polls]. unfold spec_poll. rewrite <- app_length.
    destruct (take_frames ts (length (buf ++ c))) as [[d rem] r]. cbv zeta in SP.
    destruct SP as (S1 & S2 & S3 & S4 & S5). cbn [bind po_rest].
    assert (Vr : Forall valid_telegram rem) by (rewrite S1 in V; apply Forall_app in V; apply V).
    destruct (IH rem _ Vr S3) as (outs & R & O & H & F). rewrite R. cbn [bind].
    eexists. split; [reflexivity|]. split; [|split].
    + cbn [map]. unfold obs_of at 1. cbn [po_deliv po_ret po_rest]. rewrite S4. f_equal. rewrite <- S4. exact O.
    + cbn [history_ok po_deliv po_rest]. exists rem. repeat split; assumption.
    + intros _. destruct (F S5) as [F1 F2]. split.
      * unfold delivered in *. cbn [map concat po_deliv]. rewrite map_app, F1. symmetry. exact S1.
      * rewrite final_buffer_cons. exact F2.
Qed.

Lemma short_nil ts : short ts [].
Proof. destruct ts as [|t ts]; [reflexivity|cbn; apply frame_len_pos]. Qed.

Lemma reassembly_all ts cs : Forall valid_telegram ts -> concat cs = stream ts ->
  exists outs, run_polls poll_all [] cs = Ok outs /\
    delivered outs = ts /\ final_buffer [] outs = [] /\
    map obs_of outs = spec_polls true ts 0 (map (@length Z) cs).
Proof.
  intros V E. destruct (run_polls_all_stream cs ts [] V E) as (outs & R & O & _ & F).
  destruct (F (short_nil ts)) as [F1 F2]. exists outs. repeat split; assumption.
Qed.

Lemma history_all ts cs : Forall valid_telegram ts -> concat cs = stream ts ->
  exists outs, run_polls poll_all [] cs = Ok outs /\ history_ok ts [] cs outs.
Proof.
  intros V E. destruct (run_polls_all_stream cs ts [] V E) as (outs & R & _ & H & _).
  exists outs. split; assumption.
Qed.

Lemma poll_single_stream ts buf fut : Forall valid_telegram ts -> buf ++ fut = stream ts ->
  poll_single buf =
  let '(d, rem, r) := take_one ts (length buf) in Ok (mkPO d (ret_one d) (skipn (length buf - r) buf)).
Proof.
  intros V E. unfold poll_single, receive_telegram. destruct ts as [|t ts].
  - apply app_eq_nil in E. destruct E as [-> _]. reflexivity.
  - inversion V as [|? ? Vt Vts]; subst. rewrite stream_cons in E. cbn [take_one].
    destruct (Nat.leb_spec (frame_len t) (length buf)) as [L|L].
    + destruct (app_split_le _ _ _ _ E L) as (buf' & -> & E').
      rewrite decode_encode by exact Vt. cbn [bind ret_one].
      rewrite skipn_app_exact by reflexivity.
      rewrite app_length. fold (frame_len t).
      replace (frame_len t + length buf' - (frame_len t + length buf' - frame_len t))%nat with (length (encode t)) by (unfold frame_len; lia).
      rewrite skipn_app_exact by reflexivity. reflexivity.
    + assert (PF : buf = firstn (length buf) (encode t)).
      { eapply app_prefix; [exact E|unfold frame_len in L; lia]. }
      rewrite PF at 1. rewrite c16_prefix_needmore by assumption. cbn [bind ret_one].
      rewrite Nat.sub_diag. reflexivity.
Qed.

Lemma take_one_split ts buf fut : buf ++ fut = stream ts ->
  let '(d, rem, r) := take_one ts (length buf) in
  let tail := skipn (length buf - r) buf in
  ts = map fst d ++ rem /\ buf = stream (map fst d) ++ tail /\ tail ++ fut = stream rem /\ length tail = r.
Proof.
  intros E. destruct ts as [|t ts].
  - apply app_eq_nil in E. destruct E as [-> ->]. cbn. repeat split; reflexivity.
  - rewrite stream_cons in E. cbn [take_one].
    destruct (Nat.leb_spec (frame_len t) (length buf)) as [L|L].
    + destruct (app_split_le _ _ _ _ E L) as (buf' & -> & E'). cbv zeta.
      rewrite app_length. fold (frame_len t).
      replace (frame_len t + length buf' - (frame_len t + length buf' - frame_len t))%nat with (length (encode t)) by (unfold frame_len; lia).
      rewrite skipn_app_exact by reflexivity. cbn [map fst]. unfold stream at 1. cbn [map concat]. rewrite app_nil_r.
      repeat split; try assumption; try reflexivity. lia.
    + cbv zeta. rewrite Nat.sub_diag. cbn [skipn map stream concat app]. repeat split; try assumption; reflexivity.
Qed.

Lemma run_polls_single_stream : forall cs ts buf, Forall valid_telegram ts -> buf ++ concat cs = stream ts ->
  exists outs, run_polls poll_single buf cs = Ok outs /\
    map obs_of outs = spec_polls false ts (length buf) (map (@length Z) cs) /\
    exists rem, ts = delivered outs ++ rem /\ final_buffer buf outs = stream rem.
Proof.
  induction cs as [|c cs IH]; intros ts buf V E.
  - exists []. cbn. repeat split; try reflexivity. exists ts. cbn [concat] in E. rewrite app_nil_r in E.
    split; [reflexivity|exact E].
  - cbn [concat] in E. rewrite app_assoc in E. cbn [run_polls].
    rewrite (poll_single_stream ts (buf ++ c) (concat cs) V E).
    pose proof (take_one_split ts (buf ++ c) (concat cs) E) as SP.
    cbn [map spec_polls]. unfold spec_poll. rewrite <- app_length.
    destruct (take_one ts (length (buf ++ c))) as [[d rem] r]. cbv zeta in SP.
    destruct SP as (S1 & S2 & S3 & S4). cbn [bind po_rest].
    assert (Vr : Forall valid_telegram rem) by (rewrite S1 in V; apply Forall_app in V; apply V).
    destruct (IH rem _ Vr S3) as (outs & R & O & rem' & F1 & F2). rewrite R. cbn [bind].
    eexists. split; [reflexivity|]. split.
    + cbn [map]. unfold obs_of at 1. cbn [po_deliv po_ret po_rest]. rewrite S4. f_equal. rewrite <- S4. exact O.
    + exists rem'. split.
      * unfold delivered in *. cbn [map concat po_deliv]. rewrite map_app, <- app_assoc, <- F1. exact S1.
      * rewrite final_buffer_cons. exact F2.
Qed.

Lemma run_polls_single_drain : forall k ts, Forall valid_telegram ts -> (length ts <= k)%nat ->
  exists outs, run_polls poll_single (stream ts) (repeat [] k) = Ok outs /\
    delivered outs = ts /\ final_buffer (stream ts) outs = [].
Proof.
  induction k as [|k IH]; intros ts V L.
  - destruct ts; [|cbn in L; lia]. exists []. repeat split; reflexivity.
  - cbn [repeat run_polls]. rewrite app_nil_r. destruct ts as [|t ts].
    + cbn [stream map concat].
      assert (P0 : poll_single [] = Ok (mkPO [] None [])) by reflexivity. rewrite P0. cbn [bind po_rest].
      destruct (IH [] V ltac:(cbn; lia)) as (outs & R & D & F). cbn [stream map concat] in R, F. rewrite R. cbn [bind].
      eexists. split; [reflexivity|]. split.
      * unfold delivered in *. cbn [map concat po_deliv app]. exact D.
      * rewrite final_buffer_cons. exact F.
    + inversion V as [|? ? Vt Vts]; subst.
      rewrite (poll_single_stream (t :: ts) (stream (t :: ts)) [] V) by apply app_nil_r.
      cbn [take_one]. rewrite stream_cons, app_length. fold (frame_len t).
      destruct (Nat.leb_spec (frame_len t) (frame_len t + length (stream ts))) as [_|H]; [|lia].
      replace (frame_len t + length (stream ts) - (frame_len t + length (stream ts) - frame_len t))%nat with (length (encode t)) by (unfold frame_len; lia).
      rewrite skipn_app_exact by reflexivity. cbn [bind po_rest].
      destruct (IH ts Vts ltac:(cbn in L; lia)) as (outs & R & D & F). rewrite R. cbn [bind].
      eexists. split; [reflexivity|]. split.
      * unfold delivered in *. cbn [map concat po_deliv app fst]. f_equal. exact D.
      * rewrite final_buffer_cons. exact F.
Qed.

Lemma run_polls_app poll : forall cs1 cs2 buf,
  run_polls poll buf (cs1 ++ cs2) =
  let* o1 := run_polls poll buf cs1 in
  let* o2 := run_polls poll (final_buffer buf o1) cs2 in
  Ok (o1 ++ o2).
Proof.
  induction cs1 as [|c cs1 IH]; intros cs2 buf.
  - cbn [app run_polls bind]. unfold final_buffer. cbn [map last].
    destruct (run_polls poll buf cs2); reflexivity.
  - cbn [app run_polls]. destruct (poll (buf ++ c)) as [o| |]; cbn [bind]; try reflexivity.
    rewrite IH. destruct (run_polls poll (po_rest o) cs1) as [o1| |]; cbn [bind]; try reflexivity.
    rewrite final_buffer_cons.
    destruct (run_polls poll (final_buffer (po_rest o) o1) cs2); reflexivity.
Qed.

Lemma delivered_app a b : delivered (a ++ b) = delivered a ++ delivered b.
Proof. unfold delivered. rewrite map_app, concat_app, map_app. reflexivity. Qed.

Lemma final_buffer_app buf a b : final_buffer buf (a ++ b) = final_buffer (final_buffer buf a) b.
Proof.
  revert buf. induction a as [|o a IH]; intros buf; [reflexivity|].
  cbn [app]. rewrite !final_buffer_cons. apply IH.
Qed.

Lemma run_polls_single_complete cs ts : Forall valid_telegram ts -> concat cs = stream ts ->
  exists outs, run_polls poll_single [] (cs ++ repeat [] (length ts)) = Ok outs /\
    delivered outs = ts /\ final_buffer [] outs = [].
Proof.
  intros V E. destruct (run_polls_single_stream cs ts [] V E) as (o1 & R1 & _ & rem & D1 & F1).
  rewrite run_polls_app, R1. cbn [bind]. rewrite F1.
  assert (Vr : Forall valid_telegram rem) by (rewrite D1 in V; apply Forall_app in V; apply V).
  assert (Lr : (length rem <= length ts)%nat).
  { apply (f_equal (@length telegram)) in D1. rewrite app_length in D1. lia. }
  destruct (run_polls_single_drain (length ts) rem Vr Lr) as (o2 & R2 & D2 & F2). rewrite R2. cbn [bind].
  eexists. split; [reflexivity|]. split.
  - rewrite delivered_app, D2. symmetry. exact D1.
  - rewrite final_buffer_app, F1. exact F2.
Qed.

Lemma poll_all_reject buf : decode buf = Ok Reject -> poll_all buf = Ok (mkPO [] None []).
Proof. intros D. unfold poll_all, receive_all_fuel. rewrite receive_all_reject by exact D. reflexivity. Qed.

Lemma poll_single_reject buf : decode buf = Ok Reject -> poll_single buf = Ok (mkPO [] None []).
Proof. intros D. unfold poll_single, receive_telegram. rewrite D. reflexivity. Qed.

Lemma resync_all garbage cs ts : decode garbage = Ok Reject -> Forall valid_telegram ts -> concat cs = stream ts ->
  exists outs, run_polls poll_all [] (garbage :: cs) = Ok (mkPO [] None [] :: outs) /\
    delivered outs = ts /\ final_buffer [] outs = [] /\
    map obs_of outs = spec_polls true ts 0 (map (@length Z) cs).
Proof.
  intros D V E. cbn [run_polls app]. rewrite (poll_all_reject _ D). cbn [bind po_rest].
  destruct (reassembly_all ts cs V E) as (outs & R & H). rewrite R. exists outs. split; [reflexivity|exact H].
Qed.

Lemma resync_single garbage cs ts : decode garbage = Ok Reject -> Forall valid_telegram ts -> concat cs = stream ts ->
  exists outs, run_polls poll_single [] (garbage :: cs ++ repeat [] (length ts)) = Ok (mkPO [] None [] :: outs) /\
    delivered outs = ts /\ final_buffer [] outs = [].
Proof.
  intros D V E. cbn [run_polls app]. rewrite (poll_single_reject _ D). cbn [bind po_rest].
  destruct (run_polls_single_complete cs ts V E) as (outs & R & F1 & F2). rewrite R. cbn [bind].
  exists outs. repeat split; assumption.
Qed.

Lemma telegram_eqb_refl t : telegram_eqb t t = true.
Proof.
  destruct t as [h pdu|da sa|]; cbn [telegram_eqb]; [|rewrite !Z.eqb_refl; reflexivity|reflexivity].
  unfold header_eqb, fcode_eqb. rewrite !Z.eqb_refl, !opt_eqb_refl, bytes_eqb_refl. reflexivity.
Qed.

Lemma rlog_eqb_refl d : rlog_eqb d d = true.
Proof. induction d as [|[t l] d IH]; [reflexivity|]. cbn [rlog_eqb]. rewrite telegram_eqb_refl, IH. destruct l; reflexivity. Qed.

Lemma obs_eqb_refl o : obs_eqb o o = true.
Proof.
  unfold obs_eqb. rewrite rlog_eqb_refl, Nat.eqb_refl. destruct (ob_ret o); cbn [opt_telegram_eqb]; [rewrite telegram_eqb_refl|]; reflexivity.
Qed.

Lemma obs_list_eqb_refl l : obs_list_eqb l l = true.
Proof. induction l as [|o l IH]; [reflexivity|]. cbn [obs_list_eqb]. rewrite obs_eqb_refl, IH. reflexivity. Qed.

Lemma oracle_accepts_model (all : bool) cs ts : Forall valid_telegram ts -> concat cs = stream ts ->
  exists outs, run_polls (if all then poll_all else poll_single) [] cs = Ok outs /\
    c16_clean_ok all ts (map (@length Z) cs) (map obs_of outs) = true.
Proof.
  intros V E. destruct all.
  - destruct (run_polls_all_stream cs ts [] V E) as (outs & R & O & _). exists outs. split; [exact R|].
    unfold c16_clean_ok. rewrite O. apply obs_list_eqb_refl.
  - destruct (run_polls_single_stream cs ts [] V E) as (outs & R & O & _). exists outs. split; [exact R|].
    unfold c16_clean_ok. rewrite O. apply obs_list_eqb_refl.
Qed.

Lemma receive_all_phy_refines {P St R} (ops : phy_ops P) (f : St -> telegram -> bool -> res (St * R)) :
  phy_coherent ops ->
  forall fuel s p buf, phy_view ops p = Ok buf ->
  match receive_all f fuel s buf with
  | Ok (s', rest, r) => exists p', receive_all_phy ops f fuel s p = Ok (s', p', r) /\ phy_view ops p' = Ok rest
  | Panic e => receive_all_phy ops f fuel s p = Panic e
  | OutOfFuel => receive_all_phy ops f fuel s p = OutOfFuel
  end.
Proof.
  intros C. induction fuel as [|fuel IH]; intros s p buf Vw; [reflexivity|].
  rewrite receive_all_step. cbn [receive_all_phy]. unfold receive_data_phy. rewrite Vw. cbn [bind].
  rewrite decode_is_spec. cbn [bind].
  destruct (decode_spec buf) as [| |t n] eqn:D; cbn [bind].
  - destruct (Nat.ltb_spec (length buf) 0) as [H|_]; [lia|]. cbn [bind].
    exists (phy_drop ops p 0). split; [reflexivity|]. rewrite (C p buf 0%nat Vw) by lia. reflexivity.
  - destruct (Nat.ltb_spec (length buf) (length buf)) as [H|_]; [lia|]. cbn [bind].
    exists (phy_drop ops p (length buf)). split; [reflexivity|]. rewrite (C p buf _ Vw) by lia. rewrite skipn_all. reflexivity.
  - apply decode_spec_accept_bounds in D. cbv zeta.
    destruct (f s t (Nat.eqb n (length buf))) as [[s' r]| |]; cbn [bind]; try reflexivity.
    destruct (Nat.ltb_spec (length buf) n) as [H|_]; [lia|]. cbn [bind].
    pose proof (C p buf n Vw ltac:(lia)) as Vw'.
    destruct (Nat.eqb n (length buf)).
    + exists (phy_drop ops p n). split; [reflexivity|exact Vw'].
    + apply IH. exact Vw'.
Qed.

Lemma receive_telegram_phy_refines {P R} (ops : phy_ops P) (f : telegram -> R) :
  phy_coherent ops ->
  forall p buf, phy_view ops p = Ok buf ->
  exists rest r p', receive_telegram f buf = Ok (rest, r) /\
    receive_telegram_phy ops f p = Ok (p', r) /\ phy_view ops p' = Ok rest.
Proof.
  intros C p buf Vw. unfold receive_telegram, receive_telegram_phy, receive_data_phy. rewrite Vw. cbn [bind].
  rewrite decode_is_spec. cbn [bind].
  destruct (decode_spec buf) as [| |t n] eqn:D; cbn [bind].
  - destruct (Nat.ltb_spec (length buf) 0) as [H|_]; [lia|].
    do 3 eexists. split; [reflexivity|]. split; [reflexivity|]. rewrite (C p buf 0%nat Vw) by lia. reflexivity.
  - destruct (Nat.ltb_spec (length buf) (length buf)) as [H|_]; [lia|].
    do 3 eexists. split; [reflexivity|]. split; [reflexivity|]. rewrite (C p buf _ Vw) by lia. rewrite skipn_all. reflexivity.
  - apply decode_spec_accept_bounds in D.
    destruct (Nat.ltb_spec (length buf) n) as [H|_]; [lia|].
    do 3 eexists. split; [reflexivity|]. split; [reflexivity|]. apply C; [exact Vw|lia].
Qed.

Lemma buf_phy_coherent : phy_coherent buf_phy.
Proof. intros p buf n Vw _. cbn in *. injection Vw as ->. reflexivity. Qed.

Lemma slice_ok l a b buf : slice l a b = Ok buf ->
  (a <= b <= length l)%nat /\ buf = firstn (b - a) (skipn a l) /\ length buf = (b - a)%nat.
Proof.
  unfold slice. destruct (Nat.ltb_spec b a) as [H|H]; [discriminate|].
  destruct (Nat.ltb_spec (length l) b) as [H'|H']; [discriminate|].
  intros E. injection E as <-. repeat split; try lia.
  rewrite firstn_length, skipn_length. lia.
Qed.

Lemma sim_phy_coherent bus : phy_coherent (sim_phy bus).
Proof.
  intros p buf n Vw Hn. cbn [sim_phy phy_view phy_drop] in *. unfold sim_view in *.
  unfold sim_poll_transmission in *. cbn [sim_drop ph_name ph_cursor].
  destruct (is_active bus) as [a| |]; cbn [bind] in *; try discriminate.
  destruct (match a with Some n0 => n0 =? ph_name p | None => false end); [discriminate|].
  unfold bus_pending in *. destruct (current_cursor bus) as [cur| |]; cbn [bind] in *; try discriminate.
  apply slice_ok in Vw. destruct Vw as ((H1 & H2) & -> & HL). rewrite HL in Hn.
  unfold slice. destruct (Nat.ltb_spec cur (ph_cursor p + n)) as [H|_]; [lia|].
  destruct (Nat.ltb_spec (length (sb_stream bus)) cur) as [H|_]; [lia|].
  f_equal. rewrite skipn_firstn_comm. rewrite skipn_skipn'. f_equal. lia.
Qed.

Lemma baud_rate_pos b : 0 < baud_to_rate b.
Proof. destruct b; reflexivity. Qed.

Lemma avail_value bus c rest t : sb_telegrams bus = c :: rest -> bus_wf bus -> c_ts c <= t -> no_overflow bus c t ->
  avail bus t = Ok (length (sb_stream bus) - c_len c +
                    Z.to_nat (Z.min ((t - c_ts c) * baud_to_rate (sb_baud bus) / 1000000 / 11) (Z.of_nat (c_len c))))%nat.
Proof.
  intros HT WF Ht [O1 O2]. unfold avail, current_cursor, set_bus_time. cbn [sb_telegrams sb_time sb_baud sb_stream]. rewrite HT.
  unfold tx_bytes. cbn [sb_time sb_baud]. unfold instant_diff, i64_ok.
  destruct (Z.leb_spec (-9223372036854775808) (t - c_ts c)) as [_|H]; [|lia].
  destruct (Z.leb_spec (t - c_ts c) 9223372036854775807) as [_|H]; [|lia]. cbn [andb bind].
  rewrite Z.abs_eq by lia. unfold time_to_bits_chk, u64_ok, time_to_bits.
  pose proof (baud_rate_pos (sb_baud bus)) as RP.
  destruct (Z.leb_spec 0 ((t - c_ts c) * baud_to_rate (sb_baud bus))) as [_|H]; [|nia].
  destruct (Z.leb_spec ((t - c_ts c) * baud_to_rate (sb_baud bus)) 18446744073709551615) as [_|H]; [|lia]. cbn [andb bind].
  unfold bus_wf in WF. rewrite HT in WF. destruct WF as [WF1 WF2].
  destruct (Nat.ltb_spec (length (sb_stream bus)) (c_len c)) as [H|_]; [lia|]. reflexivity.
Qed.

Lemma sim_monotone bus c rest t1 t2 :
  sb_telegrams bus = c :: rest -> bus_wf bus -> c_ts c <= t1 <= t2 -> no_overflow bus c t2 ->
  exists a1 a2, avail bus t1 = Ok a1 /\ avail bus t2 = Ok a2 /\
    (length (sb_stream bus) - c_len c <= a1 <= a2)%nat /\ (a2 <= length (sb_stream bus))%nat /\
    firstn a1 (firstn a2 (sb_stream bus)) = firstn a1 (sb_stream bus).
Proof.
  intros HT WF [Ha Hb] [O1 O2]. pose proof (baud_rate_pos (sb_baud bus)) as RP.
  assert (NO1 : no_overflow bus c t1) by (split; nia).
  rewrite (avail_value bus c rest t1 HT WF Ha NO1).
  rewrite (avail_value bus c rest t2 HT WF ltac:(lia) (conj O1 O2)).
  do 2 eexists. split; [reflexivity|]. split; [reflexivity|].
  unfold bus_wf in WF. rewrite HT in WF. destruct WF as [WF1 WF2].
  assert (M : (t1 - c_ts c) * baud_to_rate (sb_baud bus) / 1000000 / 11 <= (t2 - c_ts c) * baud_to_rate (sb_baud bus) / 1000000 / 11).
  { apply Z.div_le_mono; [lia|]. apply Z.div_le_mono; [lia|]. nia. }
  assert (P1 : 0 <= (t1 - c_ts c) * baud_to_rate (sb_baud bus) / 1000000 / 11).
  { apply Z.div_pos; [|lia]. apply Z.div_pos; [nia|lia]. }
  split; [|split].
  - lia.
  - lia.
  - rewrite firstn_firstn. f_equal. lia.
Qed.

Lemma sim_reaches_all bus c rest t :
  sb_telegrams bus = c :: rest -> bus_wf bus ->
  c_ts c + bits_to_time (sb_baud bus) (11 * Z.of_nat (c_len c)) + 1 <= t -> no_overflow bus c t ->
  avail bus t = Ok (length (sb_stream bus)).
Proof.
  intros HT WF Ht NO. pose proof (baud_rate_pos (sb_baud bus)) as RP.
  unfold bits_to_time in Ht.
  assert (Q0 : 0 <= 11 * Z.of_nat (c_len c) * 1000000 / baud_to_rate (sb_baud bus)) by (apply Z.div_pos; lia).
  rewrite (avail_value bus c rest t HT WF ltac:(lia) NO). f_equal.
  unfold bus_wf in WF. rewrite HT in WF. destruct WF as [WF1 WF2].
  set (N := 11 * Z.of_nat (c_len c) * 1000000) in *. set (rate := baud_to_rate (sb_baud bus)) in *.
  assert (B : N < (N / rate + 1) * rate).
  { pose proof (Z.div_mod N rate ltac:(lia)) as DM. pose proof (Z.mod_pos_bound N rate RP). nia. }
  assert (G : N <= (t - c_ts c) * rate) by nia.
  assert (G2 : 11 * Z.of_nat (c_len c) <= (t - c_ts c) * rate / 1000000).
  { apply Z.div_le_lower_bound; [lia|]. unfold N in G. lia. }
  assert (G3 : Z.of_nat (c_len c) <= (t - c_ts c) * rate / 1000000 / 11).
  { apply Z.div_le_lower_bound; lia. }
  rewrite Z.min_r by lia. lia.
Qed.

Lemma avail_empty bus t : sb_telegrams bus = [] -> bus_wf bus -> avail bus t = Ok (length (sb_stream bus)).
Proof.
  intros HT WF. unfold avail, current_cursor, set_bus_time. cbn [sb_telegrams]. rewrite HT.
  unfold bus_wf in WF. rewrite HT in WF. rewrite WF. reflexivity.
Qed.

Lemma enqueue_appends bus name data bus' : enqueue bus name data = Ok bus' ->
  sb_stream bus' = sb_stream bus ++ data /\ (bus_wf bus -> bus_wf bus').
Proof.
  unfold enqueue. destruct (is_active bus) as [[a|]| |]; cbn [bind]; try discriminate.
  destruct data as [|x data]. { intros E. injection E as <-. rewrite app_nil_r. split; [reflexivity|tauto]. }
  destruct (decode (x :: data)) as [d| |]; cbn [bind]; try discriminate.
  match goal with |- (let* _ := ?X in _) = _ -> _ => destruct X as [[tm sa]| |] end; cbn [bind]; try discriminate.
  match goal with |- (let* _ := ?X in _) = _ -> _ => destruct X as [u| |] end; cbn [bind]; try discriminate.
  intros E. injection E as <-. cbn [sb_stream sb_telegrams]. split; [reflexivity|].
  intros _. unfold bus_wf. cbn [sb_telegrams sb_stream c_index c_len]. rewrite app_length. cbn [length]. lia.
Qed.

Lemma bus_new_wf b : bus_wf (bus_new b).
Proof. reflexivity. Qed.

Lemma progress_all buf t n : decode buf = Ok (Accept t n) ->
  (1 <= n <= length buf)%nat /\
  (length (skipn n buf) < length buf)%nat /\ (length (skipn n buf) + n = length buf)%nat.
Proof. intros D. apply decode_accept_bounds in D. rewrite skipn_length. lia. Qed.

Lemma valid_telegramb_sound t : valid_telegramb t = true -> valid_telegram t.
Proof.
  destruct t as [h pdu|da sa|]; cbn [valid_telegramb valid_telegram]; [| |trivial].
  - rewrite !andb_true_iff, wf_headerb_iff, Nat.leb_le, all_bytesb_iff. tauto.
  - rewrite andb_true_iff, !is_byteb_iff. trivial.
Qed.

Lemma valid_all_sound ts : forallb valid_telegramb ts = true -> Forall valid_telegram ts.
Proof. intros H. apply Forall_forall. intros t Ht. rewrite forallb_forall in H. apply valid_telegramb_sound, H, Ht. Qed.

(* a transmit call that sends nothing
   (transmit_telegram whose closure returns None: transmit_data with length 0) changes neither
   the bus nor what receive_data shows to the PHY that made the call *)
Lemma sim_idle_transmit_noop bus p bus' p' : sim_transmit bus p [] = Ok (bus', p') ->
  bus' = bus /\ p' = p /\ phy_view (sim_phy bus') p' = phy_view (sim_phy bus) p.
Proof.
  unfold sim_transmit. cbn [length]. destruct (Nat.ltb_spec sim_tx_buffer 0) as [H|_]; [unfold sim_tx_buffer in H; lia|].
  unfold enqueue. destruct (is_active bus) as [[a|]| |]; cbn [bind]; try discriminate.
  intros E. injection E as <- <-. rewrite Nat.add_0_r. destruct p as [c n]. cbn [ph_cursor ph_name].
  repeat split; reflexivity.
Qed.

Lemma sim_idle_transmit_ok bus p : is_active bus = Ok None -> sim_transmit bus p [] = Ok (bus, p).
Proof.
  intros A. unfold sim_transmit. cbn [length]. destruct (Nat.ltb_spec sim_tx_buffer 0) as [H|_]; [unfold sim_tx_buffer in H; lia|].
  unfold enqueue. rewrite A. cbn [bind]. rewrite Nat.add_0_r. destruct p; reflexivity.
Qed.
