(* Proofs for C17 (diagnostics decoding, ext-diag buffer, block iteration). *)
From PB Require Import Common Consts DiagTables Diag DiagOracle ByteFacts.

Lemma land63 h : Z.land h 63 = h mod 64.
Proof. change 63 with (Z.ones 6). rewrite Z.land_ones by lia. reflexivity. Qed.

Lemma land31 h : Z.land h 31 = h mod 32.
Proof. change 31 with (Z.ones 5). rewrite Z.land_ones by lia. reflexivity. Qed.

Lemma flag_set_pow2 f k : 0 <= k -> flag_set f (2 ^ k) = Z.testbit f k.
Proof.
  intros Hk. unfold flag_set. rewrite land_pow2 by exact Hk. pose proof (Z.pow_pos_nonneg 2 k ltac:(lia) Hk).
  destruct (Z.testbit f k); [apply Z.eqb_refl|apply Z.eqb_neq; lia].
Qed.

Lemma chan_error_eqb_sound a b : chan_error_eqb a b = true -> a = b.
Proof.
  destruct a, b; cbn; intros H; try discriminate H; try reflexivity; apply Z.eqb_eq in H; congruence.
Qed.

Lemma chan_error_eqb_refl a : chan_error_eqb a a = true.
Proof. destruct a; cbn; try reflexivity; apply Z.eqb_refl. Qed.

Lemma chan_dtype_eqb_sound a b : chan_dtype_eqb a b = true -> a = b.
Proof. destruct a, b; cbn; intros H; try discriminate H; reflexivity. Qed.

(* the generated match tables are, arm for arm, the hand-written specification tables *)
Lemma tables_as_specified t e :
  chan_dtype_from_bits t = dtype_spec t /\ chan_error_from_code e = error_spec e.
Proof. split; reflexivity. Qed.

Lemma decode_channel_spec b0 b1 b2 : decode_channel b0 b1 b2 = chan_spec b0 b1 b2.
Proof.
  unfold decode_channel, chan_spec, dtype_from_byte2, error_from_byte2,
    chan_module_mask, chan_channel_mask, chan_input_mask, chan_output_mask, chan_dtype_shift, chan_error_mask.
  change 64 with (2 ^ 6). change 128 with (2 ^ 7).
  rewrite !land63, land31, !land_pow2_eqb0, !negb_involutive, Z.shiftr_div_pow2 by lia. change (2 ^ 5) with 32.
  destruct (tables_as_specified (b2 / 32) (b2 mod 32)) as [-> ->]. reflexivity.
Qed.

Lemma parse_diag_short pdu : (length pdu < 6)%nat -> parse_diag pdu = Ok None.
Proof.
  intros H. unfold parse_diag, diag_min_len. destruct (Nat.ltb_spec (length pdu) 6) as [_|Hge]; [reflexivity|lia].
Qed.

Lemma parse_diag_cons b0 b1 b2 b3 b4 b5 tl :
  parse_diag (b0 :: b1 :: b2 :: b3 :: b4 :: b5 :: tl) =
  Ok (Some (mkDiag (Z.ldiff (b0 + 256 * b1) 1024) (256 * b4 + b5) (if b3 =? 255 then None else Some b3))).
Proof. reflexivity. Qed.

Lemma at_least_six (pdu : bytes) : (6 <= length pdu)%nat ->
  exists b0 b1 b2 b3 b4 b5 tl, pdu = b0 :: b1 :: b2 :: b3 :: b4 :: b5 :: tl.
Proof.
  intros H. destruct pdu as [|b0 [|b1 [|b2 [|b3 [|b4 [|b5 tl]]]]]]; cbn [length] in H; try lia.
  do 7 eexists. reflexivity.
Qed.

Lemma flags_bytes b0 b1 : is_byte b0 -> is_byte b1 ->
  Z.ldiff (b0 + 256 * b1) 1024 = b0 + 256 * Z.land b1 251.
Proof.
  unfold is_byte. intros H0 H1. apply Z.bits_inj'. intros k Hk.
  rewrite Z.ldiff_spec. change 256 with (2 ^ 8). rewrite !testbit_concat by lia.
  change 1024 with (2 ^ 10). rewrite Z.pow2_bits_eqb, Z.land_spec by lia.
  destruct (Z.ltb_spec k 8) as [Hl|Hh].
  - rewrite (proj2 (Z.eqb_neq 10 k)) by lia. apply andb_true_r.
  - (* bit k - 8 of byte 1; 251 has the bits 0..7 except bit 2 *)
    destruct (Z.lt_ge_cases k 16) as [Hl|Hh2].
    + f_equal. assert (K : k = 8 \/ k = 9 \/ k = 10 \/ k = 11 \/ k = 12 \/ k = 13 \/ k = 14 \/ k = 15) by lia.
      destruct K as [->|[->|[->|[->|[->|[->|[->| ->]]]]]]]; reflexivity.
    + rewrite (testbit_small 8 b1) by lia. reflexivity.
Qed.

Lemma flags_bit w i : 0 <= i -> i <> 10 -> Z.testbit (Z.ldiff w 1024) i = Z.testbit w i.
Proof.
  intros Hi Hne. rewrite Z.ldiff_spec. change 1024 with (2 ^ 10). rewrite Z.pow2_bits_eqb by lia.
  destruct (Z.eqb_spec 10 i) as [E|_]; [lia|]. cbn [negb]. apply andb_true_r.
Qed.

Lemma flags_bit10 w : Z.testbit (Z.ldiff w 1024) 10 = false.
Proof.
  rewrite Z.ldiff_spec. change 1024 with (2 ^ 10). rewrite Z.pow2_bits_eqb by lia.
  rewrite Z.eqb_refl. cbn [negb]. apply andb_false_r.
Qed.

Lemma ldiff_range w m : 0 <= w -> 0 <= m -> 0 <= Z.ldiff w m <= w.
Proof.
  intros Hw Hm. pose proof (ldiff_add_land w m). pose proof (proj2 (Z.land_nonneg w m) (or_introl Hw)).
  pose proof (proj2 (Z.ldiff_nonneg w m) (or_introl Hw)). lia.
Qed.

Lemma header_faithful : forall pdu, all_bytes pdu ->
  ((length pdu < 6)%nat /\ parse_diag pdu = Ok None) \/
  ((6 <= length pdu)%nat /\ exists d, parse_diag pdu = Ok (Some d) /\
     d_ident d = 256 * nth 4 pdu 0 + nth 5 pdu 0 /\
     d_master d = (if nth 3 pdu 0 =? 255 then None else Some (nth 3 pdu 0)) /\
     (forall i, 0 <= i -> i <> cleared_bit -> Z.testbit (d_flags d) i = Z.testbit (wire_flags pdu) i) /\
     Z.testbit (d_flags d) cleared_bit = false /\
     d_flags d = nth 0 pdu 0 + 256 * Z.land (nth 1 pdu 0) 251 /\
     0 <= d_flags d < 65536).
Proof.
  intros pdu Hb. destruct (Nat.lt_ge_cases (length pdu) 6) as [Hs|Hl].
  - left. split; [exact Hs|]. apply parse_diag_short, Hs.
  - right. split; [exact Hl|].
    pose proof (all_bytes_nth pdu 0 Hb) as B0. pose proof (all_bytes_nth pdu 1 Hb) as B1.
    destruct (at_least_six pdu Hl) as (b0 & b1 & b2 & b3 & b4 & b5 & tl & ->).
    rewrite parse_diag_cons. eexists. split; [reflexivity|].
    unfold wire_flags, cleared_bit. cbn [nth d_flags d_ident d_master] in *.
    repeat split.
    + intros i Hi Hne. apply flags_bit; assumption.
    + apply flags_bit10.
    + apply flags_bytes; assumption.
    + apply ldiff_range; unfold is_byte in *; lia.
    + pose proof (ldiff_range (b0 + 256 * b1) 1024). unfold is_byte in *. lia.
Qed.

Lemma header_oracle : forall pdu r, all_bytes pdu -> parse_diag pdu = Ok r -> c17_header_ok pdu r = true.
Proof.
  intros pdu r Hb Hp. destruct (header_faithful pdu Hb) as [[Hs E]|[Hl (d & E & Hid & Hm & Hbits & H10 & _ & Hr)]];
    rewrite E in Hp; injection Hp as <-; unfold c17_header_ok.
  - apply Nat.ltb_lt, Hs.
  - rewrite Hid, Hm, Z.eqb_refl.
    rewrite opt_eqb_refl, !andb_true_r. apply andb_true_intro. split; [apply Nat.leb_le, Hl|].
    unfold flags_faithfulb. apply andb_true_intro. split.
    + apply andb_true_intro. split; [apply Z.leb_le|apply Z.ltb_lt]; lia.
    + apply forallb_forall. intros i _.
      destruct (Z.eqb_spec (Z.of_nat i) cleared_bit) as [E10|N10].
      * rewrite E10, H10. reflexivity.
      * rewrite Hbits by lia. apply Bool.eqb_reflx.
Qed.

Lemma ext_raw_visible e : ext_wf e -> ext_raw e = Ok (ext_visible e).
Proof.
  intros H. unfold ext_raw, ext_visible. destruct (ext_available e); [|reflexivity].
  unfold slice_to. unfold ext_wf in H. destruct (Nat.leb_spec (e_len e) (length (e_buf e))) as [_|C]; [reflexivity|lia].
Qed.

Lemma fill_spec : forall e ext, ext_wf e ->
  exists e' ok, ext_fill e ext = Ok (e', ok) /\ ext_wf e' /\ ext_cap e' = ext_cap e /\
    ok = (Nat.ltb 0 (ext_cap e) && Nat.leb (length ext) (ext_cap e)) /\
    (ok = true -> ext_visible e' = Some ext /\
                  skipn (length ext) (e_buf e') = skipn (length ext) (e_buf e)) /\
    (ok = false -> e' = e).
Proof.
  intros e ext Hwf. unfold ext_fill.
  destruct (Nat.eqb_spec (ext_cap e) 0) as [Z0|NZ].
  - exists e, false. rewrite Z0. repeat split; try assumption; try discriminate; try reflexivity.
  - destruct (Nat.ltb_spec (ext_cap e) (length ext)) as [Big|Fits].
    + exists e, false. repeat split; try assumption; try discriminate.
      destruct (Nat.ltb_spec 0 (ext_cap e)) as [_|C]; [|lia].
      destruct (Nat.leb_spec (length ext) (ext_cap e)) as [C|_]; [lia|reflexivity].
    + unfold slice_to. unfold ext_cap in *. destruct (Nat.leb_spec (length ext) (length (e_buf e))) as [_|C]; [|lia].
      cbn [bind]. eexists _, true. split; [reflexivity|].
      assert (L : length (ext ++ skipn (length ext) (e_buf e)) = length (e_buf e))
        by (rewrite app_length, skipn_length; lia).
      repeat split.
      * unfold ext_wf. cbn [e_len e_buf]. rewrite L. exact Fits.
      * cbn [e_buf]. exact L.
      * destruct (Nat.ltb_spec 0 (length (e_buf e))) as [_|C]; [|lia].
        destruct (Nat.leb_spec (length ext) (length (e_buf e))) as [_|C]; [reflexivity|lia].
      * unfold ext_visible, ext_available, ext_cap. cbn [e_len e_buf]. rewrite L.
        destruct (Nat.eqb_spec (length (e_buf e)) 0) as [C|_]; [lia|]. cbn [negb].
        rewrite firstn_app_exact by reflexivity. reflexivity.
      * cbn [e_buf]. rewrite skipn_app_exact by reflexivity. reflexivity.
      * discriminate.
Qed.

(* what one call of next() does, in terms of the specification functions *)
Definition next_spec (raw : bytes) (cur : nat) : step :=
  match announced (skipn cur raw) with
  | Some n =>
      match decode_block (firstn n (skipn cur raw)) with
      | Some b => Yield (mkL cur n b) (cur + n)
      | None => Stop (length raw)
      end
  | None => Stop (if Nat.leb (length raw) cur then cur else length raw)
  end.

Lemma type_cases h : is_byte h -> h / 64 = 0 \/ h / 64 = 1 \/ h / 64 = 2 \/ h / 64 = 3.
Proof.
  unfold is_byte. intros Hh.
  assert (0 <= h / 64 < 4) by (split; [apply Z.div_pos; lia|apply Z.div_lt_upper_bound; lia]). lia.
Qed.

Lemma sized_step (mk : bytes -> block) (raw : bytes) (cur : nat) h tl n :
  (if true && Nat.eqb n 0 then Ok (Stop (length raw))
   else if Nat.ltb (length (h :: tl)) n then Ok (Stop (length raw))
   else let* d := slice_range (h :: tl) 1 n in Ok (Yield (mkL cur n (mk d)) (cur + n)))
  = Ok (match (if Nat.eqb n 0 then None else if Nat.leb n (length (h :: tl)) then Some n else None) with
        | Some m => Yield (mkL cur m (mk (firstn (m - 1) tl))) (cur + m)
        | None => Stop (length raw)
        end).
Proof.
  cbn [andb]. destruct (Nat.eqb_spec n 0) as [E0|N0]; [reflexivity|].
  destruct (Nat.ltb_spec (length (h :: tl)) n) as [Cut|Fit];
    destruct (Nat.leb_spec n (length (h :: tl))) as [Fit'|Cut']; try lia; [reflexivity|].
  unfold slice_range.
  destruct (Nat.leb_spec 1 n) as [_|C]; [|lia].
  destruct (Nat.leb_spec n (length (h :: tl))) as [_|C]; [|lia].
  cbn [andb skipn bind]. reflexivity.
Qed.

Lemma blk_next_spec raw cur : all_bytes raw -> blk_next_g true raw cur = Ok (next_spec raw cur).
Proof.
  intros Hb. unfold blk_next_g, next_spec.
  destruct (Nat.leb_spec (length raw) cur) as [Hend|Hin].
  - rewrite skipn_all2 by exact Hend. reflexivity.
  - unfold slice_from. destruct (Nat.leb_spec cur (length raw)) as [_|C]; [|lia]. cbn [bind].
    pose proof (all_bytes_skipn raw cur Hb) as Hrem.
    pose proof (skipn_length cur raw) as Hlen.
    destruct (skipn cur raw) as [|h tl] eqn:Erem; [cbn [length] in Hlen; lia|].
    assert (Hh : is_byte h) by (inversion Hrem; assumption).
    cbn [get nth_error bind].
    unfold blk_type_shift, blk_type_ident, blk_type_channel, blk_type_device, blk_type_reserved,
      blk_len_mask, blk_channel_len.
    rewrite Z.shiftr_div_pow2 by lia. change (2 ^ 6) with 64. rewrite land63.
    unfold announced.
    destruct (type_cases h Hh) as [T|[T|[T|T]]]; rewrite T; cbn [Z.eqb Pos.eqb orb].
    1-2: (* device, identifier: a length field *)
      (rewrite sized_step;
       destruct (Nat.eqb_spec (Z.to_nat (h mod 64)) 0) as [_|N0]; [reflexivity|];
       destruct (Nat.leb (Z.to_nat (h mod 64)) (length (h :: tl))); [|reflexivity];
       destruct (Z.to_nat (h mod 64)) as [|k]; [congruence|];
       cbn [firstn decode_block Nat.sub]; rewrite T, Nat.sub_0_r; reflexivity).
    + (* channel *)
      destruct tl as [|b1 [|b2 tl']]; [reflexivity|reflexivity|].
      cbn [length Nat.ltb Nat.leb get nth_error bind firstn decode_block].
      rewrite T. cbn [Z.eqb Pos.eqb]. rewrite decode_channel_spec. reflexivity.
    + (* reserved *)
      reflexivity.
Qed.

Lemma announced_inv rem n : announced rem = Some n ->
  exists h tl, rem = h :: tl /\ (1 <= n <= length rem)%nat /\
    ((h / 64 = 2 /\ n = 3%nat) \/ ((h / 64 = 0 \/ h / 64 = 1) /\ n = Z.to_nat (h mod 64))).
Proof.
  unfold announced. destruct rem as [|h tl]; [discriminate|]. intros H. exists h, tl. split; [reflexivity|].
  destruct (Z.eqb_spec (h / 64) 2) as [T2|N2].
  - destruct (Nat.leb_spec 3 (length (h :: tl))); [|discriminate]. injection H as <-. split; [lia|auto].
  - assert (T : h / 64 = 0 \/ h / 64 = 1).
    { destruct (Z.eqb_spec (h / 64) 0), (Z.eqb_spec (h / 64) 1); auto; discriminate. }
    destruct (_ || _); [|discriminate]. destruct (Nat.eqb_spec (Z.to_nat (h mod 64)) 0); [discriminate|].
    destruct (Nat.leb_spec (Z.to_nat (h mod 64)) (length (h :: tl))); [|discriminate].
    injection H as <-. split; [lia|auto].
Qed.

Lemma announced_bounds rem n : announced rem = Some n -> (1 <= n <= length rem)%nat.
Proof. intros H. destruct (announced_inv rem n H) as (_ & _ & _ & B & _). exact B. Qed.

Lemma decode_announced h tl n : announced (h :: tl) = Some n ->
  decode_block (firstn n (h :: tl)) =
  Some (if h / 64 =? 0 then BDevice (firstn (n - 1) tl)
        else if h / 64 =? 1 then BIdent (firstn (n - 1) tl)
        else BChannel (chan_spec h (nth 0 tl 0) (nth 1 tl 0))).
Proof.
  intros H. destruct (announced_inv _ _ H) as (h' & tl' & E & [Hn Hl] & C). injection E as <- <-.
  destruct C as [[T ->]|[T _]].
  - destruct tl as [|b1 [|b2 tl]]; cbn [length] in Hl; try lia. cbn [firstn decode_block]. rewrite T. reflexivity.
  - destruct n as [|n]; [lia|]. cbn [firstn decode_block Nat.sub]. rewrite Nat.sub_0_r.
    destruct T as [T|T]; rewrite T; reflexivity.
Qed.

Lemma announced_decodes rem n : announced rem = Some n -> exists b, decode_block (firstn n rem) = Some b.
Proof. intros H. destruct (announced_inv _ _ H) as (h & tl & -> & _). eexists. apply decode_announced, H. Qed.

Lemma blocks_tile_gen : forall fuel raw cur bs, all_bytes raw ->
  blocks_from_g true raw cur fuel = Ok bs -> tiles raw cur bs.
Proof.
  induction fuel as [|f IH]; intros raw cur bs Hb Hr; cbn [blocks_from_g] in Hr; [discriminate|].
  rewrite blk_next_spec in Hr by exact Hb. cbn [bind] in Hr. unfold next_spec in Hr.
  destruct (announced (skipn cur raw)) as [n|] eqn:Ea.
  - destruct (announced_decodes _ _ Ea) as [b Ed]. rewrite Ed in Hr.
    destruct (blocks_from_g true raw (cur + n) f) as [r| |] eqn:Er; cbn [bind] in Hr; try discriminate.
    injection Hr as <-. cbn [tiles l_off l_len l_blk].
    pose proof (announced_bounds _ _ Ea) as Hn. rewrite skipn_length in Hn.
    repeat split; try assumption; try lia.
    apply IH; assumption.
  - injection Hr as <-. cbn [tiles]. exact Ea.
Qed.

Lemma blocks_total_gen : forall fuel raw cur, all_bytes raw -> (length raw - cur < fuel)%nat ->
  exists bs, blocks_from_g true raw cur fuel = Ok bs /\ (length bs <= length raw - cur)%nat.
Proof.
  induction fuel as [|f IH]; intros raw cur Hb Hf; [lia|].
  cbn [blocks_from_g]. rewrite blk_next_spec by exact Hb. cbn [bind]. unfold next_spec.
  destruct (announced (skipn cur raw)) as [n|] eqn:Ea.
  - destruct (announced_decodes _ _ Ea) as [b Ed]. rewrite Ed.
    pose proof (announced_bounds _ _ Ea) as Hn. rewrite skipn_length in Hn.
    destruct (IH raw (cur + n)%nat Hb ltac:(lia)) as (r & Er & Hl). rewrite Er. cbn [bind].
    eexists. split; [reflexivity|]. cbn [length]. lia.
  - eexists. split; [reflexivity|]. cbn [length]. lia.
Qed.

(* the generated constant says that the code has the length-0 guard *)
Lemma blocks_guarded raw fuel : blocks raw fuel = blocks_from_g true raw 0 fuel.
Proof. reflexivity. Qed.

Lemma iter_total : forall raw fuel, all_bytes raw -> (length raw < fuel)%nat ->
  exists bs, blocks raw fuel = Ok bs /\ (length bs <= length raw)%nat.
Proof.
  intros raw fuel Hb Hf. rewrite blocks_guarded.
  destruct (blocks_total_gen fuel raw 0 Hb ltac:(lia)) as (bs & E & L). exists bs. split; [exact E|lia].
Qed.

Lemma blocks_tile : forall raw fuel bs, all_bytes raw -> blocks raw fuel = Ok bs -> tiles raw 0 bs.
Proof. intros raw fuel bs Hb Hr. rewrite blocks_guarded in Hr. eapply blocks_tile_gen; eassumption. Qed.

Lemma tiles_unique : forall raw bs1 bs2 off, tiles raw off bs1 -> tiles raw off bs2 -> bs1 = bs2.
Proof.
  intros raw. induction bs1 as [|b1 r1 IH]; intros [|b2 r2] off H1 H2; cbn [tiles] in *.
  - reflexivity.
  - destruct H2 as (_ & A & _). congruence.
  - destruct H1 as (_ & A & _). congruence.
  - destruct H1 as (O1 & A1 & _ & _ & D1 & T1). destruct H2 as (O2 & A2 & _ & _ & D2 & T2).
    assert (L : l_len b1 = l_len b2) by congruence.
    rewrite <- L in *. assert (B : l_blk b1 = l_blk b2) by congruence.
    f_equal.
    + destruct b1 as [o1 n1 k1], b2 as [o2 n2 k2]; cbn [l_off l_len l_blk] in *; subst; reflexivity.
    + eapply IH; eassumption.
Qed.

Lemma blocks_fuel_irrelevant : forall raw f1 f2 bs1 bs2, all_bytes raw ->
  blocks raw f1 = Ok bs1 -> blocks raw f2 = Ok bs2 -> bs1 = bs2.
Proof.
  intros raw f1 f2 bs1 bs2 Hb H1 H2. eapply tiles_unique; eapply blocks_tile; eassumption.
Qed.

Lemma tiles_in : forall raw bs off b, tiles raw off bs -> In b bs ->
  (off <= l_off b)%nat /\ (1 <= l_len b)%nat /\ (l_off b + l_len b <= length raw)%nat /\
  announced (skipn (l_off b) raw) = Some (l_len b) /\
  decode_block (firstn (l_len b) (skipn (l_off b) raw)) = Some (l_blk b).
Proof.
  intros raw. induction bs as [|x r IH]; intros off b Ht Hin; [destruct Hin|].
  cbn [tiles] in Ht. destruct Ht as (O & A & L1 & L2 & D & T). destruct Hin as [->|Hin].
  - rewrite O. repeat split; try assumption; lia.
  - destruct (IH _ _ T Hin) as (P & Q). split; [lia|exact Q].
Qed.

Theorem tiles_explicit : forall raw off bs b, tiles raw off bs -> In b bs ->
  (l_off b + l_len b <= length raw)%nat /\ block_explicit raw b.
Proof.
  intros raw off bs b Ht Hin.
  destruct (tiles_in raw bs off b Ht Hin) as (_ & L1 & L2 & A & D).
  split; [exact L2|]. unfold block_explicit.
  rewrite (skipn_cons_nth raw 0 (l_off b)) in A, D by lia.
  set (h := nth (l_off b) raw 0) in *. set (tl := skipn (S (l_off b)) raw) in *.
  rewrite (decode_announced _ _ _ A) in D. injection D as D.
  destruct (announced_inv _ _ A) as (h' & tl' & E & _ & C). injection E as <- <-.
  destruct C as [[T Hn]|[[T|T] Hn]]; rewrite T in D; cbn [Z.eqb Pos.eqb] in D; rewrite <- D; auto.
  subst tl. rewrite !nth_skipn_add.
  replace (S (l_off b) + 0)%nat with (l_off b + 1)%nat by lia. replace (S (l_off b) + 1)%nat with (l_off b + 2)%nat by lia. auto.
Qed.

Lemma block_decode : forall raw fuel bs b, all_bytes raw -> blocks raw fuel = Ok bs -> In b bs ->
  (l_off b + l_len b <= length raw)%nat /\ block_explicit raw b.
Proof. intros raw fuel bs b Hb Hr. apply tiles_explicit with 0%nat, (blocks_tile raw fuel bs Hb Hr). Qed.

Definition dtype_okb (t : Z) (d : chan_dtype) : bool :=
  if (1 <=? t) && (t <=? 6) then chan_dtype_disc d =? t else chan_dtype_eqb d DtInvalid.

Definition error_okb (e : Z) (x : chan_error) : bool :=
  (chan_error_to_byte2 x =? e) &&
  (if (1 <=? e) && (e <=? 9) then opt_eqb (chan_error_disc x) (Some e)
   else if 16 <=? e then chan_error_eqb x (CeVendor e) else chan_error_eqb x (CeReserved e)).

Lemma dtype_okb_sound t d : dtype_okb t d = true -> dtype_as_specified t d.
Proof.
  unfold dtype_okb, dtype_as_specified. destruct ((1 <=? t) && (t <=? 6)); intros H.
  - apply Z.eqb_eq, H.
  - apply chan_dtype_eqb_sound, H.
Qed.

Lemma error_okb_sound e x : error_okb e x = true -> error_as_specified e x.
Proof.
  unfold error_okb, error_as_specified. intros H. apply andb_prop in H. destruct H as [A B]. split.
  - apply Z.eqb_eq, A.
  - destruct ((1 <=? e) && (e <=? 9)).
    + destruct (chan_error_disc x) as [v|]; cbn [opt_eqb] in B; [|discriminate]. apply Z.eqb_eq in B. congruence.
    + destruct (16 <=? e); apply chan_error_eqb_sound, B.
Qed.

Definition byte2_okb (b2 : Z) : bool :=
  dtype_okb (b2 / 32) (dtype_spec (b2 / 32)) &&
  error_okb (b2 mod 32) (error_spec (b2 mod 32)) &&
  (if b2 <? 32 then true
   else Z.lor (chan_error_to_byte2 (error_spec (b2 mod 32)))
              (chan_dtype_to_byte2 (dtype_spec (b2 / 32))) =? b2).

Lemma byte2_sweep b2 : is_byte b2 -> byte2_okb b2 = true.
Proof. intros H. exact (sweep256 byte2_okb eq_refl b2 H). Qed.

Lemma channel_decode : forall b0 b1 b2, is_byte b0 -> is_byte b1 -> is_byte b2 ->
  let c := decode_channel b0 b1 b2 in
  c_module c = b0 mod 64 /\ c_channel c = b1 mod 64 /\
  c_input c = Z.testbit b1 6 /\ c_output c = Z.testbit b1 7 /\
  dtype_as_specified (b2 / 32) (c_dtype c) /\
  error_as_specified (b2 mod 32) (c_error c) /\
  (32 <= b2 -> Z.lor (chan_error_to_byte2 (c_error c)) (chan_dtype_to_byte2 (c_dtype c)) = b2).
Proof.
  intros b0 b1 b2 H0 H1 H2. cbv zeta. rewrite decode_channel_spec.
  unfold chan_spec. cbn [c_module c_channel c_input c_output c_dtype c_error].
  pose proof (byte2_sweep b2 H2) as S. unfold byte2_okb in S.
  apply andb_prop in S. destruct S as [S R]. apply andb_prop in S. destruct S as [D E].
  repeat split; try reflexivity.
  - apply dtype_okb_sound, D.
  - apply (error_okb_sound _ _ E).
  - apply (error_okb_sound _ _ E).
  - intros Hge. destruct (Z.ltb_spec b2 32) as [C|_]; [lia|]. apply Z.eqb_eq, R.
Qed.

Lemma ident_ones_spec d i :
  In i (ident_ones d) <->
  (i < 8 * length d)%nat /\ Z.testbit (nth (i / 8) d 0) (Z.of_nat (i mod 8)) = true.
Proof.
  unfold ident_ones. rewrite filter_In, in_seq. split; intros [A B]; split; try assumption; lia.
Qed.

Lemma block_eqb_refl b : block_eqb b b = true.
Proof.
  destruct b as [d|c|d]; cbn [block_eqb]; try apply bytes_eqb_refl.
  unfold chan_eqb, chan_dtype_eqb. rewrite !Z.eqb_refl, !Bool.eqb_reflx, chan_error_eqb_refl. reflexivity.
Qed.

Lemma tiles_tilesb : forall raw bs off, tiles raw off bs -> tilesb raw off (map l_blk bs) = true.
Proof.
  intros raw. induction bs as [|b r IH]; intros off H; cbn [tiles map tilesb] in *.
  - rewrite H. reflexivity.
  - destruct H as (O & A & _ & _ & D & T). rewrite A, D, block_eqb_refl. cbn [andb]. apply IH, T.
Qed.

Lemma tiles_oracle : forall raw fuel bs, all_bytes raw -> blocks raw fuel = Ok bs ->
  c17_tiles_ok raw (map l_blk bs) = true.
Proof. intros raw fuel bs Hb Hr. apply tiles_tilesb. eapply blocks_tile; eassumption. Qed.

Lemma ext_blocks_available e : ext_ok e -> ext_available e = true ->
  exists bs, ext_blocks e = Ok bs /\ tiles (firstn (e_len e) (e_buf e)) 0 bs /\ (length bs <= e_len e)%nat.
Proof.
  intros [Hwf Hb] Ha. unfold ext_blocks. rewrite ext_raw_visible by exact Hwf.
  unfold ext_visible. rewrite Ha. cbn [bind].
  pose proof (all_bytes_firstn (e_buf e) (e_len e) Hb) as Hr.
  destruct (iter_total _ (S (length (firstn (e_len e) (e_buf e)))) Hr ltac:(lia)) as (bs & E & L).
  exists bs. split; [exact E|]. split; [eapply blocks_tile; eassumption|].
  rewrite firstn_length_le in L by exact Hwf. exact L.
Qed.

(* iterating a container without buffer: next() unwraps raw_diag_buffer() = None *)
Lemma ext_blocks_unavailable e : ext_available e = false -> ext_blocks e = Panic SiteUnwrap.
Proof. intros Ha. unfold ext_blocks, ext_raw. rewrite Ha. reflexivity. Qed.

Lemma ext_debug_total e : ext_ok e -> ext_debug e = Ok tt.
Proof.
  intros Hok. unfold ext_debug. destruct (ext_available e) eqn:Ha; [|reflexivity].
  destruct (ext_blocks_available e Hok Ha) as (bs & E & _). rewrite E. reflexivity.
Qed.

Lemma fill_ok_preserved e ext e' ok : ext_ok e -> all_bytes ext -> ext_fill e ext = Ok (e', ok) -> ext_ok e'.
Proof.
  intros [Hwf Hb] He Hf. destruct (fill_spec e ext Hwf) as (e2 & ok2 & E & Hwf2 & _ & _ & _ & Hno).
  rewrite E in Hf. injection Hf as <- <-. split; [exact Hwf2|].
  revert E. unfold ext_fill.
  destruct (Nat.eqb (ext_cap e) 0); [intros E; injection E as <- _; exact Hb|].
  destruct (Nat.ltb (ext_cap e) (length ext)); [intros E; injection E as <- _; exact Hb|].
  destruct (slice_to (e_buf e) (length ext)); cbn [bind]; intros E; try discriminate.
  injection E as <- _. cbn [e_buf]. apply Forall_app. split; [exact He|apply all_bytes_skipn, Hb].
Qed.

Lemma diag_eqb_refl d : diag_eqb d d = true.
Proof.
  destruct d as [d|]; cbn [diag_eqb]; [|reflexivity]. rewrite !Z.eqb_refl.
  apply opt_eqb_refl.
Qed.

Lemma opt_bytes_eqb_refl o : opt_bytes_eqb o o = true.
Proof. destruct o; cbn [opt_bytes_eqb]; [apply bytes_eqb_refl|reflexivity]. Qed.

Lemma reply_spec : forall s r, ext_ok (p_ext s) -> reply_bytes r ->
  exists s' acc, diag_reply s r = Ok (s', acc) /\
    ext_ok (p_ext s') /\ ext_cap (p_ext s') = ext_cap (p_ext s) /\
    acc = reply_accepted r /\
    (acc = false -> s' = s) /\
    c17_reply_ok (ext_cap (p_ext s)) (p_diag s) (ext_visible (p_ext s)) r
                 (p_diag s') (ext_visible (p_ext s')) = true.
Proof.
  intros s r Hok Hb.
  (* a reply that does not count as an answer leaves everything as it was *)
  assert (Rej : reply_accepted r = false ->
    exists s' acc, Ok (s, false) = Ok (s', acc) /\
      ext_ok (p_ext s') /\ ext_cap (p_ext s') = ext_cap (p_ext s) /\ acc = reply_accepted r /\ (acc = false -> s' = s) /\
      c17_reply_ok (ext_cap (p_ext s)) (p_diag s) (ext_visible (p_ext s)) r (p_diag s') (ext_visible (p_ext s')) = true).
  { intros Acc. exists s, false. repeat split; auto; try apply Hok.
    unfold c17_reply_ok. rewrite Acc, diag_eqb_refl, opt_bytes_eqb_refl. destruct r; reflexivity. }
  destruct r as [dsap ssap pdu|]; [|apply Rej; reflexivity].
  cbn [reply_bytes] in Hb. cbn [diag_reply].
  destruct (opt_eqb dsap SAP_MASTER_MS0) eqn:Ed; cbn [negb]; [|apply Rej; cbn [reply_accepted]; rewrite Ed; reflexivity].
  destruct (opt_eqb ssap SAP_SLAVE_DIAGNOSIS) eqn:Es; cbn [negb]; [|apply Rej; cbn [reply_accepted]; rewrite Ed, Es; reflexivity].
  destruct (header_faithful pdu Hb) as [[Hs E]|[Hl (d & E & Hid & Hm & Hbits & H10 & Hfl & Hr)]]; rewrite E; cbn [bind].
  - apply Rej. cbn [reply_accepted]. rewrite Ed, Es. apply Nat.leb_gt, Hs.
  - pose proof (header_oracle pdu (Some d) Hb E) as Hho.
    assert (Hflag : flag_set (d_flags d) FLAG_EXT_DIAG = Z.testbit (nth 0 pdu 0) 3).
    { unfold FLAG_EXT_DIAG. change 8 with (2 ^ 3). rewrite flag_set_pow2, Hbits by (unfold cleared_bit; lia).
      unfold wire_flags. change 256 with (2 ^ 8). rewrite testbit_concat by (try apply all_bytes_nth, Hb; lia).
      reflexivity. }
    clear Rej. unfold c17_reply_ok, reply_accepted. rewrite Ed, Es, (proj2 (Nat.leb_le 6 _) Hl). cbn [andb].
    destruct (flag_set (d_flags d) FLAG_EXT_DIAG) eqn:F.
    + unfold slice_from, diag_ext_pos. rewrite (proj2 (Nat.leb_le 6 _) Hl). cbn [bind].
      destruct Hok as [Hwf Hbuf].
      destruct (fill_spec (p_ext s) (skipn 6 pdu) Hwf) as (e' & ok & Ef & Hwf' & Hcap & Hokv & Hst & Hno).
      pose proof (fill_ok_preserved _ _ _ _ (conj Hwf Hbuf) (all_bytes_skipn pdu 6 Hb) Ef) as Hok'.
      rewrite Ef. cbn [bind fst snd].
      assert (Hd : (if ok then ext_debug e' else Ok tt) = Ok tt)
        by (destruct ok; [apply ext_debug_total, Hok'|reflexivity]).
      rewrite Hd. cbn [bind]. eexists _, true. split; [reflexivity|].
      cbn [p_ext p_diag]. repeat split; try assumption; try discriminate; try apply Hok'.
      rewrite Hho. cbn [andb]. cbv zeta. rewrite <- Hflag.
      rewrite skipn_length in Hokv. rewrite <- Hokv.
      destruct ok.
      * destruct (Hst eq_refl) as [V _]. rewrite V. apply opt_bytes_eqb_refl.
      * rewrite (Hno eq_refl). apply opt_bytes_eqb_refl.
    + eexists _, true. split; [reflexivity|]. cbn [p_ext p_diag].
      repeat split; try apply Hok; try discriminate.
      rewrite Hho. cbn [andb]. cbv zeta. rewrite <- Hflag. rewrite opt_bytes_eqb_refl. reflexivity.
Qed.

Lemma replies_total : forall rs s, ext_ok (p_ext s) -> Forall reply_bytes rs ->
  exists l, diag_replies s rs = Ok l /\ length l = length rs.
Proof.
  induction rs as [|r rs IH]; intros s Hok Hb; cbn [diag_replies].
  - exists []. split; reflexivity.
  - inversion Hb as [|x y Hr Hrs]; subst.
    destruct (reply_spec s r Hok Hr) as (s' & acc & E & Hok' & _). rewrite E. cbn [bind fst].
    destruct (IH s' Hok' Hrs) as (l & El & Hl). rewrite El. cbn [bind].
    eexists. split; [reflexivity|]. cbn [length]. lia.
Qed.

Lemma scan_oracle : forall dsap ssap pdu r, all_bytes pdu -> scan_reply (RData dsap ssap pdu) = Ok r ->
  (r = None \/ (opt_eqb dsap SAP_MASTER_MS0 = true /\ opt_eqb ssap SAP_SLAVE_DIAGNOSIS = true /\ c17_scan_ok pdu r = true)).
Proof.
  intros dsap ssap pdu r Hb. cbn [scan_reply].
  destruct (opt_eqb dsap SAP_MASTER_MS0); cbn [negb]; [|intros E; injection E as <-; left; reflexivity].
  destruct (opt_eqb ssap SAP_SLAVE_DIAGNOSIS); cbn [negb]; [|intros E; injection E as <-; left; reflexivity].
  destruct (header_faithful pdu Hb) as [[Hs E]|[Hl (d & E & Hid & Hm & _)]]; rewrite E; cbn [bind];
    intros R; injection R as <-.
  - left. reflexivity.
  - right. repeat split. unfold c17_scan_ok. rewrite Hid, Hm, Z.eqb_refl.
    rewrite opt_eqb_refl, !andb_true_r. apply Nat.leb_le, Hl.
Qed.

Lemma f5_unfixed_panics :
  blocks_from_g false [0] 0 2 = Panic SiteIndex /\ blocks_from_g false [64] 0 2 = Panic SiteIndex /\
  blocks_from_g false [2; 3; 0] 0 4 = Panic SiteIndex.
Proof. repeat split; vm_compute; reflexivity. Qed.
