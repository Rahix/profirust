(* C18: the oracle theorems of the sweep machine (Proofs/ScanMachine.v) transfer to every
   application the machine simulates (record `simulated`, Section Sim); the models of LiveList
   and DpScanner are two such applications (ll_simulated, sc_simulated). *)
From PB Require Import Common Telegram ScanBase LiveList Scan ScanOracle ScanMachine C09Proofs.

Definition addr_ok (a : Z) : Prop := 0 <= a <= 125.

Lemma send_request_ok h : wf_header h ->
  send_request h = Ok (mkTx h (frame_spec h []) (tx_expects_reply h)).
Proof.
  intros W. unfold send_request, encode_data.
  rewrite (encode_data_in_spec tx_buffer_size h [] W).
  - reflexivity.
  - unfold length_byte. destruct (h_dsap h), (h_ssap h); cbn; lia.
  - unfold telegram_len_data, length_byte.
    destruct (h_dsap h), (h_ssap h); apply Nat.leb_le; vm_compute; reflexivity.
Qed.

Lemma bs_get_in n s i : 0 <= i < n -> bs_get n s i = Some (Z.testbit s i).
Proof.
  intros H. unfold bs_get. destruct (Z.leb_spec 0 i) as [A|A]; [|lia].
  destruct (Z.ltb_spec i n) as [B|B]; [|lia]. reflexivity.
Qed.

Lemma bs_set_in n s i v : 0 <= i < n ->
  bs_set n s i v = Ok (if v then Z.setbit s i else Z.clearbit s i).
Proof.
  intros H. unfold bs_set. destruct (Z.leb_spec 0 i) as [A|A]; [|lia].
  destruct (Z.ltb_spec i n) as [B|B]; [|lia]. reflexivity.
Qed.

Lemma bs_get_out n s i : n <= i -> bs_get n s i = None.
Proof.
  intros H. unfold bs_get. destruct (Z.ltb_spec i n) as [B|B]; [lia|]. rewrite andb_false_r. reflexivity.
Qed.

Lemma ones_filter (s : Z) (m : Z -> bool) :
  (forall a, 0 <= a <= 125 -> Z.testbit s a = m a) ->
  Z.testbit s 126 = false -> Z.testbit s 127 = false ->
  bs_ones 128 s = filter m (addr_list 126).
Proof.
  intros H B6 B7. unfold bs_ones.
  change (addr_list (Z.to_nat 128)) with (addr_list 126 ++ [126; 127]).
  rewrite filter_app. cbn [filter]. rewrite B6, B7, app_nil_r.
  apply filter_ext_in. intros a I. apply addr_list_in in I. apply H. lia.
Qed.

Lemma filter_below (m : Z -> bool) n : (n <= 256)%nat ->
  forallb (fun a => a <? 256) (filter m (addr_list n)) = true.
Proof.
  intros L. apply forallb_forall. intros a I. apply filter_In in I. destruct I as [I _].
  apply addr_list_in in I. apply Z.ltb_lt. lia.
Qed.

Lemma hi_clear_zero c d : hi_clear (mkA c d 0).
Proof. intros a _. apply Z.testbit_0_l. Qed.

(* implicit arguments, so that the instances below name only ll_simulated / sc_simulated and the run *)
Set Implicit Arguments.
Section Sim.
  Variables St Ev P : Type.
  Variable tx : Z -> St -> res (St * option txout).
  Variable rx : St -> Z -> telegram -> res St.
  Variable tmo : St -> Z -> res St.
  Variable take : St -> St * option Ev.
  Variable bits : St -> Z.
  Variable classify : telegram -> cls P.
  Variable abs_ev : Ev -> aev P.
  Variables other_sets requery : bool.
  Variable view : St -> ast.
  Variable Rep : St -> Prop.

  Definition cf (e : Z -> reaction) : Z -> cls P := fun da => abs_react classify (Some (e da)).

  (* the application is simulated by the sweep machine: from every state of Rep a poll runs without
     panic, stays in Rep, and is observed and continued as the machine says *)
  Record simulated : Prop := mkSim {
    sim_bits : forall s, a_bits (view s) = bits s;
    sim_cur : forall s, Rep s -> cur_ok (view s);
    sim_step : forall ts s e, addr_ok ts -> Rep s ->
      exists s' o, poll tx rx tmo take bits ts s e = Ok (s', o) /\ Rep s' /\
        abs_poll classify abs_ev o = a_obs P other_sets requery (view s) (cf e) /\
        view s' = a_next P other_sets (view s) (cf e) }.

  Hypothesis Sim : simulated.

  Lemma sim_run h : forall ts s, addr_ok ts -> Rep s ->
    exists s' tr, run tx rx tmo take bits ts s h = Ok (s', tr) /\ Rep s' /\
      map (abs_poll classify abs_ev) tr = a_trace P other_sets requery (view s) (map cf h) /\
      view s' = a_final P other_sets (view s) (map cf h) /\
      length tr = length h.
  Proof.
    induction h as [|e h IH]; intros ts s Hts R.
    - exists s, []. repeat split; try reflexivity. exact R.
    - destruct (sim_step Sim e Hts R) as [s1 [o [Hp [R1 [Ho Hv]]]]].
      destruct (IH ts s1 Hts R1) as [s2 [tr [Hr [R2 [Ht [Hf Hl]]]]]].
      exists s2, (o :: tr). cbn [run map a_trace a_final length].
      rewrite Hp. cbn [bind]. rewrite Hr. cbn [bind].
      repeat split.
      + exact R2.
      + rewrite Ho, Ht, Hv. reflexivity.
      + rewrite Hf, Hv. reflexivity.
      + rewrite Hl. reflexivity.
  Qed.

  (* what holds of all machine traces holds of the application's abstract transcripts: the rest
     of this section, for one run from a state of Rep *)
  Variables (ts : Z) (s : St) (h : list (Z -> reaction)) (s' : St) (tr : list (pollobs Ev)).
  Hypothesis Hts : addr_ok ts.
  Hypothesis R : Rep s.
  Hypothesis E : run tx rx tmo take bits ts s h = Ok (s', tr).

  Lemma sim_run_inv :
    Rep s' /\
    map (abs_poll classify abs_ev) tr = a_trace P other_sets requery (view s) (map cf h) /\
    bits s' = a_bits (a_final P other_sets (view s) (map cf h)) /\
    length tr = length h.
  Proof.
    destruct (sim_run h Hts R) as [s2 [tr2 [E2 [R2 [T [V L]]]]]].
    rewrite E in E2. injection E2 as E2 E3. subst s2 tr2. rewrite <- V, (sim_bits Sim). auto.
  Qed.

  Lemma sim_forallb (f : apoll P -> bool) (Q : (Z -> reaction) -> Prop) :
    (forall st e, cur_ok st -> Q e -> f (a_obs P other_sets requery st (cf e)) = true) ->
    Forall Q h -> forallb f (map (abs_poll classify abs_ev) tr) = true.
  Proof. intros Hf F. destruct sim_run_inv as (_ & -> & _). exact (a_trace_forallb P other_sets requery _ cf f Q Hf h _ (sim_cur Sim R) F). Qed.

  Lemma sim_cursor : cursor_walk (a_cur (view s)) (a_dn (view s)) (map (abs_poll classify abs_ev) tr) = true.
  Proof. destruct sim_run_inv as (_ & -> & _). apply a_cursor, (sim_cur Sim), R. Qed.

  Lemma sim_sweep_covers : (sweep_polls <= length h)%nat ->
    forall a, 0 <= a <= 125 -> In a (probed (map (abs_poll classify abs_ev) tr)).
  Proof.
    intros L. destruct sim_run_inv as (_ & -> & _). apply (a_cover P other_sets requery); [apply (sim_cur Sim), R|].
    rewrite map_length. exact L.
  Qed.

  Lemma sim_converges m : (sweep_polls <= length h)%nat ->
    consistent m (map (abs_poll classify abs_ev) tr) = true ->
    forall a, 0 <= a <= 125 -> Z.testbit (bits s') a = m a.
  Proof.
    destruct sim_run_inv as (_ & -> & -> & _). intros L C. apply (a_converges P other_sets requery); [apply (sim_cur Sim), R| |exact C].
    rewrite map_length. exact L.
  Qed.

  Lemma sim_alt_o1 : alt_walk other_sets (bits s) (map (abs_poll classify abs_ev) tr) = Some (bits s').
  Proof. destruct sim_run_inv as (_ & -> & -> & _). rewrite <- (sim_bits Sim). apply a_alt_silent. Qed.

  Lemma sim_alt : other_sets = false \/ no_other (map (abs_poll classify abs_ev) tr) = true ->
    alt_walk false (bits s) (map (abs_poll classify abs_ev) tr) = Some (bits s') /\
    forall a, 0 <= a ->
      alt_from (Z.testbit (bits s) a) (kinds_of a (map (abs_poll classify abs_ev) tr)) = Some (Z.testbit (bits s') a).
  Proof.
    intros N.
    assert (W : alt_walk false (bits s) (map (abs_poll classify abs_ev) tr) = Some (bits s')).
    { destruct sim_run_inv as (_ & T & -> & _). rewrite T in *. rewrite <- (sim_bits Sim). apply a_alt_strict, N. }
    split; [exact W|]. intros a Ha. exact (alt_walk_per_address P a _ Ha _ _ W).
  Qed.

  Lemma sim_alt_ns : no_silent (bits s) (map (abs_poll classify abs_ev) tr) = true ->
    alt_walk false (bits s) (map (abs_poll classify abs_ev) tr) = Some (bits s').
  Proof.
    destruct sim_run_inv as (_ & -> & -> & _). rewrite <- (sim_bits Sim). apply a_alt_strict_ns, (sim_cur Sim), R.
  Qed.

  Lemma sim_evs_match peqb lenient : (forall p, peqb p p = true) ->
    evs_matchb peqb lenient (map (abs_poll classify abs_ev) tr) = true.
  Proof. intros Hr. destruct sim_run_inv as (_ & -> & _). apply a_evs_match, Hr. Qed.

  Lemma sim_converge_scan peqb payloads : (forall p, peqb p p = true) -> hi_clear (view s) ->
    (payloads = true -> requery = true /\ forall p q, peqb p q = true -> p = q) ->
    forall n fuel, snd (converge_scan peqb payloads n fuel [] (map (abs_poll classify abs_ev) tr) (O, O)) = O.
  Proof.
    intros Hr C Hp n fuel. destruct sim_run_inv as (_ & -> & _).
    exact (a_converge_scan_ok P peqb Hr other_sets requery payloads n (view s) (sim_cur Sim R) C Hp fuel [] (map cf h) (O, O) eq_refl).
  Qed.

  Lemma sim_history m h0 h1 : h = h0 ++ h1 -> hi_clear (view s) -> (sweep_polls <= length h1)%nat ->
    (forall st, cur_ok st -> consistent m (a_trace P other_sets requery st (map cf h1)) = true) ->
    (forall a, 0 <= a <= 125 -> Z.testbit (bits s') a = m a) /\
    bs_ones 128 (bits s') = filter m (addr_list 126).
  Proof.
    intros Eh C L W. destruct sim_run_inv as (_ & _ & V & _).
    pose proof (a_hi_clear P other_sets (map cf h) (view s) (sim_cur Sim R) C) as Hi. unfold hi_clear in Hi. rewrite <- V in Hi.
    rewrite Eh, map_app, a_final_app in V.
    assert (H1 : cur_ok (a_final P other_sets (view s) (map cf h0))) by apply a_final_cur_ok, (sim_cur Sim), R.
    assert (Bits : forall a, 0 <= a <= 125 -> Z.testbit (bits s') a = m a).
    { rewrite V. apply (a_converges P other_sets requery); [exact H1|rewrite map_length; exact L|apply W, H1]. }
    split; [exact Bits|]. apply ones_filter; [exact Bits|apply Hi; lia|apply Hi; lia].
  Qed.

  Lemma sim_history_track peqb m pay h0 h1 : h = h0 ++ h1 -> (sweep_polls <= length h1)%nat ->
    requery = true -> (forall p q, peqb p q = true -> p = q) ->
    (forall st, cur_ok st -> consistent m (a_trace P other_sets requery st (map cf h1)) = true) ->
    (forall st, cur_ok st -> pay_consistent peqb pay (a_trace P other_sets requery st (map cf h1)) = true) ->
    forall a, 0 <= a <= 125 ->
      track (fun _ => None) (map (abs_poll classify abs_ev) tr) a = if m a then pay a else None.
  Proof.
    intros Eh L Rq Pe W1 W2. destruct sim_run_inv as (_ & -> & _). rewrite Eh. pose proof (sim_cur Sim R) as H0.
    assert (H1 : cur_ok (a_final P other_sets (view s) (map cf h0))) by apply a_final_cur_ok, H0.
    rewrite map_app, a_trace_app, track_app.
    apply (a_track_converges P peqb other_sets requery Rq Pe); [exact H1| |rewrite map_length; exact L|apply W1, H1|apply W2, H1].
    apply (tinv_final P other_sets requery Rq (map cf h0) (fun _ => None) (view s) H0). intro a. split; [reflexivity|exact I].
  Qed.
End Sim.
Unset Implicit Arguments.

Definition ll_rep (s : ll) : Prop := 0 <= ll_cursor s <= 125 /\ ll_pending s = None.
Definition ll_view (s : ll) : ast := mkA (ll_cursor s) (ll_done s) (ll_stations s).

Lemma ll_request_wf ts a : 0 <= ts <= 125 -> 0 <= a <= 125 -> wf_header (ll_request ts a).
Proof. intros H1 H2. unfold wf_header, ll_request, is_addr7, wf_sap. cbn. lia. Qed.

Lemma ll_request_thm ts s : addr_ok ts -> ll_rep s -> ll_done s = false ->
  ll_transmit ts s =
  Ok (s, Some (mkTx (ll_request ts (ll_cursor s)) (frame_spec (ll_request ts (ll_cursor s)) []) (Some (ll_cursor s)))).
Proof.
  intros Hts [Hc _] D. unfold ll_transmit. rewrite D.
  rewrite (send_request_ok _ (ll_request_wf ts (ll_cursor s) Hts Hc)). reflexivity.
Qed.

Lemma ll_timeout_ok s a : 0 <= a <= 125 ->
  ll_timeout s a = Ok (if Z.testbit (ll_stations s) a
                       then mkLl (Z.clearbit (ll_stations s) a) (ll_cursor s) (Some (LlLost a)) true
                       else mkLl (ll_stations s) (ll_cursor s) (ll_pending s) true).
Proof.
  intros H. unfold ll_timeout. rewrite bs_get_in by (unfold LL_BITS; lia).
  destruct (Z.testbit (ll_stations s) a); [|reflexivity].
  rewrite bs_set_in by (unfold LL_BITS; lia). reflexivity.
Qed.

Lemma ll_receive_ok s a t : 0 <= a <= 125 ->
  ll_receive s a t = Ok (if Z.testbit (ll_stations s) a
                         then mkLl (ll_stations s) (ll_cursor s) None true
                         else mkLl (Z.setbit (ll_stations s) a) (ll_cursor s)
                                   (match ll_reply_state t with
                                    | Some st => Some (LlDiscovered a st) | None => None end) true).
Proof.
  intros H. unfold ll_receive. rewrite bs_get_in by (unfold LL_BITS; lia).
  destruct (Z.testbit (ll_stations s) a); cbn [negb]; [reflexivity|].
  rewrite bs_set_in by (unfold LL_BITS; lia). reflexivity.
Qed.

Lemma ll_step ts s e : addr_ok ts -> ll_rep s ->
  exists s' o, ll_poll ts s e = Ok (s', o) /\ ll_rep s' /\
    ll_abs o = a_obs resp_state true false (ll_view s) (cf ll_classify e) /\
    ll_view s' = a_next resp_state true (ll_view s) (cf ll_classify e).
Proof.
  intros Hts R. unfold ll_poll, poll, a_obs, a_next. cbn [ll_view a_dn a_cur a_bits].
  destruct (ll_done s) eqn:D.
  - (* the probe is complete: only advance *)
    unfold ll_transmit. rewrite D. destruct R as [Hc Hp]. cbn [bind ll_take ll_pending]. rewrite Hp.
    eexists _, _. split; [reflexivity|]. split; [|split; reflexivity].
    split; [|reflexivity]. cbn. unfold LL_LAST, LL_FIRST. destruct (Z.ltb_spec (ll_cursor s) 125); lia.
  - (* a probe: the class of the reaction and whether the address was known decide *)
    rewrite (ll_request_thm ts s Hts R D). destruct R as [Hc Hp]. destruct s as [st cur pend dn].
    cbn [ll_cursor ll_pending ll_done ll_stations] in *. subst pend dn.
    cbn [bind ll_take ll_pending tx_exp]. unfold cf, abs_react.
    destruct (e cur) as [|t]; [rewrite ll_timeout_ok by exact Hc|rewrite ll_receive_ok by exact Hc; unfold ll_classify];
      cbn [bind ll_stations ll_cursor ll_pending];
      destruct (Z.testbit st cur) eqn:B; try destruct (ll_reply_state t) eqn:S;
      (eexists _, _; split; [reflexivity|]); unfold ll_abs, abs_poll, ll_rep, ll_view;
      cbn; unfold ll_classify; rewrite ?B, ?S; cbn; auto.
Qed.

Lemma ll_view_bits s : a_bits (ll_view s) = ll_stations s.
Proof. reflexivity. Qed.

Lemma ll_simulated :
  simulated ll_transmit ll_receive ll_timeout ll_take ll_stations ll_classify ll_abs_ev true false ll_view ll_rep.
Proof. split; [exact ll_view_bits|intros s R; exact (proj1 R)|exact ll_step]. Qed.

Lemma ll_total ts s h : addr_ok ts -> ll_rep s ->
  exists s' tr, ll_run ts s h = Ok (s', tr) /\ ll_rep s' /\ length tr = length h.
Proof.
  intros Hts R. destruct (sim_run ll_simulated h s Hts R) as [s' [tr [E [R' [_ [_ L]]]]]]. exists s', tr. auto.
Qed.

Lemma ll_new_rep : ll_rep ll_new.
Proof. unfold ll_rep, ll_new, LL_FIRST. cbn. split; [lia|reflexivity]. Qed.

Definition sc_rep (s : scanner) : Prop := 0 <= sc_cursor s <= 125 /\ sc_pending s = None.
Definition sc_view (s : scanner) : ast := mkA (sc_cursor s) (sc_done s) (sc_stations s).

Lemma sc_parse_data h b0 b1 b2 b3 b4 b5 rest :
  opt_eqb (h_dsap h) SAP_MASTER_MS0 = true -> opt_eqb (h_ssap h) SAP_SLAVE_DIAGNOSIS = true ->
  sc_parse (TData h (b0 :: b1 :: b2 :: b3 :: b4 :: b5 :: rest)) =
  Ok (Some (mkDiag (Z.land (b0 + 256 * b1) (Z.lxor 65535 SC_FLAG_PERMANENT_BIT))
                   (if b3 =? SC_NO_MASTER then None else Some b3) (256 * b4 + b5))).
Proof.
  intros D S. unfold sc_parse. rewrite D, S. cbn [negb].
  unfold SC_MIN_DIAG_LEN, SC_MASTER_IDX, SC_FLAGS_LO, SC_FLAGS_HI, SC_IDENT_LO, SC_IDENT_HI, SC_EXT_FROM.
  unfold get, slice_range, slice_from, two_bytes.
  cbn [length Nat.ltb Nat.leb nth_error bind Nat.sub skipn firstn].
  destruct (negb (Z.land (Z.land (b0 + 256 * b1) (Z.lxor 65535 SC_FLAG_PERMANENT_BIT)) SC_FLAG_EXT_DIAG =? 0));
    reflexivity.
Qed.

Lemma sc_parse_total t : exists r, sc_parse t = Ok r.
Proof.
  destruct t as [h pdu| |]; try (eexists; reflexivity).
  destruct (opt_eqb (h_dsap h) SAP_MASTER_MS0) eqn:D.
  2:{ exists None. unfold sc_parse. rewrite D. reflexivity. }
  destruct (opt_eqb (h_ssap h) SAP_SLAVE_DIAGNOSIS) eqn:S.
  2:{ exists None. unfold sc_parse. rewrite D, S. reflexivity. }
  destruct pdu as [|b0 [|b1 [|b2 [|b3 [|b4 [|b5 rest]]]]]];
    try (exists None; unfold sc_parse; rewrite D, S; reflexivity).
  eexists. apply sc_parse_data; assumption.
Qed.

Lemma sc_request_wf ts a : 0 <= ts <= 125 -> 0 <= a <= 125 -> wf_header (sc_request ts a).
Proof.
  intros H1 H2. unfold wf_header, sc_request, is_addr7, wf_sap, is_byte.
  unfold SAP_SLAVE_DIAGNOSIS, SAP_MASTER_MS0. cbn. lia.
Qed.

Lemma sc_timeout_ok s a : 0 <= a <= 125 ->
  sc_timeout s a = Ok (if Z.testbit (sc_stations s) a
                       then mkSc (Z.clearbit (sc_stations s) a) (sc_cursor s) (Some (ScLost a)) true
                       else mkSc (sc_stations s) (sc_cursor s) (sc_pending s) true).
Proof.
  intros H. unfold sc_timeout. rewrite bs_get_in by (unfold SC_BITS; lia).
  destruct (Z.testbit (sc_stations s) a); [|reflexivity].
  rewrite bs_set_in by (unfold SC_BITS; lia). reflexivity.
Qed.

Lemma sc_receive_ok s a t d : 0 <= a <= 125 -> sc_parse t = Ok d ->
  sc_receive s a t =
  Ok (match d with
      | Some diag =>
          let desc := mkDesc a (dg_ident diag) (dg_master diag) in
          if Z.testbit (sc_stations s) a
          then mkSc (sc_stations s) (sc_cursor s) (Some (ScRequery desc)) true
          else mkSc (Z.setbit (sc_stations s) a) (sc_cursor s) (Some (ScFound desc)) true
      | None => mkSc (sc_stations s) (sc_cursor s) None true
      end).
Proof.
  intros H Pd. unfold sc_receive. rewrite bs_get_in by (unfold SC_BITS; lia). rewrite Pd. cbn [bind].
  destruct d as [diag|]; destruct (Z.testbit (sc_stations s) a); cbn [negb andb bind]; try reflexivity.
  rewrite bs_set_in by (unfold SC_BITS; lia). reflexivity.
Qed.

Definition sc_pay := (Z * option Z)%type.

Lemma sc_request_thm ts s : addr_ok ts -> sc_rep s -> sc_done s = false ->
  sc_transmit ts s =
  Ok (s, Some (mkTx (sc_request ts (sc_cursor s)) (frame_spec (sc_request ts (sc_cursor s)) []) (Some (sc_cursor s)))).
Proof.
  intros Hts [Hc _] D. unfold sc_transmit. rewrite D.
  rewrite (send_request_ok _ (sc_request_wf ts (sc_cursor s) Hts Hc)). reflexivity.
Qed.

Lemma sc_step ts s e : addr_ok ts -> sc_rep s ->
  exists s' o, sc_poll ts s e = Ok (s', o) /\ sc_rep s' /\
    sc_abs o = a_obs sc_pay false true (sc_view s) (cf sc_classify e) /\
    sc_view s' = a_next sc_pay false (sc_view s) (cf sc_classify e).
Proof.
  intros Hts R. unfold sc_poll, poll, a_obs, a_next. cbn [sc_view a_dn a_cur a_bits].
  destruct (sc_done s) eqn:D.
  - unfold sc_transmit. rewrite D. destruct R as [Hc Hp]. cbn [bind sc_take sc_pending]. rewrite Hp.
    eexists _, _. split; [reflexivity|]. split; [|split; reflexivity].
    split; [|reflexivity]. cbn. unfold SC_LAST, SC_FIRST. destruct (Z.ltb_spec (sc_cursor s) 125); lia.
  - rewrite (sc_request_thm ts s Hts R D). destruct R as [Hc Hp]. destruct s as [st cur pend dn].
    cbn [sc_cursor sc_pending sc_done sc_stations] in *. subst pend dn.
    cbn [bind sc_take sc_pending tx_exp]. unfold cf, abs_react.
    destruct (e cur) as [|t].
    + rewrite sc_timeout_ok by exact Hc. cbn [bind sc_stations sc_cursor sc_pending].
      destruct (Z.testbit st cur) eqn:B; (eexists _, _; split; [reflexivity|]);
        unfold sc_abs, abs_poll, sc_rep, sc_view; cbn; rewrite ?B; auto.
    + destruct (sc_parse_total t) as [d Pd]. rewrite (sc_receive_ok _ cur t d Hc Pd). unfold sc_classify. rewrite Pd.
      cbn [bind sc_stations sc_cursor sc_pending].
      destruct d as [diag|]; cbv zeta; destruct (Z.testbit st cur) eqn:B; (eexists _, _; split; [reflexivity|]);
        unfold sc_abs, abs_poll, sc_rep, sc_view; cbn; unfold sc_classify; rewrite ?Pd, ?B; auto.
Qed.

Lemma sc_simulated :
  simulated sc_transmit sc_receive sc_timeout sc_take sc_stations sc_classify sc_abs_ev false true sc_view sc_rep.
Proof. split; [reflexivity|intros s R; exact (proj1 R)|exact sc_step]. Qed.

Lemma sc_total ts s h : addr_ok ts -> sc_rep s ->
  exists s' tr, sc_run ts s h = Ok (s', tr) /\ sc_rep s' /\ length tr = length h.
Proof.
  intros Hts R. destruct (sim_run sc_simulated h s Hts R) as [s' [tr [E [R' [_ [_ L]]]]]]. exists s', tr. auto.
Qed.

Lemma sc_new_rep : sc_rep sc_new.
Proof. unfold sc_rep, sc_new, SC_FIRST. cbn. split; [lia|reflexivity]. Qed.

Lemma ll_cursor_thm ts s h s' tr : addr_ok ts -> ll_rep s -> ll_run ts s h = Ok (s', tr) ->
  cursor_walk (ll_cursor s) (ll_done s) (map ll_abs tr) = true.
Proof. intros Hts R E. exact (sim_cursor ll_simulated s h Hts R E). Qed.

Lemma cursor_meaning (P : Type) (tr : list (apoll P)) c dn :
  0 <= c <= 125 -> cursor_walk c dn tr = true ->
  probed tr = sweep_from (if dn then next_addr c else c) (length (probed tr)) /\
  Forall (fun a => 0 <= a <= 125) (probed tr).
Proof.
  intros Hc W. pose proof (cursor_walk_closed_form P tr c dn Hc W) as E. split; [exact E|].
  rewrite E. apply sweep_from_range.
Qed.

Lemma ll_converges_thm ts s h s' tr m : addr_ok ts -> ll_rep s -> ll_run ts s h = Ok (s', tr) ->
  (sweep_polls <= length h)%nat -> consistent m (map ll_abs tr) = true ->
  forall a, 0 <= a <= 125 -> Z.testbit (ll_stations s') a = m a.
Proof. intros Hts R E. exact (sim_converges ll_simulated s h Hts R E m). Qed.

Lemma ll_alt_o1_thm ts s h s' tr : addr_ok ts -> ll_rep s -> ll_run ts s h = Ok (s', tr) ->
  alt_walk true (ll_stations s) (map ll_abs tr) = Some (ll_stations s').
Proof. intros Hts R E. exact (sim_alt_o1 ll_simulated s h Hts R E). Qed.

Lemma ll_alt_thm ts s h s' tr : addr_ok ts -> ll_rep s -> ll_run ts s h = Ok (s', tr) ->
  no_other (map ll_abs tr) = true ->
  alt_walk false (ll_stations s) (map ll_abs tr) = Some (ll_stations s') /\
  forall a, 0 <= a ->
    alt_from (Z.testbit (ll_stations s) a) (kinds_of a (map ll_abs tr)) = Some (Z.testbit (ll_stations s') a).
Proof. intros Hts R E N. exact (sim_alt ll_simulated s h Hts R E (or_intror N)). Qed.

Lemma ll_alt_ns_thm ts s h s' tr : addr_ok ts -> ll_rep s -> ll_run ts s h = Ok (s', tr) ->
  no_silent (ll_stations s) (map ll_abs tr) = true ->
  alt_walk false (ll_stations s) (map ll_abs tr) = Some (ll_stations s').
Proof. intros Hts R E. exact (sim_alt_ns ll_simulated s h Hts R E). Qed.

Lemma resp_state_eqb_refl p : resp_state_eqb p p = true.
Proof. unfold resp_state_eqb. apply Z.eqb_refl. Qed.

Lemma ll_evs_match_thm ts s h s' tr : addr_ok ts -> ll_rep s -> ll_run ts s h = Ok (s', tr) ->
  evs_matchb resp_state_eqb true (map ll_abs tr) = true.
Proof. intros Hts R E. exact (sim_evs_match ll_simulated s h Hts R E resp_state_eqb true resp_state_eqb_refl). Qed.

(* --- the environment form: a fixed responder set R, answers are response telegrams,
       nothing is lost; the own address does not answer (O5) *)
Definition ll_answers (ts : Z) (R : Z -> bool) (e : Z -> reaction) : Prop :=
  forall da, 0 <= da <= 125 ->
    if R da && negb (da =? ts)
    then exists t st, e da = RReply t /\ ll_reply_state t = Some st
    else e da = RTimeout.

Definition minus_ts (ts : Z) (R : Z -> bool) : Z -> bool := fun a => R a && negb (a =? ts).

Lemma ll_answers_consistent ts R h st : cur_ok st -> Forall (ll_answers ts R) h ->
  consistent (minus_ts ts R) (a_trace resp_state true false st (map (cf ll_classify) h)) = true.
Proof.
  apply a_trace_forallb. clear st. intros st e H Fe.
  unfold a_obs. destruct (a_dn st); cbn [ap_da ap_cls]; [reflexivity|].
  unfold cf, abs_react, minus_ts. specialize (Fe (a_cur st) H).
  destruct (R (a_cur st) && negb (a_cur st =? ts)); [|rewrite Fe; reflexivity].
  destruct Fe as [t [rs [E S]]]. rewrite E. unfold ll_classify. rewrite S. reflexivity.
Qed.

Lemma ll_history_converges ts R h0 h1 s' tr : addr_ok ts ->
  Forall (ll_answers ts R) h1 -> (sweep_polls <= length h1)%nat ->
  ll_run ts ll_new (h0 ++ h1) = Ok (s', tr) ->
  (forall a, 0 <= a <= 125 -> Z.testbit (ll_stations s') a = R a && negb (a =? ts)) /\
  ll_iter_stations s' = Ok (filter (minus_ts ts R) (addr_list 126)).
Proof.
  intros Hts F L E.
  destruct (sim_history ll_simulated ll_new Hts ll_new_rep E (minus_ts ts R) h0 h1 eq_refl (hi_clear_zero _ _) L) as [Bits Ones].
  { intros st H. apply ll_answers_consistent; assumption. }
  split; [exact Bits|]. unfold ll_iter_stations. change LL_BITS with 128. rewrite Ones, filter_below by lia. reflexivity.
Qed.

(* outside the contract the index operations do panic: addresses beyond the bit array *)
Lemma ll_panic_sites s a t : 128 <= a ->
  ll_timeout s a = Panic SiteUnwrap /\ ll_receive s a t = Panic SiteUnwrap.
Proof.
  intros H. unfold ll_timeout, ll_receive. rewrite bs_get_out by (unfold LL_BITS; lia). split; reflexivity.
Qed.

(* observation O1 on the model: station 0 answers the status request with a bare SC; it is
   marked without Discovered, and one sweep later - silent - it is reported Lost.  The strict
   alternation oracle rejects this transcript, the O1-aware one accepts it. *)
Definition o1_history : list (Z -> reaction) :=
  (fun _ => RReply TShortConf) :: repeat (fun _ => RTimeout) 253.

Lemma ll_o1_observation :
  match ll_run 1 ll_new o1_history with
  | Ok (s', tr) =>
      flat_map ap_evs (map ll_abs tr) = [ADown 0] /\
      alt_walk false 0 (map ll_abs tr) = None /\
      alt_walk true 0 (map ll_abs tr) = Some 0
  | _ => False
  end.
Proof. vm_compute. repeat split; reflexivity. Qed.

Lemma sc_cursor_thm ts s h s' tr : addr_ok ts -> sc_rep s -> sc_run ts s h = Ok (s', tr) ->
  cursor_walk (sc_cursor s) (sc_done s) (map sc_abs tr) = true.
Proof. intros Hts R E. exact (sim_cursor sc_simulated s h Hts R E). Qed.

Lemma sc_converges_thm ts s h s' tr m : addr_ok ts -> sc_rep s -> sc_run ts s h = Ok (s', tr) ->
  (sweep_polls <= length h)%nat -> consistent m (map sc_abs tr) = true ->
  forall a, 0 <= a <= 125 -> Z.testbit (sc_stations s') a = m a.
Proof. intros Hts R E. exact (sim_converges sc_simulated s h Hts R E m). Qed.

Lemma sc_alt_thm ts s h s' tr : addr_ok ts -> sc_rep s -> sc_run ts s h = Ok (s', tr) ->
  alt_walk false (sc_stations s) (map sc_abs tr) = Some (sc_stations s') /\
  forall a, 0 <= a ->
    alt_from (Z.testbit (sc_stations s) a) (kinds_of a (map sc_abs tr)) = Some (Z.testbit (sc_stations s') a).
Proof. intros Hts R E. exact (sim_alt sc_simulated s h Hts R E (or_introl eq_refl)). Qed.

Lemma sc_pay_eqb_refl p : sc_pay_eqb p p = true.
Proof.
  unfold sc_pay_eqb. rewrite Z.eqb_refl. destruct (snd p) as [x|]; cbn [opt_eqb andb]; [apply Z.eqb_refl|reflexivity].
Qed.

Lemma sc_pay_eqb_eq p q : sc_pay_eqb p q = true -> p = q.
Proof.
  destruct p as [i m], q as [j n]. unfold sc_pay_eqb. cbn [fst snd]. intros H.
  apply andb_prop in H. destruct H as [A B]. apply Z.eqb_eq in A. subst j.
  destruct m as [x|], n as [y|]; cbn [opt_eqb] in B; try discriminate B; [|reflexivity].
  apply Z.eqb_eq in B. subst y. reflexivity.
Qed.

Lemma sc_evs_match_thm ts s h s' tr : addr_ok ts -> sc_rep s -> sc_run ts s h = Ok (s', tr) ->
  evs_matchb sc_pay_eqb false (map sc_abs tr) = true.
Proof. intros Hts R E. exact (sim_evs_match sc_simulated s h Hts R E sc_pay_eqb false sc_pay_eqb_refl). Qed.

(* the environment form: D a = Some (ident, master) for the DP peripherals on the bus; they
   answer the diagnostics request with a telegram the scanner's parser accepts and that
   carries these values; every other address stays silent *)
Definition sc_on_bus (ts : Z) (D : Z -> option sc_pay) : Z -> option sc_pay :=
  fun a => if a =? ts then None else D a.
Definition is_some {A} (o : option A) : bool := match o with Some _ => true | None => false end.

Definition sc_answers (ts : Z) (D : Z -> option sc_pay) (e : Z -> reaction) : Prop :=
  forall da, 0 <= da <= 125 ->
    match sc_on_bus ts D da with
    | Some p => exists t d, e da = RReply t /\ sc_parse t = Ok (Some d) /\ (dg_ident d, dg_master d) = p
    | None => e da = RTimeout
    end.

Lemma sc_answers_poll ts D e st : cur_ok st -> sc_answers ts D e -> a_dn st = false ->
  match sc_on_bus ts D (a_cur st) with
  | Some p => cf sc_classify e (a_cur st) = CValid p
  | None => cf sc_classify e (a_cur st) = CTimeout
  end.
Proof.
  intros H Fe _. specialize (Fe (a_cur st) H). unfold cf, abs_react.
  destruct (sc_on_bus ts D (a_cur st)) as [p|]; [|rewrite Fe; reflexivity].
  destruct Fe as [t [d [E [S Pp]]]]. rewrite E. unfold sc_classify. rewrite S, Pp. reflexivity.
Qed.

Lemma sc_answers_consistent ts D h st : cur_ok st -> Forall (sc_answers ts D) h ->
  consistent (fun a => is_some (sc_on_bus ts D a)) (a_trace sc_pay false true st (map (cf sc_classify) h)) = true /\
  pay_consistent sc_pay_eqb (sc_on_bus ts D) (a_trace sc_pay false true st (map (cf sc_classify) h)) = true.
Proof.
  intros H F. split; revert H F; apply a_trace_forallb; clear st; intros st e H Fe;
    pose proof (sc_answers_poll ts D e st H Fe) as Q; unfold a_obs; destruct (a_dn st); cbn [ap_da ap_cls]; try reflexivity;
    specialize (Q eq_refl); destruct (sc_on_bus ts D (a_cur st)); rewrite Q; try reflexivity.
  apply sc_pay_eqb_refl.
Qed.

Lemma sc_history_converges ts D h0 h1 s' tr : addr_ok ts ->
  Forall (sc_answers ts D) h1 -> (sweep_polls <= length h1)%nat ->
  sc_run ts sc_new (h0 ++ h1) = Ok (s', tr) ->
  (forall a, 0 <= a <= 125 -> Z.testbit (sc_stations s') a = is_some (sc_on_bus ts D a)) /\
  bs_ones SC_BITS (sc_stations s') = filter (fun a => is_some (sc_on_bus ts D a)) (addr_list 126) /\
  (forall a, 0 <= a <= 125 -> track (fun _ => None) (map sc_abs tr) a = sc_on_bus ts D a).
Proof.
  intros Hts F L E.
  assert (C : forall st, cur_ok st -> _) by (intros st H; exact (sc_answers_consistent ts D h1 st H F)).
  destruct (sim_history sc_simulated sc_new Hts sc_new_rep E _ h0 h1 eq_refl (hi_clear_zero _ _) L (fun st H => proj1 (C st H)))
    as [Bits Ones].
  split; [exact Bits|]. split; [exact Ones|]. intros a Ha. unfold sc_abs.
  rewrite (sim_history_track sc_simulated sc_new Hts sc_new_rep E sc_pay_eqb _ (sc_on_bus ts D) h0 h1 eq_refl L eq_refl
             sc_pay_eqb_eq (fun st H => proj1 (C st H)) (fun st H => proj2 (C st H)) Ha).
  destruct (sc_on_bus ts D a); reflexivity.
Qed.

Lemma sc_panic_sites s a t : 128 <= a ->
  sc_timeout s a = Panic SiteUnwrap /\ sc_receive s a t = Panic SiteUnwrap.
Proof.
  intros H. unfold sc_timeout, sc_receive. rewrite bs_get_out by (unfold SC_BITS; lia). split; reflexivity.
Qed.

(* observation O8 on the model: a peripheral that was found and then keeps answering with
   something that is not a diagnostics reply (here an FDL status response) stays in the
   station set and is never reported lost. *)
Definition o8_diag : telegram :=
  TData (mkHeader 1 0 (Some 62) (Some 60) (FcResponse RsSlave StDataLow)) [0; 4; 0; 255; 11; 22].
Definition o8_other : telegram := TData (mkHeader 1 0 None None (FcResponse RsSlave StOk)) [].
Definition o8_history : list (Z -> reaction) :=
  (fun _ => RReply o8_diag) :: repeat (fun _ => RTimeout) 251 ++
  (fun _ => RReply o8_other) :: repeat (fun _ => RTimeout) 251 ++
  (fun _ => RReply o8_other) :: repeat (fun _ => RTimeout) 251.

Lemma sc_o8_observation :
  match sc_run 1 sc_new o8_history with
  | Ok (s', tr) =>
      flat_map ap_evs (map sc_abs tr) = [AUp 0 (2838, None)] /\
      sc_stations s' = 1
  | _ => False
  end.
Proof. vm_compute. split; reflexivity. Qed.

Definition answers_are_responses (e : Z -> reaction) : Prop :=
  forall da t, e da = RReply t -> ll_reply_state t <> None.

Lemma ll_alt_env_thm ts s h s' tr : addr_ok ts -> ll_rep s -> ll_run ts s h = Ok (s', tr) ->
  Forall answers_are_responses h ->
  alt_walk false (ll_stations s) (map ll_abs tr) = Some (ll_stations s') /\
  forall a, 0 <= a ->
    alt_from (Z.testbit (ll_stations s) a) (kinds_of a (map ll_abs tr)) = Some (Z.testbit (ll_stations s') a).
Proof.
  intros Hts R E F. apply (ll_alt_thm ts s h s' tr Hts R E).
  apply (sim_forallb ll_simulated s Hts R E) with (Q := answers_are_responses); [|exact F].
  intros st e _ Fe. unfold a_obs. destruct (a_dn st); cbn [ap_cls]; [reflexivity|].
  unfold cf, abs_react. destruct (e (a_cur st)) as [|t] eqn:Et; [reflexivity|].
  unfold ll_classify. destruct (ll_reply_state t) eqn:S; [reflexivity|]. exfalso. exact (Fe _ _ Et S).
Qed.

Lemma ll_history_converges_two_sweeps ts R h0 h1 s' tr : addr_ok ts ->
  Forall (ll_answers ts R) h1 -> (2 * sweep_polls <= length h1)%nat ->
  ll_run ts ll_new (h0 ++ h1) = Ok (s', tr) ->
  ll_iter_stations s' = Ok (filter (minus_ts ts R) (addr_list 126)).
Proof.
  intros Hts F L E. apply (ll_history_converges ts R h0 h1 s' tr Hts F); [|exact E].
  unfold sweep_polls in *. lia.
Qed.

(* non-vacuity: the population of the crate's own test (7 scans; 3 8 11 67 125 answer) *)
Definition ex_R (a : Z) : bool := existsb (Z.eqb a) [3; 8; 11; 67; 125; 7].
Definition ex_reply (a : Z) : telegram := TData (mkHeader 7 a None None (FcResponse RsSlave StOk)) [].
Definition ex_env : Z -> reaction := fun da => if ex_R da && negb (da =? 7) then RReply (ex_reply da) else RTimeout.

Lemma ex_env_answers : ll_answers 7 ex_R ex_env.
Proof.
  intros da H. unfold ex_env. destruct (ex_R da && negb (da =? 7)); [|reflexivity].
  exists (ex_reply da), RsSlave. split; reflexivity.
Qed.

Lemma ex_run :
  match ll_run 7 ll_new (repeat ex_env 252) with
  | Ok (s', _) => ll_iter_stations s' = Ok [3; 8; 11; 67; 125]
  | _ => False
  end.
Proof. vm_compute. reflexivity. Qed.

(* every oracle the check runs on the implementation's transcript is a theorem of the model's *)
Lemma ll_oracle_sound ts h s' tr : addr_ok ts -> ll_run ts ll_new h = Ok (s', tr) ->
  cursor_walk 0 false (map ll_abs tr) = true /\
  evs_matchb resp_state_eqb true (map ll_abs tr) = true /\
  alt_walk true 0 (map ll_abs tr) = Some (ll_stations s') /\
  (no_silent 0 (map ll_abs tr) = true -> alt_walk false 0 (map ll_abs tr) = Some (ll_stations s')) /\
  forall n fuel, snd (converge_scan resp_state_eqb false n fuel [] (map ll_abs tr) (O, O)) = O.
Proof.
  intros Hts E. pose proof ll_new_rep as R.
  split; [exact (ll_cursor_thm ts ll_new h s' tr Hts R E)|].
  split; [exact (ll_evs_match_thm ts ll_new h s' tr Hts R E)|].
  split; [exact (ll_alt_o1_thm ts ll_new h s' tr Hts R E)|].
  split; [exact (ll_alt_ns_thm ts ll_new h s' tr Hts R E)|].
  exact (sim_converge_scan ll_simulated ll_new h Hts R E resp_state_eqb (payloads := false) resp_state_eqb_refl (hi_clear_zero _ _)
           ltac:(discriminate)).
Qed.

Lemma sc_oracle_sound ts h s' tr : addr_ok ts -> sc_run ts sc_new h = Ok (s', tr) ->
  cursor_walk 0 false (map sc_abs tr) = true /\
  evs_matchb sc_pay_eqb false (map sc_abs tr) = true /\
  alt_walk false 0 (map sc_abs tr) = Some (sc_stations s') /\
  forall n fuel, snd (converge_scan sc_pay_eqb true n fuel [] (map sc_abs tr) (O, O)) = O.
Proof.
  intros Hts E. pose proof sc_new_rep as R.
  split; [exact (sc_cursor_thm ts sc_new h s' tr Hts R E)|].
  split; [exact (sc_evs_match_thm ts sc_new h s' tr Hts R E)|].
  split; [exact (proj1 (sc_alt_thm ts sc_new h s' tr Hts R E))|].
  exact (sim_converge_scan sc_simulated sc_new h Hts R E sc_pay_eqb sc_pay_eqb_refl (hi_clear_zero _ _)
           (fun _ => conj eq_refl sc_pay_eqb_eq)).
Qed.

(* Whatever the state and whatever the environment does: within any 252 consecutive calls of
   transmit_telegram every address 0..125 is probed.  (HighPrioOnly is not an input of the
   model: both applications ignore it, DESIGN O4.)  This is what makes "the population has
   been stable for two sweeps" a statement about TIME in the ground-truth oracle. *)
Lemma ll_sweep_covers ts s h s' tr : addr_ok ts -> ll_rep s -> ll_run ts s h = Ok (s', tr) ->
  (sweep_polls <= length h)%nat -> forall a, 0 <= a <= 125 -> In a (probed (map ll_abs tr)).
Proof. intros Hts R E. exact (sim_sweep_covers ll_simulated s h Hts R E). Qed.

Lemma sc_sweep_covers ts s h s' tr : addr_ok ts -> sc_rep s -> sc_run ts s h = Ok (s', tr) ->
  (sweep_polls <= length h)%nat -> forall a, 0 <= a <= 125 -> In a (probed (map sc_abs tr)).
Proof. intros Hts R E. exact (sim_sweep_covers sc_simulated s h Hts R E). Qed.
