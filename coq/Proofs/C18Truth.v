(* C18: soundness of the ground-truth rule Model/ScanTruth.v (truth_ok) for the models of LiveList
   and DpScanner.  Proved once on the sweep machine, from three facts of Proofs/ScanMachine.v:
     - the station bit of address a changes only in polls that probe a; after a probe of a with
       class CValid it is set, after CTimeout it is cleared (linv_run, along last_probe);
     - a window of one sweep (252 polls) probes every address 0..125 (a_cover);
     - bits 126.. are never touched (a_bits_outside).
   truth_ok also demands that bits 126 and 127 of the 128 bit station array
   are not listed.  The sweep never touches them, so from a state that has them set they stay set:
   the theorems carry the hypothesis that they are clear in the start state (true of new()). *)
From PB Require Import Common Telegram ScanBase LiveList Scan ScanOracle ScanTruth ScanMachine C18Proofs ByteFacts.

Section MachineTruth.
  Variable P : Type.
  Variables other_sets requery : bool.

  Local Notation a_final := (a_final P other_sets).
  Local Notation a_trace := (a_trace P other_sets requery).

  Lemma a_truth ts pop window st0 h :
    cur_ok st0 -> (window + sweep_polls <= length h)%nat ->
    Z.testbit (a_bits st0) 126 = false -> Z.testbit (a_bits st0) 127 = false ->
    explained ts pop (skipn window (a_trace st0 h)) = true ->
    last_bits 0 (a_trace st0 h) = a_bits (a_final st0 h) /\
    truth_ok ts pop window (a_bits (a_final st0 h)) (a_trace st0 h) = true.
  Proof.
    intros H0 L B126 B127 X. split.
    { apply last_bits_trace. intros N. rewrite N in L. unfold sweep_polls in L. cbn [length] in L. lia. }
    assert (EF : a_final st0 h = a_final (a_final st0 (firstn window h)) (skipn window h)).
    { rewrite <- a_final_app, firstn_skipn. reflexivity. }
    unfold truth_ok, truth_bad. rewrite a_trace_skipn in *.
    set (st := a_final st0 (firstn window h)) in *. set (hw := skipn window h) in *.
    assert (H : cur_ok st) by (apply a_final_cur_ok; exact H0).
    assert (Cov : forall a, 0 <= a <= 125 -> In a (probed (a_trace st hw))).
    { apply a_cover; [exact H|]. unfold hw. rewrite skipn_length. lia. }
    rewrite EF.
    assert (Run : forall a, linv P a (last_probe a None (a_trace st hw)) (a_final st hw)).
    { intros a. apply linv_run; [exact H|exact Logic.I]. }
    rewrite flat_map_nil, flat_map_nil; [reflexivity| |].
    - (* nothing outside the population is listed *)
      intros a Ia. apply addr_list_in in Ia. unfold truth_bits in Ia. unfold listed_check.
      destruct (Z.testbit (a_bits (a_final st hw)) a) eqn:B; [|reflexivity].
      destruct (expected ts pop a) eqn:E; [reflexivity|]. exfalso.
      destruct (Z.le_gt_cases a 125) as [Le|Gt].
      + destruct (last_probe_probed P a (a_trace st hw) None (Cov a ltac:(lia))) as [p [Ip [Dp Lp]]].
        unfold explained in X. rewrite forallb_forall in X. specialize (X p Ip).
        rewrite Dp, E in X. cbn [orb] in X.
        specialize (Run a). rewrite Lp in Run.
        destruct (ap_cls p); try discriminate X. cbn [linv] in Run. rewrite Run in B. discriminate B.
      + rewrite <- EF in B. rewrite (a_bits_outside P other_sets h st0 a H0 ltac:(lia)) in B.
        assert (a = 126 \/ a = 127) as [A|A] by lia; subst a; congruence.
    - (* every expected address was probed, and is listed if its last probe was answered validly *)
      intros a Ia. apply addr_list_in in Ia. unfold sweep_len in Ia. unfold member_check.
      destruct (expected ts pop a); [|reflexivity].
      destruct (last_probe_probed P a (a_trace st hw) None (Cov a ltac:(lia))) as [p [_ [_ Lp]]].
      specialize (Run a). rewrite Lp in *.
      destruct (ap_cls p); try reflexivity. cbn [linv] in Run. rewrite Run. reflexivity.
  Qed.
End MachineTruth.

(* the environment of the window as the case line of the check describes it: whoever is not in
   the population - and the own address - is silent; members may do anything *)
Definition silent_outside (ts : Z) (pop : list Z) (e : Z -> reaction) : Prop :=
  forall a, expected ts pop a = false -> e a = RTimeout.

Section SimTruth.
  Variables St Ev P : Type.
  Variable tx : Z -> St -> res (St * option txout).
  Variable rx : St -> Z -> telegram -> res St.
  Variable tmo : St -> Z -> res St.
  Variable take : St -> St * option Ev.
  Variable bits : St -> Z.
  Variable classify : telegram -> cls P.
  Variable abs_ev : Ev -> aev P.
  Variables other_sets requery : bool.
  Variable view : St -> ast.
  Variable Rep : St -> Prop.
  Hypothesis Sim : simulated tx rx tmo take bits classify abs_ev other_sets requery view Rep.

  Lemma sim_truth_sound ts pop window s h s' tr : addr_ok ts -> Rep s ->
    run tx rx tmo take bits ts s h = Ok (s', tr) -> (window + sweep_polls <= length h)%nat ->
    Z.testbit (bits s) 126 = false -> Z.testbit (bits s) 127 = false ->
    explained ts pop (skipn window (map (abs_poll classify abs_ev) tr)) = true ->
    last_bits 0 (map (abs_poll classify abs_ev) tr) = bits s' /\
    truth_ok ts pop window (bits s') (map (abs_poll classify abs_ev) tr) = true.
  Proof.
    intros Hts R E L B6 B7 X. destruct (sim_run_inv Sim s h Hts R E) as (_ & T & -> & _). rewrite T in *.
    rewrite <- (sim_bits Sim) in B6, B7. apply a_truth; try assumption; [apply (sim_cur Sim), R|].
    rewrite map_length. exact L.
  Qed.

  Lemma sim_truth_sound_env ts pop s h1 h2 s' tr : addr_ok ts -> Rep s ->
    run tx rx tmo take bits ts s (h1 ++ h2) = Ok (s', tr) -> (sweep_polls <= length h2)%nat ->
    Z.testbit (bits s) 126 = false -> Z.testbit (bits s) 127 = false ->
    Forall (silent_outside ts pop) h2 ->
    truth_ok ts pop (length h1) (last_bits 0 (map (abs_poll classify abs_ev) tr)) (map (abs_poll classify abs_ev) tr) = true.
  Proof.
    intros Hts R E L B6 B7 F.
    destruct (sim_truth_sound ts pop (length h1) s (h1 ++ h2) s' tr Hts R E) as [-> Tr]; try assumption; [rewrite app_length; lia|].
    destruct (sim_run_inv Sim s (h1 ++ h2) Hts R E) as (_ & -> & _).
    rewrite a_trace_skipn, map_app. rewrite <- (map_length (cf classify) h1) at 2.
    rewrite skipn_app, skipn_all, Nat.sub_diag. cbn [app skipn].
    apply a_trace_forallb with (Q := silent_outside ts pop); [|apply a_final_cur_ok, (sim_cur Sim), R|exact F].
    intros st e _ Fe. unfold a_obs. destruct (a_dn st); cbn [ap_da ap_cls]; [reflexivity|].
    destruct (expected ts pop (a_cur st)) eqn:Ex; [reflexivity|]. unfold cf. rewrite (Fe _ Ex). reflexivity.
  Qed.
End SimTruth.
Arguments sim_truth_sound {St Ev P tx rx tmo take bits classify abs_ev other_sets requery view Rep} Sim.
Arguments sim_truth_sound_env {St Ev P tx rx tmo take bits classify abs_ev other_sets requery view Rep} Sim.

Lemma ll_truth_sound ts pop window s h s' tr : addr_ok ts -> ll_rep s ->
  ll_run ts s h = Ok (s', tr) -> (window + sweep_polls <= length h)%nat ->
  Z.testbit (ll_stations s) 126 = false -> Z.testbit (ll_stations s) 127 = false ->
  explained ts pop (skipn window (map ll_abs tr)) = true ->
  last_bits 0 (map ll_abs tr) = ll_stations s' /\
  truth_ok ts pop window (ll_stations s') (map ll_abs tr) = true.
Proof. exact (sim_truth_sound ll_simulated ts pop window s h s' tr). Qed.

Lemma ll_truth_sound_env ts pop s h1 h2 s' tr : addr_ok ts -> ll_rep s ->
  ll_run ts s (h1 ++ h2) = Ok (s', tr) -> (sweep_polls <= length h2)%nat ->
  Z.testbit (ll_stations s) 126 = false -> Z.testbit (ll_stations s) 127 = false ->
  Forall (silent_outside ts pop) h2 ->
  truth_ok ts pop (length h1) (last_bits 0 (map ll_abs tr)) (map ll_abs tr) = true.
Proof. exact (sim_truth_sound_env ll_simulated ts pop s h1 h2 s' tr). Qed.

Lemma sc_truth_sound ts pop window s h s' tr : addr_ok ts -> sc_rep s ->
  sc_run ts s h = Ok (s', tr) -> (window + sweep_polls <= length h)%nat ->
  Z.testbit (sc_stations s) 126 = false -> Z.testbit (sc_stations s) 127 = false ->
  explained ts pop (skipn window (map sc_abs tr)) = true ->
  last_bits 0 (map sc_abs tr) = sc_stations s' /\
  truth_ok ts pop window (sc_stations s') (map sc_abs tr) = true.
Proof. exact (sim_truth_sound sc_simulated ts pop window s h s' tr). Qed.

Lemma sc_truth_sound_env ts pop s h1 h2 s' tr : addr_ok ts -> sc_rep s ->
  sc_run ts s (h1 ++ h2) = Ok (s', tr) -> (sweep_polls <= length h2)%nat ->
  Z.testbit (sc_stations s) 126 = false -> Z.testbit (sc_stations s) 127 = false ->
  Forall (silent_outside ts pop) h2 ->
  truth_ok ts pop (length h1) (last_bits 0 (map sc_abs tr)) (map sc_abs tr) = true.
Proof. exact (sim_truth_sound_env sc_simulated ts pop s h1 h2 s' tr). Qed.

(* a state with bit 126 set keeps it through two silent sweeps: the rule reports it *)
Lemma ll_truth_hi_bit_needed :
  match ll_run 1 (mkLl (2 ^ 126) 0 None false) (repeat (fun _ => RTimeout) 504) with
  | Ok (s', tr) => truth_ok 1 [] 0 (ll_stations s') (map ll_abs tr) = false
  | _ => False
  end.
Proof. vm_compute. reflexivity. Qed.

(* station 1 scans; 3 answers validly, 5 answers with a bare SC (not a valid answer), 9 is on the
   bus but its answer never arrives, everything else is silent; one sweep.  The window is
   explained by the population {3, 5, 9}, the rule accepts the run (3 listed; 5 listed by the
   live list, which the rule leaves open; 9 not listed) - and rejects the same transcript when
   station 3 is missing from the final station set or the silent address 7 is listed. *)
Definition tr_env : Z -> reaction := fun da =>
  if da =? 3 then RReply (TData (mkHeader 1 3 None None (FcResponse RsSlave StOk)) [])
  else if da =? 5 then RReply TShortConf else RTimeout.

Lemma ll_truth_example :
  match ll_run 1 ll_new (repeat tr_env 252) with
  | Ok (s', tr) =>
      explained 1 [3; 5; 9] (map ll_abs tr) = true /\
      ll_stations s' = 40 /\
      truth_ok 1 [3; 5; 9] 0 (ll_stations s') (map ll_abs tr) = true /\
      truth_bad 1 [3; 5; 9] 0 (Z.clearbit (ll_stations s') 3) (map ll_abs tr) = [(3, TValidNotListed)] /\
      truth_ok 1 [3; 5; 9] 0 (Z.clearbit (ll_stations s') 3) (map ll_abs tr) = false /\
      truth_bad 1 [3; 5; 9] 0 (Z.setbit (ll_stations s') 7) (map ll_abs tr) = [(7, TListedNotOnBus)] /\
      truth_bad 1 [3; 5; 9] 0 (ll_stations s') (firstn 5 (map ll_abs tr)) = [(3, TNeverProbed); (5, TNeverProbed); (9, TNeverProbed)]
  | _ => False
  end.
Proof. vm_compute. repeat split; reflexivity. Qed.
