(* C19, fidelity half - the settings-only fragment: a file of `key = number | string` settings
   (GsdRender.settings_tree) is a file whose statements are those settings, so its round trip is the
   whole-file one (C19File.v, C19Fragments.v) plus: nothing but scalars is written, one warning.
   Also: its pair trees are well shaped. *)
From PB Require Import Common GsdGrammar GsdTables GsdInterp GsdShape GsdRender C19Shape C19File C19Fragments.

Theorem parse_number_written : forall n tmax,
  wnum_okb n = true -> wnum_value n <= tmax -> tmax <= u32_max ->
  parse_number tmax (Node (wnum_rule n) (wnum_text n) []) = POk (wnum_value n).
Proof.
  intros n tmax Hok Hv Ht. apply (read_num tmax n Ht). unfold num_okb. rewrite Hok. apply Z.leb_le, Hv.
Qed.

Theorem parse_string_written : forall w, wstr_okb w = true ->
  parse_string (Node R_string_literal (wstr_text w) []) = POk (wstr_value w).
Proof. exact read_str. Qed.

Lemma rm_crlf_cons : forall c r, (c =? 92) = false -> remove_bs_crlf (c :: r) = c :: remove_bs_crlf r.
Proof. intros c r H. apply rm_crlf_cons_gen. rewrite H. reflexivity. Qed.

Lemma rm_lf_cons : forall c r, (c =? 92) = false -> remove_bs_lf (c :: r) = c :: remove_bs_lf r.
Proof. intros c r H. apply rm_lf_cons_gen. rewrite H. reflexivity. Qed.

Definition rest_of (d : desc) :=
  (d_modules d, d_slots d, d_prm d, d_bits d, d_notbits d, d_areas d).

(* Modular_Station and Max_Module are not in the fragment (their arms are special) *)
Lemma targets_no_special : forall items,
  ~ In (TFlag BF_modular_station) (targets items) /\ ~ In (TNum NF_max_modules) (targets items).
Proof.
  induction items as [| a r [IH1 IH2]]; [split; intros [] |].
  unfold targets in *. cbn [flat_map].
  split; intros H; apply in_app_or in H; destruct H as [H | H]; try (apply IH1; exact H); try (apply IH2; exact H);
    unfold item_target, item_action in H;
    destruct (assoc_str (to_lower (wi_keytext a)) setting_table) as [[f | f | f | mask | sp] |] eqn:E;
    cbn [In] in H; try (destruct H as [H | []]; try discriminate H); try contradiction.
  - injection H as ->. apply table_no_modular_flag. eapply assoc_str_in. exact E.
  - injection H as ->. apply table_no_max_modules. eapply assoc_str_in. exact E.
Qed.

Definition item_set (it : witem) : wset :=
  mkSet (wi_keytext it) None (match wi_value it with WNum n => VNum n | WStr w => VStr w end).
Definition item_stmts (items : list witem) : list wstmt := map (fun it => WSetS (item_set it)) items.

Lemma settings_file_tree : forall pre mk items, settings_tree pre mk items = file_tree pre mk (item_stmts items).
Proof.
  intros pre mk items. unfold settings_tree, file_tree, item_stmts. rewrite map_map.
  do 4 f_equal. apply map_ext. intros [k [n | w]]; reflexivity.
Qed.

Definition kept (s : st) := (s_legacy s, s_maxspan s, s_warn s, rest_of (s_gsd s)).

Lemma item_set_spec : forall it s, item_okb it = true ->
  set_okb s (item_set it) = true /\ set_target (item_set it) = item_target it /\
  kept (apply_set s (item_set it)) = kept s.
Proof.
  intros [k v] s H. unfold item_okb, item_target, item_action in *.
  unfold set_okb, set_target, apply_set, set_action, item_set, num_okb. cbn [wi_keytext wi_value se_key se_idx se_val] in *.
  destruct (assoc_str (to_lower k) setting_table) as [[f | f | f | m | sp] |]; destruct v as [n | w];
    try discriminate H; repeat split; auto.
  destruct (truth n); reflexivity.
Qed.

Lemma items_spec : forall items s, forallb item_okb items = true ->
  stmts_okb s (item_stmts items) = true /\ file_targets (item_stmts items) = targets items /\
  kept (fold_left apply_stmt (item_stmts items) s) = kept s.
Proof.
  induction items as [| it items IH]; intros s H; [repeat split |].
  cbn [forallb] in H. apply andb_true_iff in H. destruct H as [Hi Hr].
  cbn [item_stmts map stmts_okb stmt_okb fold_left apply_stmt]. fold (item_stmts items).
  destruct (item_set_spec it s Hi) as [A [B C]].
  destruct (IH (apply_set s (item_set it)) Hr) as [A' [B' C']].
  rewrite A, A', file_targets_set, B, B', C', C. repeat split.
Qed.

Lemma item_says : forall d it, set_says d (item_set it) -> says d it.
Proof.
  intros d [k v]. unfold set_says, says, item_action, set_action, item_set, truth. cbn [wi_keytext wi_value se_key se_val].
  destruct (assoc_str (to_lower k) setting_table) as [[f | f | f | m | sp] |]; destruct v; auto.
Qed.

Lemma items_speeds : forall items, speeds_said (sets_of (item_stmts items)) = said_speeds items.
Proof.
  intros items. unfold speeds_said, said_speeds. generalize 0 at 1 3.
  induction items as [| [k v] items IH]; intros acc; [reflexivity |].
  cbn [item_stmts map sets_of flat_map app fold_left]. fold (item_stmts items). fold (sets_of (item_stmts items)).
  rewrite IH. f_equal.
  unfold item_action, set_action, item_set, truth. cbn [wi_keytext wi_value se_key se_val].
  destruct (assoc_str (to_lower k) setting_table) as [[f | f | f | m | sp] |]; destruct v; try reflexivity.
  destruct (wnum_value n =? 0); reflexivity.
Qed.

Lemma final_rest : forall s,
  rest_of (final_desc s) =
  (d_modules (s_gsd s), d_slots (s_gsd s), match s_legacy s with Some prm => prm | None => d_prm (s_gsd s) end,
   d_bits (s_gsd s), d_notbits (s_gsd s), d_areas (s_gsd s)).
Proof. intros s. unfold final_desc. cbv zeta. destruct (s_legacy s); destruct (s_maxspan s); destruct (d_flag _ _); reflexivity. Qed.

Theorem roundtrip_settings : forall pre mk items,
  settings_okb items = true ->
  exists d, interp (settings_tree pre mk items) = POk (d, 1) /\
    (forall it, In it items -> says d it) /\
    d_speeds d = said_speeds items /\
    (forall f, ~ In (TNum f) (targets items) -> d_num d f = if nfield_eqb f NF_max_modules then 1 else nfield_default f) /\
    (forall f, ~ In (TStr f) (targets items) -> d_str d f = []) /\
    (forall f, ~ In (TFlag f) (targets items) -> d_flag d f = false) /\
    rest_of d = ([], [], prm_default, [], [], []).
Proof.
  intros pre mk items Hok. unfold settings_okb in Hok. apply andb_true_iff in Hok. destruct Hok as [Hall Hnd].
  destruct (items_spec items st_init Hall) as [Hf [HT K]].
  unfold kept, rest_of in K. cbn [st_init desc_default s_legacy s_maxspan s_warn s_gsd d_modules d_slots d_prm d_bits d_notbits d_areas] in K.
  injection K as KL KM KW KMo KS KP KB KN KA.
  destruct (scalars_closed (item_stmts items) Hf) as [A [B [C [D E]]]]; [rewrite HT; exact Hnd |].
  set (F := fold_left apply_stmt (item_stmts items) st_init) in *. rewrite HT in *.
  assert (Hflag : d_flag (s_gsd F) BF_modular_station = false).
  { rewrite <- final_flag. apply E. apply targets_no_special. }
  exists (final_desc F). split; [| split; [| split; [| split; [| split; [| split]]]]]; auto.
  - rewrite settings_file_tree, roundtrip_file by exact Hf. unfold file_says. fold F.
    unfold post, final_desc. rewrite KL, KM, KW. cbv zeta.
    cbn [set_num set_prm d_flag d_num d_modules]. rewrite Hflag, KMo. reflexivity.
  - intros it Hin. apply item_says, A. unfold item_stmts. apply in_map_iff. exists it. split; [reflexivity | exact Hin].
  - rewrite B. apply items_speeds.
  - rewrite final_rest, KL, KMo, KS, KB, KN, KA. reflexivity.
Qed.

Lemma leaf_shape : forall r t, child_rx r = REps -> Shape (Node r t []).
Proof. intros r t H. constructor. rewrite H. constructor. Qed.

Lemma value_node_shape : forall v, Shape (value_node v).
Proof.
  intros [[ds | ds] | s]; cbn [value_node wnum_rule]; apply leaf_shape; vm_compute; reflexivity.
Qed.

Lemma setting_node_shape : forall it, Shape (setting_node it).
Proof.
  intros it. unfold setting_node. constructor. apply rmatch_kids.
  - constructor; [apply leaf_shape; vm_compute; reflexivity |]. constructor; [apply value_node_shape | constructor].
  - cbn [map root]. destruct (wi_value it) as [[ds | ds] | s]; cbn [value_node wnum_rule root]; vm_compute; reflexivity.
Qed.

Definition gsd_tail : rx := deriv R_setting (deriv R_start (deriv R_any_text (child_rx R_gsd))).

Lemma gsd_tail_step : deriv R_setting gsd_tail = gsd_tail.
Proof. vm_compute. reflexivity. Qed.

Lemma gsd_tail_settings : forall items,
  rmatch gsd_tail (map root (map setting_node items ++ [Node R_EOI [] []])) = true.
Proof.
  induction items as [| it items IH].
  - vm_compute. reflexivity.
  - cbn [map app rmatch]. change (root (setting_node it)) with R_setting. rewrite gsd_tail_step. exact IH.
Qed.

Theorem settings_tree_shape : forall pre mk items, items <> [] -> Shape (settings_tree pre mk items).
Proof.
  intros pre mk items Hne. destruct items as [| it items]; [congruence |].
  unfold settings_tree. constructor. apply rmatch_kids.
  - constructor; [apply leaf_shape; vm_compute; reflexivity |].
    constructor; [apply leaf_shape; vm_compute; reflexivity |].
    apply Forall_app. split.
    + apply Forall_forall. intros t Hin. apply in_map_iff in Hin. destruct Hin as [x [<- _]]. apply setting_node_shape.
    + constructor; [apply leaf_shape; vm_compute; reflexivity | constructor].
  - cbn [map app rmatch]. change (root (setting_node it)) with R_setting.
    fold gsd_tail. exact (gsd_tail_settings items).
Qed.
