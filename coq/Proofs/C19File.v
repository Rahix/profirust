(* C19, fidelity half - whole files at tree level.  Written numbers and strings are read as written; then
   the interpretation of `file_tree stmts` is what the written statements say (`file_says`), for every
   statement kind; closed forms per fragment follow in C19Fragments.v. *)
From PB Require Import Common GsdGrammar GsdTables GsdInterp GsdShape GsdRender C19Shape.

(* the digit characters of a written number (after the 0x of a hexadecimal one) and their radix *)
Definition wnum_radix (n : wnum) : Z := match n with WDec _ => 10 | WHex _ => 16 end.
Definition wnum_digits (n : wnum) : str :=
  match n with WDec ds => map dec_char ds | WHex ds => map hex_char ds end.

Lemma digits_val_map : forall {A} (ch val : A -> Z) radix ds acc,
  (forall d, In d ds -> digit_val radix (ch d) = Some (val d)) ->
  digits_val radix acc (map ch ds) = Some (fold_left (fun a d => a * radix + val d) ds acc).
Proof.
  induction ds as [| d ds IH]; intros acc H; cbn [map digits_val fold_left]; [reflexivity |].
  rewrite (H d) by (left; reflexivity). apply IH. intros d' Hd. apply H. right. exact Hd.
Qed.

Lemma fold_digits_nonneg : forall {A} (val : A -> Z) radix ds acc,
  0 <= radix -> (forall d, In d ds -> 0 <= val d) -> 0 <= acc ->
  0 <= fold_left (fun a d => a * radix + val d) ds acc.
Proof.
  induction ds as [| d ds IH]; intros acc Hr H Ha; cbn [fold_left]; [exact Ha |].
  apply IH; [exact Hr | intros d' Hd; apply H; right; exact Hd |].
  pose proof (H d (or_introl eq_refl)). pose proof (Z.mul_nonneg_nonneg acc radix Ha Hr). lia.
Qed.

Lemma digit_val_dec : forall radix d, 0 <= d <= 9 -> digit_val radix (dec_char d) = Some d.
Proof.
  intros radix d H. unfold digit_val, dec_char.
  destruct (Z.leb_spec 48 (48 + d)); destruct (Z.leb_spec (48 + d) 57); try lia. cbn [andb]. f_equal. lia.
Qed.

Lemma digit_val_hex : forall dc, 0 <= fst dc <= 15 -> digit_val 16 (hex_char dc) = Some (fst dc).
Proof.
  intros [d up] H. cbn [fst] in H. unfold digit_val, hex_char. cbn [fst snd].
  destruct (Z.ltb_spec d 10); [| destruct up];
    repeat match goal with |- context [?a <=? ?b] => destruct (Z.leb_spec a b); try lia end;
    cbn [andb Z.eqb Pos.eqb]; f_equal; lia.
Qed.

Lemma dec_char_plain : forall d, 0 <= d <= 9 ->
  (dec_char d =? 43) = false /\ (dec_char d =? 45) = false.
Proof. intros d H. unfold dec_char. split; apply Z.eqb_neq; lia. Qed.

Lemma hex_char_plain : forall dc, 0 <= fst dc <= 15 ->
  (hex_char dc =? 43) = false /\ (hex_char dc =? 45) = false /\ (hex_char dc =? 120) = false.
Proof.
  intros [d up] H. cbn [fst] in H. unfold hex_char. cbn [fst snd].
  destruct (d <? 10); [| destruct up]; repeat split; apply Z.eqb_neq; lia.
Qed.

Lemma forallb_range : forall {A} (val : A -> Z) hi ds,
  forallb (fun d => (0 <=? val d) && (val d <=? hi)) ds = true -> forall d, In d ds -> 0 <= val d <= hi.
Proof.
  intros A val hi ds H d Hd. rewrite forallb_forall in H. specialize (H d Hd).
  apply andb_true_iff in H. destruct H as [H1 H2]. apply Z.leb_le in H1. apply Z.leb_le in H2. lia.
Qed.

Lemma from_str_radix_plain : forall signed lo hi radix s v,
  s <> [] -> (forall c, In c s -> (c =? 43) = false /\ (c =? 45) = false) ->
  digits_val radix 0 s = Some v -> lo <= v <= hi ->
  from_str_radix signed lo hi radix s = Some v.
Proof.
  intros signed lo hi radix s v Hne Hplain Hd Hv.
  assert (R : (lo <=? v) && (v <=? hi) = true) by (apply andb_true_iff; split; apply Z.leb_le; lia).
  destruct s as [| c r]; [congruence |]. destruct (Hplain c (or_introl eq_refl)) as [E1 E2].
  unfold from_str_radix. rewrite E1, E2. cbn [orb andb]. rewrite Hd, R. destruct r; reflexivity.
Qed.

Lemma from_str_radix_minus : forall lo hi s v,
  s <> [] -> digits_val 10 0 s = Some v -> lo <= - v <= hi ->
  from_str_radix true lo hi 10 (45 :: s) = Some (- v).
Proof.
  intros lo hi s v Hne Hd Hv.
  assert (R : (lo <=? - v) && (- v <=? hi) = true) by (apply andb_true_iff; split; apply Z.leb_le; lia).
  destruct s as [| c r]; [congruence |].
  unfold from_str_radix. change (45 =? 43) with false. change ((45 =? 45) && true) with true. cbv iota.
  rewrite Hd, R. reflexivity.
Qed.

Lemma trim_0x_hex : forall ds, (forall dc, In dc ds -> 0 <= fst dc <= 15) ->
  trim_0x (48 :: 120 :: map hex_char ds) = map hex_char ds.
Proof.
  intros ds R. cbn [trim_0x]. change ((48 =? 48) && (120 =? 120)) with true. cbv iota.
  destruct ds as [| d1 [| d2 r]]; cbn [map trim_0x]; try reflexivity.
  destruct (hex_char_plain d2) as [_ [_ E]]; [apply R; right; left; reflexivity |].
  rewrite E, andb_false_r. reflexivity.
Qed.

(* everything the number readers need to know about a well-formed written number: the text they pass
   to from_str_radix is its digit characters, which are plain and spell its value *)
Lemma wnum_digits_ok : forall n, wnum_okb n = true ->
  match n with WDec _ => wnum_text n | WHex _ => trim_0x (wnum_text n) end = wnum_digits n /\
  wnum_digits n <> [] /\
  (forall c, In c (wnum_digits n) -> (c =? 43) = false /\ (c =? 45) = false) /\
  digits_val (wnum_radix n) 0 (wnum_digits n) = Some (wnum_value n) /\ 0 <= wnum_value n.
Proof.
  intros [ds | ds] H; cbn [wnum_okb] in H; apply andb_true_iff in H; destruct H as [Hne H];
    cbn [wnum_digits wnum_radix wnum_value wnum_text].
  - pose proof (forallb_range (fun d => d) _ _ H) as R.
    split; [reflexivity |]. split; [destruct ds; [discriminate Hne | discriminate] |]. split; [| split].
    + intros c Hc. apply in_map_iff in Hc. destruct Hc as [d [<- Hd]]. apply dec_char_plain, R, Hd.
    + apply (digits_val_map dec_char (fun d => d)). intros d Hd. apply digit_val_dec, R, Hd.
    + apply (fold_digits_nonneg (fun d => d)); [lia | intros d Hd; apply R, Hd | lia].
  - pose proof (forallb_range fst _ _ H) as R.
    split; [apply trim_0x_hex, R |]. split; [destruct ds; [discriminate Hne | discriminate] |]. split; [| split].
    + intros c Hc. apply in_map_iff in Hc. destruct Hc as [d [<- Hd]].
      destruct (hex_char_plain d (R d Hd)) as [A [B _]]. split; assumption.
    + apply (digits_val_map hex_char fst). intros d Hd. apply digit_val_hex, R, Hd.
    + apply (fold_digits_nonneg fst); [lia | intros d Hd; apply R, Hd | lia].
Qed.

Lemma rm_crlf_eq : forall c r,
  remove_bs_crlf (c :: r) =
  match r with
  | c1 :: c2 :: r2 => if (c =? 92) && (c1 =? 13) && (c2 =? 10) then remove_bs_crlf r2 else c :: remove_bs_crlf r
  | _ => c :: remove_bs_crlf r
  end.
Proof. reflexivity. Qed.

Lemma rm_lf_eq : forall c r,
  remove_bs_lf (c :: r) =
  match r with
  | c1 :: r1 => if (c =? 92) && (c1 =? 10) then remove_bs_lf r1 else c :: remove_bs_lf r
  | [] => [c]
  end.
Proof. reflexivity. Qed.

Lemma rm_crlf_marker_crlf : forall t, remove_bs_crlf (92 :: 13 :: 10 :: t) = remove_bs_crlf t.
Proof. intros t. rewrite rm_crlf_eq. reflexivity. Qed.

Lemma rm_crlf_cons_gen : forall c r, (c =? 92) && (hd 0 r =? 13) = false -> remove_bs_crlf (c :: r) = c :: remove_bs_crlf r.
Proof.
  intros c r H. rewrite rm_crlf_eq. destruct r as [| c1 [| c2 r2]]; try reflexivity.
  cbn [hd] in H. rewrite H. reflexivity.
Qed.

Lemma rm_lf_cons_gen : forall c r, (c =? 92) && (hd 0 r =? 10) = false -> remove_bs_lf (c :: r) = c :: remove_bs_lf r.
Proof.
  intros c r H. rewrite rm_lf_eq. destruct r as [| c1 r1]; [reflexivity |].
  cbn [hd] in H. rewrite H. reflexivity.
Qed.

Lemma rm_crlf_marker_lf : forall t, remove_bs_crlf (92 :: 10 :: t) = 92 :: 10 :: remove_bs_crlf t.
Proof.
  intros t. rewrite rm_crlf_cons_gen by reflexivity. f_equal.
  apply rm_crlf_cons_gen. reflexivity.
Qed.

Lemma rm_lf_marker : forall t, remove_bs_lf (92 :: 10 :: t) = remove_bs_lf t.
Proof. intros t. rewrite rm_lf_eq. reflexivity. Qed.

(* after pass 1: back slash CR LF markers gone, back slash LF markers left *)
Definition mid_rest (rest : list (bool * str)) : str :=
  flat_map (fun ms : bool * str => (if fst ms then [] else [92; 10]) ++ snd ms) rest.
(* as written, all markers in *)
Definition inner_rest (rest : list (bool * str)) : str :=
  flat_map (fun ms : bool * str => marker (fst ms) ++ snd ms) rest.
(* the content, no markers *)
Definition value_rest (rest : list (bool * str)) : str := flat_map (fun ms : bool * str => snd ms) rest.

Lemma clean_cons : forall c r, cleanb (c :: r) = true ->
  (c =? 92) && ((hd 0 r =? 10) || (hd 0 r =? 13)) = false /\ cleanb r = true.
Proof.
  intros c r H. cbn [cleanb] in H. apply andb_true_iff in H. destruct H as [H1 H2]. split; [| exact H2].
  apply negb_true_iff in H1. unfold bs_before_nl in H1. destruct r as [| c1 r1]; cbn [hd].
  - rewrite andb_false_r. reflexivity.
  - exact H1.
Qed.

Lemma hd_inner : forall rest f,
  hd 0 (f ++ inner_rest rest) = hd 0 (f ++ value_rest rest) \/ hd 0 (f ++ inner_rest rest) = 92.
Proof.
  intros rest f. destruct f as [| c f]; [| left; reflexivity].
  destruct rest as [| [crlf seg] rest]; [left; reflexivity |].
  right. cbn [app inner_rest flat_map fst]. destruct crlf; reflexivity.
Qed.

Lemma hd_mid : forall rest f,
  hd 0 (f ++ mid_rest rest) = hd 0 (f ++ value_rest rest) \/ hd 0 (f ++ mid_rest rest) = 92.
Proof.
  induction rest as [| [crlf seg] rest IH]; intros f; [left; reflexivity |].
  destruct f as [| c f]; [| left; reflexivity].
  cbn [app mid_rest value_rest flat_map fst snd]. destruct crlf; cbn [app].
  - apply IH.
  - right. reflexivity.
Qed.

Lemma no_nl_after_bs : forall c h x,
  (c =? 92) && ((h =? 10) || (h =? 13)) = false -> (x = h \/ x = 92) ->
  (c =? 92) && (x =? 13) = false /\ (c =? 92) && (x =? 10) = false.
Proof.
  intros c h x H [-> | ->].
  - destruct (c =? 92); [| split; reflexivity]. cbn [andb] in *. apply orb_false_iff in H. tauto.
  - split; rewrite andb_false_r; reflexivity.
Qed.

Lemma pass1 : forall rest first, cleanb (first ++ value_rest rest) = true ->
  remove_bs_crlf (first ++ inner_rest rest) = first ++ mid_rest rest.
Proof.
  induction rest as [| [crlf seg] rest IH].
  - induction first as [| c f IHf]; intros H; [reflexivity |].
    cbn [app] in *. apply clean_cons in H. destruct H as [Hc Hr].
    destruct (no_nl_after_bs c _ _ Hc (hd_inner [] f)) as [E _].
    rewrite rm_crlf_cons_gen by exact E. rewrite IHf by exact Hr. reflexivity.
  - induction first as [| c f IHf]; intros H.
    + cbn [app inner_rest mid_rest value_rest flat_map fst snd] in *.
      destruct crlf; cbn [marker app].
      * rewrite rm_crlf_marker_crlf. apply IH. exact H.
      * rewrite rm_crlf_marker_lf. f_equal. f_equal. apply IH. exact H.
    + cbn [app] in *. apply clean_cons in H. destruct H as [Hc Hr].
      destruct (no_nl_after_bs c _ _ Hc (hd_inner ((crlf, seg) :: rest) f)) as [E _].
      rewrite rm_crlf_cons_gen by exact E. rewrite IHf by exact Hr. reflexivity.
Qed.

Lemma pass2 : forall rest first, cleanb (first ++ value_rest rest) = true ->
  remove_bs_lf (first ++ mid_rest rest) = first ++ value_rest rest.
Proof.
  induction rest as [| [crlf seg] rest IH].
  - induction first as [| c f IHf]; intros H; [reflexivity |].
    cbn [app] in *. apply clean_cons in H. destruct H as [Hc Hr].
    destruct (no_nl_after_bs c _ _ Hc (hd_mid [] f)) as [_ E].
    rewrite rm_lf_cons_gen by exact E. rewrite IHf by exact Hr. reflexivity.
  - induction first as [| c f IHf]; intros H.
    + cbn [app mid_rest value_rest flat_map fst snd] in *.
      destruct crlf; cbn [app].
      * apply IH. exact H.
      * rewrite rm_lf_marker. apply IH. exact H.
    + cbn [app] in *. apply clean_cons in H. destruct H as [Hc Hr].
      destruct (no_nl_after_bs c _ _ Hc (hd_mid ((crlf, seg) :: rest) f)) as [_ E].
      rewrite rm_lf_cons_gen by exact E. rewrite IHf by exact Hr. reflexivity.
Qed.

Theorem unquote_written : forall w, wstr_okb w = true -> unquote (wstr_text w) = wstr_value w.
Proof.
  intros [first rest] H. unfold wstr_okb, wstr_value in H. cbn [ws_first ws_rest] in H.
  unfold unquote, wstr_text, wstr_inner, wstr_value, drop_first_last. cbn [ws_first ws_rest tl].
  rewrite removelast_last.
  fold (inner_rest rest). fold (value_rest rest) in *.
  rewrite pass1 by exact H. apply pass2. exact H.
Qed.

Lemma nfield_index_inj : forall a b : nfield, nfield_index a = nfield_index b -> a = b.
Proof. apply (index_inj nfield_index all_nfields NF_gsd_revision). intros a; destruct a; reflexivity. Qed.
Lemma sfield_index_inj : forall a b : sfield, sfield_index a = sfield_index b -> a = b.
Proof. apply (index_inj sfield_index all_sfields SF_vendor). intros a; destruct a; reflexivity. Qed.
Lemma bfield_index_inj : forall a b : bfield, bfield_index a = bfield_index b -> a = b.
Proof. apply (index_inj bfield_index all_bfields BF_fail_safe). intros a; destruct a; reflexivity. Qed.

Lemma nfield_eqb_false : forall a b, a <> b -> nfield_eqb a b = false.
Proof. intros a b H. apply Nat.eqb_neq. intros E. apply H. apply nfield_index_inj. exact E. Qed.
Lemma sfield_eqb_false : forall a b, a <> b -> sfield_eqb a b = false.
Proof. intros a b H. apply Nat.eqb_neq. intros E. apply H. apply sfield_index_inj. exact E. Qed.
Lemma bfield_eqb_false : forall a b, a <> b -> bfield_eqb a b = false.
Proof. intros a b H. apply Nat.eqb_neq. intros E. apply H. apply bfield_index_inj. exact E. Qed.
Lemma nfield_eqb_refl : forall a, nfield_eqb a a = true. Proof. intros a. apply Nat.eqb_refl. Qed.
Lemma sfield_eqb_refl : forall a, sfield_eqb a a = true. Proof. intros a. apply Nat.eqb_refl. Qed.
Lemma bfield_eqb_refl : forall a, bfield_eqb a a = true. Proof. intros a. apply Nat.eqb_refl. Qed.

Lemma target_eqb_refl : forall x, target_eqb x x = true.
Proof. intros [f | f | f]; cbn [target_eqb]; [apply nfield_eqb_refl | apply sfield_eqb_refl | apply bfield_eqb_refl]. Qed.

(* the scalar field a target names, so that a fact about all scalar fields is one statement over targets *)
Inductive fval : Type := FZ (z : Z) | FS (s : str) | FB (b : bool).
Definition dget (d : desc) (x : target) : fval :=
  match x with TNum f => FZ (d_num d f) | TStr f => FS (d_str d f) | TFlag f => FB (d_flag d f) end.

Lemma dget_set_num : forall f v g x, TNum f <> x -> dget (set_num f v g) x = dget g x.
Proof.
  intros f v g [f' | f' | f'] H; try reflexivity. cbn [dget set_num d_num].
  rewrite nfield_eqb_false; [reflexivity | congruence].
Qed.
Lemma dget_set_str : forall f v g x, TStr f <> x -> dget (set_str f v g) x = dget g x.
Proof.
  intros f v g [f' | f' | f'] H; try reflexivity. cbn [dget set_str d_str].
  rewrite sfield_eqb_false; [reflexivity | congruence].
Qed.
Lemma dget_set_flag : forall f v g x, TFlag f <> x -> dget (set_flag f v g) x = dget g x.
Proof.
  intros f v g [f' | f' | f'] H; try reflexivity. cbn [dget set_flag d_flag].
  rewrite bfield_eqb_false; [reflexivity | congruence].
Qed.

Lemma existsb_in : forall x l, In x l -> existsb (target_eqb x) l = true.
Proof.
  intros x l H. apply existsb_exists. exists x. split; [exact H | apply target_eqb_refl].
Qed.

Lemma nodupb_app : forall l1 l2, nodupb (l1 ++ l2) = true ->
  nodupb l2 = true /\ (forall x, In x l1 -> ~ In x l2).
Proof.
  induction l1 as [| a l1 IH]; intros l2 H; cbn [app nodupb] in *.
  - split; [exact H | intros x []].
  - apply andb_true_iff in H. destruct H as [Ha Hr]. apply negb_true_iff in Ha.
    destruct (IH l2 Hr) as [H2 Hd]. split; [exact H2 |].
    intros x [<- | Hin]; [| apply Hd; exact Hin].
    intros Hin2. rewrite existsb_in in Ha; [discriminate Ha | apply in_or_app; right; exact Hin2].
Qed.

Lemma nfield_max_u32 : forall f, nfield_max f <= u32_max.
Proof. intros f. destruct f; vm_compute; discriminate. Qed.

Lemma assoc_str_in : forall (k : str) (l : list (str * action)) a, assoc_str k l = Some a -> In a (map snd l).
Proof.
  intros k l a. induction l as [| [k' v] l IH]; cbn [assoc_str map snd]; intros H; [discriminate H |].
  destruct (str_eqb k k'); [left; congruence | right; apply IH; exact H].
Qed.

(* Modular_Station and Max_Module are special keys: no plain flag / number entry of the table writes them *)
Lemma table_no_modular_flag : ~ In (ABool BF_modular_station) (map snd setting_table).
Proof. vm_compute. intros H. repeat (destruct H as [H | H]; [discriminate H |]). exact H. Qed.
Lemma table_no_max_modules : ~ In (ANum NF_max_modules) (map snd setting_table).
Proof. vm_compute. intros H. repeat (destruct H as [H | H]; [discriminate H |]). exact H. Qed.

Lemma num_ok_split : forall max n, num_okb max n = true -> wnum_okb n = true /\ wnum_value n <= max.
Proof. intros max n H. unfold num_okb in H. apply andb_true_iff in H. destruct H as [A B]. apply Z.leb_le in B. tauto. Qed.

Lemma read_num : forall max n, max <= u32_max -> num_okb max n = true ->
  parse_number max (wnum_node n) = POk (wnum_value n).
Proof.
  intros max n Hm H. apply num_ok_split in H. destruct H as [Hok Hv].
  destruct (wnum_digits_ok n Hok) as [Et [Hne [Hpl [Hd Hnn]]]].
  apply Z.leb_le in Hv. unfold parse_number, wnum_node.
  destruct n; cbn [root text wnum_rule wnum_radix] in *;
    rewrite Et, (from_str_radix_plain _ _ _ _ _ _ Hne Hpl Hd), Hv by lia; reflexivity.
Qed.

Lemma read_bool : forall n, num_okb u32_max n = true -> parse_bool (wnum_node n) = POk (truth n).
Proof. intros n H. unfold parse_bool. rewrite read_num; [reflexivity | apply Z.le_refl | exact H]. Qed.

Lemma read_str : forall w, wstr_okb w = true -> parse_string (wstr_node w) = POk (wstr_value w).
Proof. intros w H. unfold parse_string, wstr_node. cbn [root text]. rewrite unquote_written by exact H. reflexivity. Qed.

Lemma map_pr_written : forall {E} (f : tree -> pr Z) (node : E -> tree) (val : E -> Z) (ok : E -> bool),
  (forall e, ok e = true -> f (node e) = POk (val e)) ->
  forall l, forallb ok l = true -> map_pr f (map node l) = POk (map val l).
Proof.
  intros E f node val ok H. induction l as [| e l IH]; intros Hl; [reflexivity |].
  cbn [forallb] in Hl. apply andb_true_iff in Hl. destruct Hl as [He Hl].
  cbn [map map_pr]. rewrite (H e He), (IH Hl). reflexivity.
Qed.

Lemma read_nums : forall max l, max <= u32_max -> nums_okb max l = true ->
  map_pr (parse_number max) (map wnum_node l) = POk (map wnum_value l).
Proof. intros max l Hm. apply map_pr_written. intros n. apply read_num, Hm. Qed.

Lemma wnum_rule_cases : forall n, wnum_rule n = R_dec_number \/ wnum_rule n = R_hex_number.
Proof. intros [ds | ds]; [left | right]; reflexivity. Qed.

Lemma read_numlist : forall max v l, max <= u32_max -> as_numlist v = Some l -> nums_okb max l = true ->
  parse_number_list max (val_node v) = POk (map wnum_value l).
Proof.
  intros max v l Hm Hv Hl. destruct v as [n | w | l' | t]; try discriminate Hv; injection Hv as <-.
  - cbn [nums_okb forallb] in Hl. rewrite andb_true_r in Hl.
    unfold parse_number_list. cbn [val_node]. 
    assert (E : parse_number max (wnum_node n) = POk (wnum_value n)) by (apply read_num; assumption).
    unfold wnum_node in *. cbn [root]. destruct n as [ds | ds]; cbn [wnum_rule] in *; rewrite E; reflexivity.
  - unfold parse_number_list. cbn [val_node root kids]. apply read_nums; assumption.
Qed.

Lemma read_signed : forall n, wsnum_okb n = true -> parse_signed (wsnum_node n) = POk (wsnum_value n).
Proof.
  intros [neg a] H. unfold wsnum_okb in H. cbn [ws_neg ws_abs] in H. apply andb_true_iff in H. destruct H as [Hok Hr].
  destruct (wnum_digits_ok a Hok) as [Et [Hne [Hpl [Hd Hnn]]]].
  unfold parse_signed, wsnum_node, wsnum_text, wsnum_value. cbn [ws_neg ws_abs root text].
  destruct a as [ds | ds]; cbn [wnum_rule wnum_radix] in *; destruct neg; try discriminate Hr; apply Z.leb_le in Hr.
  - rewrite Et, (from_str_radix_minus _ _ _ _ Hne Hd); [reflexivity | unfold i64_min, i64_max in *; lia].
  - rewrite Et, (from_str_radix_plain _ _ _ _ _ _ Hne Hpl Hd); [reflexivity | unfold i64_min; lia].
  - rewrite Et, (from_str_radix_plain _ _ _ _ _ _ Hne Hpl Hd); [reflexivity | unfold i64_min; lia].
Qed.

Lemma read_signeds : forall l, forallb wsnum_okb l = true ->
  map_pr parse_signed (map wsnum_node l) = POk (map wsnum_value l).
Proof. apply map_pr_written. exact read_signed. Qed.

(* rd1 rewrites the leading parse of a written value with its read_* lemma (side conditions from the context);
   rd does so as long as possible, reducing the binds in between *)
Ltac rd1 :=
  first
    [ rewrite read_num by (try assumption; first [apply Z.le_refl | apply nfield_max_u32 | vm_compute; discriminate])
    | rewrite read_bool by assumption
    | rewrite read_str by assumption
    | rewrite read_signed by assumption ].
Ltac rd := cbn [pbind next_indexed next_unwrap]; repeat (rd1; cbn [pbind next_indexed next_unwrap]).

Lemma u8_u32 : u8_max <= u32_max. Proof. vm_compute. discriminate. Qed.
Lemma u16_u32 : u16_max <= u32_max. Proof. vm_compute. discriminate. Qed.

Lemma do_setting_written : forall s x, set_okb s x = true ->
  do_statement s (set_node x) = POk (apply_set s x).
Proof.
  intros s [key idx val] Hok.
  unfold do_statement, set_node. cbn [root kids se_key se_idx se_val]. unfold do_setting.
  unfold set_okb, apply_set, set_action in *. cbn [se_key se_idx se_val] in *.
  destruct idx as [i |]; cbn [next_unwrap pbind text];
    destruct (assoc_str (to_lower key) setting_table) as [[f | f | f | mask | sp] |]; try reflexivity;
    try discriminate Hok; try (destruct val; discriminate Hok).
  (* without index: number, string, flag, speed *)
  2-5: destruct val; try discriminate Hok; unfold do_action; cbv zeta; cbn [val_node]; rd; reflexivity.
  - (* indexed specials: reference, constant, Max_User_Prm_Data_Len, the four Unit_Diag_* texts *)
    destruct sp; try (destruct val; discriminate Hok); unfold do_action, do_special; cbv zeta; [| | reflexivity | ..].
    3-6: destruct val as [| w | |]; try discriminate Hok; apply andb_true_iff in Hok; destruct Hok as [Hb Hw];
      cbn [val_node]; rd; reflexivity.
    + destruct val as [id | | |]; try discriminate Hok.
      apply andb_true_iff in Hok. destruct Hok as [Hok Hd]. apply andb_true_iff in Hok. destruct Hok as [Ho Hi].
      cbn [val_node]. rd. destruct (zmap_get (wnum_value id) (s_defs s)); [reflexivity | discriminate Hd].
    + apply andb_true_iff in Hok. destruct Hok as [Ho Hl].
      destruct (as_numlist val) as [l |] eqn:El; [| discriminate Hl]. rd.
      rewrite (read_numlist u8_max val l u8_u32 El Hl). reflexivity.
  - (* specials without index *)
    destruct sp; try (destruct val; discriminate Hok); unfold do_action, do_special; cbv zeta.
    + destruct val as [n | | |]; try discriminate Hok. cbn [val_node]. rd. reflexivity.
    + destruct val as [n | | |]; try discriminate Hok. cbn [val_node]. rd. reflexivity.
    + reflexivity.
    + (* user_prm_data_len *)
      destruct val as [n | | |]; try discriminate Hok. destruct (s_legacy s) as [prm |]; [| reflexivity].
      apply andb_true_iff in Hok. destruct Hok as [Hn Hc]. apply negb_true_iff in Hc.
      cbn [val_node]. rewrite (read_num u8_max n u8_u32 Hn). cbn [pbind]. rewrite Hc. reflexivity.
    + (* user_prm_data *)
      destruct (s_legacy s) as [prm |]; [| reflexivity].
      destruct (as_numlist val) as [l |] eqn:El; [| discriminate Hok].
      apply andb_true_iff in Hok. destruct Hok as [Hl Hc]. apply negb_true_iff in Hc.
      rewrite (read_numlist u8_max val l u8_u32 El Hl). cbn [pbind].
      unfold Zlength' in *. rewrite map_length. rewrite Hc. reflexivity.
Qed.

Lemma text_values_written : forall es acc, forallb tentry_okb es = true ->
  prm_text_values acc (map tentry_node es) = POk (fold_left table_add es acc).
Proof.
  induction es as [| e es IH]; intros acc H; [reflexivity |].
  cbn [forallb] in H. apply andb_true_iff in H. destruct H as [He Hes].
  unfold tentry_okb in He. apply andb_true_iff in He. destruct He as [Hn Hs].
  cbn [map prm_text_values tentry_node root kids fold_left]. rd. apply IH. exact Hes.
Qed.

Lemma area_values_written : forall es acc,
  forallb (fun e : wnum * wstr => num_okb u16_max (fst e) && wstr_okb (snd e)) es = true ->
  area_values acc (map avalue_node es) =
  POk (fold_left (fun acc e => zmap_insert (wnum_value (fst e)) (wstr_value (snd e)) acc) es acc).
Proof.
  induction es as [| e es IH]; intros acc H; [reflexivity |].
  cbn [forallb] in H. apply andb_true_iff in H. destruct H as [He Hes].
  apply andb_true_iff in He. destruct He as [Hn Hs].
  cbn [map area_values avalue_node root kids fold_left]. cbn [next_unwrap pbind].
  rewrite (read_num u16_max (fst e) u16_u32 Hn). rd. apply IH. exact Hes.
Qed.

Lemma data_type_written : forall t, wtype_okb t = true ->
  exists d, wtype_den t = Some d /\ data_type_of (wtype_node t) = POk d.
Proof.
  intros [txt | n | a b] H; unfold wtype_okb, wtype_den, data_type_of, wtype_node in *; cbn [root kids next_unwrap pbind text].
  - destruct (assoc_str (to_lower txt) dtype_table) as [d |]; [| discriminate H]. eexists. split; reflexivity.
  - rewrite (read_num u8_max n u8_u32 H). eexists. split; reflexivity.
  - apply andb_true_iff in H. destruct H as [Ha Hb].
    rewrite (read_num u8_max a u8_u32 Ha). cbn [pbind next_unwrap]. rewrite (read_num u8_max b u8_u32 Hb).
    eexists. split; reflexivity.
Qed.

Lemma opt_ok_some : forall max n, opt_okb max (Some n) = true -> num_okb max n = true.
Proof. intros max n H. exact H. Qed.

Lemma def_constr_written : forall texts c t ch v rest, wconstr_okb c = true ->
  def_options texts (mkAcc CNone t ch v) (wconstr_nodes c ++ rest) =
  def_options texts (mkAcc (wconstr_den c) t ch v) rest.
Proof.
  intros texts [| a b | l] t ch v rest H; cbn [wconstr_nodes wconstr_okb wconstr_den app] in *; [reflexivity | |];
    cbn [def_options root kids].
  - apply andb_true_iff in H. destruct H as [Ha Hb]. rd. reflexivity.
  - rewrite (read_signeds l H). reflexivity.
Qed.

Lemma def_tref_written : forall texts k o ch v rest,
  match o with
  | Some r => num_okb u16_max r && match zmap_get (wnum_value r) texts with Some _ => true | None => false end
  | None => true
  end = true ->
  def_options texts (mkAcc k None ch v) (opt_node R_prm_text_ref o ++ rest) =
  def_options texts (mkAcc k (match o with Some r => zmap_get (wnum_value r) texts | None => None end) ch v) rest.
Proof.
  intros texts k [r |] ch v rest H; [| reflexivity].
  apply andb_true_iff in H. destruct H as [Hr Ht]. cbn [opt_node app def_options root kids next_unwrap pbind].
  rewrite (read_num u16_max r u16_u32 Hr). cbn [pbind].
  destruct (zmap_get (wnum_value r) texts); [reflexivity | discriminate Ht].
Qed.

Lemma def_chg_written : forall texts k t o v rest, opt_okb u32_max o = true ->
  def_options texts (mkAcc k t true v) (opt_node R_prm_data_changeable o ++ rest) =
  def_options texts (mkAcc k t (opt_truth o) v) rest.
Proof.
  intros texts k t [n |] v rest H; [| reflexivity].
  cbn [opt_node app def_options root kids opt_truth opt_okb] in *. rd. reflexivity.
Qed.

Lemma def_vis_written : forall texts k t ch o rest, opt_okb u32_max o = true ->
  def_options texts (mkAcc k t ch true) (opt_node R_prm_data_visible o ++ rest) =
  def_options texts (mkAcc k t ch (opt_truth o)) rest.
Proof.
  intros texts k t ch [n |] rest H; [| reflexivity].
  cbn [opt_node app def_options root kids opt_truth opt_okb] in *. rd. reflexivity.
Qed.

Lemma do_def_written : forall s d, wdef_okb (s_texts s) d = true ->
  do_statement s (wdef_node d) = POk (apply_stmt s (WDef d)).
Proof.
  intros s [id name ty dflt constr tref chg vis] H.
  unfold wdef_okb in H. cbn [wd_id wd_name wd_type wd_default wd_constr wd_tref wd_chg wd_vis] in H.
  apply andb_true_iff in H; destruct H as [H Kvis]. apply andb_true_iff in H; destruct H as [H Kchg].
  apply andb_true_iff in H; destruct H as [H Ktref]. apply andb_true_iff in H; destruct H as [H Kcon].
  apply andb_true_iff in H; destruct H as [H Kdf]. apply andb_true_iff in H; destruct H as [H Kty].
  apply andb_true_iff in H; destruct H as [Kid Kname].
  destruct (data_type_written ty Kty) as [dt [Edt Edo]].
  unfold do_statement, wdef_node. cbn [root kids wd_id wd_name wd_type wd_default wd_constr wd_tref wd_chg wd_vis].
  unfold do_ext_user_prm_data. rd. rewrite Edo. rd.
  rewrite <- (app_nil_r (opt_node R_prm_data_visible vis)).
  rewrite def_constr_written, def_tref_written, def_chg_written, def_vis_written by assumption.
  unfold apply_stmt, wdef_den. cbn [wd_id wd_name wd_type wd_default wd_constr wd_tref wd_chg wd_vis]. rewrite Edt.
  reflexivity.
Qed.

Lemma module_setting_written : forall defs a x, mitem_okb defs (MSet x) = true ->
  module_setting defs a (kids (set_node x)) = POk (apply_mitem defs a (MSet x)).
Proof.
  intros defs a [key idx val] Hok.
  unfold set_node. cbn [kids se_key se_idx se_val]. unfold module_setting, mitem_okb, apply_mitem, mset_key in *.
  cbn [se_key se_idx se_val] in *. cbv zeta. cbn [next_unwrap pbind text].
  (* the parser and mset_key walk through the same chain of key comparisons *)
  destruct (str_eqb (to_lower key) key_ext_module_prm_data_len).
  { destruct idx; destruct val; try discriminate Hok. cbn [next_unwrap pbind text val_node].
    rewrite (read_num u8_max _ u8_u32 Hok). reflexivity. }
  destruct (str_eqb (to_lower key) key_ext_user_prm_data_ref).
  { destruct idx as [off |]; destruct val as [id | | |]; try discriminate Hok.
    apply andb_true_iff in Hok. destruct Hok as [Hok Hd]. apply andb_true_iff in Hok. destruct Hok as [Ho Hi].
    cbn [next_unwrap pbind text val_node]. rd.
    destruct (zmap_get (wnum_value id) defs); [reflexivity | discriminate Hd]. }
  destruct (str_eqb (to_lower key) key_ext_user_prm_data_const).
  { destruct idx as [off |]; [| destruct val; discriminate Hok].
    apply andb_true_iff in Hok. destruct Hok as [Ho Hl].
    destruct (as_numlist val) as [l |] eqn:El; [| discriminate Hl]. cbn [next_unwrap pbind text]. rd.
    rewrite (read_numlist u8_max val l u8_u32 El Hl). reflexivity. }
  destruct (str_eqb (to_lower key) key_info_text).
  { destruct idx; destruct val; try discriminate Hok. cbn [next_unwrap pbind text val_node]. rd. reflexivity. }
  destruct idx; reflexivity.
Qed.

Lemma module_items_written : forall defs items a, forallb (mitem_okb defs) items = true ->
  module_items defs a (map mitem_node items) = POk (fold_left (apply_mitem defs) items a).
Proof.
  intros defs. induction items as [| i items IH]; intros a H; [reflexivity |].
  cbn [forallb] in H. apply andb_true_iff in H. destruct H as [Hi Hr].
  cbn [map module_items fold_left]. destruct i as [x | n | tx ks]; cbn [mitem_node].
  - change (root (set_node x)) with R_setting. cbv iota.
    rewrite module_setting_written by exact Hi. cbn [pbind]. apply IH. exact Hr.
  - cbn [root kids next_unwrap pbind]. cbn [mitem_okb] in Hi. rd. apply IH. exact Hr.
  - cbn [root]. apply IH. exact Hr.
Qed.

Lemma do_module_written : forall s m, wmodule_okb (s_defs s) m = true ->
  do_statement s (wmodule_node m) = POk (apply_stmt s (WModule m)).
Proof.
  intros s [name cfg items] H. unfold wmodule_okb in H. cbn [wm_name wm_cfg wm_items] in H.
  apply andb_true_iff in H. destruct H as [H Hi]. apply andb_true_iff in H. destruct H as [Hn Hc].
  unfold do_statement, wmodule_node. cbn [root kids wm_name wm_cfg wm_items]. unfold do_module. rd.
  unfold parse_number_list. cbn [root kids]. rewrite (read_nums u8_max cfg u8_u32 Hc). cbn [pbind].
  rewrite module_items_written by exact Hi. reflexivity.
Qed.

Lemma slot_set_written : forall ms l w, nums_okb u16_max l = true ->
  slot_set ms (map wnum_node l) w = POk (find_all ms (map wnum_value l) w).
Proof.
  intros ms. induction l as [| n l IH]; intros w H; [reflexivity |].
  cbn [nums_okb forallb] in H. apply andb_true_iff in H. destruct H as [Hn Hl].
  cbn [map slot_set find_all]. rewrite (read_num u16_max n u16_u32 Hn). cbn [pbind].
  destruct (find_module ms (wnum_value n)).
  - unfold nums_okb in IH. rewrite IH by exact Hl. cbn [pbind]. destruct (find_all ms (map wnum_value l) w). reflexivity.
  - apply IH. exact Hl.
Qed.

Lemma do_slot_written : forall s sl, wslot_okb s sl = true ->
  do_slot s (kids (wslot_node sl)) = POk (apply_slot s sl).
Proof.
  intros s [num name dflt spec] H. unfold wslot_okb in H. cbn [wl_num wl_name wl_default wl_spec] in H.
  apply andb_true_iff in H. destruct H as [H Hf]. apply andb_true_iff in H. destruct H as [H Hsp].
  apply andb_true_iff in H. destruct H as [H Hd]. apply andb_true_iff in H. destruct H as [Hn Hname].
  unfold wslot_node. cbn [kids wl_num wl_name wl_default wl_spec]. unfold do_slot, apply_slot. cbv zeta.
  cbn [wl_num wl_name wl_default wl_spec]. cbn [next_unwrap pbind].
  rewrite (read_num u8_max num u8_u32 Hn). rd.
  destruct spec as [a b | l]; cbn [wspec_node wspec_okb wspec_refs root kids] in *.
  - apply andb_true_iff in Hsp. destruct Hsp as [Ha Hb]. cbn [next_unwrap pbind].
    rewrite (read_num u16_max a u16_u32 Ha). cbn [pbind next_unwrap]. rewrite (read_num u16_max b u16_u32 Hb). cbn [pbind].
    destruct (find_module (d_modules (s_gsd s)) (wnum_value dflt)); [reflexivity | discriminate Hf].
  - rewrite slot_set_written by exact Hsp. cbn [pbind].
    destruct (find_module (d_modules (s_gsd s)) (wnum_value dflt)); [reflexivity | discriminate Hf].
Qed.

Lemma do_slots_written : forall l s, slots_okb s l = true ->
  do_slots s (map wslot_node l) = POk (fold_left apply_slot l s).
Proof.
  induction l as [| sl l IH]; intros s H; [reflexivity |].
  cbn [slots_okb] in H. apply andb_true_iff in H. destruct H as [Hs Hl].
  cbn [map do_slots fold_left]. change (root (wslot_node sl)) with R_slot. cbv iota.
  rewrite do_slot_written by exact Hs. cbn [pbind]. apply IH. exact Hl.
Qed.

Lemma do_statement_written : forall s x, stmt_okb s x = true ->
  do_statement s (stmt_node x) = POk (apply_stmt s x).
Proof.
  intros s x H. destruct x as [x | id es | d | a b es | m | tx l | t]; cbn [stmt_okb stmt_node] in *.
  - apply do_setting_written. exact H.
  - apply andb_true_iff in H. destruct H as [Hid Hes].
    unfold do_statement. cbn [root kids]. unfold do_prm_text. cbn [next_unwrap pbind].
    rewrite (read_num u16_max id u16_u32 Hid). cbn [pbind]. rewrite text_values_written by exact Hes. reflexivity.
  - apply do_def_written. exact H.
  - apply andb_true_iff in H. destruct H as [H Hes]. apply andb_true_iff in H. destruct H as [Ha Hb].
    unfold do_statement. cbn [root kids]. unfold do_unit_diag_area. cbn [next_unwrap pbind].
    rewrite (read_num u16_max a u16_u32 Ha). cbn [pbind next_unwrap]. rewrite (read_num u16_max b u16_u32 Hb). cbn [pbind].
    rewrite area_values_written by exact Hes. reflexivity.
  - apply do_module_written. exact H.
  - unfold do_statement. cbn [root kids]. apply do_slots_written. exact H.
  - unfold do_statement. destruct (root t); try discriminate H; reflexivity.
Qed.

Lemma do_statements_written : forall l s rest, stmts_okb s l = true ->
  do_statements s (map stmt_node l ++ rest) = do_statements (fold_left apply_stmt l s) rest.
Proof.
  induction l as [| x l IH]; intros s rest H; [reflexivity |].
  cbn [stmts_okb] in H. apply andb_true_iff in H. destruct H as [Hx Hl].
  cbn [map app do_statements fold_left]. rewrite do_statement_written by exact Hx. cbn [pbind]. apply IH. exact Hl.
Qed.

Theorem roundtrip_file : forall pre mk stmts, file_okb stmts = true ->
  interp (file_tree pre mk stmts) = file_says stmts.
Proof.
  intros pre mk stmts H. unfold interp, file_tree, file_says. cbn [kids].
  cbn [do_statements do_statement root pbind].
  rewrite do_statements_written by exact H. cbn [do_statements do_statement root pbind]. reflexivity.
Qed.
