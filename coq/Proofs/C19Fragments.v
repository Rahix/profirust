(* C19, fidelity half - closed forms per fragment for ANY well-formed file (statements in any order):
   what the returned description contains, read off the written statements. *)
From PB Require Import Common GsdGrammar GsdTables GsdInterp GsdShape GsdRender C19Shape C19File.

Lemma post_final : forall s, exists w, post s = POk (final_desc s, w).
Proof.
  intros s. unfold post, final_desc. cbv zeta.
  destruct (s_maxspan s) eqn:Em.
  - destruct (d_flag _ _); [eexists; reflexivity |]. cbn [orb].
    destruct (negb _); cbn [pbind]; eexists; reflexivity.
  - destruct (d_flag _ _); [eexists; reflexivity |].
    assert (E : forall g, d_num (set_num NF_max_modules 1 g) NF_max_modules = 1) by (intros g; reflexivity).
    rewrite E. cbn [Z.eqb Pos.eqb negb pbind]. eexists; reflexivity.
Qed.

Lemma file_says_final : forall stmts, exists w,
  file_says stmts = POk (final_desc (fold_left apply_stmt stmts st_init), w).
Proof. intros stmts. unfold file_says. apply post_final. Qed.

(* the parts of the state a statement can leave alone *)
Definition scal (s : st) := (d_num (s_gsd s), d_str (s_gsd s), d_flag (s_gsd s), d_speeds (s_gsd s), s_modspan s, s_maxspan s).

Lemma slots_scal : forall l s, scal (fold_left apply_slot l s) = scal s.
Proof.
  induction l as [| sl l IH]; intros s; [reflexivity |]. cbn [fold_left]. rewrite IH.
  unfold apply_slot. cbv zeta. destruct (find_module _ _); reflexivity.
Qed.

(* destructs every scrutinee of a match in the goal: for frame facts that hold in each branch by reflexivity *)
Ltac crush_matches :=
  repeat match goal with
         | |- context [match ?z with _ => _ end] => destruct z
         end.

Lemma nonset_scal : forall s x, (forall y, x <> WSetS y) -> scal (apply_stmt s x) = scal s.
Proof.
  intros s x H. destruct x as [y | id es | d | a b es | m | tx l | t]; try reflexivity.
  - exfalso. exact (H y eq_refl).
  - cbn [apply_stmt]. apply slots_scal.
Qed.

Lemma set_keep : forall s y x, ~ In x (set_target y) -> dget (s_gsd (apply_set s y)) x = dget (s_gsd s) x.
Proof.
  intros s [key idx val] x H. unfold apply_set, set_target in *. cbn [se_key se_idx se_val] in *.
  assert (N : forall t, ~ In x [t] -> t <> x) by (intros t Ht E; apply Ht; left; exact E).
  destruct (set_action _) as [[f' | f' | f' | mask | sp] |]; [| | | | | reflexivity].
  - destruct idx; destruct val; try reflexivity. apply dget_set_num, N, H.
  - destruct idx; destruct val; try reflexivity. apply dget_set_str, N, H.
  - destruct idx; destruct val; try reflexivity. apply dget_set_flag, N, H.
  - destruct idx; destruct val; try reflexivity. destruct (truth n); [destruct x |]; reflexivity.
  - destruct sp; destruct idx; destruct val; try reflexivity; crush_matches; try (destruct x; reflexivity).
    + apply dget_set_flag, N, H.
    + apply dget_set_num, N, H.
Qed.

Definition speed_step_set (acc : Z) (x : wset) : Z :=
  match set_action x, se_val x with
  | Some (ASpeed m), VNum n => if truth n then Z.lor acc m else acc
  | _, _ => acc
  end.

(* under the well-formedness check, a speed setting has no index; otherwise the speeds are untouched *)
Lemma set_speeds_step : forall s y, set_okb s y = true ->
  d_speeds (s_gsd (apply_set s y)) = speed_step_set (d_speeds (s_gsd s)) y.
Proof.
  intros s [key idx val] H. unfold apply_set, set_okb, speed_step_set in *. cbn [se_key se_idx se_val] in *.
  destruct (set_action _) as [[f' | f' | f' | mask | sp] |]; [| | | | | reflexivity].
  - destruct idx; destruct val; reflexivity.
  - destruct idx; destruct val; reflexivity.
  - destruct idx; destruct val; reflexivity.
  - destruct idx; destruct val; try reflexivity; try discriminate H. destruct (truth n); reflexivity.
  - destruct sp; destruct idx; destruct val; try reflexivity; crush_matches; reflexivity.
Qed.

Lemma set_maxspan_mono : forall s y, s_maxspan s = true -> s_maxspan (apply_set s y) = true.
Proof.
  intros s [key idx val] H. unfold apply_set. cbn [se_key se_idx se_val].
  destruct (set_action _) as [[f' | f' | f' | mask | sp] |]; [| | | | | exact H];
    try destruct sp; destruct idx; destruct val; try exact H; crush_matches; try exact H; reflexivity.
Qed.

Lemma set_maxspan_new : forall s y, s_maxspan (apply_set s y) = true ->
  s_maxspan s = true \/ In (TNum NF_max_modules) (set_target y).
Proof.
  intros s [key idx val] H. unfold apply_set, set_target in *. cbn [se_key se_idx se_val] in *.
  destruct (set_action _) as [[f' | f' | f' | mask | sp] |]; [| | | | | left; exact H];
    try destruct sp; try (right; left; reflexivity);
    destruct idx; destruct val; try (left; exact H); revert H; crush_matches; intros H; left; exact H.
Qed.

Definition file_targets (stmts : list wstmt) : list target := set_targets (sets_of stmts).

Lemma file_targets_set : forall y r, file_targets (WSetS y :: r) = set_target y ++ file_targets r.
Proof. reflexivity. Qed.
Lemma file_targets_other : forall x r, (forall y, x <> WSetS y) -> file_targets (x :: r) = file_targets r.
Proof. intros x r H. destruct x; try reflexivity. exfalso. exact (H x eq_refl). Qed.

Lemma is_set_dec : forall x : wstmt, (exists y, x = WSetS y) \/ (forall y, x <> WSetS y).
Proof. intros x. destruct x; try (right; intros y E; discriminate E). left. eexists. reflexivity. Qed.

Lemma scal_dget : forall a b x, scal a = scal b -> dget (s_gsd a) x = dget (s_gsd b) x.
Proof. intros a b x H. unfold scal in H. injection H as H1 H2 H3 _ _ _. destruct x; cbn [dget]; congruence. Qed.
Lemma scal_speeds : forall a b, scal a = scal b -> d_speeds (s_gsd a) = d_speeds (s_gsd b). Proof. intros a b H. unfold scal in H. congruence. Qed.
Lemma scal_maxspan : forall a b, scal a = scal b -> s_maxspan a = s_maxspan b. Proof. intros a b H. unfold scal in H. congruence. Qed.

Lemma fold_keep : forall stmts s x, ~ In x (file_targets stmts) ->
  dget (s_gsd (fold_left apply_stmt stmts s)) x = dget (s_gsd s) x.
Proof.
  induction stmts as [| y r IH]; intros s x H; [reflexivity |]. cbn [fold_left].
  destruct (is_set_dec y) as [[z ->] | Hn].
  - rewrite file_targets_set in H. rewrite IH by (intros Hin; apply H; apply in_or_app; right; exact Hin).
    cbn [apply_stmt]. apply set_keep. intros Hin; apply H; apply in_or_app; left; exact Hin.
  - rewrite (file_targets_other y r Hn) in H. rewrite IH by exact H. apply scal_dget, nonset_scal, Hn.
Qed.

Lemma fold_maxspan_mono : forall stmts s, s_maxspan s = true -> s_maxspan (fold_left apply_stmt stmts s) = true.
Proof.
  induction stmts as [| x r IH]; intros s H; [exact H |]. cbn [fold_left]. apply IH.
  destruct (is_set_dec x) as [[y ->] | Hn].
  - apply set_maxspan_mono. exact H.
  - rewrite (scal_maxspan _ _ (nonset_scal s x Hn)). exact H.
Qed.
Lemma fold_maxspan_new : forall stmts s, s_maxspan (fold_left apply_stmt stmts s) = true ->
  s_maxspan s = true \/ In (TNum NF_max_modules) (file_targets stmts).
Proof.
  induction stmts as [| x r IH]; intros s H; [left; exact H |]. cbn [fold_left] in H.
  destruct (IH _ H) as [H1 | H1].
  - destruct (is_set_dec x) as [[y ->] | Hn].
    + destruct (set_maxspan_new s y H1) as [H2 | H2]; [left; exact H2 | right]. rewrite file_targets_set. apply in_or_app. left. exact H2.
    + left. rewrite <- (scal_maxspan _ _ (nonset_scal s x Hn)). exact H1.
  - right. destruct (is_set_dec x) as [[y ->] | Hn].
    + rewrite file_targets_set. apply in_or_app. right. exact H1.
    + rewrite (file_targets_other x r Hn). exact H1.
Qed.

Lemma fold_speeds' : forall stmts s, stmts_okb s stmts = true ->
  d_speeds (s_gsd (fold_left apply_stmt stmts s)) = fold_left speed_step_set (sets_of stmts) (d_speeds (s_gsd s)).
Proof.
  induction stmts as [| x r IH]; intros s H; [reflexivity |].
  cbn [stmts_okb] in H. apply andb_true_iff in H. destruct H as [Hx Hr]. cbn [fold_left].
  rewrite IH by exact Hr. destruct (is_set_dec x) as [[y ->] | Hn].
  - cbn [apply_stmt stmt_okb] in *. change (sets_of (WSetS y :: r)) with (y :: sets_of r). cbn [fold_left].
    rewrite set_speeds_step by exact Hx. reflexivity.
  - rewrite (scal_speeds _ _ (nonset_scal s x Hn)).
    assert (E : sets_of (x :: r) = sets_of r) by (destruct x; try reflexivity; exfalso; exact (Hn x eq_refl)).
    rewrite E. reflexivity.
Qed.

Definition set_says_raw (s : st) (x : wset) : Prop :=
  match set_action x, se_val x with
  | Some (ANum f), VNum n => d_num (s_gsd s) f = wnum_value n
  | Some (AStr f), VStr w => d_str (s_gsd s) f = wstr_value w
  | Some (ABool f), VNum n => d_flag (s_gsd s) f = truth n
  | Some (ASpecial SP_modular_station), VNum n => d_flag (s_gsd s) BF_modular_station = truth n
  | Some (ASpecial SP_max_module), VNum n => d_num (s_gsd s) NF_max_modules = wnum_value n /\ s_maxspan s = true
  | _, _ => True
  end.

(* for a goal about a field of `fold_left apply_stmt r s'`: the statements r do not target the field
   (Hd), and s' is the state in which the setting has just written it *)
Ltac just_written r Hd :=
  match goal with |- _ (s_gsd (fold_left _ _ ?s')) _ = _ =>
    injection (fold_keep r s' _ (Hd _ (or_introl eq_refl))) as ->
  end;
  cbn [with_gsd with_modspan with_maxspan s_gsd set_num set_str set_flag d_num d_str d_flag];
  rewrite ?nfield_eqb_refl, ?sfield_eqb_refl, ?bfield_eqb_refl; reflexivity.

Lemma says_raw_fold : forall stmts s x,
  nodupb (file_targets stmts) = true -> stmts_okb s stmts = true -> In (WSetS x) stmts ->
  set_says_raw (fold_left apply_stmt stmts s) x.
Proof.
  induction stmts as [| a r IH]; intros s x Hnd Hok Hin; [destruct Hin |].
  cbn [stmts_okb] in Hok. apply andb_true_iff in Hok. destruct Hok as [Ha Hr]. cbn [fold_left].
  destruct Hin as [-> | Hin].
  - rewrite file_targets_set in Hnd. apply nodupb_app in Hnd. destruct Hnd as [_ Hd].
    clear IH. cbn [apply_stmt stmt_okb] in *. destruct x as [key idx val].
    unfold set_says_raw, set_target, set_okb, apply_set in *. cbn [se_key se_idx se_val] in *.
    destruct (set_action (mkSet key idx val)) as [[f | f | f | mask | sp] |] eqn:Ea; try exact I.
    + destruct val as [n | | |]; try exact I. destruct idx; [discriminate Ha |]. just_written r Hd.
    + destruct val as [| w | |]; try exact I. destruct idx; [discriminate Ha |]. just_written r Hd.
    + destruct val as [n | | |]; try exact I. destruct idx; [discriminate Ha |]. just_written r Hd.
    + destruct sp; try (destruct val; exact I).
      * destruct val as [n | | |]; try exact I. destruct idx; [discriminate Ha |]. just_written r Hd.
      * destruct val as [n | | |]; try exact I. destruct idx; [discriminate Ha |].
        split; [just_written r Hd | apply fold_maxspan_mono; reflexivity].
  - apply IH; [| exact Hr | exact Hin].
    destruct (is_set_dec a) as [[y ->] | Hn].
    + rewrite file_targets_set in Hnd. apply nodupb_app in Hnd. tauto.
    + rewrite (file_targets_other a r Hn) in Hnd. exact Hnd.
Qed.

Lemma final_str : forall s, d_str (final_desc s) = d_str (s_gsd s).
Proof. intros s. unfold final_desc. cbv zeta. destruct (s_legacy s); destruct (s_maxspan s); destruct (d_flag _ _); reflexivity. Qed.
Lemma final_flag : forall s, d_flag (final_desc s) = d_flag (s_gsd s).
Proof. intros s. unfold final_desc. cbv zeta. destruct (s_legacy s); destruct (s_maxspan s); destruct (d_flag _ _); reflexivity. Qed.
Lemma final_speeds : forall s, d_speeds (final_desc s) = d_speeds (s_gsd s).
Proof. intros s. unfold final_desc. cbv zeta. destruct (s_legacy s); destruct (s_maxspan s); destruct (d_flag _ _); reflexivity. Qed.
Lemma final_num : forall s f,
  d_num (final_desc s) f =
  if nfield_eqb NF_max_modules f
  then (if s_maxspan s && d_flag (s_gsd s) BF_modular_station then d_num (s_gsd s) NF_max_modules else 1)
  else d_num (s_gsd s) f.
Proof.
  intros s f. unfold final_desc. cbv zeta.
  destruct (s_legacy s); destruct (s_maxspan s);
    cbn [set_prm set_num d_flag d_num andb];
    match goal with |- context [d_flag (s_gsd s) BF_modular_station] => destruct (d_flag (s_gsd s) BF_modular_station) end;
    cbn [set_num d_num]; destruct (nfield_eqb NF_max_modules f) eqn:E; try reflexivity;
    apply Nat.eqb_eq in E; apply nfield_index_inj in E; subst f; reflexivity.
Qed.

Lemma action_not_max_modules : forall x, set_action x <> Some (ANum NF_max_modules).
Proof. intros x H. apply table_no_max_modules. eapply assoc_str_in. exact H. Qed.

Lemma scalars_closed : forall stmts, file_okb stmts = true -> nodupb (file_targets stmts) = true ->
  let d := final_desc (fold_left apply_stmt stmts st_init) in
  (forall x, In (WSetS x) stmts -> set_says d x) /\
  d_speeds d = speeds_said (sets_of stmts) /\
  (forall f, ~ In (TNum f) (file_targets stmts) -> d_num d f = if nfield_eqb f NF_max_modules then 1 else nfield_default f) /\
  (forall f, ~ In (TStr f) (file_targets stmts) -> d_str d f = []) /\
  (forall f, ~ In (TFlag f) (file_targets stmts) -> d_flag d f = false).
Proof.
  intros stmts Hok Hnd. cbv zeta.
  set (F := fold_left apply_stmt stmts st_init) in *.
  split; [| split; [| split; [| split]]].
  - intros x Hin. pose proof (says_raw_fold stmts st_init x Hnd Hok Hin) as R. fold F in R.
    unfold set_says, set_says_raw in *.
    destruct (set_action x) as [[f | f | f | mask | sp] |] eqn:Ea; try exact I.
    + destruct (se_val x); try exact I. rewrite final_num.
      rewrite nfield_eqb_false; [exact R |]. intros <-. exact (action_not_max_modules x Ea).
    + destruct (se_val x); try exact I. rewrite final_str. exact R.
    + destruct (se_val x); try exact I. rewrite final_flag. exact R.
    + destruct sp; try exact I.
      * destruct (se_val x); try exact I. rewrite final_flag. exact R.
      * destruct (se_val x); try exact I. destruct R as [R1 R2]. rewrite final_num, final_flag, nfield_eqb_refl, R2, R1.
        cbn [andb]. reflexivity.
  - rewrite final_speeds. unfold F. rewrite fold_speeds' by exact Hok. reflexivity.
  - intros f Hf. rewrite final_num. destruct (nfield_eqb NF_max_modules f) eqn:E.
    + apply Nat.eqb_eq in E. apply nfield_index_inj in E. subst f. rewrite nfield_eqb_refl.
      destruct (s_maxspan F) eqn:Em; [| reflexivity].
      exfalso. destruct (fold_maxspan_new stmts st_init Em) as [H | H]; [discriminate H | exact (Hf H)].
    + assert (E' : nfield_eqb f NF_max_modules = false) by (unfold nfield_eqb in *; rewrite Nat.eqb_sym; exact E).
      rewrite E'. unfold F. injection (fold_keep stmts st_init _ Hf) as ->. reflexivity.
  - intros f Hf. rewrite final_str. unfold F. injection (fold_keep stmts st_init _ Hf) as ->. reflexivity.
  - intros f Hf. rewrite final_flag. unfold F. injection (fold_keep stmts st_init _ Hf) as ->. reflexivity.
Qed.

Theorem roundtrip_scalars : forall stmts, file_okb stmts = true -> nodupb (file_targets stmts) = true ->
  exists d w, file_says stmts = POk (d, w) /\
    (forall x, In (WSetS x) stmts -> set_says d x) /\
    d_speeds d = speeds_said (sets_of stmts) /\
    (forall f, ~ In (TNum f) (file_targets stmts) -> d_num d f = if nfield_eqb f NF_max_modules then 1 else nfield_default f) /\
    (forall f, ~ In (TStr f) (file_targets stmts) -> d_str d f = []) /\
    (forall f, ~ In (TFlag f) (file_targets stmts) -> d_flag d f = false).
Proof.
  intros stmts Hok Hnd. destruct (file_says_final stmts) as [w Hw].
  exists (final_desc (fold_left apply_stmt stmts st_init)), w. split; [exact Hw | exact (scalars_closed stmts Hok Hnd)].
Qed.

Lemma zmap_get_insert : forall {A} (l : list (Z * A)) k v k',
  zmap_get k' (zmap_insert k v l) = if k' =? k then Some v else zmap_get k' l.
Proof.
  intros A l k v k'. induction l as [| [k0 v0] l IH]; cbn [zmap_insert zmap_get].
  - destruct (k' =? k); reflexivity.
  - destruct (Z.ltb_spec k k0) as [Hlt | Hge].
    + cbn [zmap_get]. destruct (k' =? k); reflexivity.
    + destruct (Z.eqb_spec k k0) as [-> | Hne].
      * cbn [zmap_get]. destruct (k' =? k0); reflexivity.
      * cbn [zmap_get]. destruct (Z.eqb_spec k' k0) as [-> | Hne'].
        -- destruct (Z.eqb_spec k0 k); [congruence | reflexivity].
        -- exact IH.
Qed.

Lemma zmap_get_app : forall {A} (l1 l2 : list (Z * A)) k,
  zmap_get k (l1 ++ l2) = match zmap_get k l1 with Some v => Some v | None => zmap_get k l2 end.
Proof.
  intros A l1 l2 k. induction l1 as [| [k0 v0] l1 IH]; cbn [app zmap_get]; [reflexivity |].
  destruct (k =? k0); [reflexivity | exact IH].
Qed.

Lemma zmap_get_app_l : forall {A} (l1 l2 : list (Z * A)) k v, zmap_get k l1 = Some v -> zmap_get k (l1 ++ l2) = Some v.
Proof. intros A l1 l2 k v H. rewrite zmap_get_app, H. reflexivity. Qed.

Lemma zmap_get_notin : forall {A} (l : list (Z * A)) k, ~ In k (map fst l) -> zmap_get k l = None.
Proof.
  intros A l k H. induction l as [| [k0 v0] l IH]; cbn [zmap_get]; [reflexivity |].
  destruct (Z.eqb_spec k k0) as [-> | Hne]; [exfalso; apply H; left; reflexivity |].
  apply IH. intros Hin. apply H. right. exact Hin.
Qed.

Lemma nodupz_app_mid : forall l1 a l2, nodupz (l1 ++ a :: l2) = true -> ~ In a l1.
Proof.
  induction l1 as [| b l1 IH]; intros a l2 H; [intros [] |].
  cbn [app nodupz] in H. apply andb_true_iff in H. destruct H as [Hb Hr]. apply negb_true_iff in Hb.
  intros [-> | Hin]; [| exact (IH a l2 Hr Hin)].
  assert (E : existsb (Z.eqb a) (l1 ++ a :: l2) = true).
  { apply existsb_exists. exists a. split; [apply in_or_app; right; left; reflexivity | apply Z.eqb_refl]. }
  rewrite E in Hb. discriminate Hb.
Qed.

Definition envpart (s : st) := (s_texts s, s_defs s).
Definition prmpart (s : st) := (d_prm (s_gsd s), s_legacy s).
Definition modpart (s : st) := d_modules (s_gsd s).

Lemma slots_parts : forall l s,
  envpart (fold_left apply_slot l s) = envpart s /\ prmpart (fold_left apply_slot l s) = prmpart s /\
  modpart (fold_left apply_slot l s) = modpart s.
Proof.
  induction l as [| sl l IH]; intros s; [repeat split |]. cbn [fold_left].
  destruct (IH (apply_slot s sl)) as [A [B C]]. rewrite A, B, C.
  unfold apply_slot. cbv zeta. destruct (find_module _ _); repeat split.
Qed.

Lemma set_parts : forall s y,
  envpart (apply_set s y) = envpart s /\ modpart (apply_set s y) = modpart s /\
  d_slots (s_gsd (apply_set s y)) = d_slots (s_gsd s).
Proof.
  intros s [key idx val]. unfold apply_set. cbn [se_key se_idx se_val].
  destruct (set_action _) as [[f' | f' | f' | mask | sp] |]; [| | | | | repeat split];
    try destruct sp; destruct idx; destruct val; try (repeat split; fail); crush_matches; repeat split.
Qed.

Definition ext_step (defs : list (Z * prmdef)) (p : userprm) (x : prmline) : userprm :=
  match x with
  | PLRef off id => match zmap_get id defs with Some d => push_ref p off d | None => p end
  | PLConst off v => push_const p off v
  | _ => p
  end.
Definition legacy_step (p : userprm) (x : prmline) : userprm :=
  match x with
  | PLLen n => mkPrm n (up_const p) (up_ref p)
  | PLData v => push_const p 0 v
  | _ => p
  end.

Lemma legacy_prm_snoc : forall l x, legacy_prm (l ++ [x]) = legacy_step (legacy_prm l) x.
Proof. intros l x. unfold legacy_prm. rewrite fold_left_app. reflexivity. Qed.

Lemma prmlines_app : forall p q, prmlines_of (p ++ q) = prmlines_of p ++ prmlines_of q.
Proof. intros p q. unfold prmlines_of, sets_of. rewrite !flat_map_app. reflexivity. Qed.
Lemma texts_app : forall p q, texts_of (p ++ q) = texts_of p ++ texts_of q.
Proof. intros p q. unfold texts_of. apply flat_map_app. Qed.
Lemma defs_app : forall tx p q, defs_with tx (p ++ q) = defs_with tx p ++ defs_with tx q.
Proof. intros tx p q. unfold defs_with. apply flat_map_app. Qed.
Lemma modules_app : forall p q, modules_of (p ++ q) = modules_of p ++ modules_of q.
Proof. intros p q. unfold modules_of. apply flat_map_app. Qed.

Lemma mitems_env : forall defs1 defs2 items a,
  (forall k v, zmap_get k defs1 = Some v -> zmap_get k defs2 = Some v) ->
  forallb (mitem_okb defs1) items = true ->
  fold_left (apply_mitem defs1) items a = fold_left (apply_mitem defs2) items a.
Proof.
  intros defs1 defs2 items. induction items as [| i items IH]; intros a Hsub H; [reflexivity |].
  cbn [forallb] in H. apply andb_true_iff in H. destruct H as [Hi Hr]. cbn [fold_left].
  assert (E : apply_mitem defs1 a i = apply_mitem defs2 a i).
  { destruct i as [[key idx val] | n | tx ks]; try reflexivity.
    unfold apply_mitem, mitem_okb in *. cbn [se_key se_idx se_val] in *.
    destruct (mset_key _); try reflexivity. destruct idx as [off |]; try reflexivity.
    destruct val as [id | | |]; try reflexivity.
    apply andb_true_iff in Hi. destruct Hi as [_ Hd].
    destruct (zmap_get (wnum_value id) defs1) as [d |] eqn:E1; [| discriminate Hd].
    rewrite (Hsub _ _ E1). reflexivity. }
  rewrite E. apply IH; assumption.
Qed.

Lemma set_prmline_short : forall y, set_prmline y = [] \/ exists l, set_prmline y = [l].
Proof.
  intros [key idx val]. unfold set_prmline. cbn [se_key se_idx se_val].
  destruct (set_action _) as [[f' | f' | f' | mask | sp] |]; try (left; reflexivity);
    destruct sp; destruct idx; destruct val; cbn [as_numlist]; try (left; reflexivity); right; eexists; reflexivity.
Qed.

Lemma set_legacy_step : forall s y, set_okb s y = true ->
  s_legacy (apply_set s y) =
  match set_prmline y with
  | [l] => if is_ext l then None else match s_legacy s with Some prm => Some (legacy_step prm l) | None => None end
  | _ => s_legacy s
  end.
Proof.
  intros s [key idx val] Hok. unfold apply_set, set_prmline, set_okb in *. cbn [se_key se_idx se_val] in *.
  destruct (set_action _) as [[f' | f' | f' | mask | sp] |]; [| | | | | reflexivity];
    try destruct sp; destruct idx; destruct val; try reflexivity; cbn [as_numlist is_ext legacy_step] in *;
    try discriminate Hok;
    try (apply andb_true_iff in Hok; destruct Hok as [_ Hok]);
    repeat match goal with
           | |- context [match ?z with _ => _ end] => destruct z eqn:?
           end; try reflexivity; try congruence; discriminate Hok.
Qed.

Lemma set_prm_step : forall s y,
  d_prm (s_gsd (apply_set s y)) = fold_left (ext_step (s_defs s)) (set_prmline y) (d_prm (s_gsd s)).
Proof.
  intros s [key idx val]. unfold apply_set, set_prmline. cbn [se_key se_idx se_val].
  destruct (set_action _) as [[f' | f' | f' | mask | sp] |]; [| | | | | reflexivity];
    try destruct sp; destruct idx; destruct val; cbn [as_numlist fold_left ext_step]; try reflexivity;
    crush_matches; reflexivity.
Qed.

Lemma set_ref_defined : forall s y off id, set_okb s y = true -> In (PLRef off id) (set_prmline y) ->
  exists d, zmap_get id (s_defs s) = Some d.
Proof.
  intros s [key idx val] off id Hok. unfold set_okb, set_prmline in *. cbn [se_key se_idx se_val] in *.
  destruct (set_action _) as [[f' | f' | f' | mask | sp] |]; try (intros []).
  destruct sp; destruct idx; destruct val; cbn [as_numlist In]; intros H; try contradiction;
    destruct H as [E | []]; try discriminate E.
  injection E as _ <-. apply andb_true_iff in Hok. destruct Hok as [_ Hd].
  destruct (zmap_get (wnum_value n) (s_defs s)) as [d |]; [eexists; reflexivity | discriminate Hd].
Qed.

Lemma stmt_texts : forall s x,
  s_texts (apply_stmt s x) =
  match x with WText id es => zmap_insert (wnum_value id) (table_of es) (s_texts s) | _ => s_texts s end.
Proof.
  intros s x. destruct x; try reflexivity; cbn [apply_stmt];
    [destruct (set_parts s x) as [P _] | destruct (slots_parts l s) as [P _]]; unfold envpart in P; congruence.
Qed.

Lemma stmt_defs : forall s x,
  s_defs (apply_stmt s x) =
  match x with WDef d => zmap_insert (wnum_value (wd_id d)) (wdef_den (s_texts s) d) (s_defs s) | _ => s_defs s end.
Proof.
  intros s x. destruct x; try reflexivity; cbn [apply_stmt];
    [destruct (set_parts s x) as [P _] | destruct (slots_parts l s) as [P _]]; unfold envpart in P; congruence.
Qed.

Lemma stmt_modules : forall s x,
  d_modules (s_gsd (apply_stmt s x)) =
  match x with WModule m => d_modules (s_gsd s) ++ [wmodule_den (s_defs s) m] | _ => d_modules (s_gsd s) end.
Proof. intros s x. destruct x; try reflexivity; [apply set_parts | apply slots_parts]. Qed.

Lemma stmt_prm : forall s x, (forall y, x <> WSetS y) -> prmpart (apply_stmt s x) = prmpart s.
Proof. intros s x H. destruct x; try reflexivity; [destruct (H x eq_refl) | apply slots_parts]. Qed.

Section Loop.
  Variable stmts : list wstmt.
  Hypothesis Huniq : ids_unique stmts = true.

  Let TT := texts_of stmts.
  Let DD := defs_of stmts.

  Definition Inv (p : list wstmt) (s : st) : Prop :=
    (forall k, zmap_get k (s_texts s) = zmap_get k (texts_of p)) /\
    (forall k, zmap_get k (s_defs s) = zmap_get k (defs_with TT p)) /\
    d_prm (s_gsd s) = ext_prm DD (prmlines_of p) /\
    s_legacy s = (if existsb is_ext (prmlines_of p) then None else Some (legacy_prm (prmlines_of p))) /\
    d_modules (s_gsd s) = map (wmodule_den DD) (modules_of p).

  Lemma texts_prefix : forall p q k v, stmts = p ++ q -> zmap_get k (texts_of p) = Some v -> zmap_get k TT = Some v.
  Proof. intros p q k v E H. unfold TT. rewrite E, texts_app. apply zmap_get_app_l. exact H. Qed.

  Lemma defs_prefix : forall p q k v, stmts = p ++ q -> zmap_get k (defs_with TT p) = Some v -> zmap_get k DD = Some v.
  Proof.
    intros p q k v E H. unfold DD, defs_of. fold TT.
    replace (defs_with TT stmts) with (defs_with TT p ++ defs_with TT q) by (rewrite <- defs_app, <- E; reflexivity).
    apply zmap_get_app_l. exact H.
  Qed.

  (* the map m holds the entries l1 in file order; entering an id that is new among them appends it *)
  Lemma insert_fresh : forall {A} (l1 l3 m : list (Z * A)) id v k,
    (forall k, zmap_get k m = zmap_get k l1) -> nodupz (map fst (l1 ++ (id, v) :: l3)) = true ->
    zmap_get k (zmap_insert id v m) = zmap_get k (l1 ++ [(id, v)]).
  Proof.
    intros A l1 l3 m id v k I U. rewrite zmap_get_insert, zmap_get_app, I. cbn [zmap_get].
    destruct (Z.eqb_spec k id) as [-> | Hne]; [| destruct (zmap_get k l1); reflexivity].
    rewrite zmap_get_notin; [reflexivity |]. rewrite map_app in U. exact (nodupz_app_mid _ _ _ U).
  Qed.

  Lemma inv_step : forall p x q s, stmts = p ++ x :: q -> stmt_okb s x = true -> Inv p s -> Inv (p ++ [x]) (apply_stmt s x).
  Proof.
    intros p x q s E Hok [I1 [I2 [I3 [I4 I5]]]].
    unfold ids_unique in Huniq. apply andb_true_iff in Huniq. destruct Huniq as [Ut Ud].
    unfold Inv. rewrite texts_app, defs_app, prmlines_app, modules_app, stmt_texts, stmt_defs, stmt_modules.
    split; [| split; [| split; [| split]]].
    - (* texts: only PrmText enters one *)
      destruct x; cbn [texts_of flat_map app]; rewrite ?app_nil_r; try exact I1.
      intros k. apply (insert_fresh _ (texts_of q)); [exact I1 |].
      rewrite E, texts_app in Ut. exact Ut.
    - (* definitions: only ExtUserPrmData enters one, with the text table it finds now *)
      destruct x; cbn [defs_with flat_map app]; rewrite ?app_nil_r; try exact I2.
      assert (Ed : wdef_den (s_texts s) d = wdef_den TT d).
      { cbn [stmt_okb] in Hok. unfold wdef_okb in Hok. unfold wdef_den.
        destruct (wd_tref d) as [r |]; [| reflexivity].
        repeat (apply andb_true_iff in Hok; destruct Hok as [Hok ?]).
        match goal with H : _ && _ = true |- _ => apply andb_true_iff in H; destruct H as [_ Hz] end.
        destruct (zmap_get (wnum_value r) (s_texts s)) as [tb |] eqn:Et; [| discriminate Hz].
        rewrite I1 in Et. rewrite (texts_prefix p (WDef d :: q) _ _ E Et). reflexivity. }
      intros k. rewrite Ed. apply (insert_fresh _ (defs_with TT q)); [exact I2 |].
      unfold defs_of in Ud. fold TT in Ud. rewrite E, defs_app in Ud. exact Ud.
    - (* Ext_ parameter data: only a setting adds a line; its reference is resolved as at the end *)
      destruct (is_set_dec x) as [[y ->] | Hn].
      + cbn [apply_stmt stmt_okb] in *. change (prmlines_of [WSetS y]) with (set_prmline y ++ []).
        rewrite app_nil_r, set_prm_step, I3. unfold ext_prm. rewrite fold_left_app.
        destruct (set_prmline_short y) as [E0 | [l E0]]; rewrite E0 in *; [reflexivity |].
        destruct l; try reflexivity. cbn [fold_left ext_step].
        destruct (set_ref_defined s y off id Hok) as [df Ed]; [rewrite E0; left; reflexivity |].
        rewrite Ed. rewrite I2 in Ed. rewrite (defs_prefix p (WSetS y :: q) _ _ E Ed). reflexivity.
      + pose proof (stmt_prm s x Hn) as Pp. unfold prmpart in Pp. injection Pp as -> _.
        replace (prmlines_of [x]) with (@nil prmline) by (destruct x; try reflexivity; destruct (Hn x eq_refl)).
        rewrite app_nil_r. exact I3.
    - (* legacy parameter data *)
      destruct (is_set_dec x) as [[y ->] | Hn].
      + cbn [apply_stmt stmt_okb] in *. change (prmlines_of [WSetS y]) with (set_prmline y ++ []).
        rewrite app_nil_r, set_legacy_step by exact Hok.
        destruct (set_prmline_short y) as [-> | [l ->]]; [rewrite app_nil_r; exact I4 |].
        rewrite existsb_app, legacy_prm_snoc. cbn [existsb]. rewrite orb_false_r, I4.
        destruct (existsb is_ext (prmlines_of p)); destruct (is_ext l); reflexivity.
      + pose proof (stmt_prm s x Hn) as Pp. unfold prmpart in Pp. injection Pp as _ ->.
        replace (prmlines_of [x]) with (@nil prmline) by (destruct x; try reflexivity; destruct (Hn x eq_refl)).
        rewrite app_nil_r. exact I4.
    - (* modules: a Module block is appended, its references resolved as at the end *)
      destruct x; cbn [modules_of flat_map app]; rewrite ?app_nil_r; try exact I5.
      rewrite map_app, I5. cbn [map]. f_equal. f_equal.
      unfold wmodule_den. cbv zeta. cbn [stmt_okb] in Hok. unfold wmodule_okb in Hok.
      apply andb_true_iff in Hok. destruct Hok as [_ Hi].
      rewrite (mitems_env (s_defs s) DD (wm_items m)); [reflexivity | | exact Hi].
      intros k v Hk. rewrite I2 in Hk. exact (defs_prefix p (WModule m :: q) _ _ E Hk).
  Qed.

  Lemma inv_fold : forall q p s, stmts = p ++ q -> stmts_okb s q = true -> Inv p s -> Inv stmts (fold_left apply_stmt q s).
  Proof.
    induction q as [| x q IH]; intros p s E Hok HI.
    - rewrite app_nil_r in E. subst p. exact HI.
    - cbn [stmts_okb] in Hok. apply andb_true_iff in Hok. destruct Hok as [Hx Hq]. cbn [fold_left].
      apply (IH (p ++ [x])); [rewrite <- app_assoc; exact E | exact Hq |].
      exact (inv_step p x q s E Hx HI).
  Qed.

  Lemma inv_final : file_okb stmts = true -> Inv stmts (fold_left apply_stmt stmts st_init).
  Proof.
    intros Hok. apply (inv_fold stmts [] st_init); [reflexivity | exact Hok |].
    unfold Inv. repeat split; reflexivity.
  Qed.
End Loop.

Lemma final_prm : forall s, d_prm (final_desc s) = match s_legacy s with Some prm => prm | None => d_prm (s_gsd s) end.
Proof. intros s. unfold final_desc. cbv zeta. destruct (s_legacy s); destruct (s_maxspan s); destruct (d_flag _ _); reflexivity. Qed.
Lemma final_modules : forall s, d_modules (final_desc s) = d_modules (s_gsd s).
Proof. intros s. unfold final_desc. cbv zeta. destruct (s_legacy s); destruct (s_maxspan s); destruct (d_flag _ _); reflexivity. Qed.
Lemma final_slots : forall s, d_slots (final_desc s) = d_slots (s_gsd s).
Proof. intros s. unfold final_desc. cbv zeta. destruct (s_legacy s); destruct (s_maxspan s); destruct (d_flag _ _); reflexivity. Qed.

Lemma nodupz_lookup : forall {A} (l : list (Z * A)) k v, nodupz (map fst l) = true -> In (k, v) l -> zmap_get k l = Some v.
Proof.
  intros A l k v. induction l as [| [k0 v0] l IH]; intros Hn Hin; [destruct Hin |].
  cbn [map fst nodupz] in Hn. apply andb_true_iff in Hn. destruct Hn as [Hk Hr]. apply negb_true_iff in Hk.
  cbn [zmap_get]. destruct Hin as [Heq | Hin].
  - injection Heq as -> ->. rewrite Z.eqb_refl. reflexivity.
  - destruct (Z.eqb_spec k k0) as [-> | Hne]; [| apply IH; assumption].
    exfalso. assert (E : existsb (Z.eqb k0) (map fst l) = true).
    { apply existsb_exists. exists k0. split; [| apply Z.eqb_refl]. apply in_map_iff. exists (k0, v). split; [reflexivity | exact Hin]. }
    rewrite E in Hk. discriminate Hk.
Qed.

Theorem roundtrip_prm_modules : forall stmts, file_okb stmts = true -> ids_unique stmts = true ->
  exists d w, file_says stmts = POk (d, w) /\
    (* every PrmText table and every ExtUserPrmData definition is found under its id ... *)
    (forall id es, In (WText id es) stmts -> zmap_get (wnum_value id) (texts_of stmts) = Some (table_of es)) /\
    (forall x, In (WDef x) stmts ->
       zmap_get (wnum_value (wd_id x)) (defs_of stmts) = Some (wdef_den (texts_of stmts) x)) /\
    (* ... the station's user parameter data is what the Ext_ lines (or else the legacy lines) say ... *)
    d_prm d = prm_said (defs_of stmts) (prmlines_of stmts) /\
    (* ... and the modules are the Module blocks, in order *)
    d_modules d = map (wmodule_den (defs_of stmts)) (modules_of stmts).
Proof.
  intros stmts Hok Hu. destruct (file_says_final stmts) as [w Hw].
  exists (final_desc (fold_left apply_stmt stmts st_init)), w. split; [exact Hw |].
  destruct (inv_final stmts Hu Hok) as [I1 [I2 [I3 [I4 I5]]]].
  pose proof Hu as Hu'. unfold ids_unique in Hu'. apply andb_true_iff in Hu'. destruct Hu' as [Ut Ud].
  split; [| split; [| split]].
  - intros id es Hin. apply nodupz_lookup; [exact Ut |]. unfold texts_of. apply in_flat_map.
    exists (WText id es). split; [exact Hin | left; reflexivity].
  - intros x Hin. apply nodupz_lookup; [exact Ud |]. unfold defs_of, defs_with. apply in_flat_map.
    exists (WDef x). split; [exact Hin | left; reflexivity].
  - rewrite final_prm, I4, I3. unfold prm_said. destruct (existsb is_ext (prmlines_of stmts)); reflexivity.
  - rewrite final_modules. exact I5.
Qed.

Lemma find_all_fst : forall ms refs w1 w2, fst (find_all ms refs w1) = fst (find_all ms refs w2).
Proof.
  intros ms. induction refs as [| x r IH]; intros w1 w2; [reflexivity |]. cbn [find_all].
  destruct (find_module ms x).
  - specialize (IH w1 w2). destruct (find_all ms r w1), (find_all ms r w2). cbn [fst] in *. congruence.
  - apply IH.
Qed.

Lemma nonmodule_modpart : forall s x, is_module x = false -> modpart (apply_stmt s x) = modpart s.
Proof.
  intros s x H. destruct x as [y | id es | d | a b es | m | tx l | t]; try reflexivity; try discriminate H.
  - apply set_parts.
  - apply slots_parts.
Qed.

Lemma nomodules_modpart : forall r s, existsb is_module r = false -> modpart (fold_left apply_stmt r s) = modpart s.
Proof.
  induction r as [| x r IH]; intros s H; [reflexivity |].
  cbn [existsb] in H. apply orb_false_iff in H. destruct H as [Hx Hr]. cbn [fold_left].
  rewrite IH by exact Hr. apply nonmodule_modpart. exact Hx.
Qed.

Lemma slots_block : forall l s, slots_okb s l = true ->
  map Some (d_slots (s_gsd (fold_left apply_slot l s))) =
  map Some (d_slots (s_gsd s)) ++ map (slot_den (d_modules (s_gsd s))) l.
Proof.
  induction l as [| sl l IH]; intros s H; [rewrite app_nil_r; reflexivity |].
  cbn [slots_okb] in H. apply andb_true_iff in H. destruct H as [Hs Hl]. cbn [fold_left].
  rewrite IH by exact Hl.
  unfold wslot_okb in Hs. apply andb_true_iff in Hs. destruct Hs as [_ Hf].
  unfold apply_slot, slot_den. cbv zeta.
  destruct (find_module (d_modules (s_gsd s)) (wnum_value (wl_default sl))) as [dflt |] eqn:Ef; [| discriminate Hf].
  cbn [with_warn with_gsd s_gsd set_slots d_slots d_modules]. rewrite map_app, <- app_assoc. cbn [map app].
  rewrite Ef. rewrite (find_all_fst _ _ (s_warn s) 0). reflexivity.
Qed.

Lemma slots_fold : forall q s, modules_first q = true -> stmts_okb s q = true ->
  map Some (d_slots (s_gsd (fold_left apply_stmt q s))) =
  map Some (d_slots (s_gsd s)) ++ map (slot_den (d_modules (s_gsd (fold_left apply_stmt q s)))) (slots_of q).
Proof.
  induction q as [| x r IH]; intros s Hm Hok; [rewrite app_nil_r; reflexivity |].
  cbn [stmts_okb] in Hok. apply andb_true_iff in Hok. destruct Hok as [Hx Hr]. cbn [fold_left].
  destruct x as [y | id es | d | a b es | m | tx l | t]; cbn [modules_first] in Hm;
    try (rewrite (IH _ Hm Hr); reflexivity).
  - rewrite (IH _ Hm Hr). cbn [apply_stmt]. rewrite (proj2 (proj2 (set_parts _ _))). reflexivity.
  - apply andb_true_iff in Hm. destruct Hm as [Hn Hm]. apply negb_true_iff in Hn.
    rewrite (IH _ Hm Hr). cbn [apply_stmt stmt_okb] in *.
    change (slots_of (WSlots tx l :: r)) with (l ++ slots_of r). rewrite map_app, app_assoc. f_equal.
    rewrite slots_block by exact Hx. f_equal.
    pose proof (nomodules_modpart r (fold_left apply_slot l s) Hn) as M. unfold modpart in M. rewrite M.
    destruct (slots_parts l s) as [_ [_ M2]]. unfold modpart in M2. rewrite M2. reflexivity.
Qed.

Theorem roundtrip_slots : forall stmts, file_okb stmts = true -> modules_first stmts = true ->
  exists d w, file_says stmts = POk (d, w) /\
    map Some (d_slots d) = map (slot_den (d_modules d)) (slots_of stmts).
Proof.
  intros stmts Hok Hm. destruct (file_says_final stmts) as [w Hw].
  exists (final_desc (fold_left apply_stmt stmts st_init)), w. split; [exact Hw |].
  rewrite final_slots, final_modules. exact (slots_fold stmts st_init Hm Hok).
Qed.
