(* C19 - every pair tree the PEG model of pest (Model/Peg.v) returns for the GSD grammar has the shape that
   GsdShape.child_rx computes from the grammar.  Together with C19Proofs.interp_no_panic: for EVERY text, if the
   PEG model accepts it, the interpretation of the resulting pair tree cannot panic. *)
From PB Require Import Common GsdGrammar GsdTables GsdInterp GsdShape Peg C19Shape C19Proofs.

(* the expression can be translated by rx_of with this much inlining fuel, and does not call the implicit rules *)
Fixpoint rx_wf (g : list (rule * modifier * expr)) (fuel : nat) : expr -> bool :=
  fix go (e : expr) : bool :=
    match e with
    | ERule r =>
        negb (is_implicit r) &&
        match lookup_rule r g with
        | Some (MSilent, body) => match fuel with S f => rx_wf g f body | O => false end
        | Some (MNormal, _) | Some (MAtomic, _) => true
        | _ => false
        end
    | ESeq a b | EChoice a b => go a && go b
    | EOpt a | ERep a | ERepPlus a => go a
    | _ => true
    end.

Definition rule_wf (g : list (rule * modifier * expr)) (x : rule * modifier * expr) : bool :=
  match x with
  | (r, MNormal, body) => negb (is_implicit r) && rx_wf g (length g) body
  | (r, MSilent, body) => is_implicit r || rx_wf g (length g) body
  | (r, MAtomic, _) => negb (is_implicit r)
  | _ => false
  end.

Definition grammar_wf (g : list (rule * modifier * expr)) : bool :=
  implicit_silent g && forallb (rule_wf g) g &&
  match lookup_rule R_EOI g with None => true | Some _ => false end.

Lemma grammar_is_wf : grammar_wf grammar = true.
Proof. vm_compute. reflexivity. Qed.

Lemma lookup_rule_in : forall r g md body, lookup_rule r g = Some (md, body) -> In (r, md, body) g.
Proof.
  intros r g md body. induction g as [| [[r' m'] e'] g IH]; cbn [lookup_rule]; intros H; [discriminate H |].
  destruct (rule_eqb r r') eqn:E.
  - apply rule_eqb_eq in E. subst r'. injection H as -> ->. left. reflexivity.
  - right. apply IH. exact H.
Qed.

Lemma lookup_wf : forall r md body, lookup_rule r grammar = Some (md, body) -> rule_wf grammar (r, md, body) = true.
Proof.
  intros r md body H. pose proof grammar_is_wf as W. unfold grammar_wf in W.
  apply andb_true_iff in W. destruct W as [W _]. apply andb_true_iff in W. destruct W as [_ W].
  rewrite forallb_forall in W. apply W. apply lookup_rule_in. exact H.
Qed.

Lemma eoi_not_a_rule : lookup_rule R_EOI grammar = None.
Proof. vm_compute. reflexivity. Qed.

Inductive Toks : expr -> list tree -> Prop :=
| T_str : forall s, Toks (EStr s) []
| T_insens : forall s, Toks (EInsens s) []
| T_range : forall a b, Toks (ERange a b) []
| T_builtin : forall b, b <> B_EOI -> Toks (EBuiltin b) []
| T_eoi : Toks (EBuiltin B_EOI) [Node R_EOI [] []]
| T_silent : forall r body l, lookup_rule r grammar = Some (MSilent, body) -> Toks body l -> Toks (ERule r) l
| T_normal : forall r body txt ks, lookup_rule r grammar = Some (MNormal, body) -> Toks body ks ->
    Toks (ERule r) [Node r txt ks]
| T_atomic : forall r body txt, lookup_rule r grammar = Some (MAtomic, body) -> Toks (ERule r) [Node r txt []]
| T_seq : forall a b l1 l2, Toks a l1 -> Toks b l2 -> Toks (ESeq a b) (l1 ++ l2)
| T_choice_l : forall a b l, Toks a l -> Toks (EChoice a b) l
| T_choice_r : forall a b l, Toks b l -> Toks (EChoice a b) l
| T_opt_some : forall a l, Toks a l -> Toks (EOpt a) l
| T_opt_none : forall a, Toks (EOpt a) []
| T_rep_nil : forall a, Toks (ERep a) []
| T_rep_cons : forall a l1 l2, Toks a l1 -> Toks (ERep a) l2 -> Toks (ERep a) (l1 ++ l2)
| T_plus : forall a l1 l2, Toks a l1 -> Toks (ERep a) l2 -> Toks (ERepPlus a) (l1 ++ l2)
| T_pos : forall a, Toks (EPos a) []
| T_neg : forall a, Toks (ENeg a) []
| T_implicit : forall r, is_implicit r = true -> Toks (ERule r) [].   (* WHITESPACE / COMMENT: bodies are atomic *)

Lemma kids_rseq : forall a b l1 l2, Kids a l1 -> Kids b l2 -> Kids (rseq a b) (l1 ++ l2).
Proof.
  intros a b l1 l2 Ha Hb. destruct (rseq_cases a b) as [E | [[[-> | ->] _] | [[-> E] | [-> E]]]]; try rewrite E.
  - constructor; assumption.
  - destruct (kids_none _ Ha).
  - destruct (kids_none _ Hb).
  - apply kids_eps_inv in Ha. subst l1. exact Hb.
  - apply kids_eps_inv in Hb. subst l2. rewrite app_nil_r. exact Ha.
Qed.

Lemma kids_ralt_l : forall a b l, Kids a l -> Kids (ralt a b) l.
Proof.
  intros a b l Ha. destruct (ralt_cases a b) as [E | [[-> _] | [_ E]]]; try rewrite E;
    [apply K_altl, Ha | destruct (kids_none _ Ha) | exact Ha].
Qed.

Lemma kids_ralt_r : forall a b l, Kids b l -> Kids (ralt a b) l.
Proof.
  intros a b l Hb. destruct (ralt_cases a b) as [E | [[_ E] | [-> _]]]; try rewrite E;
    [apply K_altr, Hb | exact Hb | destruct (kids_none _ Hb)].
Qed.

Lemma kids_rstar_nil : forall a, Kids (rstar a) [].
Proof. intros a. destruct (rstar_cases a) as [E | [_ E]]; rewrite E; constructor. Qed.

Lemma kids_rstar_cons : forall a l1 l2, Kids a l1 -> Kids (rstar a) l2 -> Kids (rstar a) (l1 ++ l2).
Proof.
  intros a l1 l2 Ha Hs. destruct (rstar_cases a) as [E | [[-> | ->] E]]; rewrite E in *.
  - constructor; assumption.
  - destruct (kids_none _ Ha).
  - apply kids_eps_inv in Ha. subst l1. exact Hs.
Qed.

Lemma rx_of_unfold : forall g fuel e,
  rx_of g fuel e =
  match e with
  | EStr _ | EInsens _ | ERange _ _ => REps
  | EBuiltin B_EOI => RSym R_EOI
  | EBuiltin _ => REps
  | ERule r =>
      match lookup_rule r g with
      | Some (MSilent, body) => match fuel with S f => rx_of g f body | O => RNone end
      | _ => RSym r
      end
  | ESeq a b => rseq (rx_of g fuel a) (rx_of g fuel b)
  | EChoice a b => ralt (rx_of g fuel a) (rx_of g fuel b)
  | EOpt a => ralt (rx_of g fuel a) REps
  | ERep a => rstar (rx_of g fuel a)
  | ERepPlus a => rseq (rx_of g fuel a) (rstar (rx_of g fuel a))
  | EPos _ | ENeg _ => REps
  end.
Proof. intros g fuel e. destruct fuel; destruct e; reflexivity. Qed.

Lemma rx_wf_unfold : forall g fuel e,
  rx_wf g fuel e =
  match e with
  | ERule r =>
      negb (is_implicit r) &&
      match lookup_rule r g with
      | Some (MSilent, body) => match fuel with S f => rx_wf g f body | O => false end
      | Some (MNormal, _) | Some (MAtomic, _) => true
      | _ => false
      end
  | ESeq a b | EChoice a b => rx_wf g fuel a && rx_wf g fuel b
  | EOpt a | ERep a | ERepPlus a => rx_wf g fuel a
  | _ => true
  end.
Proof. intros g fuel e. destruct fuel; destruct e; reflexivity. Qed.

Lemma toks_kids : forall e l, Toks e l -> forall n, rx_wf grammar n e = true -> Kids (rx_of grammar n e) l.
Proof.
  intros e l H. induction H; intros n W; rewrite rx_of_unfold; rewrite rx_wf_unfold in W.
  - constructor.
  - constructor.
  - constructor.
  - destruct b; try constructor. congruence.
  - constructor; [reflexivity |]. constructor. unfold child_rx, child_rx_in. rewrite eoi_not_a_rule. constructor.
  - rewrite H in *. apply andb_true_iff in W. destruct W as [_ W]. destruct n as [| n]; [discriminate W |].
    apply IHToks. exact W.
  - rewrite H. constructor; [reflexivity |]. constructor. unfold child_rx, child_rx_in. rewrite H.
    apply IHToks. pose proof (lookup_wf _ _ _ H) as R. cbn [rule_wf] in R.
    apply andb_true_iff in R. tauto.
  - rewrite H. constructor; [reflexivity |]. constructor. unfold child_rx, child_rx_in. rewrite H. constructor.
  - apply andb_true_iff in W. destruct W as [Wa Wb]. apply kids_rseq; auto.
  - apply andb_true_iff in W. destruct W as [Wa Wb]. apply kids_ralt_l; auto.
  - apply andb_true_iff in W. destruct W as [Wa Wb]. apply kids_ralt_r; auto.
  - apply kids_ralt_l; auto.
  - apply kids_ralt_r. constructor.
  - apply kids_rstar_nil.
  - apply kids_rstar_cons; [apply IHToks1; exact W |].
    specialize (IHToks2 n). rewrite rx_of_unfold, rx_wf_unfold in IHToks2. apply IHToks2. exact W.
  - apply kids_rseq; [apply IHToks1; exact W |].
    specialize (IHToks2 n). rewrite rx_of_unfold, rx_wf_unfold in IHToks2. apply IHToks2. exact W.
  - constructor.
  - constructor.
  - rewrite H in W. discriminate W.
Qed.

Lemma toks_rule_shape : forall r t, Toks (ERule r) [t] -> is_implicit r = false ->
  (forall md body, lookup_rule r grammar = Some (md, body) -> md <> MSilent) -> Shape t /\ root t = r.
Proof.
  intros r t H Hi Hns.
  inversion H as [| | | | | r0 body l L HT | r0 body txt ks L HT | r0 body txt L | | | | | | | | | | |]; subst.
  - exfalso. eapply Hns; [exact L | reflexivity].
  - split; [| reflexivity]. constructor. unfold child_rx, child_rx_in. rewrite L.
    apply toks_kids; [exact HT |]. pose proof (lookup_wf _ _ _ L) as R. cbn [rule_wf] in R.
    apply andb_true_iff in R. tauto.
  - split; [| reflexivity]. constructor. unfold child_rx, child_rx_in. rewrite L. constructor.
Qed.

Definition quiet (m : mode) (la : bool) : bool := la || mode_is_atomic m.

Definition good (m : mode) (la : bool) (t : task) (toks : list tree) : Prop :=
  if quiet m la then toks = [] else
  match t with
  | TExpr e => Toks e toks
  | TCall r => if is_implicit r then toks = [] else Toks (ERule r) toks
  | TStep (LkBody a) => Toks a toks
  | TLoop (LkBody a) => Toks (ERep a) toks
  | _ => toks = []
  end.

(* the pairs of a task when pairs are produced: `good` says nothing when quiet, and this otherwise *)
Definition loud (t : task) (toks : list tree) : Prop :=
  match t with
  | TExpr e => Toks e toks
  | TCall r => if is_implicit r then toks = [] else Toks (ERule r) toks
  | TStep (LkBody a) => Toks a toks
  | TLoop (LkBody a) => Toks (ERep a) toks
  | _ => toks = []
  end.

Definition nil_out (o : option pout) : Prop := match o with Some (_, _, t) => t = [] | None => True end.

Lemma match_range_nil : forall a b inp pos, nil_out (match_range a b inp pos).
Proof.
  intros a b inp pos. unfold match_range. destruct inp as [| c r]; [exact I |].
  destruct ((a <=? c) && (c <=? b)); simpl; auto.
Qed.

Lemma or_else_nil : forall x y, nil_out x -> nil_out y -> nil_out (or_else x y).
Proof. intros [[[? ?] ?] |] y Hx Hy; simpl; auto. Qed.

Lemma match_builtin_nil : forall b inp pos, nil_out (match_builtin b inp pos).
Proof.
  intros b inp pos. destruct b; cbn [match_builtin]; repeat apply or_else_nil; try apply match_range_nil; try exact I.
  - destruct inp; simpl; auto.
  - destruct (pos =? 0); simpl; auto.
  - (* NEWLINE: the patterns 10 and 13 are matched bit by bit *)
    destruct inp as [| [| c | c] r]; simpl; auto.
    repeat (destruct c as [c | c |]; simpl; auto).
    destruct r as [| [| c | c] r]; simpl; auto.
    repeat (destruct c as [c | c |]; simpl; auto).
Qed.

(* results are built from the results of sub-runs in the same mode in three ways: nothing, the pairs of
   one sub-run, the pairs of two sub-runs in sequence; in each it is enough to look at the loud case *)
Lemma good0 : forall m la t, loud t [] -> good m la t [].
Proof. intros m la t H. unfold good. destruct (quiet m la); [reflexivity | exact H]. Qed.

Lemma good1 : forall m la t1 t l, (loud t1 l -> loud t l) -> good m la t1 l -> good m la t l.
Proof. intros m la t1 t l F. unfold good. destruct (quiet m la); [auto | exact F]. Qed.

Lemma good2 : forall m la t1 t2 t l1 l2, (loud t1 l1 -> loud t2 l2 -> loud t (l1 ++ l2)) ->
  good m la t1 l1 -> good m la t2 l2 -> good m la t (l1 ++ l2).
Proof. intros m la t1 t2 t l1 l2 F. unfold good. destruct (quiet m la); [intros -> ->; reflexivity | exact F]. Qed.

Lemma good_quiet_nil : forall m la t, quiet m la = true -> good m la t [].
Proof. intros m la t Q. unfold good. rewrite Q. reflexivity. Qed.

Lemma good_quiet_inv : forall m la t toks, quiet m la = true -> good m la t toks -> toks = [].
Proof. intros m la t toks Q. unfold good. rewrite Q. auto. Qed.

Lemma implicit_ws : is_implicit R_WHITESPACE = true. Proof. reflexivity. Qed.
Lemma implicit_cm : is_implicit R_COMMENT = true. Proof. reflexivity. Qed.

(* the tasks of the implicit skipping produce no pairs *)
Definition silent_task (t : task) : Prop :=
  match t with
  | TCall r => is_implicit r = true
  | TStep (LkBody _) | TLoop (LkBody _) | TExpr _ => False
  | _ => True
  end.

Lemma good_silent : forall m la t toks, silent_task t -> good m la t toks -> toks = [].
Proof.
  intros m la t toks Ht. unfold good. destruct (quiet m la); [auto |].
  destruct t as [e | r | [a | | |] | [a | | |] |]; cbn [silent_task] in Ht; try contradiction; auto.
  rewrite Ht. auto.
Qed.

Lemma good_silent2 : forall m la t1 t2 t l1 l2, silent_task t1 -> silent_task t2 -> loud t [] ->
  good m la t1 l1 -> good m la t2 l2 -> good m la t (l1 ++ l2).
Proof.
  intros m la t1 t2 t l1 l2 S1 S2 L H1 H2. apply good_silent in H1; [| exact S1]. apply good_silent in H2; [| exact S2].
  subst. apply good0, L.
Qed.

(* What a result says about its pairs: P of them when the match succeeded, nothing when it failed or the
   fuel ran out - and the result is no panic.  The interpreter combines results with `then_` and by
   passing a sub-result on; `sat` follows these two. *)
Definition sat (P : list tree -> Prop) (x : pres) : Prop :=
  match x with
  | Ok (Some (_, _, toks)) => P toks
  | Panic _ => False
  | _ => True
  end.

Lemma sat_impl : forall (P Q : list tree -> Prop) x, (forall t, P t -> Q t) -> sat P x -> sat Q x.
Proof. intros P Q [[[[i p] t] |] | s |] F; simpl; auto. Qed.

Lemma sat_silent : forall m la t1 t x, silent_task t1 -> loud t [] -> sat (good m la t1) x -> sat (good m la t) x.
Proof.
  intros m la t1 t x S L. apply sat_impl. intros l H. apply good_silent in H; [| exact S]. subst. apply good0, L.
Qed.

Lemma sat_nil : forall (P : list tree -> Prop) o, nil_out o -> P [] -> sat P (Ok o).
Proof. intros P [[[i p] t] |]; simpl; [intros -> H; exact H | auto]. Qed.

Lemma sat_then : forall (P Q R : list tree -> Prop) x k,
  (forall t1 t2, P t1 -> Q t2 -> R (t1 ++ t2)) -> sat P x -> (forall i p, sat Q (k i p)) -> sat R (then_ x k).
Proof.
  intros P Q R [[[[i1 p1] t1] |] | s |] k F Hx Hk; simpl in *; auto.
  specialize (Hk i1 p1). destruct (k i1 p1) as [[[[i2 p2] t2] |] | s |]; simpl in *; auto.
Qed.

Lemma sat_pass : forall (P R : list tree -> Prop) (x : pres) (g : pout -> pres) (y : pres),
  sat P x -> (forall i p t, P t -> sat R (g (i, p, t))) -> sat R y ->
  sat R (match x with Ok (Some o) => g o | Ok None => y | Panic s => Panic s | OutOfFuel => OutOfFuel end).
Proof. intros P R [[[[i p] t] |] | s |] g y Hx Hg Hy; simpl in *; auto. Qed.

Lemma run_sat : forall fuel m la t inp pos, sat (good m la t) (run grammar fuel m la t inp pos).
Proof.
  induction fuel as [| f IH]; intros m la t inp pos; [exact I |].
  assert (SK : forall i p,
    sat (fun l => l = []) (if mode_is_nonatomic m then run grammar f m la TSkip i p else Ok (Some (i, p, [])))).
  { intros i p. destruct (mode_is_nonatomic m); [| reflexivity].
    apply (sat_impl (good m la TSkip)); [| apply IH]. intros l. apply good_silent. exact I. }
  (* a loop: the first step, then the loop again *)
  assert (LOOP : forall k i1 p1 t1, good m la (TStep k) t1 ->
    sat (good m la (TLoop k)) (then_ (Ok (Some (i1, p1, t1))) (fun i p => run grammar f m la (TLoop k) i p))).
  { intros k i1 p1 t1 H. apply (sat_then (good m la (TStep k)) (good m la (TLoop k))); [| exact H | intros; apply IH].
    intros l1 l2. apply good2. destruct k; cbn [loud]; [apply T_rep_cons | intros -> ->; reflexivity ..]. }
  cbn [run]. destruct t as [e | r | k | k |].
  - destruct e as [s | s | a b | r | b | a b | a b | a | a | a | a | a].
    + destruct (strip_prefix false s inp); [apply good0; constructor | exact I].
    + destruct (strip_prefix true s inp); [apply good0; constructor | exact I].
    + apply sat_nil; [apply match_range_nil | apply good0; constructor].
    + apply (sat_impl (good m la (TCall r))); [| apply IH]. intros l. apply good1. cbn [loud].
      destruct (is_implicit r) eqn:Ei; [intros ->; apply T_implicit; exact Ei | auto].
    + destruct b; try (apply sat_nil; [apply match_builtin_nil | apply good0; constructor; discriminate]).
      destruct inp; [| exact I]. unfold sat, good, quiet.
      destruct la; [reflexivity |]. destruct (mode_is_atomic m); cbn [negb andb orb]; [reflexivity | constructor].
    + apply (sat_then (good m la (TExpr a)) (good m la (TExpr b))); [intros l1 l2; apply good2, T_seq | apply IH |].
      intros i1 p1. apply (sat_then (fun l => l = []) (good m la (TExpr b))); [| apply SK | intros; apply IH].
      intros l1 l2 -> H. exact H.
    + apply (sat_pass (good m la (TExpr a)) _ _ (fun o => Ok (Some o))); [apply IH | |].
      * intros i p l. apply good1, T_choice_l.
      * apply (sat_impl (good m la (TExpr b))); [| apply IH]. intros l. apply good1, T_choice_r.
    + apply (sat_pass (good m la (TExpr a)) _ _ (fun o => Ok (Some o))); [apply IH | |].
      * intros i p l. apply good1, T_opt_some.
      * apply good0, T_opt_none.
    + apply (sat_pass (good m la (TExpr a)) _ _
               (fun o => let '(i1, p1, t1) := o in
                         then_ (Ok (Some (i1, p1, t1))) (fun i p => run grammar f m la (TLoop (LkBody a)) i p)));
        [apply IH | | apply good0, T_rep_nil].
      intros i p l H. apply (sat_impl (good m la (TLoop (LkBody a)))); [| exact (LOOP (LkBody a) i p l H)].
      intros l'. apply good1. exact (fun X => X).
    + apply (sat_impl (good m la (TExpr (ESeq a (ERep a))))); [| apply IH]. intros l. apply good1. cbn [loud]. intros H.
      inversion H as [| | | | | | | | x y l1 l2 Ha Hb | | | | | | | | | |]; subst. apply T_plus; assumption.
    + apply (sat_pass (good m true (TExpr a)) _ _ (fun _ => Ok (Some (inp, pos, [])))); [apply IH | | exact I].
      intros. apply good0. constructor.
    + apply (sat_pass (good m true (TExpr a)) _ _ (fun _ => Ok None)); [apply IH | intros; exact I |].
      apply good0. constructor.
  - destruct (lookup_rule r grammar) as [[md body] |] eqn:L; [| exact I].
    pose proof (lookup_wf _ _ _ L) as W. cbn [rule_wf] in W.
    destruct md; try discriminate W.
    + apply andb_true_iff in W. destruct W as [Wi _]. apply negb_true_iff in Wi. rewrite Wi.
      pose proof (IH m la (TExpr body) inp pos) as E.
      destruct (run grammar f m la (TExpr body) inp pos) as [[[[i1 p1] t1] |] | |]; auto.
      unfold sat, good, quiet in *. rewrite Wi.
      destruct la; cbn [negb andb orb] in *; [reflexivity |].
      destruct (mode_is_atomic m); cbn [negb]; [reflexivity |].
      eapply T_normal; [exact L | exact E].
    + destruct (is_implicit r) eqn:Ei.
      * pose proof (IH MdAtomic la (TExpr body) inp pos) as E.
        destruct (run grammar f MdAtomic la (TExpr body) inp pos) as [[[[i1 p1] t1] |] | |]; auto.
        apply good_quiet_inv in E; [| apply orb_true_r]. subst.
        apply good0. cbn [loud]. rewrite Ei. reflexivity.
      * pose proof (IH m la (TExpr body) inp pos) as E.
        destruct (run grammar f m la (TExpr body) inp pos) as [[[[i1 p1] t1] |] | |]; auto.
        revert E. apply good1. cbn [loud]. rewrite Ei. apply T_silent, L.
    + apply negb_true_iff in W.
      pose proof (IH MdAtomic la (TExpr body) inp pos) as E.
      destruct (run grammar f MdAtomic la (TExpr body) inp pos) as [[[[i1 p1] t1] |] | |]; auto.
      apply good_quiet_inv in E; [| apply orb_true_r]. subst t1.
      unfold sat, good, quiet. rewrite W.
      destruct la; cbn [negb andb orb] in *; [reflexivity |].
      destruct (mode_is_atomic m); cbn [negb]; [reflexivity |].
      eapply T_atomic. exact L.
  - destruct k as [a | | |].
    + apply (sat_then (fun l => l = []) (good m la (TExpr a))); [| apply SK | intros; apply IH].
      intros l1 l2 -> H. exact H.
    + apply (sat_silent m la (TCall R_WHITESPACE)); [reflexivity | reflexivity | apply IH].
    + apply (sat_silent m la (TCall R_COMMENT)); [reflexivity | reflexivity | apply IH].
    + apply (sat_then (good m la (TCall R_COMMENT)) (good m la (TLoop LkWs))); [| apply IH | intros; apply IH].
      intros l1 l2. apply good_silent2; [reflexivity | exact I | reflexivity].
  - apply (sat_pass (good m la (TStep k)) _ _
             (fun o => let '(i1, p1, t1) := o in
                       then_ (Ok (Some (i1, p1, t1))) (fun i p => run grammar f m la (TLoop k) i p)));
      [apply IH | intros i p l; apply LOOP |].
    apply good0. destruct k; cbn [loud]; [apply T_rep_nil | reflexivity ..].
  - destruct (has_rule grammar R_WHITESPACE); destruct (has_rule grammar R_COMMENT).
    + apply (sat_then (good m la (TLoop LkWs)) (good m la (TLoop LkCmWs))); [| apply IH | intros; apply IH].
      intros l1 l2. apply good_silent2; [exact I | exact I | reflexivity].
    + apply (sat_silent m la (TLoop LkWs)); [exact I | reflexivity | apply IH].
    + apply (sat_silent m la (TLoop LkCm)); [exact I | reflexivity | apply IH].
    + apply good0. reflexivity.
Qed.

Lemma run_good : forall fuel m la t inp pos i p toks,
  run grammar fuel m la t inp pos = Ok (Some (i, p, toks)) -> good m la t toks.
Proof. intros fuel m la t inp pos i p toks H. pose proof (run_sat fuel m la t inp pos) as S. rewrite H in S. exact S. Qed.

Lemma gsd_rule_normal : exists body, lookup_rule R_gsd grammar = Some (MNormal, body).
Proof. eexists. vm_compute. reflexivity. Qed.

Theorem peg_tree_shape : forall text t, peg_parse text = Ok (Some t) -> Shape t /\ root t = R_gsd.
Proof.
  intros text t H. unfold peg_parse in H.
  destruct (run grammar (peg_fuel text) MdNonAtomic false (TCall R_gsd) text 0)
    as [[[[i p] toks] |] | |] eqn:E; try discriminate H.
  destruct toks as [| t0 [| t1 r]]; try discriminate H. injection H as ->.
  apply run_good in E. unfold good in E. cbn [quiet mode_is_atomic orb] in E.
  change (is_implicit R_gsd) with false in E. cbv iota in E.
  apply toks_rule_shape; [exact E | reflexivity |].
  intros md body L. destruct gsd_rule_normal as [b Lb]. rewrite Lb in L. injection L as <- _. discriminate.
Qed.

Theorem peg_then_interp_no_panic : forall text t, peg_parse text = Ok (Some t) -> no_panic (interp t).
Proof. intros text t H. apply interp_no_panic. apply (peg_tree_shape text t H). Qed.

Definition npr (x : pres) : Prop := forall s, x <> Panic s.

Lemma npr_fuel : npr OutOfFuel. Proof. intros s H. discriminate H. Qed.

Lemma npr_pass : forall (x : pres) (f : pout -> pres) (y : pres),
  npr x -> (forall o, npr (f o)) -> npr y ->
  npr (match x with Ok (Some o) => f o | Ok None => y | Panic s => Panic s | OutOfFuel => OutOfFuel end).
Proof.
  intros x f y Hx Hf Hy s. destruct x as [[o |] | s' |]; [apply Hf | apply Hy | exact (Hx s) | apply npr_fuel].
Qed.

Lemma run_npr : forall fuel m la t inp pos, npr (run grammar fuel m la t inp pos).
Proof.
  intros fuel m la t inp pos s E. pose proof (run_sat fuel m la t inp pos) as S. rewrite E in S. exact S.
Qed.

(* the text-level model never has a panic outcome: description, error, or (unproved to be impossible) out of fuel *)
Theorem gsd_model_never_panics : forall text s, gsd_model text <> Panic s.
Proof.
  intros text s. unfold gsd_model.
  destruct (peg_parse text) as [[t |] | s' |] eqn:E; try (intros H; discriminate H).
  - pose proof (peg_then_interp_no_panic text t E) as N.
    destruct (interp t); cbn [to_res no_panic] in *; [intros H; discriminate H | intros H; discriminate H | contradiction].
  - exfalso. unfold peg_parse in E.
    pose proof (run_npr (peg_fuel text) MdNonAtomic false (TCall R_gsd) text 0) as N.
    destruct (run grammar (peg_fuel text) MdNonAtomic false (TCall R_gsd) text 0) as [[[[i p] toks] |] | s'' |];
      try discriminate E; [destruct toks as [| ? [| ? ?]]; discriminate E | exact (N s'' eq_refl)].
Qed.
