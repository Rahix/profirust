(* C19 - the interpretation step of the GSD parser cannot panic on a pair tree that has the shape the
   grammar prescribes (for ALL such trees). *)
From PB Require Import Common GsdGrammar GsdTables GsdInterp GsdShape C19Shape.

Notation np := no_panic.

Lemma np_bind : forall {A B} (a : pr A) (f : A -> pr B),
  np a -> (forall x, a = POk x -> np (f x)) -> np (pbind a f).
Proof. intros A B a f Ha Hf. destruct a; cbn; auto. Qed.

Definition is_num (r : rule) : Prop := r = R_hex_number \/ r = R_dec_number.

Lemma parse_number_np : forall m p, np (parse_number m p).
Proof.
  intros m p. unfold parse_number. destruct (root p); cbv iota; try exact I;
    destruct (from_str_radix _ _ _ _ _); try exact I; destruct (_ <=? _); exact I.
Qed.

Lemma map_parse_number_np : forall m l, np (map_pr (parse_number m) l).
Proof.
  intros m l. induction l as [| a l IH]; cbn [map_pr]; [exact I |].
  apply np_bind; [apply parse_number_np | intros x _].
  apply np_bind; [exact IH | intros y _; exact I].
Qed.

Lemma parse_number_list_np : forall m p, np (parse_number_list m p).
Proof.
  intros m p. unfold parse_number_list. destruct (root p); cbv iota; try exact I.
  - apply np_bind; [apply parse_number_np | intros x _; exact I].
  - apply np_bind; [apply parse_number_np | intros x _; exact I].
  - apply map_parse_number_np.
Qed.

Lemma parse_bool_np : forall p, np (parse_bool p).
Proof. intros p. unfold parse_bool. apply np_bind; [apply parse_number_np | intros x _; exact I]. Qed.

Lemma parse_string_np : forall p, np (parse_string p).
Proof. intros p. unfold parse_string. destruct (root p); exact I. Qed.

Lemma parse_signed_np : forall p, is_num (root p) -> np (parse_signed p).
Proof.
  intros p [H | H]; unfold parse_signed; rewrite H; cbv iota;
    destruct (from_str_radix _ _ _ _ _); exact I.
Qed.

Lemma map_parse_signed_np : forall l, Forall (fun c => is_num (root c)) l -> np (map_pr parse_signed l).
Proof.
  intros l H. induction H as [| a l Ha Hl IH]; cbn [map_pr]; [exact I |].
  apply np_bind; [apply parse_signed_np; exact Ha | intros x _].
  apply np_bind; [exact IH | intros y _; exact I].
Qed.

Lemma next_indexed_np : forall l, np (next_indexed l).
Proof. intros [| a l]; exact I. Qed.

Definition NUM : rx := RAlt (RSym R_hex_number) (RSym R_dec_number).

Lemma kids_num_inv : forall l, Kids NUM l -> exists c, l = [c] /\ is_num (root c) /\ Shape c.
Proof.
  intros l H. apply kids_alt_inv in H. destruct H as [H | H];
    apply kids_sym_inv in H; destruct H as [c [-> [Hr Hs]]]; exists c; (split; [reflexivity |]); (split; [| exact Hs]).
  - left; exact Hr.
  - right; exact Hr.
Qed.

Lemma kids_roots : forall (P : rule -> Prop) re l, Kids re l -> (forall r, In r (syms re) -> P r) ->
  Forall (fun c => P (root c) /\ Shape c) l.
Proof.
  intros P re l H HP. eapply Forall_impl; [| exact (kids_syms _ _ H)]. intros c [Hi Hs]. split; [apply HP, Hi | exact Hs].
Qed.

(* reduce `child_rx <rule>` to the expression computed from the grammar *)
Ltac crx H :=
  match type of H with
  | Kids (child_rx ?r) ?l =>
      let e := eval vm_compute in (child_rx r) in change (Kids e l) in H
  end.

(* full inversion of a star-free expression *)
Ltac kinv H :=
  lazymatch type of H with
  | Kids REps _ => apply kids_eps_inv in H; subst
  | Kids (RAlt (RSym R_hex_number) (RSym R_dec_number)) _ =>
      let c := fresh "n" in let Hr := fresh "Hn" in let Hs := fresh "Hs" in
      apply kids_num_inv in H; destruct H as [c [-> [Hr Hs]]]
  | Kids (RSym _) _ =>
      let c := fresh "c" in let Hr := fresh "Hr" in let Hs := fresh "Hs" in
      apply kids_sym_inv in H; destruct H as [c [-> [Hr Hs]]]
  | Kids (RSeq _ _) _ =>
      let l1 := fresh "la" in let l2 := fresh "lb" in let H1 := fresh "Ka" in let H2 := fresh "Kb" in
      apply kids_seq_inv in H; destruct H as [l1 [l2 [-> [H1 H2]]]]; kinv H1; kinv H2
  | Kids (RAlt _ _) _ =>
      let H1 := fresh "K" in apply kids_alt_inv in H; destruct H as [H1 | H1]; kinv H1
  | _ => idtac
  end.

(* inversion of the head of a sequence only; the tail stays as hypothesis T *)
Ltac khead H T :=
  lazymatch type of H with
  | Kids (RSeq _ _) _ =>
      let l1 := fresh "la" in let l2 := fresh "lb" in let H1 := fresh "Ka" in
      apply kids_seq_inv in H; destruct H as [l1 [l2 [-> [H1 T]]]]; kinv H1
  end.

(* a pair whose rule is known: expose the constructor *)
Ltac known c Hr :=
  let rc := fresh "r" in let tc := fresh "t" in let kc := fresh "k" in
  destruct c as [rc tc kc]; cbn [root] in Hr; subst rc.

(* one statement of the parser: reduce the plumbing, then peel off a leading parse_* / next_* call, which cannot panic *)
Ltac step :=
  cbn [next_unwrap next_indexed pbind fst snd root kids text app];
  lazymatch goal with
  | |- no_panic (POk _) => exact I
  | |- no_panic PErr => exact I
  | |- no_panic (pbind (parse_number _ _) _) => apply np_bind; [apply parse_number_np | intros ? _]
  | |- no_panic (pbind (parse_string _) _) => apply np_bind; [apply parse_string_np | intros ? _]
  | |- no_panic (pbind (parse_bool _) _) => apply np_bind; [apply parse_bool_np | intros ? _]
  | |- no_panic (pbind (parse_number_list _ _) _) => apply np_bind; [apply parse_number_list_np | intros ? _]
  | |- no_panic (pbind (next_indexed _) _) => apply np_bind; [apply next_indexed_np | intros [? ?] _]
  | |- no_panic (pbind (parse_signed _) _) => apply np_bind; [apply parse_signed_np; assumption | intros ? _]
  end.

Lemma prm_text_values_np : forall l acc,
  Forall (fun c => root c = R_prm_text_value /\ Shape c) l -> np (prm_text_values acc l).
Proof.
  induction l as [| vp l IH]; intros acc HF; cbn [prm_text_values]; [exact I |].
  inversion HF as [| ? ? [Hr Hs] HF']; subst.
  known vp Hr. cbn [root kids]. cbv iota.
  apply shape_kids in Hs. cbn [root kids] in Hs. crx Hs. kinv Hs. known c Hr.
  repeat step. apply IH. exact HF'.
Qed.

Lemma do_prm_text_np : forall s cs, Kids (child_rx R_prm_text) cs -> np (do_prm_text s cs).
Proof.
  intros s cs H. crx H. khead H T. unfold do_prm_text. repeat step.
  apply np_bind; [| intros ? _; exact I].
  apply prm_text_values_np, (kids_roots (fun r => r = R_prm_text_value) _ _ T). intros r [<- | [<- | []]]; reflexivity.
Qed.

Lemma data_type_of_np : forall p, root p = R_prm_data_type_name -> Shape p -> np (data_type_of p).
Proof.
  intros p Hr Hs. known p Hr. unfold data_type_of. cbn [root kids]. cbv iota.
  apply shape_kids in Hs. cbn [root kids] in Hs. crx Hs. kinv Hs.
  - (* bit *)
    known c Hr. apply shape_kids in Hs. cbn [root kids] in Hs. crx Hs. kinv Hs. repeat step.
  - (* bit_area *)
    known c Hr. apply shape_kids in Hs. cbn [root kids] in Hs. crx Hs. kinv Hs. repeat step.
  - (* identifier *)
    known c Hr. repeat step. cbn [next_unwrap pbind root text]. destruct (assoc_str (to_lower t0) dtype_table); exact I.
Qed.

Definition def_option_rules : list rule :=
  [R_prm_data_value_range; R_prm_data_value_set; R_prm_text_ref; R_prm_data_changeable; R_prm_data_visible].

Lemma kids_star_num : forall l, Kids (RStar NUM) l -> Forall (fun c => is_num (root c)) l.
Proof.
  intros l H. eapply Forall_impl; [| apply (kids_roots is_num _ _ H)]; [intros c [Hc _]; exact Hc |].
  intros r [<- | [<- | []]]; [left | right]; reflexivity.
Qed.

Lemma def_options_np : forall l texts a,
  Forall (fun c => In (root c) def_option_rules /\ Shape c) l -> np (def_options texts a l).
Proof.
  induction l as [| p l IH]; intros texts a HF; cbn [def_options]; [exact I |].
  inversion HF as [| ? ? [Hi HS] HF']; subst.
  apply shape_kids in HS.
  destruct p as [r t k]. cbn [root kids] in *.
  destruct Hi as [<- | [<- | [<- | [<- | [<- | []]]]]]; cbv iota; crx HS.
  - kinv HS. repeat step. apply IH; exact HF'.
  - khead HS T. apply np_bind; [| intros ? _; apply IH; exact HF'].
    apply map_parse_signed_np. constructor; [assumption | apply kids_star_num; exact T].
  - kinv HS. repeat step. destruct (zmap_get _ _); [apply IH; exact HF' | exact I].
  - kinv HS. repeat step. apply IH; exact HF'.
  - kinv HS. repeat step. apply IH; exact HF'.
Qed.

Lemma do_ext_user_prm_data_np : forall s cs, Kids (child_rx R_ext_user_prm_data) cs -> np (do_ext_user_prm_data s cs).
Proof.
  intros s cs H. crx H.
  khead H T1. khead T1 T2. khead T2 T3. khead T3 T4.
  unfold do_ext_user_prm_data. repeat step.
  apply np_bind; [apply data_type_of_np; assumption | intros ? _].
  repeat step.
  apply np_bind; [| intros ? _; exact I].
  apply def_options_np, (kids_roots (fun r => In r def_option_rules) _ _ T4). unfold def_option_rules. cbn [syms app In]. tauto.
Qed.

Lemma area_values_np : forall l acc,
  Forall (fun c => root c = R_unit_diag_area_value /\ Shape c) l -> np (area_values acc l).
Proof.
  induction l as [| vp l IH]; intros acc HF; cbn [area_values]; [exact I |].
  inversion HF as [| ? ? [Hr HS] HF']; subst.
  known vp Hr. cbn [root kids]. cbv iota.
  apply shape_kids in HS. cbn [root kids] in HS. crx HS. kinv HS. known c Hr.
  repeat step. apply IH. exact HF'.
Qed.

Lemma do_unit_diag_area_np : forall s cs, Kids (child_rx R_unit_diag_area) cs -> np (do_unit_diag_area s cs).
Proof.
  intros s cs H. crx H. khead H T1. khead T1 T2. unfold do_unit_diag_area. repeat step.
  apply np_bind; [| intros ? _; exact I].
  apply area_values_np, (kids_roots (fun r => r = R_unit_diag_area_value) _ _ T2). intros r [<- | [<- | []]]; reflexivity.
Qed.

Lemma setting_two_kids : forall cs, Kids (child_rx R_setting) cs -> exists a b r, cs = a :: b :: r.
Proof.
  intros cs H. crx H. kinv H; cbn [app]; eexists; eexists; eexists; reflexivity.
Qed.

Lemma module_setting_np : forall defs a cs, Kids (child_rx R_setting) cs -> np (module_setting defs a cs).
Proof.
  intros defs a cs H. apply setting_two_kids in H. destruct H as [kp [vp [r ->]]].
  unfold module_setting. cbn [next_unwrap pbind].
  repeat (match goal with |- no_panic (if ?b then _ else _) => destruct b end); repeat step.
  destruct (zmap_get _ _); exact I.
Qed.

Definition module_item_rules : list rule := [R_setting; R_module_reference; R_data_area].

Lemma module_items_np : forall l defs a,
  Forall (fun c => In (root c) module_item_rules /\ Shape c) l -> np (module_items defs a l).
Proof.
  induction l as [| p l IH]; intros defs a HF; cbn [module_items]; [exact I |].
  inversion HF as [| ? ? [Hi HS] HF']; subst.
  apply shape_kids in HS.
  destruct p as [r t k]. cbn [root kids] in *.
  destruct Hi as [<- | [<- | [<- | []]]]; cbv iota.
  - apply np_bind; [apply module_setting_np; exact HS | intros ? _; apply IH; exact HF'].
  - crx HS. kinv HS. repeat step. apply IH; exact HF'.
  - apply IH; exact HF'.
Qed.

Lemma do_module_np : forall s cs, Kids (child_rx R_module) cs -> np (do_module s cs).
Proof.
  intros s cs H. crx H. khead H T1. khead T1 T2. unfold do_module. repeat step.
  apply np_bind; [| intros ? _; exact I].
  apply module_items_np, (kids_roots (fun r => In r module_item_rules) _ _ T2). unfold module_item_rules. cbn [syms app In]. tauto.
Qed.

Lemma slot_set_np : forall l ms w, np (slot_set ms l w).
Proof.
  induction l as [| p l IH]; intros ms w; cbn [slot_set]; [exact I |].
  step. destruct (find_module ms _).
  - apply np_bind; [apply IH | intros ? _; exact I].
  - apply IH.
Qed.

Lemma do_slot_np : forall s cs, Kids (child_rx R_slot) cs -> np (do_slot s cs).
Proof.
  intros s cs H. crx H. khead H T1. khead T1 T2. khead T2 T3. unfold do_slot. cbv zeta. repeat step.
  apply kids_alt_inv in T3. destruct T3 as [T3 | T3]; apply kids_sym_inv in T3; destruct T3 as [sp [-> [Hsp Ssp]]];
    known sp Hsp; cbn [next_unwrap pbind root kids]; cbv iota.
  - (* range *)
    apply shape_kids in Ssp. cbn [root kids] in Ssp. crx Ssp. kinv Ssp.
    apply np_bind; [repeat step | intros ? _]. destruct (find_module _ _); exact I.
  - (* set *)
    apply np_bind; [apply slot_set_np | intros ? _]. destruct (find_module _ _); exact I.
Qed.

Lemma do_slots_np : forall l s, Forall (fun c => root c = R_slot /\ Shape c) l -> np (do_slots s l).
Proof.
  induction l as [| p l IH]; intros s HF; cbn [do_slots]; [exact I |].
  inversion HF as [| ? ? [Hr HS] HF']; subst.
  known p Hr. cbn [root kids]. cbv iota. apply shape_kids in HS. cbn [root kids] in HS.
  apply np_bind; [apply do_slot_np; exact HS | intros ? _; apply IH; exact HF'].
Qed.

Lemma do_special_np : forall sp s vp pairs, np (do_special sp s vp pairs).
Proof.
  intros sp s vp pairs. destruct sp; unfold do_special; cbv zeta; repeat step;
    try (destruct (s_legacy s); repeat step);
    try (match goal with |- no_panic (if ?b then _ else _) => destruct b end; exact I);
    try (destruct (zmap_get _ _); exact I).
Qed.

Lemma do_action_np : forall a s vp pairs, np (do_action a s vp pairs).
Proof.
  intros a s vp pairs. destruct a; unfold do_action; cbv zeta; repeat step. apply do_special_np.
Qed.

Lemma do_setting_np : forall s cs, Kids (child_rx R_setting) cs -> np (do_setting s cs).
Proof.
  intros s cs H. apply setting_two_kids in H. destruct H as [kp [vp [r ->]]].
  unfold do_setting. cbn [next_unwrap pbind]. destruct (assoc_str _ _); [apply do_action_np | exact I].
Qed.

Lemma do_statement_np : forall s p, Shape p -> np (do_statement s p).
Proof.
  intros s p HS. apply shape_kids in HS. destruct p as [r t k]. cbn [root kids] in HS.
  unfold do_statement. cbn [root kids]. destruct r; cbv iota; try exact I.
  - apply do_prm_text_np; exact HS.
  - apply do_ext_user_prm_data_np; exact HS.
  - apply do_module_np; exact HS.
  - apply do_slots_np. crx HS. apply (kids_roots (fun r => r = R_slot) _ _ HS). intros r [<- | []]. reflexivity.
  - apply do_unit_diag_area_np; exact HS.
  - apply do_setting_np; exact HS.
Qed.

Lemma do_statements_np : forall l s, Forall Shape l -> np (do_statements s l).
Proof.
  induction l as [| p l IH]; intros s HF; cbn [do_statements]; [exact I |].
  inversion HF as [| ? ? Hp HF']; subst.
  apply np_bind; [apply do_statement_np; exact Hp | intros ? _; apply IH; exact HF'].
Qed.

(* the unwrap at parser.rs `max_modules_span.or(modular_station_span).unwrap()` is dead code:
   without a Max_Module key the value has just been set to 1 *)
Lemma post_np : forall s, np (post s).
Proof.
  intros s. unfold post. cbv zeta.
  destruct (s_maxspan s) eqn:Em.
  - destruct (d_flag _ _); [exact I |]. cbn [orb].
    destruct (negb _); cbn [pbind]; exact I.
  - destruct (d_flag _ _); [exact I |].
    assert (E : forall g, d_num (set_num NF_max_modules 1 g) NF_max_modules = 1) by (intros g; reflexivity).
    rewrite E. cbn [Z.eqb Pos.eqb negb pbind]. exact I.
Qed.

Theorem interp_no_panic : forall t, Shape t -> np (interp t).
Proof.
  intros t HS. unfold interp.
  apply np_bind; [| intros ? _; apply post_np].
  apply do_statements_np. apply shape_kids in HS. eapply kids_shape. exact HS.
Qed.

Corollary interp_total : forall t, Shape t ->
  (exists d w, interp t = POk (d, w)) \/ interp t = PErr.
Proof.
  intros t HS. pose proof (interp_no_panic t HS) as H.
  destruct (interp t) as [[d w] | | s]; [left; eauto | right; reflexivity | destruct H].
Qed.

Corollary interp_checked_no_panic : forall t, shapeb t = true -> np (interp t).
Proof. intros t H. apply interp_no_panic. apply shapeb_sound. exact H. Qed.

Lemma implicit_rules_silent : implicit_silent grammar = true.
Proof. vm_compute. reflexivity. Qed.

Lemma shape_children : forall t : tree, Shape t ->
  Kids (child_rx (root t)) (kids t) /\
  Forall (fun c => In (root c) (syms (child_rx (root t))) /\ Shape c) (kids t).
Proof. intros t H. split; [exact (shape_kids t H) | exact (kids_syms _ _ (shape_kids t H))]. Qed.

Lemma interp_never_panics : forall t : tree, Shape t ->
  (forall s, to_res (interp t) <> Panic s) /\ to_res (interp t) <> OutOfFuel.
Proof.
  intros t H. pose proof (interp_no_panic t H) as N.
  destruct (interp t); cbn [to_res no_panic] in *; split; try intros s0; try discriminate; contradiction.
Qed.
