(* C19 - generic facts about the grammar-derived shape predicate:
   the derivative based checker `shapeb` is sound for `Shape`; every inner pair of a word of `re` has a rule in
   `syms re` and is itself well shaped; inversion lemmas for `Kids`; case lemmas of the smart constructors
   ralt / rseq / rstar. *)
From PB Require Import Common GsdGrammar GsdTables GsdInterp GsdShape.

Lemma index_inj : forall {A} (idx : A -> nat) (all : list A) (d : A),
  (forall a, nth (idx a) all d = a) -> forall a b, idx a = idx b -> a = b.
Proof. intros A idx all d H a b E. rewrite <- (H a), <- (H b), E. reflexivity. Qed.

Lemma rule_index_inj : forall a b : rule, rule_index a = rule_index b -> a = b.
Proof. apply (index_inj rule_index all_rules R_EOI). intros a; destruct a; reflexivity. Qed.

Lemma rule_eqb_eq : forall a b : rule, rule_eqb a b = true -> a = b.
Proof. intros a b H. apply rule_index_inj. apply Nat.eqb_eq. exact H. Qed.

Lemma rule_eqb_refl : forall a : rule, rule_eqb a a = true.
Proof. intros a. apply Nat.eqb_refl. Qed.

Fixpoint tree_ind2 (P : tree -> Prop)
  (H : forall r s cs, Forall P cs -> P (Node r s cs)) (t : tree) : P t :=
  match t with
  | Node r s cs =>
      H r s cs ((fix go (l : list tree) : Forall P l :=
                   match l with
                   | [] => Forall_nil P
                   | c :: l' => Forall_cons c (tree_ind2 P H c) (go l')
                   end) cs)
  end.

Lemma kids_none : forall l, ~ Kids RNone l.
Proof. intros l H. inversion H. Qed.

Lemma kids_eps_inv : forall l, Kids REps l -> l = [].
Proof. intros l H; inversion H; reflexivity. Qed.

Lemma kids_sym_inv : forall r l, Kids (RSym r) l -> exists c, l = [c] /\ root c = r /\ Shape c.
Proof. intros r l H; inversion H; subst. eexists; repeat split; assumption. Qed.

Lemma kids_seq_inv : forall a b l, Kids (RSeq a b) l -> exists l1 l2, l = l1 ++ l2 /\ Kids a l1 /\ Kids b l2.
Proof. intros a b l H; inversion H; subst. eexists; eexists; repeat split; assumption. Qed.

Lemma kids_alt_inv : forall a b l, Kids (RAlt a b) l -> Kids a l \/ Kids b l.
Proof. intros a b l H; inversion H; subst; [left | right]; assumption. Qed.

Lemma ralt_cases : forall x y,
  ralt x y = RAlt x y \/ (x = RNone /\ ralt x y = y) \/ (y = RNone /\ ralt x y = x).
Proof. intros x y. destruct x; destruct y; auto. Qed.

Lemma rseq_cases : forall x y,
  rseq x y = RSeq x y \/ ((x = RNone \/ y = RNone) /\ rseq x y = RNone) \/
  (x = REps /\ rseq x y = y) \/ (y = REps /\ rseq x y = x).
Proof. intros x y. destruct x; destruct y; auto 6. Qed.

Lemma rstar_cases : forall x, rstar x = RStar x \/ ((x = RNone \/ x = REps) /\ rstar x = REps).
Proof. intros x. destruct x; auto. Qed.

Lemma ralt_kids : forall x y l, Kids (ralt x y) l -> Kids x l \/ Kids y l.
Proof.
  intros x y l H. destruct (ralt_cases x y) as [E | [[_ E] | [_ E]]]; rewrite E in H; auto.
  apply kids_alt_inv, H.
Qed.

Lemma rseq_kids : forall x y l, Kids (rseq x y) l -> exists l1 l2, l = l1 ++ l2 /\ Kids x l1 /\ Kids y l2.
Proof.
  intros x y l H. destruct (rseq_cases x y) as [E | [[_ E] | [[-> E] | [-> E]]]]; rewrite E in H.
  - apply kids_seq_inv, H.
  - destruct (kids_none _ H).
  - exists [], l. repeat split; [constructor | exact H].
  - exists l, []. rewrite app_nil_r. repeat split; [exact H | constructor].
Qed.

Lemma nullable_kids : forall re, nullable re = true -> Kids re [].
Proof.
  induction re as [| | r | a IHa b IHb | a IHa b IHb | a IHa]; cbn; intros H; try discriminate.
  - constructor.
  - apply andb_true_iff in H. destruct H as [Ha Hb].
    change (@nil tree) with (@nil tree ++ @nil tree). constructor; auto.
  - apply orb_true_iff in H. destruct H as [Ha | Hb]; [apply K_altl | apply K_altr]; auto.
  - constructor.
Qed.

Lemma deriv_kids : forall c, Shape c -> forall re l, Kids (deriv (root c) re) l -> Kids re (c :: l).
Proof.
  intros c Hc.
  induction re as [| | r | a IHa b IHb | a IHa b IHb | a IHa]; cbn [deriv]; intros l H.
  - exfalso; exact (kids_none _ H).
  - exfalso; exact (kids_none _ H).
  - destruct (rule_eqb (root c) r) eqn:E.
    + apply rule_eqb_eq in E. inversion H; subst. constructor; [reflexivity | exact Hc].
    + exfalso; exact (kids_none _ H).
  - destruct (nullable a) eqn:Na.
    + apply ralt_kids in H. destruct H as [H | H].
      * apply rseq_kids in H. destruct H as [l1 [l2 [-> [H1 H2]]]].
        change (c :: l1 ++ l2) with ((c :: l1) ++ l2). constructor; auto.
      * change (c :: l) with ([] ++ c :: l). constructor; [apply nullable_kids; exact Na | auto].
    + apply rseq_kids in H. destruct H as [l1 [l2 [-> [H1 H2]]]].
      change (c :: l1 ++ l2) with ((c :: l1) ++ l2). constructor; auto.
  - apply ralt_kids in H. destruct H as [H | H]; [apply K_altl | apply K_altr]; auto.
  - apply rseq_kids in H. destruct H as [l1 [l2 [-> [H1 H2]]]].
    change (c :: l1 ++ l2) with ((c :: l1) ++ l2). constructor; auto.
Qed.

Lemma rmatch_kids : forall cs re, Forall Shape cs -> rmatch re (map root cs) = true -> Kids re cs.
Proof.
  induction cs as [| c cs IH]; cbn [map rmatch]; intros re HF H.
  - apply nullable_kids; exact H.
  - inversion HF as [| ? ? Hc HF']; subst. apply deriv_kids; [exact Hc |]. apply IH; assumption.
Qed.

Lemma shapeb_all : forall cs,
  (fix all (l : list tree) : bool := match l with [] => true | c :: l' => shapeb c && all l' end) cs = true ->
  Forall (fun c => shapeb c = true) cs.
Proof.
  induction cs as [| c cs IH]; intros H; constructor.
  - apply andb_true_iff in H. tauto.
  - apply IH. apply andb_true_iff in H. tauto.
Qed.

Theorem shapeb_sound : forall t, shapeb t = true -> Shape t.
Proof.
  induction t as [r s cs IH] using tree_ind2. intros H.
  cbn [shapeb] in H. apply andb_true_iff in H. destruct H as [Hm Ha].
  apply shapeb_all in Ha.
  assert (HF : Forall Shape cs).
  { rewrite Forall_forall in *. intros c Hin. apply IH; [exact Hin | apply Ha; exact Hin]. }
  constructor. apply rmatch_kids; assumption.
Qed.

Lemma kids_syms : forall re l, Kids re l -> Forall (fun c => In (root c) (syms re) /\ Shape c) l.
Proof.
  assert (W : forall s s' l, incl s s' ->
    Forall (fun c => In (root c) s /\ Shape c) l -> Forall (fun c => In (root c) s' /\ Shape c) l).
  { intros s s' l I. apply Forall_impl. intros c [Hi Hs]. split; [apply I, Hi | exact Hs]. }
  intros re l H. induction H; cbn [syms]; try (constructor; fail).
  - constructor; [| constructor]. split; [left; symmetry; assumption | assumption].
  - apply Forall_app. split; [apply (W (syms a)) | apply (W (syms b))]; auto using incl_appl, incl_appr, incl_refl.
  - apply (W (syms a)); auto using incl_appl, incl_refl.
  - apply (W (syms b)); auto using incl_appr, incl_refl.
  - apply Forall_app. split; assumption.
Qed.

Lemma kids_shape : forall re l, Kids re l -> Forall Shape l.
Proof.
  intros re l H. eapply Forall_impl; [| apply (kids_syms _ _ H)]. intros c [_ Hs]; exact Hs.
Qed.

Lemma shape_kids : forall t, Shape t -> Kids (child_rx (root t)) (kids t).
Proof. intros t H. inversion H; subst. exact H0. Qed.
