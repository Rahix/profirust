(* Proofs for property C20 (parameter block packing). *)
From PB Require Import Common PrmTables Prm PrmOracle ByteFacts.

Lemma nth_firstn_lt {A} (l : list A) d : forall n i, (i < n)%nat -> nth i (firstn n l) d = nth i l d.
Proof.
  induction l as [|a l IH]; intros n i H.
  - rewrite firstn_nil. reflexivity.
  - destruct n as [|n]; [lia|]. destruct i as [|i]; [reflexivity|]. cbn [firstn nth]. apply IH. lia.
Qed.

Lemma length_splice p off data : (off + length data <= length p)%nat -> length (splice p off data) = length p.
Proof. intros H. unfold splice. rewrite !app_length, firstn_length, skipn_length. lia. Qed.

Lemma nth_splice p off data i : (off + length data <= length p)%nat ->
  nth i (splice p off data) 0 =
  if Nat.ltb i off then nth i p 0 else if Nat.ltb i (off + length data) then nth (i - off) data 0 else nth i p 0.
Proof.
  intros H. unfold splice.
  assert (Lf : length (firstn off p) = off) by (rewrite firstn_length; lia).
  destruct (Nat.ltb_spec i off) as [H1|H1].
  - rewrite app_nth1 by lia. apply nth_firstn_lt. exact H1.
  - rewrite app_nth2 by lia. rewrite Lf.
    destruct (Nat.ltb_spec i (off + length data)) as [H2|H2].
    + rewrite app_nth1 by lia. reflexivity.
    + rewrite app_nth2 by lia. rewrite nth_skipn_add. f_equal. lia.
Qed.

Lemma length_mapi_from g : forall l s, length (mapi_from s g l) = length l.
Proof. induction l as [|x l IH]; intros s; cbn [mapi_from length]; [reflexivity|]. rewrite IH. reflexivity. Qed.

Lemma nth_mapi_from g : forall l s i, (i < length l)%nat -> nth i (mapi_from s g l) 0 = g (s + i)%nat (nth i l 0).
Proof.
  induction l as [|x l IH]; intros s i H; cbn [length] in H; [lia|].
  destruct i as [|i]; cbn [mapi_from nth].
  - rewrite Nat.add_0_r. reflexivity.
  - rewrite IH by lia. f_equal. lia.
Qed.

Lemma length_grow p n : length (grow p n) = Nat.max (length p) n.
Proof. unfold grow. rewrite app_length, repeat_length. lia. Qed.

Lemma all_bytes_of_nth p : (forall i, (i < length p)%nat -> is_byte (nth i p 0)) -> all_bytes p.
Proof. intros H. apply Forall_nth. intros i d Hi. rewrite (nth_indep p d 0 Hi). apply H, Hi. Qed.

Lemma all_bytes_grow p n : all_bytes p -> all_bytes (grow p n).
Proof.
  unfold all_bytes, grow. intros H. apply Forall_app. split; [exact H|].
  apply Forall_forall. intros x Hx. apply repeat_spec in Hx. subst x. unfold is_byte. lia.
Qed.

Lemma all_bytes_splice p off data : (off + length data <= length p)%nat ->
  all_bytes p -> all_bytes data -> all_bytes (splice p off data).
Proof.
  intros H Hp Hd. apply all_bytes_of_nth. intros i Hi. rewrite length_splice in Hi by exact H.
  rewrite nth_splice by exact H.
  destruct (Nat.ltb_spec i off) as [H1|H1].
  - apply all_bytes_nth, Hp.
  - destruct (Nat.ltb_spec i (off + length data)) as [H2|H2].
    + apply all_bytes_nth, Hd.
    + apply all_bytes_nth, Hp.
Qed.

Lemma bit_positions_range k : In k bit_positions -> 0 <= k < 8.
Proof. unfold bit_positions. cbn [In]. intros H. lia. Qed.

Lemma byte_of_bits_ext f g : (forall k, 0 <= k < 8 -> f k = g k) -> byte_of_bits f = byte_of_bits g.
Proof.
  intros H. unfold byte_of_bits.
  rewrite (H 0), (H 1), (H 2), (H 3), (H 4), (H 5), (H 6), (H 7) by lia. reflexivity.
Qed.

Lemma byte_of_bits_range f : 0 <= byte_of_bits f < 256.
Proof.
  assert (B : forall c, 0 <= b2z c <= 1) by (intros []; cbn; lia).
  pose proof (B (f 0)); pose proof (B (f 1)); pose proof (B (f 2)); pose proof (B (f 3));
  pose proof (B (f 4)); pose proof (B (f 5)); pose proof (B (f 6)); pose proof (B (f 7)).
  unfold byte_of_bits. lia.
Qed.

Lemma testbit_cons (c : bool) y k : 0 <= k ->
  Z.testbit (b2z c + 2 * y) k = if k =? 0 then c else Z.testbit y (k - 1).
Proof.
  intros Hk. rewrite Z.add_comm. change (b2z c) with (Z.b2z c). destruct (Z.eqb_spec k 0) as [->|N].
  - apply Z.testbit_0_r.
  - replace k with (Z.succ (k - 1)) at 1 by lia. apply Z.testbit_succ_r. lia.
Qed.

Lemma testbit_byte_of_bits f k : 0 <= k < 8 -> Z.testbit (byte_of_bits f) k = f k.
Proof.
  intros H.
  replace (byte_of_bits f) with
    (b2z (f 0) + 2 * (b2z (f 1) + 2 * (b2z (f 2) + 2 * (b2z (f 3) + 2 * (b2z (f 4) + 2 * (b2z (f 5) +
     2 * (b2z (f 6) + 2 * (b2z (f 7) + 2 * 0)))))))) by (unfold byte_of_bits; ring).
  assert (E : k = 0 \/ k = 1 \/ k = 2 \/ k = 3 \/ k = 4 \/ k = 5 \/ k = 6 \/ k = 7) by lia.
  destruct E as [->|[->|[->|[->|[->|[->|[->| ->]]]]]]]; rewrite !testbit_cons by lia; reflexivity.
Qed.

Lemma byte_of_bits_testbit x : 0 <= x < 256 -> byte_of_bits (Z.testbit x) = x.
Proof.
  intros H. apply Z.bits_inj'. intros k Hk. destruct (Z.lt_ge_cases k 8) as [Hl|Hh].
  - apply testbit_byte_of_bits. lia.
  - rewrite !(testbit_small 8) by (try apply byte_of_bits_range; lia). reflexivity.
Qed.

Lemma byte_eq_of_bits y f : 0 <= y < 256 -> (forall k, 0 <= k < 8 -> Z.testbit y k = f k) -> y = byte_of_bits f.
Proof.
  intros Hy H. rewrite <- (byte_of_bits_testbit y Hy). apply byte_of_bits_ext. exact H.
Qed.

Lemma length_be_bytes v : forall n, length (be_bytes n v) = n.
Proof. induction n as [|n IH]; cbn [be_bytes length]; [reflexivity|]. rewrite IH. reflexivity. Qed.

Lemma nth_be_bytes v : forall n j, (j < n)%nat ->
  nth j (be_bytes n v) 0 = (v / 2 ^ (8 * Z.of_nat (n - 1 - j))) mod 256.
Proof.
  induction n as [|n IH]; intros j H; [lia|].
  cbn [be_bytes]. destruct j as [|j]; cbn [nth].
  - replace (S n - 1 - 0)%nat with n by lia. reflexivity.
  - rewrite IH by lia. replace (S n - 1 - S j)%nat with (n - 1 - j)%nat by lia. reflexivity.
Qed.

Lemma all_bytes_be_bytes v n : all_bytes (be_bytes n v).
Proof.
  apply all_bytes_of_nth. intros i Hi. rewrite length_be_bytes in Hi. rewrite nth_be_bytes by exact Hi.
  unfold is_byte. apply Z.mod_pos_bound. lia.
Qed.

(* bit k of byte number m/8 (counted from the least significant byte) is bit m+k of the value,
   also for negative values: two's complement *)
Lemma testbit_be_byte v m k : 0 <= m -> 0 <= k < 8 ->
  Z.testbit ((v / 2 ^ m) mod 256) k = Z.testbit v (m + k).
Proof.
  intros Hm Hk. change 256 with (2 ^ 8).
  rewrite Z.mod_pow2_bits_low by lia.
  rewrite Z.div_pow2_bits by lia. f_equal. lia.
Qed.

Lemma testbit_bit v j : v = 0 \/ v = 1 -> j <> 0 -> Z.testbit v j = false.
Proof. intros [->| ->] Hj; [apply Z.testbit_0_l|]. change 1 with (2 ^ 0). apply Z.pow2_bits_false. lia. Qed.

(* (x & !(1 << b)) | (v << b): bit b becomes v, the others stay; nothing reaches bit 8 *)
Lemma bit_byte_spec b v x : 0 <= b <= 7 -> v = 0 \/ v = 1 -> 0 <= x < 256 ->
  0 <= bit_byte b v x < 256 /\
  forall k, 0 <= k < 8 -> Z.testbit (bit_byte b v x) k = if k =? b then Z.testbit v (k - b) else Z.testbit x k.
Proof.
  intros Hb Hv Hx.
  assert (T : forall k, 0 <= k -> Z.testbit (bit_byte b v x) k =
                                  Z.testbit x k && ((k <? 8) && negb (k =? b)) || Z.testbit v (k - b)).
  { intros k Hk. unfold bit_byte. rewrite Z.lor_spec, Z.land_spec, Z.lxor_spec, !Z.shiftl_spec by exact Hk.
    change 1 with (2 ^ 0). rewrite Z.pow2_bits_eqb by lia. change 255 with (Z.ones 8).
    destruct (Z.ltb_spec k 8).
    - rewrite Z.ones_spec_low by lia. destruct (Z.eqb_spec 0 (k - b)), (Z.eqb_spec k b); try lia; reflexivity.
    - rewrite Z.ones_spec_high, (proj2 (Z.eqb_neq 0 (k - b))) by lia. reflexivity. }
  split; [split|].
  - apply Z.lor_nonneg. split; [apply Z.land_nonneg; lia|apply Z.shiftl_nonneg; lia].
  - apply (small_of_bits 8); [lia|apply Z.lor_nonneg; split; [apply Z.land_nonneg; lia|apply Z.shiftl_nonneg; lia]|].
    intros k Hk. rewrite T, (proj2 (Z.ltb_ge k 8)), (testbit_bit v) by (assumption || lia). cbn [andb]. rewrite andb_false_r. reflexivity.
  - intros k Hk. rewrite T, (proj2 (Z.ltb_lt k 8)) by lia. destruct (Z.eqb_spec k b) as [->|N]; cbn [andb negb].
    + rewrite andb_false_r. reflexivity.
    + rewrite andb_true_r, (testbit_bit v) by (assumption || lia). apply orb_false_r.
Qed.

(* (v << f) truncated to a byte, for v below 2^(l-f+1): v sits in bits f..l, the rest is 0 *)
Lemma bitarea_byte_spec f l v : 0 <= f -> f <= l -> l <= 7 -> 0 <= v < 2 ^ (l - f + 1) ->
  0 <= bitarea_byte f v < 256 /\
  forall k, 0 <= k < 8 ->
    Z.testbit (bitarea_byte f v) k = if (f <=? k) && (k <=? l) then Z.testbit v (k - f) else false.
Proof.
  intros Hf Hfl Hl Hv. unfold bitarea_byte. split; [apply Z.mod_pos_bound; lia|].
  intros k Hk. change 256 with (2 ^ 8). rewrite Z.mod_pow2_bits_low, Z.shiftl_spec by lia.
  destruct (Z.leb_spec f k); [destruct (Z.leb_spec k l)|]; cbn [andb].
  - reflexivity.
  - apply (testbit_small (l - f + 1)); [exact Hv|lia].
  - apply Z.testbit_neg_r. lia.
Qed.

Lemma outside_bits_false f l x : outside_bits f l x = false ->
  forall k, 0 <= k < 8 -> (f <=? k) && (k <=? l) = false -> Z.testbit x k = false.
Proof.
  intros H k Hk Ha. unfold outside_bits in H.
  destruct (Z.testbit x k) eqn:T; [|reflexivity].
  assert (E : existsb (fun k => negb ((f <=? k) && (k <=? l)) && Z.testbit x k) bit_positions = true).
  { apply existsb_exists. exists k. split; [apply in_bits8; exact Hk|]. rewrite Ha, T. reflexivity. }
  rewrite E in H. discriminate.
Qed.

Lemma dt_size_spec dt : dt_size dt = spec_size dt.
Proof. destruct dt; reflexivity. Qed.

Lemma in_field_outside off dt i k : (i < off \/ off + spec_size dt <= i)%nat -> in_field off dt i k = false.
Proof.
  intros H. destruct dt; cbn [in_field spec_size] in *;
    try (destruct (Nat.leb_spec off i) as [A|A]; [|reflexivity];
         match goal with |- context [Nat.ltb ?a ?b] => destruct (Nat.ltb_spec a b) as [B|B] end; [lia|reflexivity]);
    (destruct (Nat.eqb_spec i off) as [E|E]; [lia|reflexivity]).
Qed.

Lemma splice_is_spec p off dt v data :
  length data = spec_size dt -> (off + spec_size dt <= length p)%nat -> all_bytes p ->
  (forall j, (j < spec_size dt)%nat ->
     0 <= nth j data 0 < 256 /\
     forall k, 0 <= k < 8 ->
       Z.testbit (nth j data 0) k =
       if in_field off dt (off + j) k then field_bit off dt v (off + j) k else Z.testbit (nth (off + j) p 0) k) ->
  splice p off data = spec_write off dt v p.
Proof.
  intros HL Hc Hp Hd. unfold spec_write. apply (nth_ext _ _ 0 0).
  - rewrite length_splice, length_mapi_from by lia. reflexivity.
  - intros i Hi. rewrite length_splice in Hi by lia. rewrite nth_splice by lia.
    rewrite nth_mapi_from by exact Hi. cbn [Nat.add]. unfold spec_byte.
    assert (Out : (i < off \/ off + spec_size dt <= i)%nat ->
                  nth i p 0 = byte_of_bits (fun k => if in_field off dt i k then field_bit off dt v i k else Z.testbit (nth i p 0) k)).
    { intros O. apply byte_eq_of_bits.
      - apply all_bytes_nth, Hp.
      - intros k Hk. rewrite (in_field_outside off dt i k O). reflexivity. }
    destruct (Nat.ltb_spec i off) as [H1|H1]; [apply Out; lia|].
    rewrite HL. destruct (Nat.ltb_spec i (off + spec_size dt)) as [H2|H2]; [|apply Out; lia].
    destruct (Hd (i - off)%nat ltac:(lia)) as [R B].
    replace (off + (i - off))%nat with i in B by lia.
    apply byte_eq_of_bits; [exact R|exact B].
Qed.

(* the test write_value_to_slice applies to the value, and the bytes it writes over x :: _ *)
Definition accepts (dt : prm_dtype) (v : Z) : bool :=
  match dt with
  | DtBit b => negb ((7 <? b) || negb ((v =? 0) || (v =? 1)))
  | DtBitArea f l => negb ((l <? f) || (7 <? l)) && negb ((v <? 0) || (2 ^ (l - f + 1) <=? v)) && negb (255 <? v)
  | _ => in_type_range dt v
  end.

Definition field_bytes (dt : prm_dtype) (v x : Z) : bytes :=
  match dt with
  | DtBit b => [bit_byte b v x]
  | DtBitArea f _ => [bitarea_byte f v]
  | _ => be_bytes (dt_size dt) v
  end.

Lemma length_field_bytes dt v x : length (field_bytes dt v x) = dt_size dt.
Proof. destruct dt; try apply length_be_bytes; reflexivity. Qed.

Lemma write_value_spec dt v s : (dt_size dt <= length s)%nat ->
  write_value dt v s =
  if accepts dt v then Ok (true, field_bytes dt v (nth 0 s 0) ++ skipn (dt_size dt) s) else Ok (false, s).
Proof.
  intros Hs. unfold write_value.
  destruct dt; cbn [dt_int dt_size accepts field_bytes in_type_range] in *;
    try (rewrite (proj2 (Nat.ltb_ge _ _)) by exact Hs; reflexivity);
    (destruct s as [|x r]; [cbn [length] in Hs; lia|]).
  - destruct (_ || _); reflexivity.
  - destruct (_ || _); [reflexivity|]. destruct (_ || _); [reflexivity|]. destruct (255 <? v); reflexivity.
Qed.

Lemma pow_area f l : 0 <= f <= l -> l <= 7 -> 2 ^ (l - f + 1) <= 256.
Proof. intros Hf Hl. change 256 with (2 ^ 8). apply Z.pow_le_mono_r; lia. Qed.

Lemma accepts_range dt v :
  (in_type_range dt v = true -> accepts dt v = true) /\
  (dt_u8 dt = true -> accepts dt v = true -> in_type_range dt v = true).
Proof.
  destruct dt as [| | | | | |b|f l]; try tauto; cbn [accepts in_type_range dt_u8]; unfold zrange.
  - rewrite is_byteb_iff, negb_true_iff, orb_false_iff, negb_false_iff, orb_true_iff, !andb_true_iff,
      Z.ltb_ge, !Z.eqb_eq, !Z.leb_le. unfold is_byte. lia.
  - rewrite !andb_true_iff, !is_byteb_iff, !negb_true_iff, !orb_false_iff, !Z.ltb_ge, Z.leb_gt, !Z.leb_le, Z.ltb_lt.
    unfold is_byte. split; [|lia]. intros H. pose proof (pow_area f l). lia.
Qed.

Lemma int_type_facts dt : match dt_int dt with
  | Some (n, lo, hi) => n = spec_size dt /\ (forall v, in_type_range dt v = (lo <=? v) && (v <=? hi)) /\
                        (forall off i k, in_field off dt i k = Nat.leb off i && Nat.ltb i (off + spec_size dt)) /\
                        (forall off v i k, field_bit off dt v i k = Z.testbit v (8 * Z.of_nat (off + spec_size dt - 1 - i) + k))
  | None => match dt with DtBit _ | DtBitArea _ _ => True | _ => False end
  end.
Proof. destruct dt; cbn [dt_int]; try exact I; (split; [reflexivity|split; [intros v; reflexivity|split; intros; reflexivity]]). Qed.

Lemma field_bytes_bytes dt v x : dt_u8 dt = true -> accepts dt v = true -> is_byte x -> all_bytes (field_bytes dt v x).
Proof.
  intros Hu Ha Hx. destruct dt as [| | | | | |b|f l]; try apply all_bytes_be_bytes;
    (constructor; [|constructor]); cbn [dt_u8 accepts] in *.
  - apply is_byteb_iff in Hu. unfold is_byte in Hu.
    rewrite negb_true_iff, orb_false_iff, negb_false_iff, orb_true_iff, Z.ltb_ge, !Z.eqb_eq in Ha.
    apply bit_byte_spec; [lia|tauto|exact Hx].
  - apply Z.mod_pos_bound. lia.
Qed.

(* the same from the block: &mut prm[off..] is written in place *)
Lemma write_in_spec p off dt v : (off + dt_size dt <= length p)%nat ->
  write_in p off dt v =
  if accepts dt v then Ok (true, splice p off (field_bytes dt v (nth off p 0))) else Ok (false, p).
Proof.
  intros Hc. unfold write_in, slice_from. rewrite (proj2 (Nat.leb_le _ _)) by lia. cbn [bind].
  rewrite write_value_spec by (rewrite skipn_length; lia). destruct (accepts dt v); cbn [bind].
  - rewrite nth_skipn_add, Nat.add_0_r. unfold splice. rewrite length_field_bytes, skipn_skipn'. reflexivity.
  - rewrite firstn_skipn. reflexivity.
Qed.

Lemma write_in_ok p off dt v :
  (off + dt_size dt <= length p)%nat -> all_bytes p ->
  in_type_range dt v = true -> known_write off dt p = false ->
  write_in p off dt v = Ok (true, spec_write off dt v p).
Proof.
  intros Hc Hp Hr Hk. rewrite write_in_spec, (proj1 (accepts_range dt v) Hr) by exact Hc. do 2 f_equal.
  rewrite dt_size_spec in Hc.
  assert (Hx : is_byte (nth off p 0)) by apply all_bytes_nth, Hp.
  apply splice_is_spec; [rewrite length_field_bytes; apply dt_size_spec|exact Hc|exact Hp|].
  intros j Hj. destruct dt as [| | | | | |b|f l]; cbn [spec_size dt_size field_bytes in_field field_bit] in *.
  1-6: (rewrite nth_be_bytes by exact Hj; split; [apply Z.mod_pos_bound; lia|]; intros k Hk8;
        rewrite (proj2 (Nat.leb_le off (off + j))), (proj2 (Nat.ltb_lt (off + j) _)) by lia; cbn [andb];
        rewrite testbit_be_byte by lia; f_equal; lia).
  - assert (j = 0%nat) by lia. subst j. rewrite Nat.add_0_r. cbn [nth].
    cbn [in_type_range] in Hr. unfold zrange in Hr. rewrite !andb_true_iff, !Z.leb_le in Hr.
    destruct (bit_byte_spec b v (nth off p 0)) as [R B]; [lia|lia|exact Hx|].
    split; [exact R|]. intros k Hk8. rewrite (B k Hk8), Nat.eqb_refl. reflexivity.
  - assert (j = 0%nat) by lia. subst j. rewrite Nat.add_0_r. cbn [nth].
    cbn [in_type_range] in Hr. rewrite !andb_true_iff, !Z.leb_le, Z.ltb_lt in Hr.
    destruct (bitarea_byte_spec f l v) as [R B]; try lia.
    split; [exact R|]. intros k Hk8. rewrite (B k Hk8), Nat.eqb_refl. cbn [andb].
    destruct ((f <=? k) && (k <=? l)) eqn:A; [reflexivity|].
    symmetry. apply (outside_bits_false f l _ Hk k Hk8 A).
Qed.

Lemma write_in_total p off dt v : (off + dt_size dt <= length p)%nat ->
  exists b p', write_in p off dt v = Ok (b, p') /\ length p' = length p /\
               (dt_u8 dt = true -> all_bytes p -> all_bytes p') /\ (b = false -> p' = p).
Proof.
  intros Hc. rewrite write_in_spec by exact Hc. destruct (accepts dt v) eqn:A.
  - eexists true, _. split; [reflexivity|]. split; [|split; [|discriminate]].
    + apply length_splice. rewrite length_field_bytes. exact Hc.
    + intros Hu Hp. apply all_bytes_splice; [rewrite length_field_bytes; exact Hc|exact Hp|].
      apply field_bytes_bytes; [exact Hu|exact A|apply all_bytes_nth, Hp].
  - exists false, p. auto.
Qed.

Lemma write_in_reject p off dt v : dt_u8 dt = true -> in_type_range dt v = false ->
  (off + dt_size dt <= length p)%nat -> write_in p off dt v = Ok (false, p).
Proof.
  intros Hu Hr Hc. rewrite write_in_spec by exact Hc. destruct (accepts dt v) eqn:A; [|reflexivity].
  apply (proj2 (accepts_range dt v) Hu) in A. congruence.
Qed.

Lemma find_ref_in rs name off def : find_ref rs name = Some (off, def) -> In (off, def) rs.
Proof.
  induction rs as [|[o d] rs IH]; cbn [find_ref]; [discriminate|].
  destruct (d_name d =? name); intros H; [injection H as -> ->; left; reflexivity|right; exact (IH H)].
Qed.

Lemma covers_in rs p off def : covers rs p = true -> In (off, def) rs -> (off + dt_size (d_type def) <= length p)%nat.
Proof.
  unfold covers. rewrite forallb_forall. intros H I. specialize (H (off, def) I). cbn [fst snd] in H.
  apply Nat.leb_le in H. exact H.
Qed.

Lemma wf_refs_in rs off def : wf_refs rs = true -> In (off, def) rs -> dt_u8 (d_type def) = true.
Proof. unfold wf_refs. rewrite forallb_forall. intros H I. apply (H (off, def) I). Qed.

Lemma covers_length rs p p' : length p' = length p -> covers rs p' = covers rs p.
Proof. intros H. unfold covers. rewrite H. reflexivity. Qed.

Lemma step_inv d p o :
  (spec_expect d o = ExpReject /\ exists e, step d p o = Ok (SErr e, p)) \/
  (exists off def v, In (off, def) (refs d) /\
     spec_expect d o = expect_value off def v /\ step d p o = write_constrained def p off v).
Proof.
  destruct o as [n x|n t]; cbn [spec_expect step]; unfold set_prm, set_prm_from_text;
    (destruct (find_ref (refs d) n) as [[off def]|] eqn:Ef; [apply find_ref_in in Ef|left; eauto]).
  - right. eauto 6.
  - destruct (d_texts def) as [texts|]; [|left; eauto].
    destruct (assoc texts t) as [x|]; [right; eauto 6|left; eauto].
Qed.

Lemma write_constrained_spec def p off v : (off + dt_size (d_type def) <= length p)%nat ->
  write_constrained def p off v =
  if constraint_valid (d_constraint def) v
  then let* (ok, p') := write_in p off (d_type def) v in Ok (if ok then SOk else SErr ERange, p')
  else Ok (SErr EConstraint, p).
Proof.
  intros Hc. unfold write_constrained, write_in, slice_from. rewrite (proj2 (Nat.leb_le _ _)) by lia. cbn [bind].
  destruct (constraint_valid (d_constraint def) v); [|reflexivity]. cbn [negb].
  destruct (write_value (d_type def) v (skipn off p)) as [[ok s']| |]; reflexivity.
Qed.

Lemma expect_value_cases off def v :
  (constraint_valid (d_constraint def) v = true /\ in_type_range (d_type def) v = true /\
   expect_value off def v = ExpAccept off (d_type def) v) \/
  (constraint_valid (d_constraint def) v && in_type_range (d_type def) v = false /\
   expect_value off def v = ExpReject).
Proof.
  unfold expect_value. destruct (constraint_valid (d_constraint def) v), (in_type_range (d_type def) v); auto.
Qed.

Lemma step_accept d p o off dt v :
  spec_expect d o = ExpAccept off dt v -> covers (refs d) p = true -> all_bytes p ->
  known_write off dt p = false ->
  step d p o = Ok (SOk, spec_write off dt v p).
Proof.
  intros He Hc Hp Hk. destruct (step_inv d p o) as [[E _]|(o' & def & x & I & E & ->)]; [congruence|].
  rewrite E in He. destruct (expect_value_cases o' def x) as [(Hv & Hr & E')|[_ E']]; rewrite E' in He; [|discriminate].
  injection He as -> <- <-. pose proof (covers_in _ _ _ _ Hc I) as Hc'.
  rewrite write_constrained_spec, Hv, (write_in_ok p off _ x Hc' Hp Hr Hk) by exact Hc'. reflexivity.
Qed.

Lemma step_reject d p o :
  spec_expect d o = ExpReject -> covers (refs d) p = true -> wf_refs (refs d) = true ->
  exists e, step d p o = Ok (SErr e, p).
Proof.
  intros He Hc Hw. destruct (step_inv d p o) as [[_ R]|(off & def & x & I & E & ->)]; [exact R|].
  rewrite E in He. destruct (expect_value_cases off def x) as [(_ & _ & E')|[H _]]; [congruence|].
  pose proof (covers_in _ _ _ _ Hc I) as Hc'. rewrite write_constrained_spec by exact Hc'.
  destruct (constraint_valid (d_constraint def) x); [|eauto]. cbn [andb] in H.
  rewrite (write_in_reject p off _ x (wf_refs_in _ _ _ Hw I) H Hc'). cbn [bind]. eauto.
Qed.

Lemma step_total d p o : covers (refs d) p = true ->
  exists r p', step d p o = Ok (r, p') /\ length p' = length p /\
               (wf_refs (refs d) = true -> all_bytes p -> all_bytes p') /\ (r <> SOk -> p' = p).
Proof.
  intros Hc. destruct (step_inv d p o) as [[_ [e ->]]|(off & def & x & I & _ & ->)].
  - exists (SErr e), p. auto.
  - pose proof (covers_in _ _ _ _ Hc I) as Hc'. rewrite write_constrained_spec by exact Hc'.
    destruct (constraint_valid (d_constraint def) x); [|exists (SErr EConstraint), p; auto].
    destruct (write_in_total p off (d_type def) x Hc') as (b & p' & -> & HL & HB & HU). cbn [bind].
    eexists _, p'. split; [reflexivity|]. split; [exact HL|]. split.
    + intros Hw. apply HB, (wf_refs_in _ _ _ Hw I).
    + intros N. apply HU. destruct b; [contradiction|reflexivity].
Qed.

Lemma spec_write_bits off dt v p :
  length (spec_write off dt v p) = length p /\ all_bytes (spec_write off dt v p) /\
  forall i k, (i < length p)%nat -> 0 <= k < 8 ->
    Z.testbit (nth i (spec_write off dt v p) 0) k =
    if in_field off dt i k then field_bit off dt v i k else Z.testbit (nth i p 0) k.
Proof.
  unfold spec_write. split; [apply length_mapi_from|]. split.
  - apply all_bytes_of_nth. intros i Hi. rewrite length_mapi_from in Hi. rewrite nth_mapi_from by exact Hi.
    unfold spec_byte, is_byte. apply byte_of_bits_range.
  - intros i k Hi Hk. rewrite nth_mapi_from by exact Hi. cbn [Nat.add]. unfold spec_byte.
    rewrite testbit_byte_of_bits by exact Hk. reflexivity.
Qed.

Lemma write_consts_lay : forall cs p, write_consts cs p = Ok (lay_consts cs p).
Proof.
  induction cs as [|[off data] cs IH]; intros p; cbn [write_consts lay_consts fold_left]; [reflexivity|].
  cbn [fst snd].
  destruct (Nat.leb_spec (off + length data) (length (grow p (off + length data)))) as [_|C].
  - apply IH.
  - rewrite length_grow in C. lia.
Qed.

Lemma all_bytes_lay : forall cs p, wf_consts cs = true -> all_bytes p -> all_bytes (lay_consts cs p).
Proof.
  induction cs as [|[off data] cs IH]; intros p Hw Hp; cbn [lay_consts fold_left]; [exact Hp|].
  cbn [wf_consts forallb snd] in Hw. apply andb_prop in Hw. destruct Hw as [Hd Hw].
  apply IH; [exact Hw|]. cbn [fst snd].
  apply all_bytes_splice.
  - rewrite length_grow. lia.
  - apply all_bytes_grow. exact Hp.
  - apply all_bytesb_iff, Hd.
Qed.

Lemma write_defaults_overlay : forall rs p, wf_refs rs = true -> all_bytes p -> known_refs rs p = false ->
  write_defaults rs p = Ok (overlay_refs rs p).
Proof.
  induction rs as [|[off d] rs IH]; intros p Hw Hp Hk; cbn [write_defaults overlay_refs]; [reflexivity|].
  cbn [wf_refs forallb snd] in Hw. apply andb_prop in Hw. destruct Hw as [Hu Hw].
  cbn [known_refs] in Hk. apply orb_false_elim in Hk. destruct Hk as [Hk1 Hk2].
  rewrite <- dt_size_spec in *.
  set (p1 := grow p (off + dt_size (d_type d))) in *.
  assert (Hc : (off + dt_size (d_type d) <= length p1)%nat) by (unfold p1; rewrite length_grow; lia).
  assert (Hp1 : all_bytes p1) by (apply all_bytes_grow; exact Hp).
  destruct (in_type_range (d_type d) (d_default d)) eqn:Hr.
  - rewrite (write_in_ok p1 off _ _ Hc Hp1 Hr Hk1). cbn [bind].
    apply IH; [exact Hw| |exact Hk2]. apply spec_write_bits.
  - rewrite (write_in_reject p1 off _ _ Hu Hr Hc). reflexivity.
Qed.

Lemma new_is_overlay d : wf_desc d = true -> known_new d = false -> prm_new d = Ok (overlay d).
Proof.
  intros Hw Hk. unfold wf_desc in Hw. apply andb_prop in Hw. destruct Hw as [Hwc Hwr].
  unfold prm_new, overlay. rewrite write_consts_lay. cbn [bind].
  apply write_defaults_overlay; [exact Hwr| |exact Hk].
  apply all_bytes_lay; [exact Hwc|constructor].
Qed.

Lemma covers_mono rs p p' : (length p <= length p')%nat -> covers rs p = true -> covers rs p' = true.
Proof.
  intros HL. unfold covers. rewrite !forallb_forall. intros H x Hx. specialize (H x Hx).
  apply Nat.leb_le in H. apply Nat.leb_le. lia.
Qed.

Lemma write_defaults_total : forall rs p,
  exists r, write_defaults rs p = Ok r /\
            forall p', r = Some p' -> (length p <= length p')%nat /\ covers rs p' = true /\
                                      (wf_refs rs = true -> all_bytes p -> all_bytes p').
Proof.
  induction rs as [|[off d] rs IH]; intros p; cbn [write_defaults].
  - exists (Some p). split; [reflexivity|]. intros p' E. inversion E; subst. repeat split; auto.
  - set (p1 := grow p (off + dt_size (d_type d))).
    assert (Hc : (off + dt_size (d_type d) <= length p1)%nat) by (unfold p1; rewrite length_grow; lia).
    assert (HL1 : (length p <= length p1)%nat) by (unfold p1; rewrite length_grow; lia).
    destruct (write_in_total p1 off (d_type d) (d_default d) Hc) as [b [p2 [R [HL [HB _]]]]].
    rewrite R. cbn [bind]. destruct b.
    + destruct (IH p2) as [r [Rr Hr]]. exists r. split; [exact Rr|].
      intros p' E. destruct (Hr p' E) as [A [B C]]. split; [lia|]. split.
      * cbn [covers forallb fst snd]. fold (covers rs p'). rewrite B.
        destruct (Nat.leb_spec (off + dt_size (d_type d)) (length p')) as [_|X]; [reflexivity|lia].
      * intros Hw Hp. cbn [wf_refs forallb snd] in Hw. apply andb_prop in Hw. destruct Hw as [Hu Hw].
        apply C; [exact Hw|]. apply HB; [exact Hu|]. apply all_bytes_grow. exact Hp.
    + exists None. split; [reflexivity|]. intros p' E. discriminate.
Qed.

Lemma prm_new_total d :
  exists r, prm_new d = Ok r /\
            forall p, r = Some p -> covers (refs d) p = true /\ (wf_desc d = true -> all_bytes p).
Proof.
  unfold prm_new. rewrite write_consts_lay. cbn [bind].
  destruct (write_defaults_total (refs d) (lay_consts (consts d) [])) as [r [R H]].
  exists r. split; [exact R|]. intros p E. destruct (H p E) as [_ [B C]]. split; [exact B|].
  intros Hw. unfold wf_desc in Hw. apply andb_prop in Hw. destruct Hw as [Hwc Hwr].
  apply C; [exact Hwr|]. apply all_bytes_lay; [exact Hwc|constructor].
Qed.

Lemma run_total d : forall ops p, covers (refs d) p = true -> exists l, run d p ops = Ok l.
Proof.
  induction ops as [|o ops IH]; intros p Hc; cbn [run]; [exists []; reflexivity|].
  destruct (step_total d p o Hc) as [r [p' [R [HL _]]]]. rewrite R. cbn [bind].
  destruct (IH p') as [l Rl]; [rewrite (covers_length _ _ _ HL); exact Hc|].
  rewrite Rl. cbn [bind]. exists ((r, p') :: l). reflexivity.
Qed.

Lemma no_panic d ops :
  match prm_new d with
  | Ok None => True
  | Ok (Some p) => exists l, run d p ops = Ok l
  | _ => False
  end.
Proof.
  destruct (prm_new_total d) as [r [R H]]. rewrite R. destruct r as [p|]; [|exact I].
  destruct (H p eq_refl) as [Hc _]. apply run_total. exact Hc.
Qed.

Lemma trace_ok d : wf_refs (refs d) = true -> forall ops p, covers (refs d) p = true -> all_bytes p ->
  exists l, run d p ops = Ok l /\ c20_trace_ok d p ops l = true.
Proof.
  intros Hw. induction ops as [|o ops IH]; intros p Hc Hp; cbn [run]; [exists []; split; reflexivity|].
  destruct (step_total d p o Hc) as [r [p' [R [HL [HB _]]]]]. rewrite R. cbn [bind].
  destruct (IH p') as [l [Rl Tl]]; [rewrite (covers_length _ _ _ HL); exact Hc|apply HB; assumption|].
  rewrite Rl. cbn [bind]. exists ((r, p') :: l). split; [reflexivity|].
  cbn [c20_trace_ok]. rewrite Tl, andb_true_r.
  unfold c20_step_known, c20_step_ok.
  destruct (spec_expect d o) as [off dt v|] eqn:He.
  - destruct (known_write off dt p) eqn:Hk; [reflexivity|]. cbn [orb].
    rewrite (step_accept d p o off dt v He Hc Hp Hk) in R. inversion R; subst.
    cbn [accepted_of andb]. apply bytes_eqb_refl.
  - cbn [orb]. destruct (step_reject d p o He Hc Hw) as [e Re]. rewrite Re in R. inversion R; subst.
    cbn [accepted_of negb andb]. apply bytes_eqb_refl.
Qed.

(* the accepted range, all types; the signed ones spelled out *)

Lemma type_range_exact dt v s : dt_u8 dt = true -> (dt_size dt <= length s)%nat ->
  exists s', write_value dt v s = Ok (in_type_range dt v, s').
Proof.
  intros Hu Hs. rewrite write_value_spec by exact Hs. destruct (accepts_range dt v) as [A1 A2].
  destruct (accepts dt v), (in_type_range dt v); eauto; [specialize (A2 Hu eq_refl)|specialize (A1 eq_refl)]; discriminate.
Qed.

Lemma signed_range v s :
  ((1 <= length s)%nat -> exists s', write_value DtSigned8 v s = Ok (zrange (-128) 127 v, s')) /\
  ((2 <= length s)%nat -> exists s', write_value DtSigned16 v s = Ok (zrange (-32768) 32767 v, s')) /\
  ((4 <= length s)%nat -> exists s', write_value DtSigned32 v s = Ok (zrange (-2147483648) 2147483647 v, s')).
Proof.
  split; [exact (type_range_exact DtSigned8 v s eq_refl)|].
  split; [exact (type_range_exact DtSigned16 v s eq_refl)|exact (type_range_exact DtSigned32 v s eq_refl)].
Qed.

Lemma set_frame d p o off dt v :
  spec_expect d o = ExpAccept off dt v -> covers (refs d) p = true -> all_bytes p ->
  known_write off dt p = false ->
  exists p', step d p o = Ok (SOk, p') /\ length p' = length p /\ all_bytes p' /\
    forall i k, (i < length p)%nat -> 0 <= k < 8 ->
      Z.testbit (nth i p' 0) k = if in_field off dt i k then field_bit off dt v i k else Z.testbit (nth i p 0) k.
Proof.
  intros He Hc Hp Hk. exists (spec_write off dt v p). split; [apply step_accept; assumption|].
  apply spec_write_bits.
Qed.

Lemma rejects_unchanged d p o :
  wf_refs (refs d) = true -> covers (refs d) p = true ->
  (spec_expect d o = ExpReject -> exists e, step d p o = Ok (SErr e, p)) /\
  (forall e p', step d p o = Ok (SErr e, p') -> p' = p).
Proof.
  intros Hw Hc. split.
  - intros He. apply step_reject; assumption.
  - intros e p' R. destruct (step_total d p o Hc) as [r [p2 [R2 [_ [_ HU]]]]].
    rewrite R in R2. inversion R2; subst. apply HU. discriminate.
Qed.

Lemma history d ops p0 : wf_desc d = true -> prm_new d = Ok (Some p0) ->
  exists l, run d p0 ops = Ok l /\ c20_trace_ok d p0 ops l = true.
Proof.
  intros Hw R. destruct (prm_new_total d) as [r [R' H]]. rewrite R in R'. inversion R'; subst.
  destruct (H p0 eq_refl) as [Hc Hb].
  unfold wf_desc in Hw. pose proof Hw as Hw'. apply andb_prop in Hw'. destruct Hw' as [_ Hwr].
  apply trace_ok; [exact Hwr|exact Hc|apply Hb; exact Hw].
Qed.

(* const 0xAA, Bit(0) = 1, BitArea(1-2) = 1 in one byte *)
Definition f9_witness : desc :=
  mkDesc [(0%nat, [170])]
         [(0%nat, mkDef 1 (DtBit 0) 1 CUnconstrained None);
          (0%nat, mkDef 2 (DtBitArea 1 2) 1 CUnconstrained None)].

Lemma bitarea_refuted :
  wf_desc f9_witness = true /\ known_new f9_witness = true /\
  prm_new f9_witness = Ok (Some [2]) /\ overlay f9_witness = Some [171].
Proof. vm_compute. repeat split; reflexivity. Qed.

(* the layout of gsd-parser/tests/data/mock.gsd: Bit(0) and BitArea(1-2) at offset 5 over zero constants *)
Definition f9_mock : desc :=
  mkDesc [(0%nat, [0; 0; 0; 0; 0; 0; 0; 0; 0; 0; 0; 255])]
         [(5%nat, mkDef 1 (DtBit 0) 0 (CMinMax 0 1) (Some [(0, 0); (1, 1)]));
          (5%nat, mkDef 2 (DtBitArea 1 2) 0 (CMinMax 0 3) (Some [(0, 0); (1, 1); (2, 2); (3, 3)]))].

Lemma bitarea_refuted_mock :
  let p1 := [0; 0; 0; 0; 0; 1; 0; 0; 0; 0; 0; 255] in
  wf_desc f9_mock = true /\ covers (refs f9_mock) p1 = true /\
  spec_expect f9_mock (OpText 2 1) = ExpAccept 5%nat (DtBitArea 1 2) 1 /\
  known_write 5%nat (DtBitArea 1 2) p1 = true /\
  step f9_mock p1 (OpText 2 1) = Ok (SOk, [0; 0; 0; 0; 0; 2; 0; 0; 0; 0; 0; 255]) /\
  spec_write 5%nat (DtBitArea 1 2) 1 p1 = [0; 0; 0; 0; 0; 3; 0; 0; 0; 0; 0; 255].
Proof. vm_compute. repeat split; reflexivity. Qed.

Lemma set_frame_unrestricted_refuted :
  ~ (forall d p o off dt v, wf_desc d = true -> spec_expect d o = ExpAccept off dt v ->
       covers (refs d) p = true -> all_bytes p -> step d p o = Ok (SOk, spec_write off dt v p)).
Proof.
  intros H. destruct bitarea_refuted_mock as [Hw [Hc [He [_ [Hs Hx]]]]].
  specialize (H f9_mock _ (OpText 2 1) _ _ _ Hw He Hc).
  rewrite Hs, Hx in H.
  assert (A : all_bytes [0; 0; 0; 0; 0; 1; 0; 0; 0; 0; 0; 255]).
  { unfold all_bytes, is_byte. repeat constructor; lia. }
  specialize (H A). discriminate H.
Qed.
