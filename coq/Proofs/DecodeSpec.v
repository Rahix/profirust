(* What Telegram::deserialize computes, in three steps:
     decode l = Ok (decode_spec l)       an index-free, panic-free function (decode_is_spec);
     view l (decode_spec l)              a case analysis of byte strings by the frame start they
                                         carry, each case with the verdict (decode_view);
     the verdict on a prefix stands      Accept / Reject survive appended bytes, hence every proper
                                         prefix of an accepted frame waits (proper_prefix_waits).
   Later proofs about the decoder invert `view` and do not unfold `decode` again. *)
From PB Require Import Common Telegram CodecOracle ByteFacts.

(* evaluates comparisons between the delimiter constants *)
Ltac delim_eval :=
  repeat match goal with
         | |- context [?a =? ?b] =>
             is_const a; is_const b;
             let v := eval vm_compute in (a =? b) in change (a =? b) with v
         end.

Definition sapl (o : option Z) : bytes := match o with Some s => [s] | None => [] end.
Definition is_some (o : option Z) : bool := match o with Some _ => true | None => false end.

Lemma sapl_length o : length (sapl o) = has_sap o.
Proof. destruct o; reflexivity. Qed.

Definition take_sap (has : bool) (p : bytes) : option (option Z * bytes) :=
  if has then match p with [] => None | s :: p' => Some (Some s, p') end else Some (None, p).

Lemma take_sap_inv has p o p' : take_sap has p = Some (o, p') -> p = sapl o ++ p' /\ has = is_some o.
Proof.
  unfold take_sap. destruct has.
  - destruct p as [|s p0]; [discriminate|]. intros E. injection E as <- <-. split; reflexivity.
  - intros E. injection E as <- <-. split; reflexivity.
Qed.

(* an address byte without its extension bit; body_spec below spells it out for DA and SA *)
Definition strip (b : Z) : Z := if negb (Z.land b 128 =? 0) then Z.land b 127 else b.

Definition body_spec (da' sa' fcb : Z) (payload : bytes) (cks e : Z) (bl : nat) : dres :=
  let has_dsap := negb (Z.land da' 128 =? 0) in
  let da := if has_dsap then Z.land da' 127 else da' in
  let has_ssap := negb (Z.land sa' 128 =? 0) in
  let sa := if has_ssap then Z.land sa' 127 else sa' in
  match fc_from_byte fcb with
  | None => Reject
  | Some fc =>
      match take_sap has_dsap payload with
      | None => Reject
      | Some (dsap, p1) =>
          match take_sap has_ssap p1 with
          | None => Reject
          | Some (ssap, p2) =>
              if negb (cks =? sum8 (da' :: sa' :: fcb :: payload)) then Reject
              else if negb (e =? ED) then Reject
              else Accept (TData (mkHeader da sa dsap ssap fc) p2) bl
          end
      end
  end.

(* One optional SAP byte in front of p, which is followed by at least the checksum byte: the code
   reads the byte before it checks that the announced length allows for it. *)
Lemma sap_step (has : bool) (p : bytes) c t :
  (if has then
     let* d := get (p ++ c :: t) 0 in
     if Nat.ltb (length p) 1 then Ok None
     else let* b := slice_from (p ++ c :: t) 1 in Ok (Some (Some d, (length p - 1)%nat, b))
   else Ok (Some (None, length p, p ++ c :: t))) =
  Ok (match take_sap has p with
      | Some (o, p') => Some (o, length p', p' ++ c :: t)
      | None => None
      end).
Proof.
  destruct has, p as [|s p]; try reflexivity.
  cbn [app get nth_error bind length Nat.ltb Nat.leb slice_from skipn take_sap Nat.sub]. rewrite Nat.sub_0_r. reflexivity.
Qed.

Lemma decode_body_spec x da' sa' fcb payload cks e rest bl :
  decode_body (x :: da' :: sa' :: fcb :: payload ++ cks :: e :: rest) (length payload) bl =
  Ok (body_spec da' sa' fcb payload cks e bl).
Proof.
  unfold decode_body, body_spec.
  rewrite (proj2 (Nat.ltb_ge _ _)) by (cbn [length]; rewrite app_length; cbn [length]; lia).
  cbn [slice_from length Nat.leb bind get nth_error skipn].
  destruct (fc_from_byte fcb) as [fc|]; [|reflexivity].
  rewrite sap_step. cbn [bind]. destruct (take_sap _ payload) as [[dsap p1]|]; [|reflexivity].
  rewrite sap_step. cbn [bind]. destruct (take_sap _ p1) as [[ssap p2]|]; [|reflexivity].
  rewrite slice_to_app_exact, (get_app_r p2 _ _ 0) by lia. cbn [bind get nth_error].
  change (da' :: sa' :: fcb :: payload ++ cks :: e :: rest) with ((da' :: sa' :: fcb :: payload) ++ cks :: e :: rest).
  rewrite slice_to_app_exact by (cbn [length]; lia). cbn [bind].
  destruct (negb (cks =? _)); [reflexivity|].
  rewrite (get_app_r p2 _ _ 1) by lia. cbn [bind get nth_error]. destruct (negb (e =? ED)); reflexivity.
Qed.

Definition header_spec (l : bytes) : option (bytes * nat * nat) :=
  match l with
  | b0 :: b1 :: b2 :: b3 :: _ =>
      if b0 =? SD1 then Some (l, 0%nat, 6%nat)
      else if b0 =? SD2 then
        if negb (b1 =? b2) then None
        else if negb (b3 =? SD2) then None
        else if b1 <? 3 then None
        else Some (skipn 3 l, Z.to_nat (b1 - 3), (Z.to_nat b1 + 6)%nat)
      else if b0 =? SD3 then Some (l, 8%nat, 14%nat)
      else None
  | _ => None
  end.

Lemma decode_header_spec l : (4 <= length l)%nat -> decode_header l = Ok (header_spec l).
Proof.
  intros H. destruct l as [|b0 [|b1 [|b2 [|b3 t]]]]; cbn [length] in H; try lia.
  unfold decode_header, header_spec. cbn [get nth_error bind slice_from length Nat.leb skipn].
  destruct (b0 =? SD1); [reflexivity|]. destruct (b0 =? SD2); [|destruct (b0 =? SD3); reflexivity].
  destruct (negb (b1 =? b2)); [reflexivity|]. destruct (negb (b3 =? SD2)); [reflexivity|].
  destruct (b1 <? 3); reflexivity.
Qed.

Lemma decode_data_spec l : (6 <= length l)%nat ->
  decode_data l = match header_spec l with
                  | None => Ok Reject
                  | Some (b, n, bl) => decode_body b n bl
                  end.
Proof.
  intros H. unfold decode_data. destruct (Nat.ltb_spec (length l) 6) as [H'|_]; [lia|].
  rewrite decode_header_spec by lia. cbn [bind]. destruct (header_spec l) as [[[b n] bl]|]; reflexivity.
Qed.

Definition body_of (buffer : bytes) (n bl : nat) : dres :=
  body_spec (nth 1 buffer 0) (nth 2 buffer 0) (nth 3 buffer 0) (firstn n (skipn 4 buffer))
            (nth (n + 4) buffer 0) (nth (n + 5) buffer 0) bl.

Lemma split_buffer (buffer : bytes) n : (n + 6 <= length buffer)%nat ->
  exists x da' sa' fcb payload cks e rest,
    buffer = x :: da' :: sa' :: fcb :: payload ++ cks :: e :: rest /\ length payload = n.
Proof.
  intros H. destruct buffer as [|x [|da' [|sa' [|fcb t]]]]; cbn [length] in H; try lia.
  exists x, da', sa', fcb, (firstn n t), (nth n t 0), (nth (S n) t 0), (skipn (S (S n)) t). split.
  - rewrite <- !skipn_cons_nth, firstn_skipn by lia. reflexivity.
  - rewrite firstn_length. lia.
Qed.

Lemma body_of_shape x da' sa' fcb payload cks e rest bl :
  body_of (x :: da' :: sa' :: fcb :: payload ++ cks :: e :: rest) (length payload) bl =
  body_spec da' sa' fcb payload cks e bl.
Proof.
  unfold body_of. cbn [nth skipn]. rewrite firstn_app_exact by reflexivity.
  rewrite !Nat.add_succ_r, Nat.add_0_r. cbn [nth].
  rewrite !app_nth2, Nat.sub_diag by lia. replace (S (length payload) - length payload)%nat with 1%nat by lia.
  reflexivity.
Qed.

Lemma decode_body_short buffer n bl : (length buffer < n + 6)%nat -> decode_body buffer n bl = Ok NeedMore.
Proof. intros H. unfold decode_body. destruct (Nat.ltb_spec (length buffer) (n + 6)); [reflexivity|lia]. Qed.

Lemma decode_body_long buffer n bl : (n + 6 <= length buffer)%nat -> decode_body buffer n bl = Ok (body_of buffer n bl).
Proof.
  intros H. destruct (split_buffer buffer n H) as (x & da' & sa' & fcb & payload & cks & e & rest & -> & <-).
  rewrite decode_body_spec, body_of_shape. reflexivity.
Qed.

Definition decode_spec (l : bytes) : dres :=
  match l with
  | [] => NeedMore
  | b0 :: _ =>
      if b0 =? SC then Accept TShortConf 1
      else if b0 =? SD4 then
        if Nat.ltb (length l) 3 then NeedMore else Accept (TToken (nth 1 l 0) (nth 2 l 0)) 3
      else if (b0 =? SD1) || (b0 =? SD2) || (b0 =? SD3) then
        if Nat.ltb (length l) 6 then NeedMore else
        match header_spec l with
        | None => Reject
        | Some (b, n, bl) => if Nat.ltb (length b) (n + 6) then NeedMore else body_of b n bl
        end
      else Reject
  end.

Theorem decode_is_spec l : decode l = Ok (decode_spec l).
Proof.
  unfold decode, decode_spec. destruct l as [|b0 t]; [reflexivity|].
  destruct (b0 =? SC); [reflexivity|]. destruct (b0 =? SD4).
  - destruct (Nat.ltb_spec (length (b0 :: t)) 3) as [H|H]; [reflexivity|].
    destruct t as [|b1 [|b2 t]]; cbn [length] in H; try lia. reflexivity.
  - destruct ((b0 =? SD1) || (b0 =? SD2) || (b0 =? SD3)); [|reflexivity].
    destruct (Nat.ltb_spec (length (b0 :: t)) 6) as [H|H].
    + unfold decode_data. destruct (Nat.ltb_spec (length (b0 :: t)) 6); [reflexivity|lia].
    + rewrite decode_data_spec by exact H. destruct (header_spec (b0 :: t)) as [[[b n] bl]|]; [|reflexivity].
      destruct (Nat.ltb_spec (length b) (n + 6)) as [Hs|Hl].
      * apply decode_body_short, Hs.
      * apply decode_body_long, Hl.
Qed.

Lemma body_spec_accept da' sa' fcb payload cks e bl t n :
  body_spec da' sa' fcb payload cks e bl = Accept t n ->
  exists fc dsap ssap pdu,
    t = TData (mkHeader (strip da') (strip sa') dsap ssap fc) pdu /\ n = bl /\
    fc_from_byte fcb = Some fc /\ payload = sapl dsap ++ sapl ssap ++ pdu /\
    negb (Z.land da' 128 =? 0) = is_some dsap /\ negb (Z.land sa' 128 =? 0) = is_some ssap /\
    cks = sum8 (da' :: sa' :: fcb :: payload) /\ e = ED.
Proof.
  unfold body_spec. destruct (fc_from_byte fcb) as [fc|]; [|discriminate].
  destruct (take_sap _ payload) as [[dsap p1]|] eqn:T1; [|discriminate].
  destruct (take_sap _ p1) as [[ssap p2]|] eqn:T2; [|discriminate].
  destruct (Z.eqb_spec cks (sum8 (da' :: sa' :: fcb :: payload))) as [Ec|_]; cbn [negb]; [|discriminate].
  destruct (Z.eqb_spec e ED) as [Ee|_]; cbn [negb]; [|discriminate].
  intros E. injection E as <- <-.
  apply take_sap_inv in T1. destruct T1 as [-> T1]. apply take_sap_inv in T2. destruct T2 as [-> T2].
  exists fc, dsap, ssap, p2. unfold strip. repeat split; assumption.
Qed.

Lemma body_spec_not_needmore da' sa' fcb payload cks e bl : body_spec da' sa' fcb payload cks e bl <> NeedMore.
Proof.
  unfold body_spec. destruct (fc_from_byte fcb); [|discriminate].
  destruct (take_sap _ payload) as [[dsap p1]|]; [|discriminate].
  destruct (take_sap _ p1) as [[ssap p2]|]; [|discriminate].
  destruct (negb (cks =? _)); [discriminate|]. destruct (negb (e =? ED)); discriminate.
Qed.

Lemma body_spec_reject da' sa' fcb payload cks e bl :
  cks <> sum8 (da' :: sa' :: fcb :: payload) \/ e <> ED -> body_spec da' sa' fcb payload cks e bl = Reject.
Proof.
  intros H. destruct (body_spec da' sa' fcb payload cks e bl) as [| |t n] eqn:B; [|reflexivity|].
  - destruct (body_spec_not_needmore _ _ _ _ _ _ _ B).
  - apply body_spec_accept in B. destruct B as (_ & _ & _ & _ & _ & _ & _ & _ & _ & _ & Ec & Ee). tauto.
Qed.

Definition is_data_delim (b : Z) : bool := (b =? SD1) || (b =? SD2) || (b =? SD3).

(* start of a data frame and the number of bytes between FC and FCS it announces *)
Inductive data_shape : bytes -> nat -> Prop :=
| DS1 : data_shape [SD1] 0
| DS3 : data_shape [SD3] 8
| DS2 n : data_shape [SD2; Z.of_nat (n + 3); Z.of_nat (n + 3); SD2] n.

(* a complete case analysis of byte strings, each with the decoder's verdict *)
Inductive view : bytes -> dres -> Prop :=
| V_nil : view [] NeedMore
| V_sc t : view (SC :: t) (Accept TShortConf 1)
| V_tok_short t : (length t < 2)%nat -> view (SD4 :: t) NeedMore
| V_tok da sa t : view (SD4 :: da :: sa :: t) (Accept (TToken da sa) 3)
| V_nodelim b0 t : is_delim b0 = false -> view (b0 :: t) Reject
| V_short6 b0 t : is_data_delim b0 = true -> (length (b0 :: t) < 6)%nat -> view (b0 :: t) NeedMore
| V_sd3_short t : (6 <= length (SD3 :: t) < 14)%nat -> view (SD3 :: t) NeedMore
| V_sd2_badhdr b1 b2 b3 t : (2 <= length t)%nat -> (b1 <> b2 \/ b3 <> SD2 \/ b1 < 3) ->
    view (SD2 :: b1 :: b2 :: b3 :: t) Reject
| V_sd2_short b1 t : 3 <= b1 -> (2 <= length t)%nat -> (length t + 4 < Z.to_nat b1 + 6)%nat ->
    view (SD2 :: b1 :: b1 :: SD2 :: t) NeedMore
| V_body pre n da' sa' fcb payload cks e rest : data_shape pre n -> length payload = n ->
    view (pre ++ da' :: sa' :: fcb :: payload ++ cks :: e :: rest)
         (body_spec da' sa' fcb payload cks e (length pre + n + 5)).

Lemma is_delim_false b : is_delim b = false ->
  (b =? SD1) = false /\ (b =? SD2) = false /\ (b =? SD3) = false /\ (b =? SD4) = false /\ (b =? SC) = false.
Proof.
  unfold is_delim. intros H.
  destruct (b =? SD1), (b =? SD2), (b =? SD3), (b =? SD4), (b =? SC); cbn in H; try discriminate; auto.
Qed.

Lemma is_data_delim_cases b : is_data_delim b = true -> b = SD1 \/ b = SD2 \/ b = SD3.
Proof. unfold is_data_delim. rewrite !orb_true_iff, !Z.eqb_eq. tauto. Qed.

(* len_lia: a length fact by lia; ltb_true / ltb_false: rewrite one length test of the goal,
   `a <? b` on nat, to the value len_lia can justify *)
Ltac len_lia := cbn [length] in *; rewrite ?app_length; cbn [length]; lia.
Ltac ltb_true := match goal with |- context [Nat.ltb ?a ?b] => rewrite (proj2 (Nat.ltb_lt a b)) by len_lia end.
Ltac ltb_false := match goal with |- context [Nat.ltb ?a ?b] => rewrite (proj2 (Nat.ltb_ge a b)) by len_lia end.

Lemma view_sound l r : view l r -> decode_spec l = r.
Proof.
  intros V. destruct V as [ |t|t Ht|da sa t|b0 t Hd|b0 t Hd Hl|t Hl|b1 b2 b3 t Hl Hbad|b1 t Hb Hl Hs
                           |pre n da' sa' fcb payload cks e rest Hsh Hn].
  - reflexivity.
  - unfold decode_spec. delim_eval. reflexivity.
  - unfold decode_spec. delim_eval. cbv iota. ltb_true. reflexivity.
  - unfold decode_spec. delim_eval. reflexivity.
  - destruct (is_delim_false b0 Hd) as (E1 & E2 & E3 & E4 & E5).
    unfold decode_spec. rewrite E1, E2, E3, E4, E5. reflexivity.
  - destruct (is_data_delim_cases b0 Hd) as [->|[->| ->]]; unfold decode_spec; delim_eval; cbn [orb]; cbv iota;
      ltb_true; reflexivity.
  - unfold decode_spec. delim_eval. cbn [orb]. cbv iota. ltb_false.
    destruct t as [|b1 [|b2 [|b3 t]]]; try len_lia.
    unfold header_spec. delim_eval. cbv iota. ltb_true. reflexivity.
  - unfold decode_spec. delim_eval. cbn [orb]. cbv iota. ltb_false.
    unfold header_spec. delim_eval. cbv iota.
    destruct (Z.eqb_spec b1 b2) as [E12|E12]; cbn [negb]; [|reflexivity].
    destruct (Z.eqb_spec b3 SD2) as [E3|E3]; cbn [negb]; [|reflexivity].
    destruct (Z.ltb_spec b1 3) as [E1|E1]; [reflexivity|].
    exfalso. destruct Hbad as [Hbad|[Hbad|Hbad]]; [exact (Hbad E12)|exact (Hbad E3)|lia].
  - unfold decode_spec. delim_eval. cbn [orb]. cbv iota. ltb_false.
    unfold header_spec. delim_eval. cbv iota. rewrite Z.eqb_refl. cbn [negb].
    rewrite (proj2 (Z.ltb_ge b1 3)) by lia. cbn [skipn]. ltb_true. reflexivity.
  - revert Hn. destruct Hsh as [ | |n]; intros Hn; cbn [app length]; unfold decode_spec; delim_eval; cbn [orb]; cbv iota;
      ltb_false; unfold header_spec.
    + destruct payload; [|discriminate]. cbn [app]. delim_eval. cbv iota. ltb_false.
      apply (body_of_shape SD1 da' sa' fcb [] cks e rest 6).
    + delim_eval. cbv iota. ltb_false.
      pose proof (body_of_shape SD3 da' sa' fcb payload cks e rest 14) as B. rewrite Hn in B. exact B.
    + delim_eval. cbv iota. rewrite Z.eqb_refl, (proj2 (Z.ltb_ge _ 3)) by lia. cbn [negb skipn].
      replace (Z.to_nat (Z.of_nat (n + 3) - 3)) with n by lia.
      replace (Z.to_nat (Z.of_nat (n + 3)) + 6)%nat with (4 + n + 5)%nat by lia.
      rewrite <- Hn. ltb_false. apply body_of_shape.
Qed.

Lemma view_complete l : exists r, view l r.
Proof.
  destruct l as [|b0 t]; [eexists; apply V_nil|].
  destruct (Z.eqb_spec b0 SC) as [->|HC]; [eexists; apply V_sc|].
  destruct (Z.eqb_spec b0 SD4) as [->|H4].
  { destruct t as [|da [|sa t']]; eexists; try apply V_tok; apply V_tok_short; cbn [length]; lia. }
  destruct (is_data_delim b0) eqn:Hd.
  2:{ eexists. apply V_nodelim. unfold is_delim. fold (is_data_delim b0).
      rewrite Hd, (proj2 (Z.eqb_neq _ _) H4), (proj2 (Z.eqb_neq _ _) HC). reflexivity. }
  destruct (Nat.ltb_spec (length (b0 :: t)) 6) as [Hs|Hl]; [eexists; apply (V_short6 b0 t Hd Hs)|].
  destruct (is_data_delim_cases b0 Hd) as [->|[->| ->]].
  - destruct t as [|da' [|sa' [|fcb [|cks [|e rest]]]]]; cbn [length] in Hl; try lia.
    eexists. apply (V_body [SD1] 0 da' sa' fcb [] cks e rest DS1 eq_refl).
  - destruct t as [|b1 [|b2 [|b3 t]]]; cbn [length] in Hl; try lia.
    assert (Ht : (2 <= length t)%nat) by lia.
    destruct (Z.eq_dec b1 b2) as [<-|E12]; [|eexists; apply V_sd2_badhdr; [exact Ht|auto]].
    destruct (Z.eq_dec b3 SD2) as [->|E3]; [|eexists; apply V_sd2_badhdr; [exact Ht|auto]].
    destruct (Z_lt_le_dec b1 3) as [E1|E1]; [eexists; apply V_sd2_badhdr; [exact Ht|auto]|].
    destruct (Nat.ltb_spec (length t + 4) (Z.to_nat b1 + 6)) as [Hs|Hlong]; [eexists; apply (V_sd2_short b1 t E1 Ht Hs)|].
    destruct (split_buffer (SD2 :: t) (Z.to_nat (b1 - 3))) as (x & da' & sa' & fcb & payload & cks & e & rest & Eq & Hn).
    { cbn [length]. lia. }
    injection Eq as <- ->.
    replace b1 with (Z.of_nat (Z.to_nat (b1 - 3) + 3)) by lia.
    eexists. apply (V_body _ _ da' sa' fcb payload cks e rest (DS2 (Z.to_nat (b1 - 3))) Hn).
  - destruct (Nat.ltb_spec (length (SD3 :: t)) 14) as [Hs|Hlong]; [eexists; apply V_sd3_short; lia|].
    destruct (split_buffer (SD3 :: t) 8) as (x & da' & sa' & fcb & payload & cks & e & rest & Eq & Hn); [lia|].
    injection Eq as <- ->.
    eexists. apply (V_body [SD3] 8 da' sa' fcb payload cks e rest DS3 Hn).
Qed.

Theorem decode_view l : view l (decode_spec l).
Proof. destruct (view_complete l) as [r V]. rewrite (view_sound l r V). exact V. Qed.

Lemma decode_view' l r : decode l = Ok r -> view l r.
Proof. rewrite decode_is_spec. intros E. injection E as <-. apply decode_view. Qed.

Lemma view_decode l r : view l r -> decode l = Ok r.
Proof. intros V. rewrite decode_is_spec, (view_sound l r V). reflexivity. Qed.

Lemma view_accept_data l h pdu n : view l (Accept (TData h pdu) n) ->
  exists pre da' sa' fcb rest,
    let payload := sapl (h_dsap h) ++ sapl (h_ssap h) ++ pdu in
    data_shape pre (length payload) /\
    l = pre ++ da' :: sa' :: fcb :: payload ++ sum8 (da' :: sa' :: fcb :: payload) :: ED :: rest /\
    n = (length pre + length payload + 5)%nat /\
    fc_from_byte fcb = Some (h_fc h) /\
    h_da h = strip da' /\ h_sa h = strip sa' /\
    negb (Z.land da' 128 =? 0) = is_some (h_dsap h) /\ negb (Z.land sa' 128 =? 0) = is_some (h_ssap h).
Proof.
  intros V. inversion V as [ | | | | | | | | |pre n0 da' sa' fcb payload cks e rest Hsh Hn El Er]. subst n0.
  apply body_spec_accept in Er.
  destruct Er as (fc & dsap & ssap & pdu' & Et & -> & Hfc & Hp & Hd & Hs & -> & ->).
  injection Et as -> ->. cbn [h_da h_sa h_dsap h_ssap h_fc]. subst payload.
  exists pre, da', sa', fcb, rest. cbv zeta. repeat split; try assumption; reflexivity.
Qed.

Lemma view_accept_token l da sa n : view l (Accept (TToken da sa) n) -> n = 3%nat /\ exists t, l = SD4 :: da :: sa :: t.
Proof.
  intros V. inversion V as [ | | |da0 sa0 t| | | | | |pre n0 da' sa' fcb payload cks e rest Hsh Hn El Er].
  - split; [reflexivity|]. exists t. reflexivity.
  - apply body_spec_accept in Er. destruct Er as (fc & dsap & ssap & pdu' & Et & _). discriminate.
Qed.

Lemma view_accept_sc l n : view l (Accept TShortConf n) -> n = 1%nat /\ exists t, l = SC :: t.
Proof.
  intros V. inversion V as [ |t| | | | | | | |pre n0 da' sa' fcb payload cks e rest Hsh Hn El Er].
  - split; [reflexivity|]. exists t. reflexivity.
  - apply body_spec_accept in Er. destruct Er as (fc & dsap & ssap & pdu' & Et & _). discriminate.
Qed.

Lemma shape_length (pre : bytes) n da' sa' fcb (payload : bytes) cks e (rest : bytes) :
  length payload = n ->
  length (pre ++ da' :: sa' :: fcb :: payload ++ cks :: e :: rest) = (length pre + n + 5 + length rest)%nat.
Proof. intros <-. rewrite app_length. cbn [length]. rewrite app_length. cbn [length]. lia. Qed.

Lemma view_accept_length l t n : view l (Accept t n) -> (1 <= n <= length l)%nat.
Proof.
  intros V. inversion V as [ |t0| |da sa t0| | | | | |pre n0 da' sa' fcb payload cks e rest Hsh Hn El Er]; [cbn [length]; lia..|].
  apply body_spec_accept in Er. destruct Er as (_ & _ & _ & _ & _ & -> & _).
  rewrite (shape_length pre n0) by exact Hn. lia.
Qed.

Lemma accept_stable l t n ext : decode l = Ok (Accept t n) -> decode (l ++ ext) = Ok (Accept t n).
Proof.
  intros D. apply decode_view' in D. apply view_decode.
  inversion D as [ |t0| |da sa t0| | | | | |pre n0 da' sa' fcb payload cks e rest Hsh Hn El Er].
  - apply V_sc.
  - apply V_tok.
  - rewrite <- app_assoc. cbn [app]. rewrite <- app_assoc. cbn [app]. rewrite Er.
    rewrite <- Er. apply V_body; assumption.
Qed.

Lemma reject_stable l ext : decode l = Ok Reject -> decode (l ++ ext) = Ok Reject.
Proof.
  intros D. apply decode_view' in D. apply view_decode.
  inversion D as [ | | | |b0 t Hd| | |b1 b2 b3 t Hl Hbad| |pre n0 da' sa' fcb payload cks e rest Hsh Hn El Er].
  - apply V_nodelim, Hd.
  - apply V_sd2_badhdr; [rewrite app_length; lia|exact Hbad].
  - rewrite <- app_assoc. cbn [app]. rewrite <- app_assoc. cbn [app]. rewrite Er.
    rewrite <- Er. apply V_body; assumption.
Qed.

Lemma proper_prefix_waits F t n k :
  decode F = Ok (Accept t n) -> (k < n)%nat -> decode (firstn k F) = Ok NeedMore.
Proof.
  intros DF Hk. destruct (decode_spec (firstn k F)) as [ | |t' n'] eqn:E;
    pose proof (decode_is_spec (firstn k F)) as D; rewrite E in D; [exact D| |].
  - apply (reject_stable _ (skipn k F)) in D. rewrite firstn_skipn in D. congruence.
  - pose proof (view_accept_length _ _ _ (decode_view' _ _ D)) as [_ Hn]. rewrite firstn_length in Hn.
    apply (accept_stable _ _ _ (skipn k F)) in D. rewrite firstn_skipn in D.
    rewrite DF in D. injection D as _ Hlen. lia.
Qed.
