(* Histories of ONE peripheral (C03, C08): any sequence of calls that reach a `Peripheral`, run on the model of
   Peripheral.v, yields a wire trace `list wev`.  The monitor state `ghost` is a function of that trace alone;
   `Inv` relates it to the peripheral record, `step_inv` shows that every call from every state satisfying Inv
   preserves it and emits an event satisfying `ev_ok`, and `history_ok` lifts this over the call list. *)
From PB Require Import Peripheral DpOracle DpStepProofs ByteFacts.

Inductive pcall : Set :=
| PcTransmit (op : opstate)     (* Peripheral::transmit_telegram in operating state op *)
| PcReply (t : telegram)        (* Peripheral::receive_reply *)
| PcTimeout                     (* handle_timeout / request abandoned by the FDL: nothing reaches the peripheral *)
| PcReqDiag                     (* request_diagnostics() *)
| PcWriteQ (q : bytes).         (* pi_q_mut().copy_from_slice(q) *)

Inductive wev : Set :=
| WReq (h : header) (pdu : bytes)            (* a request to the peripheral went on the wire *)
| WIdle                                      (* transmit_telegram: nothing to send in this turn, no event *)
| WEvent (ev : pevent)                       (* transmit_telegram: nothing sent, event raised *)
| WReply (t : telegram) (ev : option pevent) (* a reply was delivered; the event it raised *)
| WTimeout                                   (* the outstanding request got no (admissible) reply *)
| WUser.                                     (* a user call: nothing on the wire *)

(* what a call of transmit_telegram shows on the wire / in the event queue *)
Definition wev_of_ptx (r : ptx) : wev :=
  match r with
  | PtxSend h pdu => WReq h pdu
  | PtxSkip None => WIdle
  | PtxSkip (Some ev) => WEvent ev
  end.

Definition p_step (pa : params) (p : periph) (c : pcall) : res (periph * wev) :=
  match c with
  | PcTransmit op => let* (p1, r) := p_transmit pa op p in Ok (p1, wev_of_ptx r)
  | PcReply t => let* (p1, ev) := p_receive_reply p t in Ok (p1, WReply t ev)
  | PcTimeout => Ok (p, WTimeout)
  | PcReqDiag => Ok (p_request_diagnostics p, WUser)
  | PcWriteQ q => let* d := copy_from_slice (pe_pi_q p) q in Ok (set_pi_q p d, WUser)
  end.

Fixpoint p_run (pa : params) (p : periph) (cs : list pcall) : res (periph * list wev) :=
  match cs with
  | [] => Ok (p, [])
  | c :: r =>
      let* (p1, e) := p_step pa p c in
      let* (p2, tr) := p_run pa p1 r in
      Ok (p2, e :: tr)
  end.

(* the contract, on the trace: `out` = a request is outstanding *)
Fixpoint contract_p (out : bool) (tr : list wev) : bool :=
  match tr with
  | [] => true
  | WReq _ _ :: r => contract_p true r
  | WIdle :: r => contract_p false r
  | WEvent _ :: r => contract_p false r
  | WReply _ _ :: r => out && contract_p false r
  | WTimeout :: r => out && contract_p false r
  | WUser :: r => contract_p out r
  end.

(* Prm_Fault (0x40 of station status 1) or Cfg_Fault (0x04) *)
Definition diag_fault (f : Z) : bool := has_flag f 64 || has_flag f 4.

Definition resp_is_rs (h : header) : bool :=
  match h_fc h with FcResponse _ StSapNotEnabled => true | _ => false end.

(* STRICT bring-up monitor, wire only.  sv = service of the request the accepted reply t answers.
   NeedDiag -> DiagAnswered -> PrmAcked -> CfgAcked -> Ready;  in CfgAcked a diagnostics reply with a
   parameter / configuration fault means "considered offline" (NeedDiag); a diagnostics reply carrying
   Prm_Req (0x100) restarts at DiagAnswered from every phase (F16: also from Ready); a Data_Exchange reply
   "service not activated" (RS) sends Ready back to CfgAcked (readiness must be confirmed again). *)
Definition next_phase (ph : phase) (sv : service) (t : telegram) : phase :=
  match sv, t with
  | SvDiag, TData _ pdu =>
      let f := diag_flags pdu in
      match ph with
      | PhNeedDiag => PhDiagAnswered
      | PhCfgAcked =>
          if diag_fault f then PhNeedDiag
          else if has_flag f 256 then PhDiagAnswered
          else if has_flag f 2 then PhCfgAcked
          else PhReady
      | _ => if has_flag f 256 then PhDiagAnswered else ph
      end
  | SvPrm, TShortConf => if phase_eqb ph PhDiagAnswered then PhPrmAcked else ph
  | SvCfg, TShortConf => if phase_eqb ph PhPrmAcked then PhCfgAcked else ph
  | SvDx, TData h _ => if phase_eqb ph PhReady && resp_is_rs h then PhCfgAcked else ph
  | _, _ => ph
  end.

(* TEXT bring-up monitor ("text": the wording of property C03, as DpOracle.c03_step renders it): the wire part
   of c03_step, transition for transition ... *)
Definition text_phase (ph : phase) (sv : service) (t : telegram) : phase :=
  match sv, t with
  | SvDiag, TData _ pdu =>
      let f := diag_flags pdu in
      if has_flag f 256 then PhDiagAnswered
      else match ph with
           | PhNeedDiag => PhDiagAnswered
           | PhCfgAcked => if has_flag f 64 || has_flag f 4 || has_flag f 2 then PhCfgAcked else PhReady
           | _ => ph
           end
  | SvPrm, _ => if phase_eqb ph PhDiagAnswered then PhPrmAcked else ph
  | SvCfg, _ => if phase_eqb ph PhPrmAcked then PhCfgAcked else ph
  | _, _ => ph
  end.
(* ... and its event part: the master considers the peripheral offline *)
Definition offline_event (ev : option pevent) : bool :=
  match ev with
  | Some EvOffline | Some EvParameterError | Some EvConfigError => true
  | _ => false
  end.

Record ghost : Set := mkGhost {
  gh_phase : phase;            (* strict bring-up monitor *)
  gh_text : phase;             (* text bring-up monitor (DpOracle.c03_step) *)
  gh_last : option header;     (* the last request since start / since the last Offline event *)
  gh_acc : bool;               (* that request has been answered by an accepted reply *)
  gh_unans : Z;                (* transmissions since the last accepted reply, idle turn or Offline event *)
  gh_out : bool }.             (* a request is outstanding *)

Definition ghost0 : ghost := mkGhost PhNeedDiag PhNeedDiag None false 0 false.

Definition gstep (g : ghost) (e : wev) : ghost :=
  match e with
  | WReq h _ => mkGhost (gh_phase g) (gh_text g) (Some h) false (gh_unans g + 1) true
  | WIdle => mkGhost (gh_phase g) (gh_text g) (gh_last g) (gh_acc g) 0 false
  | WEvent EvOffline => mkGhost PhNeedDiag PhNeedDiag None false 0 false
  | WEvent ev =>                                                                   (* does not occur: ev_ok *)
      mkGhost (gh_phase g) (if offline_event (Some ev) then PhNeedDiag else gh_text g) (gh_last g) (gh_acc g) 0 false
  | WReply t ev =>
      let sv := match gh_last g with Some h => classify h | None => SvOther end in
      let acc := reply_accepted sv t in        (* the standard's view; SvOther accepts nothing *)
      let tx := if acc then text_phase (gh_text g) sv t else gh_text g in
      let tx' := if offline_event ev then PhNeedDiag else tx in
      if acc then mkGhost (next_phase (gh_phase g) sv t) tx' (gh_last g) true 0 false
      else mkGhost (gh_phase g) tx' (gh_last g) (gh_acc g) (gh_unans g) false
  | WTimeout => mkGhost (gh_phase g) (gh_text g) (gh_last g) (gh_acc g) (gh_unans g) false
  | WUser => g
  end.

Definition ghost_of (tr : list wev) : ghost := fold_left gstep tr ghost0.

(* the histories of the theorems: any call sequence on a freshly constructed peripheral (any address, options,
   image sizes, diagnostics buffer) whose run does not panic and whose trace respects the contract *)
Definition history (pa : params) (a : Z) (o : poptions) (tr : list wev) : Prop :=
  exists i q d cs p', p_run pa (periph_new a o i q d) cs = Ok (p', tr) /\ contract_p false tr = true.

(* the requests of the standard, with literal SAP numbers: Slave_Diag 60, Set_Prm 61, Chk_Cfg 62 from the
   master's SAP 62; Data_Exchange on the default SAP; frame count bit f *)
Definition std_request (pa : params) (a : Z) (o : poptions) (f : fcbit) (sv : service) (h : header) (pdu : bytes)
  : Prop :=
  match sv with
  | SvDiag => h = mkHeader a (p_address pa) (Some 60) (Some 62) (FcRequest f RqSrdLow) /\ pdu = []
  | SvPrm => exists user, o_user_prm o = Some user /\
             h = mkHeader a (p_address pa) (Some 61) (Some 62) (FcRequest f RqSrdLow) /\
             pdu = std_set_prm pa o user
  | SvCfg => exists cfg, o_config o = Some cfg /\
             h = mkHeader a (p_address pa) (Some 62) (Some 62) (FcRequest f RqSrdLow) /\ pdu = cfg
  | SvDx => h = mkHeader a (p_address pa) None None (FcRequest f RqSrdHigh)
  | _ => False
  end.

Definition phase_service_ok (ph : phase) (sv : service) : Prop :=
  match sv with
  | SvDiag => ph = PhNeedDiag \/ ph = PhCfgAcked \/ ph = PhReady
  | SvPrm => ph = PhDiagAnswered
  | SvCfg => ph = PhPrmAcked
  | SvDx => ph = PhReady
  | _ => False
  end.

Definition req_ok (pa : params) (a : Z) (o : poptions) (g : ghost) (h : header) (pdu : bytes) : Prop :=
  exists f,
    std_request pa a o f (classify h) h pdu /\ f <> FcbInactive /\
    (* C08: first / toggle / retransmission *)
    (gh_last g = None -> f = FcbFirst) /\
    (forall h0, gh_last g = Some h0 ->
       exists f0 rq0, h_fc h0 = FcRequest f0 rq0 /\
         if gh_acc g
         then fcbit_fcv f = true /\ fcbit_fcb f = negb (fcbit_fcb f0)
         else classify h = classify h0 /\ h_da h = h_da h0 /\
              (h_fc h = h_fc h0 \/ (gh_phase g = PhNeedDiag /\ f = FcbFirst))) /\
    (* C08: probes of a peripheral that is not live: Slave_Diag only, never retransmitted in the same turn *)
    (gh_phase g = PhNeedDiag -> classify h = SvDiag /\ gh_unans g = 0) /\
    (* C08: retry bound *)
    gh_unans g <= p_max_retry pa /\
    (* C03: order *)
    phase_service_ok (gh_phase g) (classify h) /\
    (classify h = SvDx -> gh_text g = PhReady).

Definition ev_ok (pa : params) (a : Z) (o : poptions) (g : ghost) (e : wev) : Prop :=
  match e with
  | WReq h pdu => req_ok pa a o g h pdu
  | WIdle => gh_unans g <= p_max_retry pa
  | WEvent ev => ev = EvOffline /\ gh_phase g <> PhNeedDiag /\ gh_unans g = p_max_retry pa + 1
  | _ => True
  end.

Definition state_phase (s : pstate) : phase :=
  match s with
  | PsOffline => PhNeedDiag
  | PsWaitForParam => PhDiagAnswered
  | PsWaitForConfig => PhPrmAcked
  | PsValidateConfig => PhCfgAcked
  | PsPreDataExchange | PsDataExchange => PhReady
  end.

(* the service of the request transmit_telegram sends / receive_reply expects in this state *)
Definition state_service (p : periph) : service :=
  match pe_state p with
  | PsOffline | PsValidateConfig => SvDiag
  | PsWaitForParam => SvPrm
  | PsWaitForConfig => SvCfg
  | PsPreDataExchange | PsDataExchange => if pe_diag_in_flight p then SvDiag else SvDx
  end.

Definition sv_req (sv : service) : req_type := match sv with SvDx => RqSrdHigh | _ => RqSrdLow end.

(* states in which transmit_telegram has nothing to send: the user gave no parameters / configuration (O7) *)
Definition idle_state (p : periph) : Prop :=
  match pe_state p with
  | PsWaitForParam => o_user_prm (pe_opts p) = None
  | PsWaitForConfig => o_config (pe_opts p) = None
  | _ => False
  end.

Record Inv (pa : params) (a : Z) (o : poptions) (p : periph) (g : ghost) : Prop := mkInv {
  inv_addr : pe_addr p = a;
  inv_opts : pe_opts p = o;
  inv_phase : gh_phase g = state_phase (pe_state p);
  inv_text : gh_text g = gh_phase g \/ (gh_phase g = PhCfgAcked /\ gh_text g = PhReady);
  inv_retry : pe_retry p = gh_unans g;
  inv_bound : 0 <= gh_unans g <= p_max_retry pa + 1;
  inv_probe : pe_state p = PsOffline -> gh_unans g <= 1;
  inv_active : pe_fcb p <> FcbInactive;
  inv_fcb : match gh_last g with
            | None => pe_fcb p = FcbFirst
            | Some h => exists f, h_fc h = FcRequest f (sv_req (classify h)) /\ h_da h = a /\
                 if gh_acc g then fcbit_cycle f = Some (pe_fcb p)
                 else pe_fcb p = f \/ (pe_state p = PsOffline /\ pe_fcb p = FcbFirst /\ gh_unans g = 0)
            end;
  inv_unacc : forall h, gh_last g = Some h -> gh_acc g = false ->
              classify h = state_service p /\ (0 < gh_unans g \/ pe_state p = PsOffline);
  inv_pending : 0 < gh_unans g -> exists h, gh_last g = Some h /\ gh_acc g = false;
  inv_idle : idle_state p -> gh_unans g = 0;
  inv_out : gh_out g = true -> 0 < gh_unans g }.

Lemma inv_init : forall pa a o i q d, 0 <= p_max_retry pa -> Inv pa a o (periph_new a o i q d) ghost0.
Proof.
  intros. constructor; cbn; try reflexivity; try lia; try discriminate; auto; intros; try lia; try discriminate;
    try contradiction.
Qed.

Lemma pow2_nonzero : forall k, 0 <= k -> 2 ^ k <> 0.
Proof. intros k Hk. pose proof (Z.pow_pos_nonneg 2 k ltac:(lia) Hk). lia. Qed.

(* the code's test on the stored flags (PERMANENT bit 0x400 removed) = the wire test, for every other bit *)
Lemma contains_remove_pow2 : forall x k, 0 <= k -> k <> 10 ->
  flags_contains (flags_remove x DF_PERMANENT_BIT) (2 ^ k) = has_flag x (2 ^ k).
Proof.
  intros x k Hk Hne. unfold flags_contains, flags_remove, has_flag.
  rewrite !land_pow2 by assumption.
  rewrite Z.ldiff_spec. change DF_PERMANENT_BIT with (2 ^ 10).
  rewrite Z.pow2_bits_eqb by lia.
  replace (10 =? k) with false by (symmetry; apply Z.eqb_neq; lia).
  cbn [negb]. rewrite andb_true_r.
  pose proof (pow2_nonzero k Hk) as Hz.
  destruct (Z.testbit x k).
  - rewrite Z.eqb_refl. symmetry. apply negb_true_iff. apply Z.eqb_neq. exact Hz.
  - replace (0 =? 2 ^ k) with false by (symmetry; apply Z.eqb_neq; lia). reflexivity.
Qed.

Lemma contains_remove : forall x,
  flags_contains (flags_remove x DF_PERMANENT_BIT) DF_PARAMETER_FAULT = has_flag x 64 /\
  flags_contains (flags_remove x DF_PERMANENT_BIT) DF_CONFIGURATION_FAULT = has_flag x 4 /\
  flags_contains (flags_remove x DF_PERMANENT_BIT) DF_PARAMETER_REQUIRED = has_flag x 256 /\
  flags_contains (flags_remove x DF_PERMANENT_BIT) DF_STATION_NOT_READY = has_flag x 2.
Proof.
  intro x. repeat split.
  - exact (contains_remove_pow2 x 6 ltac:(lia) ltac:(lia)).
  - exact (contains_remove_pow2 x 2 ltac:(lia) ltac:(lia)).
  - exact (contains_remove_pow2 x 8 ltac:(lia) ltac:(lia)).
  - exact (contains_remove_pow2 x 1 ltac:(lia) ltac:(lia)).
Qed.

Lemma set_prm_std : forall pa o user, set_prm_pdu pa o user = std_set_prm pa o user.
Proof.
  intros. unfold set_prm_pdu, std_set_prm.
  destruct (o_sync o); destruct (o_freeze o); destruct (p_watchdog pa) as [[f1 f2]|]; reflexivity.
Qed.

Lemma std_request_classify : forall pa a o f sv h pdu,
  std_request pa a o f sv h pdu ->
  classify h = sv /\ h_da h = a /\ h_sa h = p_address pa /\ h_fc h = FcRequest f (sv_req sv).
Proof.
  intros pa a o f sv h pdu H. destruct sv; cbn in H; try contradiction.
  - destruct H as [-> _]. cbn. repeat split; eauto.
  - destruct H as (u & _ & -> & _). cbn. repeat split; eauto.
  - destruct H as (u & _ & -> & _). cbn. repeat split; eauto.
  - subst h. cbn. repeat split; eauto.
Qed.

(* the code's tests on a reply are the standard's view (DpOracle.reply_accepted) *)
Lemma accepted_diag : forall t, reply_accepted SvDiag t = is_diag_reply t.
Proof.
  destruct t as [h pdu| |]; try reflexivity. unfold reply_accepted. rewrite Nat.leb_antisym. reflexivity.
Qed.

Lemma accepted_sc : forall t, reply_accepted SvPrm t = is_sc t /\ reply_accepted SvCfg t = is_sc t.
Proof. destruct t; split; reflexivity. Qed.

Lemma rejects_not_accepted : forall p t, rejects p t -> reply_accepted (state_service p) t = false.
Proof.
  intros p t H. unfold rejects, state_service in *. destruct (accepted_sc t) as [Hp Hc].
  destruct (pe_state p); try (rewrite accepted_diag; exact H); try congruence;
    destruct H as [-> H]; rewrite accepted_diag; exact H.
Qed.

Lemma exhausted_false : forall r m, dp_retry_exhausted r m = false -> r <= m.
Proof. intros r m H. unfold dp_retry_exhausted in H. apply Z.ltb_ge in H. exact H. Qed.
Lemma exhausted_true : forall r m, dp_retry_exhausted r m = true -> m < r.
Proof. intros r m H. unfold dp_retry_exhausted in H. apply Z.ltb_lt in H. exact H. Qed.

#[local] Arguments set_prm_pdu : simpl never.

Lemma transmit_facts : forall pa op p p' r,
  p_transmit pa op p = Ok (p', r) ->
  pe_addr p' = pe_addr p /\ pe_opts p' = pe_opts p /\
  match r with
  | PtxSend h pdu =>
      pe_retry p <= p_max_retry pa /\ pe_state p' = pe_state p /\ pe_fcb p' = pe_fcb p /\
      pe_retry p' = pe_retry p + 1 /\ (pe_state p = PsOffline -> pe_retry p = 0) /\
      (pe_retry p <> 0 -> state_service p' = state_service p) /\
      std_request pa (pe_addr p) (pe_opts p) (pe_fcb p) (state_service p') h pdu
  | PtxSkip (Some ev) =>
      ev = EvOffline /\ p_max_retry pa < pe_retry p /\ pe_fcb p' = FcbFirst /\ pe_state p' = PsOffline /\
      pe_retry p' = 0
  | PtxSkip None =>
      pe_retry p <= p_max_retry pa /\ pe_retry p' = 0 /\ pe_state p' = pe_state p /\
      pe_diag_in_flight p' = pe_diag_in_flight p /\
      ((idle_state p /\ pe_fcb p' = pe_fcb p) \/
       (pe_state p = PsOffline /\ pe_retry p <> 0 /\ pe_fcb p' = FcbFirst))
  end.
Proof.
  intros pa op p p' r H. apply p_transmit_inv in H. destruct H as [_ [Hex|p1 h pdu Hex R _|p1 Hex I]].
  - apply exhausted_true in Hex. repeat split; auto.
  - apply exhausted_false in Hex. unfold state_service.
    inversion R as [Hs Hr|user Hs Ho|cfg Hs Ho|Hs|[Hs|Hs] Hl|[Hs|Hs] Hl]; subst; cbn; rewrite Hs;
      cbn [std_request]; repeat split; auto; try discriminate; eauto using set_prm_std;
      intro Hn; rewrite <- (latched_retransmission _ Hn), Hl; reflexivity.
  - apply exhausted_false in Hex. unfold idle_state.
    destruct I as [Hs Hr|Hs Ho|Hs Ho]; cbn; rewrite Hs; repeat split; auto.
Qed.

Lemma phase_eqb_refl : forall ph, phase_eqb ph ph = true.
Proof. destruct ph; reflexivity. Qed.

(* ValidateConfig: the new state and event, in terms of the flags on the wire *)
Lemma validate_outcome_wire : forall x,
  let o := validate_outcome (flags_remove x DF_PERMANENT_BIT) in
  state_phase (fst o) = (if diag_fault x then PhNeedDiag else if has_flag x 256 then PhDiagAnswered
                         else if has_flag x 2 then PhCfgAcked else PhReady) /\
  offline_event (snd o) = diag_fault x.
Proof.
  intro x. unfold validate_outcome, diag_fault. destruct (contains_remove x) as (-> & -> & -> & ->).
  destruct (has_flag x 64); destruct (has_flag x 4); destruct (has_flag x 256); destruct (has_flag x 2);
    split; reflexivity.
Qed.

(* Peripheral::receive_reply: the reply is accepted exactly when the standard's view accepts it for the
   service of the state; accepted = bit cycled, counter cleared, phase advanced as the strict monitor says;
   rejected = nothing the monitors depend on changes *)
Lemma receive_facts : forall p t p' ev,
  p_receive_reply p t = Ok (p', ev) ->
  pe_addr p' = pe_addr p /\ pe_opts p' = pe_opts p /\
  if reply_accepted (state_service p) t
  then fcbit_cycle (pe_fcb p) = Some (pe_fcb p') /\ pe_retry p' = 0 /\
       state_phase (pe_state p') = next_phase (state_phase (pe_state p)) (state_service p) t /\
       offline_event ev =
         phase_eqb (state_phase (pe_state p)) PhCfgAcked && phase_eqb (state_phase (pe_state p')) PhNeedDiag
  else pe_fcb p' = pe_fcb p /\ pe_retry p' = pe_retry p /\ pe_state p' = pe_state p /\
       pe_diag_in_flight p' = pe_diag_in_flight p /\ offline_event ev = false.
Proof.
  intros p t p' ev H. apply p_receive_reply_inv in H.
  destruct H as [Hrej|f di x Hs Ha|f Hs Hsc Hf|f di x Hs Ha|f di x Hx Hfl Ha|p1 ev f Hx Hfl Hd Hf].
  - rewrite (rejects_not_accepted _ _ Hrej). repeat split; reflexivity.
  - destruct Ha as (Hd & Hf & h & pdu & -> & _). unfold state_service. rewrite Hs, accepted_diag, Hd.
    repeat split; auto.
  - destruct (accepted_sc t) as [Hp Hc]. destruct t; try discriminate Hsc. unfold state_service.
    destruct Hs as [Hs|Hs]; rewrite Hs; repeat split; auto.
  - destruct Ha as (Hd & Hf & h & pdu & -> & Hfl). unfold state_service. rewrite Hs, accepted_diag, Hd.
    cbn [pe_addr pe_opts pe_fcb pe_retry pe_state set_state set_diag set_fcb set_retry state_phase next_phase].
    change (nth 0 pdu 0 + 256 * nth 1 pdu 0) with (diag_flags pdu) in Hfl. rewrite Hfl.
    destruct (validate_outcome_wire (diag_flags pdu)) as [-> ->].
    repeat split; auto. destruct (diag_fault (diag_flags pdu)); [reflexivity|].
    destruct (has_flag _ 256); [reflexivity|]. destruct (has_flag _ 2); reflexivity.
  - destruct Ha as (Hd & Hf & h & pdu & -> & Hflags). unfold state_service.
    change (nth 0 pdu 0 + 256 * nth 1 pdu 0) with (diag_flags pdu) in Hflags. rewrite Hflags.
    destruct (contains_remove (diag_flags pdu)) as (_ & _ & -> & _).
    destruct Hx as [Hs|Hs]; rewrite Hs, Hfl, accepted_diag, Hd; cbn; destruct (has_flag _ 256); cbn; rewrite ?Hs;
      repeat split; auto.
  - destruct (receive_dx_inv _ _ _ _ Hd) as (Ht & n & Hi).
    assert (Hacc : reply_accepted SvDx t = true) by (destruct t; [reflexivity|contradiction|reflexivity]).
    assert (Hph : state_phase (pe_state p) = PhReady) by (destruct Hx as [-> | ->]; reflexivity).
    unfold state_service. replace (match pe_state p with PsPreDataExchange | PsDataExchange => _ | _ => _ end) with SvDx
      by (destruct Hx as [-> | ->]; rewrite Hfl; reflexivity).
    rewrite Hacc, Hph. unfold dx_data, is_rs in Hi. cbn [next_phase phase_eqb andb]. unfold resp_is_rs.
    destruct t as [h pdu| |]; [|contradiction|].
    + destruct (h_fc h) as [|st s]; [destruct Hi as [-> ->]; repeat split; auto; rewrite Hph; reflexivity|].
      destruct s; try destruct (Nat.eqb _ _); destruct Hi as [-> ->]; cbn; rewrite ?Hph; repeat split; auto.
    + destruct (Nat.eqb _ _); destruct Hi as [-> ->]; cbn; rewrite ?Hph; repeat split; auto.
Qed.

Lemma state_service_ok : forall p, phase_service_ok (state_phase (pe_state p)) (state_service p).
Proof.
  intro p. unfold state_service. destruct (pe_state p); cbn; auto.
  - destruct (pe_diag_in_flight p); cbn; auto.
  - destruct (pe_diag_in_flight p); cbn; auto.
Qed.

Lemma need_diag_offline : forall s, state_phase s = PhNeedDiag -> s = PsOffline.
Proof. destruct s; cbn; intro H; try discriminate; reflexivity. Qed.

(* the text monitor (DpOracle.c03_step: wire part, then the master's fault events) follows the strict one:
   equal, or Ready while the strict one re-validates after a "service not activated" reply *)
Lemma text_follows : forall ph tx sv t ev,
  (tx = ph \/ (ph = PhCfgAcked /\ tx = PhReady)) ->
  reply_accepted sv t = true -> phase_service_ok ph sv ->
  offline_event ev = phase_eqb ph PhCfgAcked && phase_eqb (next_phase ph sv t) PhNeedDiag ->
  (if offline_event ev then PhNeedDiag else text_phase tx sv t) = next_phase ph sv t \/
  (next_phase ph sv t = PhCfgAcked /\ (if offline_event ev then PhNeedDiag else text_phase tx sv t) = PhReady).
Proof.
  intros ph tx sv t ev Hrel Hacc Hok Hev. rewrite Hev. clear Hev.
  destruct sv; cbn in Hok; try contradiction.
  - (* Diag *)
    destruct t as [h pdu| |]; try discriminate Hacc.
    cbn [next_phase text_phase]. unfold diag_fault.
    destruct Hok as [ -> | [ -> | -> ] ]; destruct Hrel as [ -> | [Hx -> ] ]; try discriminate Hx; cbn [phase_eqb andb];
      destruct (has_flag (diag_flags pdu) 64); destruct (has_flag (diag_flags pdu) 4);
      destruct (has_flag (diag_flags pdu) 256); destruct (has_flag (diag_flags pdu) 2); cbn; auto.
  - destruct t as [h pdu| |]; try discriminate Hacc. subst ph.
    destruct Hrel as [ -> | [Hx _] ]; [|discriminate Hx]. cbn. auto.
  - destruct t as [h pdu| |]; try discriminate Hacc. subst ph.
    destruct Hrel as [ -> | [Hx _] ]; [|discriminate Hx]. cbn. auto.
  - subst ph. destruct Hrel as [ -> | [Hx _] ]; [|discriminate Hx].
    destruct t as [h pdu| |]; try discriminate Hacc; cbn; auto.
    destruct (resp_is_rs h); cbn; auto.
Qed.

Lemma step_inv : forall pa a o p g c p' e,
  1 <= p_max_retry pa ->
  Inv pa a o p g ->
  p_step pa p c = Ok (p', e) ->
  contract_p (gh_out g) [e] = true ->
  Inv pa a o p' (gstep g e) /\ ev_ok pa a o g e.
Proof.
  intros pa a o p g c p' e Hmax I H Hct.
  destruct I as [Iaddr Iopts Iphase Itext Iretry Ibound Iprobe Iactive Ifcb Iunacc Ipending Iidle Iout].
  destruct c as [op|t| | |q]; cbn [p_step] in H.
  - (* transmit_telegram *)
    unfold bind in H. destruct (p_transmit pa op p) as [[p1 r]| |] eqn:Ht; try discriminate.
    inversion H; subst p' e; clear H.
    destruct (transmit_facts _ _ _ _ _ Ht) as (Ha & Ho & F).
    destruct r as [h pdu|[ev|]]; cbn [wev_of_ptx] in *.
    + (* a request *)
      destruct F as (Hle & Hs & Hf & Hr & Hoff & Hsame & Hstd).
      destruct (std_request_classify _ _ _ _ _ _ _ Hstd) as (Hcl & Hda & Hsa & Hfc).
      split.
      * constructor; cbn [gstep gh_phase gh_text gh_last gh_acc gh_unans gh_out]; try congruence; try lia.
        -- intro Hx. rewrite Hs in Hx. specialize (Hoff Hx). lia.
        -- rewrite Hcl. exists (pe_fcb p). repeat split; try congruence. left. exact Hf.
        -- intros h0 Hh0 _. inversion Hh0; subst h0. split; [exact Hcl|left; lia].
        -- intros _. exists h. split; reflexivity.
        -- intro Hid. exfalso. unfold idle_state in Hid. rewrite Hs, Ho in Hid.
           unfold state_service in Hstd. rewrite Hs in Hstd.
           destruct (pe_state p); try contradiction; cbn in Hstd;
             destruct Hstd as (u & Hu & _); congruence.
      * cbn [ev_ok]. exists (pe_fcb p).
        rewrite Hcl. rewrite <- Iaddr, <- Iopts.
        split; [exact Hstd|]. split; [exact Iactive|].
        split; [intro Hn; rewrite Hn in Ifcb; exact Ifcb|].
        split.
        { intros h0 Hh0. rewrite Hh0 in Ifcb. destruct Ifcb as (f0 & Hfc0 & Hda0 & Hb).
          exists f0, (sv_req (classify h0)). split; [exact Hfc0|].
          destruct (gh_acc g) eqn:Hacc.
          - apply fcbit_cycle_toggles. exact Hb.
          - destruct (Iunacc h0 Hh0 eq_refl) as (Hcl0 & Hpos).
            assert (Hsv : state_service p1 = classify h0).
            { rewrite Hcl0. destruct Hpos as [Hpos|Hpos].
              - apply Hsame. lia.
              - unfold state_service. rewrite Hs, Hpos. reflexivity. }
            split; [exact Hsv|]. split; [congruence|].
            destruct Hb as [Hb|(Hb1 & Hb2 & _)].
            + left. rewrite Hfc, Hfc0, Hb, Hsv. reflexivity.
            + right. split; [rewrite Iphase, Hb1; reflexivity|exact Hb2]. }
        split.
        { intro Hn. rewrite Iphase in Hn. apply need_diag_offline in Hn.
          split; [|specialize (Hoff Hn); lia].
          unfold state_service. rewrite Hs, Hn. reflexivity. }
        split; [lia|].
        assert (Hok : phase_service_ok (gh_phase g) (state_service p1)).
        { rewrite Iphase, <- Hs. apply state_service_ok. }
        split; [exact Hok|].
        intro Hdx. rewrite Hdx in Hok. cbn in Hok.
        destruct Itext as [Hx|[Hx _]]; congruence.
    + (* retries exhausted: Offline *)
      destruct F as (-> & Hgt & Hf & Hs & Hr).
      split.
      * constructor; cbn [gstep gh_phase gh_text gh_last gh_acc gh_unans gh_out]; try congruence; try lia.
        -- rewrite Hs. reflexivity.
        -- left; reflexivity.
      * cbn [ev_ok]. split; [reflexivity|]. split; [|lia].
        intro Hn. rewrite Iphase in Hn. apply need_diag_offline in Hn. specialize (Iprobe Hn). lia.
    + (* nothing to send *)
      destruct F as (Hle & Hr & Hs & Hfl & Hcase).
      assert (Hsv : state_service p1 = state_service p) by (unfold state_service; rewrite Hs, Hfl; reflexivity).
      split; [|cbn [ev_ok]; lia].
      constructor; cbn [gstep gh_phase gh_text gh_last gh_acc gh_unans gh_out]; try congruence; try lia.
      * destruct Hcase as [(_ & Hf)|(_ & _ & Hf)]; rewrite Hf; [exact Iactive|discriminate].
      * destruct (gh_last g) as [h0|] eqn:Hl.
        -- destruct Ifcb as (f0 & Hfc0 & Hda0 & Hb). exists f0. split; [exact Hfc0|]. split; [exact Hda0|].
           destruct (gh_acc g) eqn:Hacc.
           ++ destruct Hcase as [(_ & Hf)|(_ & Hnz & _)]; [rewrite Hf; exact Hb|].
              exfalso. destruct Ipending as (h1 & _ & Hx); [lia|discriminate Hx].
           ++ destruct Hcase as [(_ & Hf)|(Hoff & _ & Hf)].
              ** rewrite Hf, Hs. destruct Hb as [Hb|(Hb1 & Hb2 & _)]; [left; exact Hb|right; auto].
              ** right. rewrite Hs. auto.
        -- destruct Hcase as [(_ & Hf)|(_ & _ & Hf)]; congruence.
      * intros h0 Hh0 Hacc. destruct (Iunacc h0 Hh0 Hacc) as (Hcl0 & Hpos).
        split; [congruence|]. right. rewrite Hs.
        destruct Hcase as [(Hid & _)|(Hoff & _)]; [|exact Hoff].
        destruct Hpos as [Hpos|Hpos]; [specialize (Iidle Hid); lia|exact Hpos].
  - (* receive_reply *)
    unfold bind in H. destruct (p_receive_reply p t) as [[p1 ev]| |] eqn:Hr; try discriminate.
    inversion H; subst p' e; clear H.
    cbn [contract_p] in Hct. apply andb_true_iff in Hct. destruct Hct as (Hout & _).
    specialize (Iout Hout).
    destruct (Ipending Iout) as (h0 & Hh0 & Hacc0).
    destruct (Iunacc h0 Hh0 Hacc0) as (Hcl0 & _).
    destruct (receive_facts _ _ _ _ Hr) as (Ha & Ho & F).
    split; [|exact I].
    cbn [gstep]. rewrite Hh0, Hcl0.
    rewrite Hh0 in Ifcb. destruct Ifcb as (f0 & Hfc0 & Hda0 & Hb). rewrite Hacc0 in Hb.
    assert (Hfcb : pe_fcb p = f0) by (destruct Hb as [Hb|(_ & _ & Hb)]; [exact Hb|lia]).
    destruct (reply_accepted (state_service p) t) eqn:Hacc.
    + destruct F as (Hc & Hr0 & Hph & Hev).
      constructor; cbn [gh_phase gh_text gh_last gh_acc gh_unans gh_out]; try congruence; try lia.
      * rewrite Iphase. rewrite Iphase in Itext. rewrite Hph in Hev.
        apply text_follows; auto. apply state_service_ok.
      * apply (cycle_active _ _ Hc).
      * exists f0. repeat split; try assumption. congruence.
    + destruct F as (Hf & Hr0 & Hs & Hfl & Hev). rewrite Hev.
      assert (Hsv : state_service p1 = state_service p) by (unfold state_service; rewrite Hs, Hfl; reflexivity).
      constructor; cbn [gh_phase gh_text gh_last gh_acc gh_unans gh_out]; try congruence; try lia.
      * rewrite Hs. exact Iprobe.
      * exists f0. repeat split; try assumption. rewrite Hacc0. left. congruence.
      * intros h1 Hh1 Hx. inversion Hh1; subst h1. split; [congruence|left; lia].
      * intros _. exists h0. split; [reflexivity|exact Hacc0].
      * intros Hid. apply Iidle. unfold idle_state in *. rewrite Hs, Ho in Hid. exact Hid.
  - (* time-out *)
    inversion H; subst p' e; clear H. split; [|exact I].
    constructor; cbn [gstep gh_phase gh_text gh_last gh_acc gh_unans gh_out]; auto. intro Hx; discriminate Hx.
  - (* request_diagnostics() *)
    inversion H; subst p' e; clear H. split; [|exact I].
    constructor; cbn [gstep]; auto.
  - (* pi_q write *)
    unfold bind in H. destruct (copy_from_slice (pe_pi_q p) q) as [d| |]; try discriminate.
    inversion H; subst p' e; clear H. split; [|exact I].
    constructor; cbn [gstep]; auto.
Qed.

Lemma contract_step : forall g e tr,
  contract_p (gh_out g) (e :: tr) = true ->
  contract_p (gh_out g) [e] = true /\ contract_p (gh_out (gstep g e)) tr = true.
Proof.
  intros g e tr H. destruct e as [h pdu| |ev|t ev| |]; cbn [contract_p gstep gh_out] in *.
  - auto.
  - auto.
  - destruct ev; auto.
  - apply andb_true_iff in H. destruct H as (Ho & Hr). rewrite Ho. split; [reflexivity|].
    destruct (reply_accepted _ t); cbn [gh_out]; exact Hr.
  - apply andb_true_iff in H. destruct H as (Ho & Hr). rewrite Ho. auto.
  - auto.
Qed.

Theorem history_ok : forall pa a o,
  1 <= p_max_retry pa ->
  forall cs p g p' tr,
  Inv pa a o p g ->
  p_run pa p cs = Ok (p', tr) ->
  contract_p (gh_out g) tr = true ->
  Inv pa a o p' (fold_left gstep tr g) /\
  forall pre e post, tr = pre ++ e :: post -> ev_ok pa a o (fold_left gstep pre g) e.
Proof.
  intros pa a o Hmax. induction cs as [|c cs IH]; intros p g p' tr I Hrun Hct.
  - cbn in Hrun. inversion Hrun; subst. split; [exact I|].
    intros pre e post Hx. destruct pre; discriminate Hx.
  - cbn [p_run] in Hrun. unfold bind in Hrun.
    destruct (p_step pa p c) as [[p1 e0]| |] eqn:Hs; try discriminate.
    destruct (p_run pa p1 cs) as [[p2 tr1]| |] eqn:Hr; try discriminate.
    inversion Hrun; subst p' tr; clear Hrun.
    destruct (contract_step _ _ _ Hct) as (Hc1 & Hc2).
    destruct (step_inv _ _ _ _ _ _ _ _ Hmax I Hs Hc1) as (I1 & Hok).
    destruct (IH _ _ _ _ I1 Hr Hc2) as (I2 & Hall).
    split; [exact I2|].
    intros pre e post Hx. destruct pre as [|e1 pre].
    + cbn in Hx. inversion Hx; subst. exact Hok.
    + cbn in Hx. inversion Hx; subst. cbn [fold_left]. apply (Hall pre e post). reflexivity.
Qed.

Theorem history_new : forall pa a o tr,
  1 <= p_max_retry pa ->
  history pa a o tr ->
  forall pre e post, tr = pre ++ e :: post -> ev_ok pa a o (ghost_of pre) e.
Proof.
  intros pa a o tr Hmax (i & q & d & cs & p' & Hrun & Hct).
  apply (history_ok pa a o Hmax cs (periph_new a o i q d) ghost0 p' tr); auto.
  apply inv_init. lia.
Qed.
