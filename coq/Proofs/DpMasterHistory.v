(* Histories of the DP MASTER (FdlApplication callbacks and user API, `d_run`) project, for every storage slot,
   to a history of that slot's peripheral in the sense of DpHistory.v, provided the FdlApplication contract
   (`contract_m`, C15) is respected: so every theorem about `history pa a o tr` holds for `proj k log`.
   `d_step` keeps a log of (slot, wire event) pairs; for transmit_telegram it is the ghost log of
   C14History.tx_loop_g entry for entry (`tx_loop_log_g`), so the slot loop is reasoned about through
   C14History.tx_rel.  Peripherals are added before the history starts (dp_add during a run can re-route a
   pending reply: not modelled here). *)
From PB Require Import Peripheral DpMaster DpOracle DpStepProofs C14Proofs C14History DpHistory.

(* enter_state(s) with the unwinding of its todo!() caught, as in DpRun.run_in *)
Inductive dcall : Set :=
| DcTransmit (now : Z) (hp : bool)
| DcReply (addr : Z) (t : telegram)
| DcTimeout (addr : Z)
| DcReqDiag (h : handle)
| DcWriteQ (h : handle) (q : bytes)
| DcEnter (s : opstate)
| DcTake.

Inductive dout : Set :=
| DoTx (o : txout)            (* what transmit_telegram returned *)
| DoEvents (e : dpevents)     (* what take_last_events returned *)
| DoUnit.

Definition slot_log : Set := list (nat * wev).

Definition proj (k : nat) (l : slot_log) : list wev :=
  map snd (filter (fun x => Nat.eqb (fst x) k) l).

(* dp_tx_loop with a log of the Peripheral::transmit_telegram calls it makes *)
Fixpoint tx_loop_log (fuel : nat) (pa : params) (bufsize : nat) (m : dpm) (pev : option (handle * pevent))
                     (log : slot_log) : res (dpm * txout * slot_log) :=
  match fuel with
  | O => OutOfFuel
  | S fuel' =>
      match dm_cycle m with
      | CyCompleted =>
          Ok (set_events (set_cycle m (CyDataExchange 0)) (mkEvents false pev), None, log)
      | CyDataExchange index =>
          let* g := get_at_index (dm_slots m) index in
          match g with
          | Some (hd, p) =>
              let* (p1, r) := p_transmit pa (dm_op m) p in
              let m1 := set_slots m (put_slot (dm_slots m) (hd_index hd) p1) in
              let log1 := log ++ [(hd_index hd, wev_of_ptx r)] in
              match r with
              | PtxSend h pdu =>
                  let* o := send_data bufsize h pdu in
                  Ok (set_events m1 (mkEvents false pev), Some o, log1)
              | PtxSkip ev =>
                  let* pev1 :=
                    (match ev with
                     | Some e =>
                         match pev with
                         | Some _ => Panic SiteAssert
                         | None => Ok (Some (hd, e))
                         end
                     | None => Ok pev
                     end) in
                  let* (m2, completed) := increment_cycle m1 index in
                  if completed then
                    Ok (set_events (set_cycle m2 (CyDataExchange 0)) (mkEvents true pev1), None, log1)
                  else
                    match pev1 with
                    | Some _ => Ok (set_events m2 (mkEvents false pev1), None, log1)
                    | None => tx_loop_log fuel' pa bufsize m2 pev1 log1
                    end
              end
          | None =>
              Ok (set_events (set_cycle m (CyDataExchange 0)) (mkEvents true pev), None, log)
          end
      end
  end.

(* the log of one transmit_telegram call: the slot loop's log if the loop runs (not in Stop, no global
   control telegram due) *)
Definition tx_log (pa : params) (bufsize : nat) (m : dpm) (now : Z) (hp : bool) (log : slot_log) : slot_log :=
  if opstate_eqb (dm_op m) OpStop then log else
  match (if hp then Ok false else gc_due pa m now) with
  | Ok false =>
      match tx_loop_log (dp_tx_fuel m) pa bufsize m None log with
      | Ok (_, _, l) => l
      | _ => log
      end
  | _ => log
  end.

(* the slot the cycle is at: the first occupied slot at or after the cycle index *)
Definition cursor (m : dpm) : option nat :=
  match dm_cycle m with
  | CyCompleted => None
  | CyDataExchange idx =>
      match find_occupied (skipn idx (dm_slots m)) idx with
      | Some (i, _) => Some i
      | None => None
      end
  end.

Definition d_step (pa : params) (bufsize : nat) (m : dpm) (c : dcall) (log : slot_log)
  : res (dpm * dout * slot_log) :=
  match c with
  | DcTransmit now hp =>
      let* (m1, o) := dp_transmit pa bufsize m now hp in
      Ok (m1, DoTx o, tx_log pa bufsize m now hp log)
  | DcReply addr t =>
      let* m1 := dp_receive_reply m addr t in
      Ok (m1, DoUnit,
          match cursor m with
          | Some k => log ++ [(k, WReply t (match ev_peripheral (dm_events m1) with
                                            | Some (_, e) => Some e
                                            | None => None
                                            end))]
          | None => log
          end)
  | DcTimeout addr =>
      let* m1 := dp_handle_timeout m addr in
      Ok (m1, DoUnit, match cursor m with Some k => log ++ [(k, WTimeout)] | None => log end)
  | DcReqDiag h =>
      let* m1 := dp_request_diagnostics m h in Ok (m1, DoUnit, log ++ [(hd_index h, WUser)])
  | DcWriteQ h q =>
      let* m1 := dp_write_q m h q in Ok (m1, DoUnit, log ++ [(hd_index h, WUser)])
  | DcEnter s =>
      Ok (match dp_enter_state m s with Ok m1 => m1 | _ => dp_enter_state_unwound m s end, DoUnit, log)
  | DcTake => let (m1, e) := dp_take_last_events m in Ok (m1, DoEvents e, log)
  end.

Fixpoint d_run (pa : params) (bufsize : nat) (m : dpm) (cs : list dcall) (log : slot_log)
  : res (dpm * list (dcall * dout) * slot_log) :=
  match cs with
  | [] => Ok (m, [], log)
  | c :: r =>
      let* (m1, o, log1) := d_step pa bufsize m c log in
      let* (m2, outs, log2) := d_run pa bufsize m1 r log1 in
      Ok (m2, (c, o) :: outs, log2)
  end.

(* the FdlApplication contract over the calls and what they returned *)
Fixpoint contract_m (pending : option Z) (l : list (dcall * dout)) : bool :=
  match l with
  | [] => true
  | (DcTransmit _ _, DoTx (Some (_, Some da))) :: r => contract_m (Some da) r
  | (DcTransmit _ _, _) :: r => contract_m None r
  | (DcReply a _, _) :: r =>
      match pending with Some da => (a =? da) && contract_m None r | None => false end
  | (DcTimeout a, _) :: r =>
      match pending with Some da => (a =? da) && contract_m None r | None => false end
  | _ :: r => contract_m pending r
  end.

Definition erase3 {A B C} (r : res (A * B * C)) : res (A * B) :=
  match r with Ok (a, b, _) => Ok (a, b) | Panic s => Panic s | OutOfFuel => OutOfFuel end.

(* the (slot, wire event) entry of a ghost log entry of the slot loop (C14History.gent) *)
Definition slot_entry (e : gent) : slot_log :=
  match e with
  | GSend i _ _ h pdu => [(i, WReq h pdu)]
  | GSkip i _ _ ev => [(i, wev_of_ptx (PtxSkip ev))]
  | _ => []
  end.

Lemma tx_loop_log_g : forall fuel pa bufsize m pev log,
  tx_loop_log fuel pa bufsize m pev log =
  match tx_loop_g fuel pa bufsize m pev with
  | Ok (x, lg) => Ok (x, log ++ flat_map slot_entry lg)
  | Panic s => Panic s
  | OutOfFuel => OutOfFuel
  end.
Proof.
  induction fuel as [|fuel IH]; intros pa bufsize m pev log; [reflexivity|].
  cbn [tx_loop_log tx_loop_g].
  destruct (dm_cycle m) as [index|]; [|rewrite app_nil_r; reflexivity].
  destruct (get_at_index (dm_slots m) index) as [[[hd p]|]| |]; cbn [bind]; try reflexivity;
    [|rewrite app_nil_r; reflexivity].
  destruct (p_transmit pa (dm_op m) p) as [[p1 r]| |]; cbn [bind]; try reflexivity.
  destruct r as [h pdu|ev].
  - destruct (send_data bufsize h pdu); reflexivity.
  - destruct (match ev with
              | Some e => match pev with Some _ => Panic SiteAssert | None => Ok (Some (hd, e)) end
              | None => Ok pev
              end) as [pev1| |]; cbn [bind]; try reflexivity.
    destruct (increment_cycle _ index) as [[m2 completed]| |]; cbn [bind]; try reflexivity.
    destruct completed; [reflexivity|]. destruct pev1; [reflexivity|]. rewrite IH.
    destruct (tx_loop_g fuel pa bufsize m2 None) as [[x lg]| |]; cbn [bind]; try reflexivity.
    rewrite <- app_assoc. reflexivity.
Qed.

Lemma tx_loop_log_erase : forall fuel pa bufsize m pev log,
  erase3 (tx_loop_log fuel pa bufsize m pev log) = dp_tx_loop fuel pa bufsize m pev.
Proof.
  intros. rewrite tx_loop_log_g, <- tx_loop_erase.
  destruct (tx_loop_g fuel pa bufsize m pev) as [[[m' o] lg]| |]; reflexivity.
Qed.

Lemma tx_log_g : forall pa bufsize m now hp m' o lg log,
  dp_transmit_g pa bufsize m now hp = Ok (m', o, lg) ->
  tx_log pa bufsize m now hp log = log ++ flat_map slot_entry lg.
Proof.
  intros pa bufsize m now hp m' o lg log H. unfold dp_transmit_g in H. unfold tx_log.
  destruct (opstate_eqb (dm_op m) OpStop); [inversion H; symmetry; apply app_nil_r|].
  destruct (if hp then Ok false else gc_due pa m now) as [[|]| |]; cbn [bind] in H; try discriminate H.
  - destruct (match dm_op m with OpClear => _ | _ => _ end); cbn [bind] in H; try discriminate H.
    destruct (send_data _ _ _); inversion H. symmetry; apply app_nil_r.
  - rewrite tx_loop_log_g, H. reflexivity.
Qed.

Lemma cursor_pos : forall m,
  cursor m = match dm_cycle m with CyCompleted => None | CyDataExchange _ => hd_error (pos_rem m) end.
Proof.
  intro m. unfold cursor, pos_rem. destruct (dm_cycle m) as [idx|]; [|reflexivity].
  pose proof (find_occupied_spec (skipn idx (dm_slots m)) idx) as H.
  destruct (find_occupied (skipn idx (dm_slots m)) idx) as [[i p]|]; [destruct H as (k & r & _ & _ & ->)|rewrite H];
    reflexivity.
Qed.

Lemma cursor_put : forall m i p q,
  slot m i = Some q -> cursor (set_slots m (put_slot (dm_slots m) i p)) = cursor m.
Proof.
  intros m i p q H. rewrite !cursor_pos. cbn [dm_cycle set_slots].
  rewrite (pos_rem_mask m _ (mask_put m i p q H) eq_refl). reflexivity.
Qed.

Lemma cursor_turn_slot : forall m hd p rest, at_turn m hd p rest -> cursor m = Some (hd_index hd).
Proof.
  intros m hd p rest (Hr & _ & _ & Hc). rewrite cursor_pos, Hr. destruct (dm_cycle m); [reflexivity|now elim Hc].
Qed.

Lemma proj_snoc : forall k l i e,
  proj k (l ++ [(i, e)]) = if Nat.eqb i k then proj k l ++ [e] else proj k l.
Proof.
  intros. unfold proj. rewrite filter_app, map_app. cbn [filter fst].
  destruct (Nat.eqb i k); cbn; [reflexivity|rewrite app_nil_r; reflexivity].
Qed.

(* a request is outstanding after the trace *)
Definition out_after (tr : list wev) : bool :=
  fold_left (fun out e => match e with
                          | WReq _ _ => true
                          | WIdle | WEvent _ | WReply _ _ | WTimeout => false
                          | WUser => out
                          end) tr false.

Lemma out_after_snoc : forall tr e,
  out_after (tr ++ [e]) = match e with
                          | WReq _ _ => true
                          | WIdle | WEvent _ | WReply _ _ | WTimeout => false
                          | WUser => out_after tr
                          end.
Proof. intros. unfold out_after. rewrite fold_left_app. reflexivity. Qed.

Lemma contract_p_app : forall tr out e,
  contract_p out (tr ++ [e]) =
  contract_p out tr &&
  match e with
  | WReply _ _ | WTimeout =>
      fold_left (fun o e' => match e' with
                             | WReq _ _ => true
                             | WIdle | WEvent _ | WReply _ _ | WTimeout => false
                             | WUser => o
                             end) tr out
  | _ => true
  end.
Proof.
  induction tr as [|x tr IH]; intros out e.
  - cbn. destruct e; cbn; rewrite ?andb_true_r; reflexivity.
  - destruct x; cbn [app contract_p fold_left]; rewrite IH; try reflexivity;
      rewrite andb_assoc; reflexivity.
Qed.

Lemma contract_p_snoc : forall tr e,
  contract_p false tr = true ->
  match e with WReply _ _ | WTimeout => out_after tr = true | _ => True end ->
  contract_p false (tr ++ [e]) = true.
Proof.
  intros tr e Hc He. rewrite contract_p_app, Hc. cbn [andb].
  destruct e; try reflexivity; exact He.
Qed.

Definition reach (pa : params) (p0 p : periph) (tr : list wev) : Prop :=
  exists cs, p_run pa p0 cs = Ok (p, tr).

Lemma reach_refl : forall pa p, reach pa p p [].
Proof. intros. exists []. reflexivity. Qed.

Lemma p_run_snoc : forall pa cs p0 p tr c p' e,
  p_run pa p0 cs = Ok (p, tr) -> p_step pa p c = Ok (p', e) ->
  p_run pa p0 (cs ++ [c]) = Ok (p', tr ++ [e]).
Proof.
  induction cs as [|c0 cs IH]; intros p0 p tr c p' e Hr Hs.
  - cbn in Hr. inversion Hr; subst. cbn [app p_run]. rewrite Hs. reflexivity.
  - cbn [app p_run] in *. unfold bind in *.
    destruct (p_step pa p0 c0) as [[p1 e0]| |]; try discriminate.
    destruct (p_run pa p1 cs) as [[p2 tr1]| |] eqn:Hr1; try discriminate.
    inversion Hr; subst. rewrite (IH _ _ _ _ _ _ Hr1 Hs). reflexivity.
Qed.

Lemma reach_snoc : forall pa p0 p tr c p' e,
  reach pa p0 p tr -> p_step pa p c = Ok (p', e) -> reach pa p0 p' (tr ++ [e]).
Proof. intros pa p0 p tr c p' e (cs & Hr) Hs. exists (cs ++ [c]). apply (p_run_snoc _ _ _ _ _ _ _ _ Hr Hs). Qed.

Record MInv (pa : params) (m0 m : dpm) (log : slot_log) : Prop := mkMInv {
  mi_slots : forall k,
    match slot m0 k, slot m k with
    | Some p0, Some p => reach pa p0 p (proj k log) /\ contract_p false (proj k log) = true
    | None, None => proj k log = []
    | _, _ => False
    end;
  mi_out : forall k, out_after (proj k log) = true -> cursor m = Some k }.

(* a request is outstanding at the master level: the cursor's slot has an outstanding request *)
Definition pend_ok (m : dpm) (log : slot_log) (pend : option Z) : Prop :=
  pend <> None -> exists k, cursor m = Some k /\ out_after (proj k log) = true.

Lemma minv_init : forall pa m, MInv pa m m [].
Proof.
  intros pa m. constructor.
  - intro k. destruct (slot m k); [split; [apply reach_refl|reflexivity]|reflexivity].
  - intros k H. discriminate H.
Qed.

Lemma minv_slot_step : forall pa m0 m log i p c p' e m',
  MInv pa m0 m log ->
  slot m i = Some p ->
  p_step pa p c = Ok (p', e) ->
  match e with WReply _ _ | WTimeout => out_after (proj i log) = true | _ => True end ->
  (forall k, slot m' k = slot (set_slots m (put_slot (dm_slots m) i p')) k) ->
  (forall k, out_after (proj k (log ++ [(i, e)])) = true -> cursor m' = Some k) ->
  MInv pa m0 m' (log ++ [(i, e)]).
Proof.
  intros pa m0 m log i p c p' e m' [Hs Ho] Hp Hstep He Hslots Hcur.
  constructor; [|exact Hcur].
  intro k. rewrite Hslots. rewrite proj_snoc. specialize (Hs k).
  destruct (Nat.eqb_spec i k) as [->|Hne].
  - rewrite (slot_put_same m k p' p Hp). rewrite Hp in Hs.
    destruct (slot m0 k) as [p0|]; [|contradiction]. destruct Hs as (Hr & Hc).
    split; [apply (reach_snoc _ _ _ _ _ _ _ Hr Hstep)|apply contract_p_snoc; assumption].
  - rewrite slot_put_other by exact Hne. exact Hs.
Qed.

Lemma expects_reply_std : forall pa a o f sv h pdu,
  std_request pa a o f sv h pdu -> tx_expects_reply h = Some (h_da h).
Proof.
  intros pa a o f sv h pdu H. destruct sv; cbn in H; try contradiction.
  - destruct H as (-> & _). reflexivity.
  - destruct H as (u & _ & -> & _). reflexivity.
  - destruct H as (u & _ & -> & _). reflexivity.
  - subst h. reflexivity.
Qed.

Lemma minv_quiet : forall pa m0 m log,
  MInv pa m0 m log -> cursor m = None -> forall k, out_after (proj k log) = false.
Proof.
  intros pa m0 m log I Hc k. destruct (out_after (proj k log)) eqn:Hx; [|reflexivity].
  rewrite (mi_out _ _ _ _ I k Hx) in Hc. discriminate Hc.
Qed.

Lemma minv_idle : forall pa m0 m log m1,
  MInv pa m0 m log -> (forall k, out_after (proj k log) = false) -> dm_slots m1 = dm_slots m -> MInv pa m0 m1 log.
Proof.
  intros pa m0 m log m1 I Hq Hs. constructor.
  - intro k. unfold slot. rewrite Hs. exact (mi_slots _ _ _ _ I k).
  - intros k Hk. rewrite Hq in Hk. discriminate Hk.
Qed.

Lemma minv_turn : forall pa m0 m log hd p rest p1 r,
  MInv pa m0 m log -> at_turn m hd p rest -> p_transmit pa (dm_op m) p = Ok (p1, r) ->
  let log' := log ++ [(hd_index hd, wev_of_ptx r)] in
  (forall j, out_after (proj j log') =
             match r with PtxSend _ _ => Nat.eqb j (hd_index hd) | PtxSkip _ => false end) /\
  forall mx, dm_slots mx = dm_slots (put_cur m hd p1) ->
    (forall j, out_after (proj j log') = true -> cursor mx = Some j) -> MInv pa m0 mx log'.
Proof.
  intros pa m0 m log hd p rest p1 r I Ht Hp log'. pose proof (cursor_turn_slot _ _ _ _ Ht) as Hcur.
  destruct Ht as (_ & Hslot & _). split.
  - intro j. unfold log'. rewrite proj_snoc. destruct (Nat.eqb_spec (hd_index hd) j) as [<-|Hne].
    + rewrite out_after_snoc, Nat.eqb_refl. destruct r as [?|[?|]]; reflexivity.
    + replace (out_after (proj j log)) with false.
      * destruct r; [symmetry; apply Nat.eqb_neq; auto|reflexivity].
      * destruct (out_after (proj j log)) eqn:Hx; [|reflexivity].
        rewrite (mi_out _ _ _ _ I j Hx) in Hcur. inversion Hcur. now elim Hne.
  - intros mx Hsl Hout.
    apply (minv_slot_step pa m0 m log (hd_index hd) p (PcTransmit (dm_op m)) p1 _ _ I Hslot); auto.
    + cbn [p_step]. rewrite Hp. reflexivity.
    + destruct r as [?|[?|]]; exact Logic.I.
    + intro j. unfold slot. rewrite Hsl. reflexivity.
Qed.

Lemma tx_rel_minv : forall pa bufsize m0 m m' o lg,
  tx_rel pa bufsize m m' o lg -> forall log, MInv pa m0 m log ->
  let log' := log ++ flat_map slot_entry lg in
  MInv pa m0 m' log' /\
  match o with
  | Some (_, Some _) => exists k, cursor m' = Some k /\ out_after (proj k log') = true
  | Some (_, None) => False
  | None => forall k, out_after (proj k log') = false
  end.
Proof.
  intros pa bufsize m0 m m' o lg H.
  by_turns H;
    intros log I; cbn [flat_map slot_entry app]; rewrite ?app_nil_r.
  - assert (Hq := minv_quiet _ _ _ _ I (eq_trans (cursor_pos m) ltac:(rewrite Hc; reflexivity))).
    split; [apply (minv_idle _ _ _ _ _ I Hq); reflexivity|exact Hq].
  - assert (Hq := minv_quiet _ _ _ _ I (eq_trans (cursor_pos m) ltac:(rewrite Hr; destruct (dm_cycle m); reflexivity))).
    split; [apply (minv_idle _ _ _ _ _ I Hq); reflexivity|exact Hq].
  - destruct (minv_turn _ _ _ _ _ _ _ _ _ I Ht Hp) as [Hout Hm].
    assert (Hcur : cursor (set_events (put_cur m hd p1) (mkEvents false None)) = Some (hd_index hd)).
    { rewrite <- (cursor_turn_slot _ _ _ _ Ht). destruct Ht as (_ & Hsl & _). exact (cursor_put m _ p1 p Hsl). }
    split.
    + apply Hm; [reflexivity|]. intros j Hj. rewrite Hout in Hj. apply Nat.eqb_eq in Hj. subst j. exact Hcur.
    + unfold send_data, bind in Hs. destruct (encode_data_in bufsize h pdu); inversion Hs.
      destruct (transmit_facts _ _ _ _ _ Hp) as (_ & _ & _ & _ & _ & _ & _ & _ & Hstd).
      rewrite (expects_reply_std _ _ _ _ _ _ _ Hstd). exists (hd_index hd). split; [exact Hcur|].
      rewrite Hout. apply Nat.eqb_refl.
  - destruct (minv_turn _ _ _ _ _ _ _ _ _ I Ht Hp) as [Hout Hm].
    split; [|exact Hout]. apply Hm; [reflexivity|]. intros j Hj. rewrite Hout in Hj. discriminate Hj.
  - destruct (minv_turn _ _ _ _ _ _ _ _ _ I Ht Hp) as [Hout Hm].
    specialize (IH (log ++ [(hd_index hd, WIdle)])). cbv zeta in IH. rewrite <- app_assoc in IH. apply IH.
    apply Hm; [reflexivity|]. intros j Hj. rewrite Hout in Hj. discriminate Hj.
Qed.

Definition contract_head (pend : option Z) (c : dcall) (o : dout) : Prop :=
  match c with
  | DcReply _ _ | DcTimeout _ => pend <> None
  | _ => True
  end.

Definition pend_next (pend : option Z) (c : dcall) (o : dout) : option Z :=
  match c, o with
  | DcTransmit _ _, DoTx (Some (_, Some da)) => Some da
  | DcTransmit _ _, _ => None
  | DcReply _ _, _ | DcTimeout _, _ => None
  | _, _ => pend
  end.

Lemma minv_frame : forall pa m0 m log pend m1,
  MInv pa m0 m log -> pend_ok m log pend -> dm_slots m1 = dm_slots m -> dm_cycle m1 = dm_cycle m ->
  MInv pa m0 m1 log /\ pend_ok m1 log pend.
Proof.
  intros pa m0 m log pend m1 I Hp Hs Hc.
  assert (Hcur : cursor m1 = cursor m) by (unfold cursor; rewrite Hs, Hc; reflexivity).
  split; [constructor|].
  - intro k. unfold slot. rewrite Hs. exact (mi_slots _ _ _ _ I k).
  - intros k Hk. rewrite Hcur. exact (mi_out _ _ _ _ I k Hk).
  - unfold pend_ok. rewrite Hcur. exact Hp.
Qed.

Lemma minv_user : forall pa m0 m log pend h p c p',
  MInv pa m0 m log -> pend_ok m log pend -> slot m (hd_index h) = Some p -> p_step pa p c = Ok (p', WUser) ->
  let m' := set_slots m (put_slot (dm_slots m) (hd_index h) p') in
  MInv pa m0 m' (log ++ [(hd_index h, WUser)]) /\ pend_ok m' (log ++ [(hd_index h, WUser)]) pend.
Proof.
  intros pa m0 m log pend h p c p' I Hpend Hslot Hstep m'.
  assert (Hcur : cursor m' = cursor m) by (apply (cursor_put m _ _ p Hslot)).
  assert (Hout : forall j, out_after (proj j (log ++ [(hd_index h, WUser)])) = out_after (proj j log)).
  { intro j. rewrite proj_snoc. destruct (Nat.eqb (hd_index h) j); [rewrite out_after_snoc|]; reflexivity. }
  split.
  - apply (minv_slot_step pa m0 m log (hd_index h) p c p' WUser m' I Hslot Hstep Logic.I).
    + intro j. reflexivity.
    + intros j Hj. rewrite Hout in Hj. rewrite Hcur. exact (mi_out _ _ _ _ I j Hj).
  - intro Hx. destruct (Hpend Hx) as (k & Hk & Hko). exists k. rewrite Hcur, Hout. auto.
Qed.

(* the outstanding request of the cursor's slot k is answered (reply) or given up (time-out): afterwards
   nothing is outstanding *)
Lemma minv_answer : forall pa m0 m log k p c p' e mx,
  MInv pa m0 m log -> cursor m = Some k -> out_after (proj k log) = true -> slot m k = Some p ->
  p_step pa p c = Ok (p', e) -> match e with WReply _ _ | WTimeout => True | _ => False end ->
  dm_slots mx = put_slot (dm_slots m) k p' ->
  MInv pa m0 mx (log ++ [(k, e)]).
Proof.
  intros pa m0 m log k p c p' e mx I Hcur Hout Hslot Hstep He Hsl.
  apply (minv_slot_step pa m0 m log k p c p' e mx I Hslot Hstep).
  - destruct e; try contradiction; exact Hout.
  - intro j. unfold slot. rewrite Hsl. reflexivity.
  - intros j Hj. rewrite proj_snoc in Hj. destruct (Nat.eqb_spec k j) as [E|Hne]; [subst j|].
    + rewrite out_after_snoc in Hj. destruct e; try contradiction; discriminate Hj.
    + rewrite (mi_out _ _ _ _ I j Hj) in Hcur. inversion Hcur. now elim Hne.
Qed.

Lemma d_step_minv : forall pa bufsize m0 m c log m' o log' pend,
  d_step pa bufsize m c log = Ok (m', o, log') ->
  MInv pa m0 m log -> pend_ok m log pend -> contract_head pend c o ->
  MInv pa m0 m' log' /\ pend_ok m' log' (pend_next pend c o).
Proof.
  intros pa bufsize m0 m c log m' o log' pend H I Hpend Hct.
  destruct c as [now hp|addr t|addr|h|h q|s|]; cbn [d_step] in H; unfold bind in H.
  - (* transmit_telegram *)
    destruct (dp_transmit pa bufsize m now hp) as [[m1 o1]| |] eqn:Ht; inversion H; subst m' o log'; clear H.
    rewrite <- dp_transmit_erase in Ht.
    destruct (dp_transmit_g pa bufsize m now hp) as [[[m1' o1'] lg]| |] eqn:Hg; inversion Ht; subst m1' o1'.
    rewrite (tx_log_g _ _ _ _ _ _ _ _ log Hg). cbn [pend_next].
    destruct (dp_transmit_g_cases _ _ _ _ _ _ _ _ Hg) as
      [(_ & -> & -> & ->)|[(_ & _ & _ & -> & -> & b & w & _ & _ & ->)|(_ & _ & Hrel)]].
    + rewrite app_nil_r. split; [|intro Hx; now elim Hx]. apply (minv_frame pa m0 m log pend _ I Hpend); reflexivity.
    + rewrite app_nil_r. split; [|intro Hx; now elim Hx]. apply (minv_frame pa m0 m log pend _ I Hpend); reflexivity.
    + destruct (tx_rel_minv _ _ m0 _ _ _ _ Hrel log I) as (I1 & Hout). split; [exact I1|].
      destruct o1 as [[w [da|]]|]; try contradiction; intro Hx; [exact Hout|now elim Hx].
  - (* receive_reply *)
    destruct (dp_receive_reply m addr t) as [m1| |] eqn:Hr; inversion H; subst m' o log'; clear H.
    cbn [contract_head] in Hct. destruct (Hpend Hct) as (k & Hcur & Hout).
    rewrite <- dp_receive_reply_erase in Hr.
    destruct (dp_receive_reply_g m addr t) as [[m1' lg]| |] eqn:Hg; inversion Hr; subst m1'.
    destruct (rx_turn _ _ _ _ _ Hg) as (hd & p & rest & p1 & ev & cy & Ht & _ & Hp & _ & -> & _).
    pose proof (cursor_turn_slot _ _ _ _ Ht) as Hcm. rewrite Hcm in Hcur |- *. inversion Hcur; subst k.
    destruct Ht as (_ & Hslot & _). cbn [dm_events set_events ev_peripheral].
    replace (match opt_pair hd ev with Some (_, e) => Some e | None => None end) with ev by (destruct ev; reflexivity).
    split; [|intro Hx; now elim Hx].
    apply (minv_answer pa m0 m log _ p (PcReply t) p1 _ _ I Hcm Hout Hslot); [|exact Logic.I|reflexivity].
    cbn [p_step]. rewrite Hp. reflexivity.
  - (* handle_timeout *)
    inversion H; subst m' o log'; clear H.
    cbn [contract_head] in Hct. destruct (Hpend Hct) as (k & Hcur & Hout). rewrite Hcur.
    pose proof (mi_slots _ _ _ _ I k) as Hk.
    destruct (slot m k) as [p|] eqn:Hslot;
      [|destruct (slot m0 k); [contradiction|]; rewrite Hk in Hout; discriminate Hout].
    split; [|intro Hx; now elim Hx].
    apply (minv_answer pa m0 m log k p PcTimeout p _ _ I Hcur Hout Hslot eq_refl Logic.I).
    symmetry. apply put_slot_id, slot_nth, Hslot.
  - (* request_diagnostics() *)
    destruct (dp_request_diagnostics m h) as [m1| |] eqn:Hu; inversion H; subst m' o log'; clear H.
    unfold dp_request_diagnostics, dp_update, bind in Hu.
    destruct (dp_get_mut m h) as [p| |] eqn:Hg; inversion Hu; subst m1.
    apply (minv_user pa m0 m log pend h p PcReqDiag _ I Hpend (dp_get_mut_slot _ _ _ Hg)). reflexivity.
  - (* pi_q write *)
    destruct (dp_write_q m h q) as [m1| |] eqn:Hu; inversion H; subst m' o log'; clear H.
    unfold dp_write_q, bind in Hu. destruct (dp_get_mut m h) as [p| |] eqn:Hg; try discriminate Hu.
    destruct (copy_from_slice (pe_pi_q p) q) as [d| |] eqn:Hcp; inversion Hu; subst m1.
    apply (minv_user pa m0 m log pend h p (PcWriteQ q) _ I Hpend (dp_get_mut_slot _ _ _ Hg)).
    cbn [p_step]. rewrite Hcp. reflexivity.
  - (* enter_state *)
    inversion H; subst m' o log'; clear H.
    apply (minv_frame pa m0 m log pend _ I Hpend); unfold dp_enter_state;
      destruct (opstate_eqb s opstate_supported); reflexivity.
  - (* take_last_events *)
    cbn in H. inversion H; subst m' o log'; clear H. apply (minv_frame pa m0 m log pend _ I Hpend); reflexivity.
Qed.

Lemma contract_m_head : forall pend c o r,
  contract_m pend ((c, o) :: r) = true ->
  contract_head pend c o /\ contract_m (pend_next pend c o) r = true.
Proof.
  intros pend c o r H. destruct c as [now hp|addr t|addr|h|h q|s|]; cbn [contract_m contract_head pend_next] in *.
  - split; [exact Logic.I|]. destruct o as [[[w [da|]]|]| |]; exact H.
  - destruct pend as [da|]; [|discriminate H]. apply andb_true_iff in H. split; [discriminate|apply H].
  - destruct pend as [da|]; [|discriminate H]. apply andb_true_iff in H. split; [discriminate|apply H].
  - split; [exact Logic.I|exact H].
  - split; [exact Logic.I|exact H].
  - split; [exact Logic.I|exact H].
  - split; [exact Logic.I|exact H].
Qed.

Lemma d_run_minv : forall pa bufsize m0 cs m log m' outs log' pend,
  d_run pa bufsize m cs log = Ok (m', outs, log') ->
  MInv pa m0 m log -> pend_ok m log pend -> contract_m pend outs = true ->
  MInv pa m0 m' log'.
Proof.
  intros pa bufsize m0. induction cs as [|c cs IH]; intros m log m' outs log' pend H I Hp Hc.
  - cbn in H. inversion H; subst. exact I.
  - cbn [d_run] in H. unfold bind in H.
    destruct (d_step pa bufsize m c log) as [[[m1 o] log1]| |] eqn:Hs; try discriminate.
    destruct (d_run pa bufsize m1 cs log1) as [[[m2 outs1] log2]| |] eqn:Hr; try discriminate.
    inversion H; subst m' outs log'; clear H.
    destruct (contract_m_head _ _ _ _ Hc) as (Hh & Hc1).
    destruct (d_step_minv _ _ _ _ _ _ _ _ _ _ Hs I Hp Hh) as (I1 & Hp1).
    apply (IH _ _ _ _ _ _ Hr I1 Hp1 Hc1).
Qed.

(* Every contract-respecting history of the DP master, from ANY master state, projects for every occupied
   slot to a contract-respecting run of that slot's peripheral *)
Theorem master_projects : forall pa bufsize m0 cs m' outs log,
  d_run pa bufsize m0 cs [] = Ok (m', outs, log) ->
  contract_m None outs = true ->
  forall k p0, slot m0 k = Some p0 ->
  exists pcs pk, p_run pa p0 pcs = Ok (pk, proj k log) /\ contract_p false (proj k log) = true /\
                 slot m' k = Some pk.
Proof.
  intros pa bufsize m0 cs m' outs log Hrun Hc k p0 Hk.
  assert (I : MInv pa m0 m' log).
  { apply (d_run_minv _ _ _ _ _ _ _ _ _ None Hrun (minv_init pa m0)); [|exact Hc].
    intro Hx. now elim Hx. }
  pose proof (mi_slots _ _ _ _ I k) as Hs. rewrite Hk in Hs.
  destruct (slot m' k) as [pk|]; [|contradiction]. destruct Hs as ((pcs & Hr) & Hct).
  exists pcs, pk. auto.
Qed.

(* ... in particular, for a slot holding a freshly constructed peripheral, to a `history` *)
Theorem master_history : forall pa bufsize m0 cs m' outs log,
  d_run pa bufsize m0 cs [] = Ok (m', outs, log) ->
  contract_m None outs = true ->
  forall k a o i q d, slot m0 k = Some (periph_new a o i q d) ->
  history pa a o (proj k log).
Proof.
  intros pa bufsize m0 cs m' outs log Hrun Hc k a o i q d Hk.
  destruct (master_projects _ _ _ _ _ _ _ Hrun Hc k _ Hk) as (pcs & pk & Hr & Hct & _).
  exists i, q, d, pcs, pk. auto.
Qed.

Definition log_is_req (x : nat * wev) : bool := match snd x with WReq _ _ => true | _ => false end.

(* What one run of the slot loop logs (`new`), against what transmit_telegram returns and the event it leaves
   for take_last_events():
   - it logs only transmit_telegram outcomes (request / idle / event);
   - if it returns bytes, the LAST entry is a request whose encoding (Telegram.encode_data_in) is exactly
     these bytes and whose destination is the station a reply is expected from; no other request is logged;
     if it returns None no request is logged;
   - every logged event is the event handed to the user, with the handle of that slot. *)
Lemma tx_rel_link : forall pa bufsize m m' o lg,
  tx_rel pa bufsize m m' o lg ->
  let new := flat_map slot_entry lg in
  (forall x, In x new -> match snd x with WReq _ _ | WIdle | WEvent _ => True | _ => False end) /\
  match o with
  | Some (w, exp) =>
      exists pre k h pdu, new = pre ++ [(k, WReq h pdu)] /\ existsb log_is_req pre = false /\
        encode_data_in bufsize h pdu = Ok w /\ exp = Some (h_da h)
  | None => existsb log_is_req new = false
  end /\
  (forall k ev, In (k, WEvent ev) new ->
     exists hd, ev_peripheral (dm_events m') = Some (hd, ev) /\ hd_index hd = k).
Proof.
  intros pa bufsize m m' o lg H.
  by_turns H;
    cbn [flat_map slot_entry app wev_of_ptx]; try (repeat split; intros; contradiction).
  - unfold send_data, bind in Hs. destruct (encode_data_in bufsize h pdu) as [w| |] eqn:He; inversion Hs.
    destruct (transmit_facts _ _ _ _ _ Hp) as (_ & _ & _ & _ & _ & _ & _ & _ & Hstd).
    split; [intros x [<-|[]]; exact Logic.I|]. split; [|intros k ev [E|[]]; discriminate E].
    exists [], (hd_index hd), h, pdu. repeat split; auto. apply (expects_reply_std _ _ _ _ _ _ _ Hstd).
  - split; [intros x [<-|[]]; destruct ev; exact Logic.I|]. split; [destruct ev; reflexivity|].
    intros k e [E|[]]. destruct ev as [e'|]; inversion E; subst. exists hd. auto.
  - destruct IH as (Hk & Ho & Hev). split; [intros x [<-|Hin]; [exact Logic.I|apply Hk; exact Hin]|]. split.
    + destruct o as [[w exp]|]; [|exact Ho]. destruct Ho as (pre & k & h & pdu & -> & Hn & He & Hx).
      exists ((hd_index hd, WIdle) :: pre), k, h, pdu. auto.
    + intros k ev [E|Hin]; [discriminate E|apply Hev; exact Hin].
Qed.

Lemma transmit_log_link : forall pa bufsize m now hp log m' o log',
  d_step pa bufsize m (DcTransmit now hp) log = Ok (m', DoTx o, log') ->
  exists new, log' = log ++ new /\
    (forall x, In x new -> match snd x with WReq _ _ | WIdle | WEvent _ => True | _ => False end) /\
    match o with
    | Some (w, Some da) =>
        exists pre k h pdu, new = pre ++ [(k, WReq h pdu)] /\ existsb log_is_req pre = false /\
          encode_data_in bufsize h pdu = Ok w /\ da = h_da h
    | _ => existsb log_is_req new = false
    end /\
    (forall k ev, In (k, WEvent ev) new ->
       exists hd, ev_peripheral (dm_events m') = Some (hd, ev) /\ hd_index hd = k).
Proof.
  intros pa bufsize m now hp log m' o log' H. cbn [d_step] in H. unfold bind in H.
  destruct (dp_transmit pa bufsize m now hp) as [[m1 o1]| |] eqn:Ht; inversion H; subst m1 o1 log'; clear H.
  rewrite <- dp_transmit_erase in Ht.
  destruct (dp_transmit_g pa bufsize m now hp) as [[[m1 o1] lg]| |] eqn:Hg; inversion Ht; subst m1 o1.
  exists (flat_map slot_entry lg). split; [apply (tx_log_g _ _ _ _ _ _ _ _ log Hg)|].
  destruct (dp_transmit_g_cases _ _ _ _ _ _ _ _ Hg) as
    [(_ & _ & -> & ->)|[(_ & _ & _ & _ & -> & b & w & _ & _ & ->)|(_ & _ & Hrel)]];
    try (repeat split; intros; contradiction).
  destruct (tx_rel_link _ _ _ _ _ _ Hrel) as (Hk & Ho & Hev). split; [exact Hk|]. split; [|exact Hev].
  destruct o as [[w exp]|]; [|exact Ho].
  destruct Ho as (pre & k & h & pdu & Hn & Hp & He & ->). exists pre, k, h, pdu. auto.
Qed.

(* the two theorems above as one statement, in the shape Properties/C08.v cites *)
Lemma master_projects_both : forall pa bufsize m0 cs m' outs log,
  d_run pa bufsize m0 cs [] = Ok (m', outs, log) ->
  contract_m None outs = true ->
  (forall k p0, slot m0 k = Some p0 ->
     exists pcs pk, p_run pa p0 pcs = Ok (pk, proj k log) /\ contract_p false (proj k log) = true /\
                    slot m' k = Some pk) /\
  (forall k a o i q d, slot m0 k = Some (periph_new a o i q d) -> history pa a o (proj k log)).
Proof.
  intros pa bufsize m0 cs m' outs log H C. split.
  - apply (master_projects pa bufsize m0 cs m' outs log H C).
  - apply (master_history pa bufsize m0 cs m' outs log H C).
Qed.
