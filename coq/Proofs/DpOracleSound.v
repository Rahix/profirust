(* DP oracle soundness: the executable monitors of coq/Model/DpOracle.v which ocaml/run_dp.ml runs on the
   IMPLEMENTATION's transcripts (c03_monitor_ra, c04_monitor_ra, c08_monitor_ra, c14_monitor_ra, the folds of
   cXX_step_ra, which wraps cXX_step; on transcripts without reset_address they are c03_monitor .. c14_monitor,
   cXX_ra_agrees) accept every transcript of the MODEL (DpRun.run_in + DpRun.auto_take +
   DpRun.observe, from DpRun.init_sys) that respects the FdlApplication contract (DpOracle.contract_ok) and the
   driver's guards (driver_ok; ra_sane; reset_guard = reset_address only to a station address 0..125 and only
   while no reply of that peripheral is outstanding, i.e. outside the known class F22
   DpOracle.known_reset_while_pending), for every configuration within the generator's limits (conf_ok).  So a
   failure code of these monitors on an implementation transcript that agrees with the model (0 divergences)
   is never a false alarm.
   The proof is a simulation.  Every occupied slot of the master carries a ghost wire monitor (DpHistory.Inv,
   collected in GInv); model_trans describes one step of the model's transcript once, as what happens to the
   slots (Trans, SlotEv) and to the slot scheduler (Sched); each oracle has a relation between its state and the
   model's (Rel3, Rel4, Rel8, Rel14) that one step preserves (cXX_sound_step, and cXX_reset_step for
   reset_address, where the configuration in force changes); sound_generic_ra is the induction over the
   transcript.  The configuration `c` of the invariants is the one IN FORCE: station addresses as changed by
   reset_address. *)
From PB Require Import Peripheral DpMaster DpRun DpOracle DpStepProofs C09Proofs C14Proofs C14History DpHistory.
From PB Require Import C04Proofs ByteFacts.
From Coq Require Import Sorted.

Definition gmap := nat -> ghost.
Definition gupd (gs : gmap) (i : nat) (g : ghost) : gmap := fun j => if Nat.eqb j i then g else gs j.

Lemma gupd_same : forall gs i g, gupd gs i g i = g.
Proof. intros. unfold gupd. rewrite Nat.eqb_refl. reflexivity. Qed.

Lemma gupd_other : forall gs i g j, j <> i -> gupd gs i g j = gs j.
Proof. intros gs i g j H. unfold gupd. destruct (Nat.eqb_spec j i) as [E|_]; [now elim H|reflexivity]. Qed.

(* the slot whose turn it is: head of the remaining slots of the pass *)
Definition cur_is (m : dpm) (i : nat) : Prop := exists r, pos_rem m = i :: r.

Lemma cur_is_fun : forall m i j, cur_is m i -> cur_is m j -> i = j.
Proof. intros m i j [r Hr] [r' Hr']. rewrite Hr in Hr'. inversion Hr'. reflexivity. Qed.

Record GInv (pa : params) (m : dpm) (gs : gmap) (pend : option Z) : Prop := mkGInv {
  gi_inv : forall i p, slot m i = Some p -> Inv pa (pe_addr p) (pe_opts p) p (gs i);
  gi_out : forall i p, slot m i = Some p -> gh_out (gs i) = true -> cur_is m i /\ pend = Some (pe_addr p);
  gi_pend : forall da, pend = Some da ->
      exists i p, cur_is m i /\ slot m i = Some p /\ pe_addr p = da /\ gh_out (gs i) = true }.

Lemma slot_slots : forall m m' j, dm_slots m' = dm_slots m -> slot m' j = slot m j.
Proof. intros m m' j H. unfold slot. rewrite H. reflexivity. Qed.

Lemma ginv_frame : forall pa m m' gs pend,
  dm_slots m' = dm_slots m -> pos_rem m' = pos_rem m -> GInv pa m gs pend -> GInv pa m' gs pend.
Proof.
  intros pa m m' gs pend Hs Hp [H1 H2 H3]. constructor.
  - intros i p Hi. rewrite (slot_slots _ _ _ Hs) in Hi. apply H1; exact Hi.
  - intros i p Hi Ho. rewrite (slot_slots _ _ _ Hs) in Hi. unfold cur_is. rewrite Hp. apply (H2 i p Hi Ho).
  - intros da E. destruct (H3 da E) as (i & p & Hc & Hi & Ha & Ho). exists i, p. unfold cur_is in *. rewrite Hp.
    rewrite (slot_slots _ _ _ Hs). auto.
Qed.

Lemma ginv_none_out : forall pa m gs i p, GInv pa m gs None -> slot m i = Some p -> gh_out (gs i) = false.
Proof.
  intros pa m gs i p G Hs. destruct (gh_out (gs i)) eqn:E; [|reflexivity].
  destruct (gi_out _ _ _ _ G i p Hs E) as [_ Hx]. discriminate Hx.
Qed.

(* nothing pending: the cycle position is irrelevant *)
Lemma ginv_none_slots : forall pa m m' gs,
  dm_slots m' = dm_slots m -> GInv pa m gs None -> GInv pa m' gs None.
Proof.
  intros pa m m' gs Hs G. constructor.
  - intros i p Hi. rewrite (slot_slots _ _ _ Hs) in Hi. apply (gi_inv _ _ _ _ G); exact Hi.
  - intros i p Hi Ho. rewrite (slot_slots _ _ _ Hs) in Hi. rewrite (ginv_none_out _ _ _ _ _ G Hi) in Ho. discriminate Ho.
  - intros da E. discriminate E.
Qed.

(* what an idle turn (transmit_telegram with nothing to send and no event) may change, as far as the monitors
   can tell: nothing but the retry counter / the unanswered count of a peripheral that is not live *)
Record Quiet (q : periph) (g : ghost) (q' : periph) (g' : ghost) : Prop := mkQuiet {
  qu_addr : pe_addr q' = pe_addr q;
  qu_opts : pe_opts q' = pe_opts q;
  qu_state : pe_state q' = pe_state q;
  qu_pi_i : pe_pi_i q' = pe_pi_i q;
  qu_pi_q : pe_pi_q q' = pe_pi_q q;
  qu_diag : last_diagnostics q' = last_diagnostics q;
  qu_fl : pe_diag_in_flight q' = pe_diag_in_flight q;
  qu_last : gh_last g' = gh_last g;
  qu_acc : gh_acc g' = gh_acc g;
  qu_text : gh_text g' = gh_text g;
  qu_phase : gh_phase g' = gh_phase g;
  qu_unans : pe_state q <> PsOffline -> gh_unans g' = gh_unans g }.

Lemma quiet_refl : forall q g, Quiet q g q g.
Proof. intros. constructor; reflexivity. Qed.

Lemma quiet_trans : forall q g q1 g1 q2 g2, Quiet q g q1 g1 -> Quiet q1 g1 q2 g2 -> Quiet q g q2 g2.
Proof.
  intros q g q1 g1 q2 g2 [A1 A2 A3 A4 A5 A6 A7 A8 A9 A10 A11 A12] [B1 B2 B3 B4 B5 B6 B7 B8 B9 B10 B11 B12].
  constructor; try congruence.
  intro H. rewrite B12 by congruence. apply A12. exact H.
Qed.

Lemma idle_turn_quiet : forall pa a o op p g p1,
  Inv pa a o p g -> p_transmit pa op p = Ok (p1, PtxSkip None) -> Quiet p g p1 (gstep g WIdle).
Proof.
  intros pa a o op p g p1 I H.
  destruct (transmit_keeps _ _ _ _ _ H) as (Ha & Hi & Hq & Ho & Hn & Hd & Hx).
  destruct (transmit_facts _ _ _ _ _ H) as (_ & _ & Hle & Hr & Hs & Hfl & Hcase).
  constructor; cbn [gstep gh_last gh_acc gh_text gh_phase gh_unans]; auto.
  - unfold last_diagnostics. rewrite Hd, Hx. reflexivity.
  - intro Hlive. destruct Hcase as [(Hid & _)|(Hoff & _)]; [|now elim Hlive].
    symmetry. apply (inv_idle _ _ _ _ _ I Hid).
Qed.

Lemma inv_same_ctrl : forall pa a o p p' g, same_ctrl p p' -> Inv pa a o p g -> Inv pa a o p' g.
Proof.
  intros pa a o p p' g (Ha & Hs & Hr & Hf & Hi & Hfl & Ho & Hl) I.
  destruct I as [I1 I2 I3 I4 I5 I6 I7 I8 I9 I10 I11 I12 I13].
  assert (Hsv : state_service p' = state_service p) by (unfold state_service; rewrite Hs, Hfl; reflexivity).
  assert (Hid : idle_state p' <-> idle_state p) by (unfold idle_state; rewrite Hs, Ho; tauto).
  constructor; try congruence; try assumption.
  - rewrite Hs. exact I7.
  - destruct (gh_last g) as [h|]; [|congruence].
    destruct I9 as (f & H1 & H2 & H3). exists f. split; [exact H1|]. split; [exact H2|].
    destruct (gh_acc g); [congruence|]. rewrite Hf, Hs. exact H3.
  - intros h Hh Hacc. rewrite Hsv, Hs. apply I10; assumption.
  - intro H. apply I12. apply Hid. exact H.
Qed.

Lemma pos_rem_user : forall m m1, user_upd m m1 -> pos_rem m1 = pos_rem m.
Proof. intros m m1 Hu. destruct (user_upd_mask _ _ Hu) as (Hm & Hc & _). apply pos_rem_mask; assumption. Qed.

Lemma ginv_user : forall pa m m1 gs pend, user_upd m m1 -> GInv pa m gs pend -> GInv pa m1 gs pend.
Proof.
  intros pa m m1 gs pend Hu G. pose proof (pos_rem_user _ _ Hu) as Hp.
  destruct Hu as (i & p & p' & Hs & -> & Hsc).
  assert (Hsl : forall j q, slot (set_slots m (put_slot (dm_slots m) i p')) j = Some q ->
            exists q0, slot m j = Some q0 /\ (q = q0 \/ (j = i /\ q0 = p /\ q = p'))).
  { intros j q Hj. destruct (Nat.eq_dec i j) as [<-|Hne].
    - rewrite (slot_put_same _ _ p' _ Hs) in Hj. inversion Hj; subst q. exists p. split; [exact Hs|]. right. auto.
    - rewrite slot_put_other in Hj by exact Hne. exists q. auto. }
  pose proof Hsc as (Ha & _ & _ & _ & _ & _ & Ho & _).
  constructor.
  - intros j q Hj. destruct (Hsl j q Hj) as (q0 & Hq0 & [->|(-> & -> & ->)]).
    + apply (gi_inv _ _ _ _ G); exact Hq0.
    + rewrite Ha, Ho. apply (inv_same_ctrl _ _ _ _ _ _ Hsc). apply (gi_inv _ _ _ _ G); exact Hs.
  - intros j q Hj Hout. unfold cur_is. rewrite Hp. destruct (Hsl j q Hj) as (q0 & Hq0 & [->|(-> & -> & ->)]).
    + apply (gi_out _ _ _ _ G _ _ Hq0 Hout).
    + rewrite Ha. apply (gi_out _ _ _ _ G _ _ Hs Hout).
  - intros da E. destruct (gi_pend _ _ _ _ G da E) as (j & q & Hc & Hj & Hq & Ho').
    unfold cur_is. rewrite Hp. destruct (Nat.eq_dec i j) as [<-|Hne].
    + exists i, p'. rewrite (slot_put_same _ _ p' _ Hs). rewrite Hs in Hj. inversion Hj; subst q.
      repeat split; auto. congruence.
    + exists j, q. rewrite slot_put_other by exact Hne. auto.
Qed.

Lemma expects_reply_std' : forall pa a o f sv h pdu,
  std_request pa a o f sv h pdu -> tx_expects_reply h = Some (h_da h).
Proof.
  intros pa a o f sv h pdu H. destruct sv; cbn in H; try contradiction.
  - destruct H as (-> & _). reflexivity.
  - destruct H as (u & _ & -> & _). reflexivity.
  - destruct H as (u & _ & -> & _). reflexivity.
  - subst h. reflexivity.
Qed.

(* what one transmit call shows: nothing, one request, or one Offline event *)
Inductive tvis : Set := TvNone | TvSend (i : nat) (h : header) (pdu : bytes) | TvOff (i : nat).

Definition vis_index (v : tvis) : option nat :=
  match v with TvNone => None | TvSend i _ _ => Some i | TvOff i => Some i end.

Definition slot_post (pa : params) (op : opstate) (v : tvis) (j : nat) (q : periph) (g : ghost) (q' : periph) (g' : ghost)
  : Prop :=
  match v with
  | TvSend i h pdu =>
      if Nat.eqb j i then
        exists q1 g1, Quiet q g q1 g1 /\ Inv pa (pe_addr q) (pe_opts q) q1 g1 /\
          p_transmit pa op q1 = Ok (q', PtxSend h pdu) /\ g' = gstep g1 (WReq h pdu) /\
          req_ok pa (pe_addr q) (pe_opts q) g1 h pdu
      else Quiet q g q' g'
  | TvOff i =>
      if Nat.eqb j i then
        exists q1 g1, Quiet q g q1 g1 /\ Inv pa (pe_addr q) (pe_opts q) q1 g1 /\
          p_transmit pa op q1 = Ok (q', PtxSkip (Some EvOffline)) /\ g' = gstep g1 (WEvent EvOffline) /\
          ev_ok pa (pe_addr q) (pe_opts q) g1 (WEvent EvOffline)
      else Quiet q g q' g'
  | TvNone => Quiet q g q' g'
  end.

Definition tx_post (pa : params) (bufsize : nat) (m : dpm) (gs : gmap) (m' : dpm) (gs' : gmap) (o : txout) (v : tvis)
  : Prop :=
  mask m' = mask m /\ dm_op m' = dm_op m /\
  (forall j q, slot m j = Some q ->
     exists q', slot m' j = Some q' /\ slot_post pa (dm_op m) v j q (gs j) q' (gs' j)) /\
  match v with
  | TvSend i h pdu =>
      exists w q, o = Some (w, Some (h_da h)) /\ encode_data_in bufsize h pdu = Ok w /\
        ev_peripheral (dm_events m') = None /\ cur_is m' i /\ slot m i = Some q
  | TvOff i =>
      o = None /\ exists q, slot m i = Some q /\ ev_peripheral (dm_events m') = Some (mkHandle i (pe_addr q), EvOffline)
  | TvNone => o = None /\ ev_peripheral (dm_events m') = None
  end.

Lemma slot_post_quiet_other : forall pa op v j q g, vis_index v <> Some j -> slot_post pa op v j q g q g.
Proof.
  intros pa op v j q g H. destruct v as [|i h pdu|i]; cbn [slot_post vis_index] in *.
  - apply quiet_refl.
  - destruct (Nat.eqb_spec j i) as [->|_]; [now elim H|apply quiet_refl].
  - destruct (Nat.eqb_spec j i) as [->|_]; [now elim H|apply quiet_refl].
Qed.

Lemma slot_post_pre : forall pa op v j q g q0 g0 q' g',
  Quiet q g q0 g0 -> slot_post pa op v j q0 g0 q' g' -> slot_post pa op v j q g q' g'.
Proof.
  intros pa op v j q g q0 g0 q' g' Hq H. pose proof (qu_addr _ _ _ _ Hq) as Ha. pose proof (qu_opts _ _ _ _ Hq) as Ho.
  destruct v as [|i h pdu|i]; cbn [slot_post] in *.
  - eapply quiet_trans; eassumption.
  - destruct (Nat.eqb j i); [|eapply quiet_trans; eassumption].
    destruct H as (q1 & g1 & H1 & H2 & H3 & H4 & H5). exists q1, g1. rewrite <- Ha, <- Ho.
    split; [eapply quiet_trans; eassumption|]. auto.
  - destruct (Nat.eqb j i); [|eapply quiet_trans; eassumption].
    destruct H as (q1 & g1 & H1 & H2 & H3 & H4 & H5). exists q1, g1. rewrite <- Ha, <- Ho.
    split; [eapply quiet_trans; eassumption|]. auto.
Qed.

Lemma mask_slots : forall m m', dm_slots m' = dm_slots m -> mask m' = mask m.
Proof. intros m m' H. unfold mask. rewrite H. reflexivity. Qed.

Lemma mask_slot_back : forall m m' j q', mask m' = mask m -> slot m' j = Some q' -> exists q, slot m j = Some q.
Proof.
  intros m m' j q' Hm Hs. unfold mask in Hm. unfold slot in *.
  assert (Hn : nth_error (map occ (dm_slots m')) j = nth_error (map occ (dm_slots m)) j) by (rewrite Hm; reflexivity).
  rewrite !nth_error_map in Hn.
  destruct (nth_error (dm_slots m') j) as [[x|]|]; try discriminate Hs.
  destruct (nth_error (dm_slots m) j) as [[y|]|]; cbn in Hn; try discriminate Hn. exists y. reflexivity.
Qed.

Lemma cur_step : forall pa m gs hd p rest p1 r,
  1 <= p_max_retry pa -> GInv pa m gs None -> at_turn m hd p rest ->
  p_transmit pa (dm_op m) p = Ok (p1, r) ->
  Inv pa (pe_addr p) (pe_opts p) p (gs (hd_index hd)) /\
  Inv pa (pe_addr p1) (pe_opts p1) p1 (gstep (gs (hd_index hd)) (wev_of_ptx r)) /\
  ev_ok pa (pe_addr p) (pe_opts p) (gs (hd_index hd)) (wev_of_ptx r) /\
  pe_addr p1 = pe_addr p /\ pe_opts p1 = pe_opts p.
Proof.
  intros pa m gs hd p rest p1 r Hmax G (_ & Hsl & _) Hp.
  pose proof (gi_inv _ _ _ _ G _ _ Hsl) as I.
  assert (Hstep : p_step pa p (PcTransmit (dm_op m)) = Ok (p1, wev_of_ptx r)) by (cbn [p_step]; rewrite Hp; reflexivity).
  assert (Hct : contract_p (gh_out (gs (hd_index hd))) [wev_of_ptx r] = true) by (destruct r as [?|[?|]]; reflexivity).
  destruct (step_inv _ _ _ _ _ _ _ _ Hmax I Hstep Hct) as (I1 & Hok).
  destruct (transmit_keeps _ _ _ _ _ Hp) as (Ha & _ & _ & Ho & _). rewrite Ha, Ho. auto.
Qed.

Lemma put_cur_slots : forall m hd p p1 j,
  slot m (hd_index hd) = Some p ->
  slot (put_cur m hd p1) j = if Nat.eqb j (hd_index hd) then Some p1 else slot m j.
Proof.
  intros m hd p p1 j Hs. unfold put_cur. destruct (Nat.eqb_spec j (hd_index hd)) as [->|Hne].
  - apply (slot_put_same _ _ p1 _ Hs).
  - apply slot_put_other. intro E; apply Hne; symmetry; exact E.
Qed.

Lemma ginv_others_out : forall pa m gs pend i,
  GInv pa m gs pend -> pend = None \/ cur_is m i ->
  forall j q, j <> i -> slot m j = Some q -> gh_out (gs j) = false.
Proof.
  intros pa m gs pend i G Hi j q Hne Hj. destruct (gh_out (gs j)) eqn:E; [exfalso|reflexivity].
  destruct (gi_out _ _ _ _ G j q Hj E) as [Hcj Hp]. destruct Hi as [->|Hci]; [discriminate Hp|].
  apply Hne. apply (cur_is_fun m); assumption.
Qed.

Lemma ginv_upd_none : forall pa m gs pend m' i p1 g1,
  GInv pa m gs pend -> (forall j q, j <> i -> slot m j = Some q -> gh_out (gs j) = false) ->
  (forall j, slot m' j = if Nat.eqb j i then Some p1 else slot m j) ->
  Inv pa (pe_addr p1) (pe_opts p1) p1 g1 -> gh_out g1 = false ->
  GInv pa m' (gupd gs i g1) None.
Proof.
  intros pa m gs pend m' i p1 g1 G Hout Hsl I Ho. constructor.
  - intros j q Hj. rewrite Hsl in Hj. unfold gupd. destruct (Nat.eqb j i).
    + inversion Hj; subst q. exact I.
    + apply (gi_inv _ _ _ _ G); exact Hj.
  - intros j q Hj Hoj. exfalso. rewrite Hsl in Hj. unfold gupd in Hoj. destruct (Nat.eqb_spec j i) as [->|Hne].
    + rewrite Ho in Hoj. discriminate Hoj.
    + rewrite (Hout _ _ Hne Hj) in Hoj. discriminate Hoj.
  - intros da E. discriminate E.
Qed.

Lemma skip_out_false : forall g ev, gh_out (gstep g (wev_of_ptx (PtxSkip ev))) = false.
Proof. intros g [[]|]; reflexivity. Qed.

(* the turn of slot hd ends in this call without a request: with the Offline event, or silently; m' is the
   master afterwards, whatever its cycle state and events *)
Lemma skip_end : forall pa m gs hd p rest p1 ev m',
  1 <= p_max_retry pa -> GInv pa m gs None -> at_turn m hd p rest ->
  p_transmit pa (dm_op m) p = Ok (p1, PtxSkip ev) -> dm_slots m' = dm_slots (put_cur m hd p1) ->
  let i := hd_index hd in
  let gs' := gupd gs i (gstep (gs i) (wev_of_ptx (PtxSkip ev))) in
  GInv pa m' gs' None /\ mask m' = mask m /\
  (forall j q, slot m j = Some q -> exists q', slot m' j = Some q' /\
     slot_post pa (dm_op m) (match ev with Some _ => TvOff i | None => TvNone end) j q (gs j) q' (gs' j)) /\
  mkHandle i (pe_addr p) = hd /\ (ev = None \/ ev = Some EvOffline).
Proof.
  intros pa m gs hd p rest p1 ev m' Hmax G Ht Hp Hsl' i gs'.
  destruct (cur_step _ _ _ _ _ _ _ _ Hmax G Ht Hp) as (I & I1 & Hok & _). destruct Ht as (_ & Hsl & Hadr & _).
  assert (Hm' : forall j, slot m' j = if Nat.eqb j i then Some p1 else slot m j)
    by (intro j; rewrite (slot_slots _ m' j Hsl'); apply (put_cur_slots _ _ _ _ _ Hsl)).
  split; [apply (ginv_upd_none pa m gs None m' i p1 _ G (ginv_others_out _ _ _ _ i G (or_introl eq_refl)) Hm' I1); apply skip_out_false|].
  split; [rewrite <- (mask_put m i p1 p Hsl); apply mask_slots; exact Hsl'|]. split.
  - intros j q Hj. rewrite Hm'. unfold gs', gupd. destruct (Nat.eqb_spec j i) as [->|Hne].
    + exists p1. split; [reflexivity|]. fold i in Hsl. rewrite Hsl in Hj. inversion Hj; subst q.
      destruct ev as [e|]; cbn [slot_post]; [|apply (idle_turn_quiet _ _ _ _ _ _ _ I Hp)].
      rewrite Nat.eqb_refl. exists p, (gs i). cbn [wev_of_ptx ev_ok] in Hok. destruct Hok as (-> & Hok).
      split; [apply quiet_refl|]. split; [exact I|]. split; [exact Hp|]. split; [reflexivity|]. split; [reflexivity|exact Hok].
    + exists q. split; [exact Hj|]. apply slot_post_quiet_other. destruct ev; cbn; congruence.
  - split; [unfold i; rewrite <- Hadr; destruct hd; reflexivity|].
    destruct ev as [e|]; [right|left; reflexivity]. cbn [wev_of_ptx ev_ok] in Hok. destruct Hok as (-> & _). reflexivity.
Qed.

Lemma tx_rel_ghost : forall pa bufsize m m' o log,
  1 <= p_max_retry pa ->
  tx_rel pa bufsize m m' o log -> forall gs, GInv pa m gs None ->
  exists gs' v, GInv pa m' gs' (match o with Some (_, e) => e | None => None end) /\
                tx_post pa bufsize m gs m' gs' o v.
Proof.
  (* by_turns (C14History): induction over the turns of the call; it names Ht : at_turn m hd p rest, Hp : the
     outcome of p_transmit, Hs : send_data, Hpo : passes_on, Hne : rest <> [], and Hrel, IH for the rest of the call *)
  intros pa bufsize m m' o log Hmax H. by_turns H; intros gs G.
  1, 2: (* the pass is over: cycle state and events are reset, no slot is touched *)
    (exists gs, TvNone; split; [apply (ginv_none_slots pa m); [reflexivity|exact G]|];
     split; [reflexivity|]; split; [reflexivity|]; split; [|split; reflexivity];
     intros j q Hj; exists q; split; [exact Hj|apply quiet_refl]).
  - (* a request *)
    destruct (cur_step _ _ _ _ _ _ _ _ Hmax G Ht Hp) as (I & I1 & Hok & Ha & Ho). destruct Ht as (Hr & Hsl & Hadr & _).
    cbn [wev_of_ptx] in I1, Hok. cbn [ev_ok] in Hok.
    destruct (put_cur_facts m hd p p1 Hsl) as (Hmk & _ & Hpr & _).
    pose proof Hok as (f & Hstd & _). destruct (std_request_classify _ _ _ _ _ _ _ Hstd) as (_ & Hda & _ & _).
    unfold send_data in Hs. destruct (encode_data_in bufsize h pdu) as [w| |] eqn:He; cbn [bind] in Hs; try discriminate Hs.
    inversion Hs; subst o. clear Hs. rewrite (expects_reply_std' _ _ _ _ _ _ _ Hstd).
    set (m' := set_events (put_cur m hd p1) (mkEvents false None)).
    assert (Hm' : forall j, slot m' j = if Nat.eqb j (hd_index hd) then Some p1 else slot m j)
      by (intro j; apply (put_cur_slots _ _ _ _ _ Hsl)).
    assert (Hcur : cur_is m' (hd_index hd)) by (exists rest; unfold m'; rewrite pos_rem_events, Hpr; exact Hr).
    exists (gupd gs (hd_index hd) (gstep (gs (hd_index hd)) (WReq h pdu))), (TvSend (hd_index hd) h pdu).
    split.
    + constructor.
      * intros j q Hj. rewrite Hm' in Hj. unfold gupd. destruct (Nat.eqb j (hd_index hd)).
        -- inversion Hj; subst q. exact I1.
        -- apply (gi_inv _ _ _ _ G); exact Hj.
      * intros j q Hj Hout. rewrite Hm' in Hj. unfold gupd in Hout. destruct (Nat.eqb_spec j (hd_index hd)) as [->|Hne].
        -- inversion Hj; subst q. split; [exact Hcur|congruence].
        -- rewrite (ginv_none_out _ _ _ _ _ G Hj) in Hout. discriminate Hout.
      * intros da E. inversion E; subst da. exists (hd_index hd), p1.
        split; [exact Hcur|]. split; [rewrite Hm', Nat.eqb_refl; reflexivity|]. split; [congruence|]. rewrite gupd_same. reflexivity.
    + split; [exact Hmk|]. split; [reflexivity|]. split.
      * intros j q Hj. rewrite Hm'. cbn [slot_post]. unfold gupd. destruct (Nat.eqb_spec j (hd_index hd)) as [->|Hne].
        -- exists p1. split; [reflexivity|]. rewrite Hsl in Hj. inversion Hj; subst q.
           exists p, (gs (hd_index hd)). split; [apply quiet_refl|]. auto.
        -- exists q. split; [exact Hj|apply quiet_refl].
      * exists w, p. auto.
  - (* the turn ends the call: the pass is over, or an event was raised *)
    destruct (skip_end pa m gs hd p rest p1 ev (set_events (set_cycle (put_cur m hd p1) cy) (mkEvents (is_nil rest) (opt_pair hd ev)))
                Hmax G Ht Hp eq_refl) as (G' & Hmk & Hsl & Ehd & Hev).
    eexists; eexists. split; [exact G'|]. split; [exact Hmk|]. split; [reflexivity|]. split; [exact Hsl|].
    destruct Hev as [-> | ->]; split; try reflexivity. exists p. split; [apply Ht|]. cbn. rewrite Ehd. reflexivity.
  - (* nothing to send, next slot *)
    destruct (skip_end pa m gs hd p rest p1 None (set_cycle (put_cur m hd p1) cy) Hmax G Ht Hp eq_refl) as (G2 & Hmk & Hq & _).
    cbn [slot_post] in Hq.
    destruct (IH _ G2) as (gs' & v & G' & Hmk' & Hop' & Hslots & Hvis). exists gs', v. split; [exact G'|].
    assert (Hback : forall i q2, slot (set_cycle (put_cur m hd p1) cy) i = Some q2 ->
              exists q, slot m i = Some q /\ pe_addr q2 = pe_addr q).
    { intros i q2 H2. destruct (mask_slot_back m _ i q2 Hmk H2) as (q & Hq0). destruct (Hq _ _ Hq0) as (q2' & H2' & HQ).
      rewrite H2 in H2'. inversion H2'; subst q2'. exists q. split; [exact Hq0|apply (qu_addr _ _ _ _ HQ)]. }
    split; [congruence|]. split; [exact Hop'|]. split.
    + intros j q Hj. destruct (Hq _ _ Hj) as (q2 & Hq2 & HQ). destruct (Hslots _ _ Hq2) as (q' & Hq' & Hpost).
      exists q'. split; [exact Hq'|]. eapply slot_post_pre; [exact HQ|exact Hpost].
    + destruct v as [|i h pdu|i]; [exact Hvis| |].
      * destruct Hvis as (w & q2 & H1 & H2 & H3 & H4 & H5). destruct (Hback _ _ H5) as (q & Hq0 & _). exists w, q. auto.
      * destruct Hvis as (H1 & q2 & H5 & H6). destruct (Hback _ _ H5) as (q & Hq0 & Ea). split; [exact H1|].
        exists q. split; [exact Hq0|]. rewrite <- Ea. exact H6.
Qed.

Lemma reply_out_false : forall g t ev, gh_out (gstep g (WReply t ev)) = false.
Proof. intros g t ev. cbn [gstep]. destruct (reply_accepted _ t); reflexivity. Qed.

Lemma rx_ghost : forall pa m a t m' log gs da,
  1 <= p_max_retry pa -> GInv pa m gs (Some da) ->
  dp_receive_reply_g m a t = Ok (m', log) ->
  exists i p p1 ev r,
    log = [GReply i p p1 t ev] /\
    cur_is m i /\ slot m i = Some p /\ pe_addr p = a /\ a = da /\ p_receive_reply p t = Ok (p1, ev) /\
    slot m' i = Some p1 /\ (forall j, j <> i -> slot m' j = slot m j) /\ mask m' = mask m /\
    dm_events m' = mkEvents (is_nil r) (opt_pair (mkHandle i a) ev) /\ dm_op m' = dm_op m /\
    Inv pa a (pe_opts p) p (gs i) /\ gh_out (gs i) = true /\
    GInv pa m' (gupd gs i (gstep (gs i) (WReply t ev))) None /\
    pos_rem m = i :: r /\ pos_rem m' = (if is_nil r then occupied m' else r).
Proof.
  intros pa m a t m' log gs da Hmax G H.
  destruct (rx_turn _ _ _ _ _ H) as (hd & p & rest & p1 & ev & cy & Ht & -> & Hrx & Hpo & -> & ->).
  pose proof Ht as (Hr & Hsl & Hadr & _).
  assert (Hcur : cur_is m (hd_index hd)) by (exists rest; exact Hr).
  destruct (gi_pend _ _ _ _ G da eq_refl) as (i' & p' & Hc' & Hs' & Ha' & Ho').
  assert (Ei : i' = hd_index hd) by (apply (cur_is_fun m); assumption). subst i'.
  rewrite Hsl in Hs'. inversion Hs'; subst p'. clear Hs'.
  pose proof (gi_inv _ _ _ _ G _ _ Hsl) as I.
  assert (Hstep : p_step pa p (PcReply t) = Ok (p1, WReply t ev)) by (cbn [p_step]; rewrite Hrx; reflexivity).
  assert (Hct : contract_p (gh_out (gs (hd_index hd))) [WReply t ev] = true) by (cbn [contract_p]; rewrite Ho'; reflexivity).
  destruct (step_inv _ _ _ _ _ _ _ _ Hmax I Hstep Hct) as (I1 & _).
  destruct (receive_facts _ _ _ _ Hrx) as (Hap & Hop & _).
  set (m' := set_events (set_cycle (put_cur m hd p1) cy) (mkEvents (is_nil rest) (opt_pair hd ev))).
  assert (Hslots : forall j, slot m' j = if Nat.eqb j (hd_index hd) then Some p1 else slot m j)
    by (intro j; apply (put_cur_slots _ _ _ _ _ Hsl)).
  exists (hd_index hd), p, p1, ev, rest.
  split; [reflexivity|]. split; [exact Hcur|]. split; [exact Hsl|]. split; [reflexivity|]. split; [exact Ha'|]. split; [exact Hrx|].
  split; [rewrite Hslots, Nat.eqb_refl; reflexivity|].
  split; [intros j Hj; rewrite Hslots; destruct (Nat.eqb_spec j (hd_index hd)); [contradiction|reflexivity]|].
  split; [exact (mask_put m _ p1 p Hsl)|].
  split; [cbn [dm_events set_events m']; rewrite <- Hadr; destruct hd; reflexivity|].
  split; [reflexivity|]. split; [exact I|]. split; [exact Ho'|].
  split; [|split; [exact Hr|exact (proj1 Hpo)]].
  apply (ginv_upd_none pa m gs (Some da) _ (hd_index hd) p1 _ G (ginv_others_out _ _ _ _ _ G (or_intror Hcur)) Hslots).
  - rewrite Hap, Hop. exact I1.
  - apply reply_out_false.
Qed.

Lemma timeout_ghost : forall pa m gs da,
  1 <= p_max_retry pa -> GInv pa m gs (Some da) ->
  exists i p, cur_is m i /\ slot m i = Some p /\ pe_addr p = da /\ gh_out (gs i) = true /\
     GInv pa m (gupd gs i (gstep (gs i) WTimeout)) None.
Proof.
  intros pa m gs da Hmax G.
  destruct (gi_pend _ _ _ _ G da eq_refl) as (i & p & Hc & Hs & Ha & Ho).
  exists i, p. repeat (split; [assumption|]).
  pose proof (gi_inv _ _ _ _ G _ _ Hs) as I.
  assert (Hct : contract_p (gh_out (gs i)) [WTimeout] = true) by (cbn [contract_p]; rewrite Ho; reflexivity).
  destruct (step_inv pa _ _ p (gs i) PcTimeout p WTimeout Hmax I eq_refl Hct) as (I1 & _).
  apply (ginv_upd_none pa m gs (Some da) m i p _ G (ginv_others_out _ _ _ _ _ G (or_intror Hc))); [|exact I1|reflexivity].
  intro j. destruct (Nat.eqb_spec j i) as [->|_]; [exact Hs|reflexivity].
Qed.

Lemma first_free_spec : forall l k i, first_free l k = Some i ->
  exists j, i = (k + j)%nat /\ nth_error l j = Some None.
Proof.
  induction l as [|x l IH]; intros k i H; [discriminate H|].
  destruct x as [p|]; cbn [first_free] in H.
  - destruct (IH _ _ H) as (j & -> & Hj). exists (S j). split; [lia|exact Hj].
  - inversion H; subst. exists 0%nat. split; [lia|reflexivity].
Qed.

Lemma first_free_none : forall l k, first_free l k = None -> forall j, nth_error l j <> Some None.
Proof.
  induction l as [|x l IH]; intros k H j; [destruct j; discriminate|].
  destruct x as [p|]; cbn [first_free] in H; [|discriminate H].
  destruct j; cbn; [discriminate|]. apply (IH _ H).
Qed.

Definition add_post (m : dpm) (p0 : periph) (m' : dpm) (h : handle) : Prop :=
  slot m (hd_index h) = None /\ slot m' (hd_index h) = Some p0 /\
  (forall j, j <> hd_index h -> slot m' j = slot m j) /\ hd_addr h = pe_addr p0 /\
  dm_op m' = dm_op m /\ dm_events m' = dm_events m /\ dm_cycle m' = dm_cycle m /\ dm_last_gc m' = dm_last_gc m /\
  dm_owned m' = dm_owned m.

Lemma dp_add_post : forall m p0 m' h, dp_add m p0 = Ok (m', h) -> add_post m p0 m' h.
Proof.
  intros m p0 m' h H. unfold dp_add in H. unfold add_post.
  destruct (first_free (dm_slots m) 0) as [i|] eqn:Hf.
  - unfold bind, u8_index in H. destruct (Nat.ltb 255 i); [discriminate H|]. inversion H; subst m' h. clear H.
    destruct (first_free_spec _ _ _ Hf) as (j & -> & Hj). cbn [Nat.add hd_index hd_addr].
    split; [unfold slot; rewrite Hj; reflexivity|].
    split; [unfold slot; cbn [dm_slots set_slots]; rewrite (put_slot_same _ _ p0 _ Hj); reflexivity|].
    split; [intros k Hk; unfold slot; cbn [dm_slots set_slots]; rewrite put_slot_other by (intro E; apply Hk; symmetry; exact E); reflexivity|].
    repeat split; reflexivity.
  - destruct (dm_owned m) eqn:Hown; [|discriminate H].
    unfold bind, u8_index in H. destruct (Nat.ltb 255 (length (dm_slots m))); [discriminate H|]. inversion H; subst m' h. clear H.
    cbn [hd_index hd_addr].
    assert (Hn : nth_error (dm_slots m) (length (dm_slots m)) = None) by (apply nth_error_None; lia).
    split; [unfold slot; rewrite Hn; reflexivity|].
    split; [unfold slot; cbn [dm_slots set_slots]; rewrite nth_error_app2 by lia; rewrite Nat.sub_diag; reflexivity|].
    split.
    { intros k Hk. unfold slot. cbn [dm_slots set_slots].
      destruct (Nat.lt_ge_cases k (length (dm_slots m))) as [Hlt|Hge].
      - rewrite nth_error_app1 by exact Hlt. reflexivity.
      - rewrite nth_error_app2 by exact Hge.
        assert (Hk2 : nth_error (dm_slots m) k = None) by (apply nth_error_None; exact Hge). rewrite Hk2.
        destruct (k - length (dm_slots m))%nat as [|n] eqn:E; [lia|]. destruct n; reflexivity. }
    repeat split; try reflexivity. cbn. exact Hown.
Qed.

(* occupied slots after an add: the same plus the new one; with nothing pending the cycle position does
   not matter for the ghost invariant *)
Lemma add_ghost : forall pa m a o i q d m' h gs,
  0 <= p_max_retry pa ->
  dp_add m (periph_new a o i q d) = Ok (m', h) -> GInv pa m gs None ->
  GInv pa m' (gupd gs (hd_index h) ghost0) None.
Proof.
  intros pa m a o i q d m' h gs Hmax H G.
  destruct (dp_add_post _ _ _ _ H) as (Hfree & Hnew & Hoth & _).
  apply (ginv_upd_none pa m gs None m' (hd_index h) (periph_new a o i q d) ghost0 G
           (ginv_others_out _ _ _ _ _ G (or_introl eq_refl))); [|apply inv_init; exact Hmax|reflexivity].
  intro j. destruct (Nat.eqb_spec j (hd_index h)) as [->|Hne]; [exact Hnew|apply Hoth; exact Hne].
Qed.

Lemma alist_get_set_same : forall A (d : A) l k v, alist_get d (alist_set l k v) k = v.
Proof.
  intros A d. induction l as [|[k' v'] l IH]; intros k v; cbn [alist_set alist_get].
  - rewrite Z.eqb_refl. reflexivity.
  - destruct (Z.eqb_spec k k') as [->|Hne]; cbn [alist_get].
    + rewrite Z.eqb_refl. reflexivity.
    + destruct (Z.eqb_spec k k'); [contradiction|]. apply IH.
Qed.

Lemma alist_get_set_other : forall A (d : A) l k v k0, k0 <> k -> alist_get d (alist_set l k v) k0 = alist_get d l k0.
Proof.
  intros A d. induction l as [|[k' v'] l IH]; intros k v k0 Hne; cbn [alist_set alist_get].
  - destruct (Z.eqb_spec k0 k); [contradiction|]. reflexivity.
  - destruct (Z.eqb_spec k k') as [->|Hne']; cbn [alist_get].
    + destruct (Z.eqb_spec k0 k'); [contradiction|]. reflexivity.
    + destruct (Z.eqb_spec k0 k'); [reflexivity|]. apply IH. exact Hne.
Qed.

Lemma encode_decode : forall bufsize h pdu w,
  wf_header h -> (length_byte h (length pdu) <= 249)%nat -> (telegram_len_data h (length pdu) <= bufsize)%nat ->
  encode_data_in bufsize h pdu = Ok w ->
  decode w = Ok (Accept (TData h pdu) (length w)).
Proof.
  intros bufsize h pdu w Hwf Hlb Hsz He.
  rewrite (encode_data_in_spec _ _ _ Hwf Hlb Hsz) in He. inversion He; subst w.
  pose proof (decode_data_frame h pdu [] Hwf Hlb) as Hd. rewrite app_nil_r in Hd.
  rewrite Hd, frame_spec_length. reflexivity.
Qed.

Lemma length_byte_le : forall h n, (length_byte h n <= 5 + n)%nat.
Proof. intros h n. unfold length_byte. destruct (h_dsap h), (h_ssap h); cbn; lia. Qed.

Lemma telegram_len_le : forall h n, (telegram_len_data h n <= length_byte h n + 6)%nat.
Proof.
  intros h n. unfold telegram_len_data.
  destruct (Nat.eqb (length_byte h n) 3); cbn [orb]; [lia|]. destruct (Nat.eqb (length_byte h n) 11); lia.
Qed.

Lemma view_tx_none : forall now hp tk obs op, view_of (mkStep (InTx now hp) false (OutTx None) tk obs op) = VNoTx.
Proof. reflexivity. Qed.

Lemma view_tx_req : forall now hp tk obs op w h pdu f rq,
  decode w = Ok (Accept (TData h pdu) (length w)) -> h_fc h = FcRequest f rq ->
  view_of (mkStep (InTx now hp) false (OutTx (Some (w, Some (h_da h)))) tk obs op) = VReq (h_da h) (classify h) h pdu.
Proof.
  intros now hp tk obs op w h pdu f rq Hd Hfc. unfold view_of. cbn [ts_in ts_out]. rewrite Hd, Nat.eqb_refl. cbn [negb].
  rewrite Hfc, Z.eqb_refl. reflexivity.
Qed.

Lemma view_tx_sdn : forall now hp tk obs op w h pdu f rq,
  decode w = Ok (Accept (TData h pdu) (length w)) -> h_fc h = FcRequest f rq ->
  view_of (mkStep (InTx now hp) false (OutTx (Some (w, None))) tk obs op) = VSdn h pdu.
Proof.
  intros now hp tk obs op w h pdu f rq Hd Hfc. unfold view_of. cbn [ts_in ts_out]. rewrite Hd, Nat.eqb_refl. cbn [negb].
  rewrite Hfc. reflexivity.
Qed.

Lemma view_rx : forall now addr w tk obs op t n,
  decode w = Ok (Accept t n) -> view_of (mkStep (InRx now addr w) false OutUnit tk obs op) = VReply addr t.
Proof. intros now addr w tk obs op t n Hd. unfold view_of. cbn [ts_in ts_out]. rewrite Hd. reflexivity. Qed.

Lemma fc_byte_fcb : forall f rq, negb (Z.land (fc_to_byte (FcRequest f rq)) 32 =? 0) = fcbit_fcb f.
Proof. intros f rq. destruct f, rq; reflexivity. Qed.

(* events collected at a step: the take_last_events() that follows a callback (auto mode) or the step itself *)
Definition taken_of (tk : option dpevents) (o : tr_out) : option dpevents :=
  match tk with
  | Some e => Some e
  | None => match o with OutEvents e => Some e | _ => None end
  end.

(* one step of ocaml/run_dp.ml on the model side: DpRun.run_in, then DpRun.auto_take, then the observables *)
Definition model_step (s : sys) (i : tr_in) : res (sys * tstep) :=
  let* (s1, o) := run_in s i in
  let s2 := fst (auto_take s1 i) in
  Ok (s2, mkStep i false o (taken_of (snd (auto_take s1 i)) o) (observe s2) (observe_op s2)).

Fixpoint model_run (s : sys) (ins : list tr_in) : res (sys * list tstep) :=
  match ins with
  | [] => Ok (s, [])
  | i :: r =>
      let* (s1, t) := model_step s i in
      let* (s2, tr) := model_run s1 r in
      Ok (s2, t :: tr)
  end.

(* how the outstanding request evolves along a transcript (as in DpOracle.contract_from) *)
Definition pend_next_v (pend : option Z) (v : view) : option Z :=
  match v with
  | VReq da _ _ _ => Some da
  | VSdn _ _ | VNoTx | VBadTx => None
  | VReply _ _ | VTimeout _ | VAbandon => None
  | VCrash | VOther => pend
  end.

Definition is_bad (o : tr_out) : bool := match o with OutBad => true | _ => false end.

(* the driver's guards (harness/src/dp.rs): no ill-formed input (OutBad: "driver error"); add(k) only for a
   peripheral that is not yet in the master and only between requests (op ADD<k>; ADDF is not generated) *)
Fixpoint driver_from (hs : list (option handle)) (pend : option Z) (l : list tstep) : bool :=
  match l with
  | [] => true
  | s :: r =>
      if is_bad (ts_out s) then false else
      match ts_in s with
      | InAdd k =>
          match nth_error hs k, pend with
          | Some None, None =>
              driver_from (match ts_out s with OutHandle h => set_nth hs k (Some h) | _ => hs end) pend r
          | _, _ => false
          end
      | _ => driver_from hs (pend_next_v pend (view_of s)) r
      end
  end.
Definition driver_ok (hs0 : list (option handle)) (l : list tstep) : bool := driver_from hs0 None l.

Definition placed_ok (c : conf) : Prop :=
  forall k pc i, nth_error (cf_periphs c) k = Some pc -> pc_slot pc = Some i ->
    (i < cf_nslots c)%nat /\
    forall k' pc', nth_error (cf_periphs c) k' = Some pc' -> pc_slot pc' = Some i -> k' = k.

Record conf_ok (c : conf) : Prop := mkConfOk {
  co_auto : cf_autotake c = true;                      (* the monitors are only run on such transcripts *)
  co_sane : conf_sane c = true;
  co_limits : conf_within_limits c = true;
  co_retry : 1 <= p_max_retry (cf_params c);           (* ParametersBuilder allows 1..15 *)
  co_own : 0 <= p_address (cf_params c) <= 126;
  co_placed : placed_ok c }.

Definition fits (pc : pconf) (p : periph) : Prop :=
  pe_addr p = pc_addr pc /\ pe_opts p = pc_opts pc /\ length (pe_pi_i p) = pc_in pc /\ length (pe_pi_q p) = pc_out pc.

(* c is c0 up to its peripherals' entries (reset_address changes their station addresses): the configuration in
   force is like the configuration of the case (sy_conf s) *)
Definition conf_like (c0 c : conf) : Prop :=
  cf_params c = cf_params c0 /\ cf_bufsize c = cf_bufsize c0 /\ cf_autotake c = cf_autotake c0 /\
  length (cf_periphs c) = length (cf_periphs c0).

Lemma conf_like_refl : forall c, conf_like c c.
Proof. intro c. repeat split; reflexivity. Qed.

(* handles are compared by slot index only: the address a handle carries is stale after reset_address *)
Record SInv (c : conf) (s : sys) : Prop := mkSInv {
  si_conf : conf_like (sy_conf s) c;
  si_len : length (sy_handles s) = length (cf_periphs c);
  si_events : dm_events (sy_m s) = events_default;
  si_h : forall k h, nth_error (sy_handles s) k = Some (Some h) ->
           exists pc p, nth_error (cf_periphs c) k = Some pc /\ slot (sy_m s) (hd_index h) = Some p /\ fits pc p;
  si_s : forall i p, slot (sy_m s) i = Some p ->
           exists k h, nth_error (sy_handles s) k = Some (Some h) /\ hd_index h = i;
  si_late : forall k, nth_error (sy_handles s) k = Some None ->
           nth_error (cf_periphs (sy_conf s)) k = nth_error (cf_periphs c) k }.

Definition shape_eq (q q' : periph) : Prop :=
  pe_addr q' = pe_addr q /\ pe_opts q' = pe_opts q /\ length (pe_pi_i q') = length (pe_pi_i q) /\
  length (pe_pi_q q') = length (pe_pi_q q).

Lemma sinv_step : forall c s s',
  SInv c s -> sy_conf s' = sy_conf s -> sy_handles s' = sy_handles s -> dm_events (sy_m s') = events_default ->
  (forall j q, slot (sy_m s) j = Some q -> exists q', slot (sy_m s') j = Some q' /\ shape_eq q q') ->
  (forall j q', slot (sy_m s') j = Some q' -> exists q, slot (sy_m s) j = Some q) ->
  SInv c s'.
Proof.
  intros c s s' [H1 H2 H3 H4 H5 H6] Hc Hh He Hfw Hbw. constructor.
  - rewrite Hc. exact H1.
  - rewrite Hh. exact H2.
  - exact He.
  - intros k h Hk. rewrite Hh in Hk. destruct (H4 k h Hk) as (pc & p & Hpc & Hs & (F1 & F2 & F3 & F4)).
    destruct (Hfw _ _ Hs) as (q' & Hq' & (E1 & E2 & E3 & E4)). exists pc, q'.
    split; [exact Hpc|]. split; [exact Hq'|]. unfold fits. repeat split; congruence.
  - intros i q' Hq'. rewrite Hh. destruct (Hbw _ _ Hq') as (q & Hq). apply (H5 _ _ Hq).
  - intros k Hk. rewrite Hh in Hk. rewrite Hc. apply H6. exact Hk.
Qed.

Lemma quiet_shape : forall q g q' g', Quiet q g q' g' -> shape_eq q q'.
Proof. intros q g q' g' H. destruct H. unfold shape_eq. repeat split; congruence. Qed.

Lemma transmit_shape : forall pa op q q' r, p_transmit pa op q = Ok (q', r) -> shape_eq q q'.
Proof.
  intros pa op q q' r H. destruct (transmit_keeps _ _ _ _ _ H) as (Ha & Hi & Hq & Ho & _).
  unfold shape_eq. repeat split; congruence.
Qed.

Lemma shape_trans : forall a b c, shape_eq a b -> shape_eq b c -> shape_eq a c.
Proof. intros a b c (A1 & A2 & A3 & A4) (B1 & B2 & B3 & B4). unfold shape_eq. repeat split; congruence. Qed.

Lemma slot_post_shape : forall pa op v j q g q' g', slot_post pa op v j q g q' g' -> shape_eq q q'.
Proof.
  intros pa op v j q g q' g' H. destruct v as [|i h pdu|i]; cbn [slot_post] in H.
  - eapply quiet_shape; exact H.
  - destruct (Nat.eqb j i); [|eapply quiet_shape; exact H].
    destruct H as (q1 & g1 & H1 & _ & H3 & _). eapply shape_trans; [eapply quiet_shape; exact H1|eapply transmit_shape; exact H3].
  - destruct (Nat.eqb j i); [|eapply quiet_shape; exact H].
    destruct H as (q1 & g1 & H1 & _ & H3 & _). eapply shape_trans; [eapply quiet_shape; exact H1|eapply transmit_shape; exact H3].
Qed.

Lemma tx_post_pass : forall pa bufsize m gs m' gs' o v, tx_post pa bufsize m gs m' gs' o v ->
  (forall j q, vis_index v <> Some j -> slot m j = Some q -> exists q', slot m' j = Some q' /\ Quiet q (gs j) q' (gs' j)) /\
  (forall j q', slot m' j = Some q' -> exists q, slot m j = Some q).
Proof.
  intros pa bufsize m gs m' gs' o v (Hmk & _ & Hslots & _). split; [|intros j q'; apply mask_slot_back; exact Hmk].
  intros j q Hne Hq. destruct (Hslots _ _ Hq) as (q' & Hq' & Hpost). exists q'. split; [exact Hq'|].
  destruct v as [|i h pdu|i]; cbn [slot_post vis_index] in *; [exact Hpost| |];
    (destruct (Nat.eqb_spec j i) as [->|_]; [now elim Hne|exact Hpost]).
Qed.

Lemma receive_shape : forall p t p1 ev, p_receive_reply p t = Ok (p1, ev) -> shape_eq p p1.
Proof.
  intros p t p1 ev H. destruct (receive_facts _ _ _ _ H) as (Ha & Ho & _).
  unfold shape_eq. split; [exact Ha|]. split; [exact Ho|]. split.
  - destruct (pi_i_frame _ _ _ _ H) as [->|(_ & _ & h & pdu & st & s & _ & _ & _ & Hl & -> & _)]; [reflexivity|exact Hl].
  - destruct (reply_event_iff _ _ _ _ H) as (_ & _ & ->). reflexivity.
Qed.

Lemma place_all_length : forall ps sl, length (place_all sl ps) = length sl.
Proof.
  induction ps as [|c t IH]; intro sl; [reflexivity|]. cbn [place_all].
  destruct (pc_slot c); [rewrite IH; apply put_slot_length|apply IH].
Qed.

Lemma place_all_keep : forall ps sl j,
  (forall c, In c ps -> pc_slot c <> Some j) -> nth_error (place_all sl ps) j = nth_error sl j.
Proof.
  induction ps as [|c t IH]; intros sl j H; [reflexivity|]. cbn [place_all].
  assert (Ht : forall c', In c' t -> pc_slot c' <> Some j) by (intros c' Hin; apply H; right; exact Hin).
  destruct (pc_slot c) as [i|] eqn:E; [|apply IH; exact Ht].
  rewrite IH by exact Ht. apply put_slot_other. intro Ex; subst i. apply (H c); [left; reflexivity|exact E].
Qed.

Lemma put_slot_some : forall l i p j q, nth_error (put_slot l i p) j = Some (Some q) ->
  nth_error l j = Some (Some q) \/ (j = i /\ q = p).
Proof.
  intros l i p j q H. destruct (Nat.eq_dec i j) as [->|Hne].
  - destruct (nth_error l j) as [x|] eqn:E.
    + rewrite (put_slot_same _ _ p _ E) in H. inversion H. right. auto.
    + assert (Hl : (length l <= j)%nat) by (apply nth_error_None; exact E).
      assert (Hx : nth_error (put_slot l j p) j = None) by (apply nth_error_None; rewrite put_slot_length; exact Hl).
      rewrite Hx in H. discriminate H.
  - rewrite put_slot_other in H by exact Hne. left; exact H.
Qed.

Lemma place_all_in : forall ps sl j p, nth_error (place_all sl ps) j = Some (Some p) ->
  nth_error sl j = Some (Some p) \/ exists k c, nth_error ps k = Some c /\ pc_slot c = Some j /\ p = periph_of_conf c.
Proof.
  induction ps as [|c t IH]; intros sl j p H; [left; exact H|]. cbn [place_all] in H.
  destruct (pc_slot c) as [i|] eqn:E.
  - destruct (IH _ _ _ H) as [H1|(k & c' & Hk & Hs & Hp)].
    + destruct (put_slot_some _ _ _ _ _ H1) as [H2|(-> & ->)]; [left; exact H2|].
      right. exists 0%nat, c. auto.
    + right. exists (S k), c'. auto.
  - destruct (IH _ _ _ H) as [H1|(k & c' & Hk & Hs & Hp)]; [left; exact H1|].
    right. exists (S k), c'. auto.
Qed.

Lemma place_all_placed : forall ps sl k c j,
  nth_error ps k = Some c -> pc_slot c = Some j -> (j < length sl)%nat ->
  (forall k' c', nth_error ps k' = Some c' -> pc_slot c' = Some j -> k' = k) ->
  nth_error (place_all sl ps) j = Some (Some (periph_of_conf c)).
Proof.
  induction ps as [|c0 t IH]; intros sl k c j Hk Hs Hj Hu; [destruct k; discriminate Hk|].
  cbn [place_all]. destruct k as [|k].
  - cbn in Hk. inversion Hk; subst c0. rewrite Hs.
    rewrite place_all_keep.
    + destruct (nth_error sl j) as [x|] eqn:E; [apply (put_slot_same _ _ _ _ E)|].
      apply nth_error_None in E. lia.
    + intros c' Hin Hc'. destruct (In_nth_error _ _ Hin) as (n & Hn).
      specialize (Hu (S n) c' Hn Hc'). discriminate Hu.
  - cbn in Hk.
    assert (Hu' : forall k' c', nth_error t k' = Some c' -> pc_slot c' = Some j -> k' = k).
    { intros k' c' H1 H2. specialize (Hu (S k') c' H1 H2). inversion Hu. reflexivity. }
    destruct (pc_slot c0) as [i|] eqn:E.
    + apply (IH _ k); auto. rewrite put_slot_length. exact Hj.
    + apply (IH _ k); auto.
Qed.

Lemma periph_of_conf_fits : forall pc, fits pc (periph_of_conf pc).
Proof. intro pc. unfold fits, periph_of_conf, periph_new. cbn. rewrite !repeat_length. repeat split; reflexivity. Qed.

Lemma add_all_spec : forall ps m m' hs,
  add_all m ps = Ok (m', hs) ->
  length hs = length ps /\
  (dm_events m' = dm_events m /\ dm_op m' = dm_op m /\ dm_cycle m' = dm_cycle m /\ dm_last_gc m' = dm_last_gc m) /\
  (forall j q, slot m j = Some q -> slot m' j = Some q) /\
  (forall k pc, nth_error ps k = Some pc ->
     match pc_slot pc with
     | Some i => nth_error hs k = Some (Some (mkHandle i (pc_addr pc)))
     | None =>
         if pc_late pc then nth_error hs k = Some None
         else exists h, nth_error hs k = Some (Some h) /\ hd_addr h = pc_addr pc /\
                        slot m (hd_index h) = None /\ slot m' (hd_index h) = Some (periph_of_conf pc)
     end) /\
  (forall j q, slot m' j = Some q ->
     slot m j = Some q \/
     exists k pc h, nth_error ps k = Some pc /\ pc_slot pc = None /\ pc_late pc = false /\
                    nth_error hs k = Some (Some h) /\ hd_index h = j /\ q = periph_of_conf pc).
Proof.
  induction ps as [|c t IH]; intros m m' hs H; cbn [add_all] in H.
  - inversion H; subst. split; [reflexivity|]. split; [auto|]. split; [auto|].
    split; [intros k pc Hk; destruct k; discriminate Hk|]. intros j q Hq. left; exact Hq.
  - destruct (pc_slot c) as [i|] eqn:Es; [|destruct (pc_late c) eqn:El].
    1, 2: (* c is not added here: its handle, if any, is known *)
      (destruct (add_all m t) as [[m1 hs1]| |] eqn:Ha; cbn [bind] in H; try discriminate H;
       inversion H; subst m' hs; clear H;
       destruct (IH _ _ _ Ha) as (Hl & Hf & Hmono & Hk & Hback);
       split; [cbn; rewrite Hl; reflexivity|]; split; [exact Hf|]; split; [exact Hmono|]; split;
       [intros k pc Hpc; destruct k as [|k]; [cbn in Hpc; inversion Hpc; subst pc; rewrite Es, ?El; reflexivity|exact (Hk _ _ Hpc)]
       |intros j q Hq; destruct (Hback _ _ Hq) as [H1|(k & pc & h & H1 & H2 & H3 & H4 & H5 & H6)]; [left; exact H1|];
        right; exists (S k), pc, h; repeat split; assumption]).
    + destruct (dp_add m (periph_of_conf c)) as [[m0 h0]| |] eqn:Hadd; cbn [bind] in H; try discriminate H.
      destruct (add_all m0 t) as [[m1 hs1]| |] eqn:Ha; cbn [bind] in H; try discriminate H.
      inversion H; subst m' hs. clear H.
      destruct (IH _ _ _ Ha) as (Hl & (F1 & F2 & F3 & F4) & Hmono & Hk & Hback).
      destruct (dp_add_post _ _ _ _ Hadd) as (Hfree & Hnew & Hoth & Hadr & A1 & A2 & A3 & A4 & _).
      assert (Hmono0 : forall j q, slot m j = Some q -> slot m0 j = Some q).
      { intros j q Hq. destruct (Nat.eq_dec j (hd_index h0)) as [->|Hne]; [rewrite Hfree in Hq; discriminate Hq|].
        rewrite Hoth by exact Hne. exact Hq. }
      split; [cbn; rewrite Hl; reflexivity|]. split; [repeat split; congruence|].
      split; [intros j q Hq; apply Hmono; apply Hmono0; exact Hq|]. split.
      * intros k pc Hpc. destruct k as [|k].
        -- cbn in Hpc. inversion Hpc; subst pc. rewrite Es, El. exists h0. cbn [nth_error].
            split; [reflexivity|]. split; [exact Hadr|]. split; [exact Hfree|]. apply Hmono. exact Hnew.
        -- cbn in Hpc. cbn [nth_error]. specialize (Hk _ _ Hpc). destruct (pc_slot pc); [exact Hk|].
            destruct (pc_late pc); [exact Hk|]. destruct Hk as (h & H1 & H2 & H3 & H4). exists h.
            split; [exact H1|]. split; [exact H2|]. split; [|exact H4].
            destruct (slot m (hd_index h)) as [q|] eqn:E; [|reflexivity].
            rewrite (Hmono0 _ _ E) in H3. discriminate H3.
      * intros j q Hq. destruct (Hback _ _ Hq) as [H1|(k & pc & h & H1 & H2 & H3 & H4 & H5 & H6)].
        -- destruct (Nat.eq_dec j (hd_index h0)) as [->|Hne].
           ++ rewrite Hnew in H1. inversion H1; subst q. right. exists 0%nat, c, h0. cbn. repeat split; auto.
           ++ rewrite Hoth in H1 by exact Hne. left; exact H1.
        -- right. exists (S k), pc, h. repeat split; assumption.
Qed.

Lemma slot_repeat_none : forall n owned op gc cy ev j, slot (mkDpm (repeat None n) owned op gc cy ev) j = None.
Proof.
  intros. unfold slot. cbn [dm_slots]. destruct (nth_error (repeat None n) j) as [x|] eqn:E; [|reflexivity].
  apply nth_error_In in E. apply repeat_spec in E. subst x. reflexivity.
Qed.

Lemma init_invariants : forall c s0,
  conf_ok c -> init_sys c = Ok s0 ->
  SInv c s0 /\ GInv (cf_params c) (sy_m s0) (fun _ => ghost0) None /\
  dm_op (sy_m s0) = OpStop /\ dm_cycle (sy_m s0) = CyDataExchange 0 /\
  (forall i p, slot (sy_m s0) i = Some p -> exists k pc, nth_error (cf_periphs c) k = Some pc /\ p = periph_of_conf pc) /\
  (forall k h, nth_error (sy_handles s0) k = Some (Some h) ->
     exists pc, nth_error (cf_periphs c) k = Some pc /\ hd_addr h = pc_addr pc) /\
  sy_conf s0 = c.
Proof.
  intros c s0 Hc H. unfold init_sys in H.
  set (m1 := set_slots (dp_new (cf_nslots c) (cf_owned c))
               (place_all (dm_slots (dp_new (cf_nslots c) (cf_owned c))) (cf_periphs c))) in *.
  destruct (add_all m1 (cf_periphs c)) as [[m2 hs]| |] eqn:Ha; cbn [bind] in H; try discriminate H.
  inversion H; subst s0. clear H. cbn [sy_m sy_conf sy_handles].
  destruct (add_all_spec _ _ _ _ Ha) as (Hl & (F1 & F2 & F3 & F4) & Hmono & Hk & Hback).
  assert (Hm1 : forall j q, slot m1 j = Some q ->
            exists k pc, nth_error (cf_periphs c) k = Some pc /\ pc_slot pc = Some j /\ q = periph_of_conf pc).
  { intros j q Hq. unfold slot, m1 in Hq. cbn [dm_slots set_slots dp_new] in Hq.
    destruct (nth_error (place_all (repeat None (cf_nslots c)) (cf_periphs c)) j) as [[x|]|] eqn:E; try discriminate Hq.
    inversion Hq; subst x. destruct (place_all_in _ _ _ _ E) as [E1|H1]; [|exact H1].
    apply nth_error_In in E1. apply repeat_spec in E1. discriminate E1. }
  assert (Hplaced : forall k pc i, nth_error (cf_periphs c) k = Some pc -> pc_slot pc = Some i ->
            slot m1 i = Some (periph_of_conf pc)).
  { intros k pc i Hpc Hs. destruct (co_placed _ Hc k pc i Hpc Hs) as (Hlt & Hu).
    unfold slot, m1. cbn [dm_slots set_slots dp_new].
    rewrite (place_all_placed _ _ k pc i Hpc Hs); [reflexivity|rewrite repeat_length; exact Hlt|exact Hu]. }
  assert (Hall : forall i p, slot m2 i = Some p -> exists k pc, nth_error (cf_periphs c) k = Some pc /\ p = periph_of_conf pc).
  { intros i p Hp. destruct (Hback _ _ Hp) as [H1|(k & pc & h & H1 & _ & _ & _ & _ & H6)].
    - destruct (Hm1 _ _ H1) as (k & pc & H2 & _ & H3). exists k, pc. auto.
    - exists k, pc. auto. }
  (* a handle of peripheral k carries its address and points to its slot *)
  assert (Hh : forall k h, nth_error hs k = Some (Some h) ->
            exists pc, nth_error (cf_periphs c) k = Some pc /\ hd_addr h = pc_addr pc /\
                       slot m2 (hd_index h) = Some (periph_of_conf pc)).
  { intros k h Hh.
    destruct (nth_error (cf_periphs c) k) as [pc|] eqn:Epc.
    2:{ apply nth_error_None in Epc. assert (Hx : nth_error hs k = None) by (apply nth_error_None; lia).
        rewrite Hx in Hh. discriminate Hh. }
    specialize (Hk _ _ Epc). exists pc. split; [reflexivity|].
    destruct (pc_slot pc) as [i|] eqn:Es.
    - rewrite Hk in Hh. inversion Hh; subst h. split; [reflexivity|]. apply Hmono. apply (Hplaced k); assumption.
    - destruct (pc_late pc); [rewrite Hk in Hh; discriminate Hh|].
      destruct Hk as (h' & H1 & H2 & _ & H4). rewrite H1 in Hh. inversion Hh; subst h'. auto. }
  split; [|split; [|split; [|split; [|split; [|split; [|reflexivity]]]]]].
  - constructor; cbn [sy_m sy_conf sy_handles].
    + apply conf_like_refl.
    + exact Hl.
    + rewrite F1. reflexivity.
    + intros k h Hk0. destruct (Hh k h Hk0) as (pc & Hpc & _ & Hs). exists pc, (periph_of_conf pc).
      split; [exact Hpc|]. split; [exact Hs|apply periph_of_conf_fits].
    + intros i p Hp. destruct (Hback _ _ Hp) as [H1|(k & pc & h & H1 & H2 & H3 & H4 & H5 & H6)].
      * destruct (Hm1 _ _ H1) as (k & pc & H2 & H3 & H4). exists k. specialize (Hk _ _ H2). rewrite H3 in Hk.
        eexists. split; [exact Hk|reflexivity].
      * exists k, h. split; [exact H4|exact H5].
    + intros k _. reflexivity.
  - constructor.
    + intros i p Hp. destruct (Hall _ _ Hp) as (k & pc & _ & ->). unfold periph_of_conf. cbn [pe_addr pe_opts periph_new].
      apply inv_init. pose proof (co_retry _ Hc). lia.
    + intros i p _ Ho. discriminate Ho.
    + intros da E. discriminate E.
  - rewrite F2. reflexivity.
  - rewrite F3. reflexivity.
  - exact Hall.
  - intros k h Hk0. destruct (Hh k h Hk0) as (pc & Hpc & Ha0 & _). exists pc. auto.
Qed.

Lemma set_events_default_id : forall m, dm_events m = events_default -> set_events m events_default = m.
Proof. intros [sl ow op gc cy ev] H. cbn in H. subst ev. reflexivity. Qed.

Lemma set_m_id : forall s, set_m s (sy_m s) = s.
Proof. intros [c m h sl]. reflexivity. Qed.

Lemma auto_take_cb : forall s i, cf_autotake (sy_conf s) = true -> is_callback i = true ->
  auto_take s i = (set_m s (set_events (sy_m s) events_default), Some (dm_events (sy_m s))).
Proof. intros s i Ha Hi. unfold auto_take. rewrite Ha, Hi. reflexivity. Qed.

Lemma sinv_auto : forall c s, SInv c s -> cf_autotake c = true -> cf_autotake (sy_conf s) = true.
Proof. intros c s I H. destruct (si_conf _ _ I) as (_ & _ & E & _). rewrite <- E. exact H. Qed.

Lemma auto_take_other : forall s i, is_callback i = false -> auto_take s i = (s, None).
Proof. intros s i Hi. unfold auto_take. rewrite Hi, Bool.andb_false_r. reflexivity. Qed.

Lemma step_tx : forall c s now hp s' t,
  SInv c s -> cf_autotake c = true -> model_step s (InTx now hp) = Ok (s', t) ->
  exists m1 o, dp_transmit (cf_params c) (cf_bufsize c) (sy_m s) now hp = Ok (m1, o) /\
    s' = set_m s (set_events m1 events_default) /\
    t = mkStep (InTx now hp) false (OutTx o) (Some (dm_events m1)) (observe s') (dm_op m1).
Proof.
  intros c s now hp s' t I Ha H. unfold model_step in H. cbn [run_in] in H.
  destruct (si_conf _ _ I) as (E1 & E2 & _). rewrite <- E1, <- E2 in H.
  destruct (dp_transmit (cf_params c) (cf_bufsize c) (sy_m s) now hp) as [[m1 o]| |]; cbn [bind] in H; try discriminate H.
  rewrite auto_take_cb in H; [|destruct s; exact (sinv_auto _ _ I Ha)|reflexivity].
  cbn [fst snd taken_of] in H. inversion H; subst s' t. exists m1, o. split; [reflexivity|].
  destruct s; split; reflexivity.
Qed.

Lemma step_rx : forall c s now addr wire s' t,
  SInv c s -> cf_autotake c = true -> model_step s (InRx now addr wire) = Ok (s', t) -> is_bad (ts_out t) = false ->
  exists tt m1, decode wire = Ok (Accept tt (length wire)) /\ dp_receive_reply (sy_m s) addr tt = Ok m1 /\
    s' = set_m s (set_events m1 events_default) /\
    t = mkStep (InRx now addr wire) false OutUnit (Some (dm_events m1)) (observe s') (dm_op m1).
Proof.
  intros c s now addr wire s' t I Ha H Hb. unfold model_step in H. cbn [run_in] in H.
  destruct (decode wire) as [[| |tt n]| |] eqn:Hd; cbn [bind] in H;
    try (inversion H; subst t; discriminate Hb).
  destruct (Nat.eqb_spec n (length wire)) as [->|Hne]; [|cbn [bind] in H; inversion H; subst t; discriminate Hb].
  destruct (dp_receive_reply (sy_m s) addr tt) as [m1| |] eqn:Hr; cbn [bind] in H; try discriminate H.
  rewrite auto_take_cb in H; [|destruct s; exact (sinv_auto _ _ I Ha)|reflexivity].
  cbn [fst snd taken_of] in H. inversion H; subst s' t. exists tt, m1. split; [reflexivity|]. split; [exact Hr|].
  destruct s; split; reflexivity.
Qed.

Lemma step_to : forall c s now addr s' t,
  SInv c s -> cf_autotake c = true -> model_step s (InTo now addr) = Ok (s', t) ->
  s' = s /\ t = mkStep (InTo now addr) false OutUnit (Some events_default) (observe s) (dm_op (sy_m s)).
Proof.
  intros c s now addr s' t I Ha H. unfold model_step in H. cbn [run_in dp_handle_timeout bind] in H.
  rewrite auto_take_cb in H; [|destruct s; exact (sinv_auto _ _ I Ha)|reflexivity].
  cbn [fst snd taken_of] in H. rewrite set_m_id in H. rewrite (set_events_default_id _ (si_events _ _ I)) in H.
  rewrite set_m_id in H. rewrite (si_events _ _ I) in H. inversion H; subst. split; reflexivity.
Qed.

Definition env_input (i : tr_in) : bool :=
  match i with InAbandon | InSlave _ _ | InPower _ | InSlaveSet _ _ _ _ _ _ _ _ _ | InClean => true | _ => false end.

Lemma step_env : forall s i s' t,
  env_input i = true -> model_step s i = Ok (s', t) ->
  sy_conf s' = sy_conf s /\ sy_m s' = sy_m s /\ sy_handles s' = sy_handles s /\
  exists o, t = mkStep i false o None (observe s) (dm_op (sy_m s)) /\
            match o with OutEvents _ | OutHandle _ | OutTx _ | OutPanic | OutHang => False | _ => True end.
Proof.
  intros s i s' t Hi H. unfold model_step in H.
  destruct i; try discriminate Hi; cbn [run_in] in H.
  - cbn [bind] in H. rewrite auto_take_other in H by reflexivity. inversion H; subst. repeat split; auto.
    exists OutUnit. split; [reflexivity|exact Logic.I].
  - destruct (nth_error (sy_slaves s) k) as [sl|].
    + destruct (slave_step sl wire) as [sl1 r]. cbn [bind] in H. rewrite auto_take_other in H by reflexivity.
      inversion H; subst. repeat split; auto. exists (OutSlave r). split; [reflexivity|exact Logic.I].
    + cbn [bind] in H. rewrite auto_take_other in H by reflexivity. inversion H; subst. repeat split; auto.
      exists OutBad. split; [reflexivity|exact Logic.I].
  - destruct (nth_error (sy_slaves s) k) as [sl|]; cbn [bind] in H; rewrite auto_take_other in H by reflexivity;
      inversion H; subst; repeat split; auto; eexists; (split; [reflexivity|exact Logic.I]).
  - destruct (nth_error (sy_slaves s) k) as [sl|]; cbn [bind] in H; rewrite auto_take_other in H by reflexivity;
      inversion H; subst; repeat split; auto; eexists; (split; [reflexivity|exact Logic.I]).
  - cbn [bind] in H. rewrite auto_take_other in H by reflexivity. inversion H; subst. repeat split; auto.
    exists OutUnit. split; [reflexivity|exact Logic.I].
Qed.

Lemma step_take : forall c s s' t,
  SInv c s -> model_step s InTake = Ok (s', t) ->
  s' = s /\ t = mkStep InTake false (OutEvents events_default) (Some events_default) (observe s) (dm_op (sy_m s)).
Proof.
  intros c s s' t I H. unfold model_step in H. cbn [run_in dp_take_last_events bind] in H.
  rewrite auto_take_other in H by reflexivity. cbn [fst snd taken_of] in H.
  rewrite (set_events_default_id _ (si_events _ _ I)) in H. rewrite set_m_id in H. rewrite (si_events _ _ I) in H.
  inversion H; subst. split; reflexivity.
Qed.

Lemma step_enter : forall s st s' t,
  model_step s (InEnter st) = Ok (s', t) ->
  s' = set_m s (dp_enter_state_unwound (sy_m s) st) /\
  exists o, (o = OutUnit \/ o = OutPanicked) /\ t = mkStep (InEnter st) false o None (observe s') st.
Proof.
  intros s st s' t H. unfold model_step in H. cbn [run_in] in H. unfold dp_enter_state in H.
  destruct (opstate_eqb st opstate_supported); cbn [bind] in H; rewrite auto_take_other in H by reflexivity;
    cbn [fst snd taken_of] in H; inversion H; subst; (split; [reflexivity|]); eexists; (split; [|reflexivity]); auto.
Qed.

Lemma step_user : forall s i k s' t,
  model_step s i = Ok (s', t) -> is_bad (ts_out t) = false ->
  i = InReqDiag k \/ (exists q, i = InWriteQ k q) ->
  exists h p p', handle_of s k = Some h /\ slot (sy_m s) (hd_index h) = Some p /\ same_ctrl p p' /\
    s' = set_m s (set_slots (sy_m s) (put_slot (dm_slots (sy_m s)) (hd_index h) p')) /\
    t = mkStep i false OutUnit None (observe s') (dm_op (sy_m s)) /\
    (i = InReqDiag k /\ pe_pi_q p' = pe_pi_q p \/ exists x, i = InWriteQ k x /\ pe_pi_q p' = x).
Proof.
  intros s i k s' t H Hb Hi. unfold model_step in H. destruct Hi as [->|(q & ->)]; cbn [run_in] in H;
    (destruct (handle_of s k) as [h|] eqn:Hh; [|cbn [bind] in H; inversion H; subst t; discriminate Hb]).
  - unfold dp_request_diagnostics, dp_update in H.
    destruct (dp_get_mut (sy_m s) h) as [p| |] eqn:Hg; cbn [bind] in H; try discriminate H.
    rewrite auto_take_other in H by reflexivity. inversion H; subst. exists h, p, (p_request_diagnostics p).
    split; [reflexivity|]. split; [apply dp_get_mut_slot; exact Hg|].
    split; [unfold same_ctrl; cbn; repeat split; reflexivity|]. auto.
  - unfold dp_write_q in H. destruct (dp_get_mut (sy_m s) h) as [p| |] eqn:Hg; cbn [bind] in H; try discriminate H.
    unfold copy_from_slice in H. destruct (Nat.eqb (length (pe_pi_q p)) (length q)) eqn:Hl; cbn [bind] in H; try discriminate H.
    rewrite auto_take_other in H by reflexivity. inversion H; subst. exists h, p, (set_pi_q p q).
    split; [reflexivity|]. split; [apply dp_get_mut_slot; exact Hg|].
    split; [unfold same_ctrl; cbn; repeat split; try reflexivity; symmetry; apply Nat.eqb_eq; exact Hl|].
    split; [reflexivity|]. split; [reflexivity|]. right. exists q. auto.
Qed.

Lemma step_add : forall s k s' t,
  model_step s (InAdd k) = Ok (s', t) -> is_bad (ts_out t) = false ->
  exists pc m1 h, nth_error (cf_periphs (sy_conf s)) k = Some pc /\ dp_add (sy_m s) (periph_of_conf pc) = Ok (m1, h) /\
    s' = mkSys (sy_conf s) m1 (set_nth (sy_handles s) k (Some h)) (sy_slaves s) /\
    t = mkStep (InAdd k) false (OutHandle h) None (observe s') (dm_op m1).
Proof.
  intros s k s' t H Hb. unfold model_step in H. cbn [run_in] in H.
  destruct (nth_error (cf_periphs (sy_conf s)) k) as [pc|] eqn:Hpc; [|cbn [bind] in H; inversion H; subst t; discriminate Hb].
  destruct (dp_add (sy_m s) (periph_of_conf pc)) as [[m1 h]| |] eqn:Hr; cbn [bind] in H; try discriminate H.
  rewrite auto_take_other in H by reflexivity. inversion H; subst. exists pc, m1, h. repeat split; try reflexivity; assumption.
Qed.

Lemma distinct_nth : forall l i j x, distinct l = true -> nth_error l i = Some x -> nth_error l j = Some x -> i = j.
Proof.
  induction l as [|y l IH]; intros i j x Hd Hi Hj; [destruct i; discriminate Hi|].
  cbn [distinct] in Hd. apply andb_true_iff in Hd. destruct Hd as [Hn Hd]. apply negb_true_iff in Hn.
  assert (Hnot : forall n, nth_error l n <> Some y).
  { intros n Hx. apply nth_error_In in Hx.
    assert (E : existsb (Z.eqb y) l = true) by (apply existsb_exists; exists y; split; [exact Hx|apply Z.eqb_refl]).
    rewrite E in Hn. discriminate Hn. }
  destruct i, j; cbn in Hi, Hj.
  - reflexivity.
  - inversion Hi; subst. exfalso. apply (Hnot j). exact Hj.
  - inversion Hj; subst. exfalso. apply (Hnot i). exact Hi.
  - f_equal. apply (IH _ _ _ Hd Hi Hj).
Qed.

Lemma conf_sane_parts : forall c, conf_sane c = true ->
  distinct (map pc_addr (cf_periphs c)) = true /\
  (forall k pc, nth_error (cf_periphs c) k = Some pc -> pc_addr pc <> p_address (cf_params c) /\ pc_addr pc <> 127).
Proof.
  intros c H. unfold conf_sane in H. apply andb_true_iff in H. destruct H as [H H3].
  apply andb_true_iff in H. destruct H as [H1 H2]. split; [exact H1|].
  intros k pc Hk. apply negb_true_iff in H2. apply negb_true_iff in H3.
  assert (Hin : In (pc_addr pc) (map pc_addr (cf_periphs c))) by (apply in_map; eapply nth_error_In; exact Hk).
  split; intro E.
  - assert (X : existsb (Z.eqb (p_address (cf_params c))) (map pc_addr (cf_periphs c)) = true).
    { apply existsb_exists. exists (pc_addr pc). split; [exact Hin|]. apply Z.eqb_eq. symmetry; exact E. }
    rewrite X in H2. discriminate H2.
  - assert (X : existsb (Z.eqb 127) (map pc_addr (cf_periphs c)) = true).
    { apply existsb_exists. exists (pc_addr pc). split; [exact Hin|]. apply Z.eqb_eq. symmetry; exact E. }
    rewrite X in H3. discriminate H3.
Qed.

Lemma conf_addr_inj : forall c k k' pc pc', conf_sane c = true ->
  nth_error (cf_periphs c) k = Some pc -> nth_error (cf_periphs c) k' = Some pc' -> pc_addr pc = pc_addr pc' -> k = k'.
Proof.
  intros c k k' pc pc' Hs Hk Hk' E. destruct (conf_sane_parts _ Hs) as [Hd _].
  apply (distinct_nth _ _ _ (pc_addr pc) Hd).
  - rewrite nth_error_map, Hk. reflexivity.
  - rewrite nth_error_map, Hk'. cbn. rewrite E. reflexivity.
Qed.

Lemma pconf_of_addr_spec : forall c k pc, conf_sane c = true ->
  nth_error (cf_periphs c) k = Some pc -> pconf_of_addr c (pc_addr pc) = Some (k, pc).
Proof.
  intros c k pc Hs Hk. destruct (conf_sane_parts _ Hs) as [Hd _]. unfold pconf_of_addr.
  replace k with (0 + k)%nat by reflexivity. generalize 0%nat as k0.
  revert k Hk Hd. induction (cf_periphs c) as [|p l IH]; intros k Hk Hd k0; [destruct k; discriminate Hk|].
  cbn [map distinct] in Hd. apply andb_true_iff in Hd. destruct Hd as [Hn Hd]. apply negb_true_iff in Hn.
  destruct k as [|k]; cbn in Hk.
  - inversion Hk; subst p. rewrite Z.eqb_refl. rewrite Nat.add_0_r. reflexivity.
  - destruct (Z.eqb_spec (pc_addr p) (pc_addr pc)) as [E|_].
    + exfalso. assert (X : existsb (Z.eqb (pc_addr p)) (map pc_addr l) = true).
      { apply existsb_exists. exists (pc_addr pc). split; [apply in_map; eapply nth_error_In; exact Hk|apply Z.eqb_eq; exact E]. }
      rewrite X in Hn. discriminate Hn.
    + replace (k0 + S k)%nat with (S k0 + k)%nat by lia. apply IH; assumption.
Qed.

Lemma index_of_addr_spec : forall hs a k h,
  nth_error hs k = Some (Some h) -> hd_addr h = a ->
  (forall k' h', nth_error hs k' = Some (Some h') -> hd_addr h' = a -> k' = k) ->
  index_of_addr hs a = Some (hd_index h).
Proof.
  unfold index_of_addr. induction hs as [|x hs IH]; intros a k h Hk Ha Hu; [destruct k; discriminate Hk|].
  destruct k as [|k]; cbn in Hk.
  - inversion Hk; subst x. rewrite Ha, Z.eqb_refl. reflexivity.
  - assert (Hu' : forall k' h', nth_error hs k' = Some (Some h') -> hd_addr h' = a -> k' = k).
    { intros k' h' H1 H2. specialize (Hu (S k') h' H1 H2). inversion Hu; reflexivity. }
    destruct x as [h0|].
    + destruct (Z.eqb_spec (hd_addr h0) a) as [E|_]; [specialize (Hu 0%nat h0 eq_refl E); discriminate Hu|].
      apply (IH a k h Hk Ha Hu').
    + apply (IH a k h Hk Ha Hu').
Qed.

(* the handles with the station addresses in force (what DpOracle.c14_step_ra keeps in g14_handles) *)
Fixpoint cur_hs (ps : list pconf) (hs : list (option handle)) : list (option handle) :=
  match ps, hs with
  | p :: ps', Some h :: hs' => Some (mkHandle (hd_index h) (pc_addr p)) :: cur_hs ps' hs'
  | _ :: ps', None :: hs' => None :: cur_hs ps' hs'
  | _, _ => []
  end.

Lemma cur_hs_nth : forall ps hs k, length hs = length ps ->
  nth_error (cur_hs ps hs) k =
  match nth_error ps k, nth_error hs k with
  | Some p, Some (Some h) => Some (Some (mkHandle (hd_index h) (pc_addr p)))
  | Some _, Some None => Some None
  | _, _ => None
  end.
Proof.
  induction ps as [|p ps IH]; intros [|h hs] k Hl; try discriminate Hl.
  - destruct k; reflexivity.
  - cbn in Hl. destruct k as [|k].
    + destruct h; reflexivity.
    + destruct h; cbn [cur_hs nth_error]; apply IH; lia.
Qed.

Lemma cur_hs_set_nth : forall ps hs k pc j,
  nth_error ps k = Some pc ->
  cur_hs ps (set_nth hs k (Some (mkHandle j (pc_addr pc)))) = set_nth (cur_hs ps hs) k (Some (mkHandle j (pc_addr pc))).
Proof.
  induction ps as [|p ps IH]; intros [|h hs] k pc j Hk.
  - destruct k; discriminate Hk.
  - destruct k; discriminate Hk.
  - destruct k; reflexivity.
  - destruct k as [|k].
    + cbn in Hk. inversion Hk; subst p. destruct h; reflexivity.
    + cbn in Hk. destruct h; cbn [set_nth cur_hs]; rewrite (IH hs k pc j Hk); reflexivity.
Qed.

Lemma cur_hs_length : forall ps hs, length hs = length ps -> length (cur_hs ps hs) = length hs.
Proof.
  induction ps as [|p ps IH]; intros [|h hs] Hl; try discriminate Hl; [reflexivity|].
  cbn in Hl. destruct h; cbn; rewrite IH by lia; reflexivity.
Qed.

Section Lookups.
Variable c : conf.
Hypothesis Hc : conf_ok c.

Lemma slot_handle : forall s i p, SInv c s -> slot (sy_m s) i = Some p ->
  exists k h pc, nth_error (sy_handles s) k = Some (Some h) /\ hd_index h = i /\
                 nth_error (cf_periphs c) k = Some pc /\ fits pc p.
Proof.
  intros s i p I Hs. destruct (si_s _ _ I _ _ Hs) as (k & h & Hk & Hi).
  destruct (si_h _ _ I _ _ Hk) as (pc & p' & Hpc & Hs' & Hf). rewrite Hi in Hs'.
  rewrite Hs in Hs'. inversion Hs'; subst p'. exists k, h, pc. auto.
Qed.

Lemma handle_index_unique : forall s k k' h h', SInv c s ->
  nth_error (sy_handles s) k = Some (Some h) -> nth_error (sy_handles s) k' = Some (Some h') ->
  hd_index h = hd_index h' -> k = k'.
Proof.
  intros s k k' h h' I Hk Hk' E.
  destruct (si_h _ _ I _ _ Hk) as (pc & p & Hpc & Hs & (F1 & _)).
  destruct (si_h _ _ I _ _ Hk') as (pc' & p' & Hpc' & Hs' & (F1' & _)).
  rewrite E in Hs. rewrite Hs in Hs'. inversion Hs'; subst p'.
  apply (conf_addr_inj c k k' pc pc' (co_sane _ Hc) Hpc Hpc'). congruence.
Qed.

Lemma slot_addr_inj : forall s i j p q, SInv c s ->
  slot (sy_m s) i = Some p -> slot (sy_m s) j = Some q -> pe_addr p = pe_addr q -> i = j.
Proof.
  intros s i j p q I Hi Hj E.
  destruct (slot_handle _ _ _ I Hi) as (k & h & pc & Hk & Hhi & Hpc & (F1 & _)).
  destruct (slot_handle _ _ _ I Hj) as (k' & h' & pc' & Hk' & Hhi' & Hpc' & (F1' & _)).
  assert (Ek : k = k') by (apply (conf_addr_inj c k k' pc pc' (co_sane _ Hc) Hpc Hpc'); congruence). subst k'.
  rewrite Hk in Hk'. inversion Hk'; subst h'. congruence.
Qed.

Lemma slot_index_of_addr : forall s i p, SInv c s -> slot (sy_m s) i = Some p ->
  index_of_addr (cur_hs (cf_periphs c) (sy_handles s)) (pe_addr p) = Some i.
Proof.
  intros s i p I Hs. destruct (slot_handle _ _ _ I Hs) as (k & h & pc & Hk & Hhi & Hpc & (F1 & _)).
  pose proof (si_len _ _ I) as Hl.
  assert (Hck : nth_error (cur_hs (cf_periphs c) (sy_handles s)) k = Some (Some (mkHandle (hd_index h) (pc_addr pc))))
    by (rewrite (cur_hs_nth _ _ _ Hl), Hpc, Hk; reflexivity).
  rewrite <- Hhi. change (hd_index h) with (hd_index (mkHandle (hd_index h) (pc_addr pc))).
  apply (index_of_addr_spec _ _ k _ Hck); [cbn; congruence|].
  intros k' h' Hk' Ha. rewrite (cur_hs_nth _ _ _ Hl) in Hk'.
  destruct (nth_error (cf_periphs c) k') as [pc'|] eqn:Epc'; [|discriminate Hk'].
  destruct (nth_error (sy_handles s) k') as [[h0|]|]; try discriminate Hk'. inversion Hk'; subst h'. cbn in Ha.
  apply (conf_addr_inj c k' k pc' pc (co_sane _ Hc) Epc' Hpc). congruence.
Qed.

Lemma slot_pconf : forall s i p, SInv c s -> slot (sy_m s) i = Some p ->
  exists k pc h, pconf_of_addr c (pe_addr p) = Some (k, pc) /\ nth_error (cf_periphs c) k = Some pc /\ fits pc p /\
               nth_error (sy_handles s) k = Some (Some h) /\ hd_index h = i.
Proof.
  intros s i p I Hs. destruct (slot_handle _ _ _ I Hs) as (k & h & pc & Hk & Hhi & Hpc & Hf).
  exists k, pc, h. pose proof Hf as (Ha & _). rewrite Ha.
  split; [apply pconf_of_addr_spec; [exact (co_sane _ Hc)|exact Hpc]|]. auto.
Qed.

Lemma observe_nth : forall s k h p, nth_error (sy_handles s) k = Some (Some h) -> slot (sy_m s) (hd_index h) = Some p ->
  nth_error (observe s) k = Some (Some (observe_periph p)).
Proof.
  intros s k h p Hk Hs. unfold observe. rewrite nth_error_map, Hk. cbn [option_map].
  unfold dp_get_mut. unfold slot in Hs. destruct (nth_error (dm_slots (sy_m s)) (hd_index h)) as [[q|]|]; try discriminate Hs.
  inversion Hs; reflexivity.
Qed.

Lemma observe_none : forall s k, nth_error (sy_handles s) k = Some None -> nth_error (observe s) k = Some None.
Proof. intros s k Hk. unfold observe. rewrite nth_error_map, Hk. reflexivity. Qed.

Lemma observe_length : forall s, length (observe s) = length (sy_handles s).
Proof. intro s. unfold observe. apply map_length. Qed.

End Lookups.

Definition head_ok (own : Z) (hs : list (option handle)) (pend : option Z) (t : tstep) : Prop :=
  is_bad (ts_out t) = false /\
  match view_of t with
  | VReq _ _ _ _ | VSdn _ _ | VNoTx | VBadTx => pend = None
  | VReply a tg => pend = Some a /\ admissible own a tg = true
  | VTimeout a => pend = Some a
  | VAbandon => pend <> None
  | VCrash | VOther => True
  end /\
  match ts_in t with
  | InAdd k => nth_error hs k = Some None /\ pend = None
  | _ => True
  end.

Definition is_reset_in (i : tr_in) : bool := match i with InResetAddr _ _ => true | _ => false end.
Definition no_reset (ins : list tr_in) : bool := forallb (fun i => negb (is_reset_in i)) ins.

Definition hs_next (hs : list (option handle)) (t : tstep) : list (option handle) :=
  match ts_in t, ts_out t with
  | InAdd k, OutHandle h => set_nth hs k (Some h)
  | _, _ => hs
  end.

Lemma heads : forall own hs pend t r,
  contract_from own pend (t :: r) = true -> driver_from hs pend (t :: r) = true -> view_of t <> VCrash ->
  head_ok own hs pend t /\
  contract_from own (pend_next_v pend (view_of t)) r = true /\
  driver_from (hs_next hs t) (pend_next_v pend (view_of t)) r = true.
Proof.
  intros own hs pend t r Hc Hd Hv. cbn [contract_from driver_from] in Hc, Hd.
  destruct (ts_raw t); [discriminate Hc|].
  destruct (is_bad (ts_out t)) eqn:Hb; [discriminate Hd|].
  unfold head_ok, hs_next. rewrite Hb.
  assert (Hview : match view_of t with
            | VReq _ _ _ _ | VSdn _ _ | VNoTx | VBadTx => pend = None
            | VReply a tg => pend = Some a /\ admissible own a tg = true
            | VTimeout a => pend = Some a
            | VAbandon => pend <> None
            | VCrash | VOther => True
            end /\ contract_from own (pend_next_v pend (view_of t)) r = true).
  { destruct (view_of t) eqn:E; cbn [pend_next_v]; try (now elim Hv);
      try (destruct pend as [d|]; [discriminate Hc|]; split; [reflexivity|exact Hc]).
    - destruct pend as [d|]; [|discriminate Hc]. apply andb_true_iff in Hc. destruct Hc as [Hc Hr].
      apply andb_true_iff in Hc. destruct Hc as [Ha Hadm]. apply Z.eqb_eq in Ha. subst d. auto.
    - destruct pend as [d|]; [|discriminate Hc]. apply andb_true_iff in Hc. destruct Hc as [Ha Hr].
      apply Z.eqb_eq in Ha. subst d. auto.
    - destruct pend as [d|]; [|discriminate Hc]. split; [discriminate|exact Hc].
    - auto. }
  destruct Hview as [Hv1 Hv2]. split; [split; [reflexivity|split; [exact Hv1|]]|split; [exact Hv2|]].
  - destruct (ts_in t); try exact Logic.I.
    destruct (nth_error hs k) as [[h|]|]; try discriminate Hd. destruct pend; [discriminate Hd|]. auto.
  - destruct (ts_in t) eqn:Ei; try exact Hd.
    destruct (nth_error hs k) as [[h|]|]; try discriminate Hd. destruct pend as [d|]; [discriminate Hd|].
    assert (Ev : view_of t = VOther).
    { unfold view_of. rewrite Ei. destruct (ts_out t); reflexivity. }
    rewrite Ev. cbn [pend_next_v]. destruct (ts_out t); exact Hd.
Qed.

Lemma model_out_shape : forall s i s' t, model_step s i = Ok (s', t) ->
  ts_in t = i /\ ts_raw t = false /\
  match i with
  | InTx _ _ => exists o, ts_out t = OutTx o
  | InRx _ _ _ => ts_out t = OutUnit \/ ts_out t = OutBad
  | InTo _ _ => ts_out t = OutUnit
  | _ => True
  end.
Proof.
  intros s i s' t H. unfold model_step in H.
  destruct (run_in s i) as [[s1 o]| |] eqn:Hr; cbn [bind] in H; try discriminate H.
  inversion H; subst s' t. cbn [ts_in ts_raw ts_out]. split; [reflexivity|]. split; [reflexivity|].
  destruct i; try exact Logic.I; cbn [run_in] in Hr.
  - destruct (dp_transmit _ _ _ _ _) as [[m o1]| |]; cbn [bind] in Hr; try discriminate Hr. inversion Hr. eexists; reflexivity.
  - destruct (decode wire) as [[| |tg n]| |]; try (inversion Hr; right; reflexivity).
    destruct (Nat.eqb n (length wire)); [|inversion Hr; right; reflexivity].
    destruct (dp_receive_reply _ _ _); cbn [bind] in Hr; try discriminate Hr. inversion Hr. left; reflexivity.
  - cbn [dp_handle_timeout bind] in Hr. inversion Hr. reflexivity.
Qed.

Lemma model_view_not_crash : forall s i s' t,
  model_step s i = Ok (s', t) -> is_bad (ts_out t) = false -> view_of t <> VCrash.
Proof.
  intros s i s' t H Hb. destruct (model_out_shape _ _ _ _ H) as (Hi & _ & Ho).
  unfold view_of. rewrite Hi. destruct i; try (destruct (ts_out t); discriminate).
  - destruct Ho as (o & ->). destruct o as [[w e]|]; [|discriminate].
    destruct (decode w) as [[| |[h pdu| |] n]| |]; try discriminate.
    destruct (negb (Nat.eqb n (length w))); [discriminate|].
    destruct (h_fc h); destruct e as [da|]; try discriminate.
    destruct (da =? h_da h); discriminate.
  - destruct Ho as [Ho|Ho]; [|rewrite Ho in Hb; discriminate Hb]. rewrite Ho. destruct (decode wire) as [[| |tg n]| |]; discriminate.
Qed.

Lemma model_run_no_reset : forall ins s s' tr,
  model_run s ins = Ok (s', tr) -> no_reset ins = true -> has_reset tr = false.
Proof.
  induction ins as [|i ins IH]; intros s s' tr H Hn; cbn [model_run] in H.
  - inversion H; subst. reflexivity.
  - destruct (model_step s i) as [[s1 t]| |] eqn:Hs; cbn [bind] in H; try discriminate H.
    destruct (model_run s1 ins) as [[s2 tr1]| |] eqn:Hr; cbn [bind] in H; try discriminate H.
    inversion H; subst s' tr. cbn [no_reset forallb] in Hn. apply andb_true_iff in Hn. destruct Hn as [H1 H2].
    unfold has_reset. cbn [existsb]. destruct (model_out_shape _ _ _ _ Hs) as (E & _). rewrite E.
    apply orb_false_iff. split; [destruct i; try reflexivity; discriminate H1|].
    apply (IH _ _ _ Hr H2).
Qed.

Definition all_quiet (m : dpm) (gs : gmap) (m' : dpm) (gs' : gmap) : Prop :=
  (forall j q, slot m j = Some q -> exists q', slot m' j = Some q' /\ Quiet q (gs j) q' (gs' j)) /\
  (forall j q', slot m' j = Some q' -> exists q, slot m j = Some q).

Definition others_quiet (m : dpm) (gs : gmap) (m' : dpm) (gs' : gmap) (i : nat) : Prop :=
  (forall j q, j <> i -> slot m j = Some q -> exists q', slot m' j = Some q' /\ Quiet q (gs j) q' (gs' j)) /\
  (forall j q', slot m' j = Some q' -> exists q, slot m j = Some q).

Lemma all_quiet_refl : forall m gs m', (forall j, slot m' j = slot m j) -> all_quiet m gs m' gs.
Proof.
  intros m gs m' H. split.
  - intros j q Hq. exists q. rewrite H. split; [exact Hq|apply quiet_refl].
  - intros j q' Hq'. exists q'. rewrite <- H. exact Hq'.
Qed.

Lemma quiet_back : forall m gs m' gs', all_quiet m gs m' gs' ->
  forall j q', slot m' j = Some q' -> exists q, slot m j = Some q /\ Quiet q (gs j) q' (gs' j).
Proof.
  intros m gs m' gs' [H1 H2] j q' Hq'. destruct (H2 _ _ Hq') as (q & Hq). destruct (H1 _ _ Hq) as (q2 & Hq2 & HQ).
  rewrite Hq' in Hq2. inversion Hq2; subst q2. exists q. auto.
Qed.

Lemma others_back : forall m gs m' gs' i, others_quiet m gs m' gs' i ->
  forall j q', j <> i -> slot m' j = Some q' -> exists q, slot m j = Some q /\ Quiet q (gs j) q' (gs' j).
Proof.
  intros m gs m' gs' i [H1 H2] j q' Hne Hq'. destruct (H2 _ _ Hq') as (q & Hq). destruct (H1 _ _ Hne Hq) as (q2 & Hq2 & HQ).
  rewrite Hq' in Hq2. inversion Hq2; subst q2. exists q. auto.
Qed.

Lemma others_quiet_upd : forall m gs m' gs' i q q',
  slot m i = Some q -> slot m' i = Some q' -> (forall j, j <> i -> slot m' j = slot m j) ->
  (forall j, j <> i -> gs' j = gs j) ->
  others_quiet m gs m' gs' i.
Proof.
  intros m gs m' gs' i q q' Hq Hq' Hoth Hgs. split.
  - intros j p Hne Hp. exists p. rewrite Hoth, Hgs by exact Hne. split; [exact Hp|apply quiet_refl].
  - intros j p' Hp'. destruct (Nat.eq_dec j i) as [->|Hne]; [exists q; exact Hq|].
    exists p'. rewrite <- Hoth by exact Hne. exact Hp'.
Qed.

Section PerAddr.
Variable A : Type.
Variable d : A.
Variable Rp : periph -> ghost -> A -> Prop.

Definition per_ok (m : dpm) (gs : gmap) (per : list (Z * A)) : Prop :=
  (forall i p, slot m i = Some p -> Rp p (gs i) (alist_get d per (pe_addr p))) /\
  (forall a, (forall i p, slot m i = Some p -> pe_addr p <> a) -> alist_get d per a = d).

Definition addr_inj (m : dpm) : Prop :=
  forall i j p q, slot m i = Some p -> slot m j = Some q -> pe_addr p = pe_addr q -> i = j.

Lemma per_ok_same : forall m gs per m' gs',
  per_ok m gs per ->
  (forall j q', slot m' j = Some q' -> exists q, slot m j = Some q /\ pe_addr q' = pe_addr q /\
      forall x, Rp q (gs j) x -> Rp q' (gs' j) x) ->
  (forall j q, slot m j = Some q -> exists q', slot m' j = Some q' /\ pe_addr q' = pe_addr q) ->
  per_ok m' gs' per.
Proof.
  intros m gs per m' gs' [H1 H2] Hb Hf. split.
  - intros j q' Hq'. destruct (Hb _ _ Hq') as (q & Hq & Ha & Hr). rewrite Ha. apply Hr. apply H1. exact Hq.
  - intros a Hna. apply H2. intros j q Hq E. destruct (Hf _ _ Hq) as (q' & Hq' & Ha). apply (Hna _ _ Hq'). congruence.
Qed.

Lemma per_ok_add : forall m gs per m' i p0,
  per_ok m gs per ->
  slot m i = None -> slot m' i = Some p0 -> (forall j, j <> i -> slot m' j = slot m j) ->
  (forall j q, slot m j = Some q -> pe_addr q <> pe_addr p0) ->
  Rp p0 ghost0 d ->
  per_ok m' (gupd gs i ghost0) per.
Proof.
  intros m gs per m' i p0 [H1 H2] Hfree Hnew Hoth Hfresh Hr. split.
  - intros j q Hq. unfold gupd. destruct (Nat.eqb_spec j i) as [->|Hne].
    + rewrite Hnew in Hq. inversion Hq; subst q. rewrite (H2 _ (fun j q Hj => Hfresh j q Hj)). exact Hr.
    + rewrite Hoth in Hq by exact Hne. apply H1. exact Hq.
  - intros a Hna. apply H2. intros j q Hq. destruct (Nat.eq_dec j i) as [->|Hne]; [rewrite Hfree in Hq; discriminate Hq|].
    apply (Hna j). rewrite Hoth by exact Hne. exact Hq.
Qed.

(* for relations that do not see what an idle turn changes *)
Hypothesis Rp_quiet : forall q g q' g' x, Quiet q g q' g' -> Rp q g x -> Rp q' g' x.

Lemma per_ok_quiet : forall m gs per m' gs', per_ok m gs per -> all_quiet m gs m' gs' -> per_ok m' gs' per.
Proof.
  intros m gs per m' gs' H HQ. apply (per_ok_same m gs per m' gs' H).
  - intros j q' Hq'. destruct (quiet_back _ _ _ _ HQ _ _ Hq') as (q & Hq & HQj). exists q.
    split; [exact Hq|]. split; [apply (qu_addr _ _ _ _ HQj)|]. intro x. apply Rp_quiet. exact HQj.
  - intros j q Hq. destruct (proj1 HQ _ _ Hq) as (q' & Hq' & HQj). exists q'. split; [exact Hq'|apply (qu_addr _ _ _ _ HQj)].
Qed.

Lemma per_ok_upd : forall m gs per m' gs' i q q' per',
  per_ok m gs per -> addr_inj m -> slot m i = Some q -> slot m' i = Some q' -> pe_addr q' = pe_addr q ->
  others_quiet m gs m' gs' i ->
  (forall a, a <> pe_addr q -> alist_get d per' a = alist_get d per a) ->
  Rp q' (gs' i) (alist_get d per' (pe_addr q)) ->
  per_ok m' gs' per'.
Proof.
  intros m gs per m' gs' i q q' per' [H1 H2] Hinj Hq Hq' Ha Hoq Hoth Hr. split.
  - intros j p' Hp'. destruct (Nat.eq_dec j i) as [->|Hne].
    + rewrite Hq' in Hp'. inversion Hp'; subst p'. rewrite Ha. exact Hr.
    + destruct (others_back _ _ _ _ _ Hoq _ _ Hne Hp') as (p & Hp & HQ). rewrite (qu_addr _ _ _ _ HQ), Hoth.
      * apply (Rp_quiet _ _ _ _ _ HQ). apply H1. exact Hp.
      * intro E. apply Hne. apply (Hinj _ _ _ _ Hp Hq E).
  - intros a Hna.
    assert (Hne : a <> pe_addr q) by (intro E; apply (Hna i q' Hq'); congruence).
    rewrite Hoth by exact Hne. apply H2. intros j p Hp E. destruct (Nat.eq_dec j i) as [->|Hji].
    + rewrite Hq in Hp. inversion Hp; subst p. now elim Hne.
    + destruct (proj1 Hoq _ _ Hji Hp) as (p' & Hp' & HQ). apply (Hna j p' Hp'). rewrite (qu_addr _ _ _ _ HQ). exact E.
Qed.

End PerAddr.

(* the oracle's outstanding request goes to the address pend, and the slot with that address last sent a request
   of that service *)
Definition pend_link (m : dpm) (gs : gmap) (pend : option Z) (op : option (Z * service)) : Prop :=
  match pend, op with
  | None, None => True
  | Some da, Some (da', sv) =>
      da' = da /\ forall i p, slot m i = Some p -> pe_addr p = da -> exists h, gh_last (gs i) = Some h /\ classify h = sv
  | _, _ => False
  end.

Lemma pend_link_none : forall m gs op, pend_link m gs None op -> op = None.
Proof. intros m gs [[a sv]|] H; [contradiction|reflexivity]. Qed.

Lemma pend_link_some : forall m gs da op, pend_link m gs (Some da) op ->
  exists sv, op = Some (da, sv) /\
    forall i p, slot m i = Some p -> pe_addr p = da -> exists h, gh_last (gs i) = Some h /\ classify h = sv.
Proof. intros m gs da [[a sv]|] H; [|contradiction]. destruct H as (-> & H). exists sv. auto. Qed.

(* the outstanding request as the oracles keep it (DpOracle.c04_step: pending'; c03_step, c08_step likewise) *)
Definition pending_after (op : option (Z * service)) (v : view) : option (Z * service) :=
  match v with
  | VReq da sv _ _ => Some (da, sv)
  | VReply _ _ | VTimeout _ | VAbandon => None
  | _ => op
  end.

Lemma pend_link_at : forall m gs pend op i q, pend_link m gs pend op -> slot m i = Some q ->
  match pend with
  | None => op = None
  | Some da => da = pe_addr q -> exists h, gh_last (gs i) = Some h /\ op = Some (da, classify h)
  end.
Proof.
  intros m gs [da|] op i q H Hq; [|apply (pend_link_none _ _ _ H)].
  intros ->. destruct (pend_link_some _ _ _ _ H) as (sv & -> & Hl). destruct (Hl _ _ Hq eq_refl) as (h & Hh & <-).
  exists h. auto.
Qed.

Lemma pend_link_pres : forall m gs m' gs' pend op,
  pend_link m gs pend op ->
  (forall j q', slot m' j = Some q' -> exists q, slot m j = Some q /\ pe_addr q' = pe_addr q /\
      gh_last (gs' j) = gh_last (gs j)) ->
  pend_link m' gs' pend op.
Proof.
  intros m gs m' gs' pend op H Hb. destruct pend as [da|], op as [[da' sv]|]; try exact H.
  destruct H as (-> & H). split; [reflexivity|].
  intros j q' Hq' Ha. destruct (Hb _ _ Hq') as (q & Hq & Haq & Hl). rewrite Hl. apply (H j q Hq). congruence.
Qed.

Lemma sinv_addr_inj : forall c s, conf_ok c -> SInv c s -> addr_inj (sy_m s).
Proof. intros c s Hc I i j p q Hi Hj E. apply (slot_addr_inj c Hc s i j p q I Hi Hj E). Qed.

(* c08_step in two parts: the wire, then the events handed out after the step (c08_step_eq) *)

Definition c08_r1 (max_retry : nat) (g : c08g) (v : view) : c08g + Z :=
    match v with
    | VBadTx => inr 807
    | VReq da sv h _ =>
        let st := alist_get c08_init (g8_per g) da in
        match req_fcbit h with
        | None => inr 807
        | Some f =>
            let fc := fc_to_byte (h_fc h) in
            let ok_bits : option Z :=
              if c8_first st then
                (if fcbit_eqb f FcbFirst then None else Some 801)
              else
                match c8_last st with
                | None => Some 801
                | Some (sv0, fc0) =>
                    if c8_acc st then
                      (if fcbit_fcv f && negb (Bool.eqb (fcbit_fcb f) (negb (Z.land fc0 32 =? 0))) then None else Some 802)
                    else
                      (if service_eqb sv sv0 && ((fc =? fc0) || (c8_probe st && fcbit_eqb f FcbFirst))
                       then None else Some 803)
                end in
            match ok_bits with
            | Some code => inr code
            | None =>
                if fcbit_eqb f FcbInactive then inr 808 else
                if c8_probe st && negb (service_eqb sv SvDiag) then inr 804 else
                if negb (c8_probe st) && Nat.ltb max_retry (c8_lo st) then inr 805 else
                let st' := mkC08 (c8_probe st) false (Some (sv, fc)) false (S (c8_lo st)) (S (c8_hi st)) in
                inl (mkC08g (alist_set (g8_per g) da st') (Some (da, sv)))
            end
        end
    | VReply a t =>
        match g8_pending g with
        | Some (da, sv) =>
            let st := alist_get c08_init (g8_per g) da in
            let st' := if reply_accepted sv t
                       then mkC08 (c8_probe st) (c8_first st) (c8_last st) true 0 0
                       else mkC08 (c8_probe st) (c8_first st) (c8_last st) (c8_acc st) 0 (c8_hi st) in
            inl (mkC08g (alist_set (g8_per g) da st') None)
        | None => inl g
        end
    | VTimeout _ | VAbandon => inl (mkC08g (g8_per g) None)
    | _ => inl g
    end.

Definition c08_ev (max_retry : nat) (g1 : c08g) (e : option (Z * pevent)) : c08g + Z :=
      match e with
      | None => inl g1
      | Some (a, ev) =>
          let st := alist_get c08_init (g8_per g1) a in
          match ev with
          | EvOffline =>
              if c8_probe st || negb (Nat.ltb max_retry (c8_hi st)) then inr 806
              else inl (mkC08g (alist_set (g8_per g1) a (mkC08 true true None false 0 0)) (g8_pending g1))
          | EvParameterError | EvConfigError =>
              inl (mkC08g (alist_set (g8_per g1) a
                             (mkC08 true (c8_first st) (c8_last st) (c8_acc st) (c8_lo st) (c8_hi st)))
                          (g8_pending g1))
          | EvOnline =>
              inl (mkC08g (alist_set (g8_per g1) a
                             (mkC08 false (c8_first st) (c8_last st) (c8_acc st) (c8_lo st) (c8_hi st)))
                          (g8_pending g1))
          | _ => inl g1
          end
      end.

Lemma c08_step_eq : forall mr g n s,
  c08_step mr g n s = match c08_r1 mr g (view_of s) with inr c => inr c | inl g1 => c08_ev mr g1 (step_event s) end.
Proof. reflexivity. Qed.

Definition is_off (p : periph) : bool := match pe_state p with PsOffline => true | _ => false end.

Definition R8 (p : periph) (g : ghost) (st : c08st) : Prop :=
  c8_probe st = is_off p /\
  match gh_last g with
  | None => c8_first st = true
  | Some h => c8_first st = false /\ c8_last st = Some (classify h, fc_to_byte (h_fc h)) /\ c8_acc st = gh_acc g
  end /\
  (c8_probe st = false -> Z.of_nat (c8_hi st) = gh_unans g /\ (c8_lo st <= c8_hi st)%nat).

Lemma R8_init : forall a o i q d, R8 (periph_new a o i q d) ghost0 c08_init.
Proof. intros. unfold R8. cbn. split; [reflexivity|]. split; [reflexivity|]. intro H; discriminate H. Qed.

Lemma is_off_spec : forall p, is_off p = true <-> pe_state p = PsOffline.
Proof. intro p. unfold is_off. destruct (pe_state p); split; intro H; try reflexivity; discriminate H. Qed.

Lemma R8_quiet : forall q g q' g' st, Quiet q g q' g' -> R8 q g st -> R8 q' g' st.
Proof.
  intros q g q' g' st Q (H1 & H2 & H3). unfold R8.
  split; [unfold is_off in *; rewrite (qu_state _ _ _ _ Q); exact H1|].
  split; [rewrite (qu_last _ _ _ _ Q), (qu_acc _ _ _ _ Q); exact H2|].
  intro Hp. destruct (H3 Hp) as [E1 E2]. split; [|exact E2]. rewrite (qu_unans _ _ _ _ Q); [exact E1|].
  intro E. apply is_off_spec in E. congruence.
Qed.

Lemma R8_same_ctrl : forall p p' g st, same_ctrl p p' -> R8 p g st -> R8 p' g st.
Proof.
  intros p p' g st (_ & Hs & _) (H1 & H2 & H3). unfold R8. split; [unfold is_off in *; rewrite Hs; exact H1|]. auto.
Qed.

Lemma service_eqb_refl : forall sv, service_eqb sv sv = true.
Proof. destruct sv; reflexivity. Qed.

Lemma inv_off_phase : forall pa a o p g, Inv pa a o p g -> (gh_phase g = PhNeedDiag <-> is_off p = true).
Proof.
  intros pa a o p g I. rewrite (inv_phase _ _ _ _ _ I). rewrite is_off_spec. split.
  - apply need_diag_offline.
  - intros ->. reflexivity.
Qed.

Lemma c08_req_ok : forall pa a o q1 g1 st h pdu q' op per pendg,
  Inv pa a o q1 g1 -> R8 q1 g1 st -> req_ok pa a o g1 h pdu ->
  p_transmit pa op q1 = Ok (q', PtxSend h pdu) ->
  alist_get c08_init per (h_da h) = st ->
  exists st', c08_r1 (Z.to_nat (p_max_retry pa)) (mkC08g per pendg) (VReq (h_da h) (classify h) h pdu) =
                inl (mkC08g (alist_set per (h_da h) st') (Some (h_da h, classify h))) /\
              R8 q' (gstep g1 (WReq h pdu)) st'.
Proof.
  intros pa a o q1 g1 st h pdu q' op per pendg I (P1 & P2 & P3) Hreq Hp Hget.
  destruct Hreq as (f & Hstd & Hact & Hfirst & Hprev & Hprobe & Hbound & _).
  destruct (std_request_classify _ _ _ _ _ _ _ Hstd) as (_ & _ & _ & Hfc).
  pose proof (transmit_spec _ _ _ _ _ Hp) as Hts. cbn beta iota in Hts. destruct Hts as (_ & _ & _ & _ & _ & _ & Hst).
  pose proof (inv_off_phase _ _ _ _ _ I) as Hoff.
  unfold c08_r1. cbn [g8_per g8_pending]. rewrite Hget. unfold req_fcbit. rewrite Hfc.
  assert (Hbits : (if c8_first st then (if fcbit_eqb f FcbFirst then None else Some 801)
                   else match c8_last st with
                        | None => Some 801
                        | Some (sv0, fc0) =>
                            if c8_acc st then
                              (if fcbit_fcv f && negb (Bool.eqb (fcbit_fcb f) (negb (Z.land fc0 32 =? 0))) then None else Some 802)
                            else
                              (if service_eqb (classify h) sv0 &&
                                  ((fc_to_byte (FcRequest f (sv_req (classify h))) =? fc0) || (c8_probe st && fcbit_eqb f FcbFirst))
                               then None else Some 803)
                        end) = @None Z).
  { destruct (gh_last g1) as [h0|] eqn:Hl.
    - destruct P2 as (Q1 & Q2 & Q3). rewrite Q1, Q2, Q3.
      destruct (Hprev h0 eq_refl) as (f0 & rq0 & Hfc0 & Hb). rewrite Hfc0.
      destruct (gh_acc g1).
      + destruct Hb as (Hv & Hb). rewrite Hv, fc_byte_fcb, Hb. destruct (fcbit_fcb f0); reflexivity.
      + destruct Hb as (Hsv & _ & Hor). rewrite Hsv, service_eqb_refl. cbn [andb].
        destruct Hor as [Hsame|(Hph & Hf)].
        * assert (E : FcRequest f (sv_req (classify h0)) = FcRequest f0 rq0)
            by (rewrite <- Hsv, <- Hfc, Hsame; exact Hfc0).
          rewrite E, Z.eqb_refl. reflexivity.
        * apply Hoff in Hph. rewrite P1, Hph, Hf. cbn. rewrite Bool.orb_true_r. reflexivity.
    - rewrite P2. rewrite (Hfirst eq_refl). reflexivity. }
  rewrite Hbits.
  assert (Hina : fcbit_eqb f FcbInactive = false) by (destruct f; try reflexivity; now elim Hact). rewrite Hina.
  assert (Hpo : c8_probe st = true -> gh_phase g1 = PhNeedDiag) by (intro E; apply Hoff; rewrite <- P1; exact E).
  assert (H804 : c8_probe st && negb (service_eqb (classify h) SvDiag) = false).
  { destruct (c8_probe st) eqn:Epr; [|reflexivity].
    destruct (Hprobe (Hpo eq_refl)) as (-> & _). reflexivity. }
  rewrite H804.
  assert (H805 : negb (c8_probe st) && Nat.ltb (Z.to_nat (p_max_retry pa)) (c8_lo st) = false).
  { destruct (c8_probe st) eqn:Epr; [reflexivity|]. destruct (P3 eq_refl) as (E1 & E2). cbn [negb andb].
    apply Nat.ltb_ge. lia. }
  rewrite H805.
  eexists. split; [reflexivity|].
  unfold R8. cbn [c8_probe c8_first c8_last c8_acc c8_lo c8_hi gstep gh_last gh_acc gh_unans].
  split; [unfold is_off in *; rewrite Hst; exact P1|]. split; [rewrite Hfc; auto|].
  intro Epr. destruct (P3 Epr) as (E1 & E2). split; lia.
Qed.

Lemma c08_off_ok : forall pa a o q1 g1 st q' op per pendg ad,
  1 <= p_max_retry pa ->
  Inv pa a o q1 g1 -> R8 q1 g1 st -> ev_ok pa a o g1 (WEvent EvOffline) ->
  p_transmit pa op q1 = Ok (q', PtxSkip (Some EvOffline)) ->
  alist_get c08_init per ad = st ->
  exists st', c08_ev (Z.to_nat (p_max_retry pa)) (mkC08g per pendg) (Some (ad, EvOffline)) =
                inl (mkC08g (alist_set per ad st') pendg) /\
              R8 q' (gstep g1 (WEvent EvOffline)) st'.
Proof.
  intros pa a o q1 g1 st q' op per pendg ad Hmax I (P1 & P2 & P3) (_ & Hlive & Hun) Hp Hget.
  pose proof (transmit_spec _ _ _ _ _ Hp) as Hts. cbn beta iota in Hts. destruct Hts as (_ & _ & _ & Hst & _).
  pose proof (inv_off_phase _ _ _ _ _ I) as Hoff.
  assert (Epr : c8_probe st = false).
  { destruct (c8_probe st) eqn:E; [|reflexivity]. exfalso. apply Hlive. apply Hoff. rewrite <- P1. reflexivity. }
  destruct (P3 Epr) as (E1 & E2).
  unfold c08_ev. cbn [g8_per g8_pending]. rewrite Hget, Epr. cbn [orb].
  assert (Hlt : Nat.ltb (Z.to_nat (p_max_retry pa)) (c8_hi st) = true) by (apply Nat.ltb_lt; lia).
  rewrite Hlt. cbn [negb]. eexists. split; [reflexivity|].
  unfold R8. cbn. split; [unfold is_off; rewrite Hst; reflexivity|]. split; [reflexivity|]. intro E; discriminate E.
Qed.

Lemma rx_off : forall s ev s1, rx_allowed s ev s1 = true ->
  match ev with
  | Some EvOnline => s = PsOffline /\ s1 <> PsOffline
  | Some EvParameterError | Some EvConfigError => s1 = PsOffline
  | Some EvOffline => False
  | _ => (s1 = PsOffline <-> s = PsOffline)
  end.
Proof.
  intros s ev s1 H. destruct s, ev as [[]|], s1; cbn in H; try discriminate H; cbn;
    try reflexivity; try (split; [reflexivity|discriminate]); try (split; intro X; discriminate X); try tauto.
Qed.

Lemma is_off_iff : forall p q, (pe_state p = PsOffline <-> pe_state q = PsOffline) -> is_off p = is_off q.
Proof.
  intros p q H. destruct (is_off p) eqn:E1, (is_off q) eqn:E2; try reflexivity.
  - apply is_off_spec in E1. apply H in E1. apply is_off_spec in E1. congruence.
  - apply is_off_spec in E2. apply H in E2. apply is_off_spec in E2. congruence.
Qed.

Lemma c08_reply_ok : forall pa a o p g st t p1 ev h per da x mr,
  Inv pa a o p g -> R8 p g st -> gh_last g = Some h -> gh_acc g = false ->
  p_receive_reply p t = Ok (p1, ev) ->
  alist_get c08_init per da = st ->
  exists per' st',
    match c08_r1 mr (mkC08g per (Some (da, classify h))) (VReply x t) with
    | inr cd => inr cd
    | inl g1 => c08_ev mr g1 (option_map (fun e => (da, e)) ev)
    end = inl (mkC08g per' None) /\
    alist_get c08_init per' da = st' /\ (forall a0, a0 <> da -> alist_get c08_init per' a0 = alist_get c08_init per a0) /\
    R8 p1 (gstep g (WReply t ev)) st'.
Proof.
  intros pa a o p g st t p1 ev h per da x mr I (P1 & P2 & P3) Hl Hacc0 Hrx Hget.
  rewrite Hl in P2. destruct P2 as (Q1 & Q2 & Q3).
  destruct (inv_unacc _ _ _ _ _ I h Hl Hacc0) as (Hsv & _).
  destruct (receive_reply_outcome _ _ _ _ Hrx) as (Hal & _ & _). pose proof (rx_off _ _ _ Hal) as Hoff.
  pose proof (receive_facts _ _ _ _ Hrx) as (_ & _ & Hfacts). rewrite <- Hsv in Hfacts.
  unfold c08_r1. cbn [g8_per g8_pending]. rewrite Hget.
  (* the wire part leaves st1; the event part sets only "not live", and sets it as the peripheral has it *)
  set (st1 := if reply_accepted (classify h) t
              then mkC08 (c8_probe st) (c8_first st) (c8_last st) true 0 0
              else mkC08 (c8_probe st) (c8_first st) (c8_last st) (c8_acc st) 0 (c8_hi st)).
  set (st2 := mkC08 (is_off p1) (c8_first st1) (c8_last st1) (c8_acc st1) (c8_lo st1) (c8_hi st1)).
  assert (Hst1 : c8_probe st1 = c8_probe st) by (unfold st1; destruct (reply_accepted (classify h) t); reflexivity).
  assert (Hkeep : is_off p1 = is_off p -> st1 = st2).
  { intro E. unfold st2. rewrite E, <- P1, <- Hst1. destruct st1; reflexivity. }
  assert (Hset : forall l v, alist_get c08_init (alist_set l da v) da = v /\
            forall a0, a0 <> da -> alist_get c08_init (alist_set l da v) a0 = alist_get c08_init l a0)
    by (intros l v; split; [apply alist_get_set_same|intros a0 Ha0; apply alist_get_set_other; exact Ha0]).
  assert (Hmon : exists per',
            c08_ev mr (mkC08g (alist_set per da st1) None) (option_map (fun e => (da, e)) ev) = inl (mkC08g per' None) /\
            alist_get c08_init per' da = st2 /\
            forall a0, a0 <> da -> alist_get c08_init per' a0 = alist_get c08_init per a0).
  { destruct ev as [[]|]; cbn [option_map c08_ev g8_per g8_pending]; cbn beta iota in Hoff; try contradiction;
      rewrite ?(proj1 (Hset per st1));
      try (exists (alist_set per da st1); split; [reflexivity|]; rewrite <- Hkeep by (apply is_off_iff; split; apply Hoff);
           apply Hset);
      (eexists; split; [reflexivity|]; split; [rewrite (proj1 (Hset _ _))|intros a0 Ha0; rewrite !(proj2 (Hset _ _)) by exact Ha0; reflexivity]).
    - unfold st2. destruct Hoff as (_ & Hs1). unfold is_off. destruct (pe_state p1); try reflexivity. now elim Hs1.
    - unfold st2, is_off. rewrite Hoff. reflexivity.
    - unfold st2, is_off. rewrite Hoff. reflexivity. }
  destruct Hmon as (per' & -> & Hget' & Hoth). exists per', st2. split; [reflexivity|]. split; [exact Hget'|]. split; [exact Hoth|].
  assert (Hacc : reply_accepted (classify h) t = false -> is_off p1 = is_off p).
  { intro E. rewrite E in Hfacts. unfold is_off. destruct Hfacts as (_ & _ & -> & _). reflexivity. }
  unfold R8, st2, st1. cbn [gstep c8_probe]. rewrite Hl.
  destruct (reply_accepted (classify h) t); cbn [c8_first c8_last c8_acc c8_lo c8_hi gh_last gh_acc gh_unans].
  - split; [reflexivity|]. split; [auto|]. intros _. split; [reflexivity|lia].
  - split; [reflexivity|]. split; [split; [exact Q1|]; split; [exact Q2|congruence]|].
    intro E. rewrite (Hacc eq_refl), <- P1 in E. destruct (P3 E) as (E1 & _). split; [exact E1|lia].
Qed.

Lemma limits_parts : forall c, conf_within_limits c = true ->
  (255 <= cf_bufsize c)%nat /\
  forall k pc, nth_error (cf_periphs c) k = Some pc ->
    0 <= pc_addr pc <= 125 /\ (pc_in pc <= 244)%nat /\ (pc_out pc <= 244)%nat /\
    (forall u, o_user_prm (pc_opts pc) = Some u -> (length u <= 237)%nat) /\
    (forall u, o_config (pc_opts pc) = Some u -> (length u <= 244)%nat).
Proof.
  intros c H. unfold conf_within_limits in H. apply andb_true_iff in H. destruct H as [H1 H2].
  split; [apply Nat.leb_le; exact H1|]. intros k pc Hk. rewrite forallb_forall in H2.
  specialize (H2 pc (nth_error_In _ _ Hk)).
  repeat (apply andb_true_iff in H2; let X := fresh "X" in destruct H2 as [H2 X]).
  apply Z.leb_le in H2. apply Z.leb_le in X3. apply Nat.leb_le in X2. apply Nat.leb_le in X1.
  split; [lia|]. split; [exact X2|]. split; [exact X1|]. split.
  - intros u Hu. rewrite Hu in X0. apply Nat.leb_le. exact X0.
  - intros u Hu. rewrite Hu in X. apply Nat.leb_le. exact X.
Qed.

Lemma std_set_prm_length : forall pa o u, length (std_set_prm pa o u) = (7 + length u)%nat.
Proof. intros. unfold std_set_prm. rewrite app_length. reflexivity. Qed.

Lemma req_wire : forall c pc pa op q q' h pdu w,
  conf_within_limits c = true -> 0 <= p_address pa <= 126 ->
  (exists k, nth_error (cf_periphs c) k = Some pc) -> fits pc q ->
  p_transmit pa op q = Ok (q', PtxSend h pdu) ->
  encode_data_in (cf_bufsize c) h pdu = Ok w ->
  decode w = Ok (Accept (TData h pdu) (length w)) /\ exists f rq, h_fc h = FcRequest f rq.
Proof.
  intros c pc pa op q q' h pdu w Hlim Hown (k & Hk) (F1 & F2 & F3 & F4) Hp He.
  destruct (limits_parts _ Hlim) as (Hbuf & Hper). destruct (Hper _ _ Hk) as (Ha & Hin & Hout & Hprm & Hcfg).
  destruct (transmit_facts _ _ _ _ _ Hp) as (_ & _ & _ & _ & _ & _ & _ & _ & Hstd).
  destruct (std_request_classify _ _ _ _ _ _ _ Hstd) as (_ & Hda & Hsa & Hfc).
  assert (Hlen : (length pdu <= 244)%nat).
  { destruct (state_service q') eqn:Esv; cbn in Hstd; try contradiction.
    - destruct Hstd as (_ & ->). cbn. lia.
    - destruct Hstd as (u & Hu & _ & ->). rewrite F2 in Hu. specialize (Hprm _ Hu). cbn [length]. lia.
    - destruct Hstd as (u & Hu & _ & ->). rewrite F2 in Hu. apply (Hcfg _ Hu).
    - assert (Hd : h_dsap h = None) by (rewrite Hstd; reflexivity).
      destruct (dx_request_only_when_ready _ _ _ _ _ _ Hp Hd) as (_ & _ & _ & ->).
      destruct (opstate_eqb op OpOperate); rewrite ?repeat_length; lia. }
  assert (Hwf : wf_header h).
  { unfold wf_header, is_addr7. rewrite Hda, Hsa, F1.
    split; [lia|]. split; [lia|].
    destruct (state_service q'); cbn in Hstd; try contradiction.
    - destruct Hstd as (-> & _). cbn. unfold is_byte. lia.
    - destruct Hstd as (u & _ & -> & _). cbn. unfold is_byte. lia.
    - destruct Hstd as (u & _ & -> & _). cbn. unfold is_byte. lia.
    - rewrite Hstd. cbn. auto. }
  split; [|eexists; eexists; exact Hfc].
  apply (encode_decode (cf_bufsize c)); auto.
  - pose proof (length_byte_le h (length pdu)). lia.
  - pose proof (telegram_len_le h (length pdu)). pose proof (length_byte_le h (length pdu)). lia.
Qed.

Lemma gc_wire : forall c pa b w,
  conf_within_limits c = true -> 0 <= p_address pa <= 126 ->
  send_data (cf_bufsize c) (gc_header pa) [b; dp_gc_groups] = Ok (w, None) ->
  decode w = Ok (Accept (TData (gc_header pa) [b; dp_gc_groups]) (length w)).
Proof.
  intros c pa b w Hlim Hown Hs. destruct (limits_parts _ Hlim) as (Hbuf & _).
  unfold send_data in Hs. destruct (encode_data_in (cf_bufsize c) (gc_header pa) [b; dp_gc_groups]) as [w'| |] eqn:He;
    cbn [bind] in Hs; try discriminate Hs. inversion Hs; subst w'.
  apply (encode_decode (cf_bufsize c)); auto.
  - unfold wf_header, gc_header. cbn [h_da h_sa h_dsap h_ssap].
    split; [vm_compute; split; [discriminate|reflexivity]|]. split; [unfold is_addr7; lia|].
    split; vm_compute; (split; [discriminate|reflexivity]).
  - vm_compute. lia.
  - unfold telegram_len_data, length_byte. cbn. lia.
Qed.

Lemma set_nth_length : forall A (l : list A) i x, length (set_nth l i x) = length l.
Proof. induction l as [|y l IH]; intros [|i] x; cbn; auto. Qed.

Lemma set_nth_same : forall A (l : list A) i x, (i < length l)%nat -> nth_error (set_nth l i x) i = Some x.
Proof. induction l as [|y l IH]; intros [|i] x H; cbn in *; try lia; [reflexivity|]. apply IH. lia. Qed.

Lemma set_nth_other : forall A (l : list A) i j x, j <> i -> nth_error (set_nth l i x) j = nth_error l j.
Proof.
  induction l as [|y l IH]; intros [|i] [|j] x H; cbn; try reflexivity; try (now elim H).
  apply IH. intro E; apply H; f_equal; exact E.
Qed.

Lemma hs_next_other : forall hs t, (forall k, ts_in t <> InAdd k) -> hs_next hs t = hs.
Proof. intros hs t H. unfold hs_next. destruct (ts_in t); try reflexivity. now elim (H k). Qed.

Lemma same_ctrl_shape : forall p p', same_ctrl p p' -> shape_eq p p'.
Proof. intros p p' (Ha & _ & _ & _ & Hi & _ & Ho & Hl). unfold shape_eq. repeat split; congruence. Qed.

Lemma quiet_all_shape : forall m gs m' gs',
  all_quiet m gs m' gs' ->
  (forall j q, slot m j = Some q -> exists q', slot m' j = Some q' /\ shape_eq q q') /\
  (forall j q', slot m' j = Some q' -> exists q, slot m j = Some q).
Proof.
  intros m gs m' gs' [H1 H2]. split; [|exact H2].
  intros j q Hq. destruct (H1 _ _ Hq) as (q' & Hq' & HQ). exists q'. split; [exact Hq'|eapply quiet_shape; exact HQ].
Qed.

Definition user_same (m m' : dpm) : Prop :=
  forall j, slot m' j = slot m j \/ exists p p', slot m j = Some p /\ slot m' j = Some p' /\ same_ctrl p p'.

Lemma user_same_put : forall m i p p', slot m i = Some p -> same_ctrl p p' ->
  user_same m (set_slots m (put_slot (dm_slots m) i p')).
Proof.
  intros m i p p' Hs Hsc j. destruct (Nat.eq_dec j i) as [->|Hne].
  - right. exists p, p'. split; [exact Hs|]. split; [apply (slot_put_same _ _ p' _ Hs)|exact Hsc].
  - left. apply slot_put_other. intro E; apply Hne; symmetry; exact E.
Qed.

Lemma user_same_refl : forall m m', (forall j, slot m' j = slot m j) -> user_same m m'.
Proof. intros m m' H j. left. apply H. Qed.

Lemma fits_quiet : forall pc q g q1 g1, fits pc q -> Quiet q g q1 g1 -> fits pc q1.
Proof. intros pc q g q1 g1 (F1 & F2 & F3 & F4) HQ. destruct HQ. unfold fits. repeat split; congruence. Qed.

(* what a step does to the one slot i it touches: peripheral q with wire monitor g becomes q' with g' *)
Inductive SlotEv (pa : params) (op : opstate) (hs : list (option handle)) (pend : option Z) (t : tstep) (i : nat)
                 (q : periph) (g : ghost) (q' : periph) (g' : ghost) : Prop :=
| SReq : forall h pdu q1 g1,
    pend = None -> view_of t = VReq (h_da h) (classify h) h pdu -> step_event t = None ->
    (exists now hp, ts_in t = InTx now hp) ->
    h_da h = pe_addr q -> Quiet q g q1 g1 -> Inv pa (pe_addr q) (pe_opts q) q1 g1 ->
    p_transmit pa op q1 = Ok (q', PtxSend h pdu) -> g' = gstep g1 (WReq h pdu) ->
    req_ok pa (pe_addr q) (pe_opts q) g1 h pdu ->
    SlotEv pa op hs pend t i q g q' g'
| SOff : forall q1 g1,
    pend = None -> view_of t = VNoTx -> step_event t = Some (pe_addr q, EvOffline) ->
    (exists now hp, ts_in t = InTx now hp) ->
    Quiet q g q1 g1 -> Inv pa (pe_addr q) (pe_opts q) q1 g1 ->
    p_transmit pa op q1 = Ok (q', PtxSkip (Some EvOffline)) -> g' = gstep g1 (WEvent EvOffline) ->
    ev_ok pa (pe_addr q) (pe_opts q) g1 (WEvent EvOffline) ->
    SlotEv pa op hs pend t i q g q' g'
| SReply : forall tg ev now w,
    pend = Some (pe_addr q) -> view_of t = VReply (pe_addr q) tg ->
    step_event t = option_map (fun e => (pe_addr q, e)) ev -> ts_in t = InRx now (pe_addr q) w ->
    p_receive_reply q tg = Ok (q', ev) -> g' = gstep g (WReply tg ev) -> gh_out g = true ->
    SlotEv pa op hs pend t i q g q' g'
| STimeout :
    pend = Some (pe_addr q) -> (view_of t = VTimeout (pe_addr q) \/ view_of t = VAbandon) -> step_event t = None ->
    match ts_in t with InTo _ _ | InAbandon => True | _ => False end ->
    q' = q -> g' = gstep g WTimeout ->
    SlotEv pa op hs pend t i q g q' g'
| SUser : forall k,
    view_of t = VOther -> step_event t = None -> same_ctrl q q' -> g' = g ->
    (exists h, nth_error hs k = Some (Some h) /\ hd_index h = i) ->
    (ts_in t = InReqDiag k /\ pe_pi_q q' = pe_pi_q q \/ exists x, ts_in t = InWriteQ k x /\ pe_pi_q q' = x) ->
    SlotEv pa op hs pend t i q g q' g'.

Lemma slotev_addr : forall pa op hs pend t i q g q' g', SlotEv pa op hs pend t i q g q' g' -> pe_addr q' = pe_addr q.
Proof.
  intros pa op hs pend t i q g q' g'
    [h pdu q1 g1 _ _ _ _ _ HQ _ Hp _ _|q1 g1 _ _ _ _ HQ _ Hp _ _|tg ev now w _ _ _ _ Hp _ _|_ _ _ _ -> _|k _ _ Hsc _ _ _].
  - rewrite (proj1 (transmit_keeps _ _ _ _ _ Hp)). apply (qu_addr _ _ _ _ HQ).
  - rewrite (proj1 (transmit_keeps _ _ _ _ _ Hp)). apply (qu_addr _ _ _ _ HQ).
  - apply (receive_facts _ _ _ _ Hp).
  - reflexivity.
  - apply Hsc.
Qed.

Lemma slotev_no_add : forall pa op hs pend t i q g q' g', SlotEv pa op hs pend t i q g q' g' ->
  forall k, ts_in t <> InAdd k.
Proof.
  intros pa op hs pend t i q g q' g'
    [h pdu q1 g1 _ _ _ (now & hp & Hin) _ _ _ _ _ _|q1 g1 _ _ _ (now & hp & Hin) _ _ _ _ _|tg ev now w _ _ _ Hin _ _ _
    |_ _ _ Hin _ _|k _ _ _ _ _ [(Hin & _)|(x & Hin & _)]] k0 E; rewrite E in Hin; try discriminate Hin; exact Hin.
Qed.

Section Step.
Variable c : conf.
Hypothesis Hc : conf_ok c.

Definition Base (s : sys) (gs : gmap) (pend : option Z) : Prop :=
  SInv c s /\ GInv (cf_params c) (sy_m s) gs pend.

(* a step passes over all slots, or touches one, or fills a free one *)
Inductive Trans (s : sys) (gs : gmap) (pend : option Z) (t : tstep) (s' : sys) (gs' : gmap) : Prop :=
| TQuiet :
    (view_of t = VNoTx /\ pend = None \/ (exists h pdu, view_of t = VSdn h pdu) /\ pend = None \/ view_of t = VOther) ->
    step_event t = None ->
    match ts_in t with InWriteQ _ _ | InAdd _ => False | _ => True end ->
    sy_handles s' = sy_handles s ->
    all_quiet (sy_m s) gs (sy_m s') gs' ->
    Trans s gs pend t s' gs'
| TSlot : forall i q q',
    slot (sy_m s) i = Some q -> slot (sy_m s') i = Some q' -> others_quiet (sy_m s) gs (sy_m s') gs' i ->
    sy_handles s' = sy_handles s ->
    SlotEv (cf_params c) (dm_op (sy_m s)) (sy_handles s) pend t i q (gs i) q' (gs' i) ->
    Trans s gs pend t s' gs'
| TAdd : forall k i pc,
    pend = None -> ts_in t = InAdd k -> view_of t = VOther -> step_event t = None ->
    nth_error (cf_periphs c) k = Some pc -> nth_error (sy_handles s) k = Some None ->
    ts_out t = OutHandle (mkHandle i (pc_addr pc)) ->
    sy_handles s' = set_nth (sy_handles s) k (Some (mkHandle i (pc_addr pc))) ->
    slot (sy_m s) i = None -> slot (sy_m s') i = Some (periph_of_conf pc) ->
    (forall j, j <> i -> slot (sy_m s') j = slot (sy_m s) j) ->
    gs' = gupd gs i ghost0 ->
    (forall j q, slot (sy_m s) j = Some q -> pe_addr q <> pc_addr pc) ->
    Trans s gs pend t s' gs'.

Lemma trans_handles : forall s gs pend t s' gs', Trans s gs pend t s' gs' -> sy_handles s' = hs_next (sy_handles s) t.
Proof.
  intros s gs pend t s' gs' [_ _ Hin Hh _|i q q' _ _ _ Hh HS|k i pc _ Hin _ _ _ _ Hout Hh _ _ _ _ _].
  - rewrite Hh. symmetry. apply hs_next_other. intros k E. rewrite E in Hin. exact Hin.
  - rewrite Hh. symmetry. apply hs_next_other. apply (slotev_no_add _ _ _ _ _ _ _ _ _ _ HS).
  - unfold hs_next. rewrite Hin, Hout. exact Hh.
Qed.

Lemma pend_link_Trans : forall s gs pend t s' gs' op,
  addr_inj (sy_m s') -> Trans s gs pend t s' gs' -> pend_link (sy_m s) gs pend op ->
  pend_link (sy_m s') gs' (pend_next_v pend (view_of t)) (pending_after op (view_of t)).
Proof.
  intros s gs pend t s' gs' op Hinj' HT Hpl.
  destruct HT as [Hv _ _ _ HQ|i q q' Hq Hq' Hoq _ HS|k i pc -> _ Hv _ _ _ _ _ _ _ _ _ _].
  - assert (E : pend_next_v pend (view_of t) = pend /\ pending_after op (view_of t) = op)
      by (destruct Hv as [(-> & ->)|[((h & pdu & ->) & ->)| ->]]; split; reflexivity).
    destruct E as [-> ->]. apply (pend_link_pres _ _ _ _ _ _ Hpl).
    intros j p' Hp'. destruct (quiet_back _ _ _ _ HQ _ _ Hp') as (p & Hp & HQj). exists p.
    split; [exact Hp|]. split; [apply (qu_addr _ _ _ _ HQj)|apply (qu_last _ _ _ _ HQj)].
  - pose proof (slotev_addr _ _ _ _ _ _ _ _ _ _ HS) as Ha.
    destruct HS as [h pdu q1 g1 _ Hv _ _ Hda _ _ _ Hg' _|q1 g1 -> Hv _ _ _ _ _ _ _|tg ev now w _ Hv _ _ _ _ _
                   |_ Hv _ _ _ _|k Hv _ _ Hg' _ _].
    + rewrite Hv. split; [reflexivity|]. intros j p Hp Hpa.
      assert (j = i) by (apply (Hinj' _ _ _ _ Hp Hq'); congruence). subst j.
      exists h. rewrite Hg'. split; reflexivity.
    + rewrite Hv. rewrite (pend_link_none _ _ _ Hpl). exact Logic.I.
    + rewrite Hv. exact Logic.I.
    + destruct Hv as [-> | ->]; exact Logic.I.
    + rewrite Hv. apply (pend_link_pres _ _ _ _ _ _ Hpl).
      intros j p' Hp'. destruct (Nat.eq_dec j i) as [->|Hne].
      * rewrite Hq' in Hp'. inversion Hp'; subst p'. exists q. rewrite Hg'. auto.
      * destruct (others_back _ _ _ _ _ Hoq _ _ Hne Hp') as (p & Hp & HQj). exists p.
        split; [exact Hp|]. split; [apply (qu_addr _ _ _ _ HQj)|apply (qu_last _ _ _ _ HQj)].
  - rewrite Hv. rewrite (pend_link_none _ _ _ Hpl). exact Logic.I.
Qed.

Lemma sinv_same_slots : forall s s',
  SInv c s -> sy_conf s' = sy_conf s -> sy_handles s' = sy_handles s -> dm_events (sy_m s') = events_default ->
  (forall j, slot (sy_m s') j = slot (sy_m s) j) -> SInv c s'.
Proof.
  intros s s' I H1 H2 H3 H4. apply (sinv_step c s s' I H1 H2 H3).
  - intros j q Hq. exists q. rewrite H4. split; [exact Hq|]. unfold shape_eq. auto.
  - intros j q' Hq'. exists q'. rewrite <- H4. exact Hq'.
Qed.

Lemma sinv_upd : forall s s' i q q',
  SInv c s -> sy_conf s' = sy_conf s -> sy_handles s' = sy_handles s -> dm_events (sy_m s') = events_default ->
  slot (sy_m s) i = Some q -> slot (sy_m s') i = Some q' -> shape_eq q q' ->
  (forall j, j <> i -> slot (sy_m s') j = slot (sy_m s) j) -> SInv c s'.
Proof.
  intros s s' i q q' I H1 H2 H3 Hq Hq' Hsh Hoth. apply (sinv_step c s s' I H1 H2 H3).
  - intros j p Hp. destruct (Nat.eq_dec j i) as [->|Hne].
    + exists q'. rewrite Hq in Hp. inversion Hp; subst p. auto.
    + exists p. rewrite Hoth by exact Hne. split; [exact Hp|]. unfold shape_eq. auto.
  - intros j p' Hp'. destruct (Nat.eq_dec j i) as [->|Hne]; [exists q; exact Hq|]. exists p'. rewrite <- Hoth by exact Hne. exact Hp'.
Qed.

Lemma tx_view_pend : forall own hs pend now hp o tk obs op,
  head_ok own hs pend (mkStep (InTx now hp) false (OutTx o) tk obs op) -> pend = None.
Proof.
  intros own hs pend now hp o tk obs op (_ & Hv & _).
  unfold view_of in Hv. cbn [ts_in ts_out] in Hv.
  destruct o as [[w e]|]; [|exact Hv].
  destruct (decode w) as [[| |[h pdu| |] n]| |]; try exact Hv.
  destruct (negb (Nat.eqb n (length w))); [exact Hv|].
  destruct (h_fc h); destruct e as [da|]; try exact Hv.
  destruct (da =? h_da h); exact Hv.
Qed.

(* what a step means for the slot scheduler: nothing, one call of the slot loop, the end of a turn by a reply,
   a new occupied slot *)
Inductive Sched (s : sys) (pend : option Z) (t : tstep) (s' : sys) : Prop :=
| ScStatic :
    sy_handles s' = sy_handles s -> (forall k, ts_in t <> InAdd k) ->
    user_same (sy_m s) (sy_m s') -> pos_rem (sy_m s') = pos_rem (sy_m s) -> dm_cycle (sy_m s') = dm_cycle (sy_m s) ->
    (view_of t = VOther \/ (exists a, view_of t = VTimeout a) \/ view_of t = VAbandon \/
     (exists h pdu, view_of t = VSdn h pdu) \/ (view_of t = VNoTx /\ ts_op t = OpStop)) ->
    step_event t = None -> step_cc t = false ->
    Sched s pend t s'
| ScLoop : forall now hp m1 o log,
    pend = None -> dm_op (sy_m s) <> OpStop -> tx_rel (cf_params c) (cf_bufsize c) (sy_m s) m1 o log ->
    s' = set_m s (set_events m1 events_default) ->
    t = mkStep (InTx now hp) false (OutTx o) (Some (dm_events m1)) (observe s') (dm_op m1) ->
    Sched s pend t s'
| ScReply : forall now addr wire tg m1,
    pend = Some addr -> decode wire = Ok (Accept tg (length wire)) -> dp_receive_reply (sy_m s) addr tg = Ok m1 ->
    s' = set_m s (set_events m1 events_default) ->
    t = mkStep (InRx now addr wire) false OutUnit (Some (dm_events m1)) (observe s') (dm_op m1) ->
    Sched s pend t s'
| ScAdd : forall k,
    ts_in t = InAdd k -> dm_cycle (sy_m s') = dm_cycle (sy_m s) -> step_cc t = false -> Sched s pend t s'.

Lemma same_Trans : forall s gs pend s' t,
  Base s gs pend -> sy_conf s' = sy_conf s -> sy_handles s' = sy_handles s ->
  dm_slots (sy_m s') = dm_slots (sy_m s) -> dm_cycle (sy_m s') = dm_cycle (sy_m s) ->
  dm_events (sy_m s') = events_default ->
  (view_of t = VNoTx /\ ts_op t = OpStop /\ pend = None \/ (exists h pdu, view_of t = VSdn h pdu) /\ pend = None \/
   view_of t = VOther) ->
  (ts_taken t = None \/ ts_taken t = Some events_default) ->
  match ts_in t with InWriteQ _ _ | InAdd _ => False | _ => True end ->
  Base s' gs (pend_next_v pend (view_of t)) /\ Trans s gs pend t s' gs /\ Sched s pend t s'.
Proof.
  intros s gs pend s' t [I G] Hcf Hh Hsl Hcy Hev Hv Htk Hin.
  assert (Hslot : forall j, slot (sy_m s') j = slot (sy_m s) j) by (intro j; apply slot_slots; exact Hsl).
  assert (Hpr : pos_rem (sy_m s') = pos_rem (sy_m s)) by (apply pos_rem_mask; [apply mask_slots; exact Hsl|exact Hcy]).
  assert (Hpn : pend_next_v pend (view_of t) = pend)
    by (destruct Hv as [(-> & _ & ->)|[((h & pdu & ->) & ->)| ->]]; reflexivity).
  assert (Hse : step_event t = None /\ step_cc t = false)
    by (unfold step_event, step_cc; destruct Htk as [-> | ->]; split; reflexivity).
  rewrite Hpn. split; [|split].
  - split; [apply (sinv_same_slots s); assumption|apply (ginv_frame _ (sy_m s)); assumption].
  - apply TQuiet; [tauto|apply Hse|exact Hin|exact Hh|apply all_quiet_refl; exact Hslot].
  - apply ScStatic; [exact Hh| |apply user_same_refl; exact Hslot|exact Hpr|exact Hcy| |apply Hse|apply Hse].
    + intros k E. rewrite E in Hin. exact Hin.
    + destruct Hv as [(Hv & Hop & _)|[(Hv & _)|Hv]]; tauto.
Qed.

(* the outstanding request is given up: handle_timeout, or no callback at all *)
Lemma timeout_Trans : forall s gs a s' t,
  Base s gs (Some a) -> sy_conf s' = sy_conf s -> sy_handles s' = sy_handles s -> sy_m s' = sy_m s ->
  (view_of t = VTimeout a \/ view_of t = VAbandon) -> (ts_taken t = None \/ ts_taken t = Some events_default) ->
  match ts_in t with InTo _ _ | InAbandon => True | _ => False end ->
  exists gs', Base s' gs' (pend_next_v (Some a) (view_of t)) /\ Trans s gs (Some a) t s' gs' /\ Sched s (Some a) t s'.
Proof.
  intros s gs a s' t [I G] Hcf Hh Hm Hv Htk Hin.
  destruct (timeout_ghost _ _ _ _ (co_retry _ Hc) G) as (i & p & _ & Hsl & <- & _ & G').
  exists (gupd gs i (gstep (gs i) WTimeout)).
  assert (Hpn : pend_next_v (Some (pe_addr p)) (view_of t) = None) by (destruct Hv as [-> | ->]; reflexivity).
  assert (Hse : step_event t = None /\ step_cc t = false)
    by (unfold step_event, step_cc; destruct Htk as [-> | ->]; split; reflexivity).
  assert (Hna : forall k, ts_in t <> InAdd k) by (intros k E; rewrite E in Hin; exact Hin).
  rewrite Hpn. split; [|split].
  - split; [apply (sinv_same_slots s); auto; rewrite Hm; [exact (si_events _ _ I)|reflexivity]|rewrite Hm; exact G'].
  - apply (TSlot _ _ _ _ _ _ i p p); rewrite ?Hm; auto.
    + apply (others_quiet_upd _ _ _ _ _ p p); auto. intros j Hne. apply gupd_other. exact Hne.
    + apply STimeout; auto; [apply Hse|apply gupd_same].
  - apply ScStatic; rewrite ?Hm; auto; try apply Hse; [apply user_same_refl; reflexivity|].
    destruct Hv as [Hv|Hv]; [right; left; eexists; exact Hv|tauto].
Qed.

Lemma user_Trans : forall s gs pend k h p p' t,
  Base s gs pend -> handle_of s k = Some h -> slot (sy_m s) (hd_index h) = Some p -> same_ctrl p p' ->
  view_of t = VOther -> ts_taken t = None ->
  (ts_in t = InReqDiag k /\ pe_pi_q p' = pe_pi_q p \/ exists x, ts_in t = InWriteQ k x /\ pe_pi_q p' = x) ->
  let s' := set_m s (set_slots (sy_m s) (put_slot (dm_slots (sy_m s)) (hd_index h) p')) in
  Base s' gs (pend_next_v pend (view_of t)) /\ Trans s gs pend t s' gs /\ Sched s pend t s'.
Proof.
  intros s gs pend k h p p' t [I G] Hh Hsl Hsc Hv Htk Hin s'. rewrite Hv. cbn [pend_next_v].
  assert (Hk : nth_error (sy_handles s) k = Some (Some h)).
  { unfold handle_of in Hh. destruct (nth_error (sy_handles s) k) as [[h0|]|]; inversion Hh; reflexivity. }
  assert (Hse : step_event t = None /\ step_cc t = false) by (unfold step_event, step_cc; rewrite Htk; split; reflexivity).
  assert (Hupd : user_upd (sy_m s) (sy_m s')) by (exists (hd_index h), p, p'; auto).
  assert (Hsl' : slot (sy_m s') (hd_index h) = Some p') by apply (slot_put_same _ _ p' _ Hsl).
  assert (Hoth : forall j, j <> hd_index h -> slot (sy_m s') j = slot (sy_m s) j)
    by (intros j Hne; apply slot_put_other; intro E; apply Hne; symmetry; exact E).
  split; [|split].
  - split.
    + apply (sinv_upd s s' (hd_index h) p p'); auto; [exact (si_events _ _ I)|apply same_ctrl_shape; exact Hsc].
    + apply (ginv_user _ (sy_m s)); assumption.
  - apply (TSlot _ _ _ _ _ _ (hd_index h) p p'); auto; [apply (others_quiet_upd _ _ _ _ _ p p'); auto|].
    apply (SUser _ _ _ _ _ _ _ _ _ _ k); auto; [apply Hse|exists h; auto].
  - apply ScStatic; auto; try apply Hse.
    + intros k0 E. destruct Hin as [(Hin & _)|(x & Hin & _)]; rewrite Hin in E; discriminate E.
    + apply (user_same_put _ _ p); assumption.
    + apply pos_rem_user. exact Hupd.
Qed.

Lemma loop_vis : forall s gs now hp m1 o log obs,
  Base s gs None -> tx_rel (cf_params c) (cf_bufsize c) (sy_m s) m1 o log ->
  let s' := set_m s (set_events m1 events_default) in
  let t := mkStep (InTx now hp) false (OutTx o) (Some (dm_events m1)) obs (dm_op m1) in
  exists gs' v, Base s' gs' (pend_next_v None (view_of t)) /\ tx_post (cf_params c) (cf_bufsize c) (sy_m s) gs m1 gs' o v /\
    view_of t = match v with TvSend _ h pdu => VReq (h_da h) (classify h) h pdu | _ => VNoTx end.
Proof.
  intros s gs now hp m1 o log obs [I G] Hrel s' t.
  destruct (tx_rel_ghost _ _ _ _ _ _ (co_retry _ Hc) Hrel gs G) as (gs' & v & G' & Hpost).
  pose proof Hpost as (Hmk & _ & Hslots & Hvis).
  assert (I' : SInv c s').
  { apply (sinv_step c s); auto.
    - intros j q Hq. destruct (Hslots _ _ Hq) as (q' & Hq' & Hp). exists q'. split; [exact Hq'|eapply slot_post_shape; exact Hp].
    - intros j q' Hq'. apply (mask_slot_back (sy_m s) m1 j q' Hmk Hq'). }
  assert (HG : GInv (cf_params c) (sy_m s') gs' (match o with Some (_, e) => e | None => None end))
    by (apply (ginv_frame _ m1); [reflexivity|reflexivity|exact G']).
  exists gs', v. destruct v as [|i h pdu|i].
  - destruct Hvis as (-> & _). split; [split; [exact I'|exact HG]|]. split; [exact Hpost|reflexivity].
  - destruct Hvis as (w & q & -> & Henc & _ & _ & Hq).
    destruct (Hslots _ _ Hq) as (q' & _ & Hp). cbn [slot_post] in Hp. rewrite Nat.eqb_refl in Hp.
    destruct Hp as (q1 & g1 & HQ & _ & Hp & _).
    destruct (slot_handle c s i q I Hq) as (k & _ & pc & _ & _ & Hpc & Hfit).
    destruct (req_wire c pc _ _ _ _ _ _ _ (co_limits _ Hc) (co_own _ Hc) (ex_intro _ k Hpc) (fits_quiet _ _ _ _ _ Hfit HQ) Hp Henc)
      as (Hdec & f & rq & Hfc).
    assert (Hv : view_of t = VReq (h_da h) (classify h) h pdu) by (eapply view_tx_req; [exact Hdec|exact Hfc]).
    rewrite Hv. split; [split; [exact I'|exact HG]|]. split; [exact Hpost|reflexivity].
  - destruct Hvis as (-> & _). split; [split; [exact I'|exact HG]|]. split; [exact Hpost|reflexivity].
Qed.

Lemma loop_Trans : forall s gs now hp m1 o log obs,
  Base s gs None -> tx_rel (cf_params c) (cf_bufsize c) (sy_m s) m1 o log ->
  let s' := set_m s (set_events m1 events_default) in
  let t := mkStep (InTx now hp) false (OutTx o) (Some (dm_events m1)) obs (dm_op m1) in
  exists gs', Base s' gs' (pend_next_v None (view_of t)) /\ Trans s gs None t s' gs'.
Proof.
  intros s gs now hp m1 o log obs HB Hrel s' t.
  destruct (loop_vis s gs now hp m1 o log obs HB Hrel) as (gs' & v & HB' & Hpost & Hv).
  fold s' t in HB', Hv. exists gs'. split; [exact HB'|].
  destruct (tx_post_pass _ _ _ _ _ _ _ _ Hpost) as (Hpass & Hbw). destruct Hpost as (_ & _ & Hslots & Hvis).
  assert (Hev : forall e, ev_peripheral (dm_events m1) = e ->
            step_event t = match e with Some (h, ev) => Some (hd_addr h, ev) | None => None end)
    by (intros e <-; reflexivity).
  destruct v as [|i h pdu|i].
  - destruct Hvis as (_ & Hnone).
    apply TQuiet; [left; split; [exact Hv|reflexivity]|exact (Hev _ Hnone)|exact Logic.I|reflexivity|].
    split; [|exact Hbw]. intros j q. apply Hpass. discriminate.
  - destruct Hvis as (w & q & _ & _ & Hnone & _ & Hq).
    destruct (Hslots _ _ Hq) as (q' & Hq' & Hpost). cbn [slot_post] in Hpost. rewrite Nat.eqb_refl in Hpost.
    destruct Hpost as (q1 & g1 & HQ & I1 & Hp & Hg' & Hreq).
    pose proof Hreq as (f0 & Hstd & _). destruct (std_request_classify _ _ _ _ _ _ _ Hstd) as (_ & Hda & _).
    apply (TSlot _ _ _ _ _ _ i q q'); auto.
    + split; [|exact Hbw]. intros j qj Hne. apply Hpass. cbn. congruence.
    + apply (SReq _ _ _ _ _ _ _ _ _ _ h pdu q1 g1); auto; [exact (Hev _ Hnone)|eexists; eexists; reflexivity].
  - destruct Hvis as (_ & q & Hq & Hoff).
    destruct (Hslots _ _ Hq) as (q' & Hq' & Hpost). cbn [slot_post] in Hpost. rewrite Nat.eqb_refl in Hpost.
    destruct Hpost as (q1 & g1 & HQ & I1 & Hp & Hg' & Hok).
    apply (TSlot _ _ _ _ _ _ i q q'); auto.
    + split; [|exact Hbw]. intros j qj Hne. apply Hpass. cbn. congruence.
    + apply (SOff _ _ _ _ _ _ _ _ _ _ q1 g1); auto; [exact (Hev _ Hoff)|eexists; eexists; reflexivity].
Qed.

Lemma add_Trans : forall s gs k pc m1 h,
  Base s gs None -> nth_error (cf_periphs (sy_conf s)) k = Some pc -> dp_add (sy_m s) (periph_of_conf pc) = Ok (m1, h) ->
  nth_error (sy_handles s) k = Some None ->
  let s' := mkSys (sy_conf s) m1 (set_nth (sy_handles s) k (Some h)) (sy_slaves s) in
  let t := mkStep (InAdd k) false (OutHandle h) None (observe s') (dm_op m1) in
  exists gs', Base s' gs' (pend_next_v None (view_of t)) /\ Trans s gs None t s' gs' /\ Sched s None t s'.
Proof.
  intros s gs k pc m1 h [I G] Hpc Hdadd Hnone s' t. subst s' t. rewrite (si_late _ _ I _ Hnone) in Hpc.
  cbn [view_of pend_next_v ts_in ts_out].
  destruct (dp_add_post _ _ _ _ Hdadd) as (Hfree & Hnew & Hoth & Hadr & _ & A2 & A3 & _).
  assert (Hh : h = mkHandle (hd_index h) (pc_addr pc)) by (destruct h as [hi ha]; cbn in Hadr |- *; rewrite Hadr; reflexivity).
  assert (Hklt : (k < length (sy_handles s))%nat) by (apply nth_error_Some; rewrite Hnone; discriminate).
  assert (Hfresh : forall j q0, slot (sy_m s) j = Some q0 -> pe_addr q0 <> pc_addr pc).
  { intros j q0 Hq0 E. destruct (slot_handle c s j q0 I Hq0) as (k' & h' & pc' & Hk' & _ & Hpc' & (F1 & _)).
    assert (Ek : k' = k) by (apply (conf_addr_inj c k' k pc' pc (co_sane _ Hc) Hpc' Hpc); congruence).
    subst k'. rewrite Hnone in Hk'. discriminate Hk'. }
  exists (gupd gs (hd_index h) ghost0). split; [|split; [|apply (ScAdd _ _ _ _ k); [reflexivity|exact A3|reflexivity]]].
  - split.
    + constructor; cbn [sy_conf sy_handles sy_m].
      * exact (si_conf _ _ I).
      * rewrite set_nth_length. exact (si_len _ _ I).
      * rewrite A2. exact (si_events _ _ I).
      * intros k' h' Hk'. destruct (Nat.eq_dec k' k) as [->|Hne].
        -- rewrite set_nth_same in Hk' by exact Hklt. inversion Hk'; subst h'.
            exists pc, (periph_of_conf pc). split; [exact Hpc|]. split; [exact Hnew|apply periph_of_conf_fits].
        -- rewrite set_nth_other in Hk' by exact Hne.
            destruct (si_h _ _ I _ _ Hk') as (pc' & p' & H1 & H2 & H4). exists pc', p'.
            split; [exact H1|]. split; [|assumption].
            rewrite Hoth; [exact H2|]. intro E. rewrite E in H2. rewrite Hfree in H2. discriminate H2.
      * intros j p Hp. destruct (Nat.eq_dec j (hd_index h)) as [->|Hne].
        -- rewrite Hnew in Hp. inversion Hp; subst p. exists k, h. rewrite set_nth_same by exact Hklt. auto.
        -- rewrite Hoth in Hp by exact Hne. destruct (si_s _ _ I _ _ Hp) as (k' & h' & Hk' & Hi'). exists k', h'.
            split; [|exact Hi']. rewrite set_nth_other; [exact Hk'|]. intro E; subst k'. rewrite Hnone in Hk'. discriminate Hk'.
      * intros k' Hk'. destruct (Nat.eq_dec k' k) as [->|Hne].
        -- rewrite set_nth_same in Hk' by exact Hklt. discriminate Hk'.
        -- rewrite set_nth_other in Hk' by exact Hne. apply (si_late _ _ I). exact Hk'.
    + unfold periph_of_conf in Hdadd. assert (H0 : 0 <= p_max_retry (cf_params c)) by (pose proof (co_retry _ Hc); lia).
      apply (add_ghost (cf_params c) _ _ _ _ _ _ _ _ _ H0 Hdadd G).
  - apply (TAdd _ _ _ _ _ _ k (hd_index h) pc); cbn [sy_m sy_handles ts_in ts_out]; auto; rewrite <- Hh; reflexivity.
Qed.

Lemma model_trans : forall s gs pend i t s',
  Base s gs pend -> model_step s i = Ok (s', t) ->
  head_ok (p_address (cf_params c)) (sy_handles s) pend t -> is_reset_in i = false ->
  exists gs', Base s' gs' (pend_next_v pend (view_of t)) /\ Trans s gs pend t s' gs' /\ Sched s pend t s'.
Proof.
  intros s gs pend i t s' HB Hstep Hhead Hnreset. pose proof HB as [I G].
  pose proof (co_auto _ Hc) as Hauto. pose proof Hhead as (Hbad & Hview & Hadd).
  assert (Henv : match i with InSlave _ _ | InPower _ | InSlaveSet _ _ _ _ _ _ _ _ _ | InClean => True | _ => False end ->
            exists gs', Base s' gs' (pend_next_v pend (view_of t)) /\ Trans s gs pend t s' gs' /\ Sched s pend t s').
  { intro Hi. assert (He : env_input i = true) by (destruct i; try contradiction; reflexivity).
    destruct (step_env s i s' t He Hstep) as (Hcf & Hm & Hh & o & -> & Ho).
    exists gs. apply same_Trans; auto; rewrite ?Hm; auto.
    - exact (si_events _ _ I).
    - right; right. destruct i; try contradiction; destruct o; try contradiction; reflexivity.
    - destruct i; try contradiction; exact Logic.I. }
  destruct i as [now hp|now addr wire|now addr| |k|k q|st| |k|k wire|k|k si rd sd dp f1 f2 ext ident| |k a];
    try (apply Henv; exact Logic.I).
  - (* transmit_telegram *)
    destruct (step_tx c s now hp s' t I Hauto Hstep) as (m1 & o & Htx & -> & ->).
    pose proof (tx_view_pend _ _ _ _ _ _ _ _ _ Hhead) as Hp. subst pend.
    rewrite <- dp_transmit_erase in Htx.
    destruct (dp_transmit_g (cf_params c) (cf_bufsize c) (sy_m s) now hp) as [[[m1' o'] log]| |] eqn:Hg;
      cbn [drop_log] in Htx; try discriminate Htx. inversion Htx; subst m1' o'. clear Htx.
    destruct (dp_transmit_g_cases _ _ _ _ _ _ _ _ Hg) as
      [(Hop & Hm & -> & _)|[(_ & _ & _ & Hm & _ & b & w & _ & Hsd & ->)|(Hop & _ & Hrel)]].
    + (* stopped *)
      exists gs. apply same_Trans; cbn [sy_m set_m ts_taken]; auto; try (rewrite Hm; reflexivity).
      * left. split; [reflexivity|]. split; [cbn; rewrite Hm; exact Hop|reflexivity].
      * right. rewrite Hm. reflexivity.
    + (* global control *)
      pose proof (gc_wire c _ _ _ (co_limits _ Hc) (co_own _ Hc) Hsd) as Hdec.
      exists gs. apply same_Trans; cbn [sy_m set_m ts_taken]; auto; try (rewrite Hm; reflexivity).
      * right; left. split; [|reflexivity]. eexists; eexists. eapply view_tx_sdn; [exact Hdec|reflexivity].
      * right. rewrite Hm. reflexivity.
    + destruct (loop_Trans s gs now hp m1 o log (observe (set_m s (set_events m1 events_default))) HB Hrel) as (gs' & HB' & HT).
      exists gs'. split; [exact HB'|]. split; [exact HT|]. apply (ScLoop _ _ _ _ now hp m1 o log); auto.
  - (* receive_reply *)
    destruct (step_rx c s now addr wire s' t I Hauto Hstep Hbad) as (tg & m1 & Hdec & Hrx & -> & ->).
    assert (Hv : forall tk obs op, view_of (mkStep (InRx now addr wire) false OutUnit tk obs op) = VReply addr tg)
      by (intros; eapply view_rx; exact Hdec).
    rewrite Hv in Hview. destruct Hview as (-> & _). rewrite Hv. cbn [pend_next_v].
    pose proof Hrx as Hrx0. rewrite <- dp_receive_reply_erase in Hrx.
    destruct (dp_receive_reply_g (sy_m s) addr tg) as [[m1' log]| |] eqn:Hg; cbn [drop_log] in Hrx; try discriminate Hrx.
    inversion Hrx; subst m1'. clear Hrx.
    destruct (rx_ghost _ _ _ _ _ _ _ _ (co_retry _ Hc) G Hg) as
      (i & p & p1 & ev & cc & _ & _ & Hsl & Ha & _ & Hp & Hsl' & Hoth & Hmk & Hev & _ & _ & Hout & G' & _).
    exists (gupd gs i (gstep (gs i) (WReply tg ev))). split; [|split; [|apply (ScReply _ _ _ _ now addr wire tg m1); auto]].
    + split.
      * apply (sinv_upd s _ i p p1); auto. eapply receive_shape; exact Hp.
      * apply (ginv_frame _ m1); [reflexivity|reflexivity|exact G'].
    + subst addr. apply (TSlot _ _ _ _ _ _ i p p1); cbn [sy_m set_m sy_handles]; auto.
      * apply (others_quiet_upd _ _ _ _ _ p p1); auto. intros j Hne. apply gupd_other. exact Hne.
      * apply (SReply _ _ _ _ _ _ _ _ _ _ tg ev now wire); auto; [|apply gupd_same].
        unfold step_event. cbn [ts_taken]. rewrite Hev. cbn [ev_peripheral]. destruct ev; reflexivity.
  - (* handle_timeout *)
    destruct (step_to c s now addr s' t I Hauto Hstep) as (-> & ->).
    cbn [view_of ts_in ts_out] in Hview. subst pend. apply timeout_Trans; cbn; auto.
  - (* the FDL gives the request up *)
    destruct (step_env s InAbandon s' t eq_refl Hstep) as (Hcf & Hm & Hh & o & -> & _).
    cbn [view_of ts_in] in Hview. destruct pend as [a|]; [|now elim Hview].
    apply timeout_Trans; cbn; auto.
  - (* request_diagnostics *)
    destruct (step_user s _ k s' t Hstep Hbad (or_introl eq_refl)) as (h & p & p' & Hh & Hsl & Hsc & -> & -> & Hin).
    exists gs. apply (user_Trans s gs pend k h p p'); auto.
  - (* pi_q write *)
    destruct (step_user s _ k s' t Hstep Hbad (or_intror (ex_intro _ q eq_refl))) as (h & p & p' & Hh & Hsl & Hsc & -> & -> & Hin).
    exists gs. apply (user_Trans s gs pend k h p p'); auto.
  - (* enter_state *)
    destruct (step_enter s st s' t Hstep) as (-> & o & Ho & ->).
    exists gs. apply same_Trans; cbn [sy_m set_m ts_taken]; auto. exact (si_events _ _ I).
  - (* take_last_events *)
    destruct (step_take c s s' t I Hstep) as (-> & ->).
    exists gs. apply same_Trans; cbn [ts_taken]; auto. exact (si_events _ _ I).
  - (* add *)
    destruct (step_add s k s' t Hstep Hbad) as (pc & m1 & h & Hpc & Hdadd & -> & ->).
    cbn [ts_in] in Hadd. destruct Hadd as (Hnone & ->). exact (add_Trans s gs k pc m1 h HB Hpc Hdadd Hnone).
  - (* reset_address: handled separately *)
    discriminate Hnreset.
Qed.

End Step.

Lemma alist_set_spec : forall A (d : A) l k v,
  (forall k0, k0 <> k -> alist_get d (alist_set l k v) k0 = alist_get d l k0) /\ alist_get d (alist_set l k v) k = v.
Proof. intros. split; [intros k0 H; apply alist_get_set_other; exact H|apply alist_get_set_same]. Qed.

Lemma c08_slot : forall pa op hs pend t i q g q' g' per pendg n,
  1 <= p_max_retry pa ->
  SlotEv pa op hs pend t i q g q' g' -> Inv pa (pe_addr q) (pe_opts q) q g ->
  R8 q g (alist_get c08_init per (pe_addr q)) ->
  match pend with
  | None => pendg = None
  | Some da => da = pe_addr q -> exists h, gh_last g = Some h /\ pendg = Some (da, classify h)
  end ->
  exists per',
    c08_step (Z.to_nat (p_max_retry pa)) (mkC08g per pendg) n t = inl (mkC08g per' (pending_after pendg (view_of t))) /\
    (forall a, a <> pe_addr q -> alist_get c08_init per' a = alist_get c08_init per a) /\
    R8 q' g' (alist_get c08_init per' (pe_addr q)).
Proof.
  intros pa op hs pend t i q g q' g' per pendg n Hmax HS I HR Hpl. rewrite c08_step_eq.
  destruct HS as [h pdu q1 g1 -> Hv Hev _ Hda HQ I1 Hp -> Hreq|q1 g1 -> Hv Hev _ HQ I1 Hp -> Hok
                 |tg ev now w -> Hv Hev _ Hp -> Hout| -> Hv Hev _ -> -> |k Hv Hev Hsc -> _ _]; rewrite Hev.
  - subst pendg. rewrite Hv, <- Hda in *.
    destruct (c08_req_ok _ _ _ _ _ _ _ _ _ _ per None I1 (R8_quiet _ _ _ _ _ HQ HR) Hreq Hp eq_refl) as (st' & -> & HR').
    exists (alist_set per (h_da h) st'). split; [reflexivity|]. destruct (alist_set_spec _ c08_init per (h_da h) st') as [H1 ->]. auto.
  - subst pendg. rewrite Hv. cbn [c08_r1].
    destruct (c08_off_ok _ _ _ _ _ _ _ _ per None (pe_addr q) Hmax I1 (R8_quiet _ _ _ _ _ HQ HR) Hok Hp eq_refl) as (st' & -> & HR').
    exists (alist_set per (pe_addr q) st'). split; [reflexivity|]. destruct (alist_set_spec _ c08_init per (pe_addr q) st') as [H1 ->]. auto.
  - destruct (Hpl eq_refl) as (h & Hl & ->). rewrite Hv.
    assert (Hacc : gh_acc g = false).
    { destruct (inv_pending _ _ _ _ _ I (inv_out _ _ _ _ _ I Hout)) as (h' & _ & Hx). exact Hx. }
    destruct (c08_reply_ok _ _ _ _ _ _ _ _ _ _ per (pe_addr q) (pe_addr q) (Z.to_nat (p_max_retry pa)) I HR Hl Hacc Hp eq_refl)
      as (per' & st' & -> & <- & Hoth & HR').
    exists per'. auto.
  - exists per. split; [destruct Hv as [-> | ->]; reflexivity|]. auto.
  - rewrite Hv. exists per. split; [reflexivity|]. split; [reflexivity|]. eapply R8_same_ctrl; eassumption.
Qed.

Section C08.
Variable c : conf.
Hypothesis Hc : conf_ok c.

Definition Rel8 (s : sys) (gs : gmap) (pend : option Z) (g : c08g) : Prop :=
  Base c s gs pend /\ per_ok c08st c08_init R8 (sy_m s) gs (g8_per g) /\ pend_link (sy_m s) gs pend (g8_pending g).

Lemma c08_sound_step : forall s gs pend g i t s' n,
  Rel8 s gs pend g -> model_step s i = Ok (s', t) ->
  head_ok (p_address (cf_params c)) (sy_handles s) pend t -> is_reset_in i = false ->
  exists gs' g', c08_step (Z.to_nat (p_max_retry (cf_params c))) g n t = inl g' /\
                 Rel8 s' gs' (pend_next_v pend (view_of t)) g' /\ sy_handles s' = hs_next (sy_handles s) t.
Proof.
  intros s gs pend g i t s' n (HB & Hper & Hpl) Hstep Hhead Hnri.
  destruct (model_trans c Hc s gs pend i t s' HB Hstep Hhead Hnri) as (gs' & HB' & HT & _).
  pose proof HB as [I G]. pose proof HB' as [I' _].
  pose proof (sinv_addr_inj c s Hc I) as Hinj.
  pose proof (pend_link_Trans c _ _ _ _ _ _ _ (sinv_addr_inj c s' Hc I') HT Hpl) as Hpl'.
  exists gs'. destruct g as [per pendg]. cbn [g8_per g8_pending] in *.
  assert (H : exists per',
            c08_step (Z.to_nat (p_max_retry (cf_params c))) (mkC08g per pendg) n t =
              inl (mkC08g per' (pending_after pendg (view_of t))) /\
            per_ok c08st c08_init R8 (sy_m s') gs' per').
  { destruct HT as [Hv Hev _ _ HQ|j q q' Hq Hq' Hoq _ HS|k j pc _ _ Hv Hev _ _ _ _ Hfree Hnew Hoth -> Hfresh].
    - exists per. split; [|apply (per_ok_quiet _ _ _ R8_quiet _ _ _ _ _ Hper HQ)].
      rewrite c08_step_eq, Hev. destruct Hv as [(-> & _)|[((h & pdu & ->) & _)| ->]]; reflexivity.
    - destruct (c08_slot _ _ _ _ _ _ _ _ _ _ per pendg n (co_retry _ Hc) HS (gi_inv _ _ _ _ G _ _ Hq) (proj1 Hper _ _ Hq)
                  (pend_link_at _ _ _ _ _ _ Hpl Hq)) as (per' & E & Hoth & HR').
      exists per'. split; [exact E|].
      apply (per_ok_upd _ _ _ R8_quiet _ _ _ _ _ j q q' per' Hper Hinj Hq Hq' (slotev_addr _ _ _ _ _ _ _ _ _ _ HS) Hoq Hoth HR').
    - exists per. split; [rewrite c08_step_eq, Hev, Hv; reflexivity|].
      apply (per_ok_add _ _ _ _ _ _ _ _ (periph_of_conf pc) Hper Hfree Hnew Hoth Hfresh). apply R8_init. }
  destruct H as (per' & E & Hper'). eexists. split; [exact E|]. split; [|exact (trans_handles c _ _ _ _ _ _ HT)].
  split; [exact HB'|]. split; assumption.
Qed.

End C08.

(* c03_step in two parts: the wire, then the events handed out after the step (c03_step_eq) *)

Definition c03_r1 (c : conf) (g : c03g) (v : view) : c03g + Z :=
  let pa := cf_params c in
    match v with
    | VReq da sv h pdu =>
        match pconf_of_addr c da with
        | None => inr 306
        | Some (_, pc) =>
            if negb (h_sa h =? p_address pa) then inr 307 else
            let ph := alist_get PhNeedDiag (g3_per g) da in
            let g' := mkC03g (g3_per g) (Some (da, sv)) in
            match sv with
            | SvDx =>
                if negb (is_req h RqSrdHigh) then inr 307 else
                if phase_eqb ph PhReady then inl g' else inr 301
            | SvPrm =>
                if negb (is_req h RqSrdLow) then inr 307 else
                match o_user_prm (pc_opts pc) with
                | Some user => if bytes_eqb pdu (std_set_prm pa (pc_opts pc) user) then inl g' else inr 303
                | None => inr 303
                end
            | SvCfg =>
                if negb (is_req h RqSrdLow) then inr 307 else
                match o_config (pc_opts pc) with
                | Some cfg => if bytes_eqb pdu cfg then inl g' else inr 304
                | None => inr 304
                end
            | SvDiag =>
                if negb (is_req h RqSrdLow) then inr 307 else
                if bytes_eqb pdu [] then inl g' else inr 305
            | _ => inr 302
            end
        end
    | VReply a t =>
        match g3_pending g with
        | Some (da, sv) =>
            let ph := alist_get PhNeedDiag (g3_per g) da in
            let ph' :=
              if reply_accepted sv t then
                match sv, t with
                | SvDiag, TData _ pdu =>
                    let f := diag_flags pdu in
                    if has_flag f 256 then PhDiagAnswered
                    else match ph with
                         | PhNeedDiag => PhDiagAnswered
                         | PhCfgAcked =>
                             if has_flag f 64 || has_flag f 4 || has_flag f 2 then PhCfgAcked else PhReady
                         | _ => ph
                         end
                | SvPrm, _ => if phase_eqb ph PhDiagAnswered then PhPrmAcked else ph
                | SvCfg, _ => if phase_eqb ph PhPrmAcked then PhCfgAcked else ph
                | _, _ => ph
                end
              else ph in
            inl (mkC03g (alist_set (g3_per g) da ph') None)
        | None => inl g
        end
    | VTimeout _ | VAbandon => inl (mkC03g (g3_per g) None)
    | _ => inl g
    end.

Definition c03_ev (g1 : c03g) (e : option (Z * pevent)) : c03g + Z :=
      match e with
      | Some (a, EvOffline) | Some (a, EvParameterError) | Some (a, EvConfigError) =>
          inl (mkC03g (alist_set (g3_per g1) a PhNeedDiag) (g3_pending g1))
      | _ => inl g1
      end.

Lemma c03_step_eq : forall c g n s,
  c03_step c g n s = match c03_r1 c g (view_of s) with inr cd => inr cd | inl g1 => c03_ev g1 (step_event s) end.
Proof. reflexivity. Qed.

(* the oracle's phase is the text monitor of the ghost *)

Definition R3 (p : periph) (g : ghost) (ph : phase) : Prop := ph = gh_text g.

Lemma is_req_refl : forall h f r, h_fc h = FcRequest f r -> is_req h r = true.
Proof. intros h f r H. unfold is_req. rewrite H. apply Z.eqb_refl. Qed.

Lemma c03_req_ok : forall c pa k pc a o g1 h pdu per pendg,
  pa = cf_params c -> pconf_of_addr c (h_da h) = Some (k, pc) -> o = pc_opts pc ->
  req_ok pa a o g1 h pdu -> alist_get PhNeedDiag per (h_da h) = gh_text g1 ->
  c03_r1 c (mkC03g per pendg) (VReq (h_da h) (classify h) h pdu) = inl (mkC03g per (Some (h_da h, classify h))).
Proof.
  intros c pa k pc a o g1 h pdu per pendg -> Hpc -> (f & Hstd & _ & _ & _ & _ & _ & _ & Hdx) Hget.
  destruct (std_request_classify _ _ _ _ _ _ _ Hstd) as (_ & _ & Hsa & Hfc).
  unfold c03_r1. rewrite Hpc. cbn [g3_per g3_pending]. rewrite Hsa, Z.eqb_refl. cbn [negb].
  destruct (classify h) eqn:Esv; cbn in Hstd; try contradiction; cbn [sv_req] in Hfc;
    rewrite (is_req_refl _ _ _ Hfc); cbn [negb].
  - destruct Hstd as (_ & ->). reflexivity.
  - destruct Hstd as (u & Hu & _ & ->). rewrite Hu, bytes_eqb_refl. reflexivity.
  - destruct Hstd as (u & Hu & _ & ->). rewrite Hu, bytes_eqb_refl. reflexivity.
  - rewrite Hget, (Hdx eq_refl). reflexivity.
Qed.

Lemma c03_reply_ok : forall c g t ev h per da x,
  gh_last g = Some h -> alist_get PhNeedDiag per da = gh_text g ->
  exists per',
    match c03_r1 c (mkC03g per (Some (da, classify h))) (VReply x t) with
    | inr cd => inr cd
    | inl g1 => c03_ev g1 (option_map (fun e => (da, e)) ev)
    end = inl (mkC03g per' None) /\
    alist_get PhNeedDiag per' da = gh_text (gstep g (WReply t ev)) /\
    (forall a0, a0 <> da -> alist_get PhNeedDiag per' a0 = alist_get PhNeedDiag per a0).
Proof.
  intros c g t ev h per da x Hl Hget. unfold c03_r1. cbn [g3_per g3_pending]. rewrite Hget.
  set (ph' := if reply_accepted (classify h) t then
                match classify h, t with
                | SvDiag, TData _ pdu =>
                    let f := diag_flags pdu in
                    if has_flag f 256 then PhDiagAnswered
                    else match gh_text g with
                         | PhNeedDiag => PhDiagAnswered
                         | PhCfgAcked => if has_flag f 64 || has_flag f 4 || has_flag f 2 then PhCfgAcked else PhReady
                         | _ => gh_text g
                         end
                | SvPrm, _ => if phase_eqb (gh_text g) PhDiagAnswered then PhPrmAcked else gh_text g
                | SvCfg, _ => if phase_eqb (gh_text g) PhPrmAcked then PhCfgAcked else gh_text g
                | _, _ => gh_text g
                end
              else gh_text g).
  assert (Hph : ph' = if reply_accepted (classify h) t then text_phase (gh_text g) (classify h) t else gh_text g) by reflexivity.
  assert (Hg : gh_text (gstep g (WReply t ev)) = if offline_event ev then PhNeedDiag else ph').
  { cbn [gstep]. rewrite Hl, Hph. destruct (reply_accepted (classify h) t); reflexivity. }
  rewrite Hg.
  destruct ev as [e|]; cbn [option_map c03_ev g3_per g3_pending offline_event].
  - destruct e; cbn [offline_event];
      try (exists (alist_set per da ph'); split; [reflexivity|]; split; [apply alist_get_set_same|];
           intros a0 Ha0; apply alist_get_set_other; exact Ha0);
      (eexists; split; [reflexivity|]; split; [apply alist_get_set_same|];
       intros a0 Ha0; rewrite !alist_get_set_other by exact Ha0; reflexivity).
  - exists (alist_set per da ph'). split; [reflexivity|]. split; [apply alist_get_set_same|].
    intros a0 Ha0. apply alist_get_set_other. exact Ha0.
Qed.

Lemma R3_quiet : forall q g q' g' x, Quiet q g q' g' -> R3 q g x -> R3 q' g' x.
Proof. intros q g q' g' x HQ H. unfold R3 in *. rewrite (qu_text _ _ _ _ HQ). exact H. Qed.

Lemma c03_slot : forall c k pc op hs pend t i q g q' g' per pendg n,
  SlotEv (cf_params c) op hs pend t i q g q' g' ->
  pconf_of_addr c (pe_addr q) = Some (k, pc) -> pe_opts q = pc_opts pc ->
  R3 q g (alist_get PhNeedDiag per (pe_addr q)) ->
  match pend with
  | None => pendg = None
  | Some da => da = pe_addr q -> exists h, gh_last g = Some h /\ pendg = Some (da, classify h)
  end ->
  exists per',
    c03_step c (mkC03g per pendg) n t = inl (mkC03g per' (pending_after pendg (view_of t))) /\
    (forall a, a <> pe_addr q -> alist_get PhNeedDiag per' a = alist_get PhNeedDiag per a) /\
    R3 q' g' (alist_get PhNeedDiag per' (pe_addr q)).
Proof.
  intros c k pc op hs pend t i q g q' g' per pendg n HS Hpc Ho HR Hpl. rewrite c03_step_eq. unfold R3 in *.
  destruct HS as [h pdu q1 g1 -> Hv Hev _ Hda HQ I1 Hp -> Hreq|q1 g1 -> Hv Hev _ HQ I1 Hp -> Hok
                 |tg ev now w -> Hv Hev _ Hp -> Hout| -> Hv Hev _ -> -> |k0 Hv Hev Hsc -> _ _]; rewrite Hev.
  - subst pendg. rewrite Hv, <- Hda in *. rewrite <- (qu_text _ _ _ _ HQ) in HR.
    rewrite (c03_req_ok c _ k pc _ _ g1 h pdu per None eq_refl Hpc Ho Hreq HR).
    exists per. split; [reflexivity|]. split; [reflexivity|exact HR].
  - subst pendg. rewrite Hv. exists (alist_set per (pe_addr q) PhNeedDiag). split; [reflexivity|].
    destruct (alist_set_spec _ PhNeedDiag per (pe_addr q) PhNeedDiag) as [H1 ->]. auto.
  - destruct (Hpl eq_refl) as (h & Hl & ->). rewrite Hv.
    destruct (c03_reply_ok c g tg ev h per (pe_addr q) (pe_addr q) Hl HR) as (per' & -> & Hget & Hoth).
    exists per'. auto.
  - exists per. split; [destruct Hv as [-> | ->]; reflexivity|]. auto.
  - rewrite Hv. exists per. auto.
Qed.

Section C03.
Variable c : conf.
Hypothesis Hc : conf_ok c.

Definition Rel3 (s : sys) (gs : gmap) (pend : option Z) (g : c03g) : Prop :=
  Base c s gs pend /\ per_ok phase PhNeedDiag R3 (sy_m s) gs (g3_per g) /\ pend_link (sy_m s) gs pend (g3_pending g).

Lemma c03_sound_step : forall s gs pend g i t s' n,
  Rel3 s gs pend g -> model_step s i = Ok (s', t) ->
  head_ok (p_address (cf_params c)) (sy_handles s) pend t -> is_reset_in i = false ->
  exists gs' g', c03_step c g n t = inl g' /\
                 Rel3 s' gs' (pend_next_v pend (view_of t)) g' /\ sy_handles s' = hs_next (sy_handles s) t.
Proof.
  intros s gs pend g i t s' n (HB & Hper & Hpl) Hstep Hhead Hnri.
  destruct (model_trans c Hc s gs pend i t s' HB Hstep Hhead Hnri) as (gs' & HB' & HT & _).
  pose proof HB as [I G]. pose proof HB' as [I' _].
  pose proof (sinv_addr_inj c s Hc I) as Hinj.
  pose proof (pend_link_Trans c _ _ _ _ _ _ _ (sinv_addr_inj c s' Hc I') HT Hpl) as Hpl'.
  exists gs'. destruct g as [per pendg]. cbn [g3_per g3_pending] in *.
  assert (H : exists per',
            c03_step c (mkC03g per pendg) n t = inl (mkC03g per' (pending_after pendg (view_of t))) /\
            per_ok phase PhNeedDiag R3 (sy_m s') gs' per').
  { destruct HT as [Hv Hev _ _ HQ|j q q' Hq Hq' Hoq _ HS|k j pc _ _ Hv Hev _ _ _ _ Hfree Hnew Hoth -> Hfresh].
    - exists per. split; [|apply (per_ok_quiet _ _ _ R3_quiet _ _ _ _ _ Hper HQ)].
      rewrite c03_step_eq, Hev. destruct Hv as [(-> & _)|[((h & pdu & ->) & _)| ->]]; reflexivity.
    - destruct (slot_pconf c Hc s j q I Hq) as (k & pc & _ & Hpca & _ & (_ & F2 & _) & _).
      destruct (c03_slot c k pc _ _ _ _ _ _ _ _ _ per pendg n HS Hpca F2 (proj1 Hper _ _ Hq)
                  (pend_link_at _ _ _ _ _ _ Hpl Hq)) as (per' & E & Hoth & HR').
      exists per'. split; [exact E|].
      apply (per_ok_upd _ _ _ R3_quiet _ _ _ _ _ j q q' per' Hper Hinj Hq Hq' (slotev_addr _ _ _ _ _ _ _ _ _ _ HS) Hoq Hoth HR').
    - exists per. split; [rewrite c03_step_eq, Hev, Hv; reflexivity|].
      apply (per_ok_add _ _ _ _ _ _ _ _ (periph_of_conf pc) Hper Hfree Hnew Hoth Hfresh). reflexivity. }
  destruct H as (per' & E & Hper'). eexists. split; [exact E|]. split; [|exact (trans_handles c _ _ _ _ _ _ HT)].
  split; [exact HB'|]. split; assumption.
Qed.

End C03.

(* c04_step with its local definitions named (c04_step_eq) *)

Definition c04_upd (c : conf) (v : view) (pending : option (Z * service)) : option (nat * bytes) :=
    match v, pending with
    | VReply a t, Some (da, SvDx) =>
        match pconf_of_addr c da with
        | Some (k, pc) => match dx_reply_payload (pc_in pc) t with Some d => Some (k, d) | None => None end
        | None => None
        end
    | _, _ => None
    end.

Definition c04_sc (c : conf) (v : view) (pending : option (Z * service)) : option nat :=
    match v, pending with
    | VReply a TShortConf, Some (da, SvDx) =>
        match pconf_of_addr c da with
        | Some (k, pc) => if Nat.eqb (pc_in pc) 0 then Some k else None
        | None => None
        end
    | _, _ => None
    end.

Definition img_chk (upd : option (nat * bytes)) (inp : tr_in) (k : nat) (ob oa : option pobs) : option Z :=
             if obs_present ob && obs_present oa then
               let ri :=
                 match upd with
                 | Some (k', d) =>
                     if Nat.eqb k k' then (if bytes_eqb (obs_pi_i oa) d then None else Some 403)
                     else (if bytes_eqb (obs_pi_i ob) (obs_pi_i oa) then None else Some 407)
                 | None => if bytes_eqb (obs_pi_i ob) (obs_pi_i oa) then None else Some 402
                 end in
               match ri with
               | Some code => Some code
               | None =>
                   match inp with
                   | InWriteQ k' q =>
                       if Nat.eqb k k' then (if bytes_eqb (obs_pi_q oa) q then None else Some 404)
                       else (if bytes_eqb (obs_pi_q ob) (obs_pi_q oa) then None else Some 404)
                   | _ => if bytes_eqb (obs_pi_q ob) (obs_pi_q oa) then None else Some 404
                   end
               end
             else None.

Definition chk_go (upd : option (nat * bytes)) (inp : tr_in) : nat -> list (option pobs) -> list (option pobs) -> option Z :=
    (fix go (k : nat) (b a : list (option pobs)) : option Z :=
       match b, a with
       | ob :: b', oa :: a' =>
           match img_chk upd inp k ob oa with Some code => Some code | None => go (S k) b' a' end
       | _, _ => None
       end).

Lemma chk_go_cons : forall upd inp k ob b oa a,
  chk_go upd inp k (ob :: b) (oa :: a) =
  match img_chk upd inp k ob oa with Some code => Some code | None => chk_go upd inp (S k) b a end.
Proof. reflexivity. Qed.

Definition c04_req (c : conf) (g : c04g) (v : view) : option Z :=
          match v with
          | VReq da SvDx _ pdu =>
              match pconf_of_addr c da with
              | Some (k, pc) =>
                  let q := obs_pi_q (nth k (g4_obs g) None) in
                  let want := match g4_op g with
                              | OpOperate => q
                              | _ => repeat 0 (length q)
                              end in
                  if bytes_eqb pdu want then None else Some 401
              | None => None
              end
          | _ => None
          end.

Definition c04_evok (c : conf) (s : tstep) (expect_ev : option nat) : bool :=
            let got_ev : option Z :=
              match step_event s with Some (a, EvDataExchanged) => Some a | _ => None end in
              match ts_taken s with
              | None => true
              | Some _ =>
                  match expect_ev, got_ev with
                  | None, None => true
                  | Some k, Some a =>
                      match nth_error (cf_periphs c) k with Some pc => pc_addr pc =? a | None => false end
                  | _, _ => false
                  end
              end.

Definition c04_pending' (g : c04g) (v : view) : option (Z * service) :=
              match v with
              | VReq da sv _ _ => Some (da, sv)
              | VReply _ _ | VTimeout _ | VAbandon => None
              | _ => g4_pending g
              end.

Lemma c04_step_eq : forall c g i s,
  c04_step c g i s =
  let v := view_of s in
  let upd := c04_upd c v (g4_pending g) in
  match v with
  | VCrash => match ts_in s with InRx _ _ _ => inr 406 | _ => inl g end
  | _ =>
    match chk_go upd (ts_in s) 0%nat (g4_obs g) (ts_obs s) with
    | Some code => inr code
    | None =>
        match c04_req c g v with
        | Some code => inr code
        | None =>
            if negb (c04_evok c s (match upd with Some (k, _) => Some k | None => c04_sc c v (g4_pending g) end))
            then inr 405
            else inl (mkC04g (ts_obs s) (ts_op s) (c04_pending' g v))
        end
    end
  end.
Proof. reflexivity. Qed.

Lemma chk_go_none : forall upd inp b a k,
  (forall n ob oa, nth_error b n = Some ob -> nth_error a n = Some oa -> img_chk upd inp (k + n) ob oa = None) ->
  chk_go upd inp k b a = None.
Proof.
  intros upd inp. induction b as [|ob b IH]; intros a k H; [reflexivity|].
  destruct a as [|oa a]; [reflexivity|]. rewrite chk_go_cons.
  pose proof (H 0%nat ob oa eq_refl eq_refl) as H0. rewrite Nat.add_0_r in H0. rewrite H0.
  apply IH. intros n ob' oa' Hb Ha. replace (S k + n)%nat with (k + S n)%nat by lia. apply (H (S n)); assumption.
Qed.

Lemma img_chk_none : forall upd inp k (p p' : periph),
  match upd with
  | Some (k', d) => if Nat.eqb k k' then pe_pi_i p' = d else pe_pi_i p' = pe_pi_i p
  | None => pe_pi_i p' = pe_pi_i p
  end ->
  match inp with
  | InWriteQ k' q => if Nat.eqb k k' then pe_pi_q p' = q else pe_pi_q p' = pe_pi_q p
  | _ => pe_pi_q p' = pe_pi_q p
  end ->
  img_chk upd inp k (Some (observe_periph p)) (Some (observe_periph p')) = None.
Proof.
  intros upd inp k p p' Hi Hq. unfold img_chk. cbn [obs_present andb obs_pi_i obs_pi_q observe_periph ob_pi_i ob_pi_q].
  assert (E1 : match upd with
               | Some (k', d) =>
                   if Nat.eqb k k' then (if bytes_eqb (pe_pi_i p') d then None else Some 403)
                   else (if bytes_eqb (pe_pi_i p) (pe_pi_i p') then None else Some 407)
               | None => if bytes_eqb (pe_pi_i p) (pe_pi_i p') then None else Some 402
               end = @None Z).
  { destruct upd as [[k' d]|]; [destruct (Nat.eqb k k')|]; rewrite Hi, bytes_eqb_refl; reflexivity. }
  rewrite E1.
  destruct inp; try (rewrite Hq, bytes_eqb_refl; reflexivity).
  destruct (Nat.eqb k k0); rewrite Hq, bytes_eqb_refl; reflexivity.
Qed.

Lemma img_chk_absent : forall upd inp k ob oa, ob = None \/ oa = None -> img_chk upd inp k ob oa = None.
Proof.
  intros upd inp k ob oa [-> | ->]; unfold img_chk; cbn [obs_present andb]; [reflexivity|].
  rewrite Bool.andb_false_r. reflexivity.
Qed.

Lemma classify_dx_sap : forall h, classify h = SvDx -> h_dsap h = None.
Proof.
  intros h H. unfold classify in H. destruct (h_dsap h) as [d|]; [|reflexivity].
  destruct (h_ssap h) as [x|]; [|discriminate H].
  destruct (x =? 62); [|discriminate H]. destruct (d =? 60); [discriminate H|]. destruct (d =? 61); [discriminate H|].
  destruct (d =? 62); [discriminate H|]. destruct (d =? 58); discriminate H.
Qed.

Lemma opstate_match : forall op (A : Type) (x y : A),
  match op with OpOperate => x | _ => y end = if opstate_eqb op OpOperate then x else y.
Proof. intros op A x y. destruct op; reflexivity. Qed.

Lemma model_step_obs : forall s i s' t, model_step s i = Ok (s', t) ->
  ts_obs t = observe s' /\ ts_op t = dm_op (sy_m s').
Proof.
  intros s i s' t H. unfold model_step in H. destruct (run_in s i) as [[s1 o]| |]; cbn [bind] in H; try discriminate H.
  inversion H; subst. split; reflexivity.
Qed.

Lemma slotev_images : forall pa op hs pend t i q g q' g', SlotEv pa op hs pend t i q g q' g' ->
  ((forall a tg, view_of t <> VReply a tg) -> pe_pi_i q' = pe_pi_i q) /\
  ((forall k x, ts_in t <> InWriteQ k x) -> pe_pi_q q' = pe_pi_q q).
Proof.
  intros pa op hs pend t i q g q' g'
    [h pdu q1 g1 _ _ _ _ _ HQ _ Hp _ _|q1 g1 _ _ _ _ HQ _ Hp _ _|tg ev now w _ Hv _ _ Hp _ _| _ _ _ _ -> _
    |k _ _ Hsc _ _ Hin].
  - destruct (transmit_keeps _ _ _ _ _ Hp) as (_ & -> & -> & _). split; intros _; apply HQ.
  - destruct (transmit_keeps _ _ _ _ _ Hp) as (_ & -> & -> & _). split; intros _; apply HQ.
  - split; [intro H; now elim (H _ _ Hv)|intros _; apply (reply_event_iff _ _ _ _ Hp)].
  - split; reflexivity.
  - split; [intros _; apply Hsc|]. intro H. destruct Hin as [(_ & Hx)|(x & Hin & _)]; [exact Hx|now elim (H _ _ Hin)].
Qed.

Section C04.
Variable c : conf.
Hypothesis Hc : conf_ok c.

Definition Rel4 (s : sys) (gs : gmap) (pend : option Z) (g : c04g) : Prop :=
  Base c s gs pend /\ g4_obs g = observe s /\ g4_op g = dm_op (sy_m s) /\ pend_link (sy_m s) gs pend (g4_pending g).

Lemma obs_position_gen : forall c2 s n ob, SInv c2 s -> nth_error (observe s) n = Some ob ->
  (ob = None) \/
  exists h p, nth_error (sy_handles s) n = Some (Some h) /\ slot (sy_m s) (hd_index h) = Some p /\ ob = Some (observe_periph p).
Proof.
  intros c2 s n ob I H. unfold observe in H. rewrite nth_error_map in H.
  destruct (nth_error (sy_handles s) n) as [[h|]|] eqn:Hn; cbn [option_map] in H; try discriminate H.
  - destruct (si_h _ _ I _ _ Hn) as (pc & p & Hpc & Hs & Hf). right. exists h, p.
    split; [reflexivity|]. split; [exact Hs|].
    unfold dp_get_mut in H. unfold slot in Hs. destruct (nth_error (dm_slots (sy_m s)) (hd_index h)) as [[q|]|]; try discriminate Hs.
    inversion Hs; subst q. inversion H; reflexivity.
  - left. inversion H; reflexivity.
Qed.

Lemma obs_position : forall s n ob, SInv c s -> nth_error (observe s) n = Some ob ->
  (ob = None) \/
  exists h p pc, nth_error (sy_handles s) n = Some (Some h) /\ slot (sy_m s) (hd_index h) = Some p /\
                 ob = Some (observe_periph p) /\ nth_error (cf_periphs c) n = Some pc /\ fits pc p.
Proof.
  intros s n ob I H. destruct (obs_position_gen c s n ob I H) as [E|(h & p & Hn & Hs & E)]; [left; exact E|right].
  destruct (si_h _ _ I _ _ Hn) as (pc & p0 & Hpc & Hs0 & Hf). rewrite Hs in Hs0. inversion Hs0; subst p0.
  exists h, p, pc. auto.
Qed.

Definition images_ok (upd : option (nat * bytes)) (inp : tr_in) (s s' : sys) : Prop :=
  forall n h p p', nth_error (sy_handles s) n = Some (Some h) -> nth_error (sy_handles s') n = Some (Some h) ->
    slot (sy_m s) (hd_index h) = Some p -> slot (sy_m s') (hd_index h) = Some p' ->
    match upd with
    | Some (k', d) => if Nat.eqb n k' then pe_pi_i p' = d else pe_pi_i p' = pe_pi_i p
    | None => pe_pi_i p' = pe_pi_i p
    end /\
    match inp with
    | InWriteQ k' q => if Nat.eqb n k' then pe_pi_q p' = q else pe_pi_q p' = pe_pi_q p
    | _ => pe_pi_q p' = pe_pi_q p
    end.

Lemma chk_images_ok : forall c2 upd inp s s',
  SInv c s -> SInv c2 s' ->
  (forall n h, nth_error (sy_handles s) n = Some (Some h) -> nth_error (sy_handles s') n = Some (Some h)) ->
  images_ok upd inp s s' ->
  chk_go upd inp 0%nat (observe s) (observe s') = None.
Proof.
  intros c2 upd inp s s' I I' Hh Himg. apply chk_go_none. intros n ob oa Hb Ha. cbn [Nat.add].
  destruct (obs_position s n ob I Hb) as [->|(h & p & pc & Hn & Hs & -> & _)]; [apply img_chk_absent; left; reflexivity|].
  destruct (obs_position_gen c2 s' n oa I' Ha) as [->|(h' & p' & Hn' & Hs' & ->)]; [apply img_chk_absent; right; reflexivity|].
  rewrite (Hh _ _ Hn) in Hn'. inversion Hn'; subst h'.
  destruct (Himg n h p p' Hn (Hh _ _ Hn) Hs Hs') as (H1 & H2). apply img_chk_none; assumption.
Qed.

Lemma images_same : forall inp s s',
  (forall j q q', slot (sy_m s) j = Some q -> slot (sy_m s') j = Some q' -> pe_pi_i q' = pe_pi_i q /\ pe_pi_q q' = pe_pi_q q) ->
  match inp with InWriteQ _ _ => False | _ => True end ->
  images_ok None inp s s'.
Proof.
  intros inp s s' H Hin n h p p' _ _ Hs Hs'. destruct (H _ _ _ Hs Hs') as (E1 & E2).
  split; [exact E1|]. destruct inp; try exact E2. contradiction.
Qed.

Lemma images_slot : forall upd inp s s' gs gs' i k hk q q',
  SInv c s -> nth_error (sy_handles s) k = Some (Some hk) -> hd_index hk = i ->
  slot (sy_m s) i = Some q -> slot (sy_m s') i = Some q' -> others_quiet (sy_m s) gs (sy_m s') gs' i ->
  match upd with Some (k', d) => k' = k /\ pe_pi_i q' = d | None => pe_pi_i q' = pe_pi_i q end ->
  match inp with InWriteQ k' x => k' = k /\ pe_pi_q q' = x | _ => pe_pi_q q' = pe_pi_q q end ->
  images_ok upd inp s s'.
Proof.
  intros upd inp s s' gs gs' i k hk q q' I Hk Ehk Hq Hq' Hoq Hu Hw n h p p' Hn _ Hp Hp'.
  destruct (Nat.eq_dec (hd_index h) i) as [E|Hne].
  - assert (n = k) by (apply (handle_index_unique c Hc s n k _ _ I Hn Hk); congruence). subst n.
    rewrite E, Hq in Hp. rewrite E, Hq' in Hp'. inversion Hp; inversion Hp'; subst p p'. split.
    + destruct upd as [[k0 d]|]; [destruct Hu as (-> & Hu); rewrite Nat.eqb_refl|]; exact Hu.
    + destruct inp; try exact Hw. destruct Hw as (-> & Hw). rewrite Nat.eqb_refl. exact Hw.
  - assert (Hnk : n <> k) by (intros ->; rewrite Hk in Hn; inversion Hn; subst h; contradiction).
    destruct (proj1 Hoq _ _ Hne Hp) as (p2 & Hp2 & HQ). rewrite Hp' in Hp2. inversion Hp2; subst p2. split.
    + destruct upd as [[k0 d]|]; [destruct Hu as (-> & _); destruct (Nat.eqb_spec n k); [contradiction|]|];
        apply (qu_pi_i _ _ _ _ HQ).
    + destruct inp; try apply (qu_pi_q _ _ _ _ HQ).
      destruct Hw as (-> & _). destruct (Nat.eqb_spec n k); [contradiction|]. apply (qu_pi_q _ _ _ _ HQ).
Qed.

Lemma state_service_dx : forall p, state_service p = SvDx <-> (in_dx p = true /\ pe_diag_in_flight p = false).
Proof.
  intro p. unfold state_service, in_dx. destruct (pe_state p), (pe_diag_in_flight p); split;
    try (intro H; discriminate H); try (intros [H1 H2]; discriminate); auto.
Qed.

Lemma c04_accept : forall (g : c04g) n t,
  view_of t <> VCrash ->
  chk_go (c04_upd c (view_of t) (g4_pending g)) (ts_in t) 0%nat (g4_obs g) (ts_obs t) = None ->
  c04_req c g (view_of t) = None ->
  c04_evok c t (match c04_upd c (view_of t) (g4_pending g) with
                | Some (k, _) => Some k
                | None => c04_sc c (view_of t) (g4_pending g)
                end) = true ->
  c04_step c g n t = inl (mkC04g (ts_obs t) (ts_op t) (c04_pending' g (view_of t))).
Proof.
  intros g n t Hv H1 H2 H3. rewrite c04_step_eq. cbv zeta. rewrite H1, H2, H3.
  destruct (view_of t); try reflexivity. now elim Hv.
Qed.

Lemma c04_upd_none : forall v pg, (forall a tg, v <> VReply a tg) -> c04_upd c v pg = None /\ c04_sc c v pg = None.
Proof. intros v pg H. destruct v; try (split; reflexivity). now elim (H addr t). Qed.

Lemma evok_none : forall t, match step_event t with Some (_, EvDataExchanged) => False | _ => True end ->
  c04_evok c t None = true.
Proof.
  intros t H. unfold c04_evok. destruct (ts_taken t); [|reflexivity].
  destruct (step_event t) as [[a e]|]; [|reflexivity]. destruct e; try reflexivity. contradiction.
Qed.

(* a reply for the Data_Exchange request of peripheral k updates its input image; no other reply changes an
   image; the DataExchanged event comes with exactly these replies, and with a short confirmation for a peripheral
   without inputs *)
Lemma c04_reply : forall pa q g tg q' ev h k pc,
  Inv pa (pe_addr q) (pe_opts q) q g -> gh_out g = true -> gh_last g = Some h ->
  p_receive_reply q tg = Ok (q', ev) ->
  pconf_of_addr c (pe_addr q) = Some (k, pc) -> nth_error (cf_periphs c) k = Some pc -> fits pc q ->
  let v := VReply (pe_addr q) tg in
  let pg := Some (pe_addr q, classify h) in
  match c04_upd c v pg with Some (k0, d) => k0 = k /\ pe_pi_i q' = d | None => pe_pi_i q' = pe_pi_i q end /\
  forall t, step_event t = option_map (fun e => (pe_addr q, e)) ev ->
    c04_evok c t (match c04_upd c v pg with Some (k0, _) => Some k0 | None => c04_sc c v pg end) = true.
Proof.
  intros pa q g tg q' ev h k pc Ij Hout Hl Hp Hpca Hpc (F1 & F2 & F3 & F4) v pg.
  assert (Hacc : gh_acc g = false).
  { destruct (inv_pending _ _ _ _ _ Ij (inv_out _ _ _ _ _ Ij Hout)) as (h' & _ & Hx). exact Hx. }
  destruct (inv_unacc _ _ _ _ _ Ij h Hl Hacc) as (Hsvp & _).
  destruct (reply_event_iff _ _ _ _ Hp) as (Hiff & Hpi & _).
  unfold v, pg, c04_upd, c04_sc. rewrite Hpca.
  assert (Hgot : forall b : bool, (ev = Some EvDataExchanged <-> b = true) ->
            forall t, step_event t = option_map (fun e => (pe_addr q, e)) ev ->
            c04_evok c t (if b then Some k else None) = true).
  { intros b Hb t Hev. unfold c04_evok. rewrite Hev. destruct (ts_taken t); [|reflexivity]. destruct b.
    - rewrite (proj2 Hb eq_refl). cbn [option_map]. rewrite Hpc. apply Z.eqb_eq. congruence.
    - destruct ev as [e|]; [|reflexivity]. destruct e; try reflexivity.
      assert (X : false = true) by (apply Hb; reflexivity). discriminate X. }
  (* only a Data_Exchange request is answered by a reply that dx_accepts *)
  assert (Hna : classify h <> SvDx -> dx_accepts q tg = false).
  { intro Hn. unfold dx_accepts. destruct (in_dx q && negb (pe_diag_in_flight q)) eqn:E; [|reflexivity].
    exfalso. apply andb_true_iff in E. destruct E as [E1 E2]. apply negb_true_iff in E2.
    apply Hn. rewrite Hsvp. apply state_service_dx. auto. }
  destruct (classify h) eqn:Esv.
  1,2,3,5,6: (rewrite Hna in Hpi, Hiff by discriminate; split; [exact Hpi|]; destruct tg; apply (Hgot false); rewrite Hiff; tauto).
  symmetry in Hsvp. apply state_service_dx in Hsvp. destruct Hsvp as (Hdx1 & Hdx2).
  assert (Hdxa : dx_accepts q tg = dx_payload_ok q tg) by (unfold dx_accepts; rewrite Hdx1, Hdx2; reflexivity).
  rewrite Hdxa in Hiff, Hpi. unfold dx_payload_ok, dx_new_pi_i in *. rewrite F3 in *.
  destruct (dx_reply_payload (pc_in pc) tg) as [d|] eqn:Epay.
  - split; [auto|]. apply (Hgot true). rewrite Hiff. tauto.
  - split; [destruct (is_sc tg && Nat.eqb (pc_in pc) 0); exact Hpi|].
    destruct tg as [hh pp| |]; cbn [is_sc andb] in *; try (apply (Hgot false); rewrite Hiff; tauto).
    destruct (Nat.eqb (pc_in pc) 0); [apply (Hgot true)|apply (Hgot false)]; rewrite Hiff; tauto.
Qed.

Lemma c04_sound_step : forall s gs pend g i t s' n,
  Rel4 s gs pend g -> model_step s i = Ok (s', t) ->
  head_ok (p_address (cf_params c)) (sy_handles s) pend t -> is_reset_in i = false ->
  exists gs' g', c04_step c g n t = inl g' /\
                 Rel4 s' gs' (pend_next_v pend (view_of t)) g' /\ sy_handles s' = hs_next (sy_handles s) t.
Proof.
  intros s gs pend g i t s' n (HB & Hobs & Hop & Hpl) Hstep Hhead Hnri.
  destruct (model_trans c Hc s gs pend i t s' HB Hstep Hhead Hnri) as (gs' & HB' & HT & _).
  destruct (model_step_obs _ _ _ _ Hstep) as (Hto & Htop).
  pose proof (model_view_not_crash _ _ _ _ Hstep (proj1 Hhead)) as Hvne.
  pose proof HB as [I G]. pose proof HB' as [I' _].
  exists gs', (mkC04g (ts_obs t) (ts_op t) (c04_pending' g (view_of t))).
  split; [|split; [|exact (trans_handles c _ _ _ _ _ _ HT)]].
  2:{ split; [exact HB'|]. split; [exact Hto|]. split; [exact Htop|].
      exact (pend_link_Trans c _ _ _ _ _ _ _ (sinv_addr_inj c s' Hc I') HT Hpl). }
  (* the three checks, the first one in terms of the images *)
  assert (Hacc : (forall n h, nth_error (sy_handles s) n = Some (Some h) -> nth_error (sy_handles s') n = Some (Some h)) ->
            images_ok (c04_upd c (view_of t) (g4_pending g)) (ts_in t) s s' -> c04_req c g (view_of t) = None ->
            c04_evok c t (match c04_upd c (view_of t) (g4_pending g) with
                          | Some (k, _) => Some k
                          | None => c04_sc c (view_of t) (g4_pending g)
                          end) = true ->
            c04_step c g n t = inl (mkC04g (ts_obs t) (ts_op t) (c04_pending' g (view_of t)))).
  { intros Hh Himg Hr He. apply c04_accept; auto. rewrite Hobs, Hto. apply (chk_images_ok c); auto. }
  (* a step that is not a reply and changes no image *)
  assert (Hplain : (forall a tg, view_of t <> VReply a tg) ->
            (forall n h, nth_error (sy_handles s) n = Some (Some h) -> nth_error (sy_handles s') n = Some (Some h)) ->
            images_ok None (ts_in t) s s' -> c04_req c g (view_of t) = None ->
            match step_event t with Some (_, EvDataExchanged) => False | _ => True end ->
            c04_step c g n t = inl (mkC04g (ts_obs t) (ts_op t) (c04_pending' g (view_of t)))).
  { intros Hnr Hh Himg Hr He. destruct (c04_upd_none (view_of t) (g4_pending g) Hnr) as (Eu & Es).
    apply Hacc; rewrite ?Eu, ?Es; auto. apply evok_none. exact He. }
  destruct HT as [Hv Hev Hin Hhh HQ|j q q' Hq Hq' Hoq Hhh HS|k j pc _ Hin Hv Hev _ Hnone _ Hhh Hfree _ Hoth _ _].
  - apply Hplain.
    + destruct Hv as [(-> & _)|[((h & pdu & ->) & _)| ->]]; discriminate.
    + rewrite Hhh. auto.
    + apply images_same; [|destruct (ts_in t); try exact Logic.I; contradiction].
      intros j q q' Hq Hq'. destruct (quiet_back _ _ _ _ HQ _ _ Hq') as (q0 & Hq0 & HQj).
      rewrite Hq in Hq0. inversion Hq0; subst q0. split; apply HQj.
    + destruct Hv as [(-> & _)|[((h & pdu & ->) & _)| ->]]; reflexivity.
    + rewrite Hev. exact Logic.I.
  - destruct (slot_pconf c Hc s j q I Hq) as (k & pc & hk & Hpca & Hpc & Hfit & Hk & Ehk).
    assert (Hh : forall n h, nth_error (sy_handles s) n = Some (Some h) -> nth_error (sy_handles s') n = Some (Some h))
      by (rewrite Hhh; auto).
    destruct (slotev_images _ _ _ _ _ _ _ _ _ _ HS) as (Hpi & Hpq).
    (* ... that touches slot j only *)
    assert (Hone : (forall a tg, view_of t <> VReply a tg) -> c04_req c g (view_of t) = None ->
              match ts_in t with InWriteQ k' x => k' = k /\ pe_pi_q q' = x | _ => pe_pi_q q' = pe_pi_q q end ->
              match step_event t with Some (_, EvDataExchanged) => False | _ => True end ->
              c04_step c g n t = inl (mkC04g (ts_obs t) (ts_op t) (c04_pending' g (view_of t)))).
    { intros Hnr Hr Hw He. apply Hplain; auto. apply (images_slot None _ s s' gs gs' j k hk q q'); auto. }
    destruct HS as [h pdu q1 g1 _ Hv Hev (now & hp & Hin) Hda HQ _ Hp _ _|q1 g1 _ Hv Hev (now & hp & Hin) _ _ _ _ _
                   |tg ev now w Hpn Hv Hev Hin Hp _ Hout| _ Hv Hev Hin _ _|k0 Hv Hev _ _ (h0 & Hk0 & Eh0) Hin].
    + apply Hone; rewrite ?Hv, ?Hev, ?Hin; try discriminate; try exact Logic.I.
      * unfold c04_req. destruct (classify h) eqn:Esv; try reflexivity.
        rewrite Hda, Hpca, Hobs, Hop. rewrite <- Ehk in Hq. rewrite (nth_error_nth _ _ None (observe_nth s k _ q Hk Hq)).
        cbn [obs_pi_q observe_periph ob_pi_q].
        destruct (dx_request_only_when_ready _ _ _ _ _ _ Hp (classify_dx_sap _ Esv)) as (_ & _ & _ & ->).
        rewrite (qu_pi_q _ _ _ _ HQ), opstate_match.
        destruct (opstate_eqb (dm_op (sy_m s)) OpOperate); rewrite bytes_eqb_refl; reflexivity.
      * apply Hpq. rewrite Hin. discriminate.
    + apply Hone; rewrite ?Hv, ?Hev, ?Hin; try discriminate; try exact Logic.I; try reflexivity.
      apply Hpq. rewrite Hin. discriminate.
    + pose proof (pend_link_at _ _ _ _ _ _ Hpl Hq) as Hat. rewrite Hpn in Hat. destruct (Hat eq_refl) as (h & Hl & Epg).
      destruct (c04_reply _ _ _ _ _ _ _ _ _ (gi_inv _ _ _ _ G _ _ Hq) Hout Hl Hp Hpca Hpc Hfit) as (Hu & Hevok).
      rewrite <- Epg in Hu, Hevok. apply Hacc; rewrite ?Hv; auto.
      apply (images_slot _ _ s s' gs gs' j k hk q q'); auto. rewrite Hin. apply Hpq. rewrite Hin. discriminate.
    + apply Hone; rewrite ?Hev; try exact Logic.I.
      * destruct Hv as [-> | ->]; discriminate.
      * destruct Hv as [-> | ->]; reflexivity.
      * destruct (ts_in t); try contradiction; apply Hpq; discriminate.
    + assert (k0 = k) by (apply (handle_index_unique c Hc s k0 k _ _ I Hk0 Hk); congruence). subst k0.
      apply Hone; rewrite ?Hv, ?Hev; try discriminate; try exact Logic.I; try reflexivity.
      destruct Hin as [(Hin & Hx)|(x & Hin & Hx)]; rewrite Hin; auto.
  - apply Hplain; rewrite ?Hv, ?Hev, ?Hin; try discriminate; try exact Logic.I; try reflexivity.
    + intros n0 h0 Hn0. rewrite Hhh. rewrite set_nth_other; [exact Hn0|]. intros ->. rewrite Hnone in Hn0. discriminate Hn0.
    + apply images_same; [|exact Logic.I]. intros j0 q0 q0' Hq0 Hq0'.
      destruct (Nat.eq_dec j0 j) as [->|Hne]; [rewrite Hfree in Hq0; discriminate Hq0|].
      rewrite Hoth in Hq0' by exact Hne. rewrite Hq0 in Hq0'. inversion Hq0'. auto.
Qed.

End C04.

Lemma occupied_from_in : forall l k j, In j (occupied_from l k) <->
  (k <= j)%nat /\ exists p, nth_error l (j - k) = Some (Some p).
Proof.
  induction l as [|x l IH]; intros k j; cbn [occupied_from].
  - split; [intros []|]. intros (_ & p & H). destruct (j - k)%nat; discriminate H.
  - destruct x as [q|]; cbn [In]; rewrite IH.
    + split.
      * intros [<-|(Hle & p & Hp)].
        -- split; [lia|]. exists q. rewrite Nat.sub_diag. reflexivity.
        -- split; [lia|]. exists p. replace (j - k)%nat with (S (j - S k)) by lia. exact Hp.
      * intros (Hle & p & Hp). destruct (Nat.eq_dec k j) as [->|Hne]; [left; reflexivity|right].
        split; [lia|]. exists p. replace (j - k)%nat with (S (j - S k)) in Hp by lia. exact Hp.
    + split.
      * intros (Hle & p & Hp). split; [lia|]. exists p. replace (j - k)%nat with (S (j - S k)) by lia. exact Hp.
      * intros (Hle & p & Hp). destruct (Nat.eq_dec k j) as [->|Hne].
        -- rewrite Nat.sub_diag in Hp. discriminate Hp.
        -- split; [lia|]. exists p. replace (j - k)%nat with (S (j - S k)) in Hp by lia. exact Hp.
Qed.

Lemma occupied_from_sorted : forall l k, StronglySorted lt (occupied_from l k).
Proof.
  induction l as [|x l IH]; intro k; cbn [occupied_from]; [constructor|].
  destruct x as [q|]; [|apply IH]. constructor; [apply IH|].
  apply Forall_forall. intros j Hj. apply occupied_from_in in Hj. lia.
Qed.

Lemma occupied_in_slot : forall m j, In j (occupied m) <-> exists p, slot m j = Some p.
Proof.
  intros m j. unfold occupied. rewrite occupied_from_in. rewrite Nat.sub_0_r. unfold slot. split.
  - intros (_ & p & Hp). exists p. rewrite Hp. reflexivity.
  - intros (p & Hp). split; [lia|]. exists p. destruct (nth_error (dm_slots m) j) as [[q|]|]; inversion Hp; reflexivity.
Qed.

Lemma pos_rem_sorted : forall m, StronglySorted lt (pos_rem m).
Proof. intro m. unfold pos_rem. destruct (dm_cycle m); apply occupied_from_sorted. Qed.

Lemma pos_rem_done : forall m i j p, slot m i = Some p -> ~ In i (pos_rem m) -> In j (pos_rem m) -> (i < j)%nat.
Proof.
  intros m i j p Hs Hn Hj. unfold pos_rem in *. destruct (dm_cycle m) as [k|].
  - apply occupied_from_in in Hj. destruct Hj as (Hle & _).
    destruct (Nat.lt_ge_cases i k) as [Hlt|Hge]; [lia|]. exfalso. apply Hn. apply occupied_from_in.
    split; [exact Hge|]. exists p. rewrite nth_error_skipn'. replace (k + (i - k))%nat with i by lia.
    unfold slot in Hs. destruct (nth_error (dm_slots m) i) as [[q|]|]; inversion Hs; reflexivity.
  - exfalso. apply Hn. apply occupied_in_slot. exists p. exact Hs.
Qed.

Lemma sorted_app : forall (a b : list nat), StronglySorted lt (a ++ b) ->
  StronglySorted lt b /\ (forall x y, In x a -> In y b -> (x < y)%nat) /\ (forall x, In x a -> ~ In x b).
Proof.
  induction a as [|h a IH]; intros b H; cbn [app] in H.
  - split; [exact H|]. split; intros x; intros; contradiction.
  - inversion H as [|? ? Hs Hf]; subst. destruct (IH _ Hs) as (H1 & H2 & H3).
    rewrite Forall_forall in Hf.
    split; [exact H1|]. split.
    + intros x y [<-|Hx] Hy; [apply Hf; apply in_or_app; right; exact Hy|apply H2; assumption].
    + intros x [<-|Hx] Hb; [|apply (H3 x Hx Hb)].
      assert (X : (h < h)%nat) by (apply Hf; apply in_or_app; right; exact Hb). lia.
Qed.

Lemma sorted_head_notin : forall (i : nat) r, StronglySorted lt (i :: r) -> ~ In i r /\ forall y, In y r -> (i < y)%nat.
Proof.
  intros i r H. inversion H as [|? ? Hs Hf]; subst. rewrite Forall_forall in Hf. split.
  - intro Hi. specialize (Hf _ Hi). lia.
  - exact Hf.
Qed.

Section Visit.
Variables (pa : params) (bufsize : nat).

(* vis = the slots whose turn ended in this call (all silently, except possibly one, which raised
   Offline); the slot that sent a request is the head of what remains *)
Definition visit_post (m m' : dpm) (o : txout) (vis rem' : list nat) : Prop :=
  pos_rem m = vis ++ rem' /\
  (forall j, In j vis -> exists q q' ev, slot m j = Some q /\ slot m' j = Some q' /\
      p_transmit pa (dm_op m) q = Ok (q', PtxSkip ev) /\
      (ev = None \/ (ev = Some EvOffline /\ ev_peripheral (dm_events m') = Some (mkHandle j (pe_addr q), EvOffline)))) /\
  (o <> None -> exists js r q q' h pdu, rem' = js :: r /\ slot m js = Some q /\ slot m' js = Some q' /\
      p_transmit pa (dm_op m) q = Ok (q', PtxSend h pdu) /\
      (forall j, ~ In j vis -> j <> js -> slot m' j = slot m j) /\
      (exists x, o = Some x /\ send_data bufsize h pdu = Ok x)) /\
  (o = None -> forall j, ~ In j vis -> slot m' j = slot m j) /\
  (ev_peripheral (dm_events m') = None -> forall j, In j vis -> exists q q', slot m j = Some q /\ slot m' j = Some q' /\
      p_transmit pa (dm_op m) q = Ok (q', PtxSkip None)) /\
  (vis = [] -> o = None -> dm_cycle m = CyCompleted \/ pos_rem m = []) /\
  (forall hd ev, ev_peripheral (dm_events m') = Some (hd, ev) -> In (hd_index hd) vis).

Lemma visit_end : forall m hd p p1 ev m' r,
  slot m (hd_index hd) = Some p -> hd_addr hd = pe_addr p -> p_transmit pa (dm_op m) p = Ok (p1, PtxSkip ev) ->
  pos_rem m = hd_index hd :: r ->
  (forall j, slot m' j = if Nat.eqb j (hd_index hd) then Some p1 else slot m j) ->
  ev_peripheral (dm_events m') = opt_pair hd ev ->
  visit_post m m' None [hd_index hd] r.
Proof.
  intros m hd p p1 ev m' r Hsl Hadr Hp Hr Hsl' Hev. unfold visit_post. split; [exact Hr|].
  assert (Hhd : slot m' (hd_index hd) = Some p1) by (rewrite Hsl', Nat.eqb_refl; reflexivity).
  split; [|split; [intro X; now elim X|split; [|split; [|split; [intro E; discriminate E|]]]]].
  - intros j [<-|[]]. exists p, p1, ev. split; [exact Hsl|]. split; [exact Hhd|]. split; [exact Hp|].
    destruct ev as [e|]; [right|left; reflexivity].
    pose proof (transmit_spec _ _ _ _ _ Hp) as Hts. cbn beta iota in Hts. destruct Hts as [-> _].
    split; [reflexivity|]. rewrite Hev. cbn. rewrite <- Hadr. destruct hd; reflexivity.
  - intros _ j Hj. rewrite Hsl'. destruct (Nat.eqb_spec j (hd_index hd)) as [->|_]; [exfalso; apply Hj; left; reflexivity|reflexivity].
  - intros Hnone j [<-|[]]. exists p, p1. split; [exact Hsl|]. split; [exact Hhd|].
    rewrite Hev in Hnone. destruct ev; [discriminate Hnone|exact Hp].
  - intros hd0 ev0 E. rewrite Hev in E. destruct ev; cbn in E; inversion E. left; reflexivity.
Qed.

Lemma tx_rel_visit : forall m m' o log,
  tx_rel pa bufsize m m' o log ->
  forall rem', turn_entries (pos_rem m) log = Some rem' -> exists vis, visit_post m m' o vis rem'.
Proof.
  intros m m' o log H. by_turns H; intros rem' Hte.
  - cbn in Hte. inversion Hte; subst rem'. exists []. unfold visit_post. cbn [app].
    split; [reflexivity|]. split; [intros j []|]. split; [intro X; now elim X|].
    split; [intros _ j _; reflexivity|]. split; [intros _ j []|]. split; [intros _ _; left; exact Hc|].
    intros hd ev E. discriminate E.
  - cbn in Hte. inversion Hte; subst rem'. exists []. unfold visit_post. cbn [app].
    split; [reflexivity|]. split; [intros j []|]. split; [intro X; now elim X|].
    split; [intros _ j _; reflexivity|]. split; [intros _ j []|]. split; [intros _ _; right; exact Hr|].
    intros hd ev E. discriminate E.
  - destruct Ht as (Hr & Hsl & Hadr & _).
    rewrite Hr in Hte. cbn [turn_entries turn_entry] in Hte. rewrite Nat.eqb_refl in Hte. inversion Hte; subst rem'.
    exists []. unfold visit_post. cbn [app]. split; [exact Hr|]. split; [intros j []|].
    assert (Hsl' : forall j, slot (set_events (put_cur m hd p1) (mkEvents false None)) j =
                     if Nat.eqb j (hd_index hd) then Some p1 else slot m j)
      by (intro j; apply (put_cur_slots _ _ _ _ _ Hsl)).
    split; [|split; [intro E; discriminate E|split; [intros _ j []|split; [intros _ E; discriminate E|intros hd0 ev0 E; discriminate E]]]].
    intros _. exists (hd_index hd), rest, p, p1, h, pdu. split; [reflexivity|]. split; [exact Hsl|].
    split; [rewrite Hsl', Nat.eqb_refl; reflexivity|]. split; [exact Hp|].
    split; [|exists o; split; [reflexivity|exact Hs]].
    intros j _ Hne. rewrite Hsl'. destruct (Nat.eqb_spec j (hd_index hd)); [contradiction|reflexivity].
  - destruct Ht as (Hr & Hsl & Hadr & _).
    rewrite Hr in Hte. cbn [turn_entries turn_entry] in Hte. rewrite Nat.eqb_refl in Hte. inversion Hte; subst rem'.
    exists [hd_index hd]. apply (visit_end m hd p p1 ev); auto. intro j. apply (put_cur_slots _ _ _ _ _ Hsl).
  - destruct Ht as (Hr & Hsl & Hadr & _). set (m2 := set_cycle (put_cur m hd p1) cy) in *.
    assert (Hp2 : pos_rem m2 = rest) by (destruct Hpo as [Hx _]; destruct rest; [now elim Hne|exact Hx]).
    assert (Hm2 : forall j, slot m2 j = if Nat.eqb j (hd_index hd) then Some p1 else slot m j)
      by (intro j; apply (put_cur_slots _ _ _ _ _ Hsl)).
    rewrite Hr in Hte. cbn [turn_entries turn_entry] in Hte. rewrite Nat.eqb_refl in Hte.
    rewrite <- Hp2 in Hte. destruct (IH _ Hte) as (vis & Hpos & Hv1 & Hv5 & Hv3 & Hv4 & Hv6 & Hv7). rewrite Hp2 in Hpos.
    assert (Hm2o : forall j, j <> hd_index hd -> slot m2 j = slot m j)
      by (intros j Hn; rewrite Hm2; destruct (Nat.eqb_spec j (hd_index hd)); [contradiction|reflexivity]).
    pose proof (pos_rem_sorted m) as Hsorted. rewrite Hr in Hsorted.
    destruct (sorted_head_notin _ _ Hsorted) as (Hnotin & _).
    assert (Hnv : forall j, In j vis \/ In j rem' -> j <> hd_index hd).
    { intros j Hj ->. apply Hnotin. rewrite Hpos. apply in_or_app. exact Hj. }
    assert (Hkeep : slot m' (hd_index hd) = Some p1).
    { assert (E2 : slot m2 (hd_index hd) = Some p1) by (rewrite Hm2, Nat.eqb_refl; reflexivity).
      rewrite <- E2. destruct o as [x|].
      - destruct (Hv5 ltac:(discriminate)) as (js & r1 & q & q' & h & pdu & Erem & _ & _ & _ & Hoth & _).
        apply Hoth; intro E; [apply (Hnv (hd_index hd)); auto|apply (Hnv js); [right; rewrite Erem; left; reflexivity|auto]].
      - apply (Hv3 eq_refl). intro E. apply (Hnv (hd_index hd)); auto. }
    exists (hd_index hd :: vis). unfold visit_post.
    split; [rewrite Hr, Hpos; reflexivity|]. split; [|split; [|split; [|split; [|split; [intro E; discriminate E|]]]]].
    + intros j [<-|Hj].
      * exists p, p1, None. split; [exact Hsl|]. split; [exact Hkeep|]. split; [exact Hp|left; reflexivity].
      * destruct (Hv1 _ Hj) as (q & q' & ev & H1 & H2 & H3 & H4). rewrite Hm2o in H1 by auto. exists q, q', ev. auto.
    + intros Ho. destruct (Hv5 Ho) as (js & r1 & q & q' & h & pdu & Erem & H1 & H2 & H3 & Hoth & Hsd).
      rewrite Hm2o in H1 by (apply Hnv; right; rewrite Erem; left; reflexivity).
      exists js, r1, q, q', h, pdu. split; [exact Erem|]. split; [exact H1|]. split; [exact H2|]. split; [exact H3|].
      split; [|exact Hsd]. intros j Hj Hne'. rewrite Hoth; [|intro X; apply Hj; right; exact X|exact Hne'].
      apply Hm2o. intro E. apply Hj. left. symmetry; exact E.
    + intros Ho j Hj. rewrite (Hv3 Ho); [|intro X; apply Hj; right; exact X].
      apply Hm2o. intro E. apply Hj. left. symmetry; exact E.
    + intros Hnone j [<-|Hj].
      * exists p, p1. auto.
      * destruct (Hv4 Hnone _ Hj) as (q & q' & H1 & H2 & H3). rewrite Hm2o in H1 by auto. exists q, q'. auto.
    + intros hd0 ev0 E. right. apply (Hv7 _ _ E).
Qed.

End Visit.

Definition c14_r1 (max_retry : nat) (g : c14g) (hs : list (option handle)) (dirty : bool) (s : tstep)
  : (list Z * option Z * nat) + Z :=
      if dirty then
        match view_of s with
        | VReq da _ _ _ => inl (g14_turns g, Some da, 1%nat)
        | VReply _ _ => inl (g14_turns g, None, 0%nat)
        | _ => inl (g14_turns g, g14_cur g, g14_sends g)
        end
      else
      match view_of s with
      | VReq da _ _ _ =>
          match index_of_addr hs da with
          | None => inr 1409
          | Some ix =>
              if match g14_cur g with Some a => a =? da | None => false end then
                (if Nat.ltb max_retry (g14_sends g) then inr 1408
                 else inl (g14_turns g, Some da, S (g14_sends g)))
              else
                if existsb (Z.eqb da) (g14_turns g) then inr 1402 else
                let in_order :=
                  match g14_turns g with
                  | [] => true
                  | prev :: _ =>
                      match index_of_addr hs prev with Some px => Nat.ltb px ix | None => true end
                  end in
                if in_order then inl (da :: g14_turns g, Some da, 1%nat) else inr 1403
          end
      | VReply _ _ => inl (g14_turns g, None, 0%nat)
      | VNoTx =>
          match ts_op s with
          | OpStop => inl (g14_turns g, g14_cur g, g14_sends g)
          | _ => inl (g14_turns g, None, 0%nat)
          end
      | _ => inl (g14_turns g, g14_cur g, g14_sends g)
      end.

Definition c14_r2 (g : c14g) (hs : list (option handle)) (turns : list Z) (s : tstep)
  : (list (Z * lstate) * list Z) + Z :=
          match step_event s with
          | None => inl (g14_life g, turns)
          | Some (a, ev) =>
              match ts_taken s with
              | Some {| ev_peripheral := Some (h, _) |} =>
                  if negb (match index_of_addr hs a with Some ix => Nat.eqb ix (hd_index h) | None => false end)
                  then inr 1407 else
                  match l_step (alist_get LOff (g14_life g) a) ev with
                  | None => inr 1405
                  | Some l' =>
                      let turns' := match ev with
                                    | EvOffline => if existsb (Z.eqb a) turns then turns else a :: turns
                                    | _ => turns
                                    end in
                      inl (alist_set (g14_life g) a l', turns')
                  end
              | _ => inr 1407
              end
          end.

Definition c14_consistent (life : list (Z * lstate)) : list pconf -> list (option pobs) -> bool :=
              (fix go (ps : list pconf) (os : list (option pobs)) : bool :=
                 match ps, os with
                 | p :: ps', Some o :: os' =>
                     let l := alist_get LOff life (pc_addr p) in
                     Bool.eqb (ob_live o) (negb (lstate_eqb l LOff)) &&
                     (negb (ob_running o) || lstate_eqb l LCfg) && go ps' os'
                 | _ :: ps', None :: os' => go ps' os'
                 | _, _ => true
                 end).

Definition c14_hs (g : c14g) (s : tstep) : list (option handle) :=
  match ts_in s, ts_out s with
  | InAdd k, OutHandle h => set_nth (g14_handles g) k (Some h)
  | _, _ => g14_handles g
  end.

Definition c14_dirty (g : c14g) (s : tstep) : bool := match ts_in s with InAdd _ => true | _ => g14_dirty g end.

Lemma c14_step_eq : forall c g i s,
  c14_step c g i s =
  match ts_out s with
  | OutHang => inr 1401
  | OutPanic => if is_callback (ts_in s) && conf_within_limits c then inr 1410 else inl g
  | _ =>
    let hs := c14_hs g s in
    let dirty := c14_dirty g s in
    match c14_r1 (Z.to_nat (p_max_retry (cf_params c))) g hs dirty s with
    | inr code => inr code
    | inl (turns, cur, sends) =>
        match c14_r2 g hs turns s with
        | inr code => inr code
        | inl (life, turns2) =>
            if negb (c14_consistent life (cf_periphs c) (ts_obs s)) then inr 1406 else
            if step_cc s then
              if dirty || forallb (fun a => existsb (Z.eqb a) turns2) (g14_due g)
              then inl (mkC14g life hs [] None (due_after c (ts_obs s)) 0 false)
              else inr 1404
            else inl (mkC14g life hs turns2 cur (g14_due g) sends dirty)
        end
    end
  end.
Proof. reflexivity. Qed.

Lemma c14_consistent_true : forall life ps os,
  (forall k pc o, nth_error ps k = Some pc -> nth_error os k = Some (Some o) ->
     ob_live o = negb (lstate_eqb (alist_get LOff life (pc_addr pc)) LOff) /\
     (ob_running o = true -> alist_get LOff life (pc_addr pc) = LCfg)) ->
  c14_consistent life ps os = true.
Proof.
  intros life. induction ps as [|p ps IH]; intros os H; [reflexivity|].
  destruct os as [|o os]; [reflexivity|].
  assert (Hrest : c14_consistent life ps os = true).
  { apply IH. intros k pc o0 H1 H2. apply (H (S k)); assumption. }
  destruct o as [o|]; [|exact Hrest].
  change (Bool.eqb (ob_live o) (negb (lstate_eqb (alist_get LOff life (pc_addr p)) LOff)) &&
          (negb (ob_running o) || lstate_eqb (alist_get LOff life (pc_addr p)) LCfg) && c14_consistent life ps os = true).
  destruct (H 0%nat p o eq_refl eq_refl) as (H1 & H2). rewrite Hrest, H1, Bool.eqb_reflx. cbn [andb].
  rewrite Bool.andb_true_r. destruct (ob_running o); [rewrite (H2 eq_refl); reflexivity|reflexivity].
Qed.

Definition due_go : list pconf -> list (option pobs) -> list Z :=
  (fix go (ps : list pconf) (os : list (option pobs)) : list Z :=
     match ps, os with
     | p :: ps', Some o :: os' =>
         let rest := go ps' os' in
         if ob_live o &&
            match o_user_prm (pc_opts p), o_config (pc_opts p) with Some _, Some _ => true | _, _ => false end
         then pc_addr p :: rest else rest
     | _ :: ps', None :: os' => go ps' os'
     | _, _ => []
     end).

Lemma due_after_eq : forall c obs, due_after c obs = due_go (cf_periphs c) obs.
Proof. reflexivity. Qed.

Lemma due_go_in : forall ps os a, In a (due_go ps os) ->
  exists k pc o, nth_error ps k = Some pc /\ nth_error os k = Some (Some o) /\ pc_addr pc = a /\ ob_live o = true /\
    match o_user_prm (pc_opts pc), o_config (pc_opts pc) with Some _, Some _ => true | _, _ => false end = true.
Proof.
  induction ps as [|p ps IH]; intros os a H; [destruct H|].
  destruct os as [|o os]; [destruct H|].
  destruct o as [o|].
  - change (In a (if ob_live o && match o_user_prm (pc_opts p), o_config (pc_opts p) with Some _, Some _ => true | _, _ => false end
                  then pc_addr p :: due_go ps os else due_go ps os)) in H.
    destruct (ob_live o && _) eqn:E.
    + destruct H as [<-|H].
      * apply andb_true_iff in E. destruct E as [E1 E2]. exists 0%nat, p, o. auto.
      * destruct (IH _ _ H) as (k & pc & o0 & H1 & H2 & H3). exists (S k), pc, o0. auto.
    + destruct (IH _ _ H) as (k & pc & o0 & H1 & H2 & H3). exists (S k), pc, o0. auto.
  - change (In a (due_go ps os)) in H. destruct (IH _ _ H) as (k & pc & o0 & H1 & H2 & H3). exists (S k), pc, o0. auto.
Qed.

Definition complete (p : periph) : bool :=
  match o_user_prm (pe_opts p), o_config (pe_opts p) with Some _, Some _ => true | _, _ => false end.

Definition RL (p : periph) (g : ghost) (l : lstate) : Prop := agree_b l (pe_state p) = true.

Record Turns (m : dpm) (rem : list nat) (turns : list Z) (cur : option Z) (sends : nat) (due : list Z) : Prop := mkTurns {
  tu_t1 : forall a, In a turns -> exists i p, slot m i = Some p /\ pe_addr p = a /\
            (~ In i rem \/ (exists r, rem = i :: r /\ cur = Some a));
  tu_t2 : forall a, cur = Some a -> exists i r p, rem = i :: r /\ slot m i = Some p /\ pe_addr p = a /\
            In a turns /\ Z.of_nat sends <= pe_retry p;
  tu_due : forall a, In a due -> In a turns \/
            exists i p, In i rem /\ slot m i = Some p /\ pe_addr p = a /\ is_live p = true /\ complete p = true;
  tu_comp : dm_cycle m = CyCompleted -> cur = None }.

Definition Ccomp (m : dpm) : Prop := dm_cycle m = CyCompleted -> occupied m <> [].

Lemma turns_fresh : forall m due,
  pos_rem m = occupied m ->
  (forall a, In a due -> exists i p, slot m i = Some p /\ pe_addr p = a /\ is_live p = true /\ complete p = true) ->
  Turns m (pos_rem m) [] None 0 due.
Proof.
  intros m due Hpr Hdue. constructor.
  - intros a [].
  - intros a E. discriminate E.
  - intros a Ha. right. destruct (Hdue a Ha) as (i & p & H1 & H2 & H3 & H4). exists i, p.
    split; [rewrite Hpr; apply occupied_in_slot; exists p; exact H1|]. auto.
  - reflexivity.
Qed.

Lemma live_complete_not_idle : forall pa op q q',
  p_transmit pa op q = Ok (q', PtxSkip None) -> is_live q = true -> complete q = true -> False.
Proof.
  intros pa op q q' H Hl Hcm. destruct (transmit_facts _ _ _ _ _ H) as (_ & _ & _ & _ & _ & _ & Hcase).
  unfold is_live in Hl. unfold complete in Hcm. unfold idle_state in Hcase.
  destruct Hcase as [(Hid & _)|(Hoff & _)].
  - destruct (pe_state q); try contradiction.
    + rewrite Hid in Hcm. discriminate Hcm.
    + rewrite Hid in Hcm. destruct (o_user_prm (pe_opts q)); discriminate Hcm.
  - rewrite Hoff in Hl. discriminate Hl.
Qed.

Lemma agree_b_public : forall l s, agree_b l s = true ->
  pstate_is_live s = negb (lstate_eqb l LOff) /\ (pstate_is_running s = true -> l = LCfg).
Proof. intros l s H. destruct l, s; cbn in *; try discriminate H; split; try reflexivity; intro X; try discriminate X; reflexivity. Qed.

Lemma existsb_in_iff : forall a l, existsb (Z.eqb a) l = true <-> In a l.
Proof.
  intros a l. rewrite existsb_exists. split; [intros (x & Hx & E); apply Z.eqb_eq in E; subst x; exact Hx|].
  intro H. exists a. split; [exact H|apply Z.eqb_refl].
Qed.

(* the handles as the monitor knows them: slot index from the master, station address in force *)
Definition chs (c : conf) (s : sys) : list (option handle) := cur_hs (cf_periphs c) (sy_handles s).

Section C14.
Variable c : conf.
Hypothesis Hc : conf_ok c.

Definition Rel14 (s : sys) (gs : gmap) (pend : option Z) (g : c14g) : Prop :=
  Base c s gs pend /\ g14_handles g = chs c s /\ Ccomp (sy_m s) /\
  per_ok lstate LOff RL (sy_m s) gs (g14_life g) /\
  (forall da, pend = Some da -> g14_cur g = Some da) /\
  (g14_dirty g = false ->
   Turns (sy_m s) (pos_rem (sy_m s)) (g14_turns g) (g14_cur g) (g14_sends g) (g14_due g)).

(* the last part of c14_step: consistency of the observables, completed cycle *)
Lemma c14_tail : forall s' gs' pend' (g : c14g) life' hs' turns2 cur1 sends1 dirty' t rem',
  Base c s' gs' pend' -> hs' = chs c s' -> Ccomp (sy_m s') ->
  per_ok lstate LOff RL (sy_m s') gs' life' ->
  ts_obs t = observe s' ->
  (forall da, pend' = Some da -> cur1 = Some da) ->
  (step_cc t = true -> pend' = None /\ pos_rem (sy_m s') = occupied (sy_m s')) ->
  (dirty' = false -> Turns (sy_m s') rem' turns2 cur1 sends1 (g14_due g) /\
                     (if step_cc t then rem' = [] else rem' = pos_rem (sy_m s'))) ->
  exists g',
    (if negb (c14_consistent life' (cf_periphs c) (ts_obs t)) then inr 1406 else
     if step_cc t then
       if dirty' || forallb (fun a => existsb (Z.eqb a) turns2) (g14_due g)
       then inl (mkC14g life' hs' [] None (due_after c (ts_obs t)) 0 false)
       else inr 1404
     else inl (mkC14g life' hs' turns2 cur1 (g14_due g) sends1 dirty')) = inl g' /\
    Rel14 s' gs' pend' g'.
Proof.
  intros s' gs' pend' g life' hs' turns2 cur1 sends1 dirty' t rem' HB Hhs Hcc Hlife Hobs HP Hccp Hturns.
  pose proof HB as [I G].
  assert (Hcons : c14_consistent life' (cf_periphs c) (ts_obs t) = true).
  { apply c14_consistent_true. intros k pc o Hpc Ho. rewrite Hobs in Ho.
    destruct (obs_position c s' k (Some o) I Ho) as [E|(h & p & pc' & Hk & Hsl & Eo & Hpc' & (F1 & _))]; [discriminate E|].
    rewrite Hpc in Hpc'. inversion Hpc'; subst pc'. inversion Eo; subst o. cbn [ob_live ob_running observe_periph].
    pose proof (proj1 Hlife _ _ Hsl) as Hrl. unfold RL in Hrl. rewrite F1 in Hrl.
    unfold is_live, is_running. apply agree_b_public. exact Hrl. }
  rewrite Hcons. cbn [negb].
  destruct (step_cc t) eqn:Ecc.
  - destruct (Hccp eq_refl) as (Hpn & Hpr).
    assert (Hok : dirty' || forallb (fun a => existsb (Z.eqb a) turns2) (g14_due g) = true).
    { destruct dirty'; [reflexivity|]. cbn [orb]. destruct (Hturns eq_refl) as (HT & ->).
      apply forallb_forall. intros a Ha. apply existsb_in_iff.
      destruct (tu_due _ _ _ _ _ _ HT a Ha) as [Hin|(i & p & Hi & _)]; [exact Hin|destruct Hi]. }
    rewrite Hok. eexists. split; [reflexivity|].
    split; [exact HB|]. cbn [g14_handles g14_life g14_cur g14_dirty g14_turns g14_sends g14_due].
    split; [exact Hhs|]. split; [exact Hcc|]. split; [exact Hlife|].
    split; [intros da E; rewrite Hpn in E; discriminate E|].
    intros _. apply turns_fresh; [exact Hpr|].
    intros a Ha. rewrite due_after_eq in Ha. destruct (due_go_in _ _ _ Ha) as (k & pc & o & Hpc & Ho & Hadr & Hlv & Hcm).
    rewrite Hobs in Ho.
    destruct (obs_position c s' k (Some o) I Ho) as [E|(h & p & pc' & Hk & Hsl & Eo & Hpc' & (F1 & F2 & _))]; [discriminate E|].
    rewrite Hpc in Hpc'. inversion Hpc'; subst pc'. inversion Eo; subst o. cbn [ob_live observe_periph] in Hlv.
    exists (hd_index h), p. split; [exact Hsl|]. split; [congruence|]. split; [exact Hlv|].
    unfold complete. rewrite F2. exact Hcm.
  - eexists. split; [reflexivity|].
    split; [exact HB|]. cbn [g14_handles g14_life g14_cur g14_dirty g14_turns g14_sends g14_due].
    split; [exact Hhs|]. split; [exact Hcc|]. split; [exact Hlife|]. split; [exact HP|].
    intros Hd. destruct (Hturns Hd) as (HT & ->). exact HT.
Qed.

Lemma turns_static : forall m m' rem turns cur sends due,
  Turns m rem turns cur sends due -> user_same m m' -> dm_cycle m' = dm_cycle m ->
  Turns m' rem turns cur sends due.
Proof.
  intros m m' rem turns cur sends due [T4 T5 T6 T7] Hu Hcy.
  assert (Hfw : forall j p, slot m j = Some p -> exists p', slot m' j = Some p' /\ pe_addr p' = pe_addr p /\
            pe_state p' = pe_state p /\ pe_retry p' = pe_retry p /\ pe_opts p' = pe_opts p).
  { intros j p Hp. destruct (Hu j) as [E|(q & q' & Hq & Hq' & (Ha & Hs & Hr & _ & _ & _ & Ho & _))].
    - exists p. rewrite E. auto.
    - rewrite Hp in Hq. inversion Hq; subst q. exists q'. auto. }
  constructor.
  - intros a Ha. destruct (T4 a Ha) as (i & p & Hp & Hpa & Hor). destruct (Hfw _ _ Hp) as (p' & Hp' & Ea & _).
    exists i, p'. split; [exact Hp'|]. split; [congruence|exact Hor].
  - intros a Ha. destruct (T5 a Ha) as (i & r & p & Hr & Hp & Hpa & Hin & Hs).
    destruct (Hfw _ _ Hp) as (p' & Hp' & Ea & _ & Er & _). exists i, r, p'. rewrite Er. repeat split; auto. congruence.
  - intros a Ha. destruct (T6 a Ha) as [Hin|(i & p & Hi & Hp & Hpa & Hl & Hcm)]; [left; exact Hin|right].
    destruct (Hfw _ _ Hp) as (p' & Hp' & Ea & Es & _ & Eo). exists i, p'. split; [exact Hi|]. split; [exact Hp'|].
    split; [congruence|]. unfold is_live, complete in *. rewrite Es, Eo. auto.
  - rewrite Hcy. exact T7.
Qed.

Lemma per_ok_user_same : forall m gs m' gs' life,
  per_ok lstate LOff RL m gs life -> user_same m m' -> per_ok lstate LOff RL m' gs' life.
Proof.
  intros m gs m' gs' life Hl Hu.
  apply (per_ok_same _ _ _ m gs life m' gs' Hl).
  - intros j q' Hq'. destruct (Hu j) as [E|(p & p' & Hp & Hp' & (Ha & Hs & _))].
    + exists q'. rewrite <- E. split; [exact Hq'|]. split; [reflexivity|]. intros x Hx. exact Hx.
    + rewrite Hq' in Hp'. inversion Hp'; subst p'. exists p. split; [exact Hp|]. split; [exact Ha|].
      intros x Hx. unfold RL in *. rewrite Hs. exact Hx.
  - intros j q Hq. destruct (Hu j) as [E|(p & p' & Hp & Hp' & (Ha & _))].
    + exists q. rewrite E. auto.
    + rewrite Hq in Hp. inversion Hp; subst p. exists p'. auto.
Qed.

Lemma ccomp_static : forall m m', Ccomp m -> user_same m m' -> dm_cycle m' = dm_cycle m -> Ccomp m'.
Proof.
  intros m m' Hcc Hu Hcy E. rewrite Hcy in E. specialize (Hcc E). intro Hn. apply Hcc.
  destruct (occupied m) as [|j r] eqn:Eo; [reflexivity|]. exfalso.
  assert (Hj : In j (occupied m)) by (rewrite Eo; left; reflexivity).
  apply occupied_in_slot in Hj. destruct Hj as (p & Hp).
  assert (Hj' : exists p', slot m' j = Some p').
  { destruct (Hu j) as [E'|(q & q' & _ & Hq' & _)]; [exists p; rewrite E'; exact Hp|exists q'; exact Hq']. }
  apply occupied_in_slot in Hj'. rewrite Hn in Hj'. destruct Hj'.
Qed.

Lemma c14_static : forall s gs pend g t s' gs' n,
  Rel14 s gs pend g -> Base c s' gs' (pend_next_v pend (view_of t)) ->
  sy_handles s' = sy_handles s -> (forall k, ts_in t <> InAdd k) ->
  user_same (sy_m s) (sy_m s') -> pos_rem (sy_m s') = pos_rem (sy_m s) -> dm_cycle (sy_m s') = dm_cycle (sy_m s) ->
  (view_of t = VOther \/ (exists a, view_of t = VTimeout a) \/ view_of t = VAbandon \/
   (exists h pdu, view_of t = VSdn h pdu) \/ (view_of t = VNoTx /\ ts_op t = OpStop)) ->
  step_event t = None -> step_cc t = false -> ts_obs t = observe s' ->
  match ts_out t with OutHang | OutPanic => False | _ => True end ->
  exists g', c14_step c g n t = inl g' /\ Rel14 s' gs' (pend_next_v pend (view_of t)) g'.
Proof.
  intros s gs pend g t s' gs' n (HB & Hh & Hcc & Hlife & HP & HT) HB' Hhs Hnadd Hus Hpr Hcy Hv Hev Hncc Hobs Hout.
  rewrite c14_step_eq.
  assert (Ehs : c14_hs g t = chs c s').
  { unfold c14_hs, chs. rewrite Hh, Hhs. unfold chs. destruct (ts_in t); try reflexivity. now elim (Hnadd k). }
  assert (Edirty : c14_dirty g t = g14_dirty g).
  { unfold c14_dirty. destruct (ts_in t); try reflexivity. now elim (Hnadd k). }
  assert (Er1 : c14_r1 (Z.to_nat (p_max_retry (cf_params c))) g (c14_hs g t) (c14_dirty g t) t =
                inl (g14_turns g, g14_cur g, g14_sends g)).
  { unfold c14_r1. destruct (c14_dirty g t);
      destruct Hv as [->|[(a & ->)|[->|[(h & pdu & ->)|(-> & Hop)]]]]; try rewrite Hop; reflexivity. }
  assert (Er2 : c14_r2 g (c14_hs g t) (g14_turns g) t = inl (g14_life g, g14_turns g)).
  { unfold c14_r2. rewrite Hev. reflexivity. }
  assert (Hpn : pend_next_v pend (view_of t) = pend \/ pend_next_v pend (view_of t) = None).
  { destruct Hv as [->|[(a & ->)|[->|[(h & pdu & ->)|(-> & _)]]]]; cbn; auto. }
  destruct (ts_out t) eqn:Eout; try contradiction; cbn zeta; rewrite Er1, Er2, Ehs, Edirty;
    (apply (c14_tail s' gs' _ g (g14_life g) (chs c s') (g14_turns g) (g14_cur g) (g14_sends g) (g14_dirty g) t (pos_rem (sy_m s')));
     [exact HB'|reflexivity|apply (ccomp_static (sy_m s)); assumption|apply (per_ok_user_same (sy_m s) gs); assumption|exact Hobs
     |intros da E; destruct Hpn as [Hpn|Hpn]; rewrite Hpn in E; [apply HP; exact E|discriminate E]
     |intro E; rewrite Hncc in E; discriminate E
     |intro Hd; split; [rewrite Hpr; apply (turns_static (sy_m s)); auto|rewrite Hncc; reflexivity]]).
Qed.

End C14.

Section TurnMoves.
Variables (pa : params) (op : opstate).

Definition slots_fw (m m' : dpm) : Prop :=
  forall j p, slot m j = Some p -> exists p', slot m' j = Some p' /\ pe_addr p' = pe_addr p.

Lemma vis_before : forall m (vis rem' : list nat), pos_rem m = vis ++ rem' ->
  (forall x y, In x vis -> In y rem' -> (x < y)%nat) /\ (forall x, In x vis -> ~ In x rem').
Proof.
  intros m vis rem' H. pose proof (pos_rem_sorted m) as Hs. rewrite H in Hs. destruct (sorted_app _ _ Hs) as (_ & S4 & S5). auto.
Qed.

Lemma head_in_vis : forall (vis rem' : list nat) i r, vis ++ rem' = i :: r -> vis <> [] -> In i vis.
Proof. intros [|v vis] rem' i r H Hne; [now elim Hne|]. cbn in H. inversion H. left; reflexivity. Qed.

Definition silent (m m' : dpm) (j : nat) : Prop :=
  exists q q', slot m j = Some q /\ slot m' j = Some q' /\ p_transmit pa op q = Ok (q', PtxSkip None).

Lemma turns_over : forall m m' vis rem' turns cur sends due,
  Turns m (vis ++ rem') turns cur sends due -> pos_rem m = vis ++ rem' -> slots_fw m m' ->
  (cur <> None -> vis <> []) ->
  forall a, In a turns -> exists i p', slot m' i = Some p' /\ pe_addr p' = a /\ ~ In i rem'.
Proof.
  intros m m' vis rem' turns cur sends due T Hpos Hfw Hcur a Ha. destruct (vis_before _ _ _ Hpos) as (_ & S5).
  destruct (tu_t1 _ _ _ _ _ _ T a Ha) as (i & p & Hp & Hpa & Hor). destruct (Hfw _ _ Hp) as (p' & Hp' & Ea).
  exists i, p'. split; [exact Hp'|]. split; [congruence|]. destruct Hor as [Hni|(r & Hr & Hc)].
  - intro X. apply Hni. apply in_or_app. right; exact X.
  - apply S5. apply (head_in_vis _ _ _ _ Hr). apply Hcur. rewrite Hc. discriminate.
Qed.

(* a peripheral that is due stays due, unless its turn is one of turns': the slots visited were silent or are in
   turns', the others are unchanged or in turns' *)
Lemma turns_due : forall m m' vis rem' turns cur sends due turns',
  Turns m (vis ++ rem') turns cur sends due -> pos_rem m = vis ++ rem' ->
  (forall x, In x turns -> In x turns') ->
  (forall j q, In j vis -> slot m j = Some q -> silent m m' j \/ In (pe_addr q) turns') ->
  (forall j q, ~ In j vis -> slot m j = Some q -> slot m' j = slot m j \/ In (pe_addr q) turns') ->
  forall a, In a due -> In a turns' \/
    exists i p, In i rem' /\ slot m' i = Some p /\ pe_addr p = a /\ is_live p = true /\ complete p = true.
Proof.
  intros m m' vis rem' turns cur sends due turns' T Hpos Hsub Hvis Hrem a Ha. destruct (vis_before _ _ _ Hpos) as (_ & S5).
  destruct (tu_due _ _ _ _ _ _ T a Ha) as [Hi|(i & p & Hi & Hp & Hpa & Hl & Hcm)]; [left; apply Hsub; exact Hi|].
  rewrite <- Hpa. apply in_app_or in Hi. destruct Hi as [Hi|Hi].
  - destruct (Hvis _ _ Hi Hp) as [(q0 & q0' & Hq0 & _ & Ht)|Hin]; [|left; exact Hin].
    exfalso. rewrite Hp in Hq0. inversion Hq0; subst q0. apply (live_complete_not_idle _ _ _ _ Ht Hl Hcm).
  - destruct (Hrem i p (fun X => S5 _ X Hi) Hp) as [E|Hin]; [|left; exact Hin]. right. exists i, p. rewrite E. auto.
Qed.

Lemma turns_tx_quiet : forall m m' vis rem' turns cur sends due,
  Turns m (vis ++ rem') turns cur sends due -> pos_rem m = vis ++ rem' -> slots_fw m m' ->
  (forall j, In j vis -> silent m m' j) ->
  (forall j, ~ In j vis -> slot m' j = slot m j) ->
  (vis = [] -> dm_cycle m = CyCompleted \/ vis ++ rem' = []) ->
  dm_cycle m' <> CyCompleted ->
  Turns m' rem' turns None 0 due.
Proof.
  intros m m' vis rem' turns cur sends due T Hpos Hfw Hsil Hun Hnil Hncc.
  assert (Hcur : cur <> None -> vis <> []).
  { intros Hc E. apply Hc. destruct (Hnil E) as [Hx|Hx]; [apply (tu_comp _ _ _ _ _ _ T Hx)|].
    destruct cur as [a|]; [|reflexivity]. destruct (tu_t2 _ _ _ _ _ _ T a eq_refl) as (i & r & p & Hr & _).
    rewrite Hx in Hr. discriminate Hr. }
  constructor; [| |apply (turns_due m m' vis rem' _ _ _ _ turns T Hpos); auto|intro Ecc; now elim Hncc].
  - intros a Ha. destruct (turns_over _ _ _ _ _ _ _ _ T Hpos Hfw Hcur a Ha) as (i & p' & H1 & H2 & H3). exists i, p'. auto.
  - intros a E. discriminate E.
Qed.

Lemma turns_tx_off : forall m m' vis rem' turns cur sends due joff q q' turns',
  Turns m (vis ++ rem') turns cur sends due -> pos_rem m = vis ++ rem' -> slots_fw m m' ->
  In joff vis -> slot m joff = Some q -> slot m' joff = Some q' -> pe_addr q' = pe_addr q ->
  (forall j, In j vis -> j = joff \/ silent m m' j) ->
  (forall j, ~ In j vis -> slot m' j = slot m j) ->
  In (pe_addr q) turns' -> (forall x, In x turns -> In x turns') -> (forall x, In x turns' -> x = pe_addr q \/ In x turns) ->
  dm_cycle m' <> CyCompleted ->
  Turns m' rem' turns' None 0 due.
Proof.
  intros m m' vis rem' turns cur sends due joff q q' turns' T Hpos Hfw Hjv Hq Hq' Ea Hsil Hun Hin Hsub Hsup Hncc.
  destruct (vis_before _ _ _ Hpos) as (_ & S5).
  assert (Hcur : cur <> None -> vis <> []) by (intros _ E; rewrite E in Hjv; destruct Hjv).
  constructor; [| |apply (turns_due m m' vis rem' _ _ _ _ turns' T Hpos Hsub); auto|intro Ecc; now elim Hncc].
  - intros a Ha. destruct (Hsup _ Ha) as [->|Ha'].
    + exists joff, q'. split; [exact Hq'|]. split; [exact Ea|]. left. apply S5. exact Hjv.
    + destruct (turns_over _ _ _ _ _ _ _ _ T Hpos Hfw Hcur a Ha') as (i & p' & H1 & H2 & H3). exists i, p'. auto.
  - intros a E. discriminate E.
  - intros j q0 Hj Hq0. destruct (Hsil _ Hj) as [->|Hs]; [right|left; exact Hs].
    rewrite Hq in Hq0. inversion Hq0; subst q0. exact Hin.
Qed.

Lemma turns_tx_send : forall m m' vis r js q q' h pdu turns cur sends due,
  Turns m (vis ++ js :: r) turns cur sends due -> pos_rem m = vis ++ js :: r -> slots_fw m m' -> addr_inj m ->
  slot m js = Some q -> slot m' js = Some q' -> p_transmit pa op q = Ok (q', PtxSend h pdu) -> 0 <= pe_retry q ->
  (forall j, In j vis -> silent m m' j) ->
  (forall j, ~ In j vis -> j <> js -> slot m' j = slot m j) ->
  dm_cycle m' <> CyCompleted ->
  (cur = Some (pe_addr q) -> vis = [] /\ Z.of_nat sends <= pe_retry q /\
     Turns m' (js :: r) turns (Some (pe_addr q)) (S sends) due) /\
  (cur <> Some (pe_addr q) ->
     ~ In (pe_addr q) turns /\
     (forall prev rest, turns = prev :: rest -> exists ip pp, slot m ip = Some pp /\ pe_addr pp = prev /\ (ip < js)%nat) /\
     Turns m' (js :: r) (pe_addr q :: turns) (Some (pe_addr q)) 1 due).
Proof.
  intros m m' vis r js q q' h pdu turns cur sends due T Hpos Hfw Hinj Hq Hq' Hp Hr0 Hsil Hun Hncc.
  destruct (vis_before _ _ _ Hpos) as (S4 & S5).
  pose proof (transmit_spec _ _ _ _ _ Hp) as Hts. cbn beta iota in Hts. destruct Hts as (_ & _ & _ & _ & _ & Hre & _).
  destruct (transmit_keeps _ _ _ _ _ Hp) as (Ea & _).
  assert (Hjs : In js (js :: r)) by (left; reflexivity).
  (* the slot in progress is js, or was visited *)
  assert (Hhead : forall a i r1 p, vis ++ js :: r = i :: r1 -> slot m i = Some p -> pe_addr p = a ->
            a <> pe_addr q -> In i vis).
  { intros a i r1 p Hr1 Hpi Hpa Hne. apply (head_in_vis _ _ _ _ Hr1). intros ->. cbn in Hr1. inversion Hr1; subst i.
    rewrite Hq in Hpi. inversion Hpi; subst p. now elim Hne. }
  assert (Hdue : forall turns', (forall x, In x turns -> In x turns') -> In (pe_addr q) turns' ->
            forall a, In a due -> In a turns' \/
              exists i p, In i (js :: r) /\ slot m' i = Some p /\ pe_addr p = a /\ is_live p = true /\ complete p = true).
  { intros turns' Hsub Hin. apply (turns_due m m' vis (js :: r) _ _ _ _ turns' T Hpos Hsub); auto.
    intros j p Hj Hpj. destruct (Nat.eq_dec j js) as [->|Hne]; [right|left; apply Hun; assumption].
    rewrite Hq in Hpj. inversion Hpj; subst p. exact Hin. }
  split.
  - intro Hc. destruct (tu_t2 _ _ _ _ _ _ T _ Hc) as (i & r0 & p & Hr & Hpp & Hpa & Hin & Hs).
    assert (Ei : i = js) by (apply (Hinj i js p q Hpp Hq Hpa)). subst i. rewrite Hq in Hpp. inversion Hpp; subst p.
    assert (Ev : vis = []).
    { destruct vis as [|v vs]; [reflexivity|]. exfalso. cbn in Hr. inversion Hr; subst v.
      apply (S5 js); [left; reflexivity|exact Hjs]. }
    split; [exact Ev|]. split; [exact Hs|]. subst vis.
    constructor; [| |apply Hdue; auto|intro Ecc; now elim Hncc].
    + intros a Ha. destruct (tu_t1 _ _ _ _ _ _ T a Ha) as (i & p & Hpi & Hpa' & Hor).
      destruct (Hfw _ _ Hpi) as (p' & Hp' & Ea'). exists i, p'. split; [exact Hp'|]. split; [congruence|]. rewrite Hc in Hor. exact Hor.
    + intros a E. inversion E; subst a. exists js, r, q'. split; [reflexivity|]. split; [exact Hq'|]. split; [exact Ea|].
      split; [exact Hin|]. rewrite Hre. lia.
  - intro Hc.
    assert (Hcur : cur <> None -> vis <> []).
    { intros Hn E. destruct cur as [a|]; [|now elim Hn]. destruct (tu_t2 _ _ _ _ _ _ T a eq_refl) as (i & r0 & p & Hr & Hpp & Hpa & _).
      assert (Hne : a <> pe_addr q) by congruence. rewrite E in *. destruct (Hhead a i r0 p Hr Hpp Hpa Hne). }
    assert (Hnin : ~ In (pe_addr q) turns).
    { intro Ha. destruct (tu_t1 _ _ _ _ _ _ T _ Ha) as (i & p & Hpi & Hpa & Hor).
      assert (Ei : i = js) by (apply (Hinj i js p q Hpi Hq Hpa)). subst i.
      destruct Hor as [Hni|(r1 & _ & Hc1)]; [|contradiction]. apply Hni. apply in_or_app. right. exact Hjs. }
    split; [exact Hnin|]. split.
    + intros prev rest Et. assert (Ha : In prev turns) by (rewrite Et; left; reflexivity).
      destruct (tu_t1 _ _ _ _ _ _ T _ Ha) as (i & p & Hpi & Hpa & Hor). exists i, p. split; [exact Hpi|]. split; [exact Hpa|].
      destruct Hor as [Hni|(r1 & Hr1 & Hc1)].
      * rewrite <- Hpos in Hni. apply (pos_rem_done m i js p Hpi Hni). rewrite Hpos. apply in_or_app. right; exact Hjs.
      * apply S4; [|exact Hjs]. apply (Hhead prev i r1 p Hr1 Hpi Hpa). intro E. apply Hnin. rewrite <- E. exact Ha.
    + constructor; [| |apply Hdue; [intros x Hx; right; exact Hx|left; reflexivity]|intro Ecc; now elim Hncc].
      * intros a [<-|Ha].
        -- exists js, q'. split; [exact Hq'|]. split; [exact Ea|]. right. exists r. auto.
        -- destruct (turns_over _ _ _ _ _ _ _ _ T Hpos Hfw Hcur a Ha) as (i & p' & H1 & H2 & H3). exists i, p'. auto.
      * intros a E. inversion E; subst a. exists js, r, q'. split; [reflexivity|]. split; [exact Hq'|]. split; [exact Ea|].
        split; [left; reflexivity|]. rewrite Hre. lia.
Qed.

Lemma turns_rx : forall m m' j r p turns sends due,
  Turns m (j :: r) turns (Some (pe_addr p)) sends due -> pos_rem m = j :: r -> slots_fw m m' ->
  slot m j = Some p ->
  (forall i, i <> j -> slot m' i = slot m i) ->
  Turns m' r turns None 0 due.
Proof.
  intros m m' j r p turns sends due T Hpos Hfw Hp Hun.
  assert (Hcur : Some (pe_addr p) <> None -> [j] <> []) by (intros _ E; discriminate E).
  constructor; [| |apply (turns_due m m' [j] r _ _ _ _ turns T Hpos); auto|intros _; reflexivity].
  - intros a Ha. destruct (turns_over m m' [j] r _ _ _ _ T Hpos Hfw Hcur a Ha) as (i & p' & H1 & H2 & H3). exists i, p'. auto.
  - intros a E. discriminate E.
  - intros i q [<-|[]] Hq. right. rewrite Hp in Hq. inversion Hq; subst q.
    destruct (tu_t2 _ _ _ _ _ _ T _ eq_refl) as (_ & _ & _ & _ & _ & _ & Hin & _). exact Hin.
  - intros i q Hi _. left. apply Hun. intro E. apply Hi. left. symmetry; exact E.
Qed.

End TurnMoves.

Lemma cur_test : forall (cur : option Z) da,
  (match cur with Some a => a =? da | None => false end) = true <-> cur = Some da.
Proof.
  intros [a|] da; split; intro H; try discriminate H.
  - apply Z.eqb_eq in H. subst. reflexivity.
  - inversion H. apply Z.eqb_refl.
Qed.

Lemma RL_agree : forall pa a o p g l, RL p g l -> Inv pa a o p g -> agree l p.
Proof.
  intros pa a o p g l H I. split; [exact H|]. intro Hoff.
  rewrite (inv_retry _ _ _ _ _ I). apply (inv_probe _ _ _ _ _ I Hoff).
Qed.

Lemma RL_quiet : forall q g q' g' l, Quiet q g q' g' -> RL q g l -> RL q' g' l.
Proof. intros q g q' g' l HQ H. unfold RL in *. rewrite (qu_state _ _ _ _ HQ). exact H. Qed.

Lemma c14_r1_req : forall mr (g : c14g) hs t da sv h pdu ix,
  view_of t = VReq da sv h pdu -> index_of_addr hs da = Some ix ->
  (g14_cur g = Some da -> (g14_sends g <= mr)%nat ->
   c14_r1 mr g hs false t = inl (g14_turns g, Some da, S (g14_sends g))) /\
  (g14_cur g <> Some da -> ~ In da (g14_turns g) ->
   (forall prev rest, g14_turns g = prev :: rest -> exists px, index_of_addr hs prev = Some px /\ (px < ix)%nat) ->
   c14_r1 mr g hs false t = inl (da :: g14_turns g, Some da, 1%nat)).
Proof.
  intros mr g hs t da sv h pdu ix Hv Hix. unfold c14_r1. rewrite Hv, Hix. split.
  - intros Hc Hs. rewrite (proj2 (cur_test _ _) Hc), (proj2 (Nat.ltb_ge _ _) Hs). reflexivity.
  - intros Hc Hnin Hord.
    destruct (match g14_cur g with Some a => a =? da | None => false end) eqn:E; [apply cur_test in E; contradiction|].
    destruct (existsb (Z.eqb da) (g14_turns g)) eqn:Ex; [apply existsb_in_iff in Ex; contradiction|].
    destruct (g14_turns g) as [|prev rest]; [reflexivity|]. destruct (Hord prev rest eq_refl) as (px & -> & Hlt).
    rewrite (proj2 (Nat.ltb_lt _ _) Hlt). reflexivity.
Qed.

Lemma c14_r2_event : forall (g : c14g) hs turns t a ev e i l',
  step_event t = Some (a, ev) -> ts_taken t = Some e -> ev_peripheral e = Some (mkHandle i a, ev) ->
  index_of_addr hs a = Some i -> l_step (alist_get LOff (g14_life g) a) ev = Some l' ->
  c14_r2 g hs turns t =
    inl (alist_set (g14_life g) a l',
         match ev with EvOffline => if existsb (Z.eqb a) turns then turns else a :: turns | _ => turns end).
Proof.
  intros g hs turns t a ev e i l' Hse Htk Hpe Hidx Hl. unfold c14_r2. rewrite Hse, Htk.
  destruct e as [ccf pe]. cbn [ev_peripheral] in Hpe. subst pe. rewrite Hidx. cbn [hd_index]. rewrite Nat.eqb_refl.
  cbn [negb]. rewrite Hl. reflexivity.
Qed.

Section C14b.
Variable c : conf.
Hypothesis Hc : conf_ok c.

Lemma c14_tx : forall s gs g now hp m1 o log n,
  Rel14 c s gs None g -> dm_op (sy_m s) <> OpStop ->
  tx_rel (cf_params c) (cf_bufsize c) (sy_m s) m1 o log ->
  exists gs' g',
    c14_step c g n (mkStep (InTx now hp) false (OutTx o) (Some (dm_events m1))
                      (observe (set_m s (set_events m1 events_default))) (dm_op m1)) = inl g' /\
    Rel14 c (set_m s (set_events m1 events_default)) gs'
      (pend_next_v None (view_of (mkStep (InTx now hp) false (OutTx o) (Some (dm_events m1))
                                    (observe (set_m s (set_events m1 events_default))) (dm_op m1)))) g'.
Proof.
  intros s gs g now hp m1 o log n (HB & Hh & Hcc & Hlife & HP & HT) Hop Hrel.
  destruct (loop_vis c Hc s gs now hp m1 o log (observe (set_m s (set_events m1 events_default))) HB Hrel)
    as (gs' & v & HB' & Hpost & Hv).
  set (s' := set_m s (set_events m1 events_default)) in *.
  set (t := mkStep (InTx now hp) false (OutTx o) (Some (dm_events m1)) (observe s') (dm_op m1)) in *.
  destruct HB as [I G]. pose proof HB' as [I' G']. pose proof (co_retry _ Hc) as Hmax.
  pose proof (sinv_addr_inj c s Hc I) as Hinj.
  destruct (tx_post_pass _ _ _ _ _ _ _ _ Hpost) as (Hpass & Hbw). destruct Hpost as (_ & Hop' & Hslots & Hvis).
  destruct (tx_rel_cycle _ _ _ _ _ _ Hrel Hcc) as (rem' & Hte & _ & Hncc & Hcyc).
  destruct (tx_rel_visit _ _ _ _ _ _ Hrel rem' Hte) as (vis & Hpos & V1 & V5 & V3 & V4 & V6 & V7).
  exists gs'.
  assert (Hfw : slots_fw (sy_m s) (sy_m s')).
  { intros j p Hp. destruct (Hslots _ _ Hp) as (p' & Hp' & Hsp). exists p'. split; [exact Hp'|].
    apply (slot_post_shape _ _ _ _ _ _ _ _ Hsp). }
  assert (Hstepcc : step_cc t = ev_cycle_completed (dm_events m1)) by reflexivity.
  assert (Hrem : if step_cc t then rem' = [] else rem' = pos_rem (sy_m s')).
  { rewrite Hstepcc. destruct (ev_cycle_completed (dm_events m1)); [apply Hcyc|symmetry; apply Hcyc]. }
  assert (Hccocc : step_cc t = true -> o = None /\ pos_rem (sy_m s') = occupied (sy_m s')).
  { rewrite Hstepcc. intro E. rewrite E in Hcyc. destruct Hcyc as (Hr' & Hpr). split; [|exact Hpr].
    destruct o as [x|]; [|reflexivity]. destruct (V5 ltac:(discriminate)) as (js & r & _ & _ & _ & _ & Er & _).
    rewrite Hr' in Er. discriminate Er. }
  (* a call that sends nothing ends the turn in progress *)
  assert (Hr1 : view_of t = VNoTx ->
            c14_r1 (Z.to_nat (p_max_retry (cf_params c))) g (chs c s') (g14_dirty g) t =
              inl (g14_turns g, (if g14_dirty g then g14_cur g else None), (if g14_dirty g then g14_sends g else 0%nat))).
  { intro E. unfold c14_r1. rewrite E. destruct (g14_dirty g); [reflexivity|].
    change (ts_op t) with (dm_op m1). rewrite Hop'. destruct (dm_op (sy_m s)); [now elim Hop|reflexivity|reflexivity]. }
  rewrite Hpos in HT. rewrite c14_step_eq. cbn [ts_out t]. cbn zeta.
  change (c14_hs g t) with (g14_handles g). change (c14_dirty g t) with (g14_dirty g). rewrite Hh. change (chs c s) with (chs c s').
  (* the bookkeeping of the monitor, by what the call shows *)
  assert (H : exists turns1 cur1 sends1 life' turns2 remx,
            c14_r1 (Z.to_nat (p_max_retry (cf_params c))) g (chs c s') (g14_dirty g) t = inl (turns1, cur1, sends1) /\
            c14_r2 g (chs c s') turns1 t = inl (life', turns2) /\
            per_ok lstate LOff RL (sy_m s') gs' life' /\
            (forall da, pend_next_v None (view_of t) = Some da -> cur1 = Some da) /\
            (step_cc t = true -> pend_next_v None (view_of t) = None) /\
            (g14_dirty g = false -> Turns (sy_m s') remx turns2 cur1 sends1 (g14_due g) /\
                                   if step_cc t then remx = [] else remx = pos_rem (sy_m s'))).
  { destruct v as [|i h pdu|i]; cbn beta iota in Hv.
    - (* nothing visible *)
      destruct Hvis as (-> & Hev).
      exists (g14_turns g), (if g14_dirty g then g14_cur g else None), (if g14_dirty g then g14_sends g else 0%nat),
             (g14_life g), (g14_turns g), rem'.
      split; [exact (Hr1 Hv)|]. split; [unfold c14_r2, step_event; cbn [ts_taken t]; rewrite Hev; reflexivity|].
      split; [apply (per_ok_quiet _ _ _ RL_quiet _ _ _ _ _ Hlife); split; [intros j q; apply Hpass; discriminate|exact Hbw]|].
      rewrite Hv. split; [intros da E; discriminate E|]. split; [reflexivity|].
      intro Hd. rewrite Hd. split; [|exact Hrem].
      apply (turns_tx_quiet (cf_params c) (dm_op (sy_m s)) (sy_m s) (sy_m s') vis rem' _ (g14_cur g) (g14_sends g)); auto.
      + intros j Hj. destruct (V4 Hev _ Hj) as (q & q' & H1 & H2 & H3). exists q, q'. auto.
      + intros j Hj. apply (V3 eq_refl _ Hj).
      + intros E. rewrite <- Hpos. apply (V6 E eq_refl).
    - (* a request: not the end of the pass; the sender is the head of what remains *)
      destruct Hvis as (w & q & -> & _ & Hev & Hcur & Hq).
      destruct (Hslots _ _ Hq) as (q' & Hq' & Hsp). cbn [slot_post] in Hsp. rewrite Nat.eqb_refl in Hsp.
      destruct Hsp as (q1 & g1 & HQ & _ & Hp & _ & Hreq).
      pose proof Hreq as (f0 & Hstd & _). destruct (std_request_classify _ _ _ _ _ _ _ Hstd) as (_ & Hda & _).
      destruct (V5 ltac:(discriminate)) as (js & r & qs & qs' & h2 & pdu2 & Erem & Hqs & Hqs' & Hps & Hoth & _).
      assert (Encc : step_cc t = false).
      { destruct (step_cc t) eqn:E; [|reflexivity]. destruct (Hccocc eq_refl) as (X & _). discriminate X. }
      rewrite Encc in Hrem |- *.
      assert (Eij : i = js).
      { apply (cur_is_fun m1); [exact Hcur|]. exists r. change (pos_rem m1) with (pos_rem (sy_m s')). rewrite <- Hrem. exact Erem. }
      subst js. rewrite Hq in Hqs. inversion Hqs; subst qs. rewrite Hq' in Hqs'. inversion Hqs'; subst qs'.
      pose proof (transmit_spec _ _ _ _ _ Hps) as Hts. cbn beta iota in Hts. destruct Hts as (Hex & _ & _ & _ & _ & _ & Hst).
      unfold dp_retry_exhausted in Hex. apply Z.ltb_ge in Hex.
      destruct (transmit_keeps _ _ _ _ _ Hps) as (Haq' & _).
      assert (Hidx : forall j p', slot (sy_m s') j = Some p' -> index_of_addr (chs c s') (pe_addr p') = Some j)
        by (intros j p'; apply (slot_index_of_addr c Hc s' j p' I')).
      pose proof (gi_inv _ _ _ _ G _ _ Hq) as Iq.
      assert (Hr0 : 0 <= pe_retry q) by (rewrite (inv_retry _ _ _ _ _ Iq); apply (inv_bound _ _ _ _ _ Iq)).
      rewrite Erem in HT, Hpos.
      assert (Hsend := fun Hd : g14_dirty g = false =>
        turns_tx_send (cf_params c) (dm_op (sy_m s)) (sy_m s) (sy_m s') vis r i q q' h2 pdu2 _ _ _ _
          (HT Hd) Hpos Hfw Hinj Hq Hq' Hps Hr0 (V4 Hev) Hoth Hncc).
      assert (Hr1' : exists turns1 sends1,
                c14_r1 (Z.to_nat (p_max_retry (cf_params c))) g (chs c s') (g14_dirty g) t =
                  inl (turns1, Some (h_da h), sends1) /\
                (g14_dirty g = false -> Turns (sy_m s') (i :: r) turns1 (Some (h_da h)) sends1 (g14_due g))).
      { destruct (g14_dirty g) eqn:Ed; [unfold c14_r1; rewrite Hv; eexists; eexists; split; [reflexivity|intro X; discriminate X]|].
        assert (Hix : index_of_addr (chs c s') (h_da h) = Some i) by (rewrite Hda, <- Haq'; apply (Hidx _ _ Hq')).
        destruct (c14_r1_req (Z.to_nat (p_max_retry (cf_params c))) g (chs c s') t _ _ _ _ i Hv Hix) as (Hre & Hnw).
        destruct (Hsend eq_refl) as (Hretx & Hnew). rewrite Hda in Hre, Hnw |- *.
        destruct (match g14_cur g with Some a => a =? pe_addr q | None => false end) eqn:Ecur.
        - apply cur_test in Ecur. destruct (Hretx Ecur) as (_ & Hs & HT').
          eexists; eexists. split; [apply Hre; [exact Ecur|lia]|intros _; exact HT'].
        - assert (Hncur : g14_cur g <> Some (pe_addr q)).
          { intro E. apply cur_test in E. rewrite E in Ecur. discriminate Ecur. }
          destruct (Hnew Hncur) as (Hnin & Hord & HT').
          eexists; eexists. split; [apply Hnw; auto|intros _; exact HT'].
          intros prev rest Et. destruct (Hord prev rest Et) as (ip & pp & Hpp & Hpa & Hlt).
          destruct (Hfw _ _ Hpp) as (pp' & Hpp' & Ea). exists ip. split; [rewrite <- Hpa, <- Ea; apply (Hidx _ _ Hpp')|exact Hlt]. }
      destruct Hr1' as (turns1 & sends1 & E1 & Hnt).
      exists turns1, (Some (h_da h)), sends1, (g14_life g), turns1, (i :: r).
      split; [exact E1|]. split; [unfold c14_r2, step_event; cbn [ts_taken t]; rewrite Hev; reflexivity|].
      split.
      { apply (per_ok_upd _ _ _ RL_quiet _ _ _ _ _ i q q' _ Hlife Hinj Hq Hq' Haq'); auto.
        - split; [|exact Hbw]. intros j qj Hne. apply Hpass. cbn. congruence.
        - unfold RL. rewrite Hst. apply (proj1 Hlife _ _ Hq). }
      rewrite Hv. split; [intros da E; inversion E; reflexivity|]. split; [intro E; discriminate E|].
      intro Hd. split; [exact (Hnt Hd)|]. rewrite <- Erem. exact Hrem.
    - (* the Offline event *)
      destruct Hvis as (-> & q & Hq & Hev).
      destruct (Hslots _ _ Hq) as (q' & Hq' & Hsp). cbn [slot_post] in Hsp. rewrite Nat.eqb_refl in Hsp.
      destruct Hsp as (q1 & g1 & HQ & I1 & Hp & _ & _).
      assert (Haq' : pe_addr q' = pe_addr q).
      { destruct (transmit_keeps _ _ _ _ _ Hp) as (E & _). rewrite E. apply (qu_addr _ _ _ _ HQ). }
      assert (Hag : agree (alist_get LOff (g14_life g) (pe_addr q)) q1).
      { eapply RL_agree; [eapply RL_quiet; [exact HQ|apply (proj1 Hlife _ _ Hq)]|exact I1]. }
      pose proof (tx_agree _ _ _ _ _ _ Hmax Hag Hp) as Hta. cbn beta iota in Hta. destruct Hta as (l' & Hl & Hag').
      assert (Hidx : index_of_addr (chs c s') (pe_addr q) = Some i).
      { rewrite <- Haq'. apply (slot_index_of_addr c Hc s' i q' I'). exact Hq'. }
      set (turns2 := if existsb (Z.eqb (pe_addr q)) (g14_turns g) then g14_turns g else pe_addr q :: g14_turns g).
      assert (Ht2 : In (pe_addr q) turns2 /\ (forall x, In x (g14_turns g) -> In x turns2) /\
                    (forall x, In x turns2 -> x = pe_addr q \/ In x (g14_turns g))).
      { unfold turns2. destruct (existsb (Z.eqb (pe_addr q)) (g14_turns g)) eqn:E.
        - apply existsb_in_iff in E. split; [exact E|]. split; [auto|]. intros x Hx. right; exact Hx.
        - split; [left; reflexivity|]. split; [intros x Hx; right; exact Hx|]. intros x [<-|Hx]; auto. }
      destruct Ht2 as (T2a & T2b & T2c).
      exists (g14_turns g), (if g14_dirty g then g14_cur g else None), (if g14_dirty g then g14_sends g else 0%nat),
             (alist_set (g14_life g) (pe_addr q) l'), turns2, rem'.
      split; [exact (Hr1 Hv)|].
      split; [apply (c14_r2_event g (chs c s') (g14_turns g) t (pe_addr q) EvOffline (dm_events m1) i l'); auto;
              unfold step_event; cbn [ts_taken t]; rewrite Hev; reflexivity|].
      split.
      { destruct (alist_set_spec _ LOff (g14_life g) (pe_addr q) l') as (Hoth & Hget).
        apply (per_ok_upd _ _ _ RL_quiet _ _ _ _ _ i q q' _ Hlife Hinj Hq Hq' Haq'); auto.
        - split; [|exact Hbw]. intros j qj Hne. apply Hpass. cbn. congruence.
        - rewrite Hget. apply Hag'. }
      rewrite Hv. split; [intros da E; discriminate E|]. split; [reflexivity|].
      intro Hd. rewrite Hd. split; [|exact Hrem].
      apply (turns_tx_off (cf_params c) (dm_op (sy_m s)) (sy_m s) (sy_m s') vis rem' (g14_turns g) (g14_cur g) (g14_sends g)
               (g14_due g) i q q' turns2); auto.
      + apply (V7 _ _ Hev).
      + intros j Hj. destruct (V1 _ Hj) as (q0 & q0' & ev0 & H1 & H2 & H3 & [->|(-> & H4)]).
        * right. exists q0, q0'. auto.
        * left. rewrite Hev in H4. inversion H4. reflexivity.
      + intros j Hj. apply (V3 eq_refl _ Hj). }
  destruct H as (turns1 & cur1 & sends1 & life' & turns2 & remx & -> & -> & Hlife' & Hcur & Hccp & Hturns).
  apply (c14_tail c s' gs' _ g life' (chs c s') turns2 cur1 sends1 (g14_dirty g) t remx HB'); auto.
  - intro E. now elim Hncc.
  - intro E. split; [exact (Hccp E)|exact (proj2 (Hccocc E))].
Qed.

Lemma c14_rx : forall s gs g now addr wire tg m1 n,
  Rel14 c s gs (Some addr) g ->
  decode wire = Ok (Accept tg (length wire)) -> dp_receive_reply (sy_m s) addr tg = Ok m1 ->
  SInv c (set_m s (set_events m1 events_default)) ->
  exists gs' g',
    c14_step c g n (mkStep (InRx now addr wire) false OutUnit (Some (dm_events m1))
                      (observe (set_m s (set_events m1 events_default))) (dm_op m1)) = inl g' /\
    Rel14 c (set_m s (set_events m1 events_default)) gs' None g'.
Proof.
  intros s gs g now addr wire tg m1 n (HB & Hh & Hcc & Hlife & HP & HT) Hdec Hrx I'.
  set (s' := set_m s (set_events m1 events_default)) in *.
  set (t := mkStep (InRx now addr wire) false OutUnit (Some (dm_events m1)) (observe s') (dm_op m1)).
  destruct HB as [I G]. pose proof (co_retry _ Hc) as Hmax.
  rewrite <- dp_receive_reply_erase in Hrx.
  destruct (dp_receive_reply_g (sy_m s) addr tg) as [[m1' log]| |] eqn:Hg; cbn [drop_log] in Hrx; try discriminate Hrx.
  inversion Hrx; subst m1'. clear Hrx.
  destruct (rx_ghost _ _ _ _ _ _ _ _ Hmax G Hg) as
    (i & p & p1 & ev & r & _ & _ & Hsl & Ha & _ & Hp & Hsl' & Hoth & _ & Hev & _ & Ii & _ & G' & Hr & Hpr').
  exists (gupd gs i (gstep (gs i) (WReply tg ev))).
  pose proof (sinv_addr_inj c s Hc I) as Hinj.
  assert (Hap : pe_addr p1 = pe_addr p) by (apply (receive_facts _ _ _ _ Hp)).
  assert (Hoq := others_quiet_upd (sy_m s) gs (sy_m s') _ i p p1 Hsl Hsl' Hoth (fun j Hne => gupd_other gs i (gstep (gs i) (WReply tg ev)) j Hne)).
  assert (Hfw : slots_fw (sy_m s) (sy_m s')).
  { intros j q Hq. destruct (Nat.eq_dec j i) as [->|Hne].
    - rewrite Hsl in Hq. inversion Hq; subst q. exists p1. auto.
    - destruct (proj1 Hoq _ _ Hne Hq) as (q' & Hq' & HQ). exists q'. split; [exact Hq'|apply (qu_addr _ _ _ _ HQ)]. }
  assert (Hv : view_of t = VReply addr tg) by (eapply view_rx; exact Hdec).
  assert (Hse : step_event t = option_map (fun e => (addr, e)) ev).
  { unfold step_event. cbn [ts_taken t]. rewrite Hev. cbn [ev_peripheral]. destruct ev; reflexivity. }
  assert (Hstepcc : step_cc t = is_nil r) by (unfold step_cc; cbn [ts_taken t]; rewrite Hev; reflexivity).
  assert (Hcc' : Ccomp (sy_m s')).
  { intros _ Hn. assert (X : In i (occupied (sy_m s'))) by (apply occupied_in_slot; exists p1; exact Hsl').
    rewrite Hn in X. destruct X. }
  rewrite c14_step_eq. cbn [ts_out t]. cbn zeta.
  change (c14_hs g t) with (g14_handles g). change (c14_dirty g t) with (g14_dirty g). rewrite Hh. change (chs c s) with (chs c s').
  assert (Hr1 : c14_r1 (Z.to_nat (p_max_retry (cf_params c))) g (chs c s') (g14_dirty g) t =
                inl (g14_turns g, None, 0%nat)).
  { unfold c14_r1. rewrite Hv. destruct (g14_dirty g); reflexivity. }
  rewrite Hr1.
  pose proof (proj1 Hlife _ _ Hsl) as Hrl. rewrite Ha in Hrl.
  assert (Hag : agree (alist_get LOff (g14_life g) addr) p) by (eapply RL_agree; [exact Hrl|exact Ii]).
  pose proof (rx_agree _ _ _ _ _ Hag Hp) as Hra.
  destruct (receive_reply_outcome _ _ _ _ Hp) as (Hal & _ & _). pose proof (rx_off _ _ _ Hal) as Hoff.
  assert (Hr2 : exists life', c14_r2 g (chs c s') (g14_turns g) t = inl (life', g14_turns g) /\
                  per_ok lstate LOff RL (sy_m s') (gupd gs i (gstep (gs i) (WReply tg ev))) life').
  { destruct ev as [e|].
    - destruct Hra as (l' & Hl & Hag'). exists (alist_set (g14_life g) addr l').
      destruct (alist_set_spec _ LOff (g14_life g) addr l') as (Hoth' & Hget). split.
      + rewrite (c14_r2_event g (chs c s') (g14_turns g) t addr e (dm_events m1) i l' Hse eq_refl); auto.
        * destruct e; try reflexivity. cbn beta iota in Hoff. contradiction.
        * rewrite Hev. reflexivity.
        * rewrite <- Ha, <- Hap. apply (slot_index_of_addr c Hc s' i p1 I' Hsl').
      + apply (per_ok_upd _ _ _ RL_quiet _ _ _ _ _ i p p1 _ Hlife Hinj Hsl Hsl' Hap Hoq); rewrite Ha; [exact Hoth'|].
        rewrite Hget. apply Hag'.
    - exists (g14_life g). split; [unfold c14_r2; rewrite Hse; reflexivity|].
      apply (per_ok_upd _ _ _ RL_quiet _ _ _ _ _ i p p1 _ Hlife Hinj Hsl Hsl' Hap Hoq); [reflexivity|].
      rewrite Ha. unfold RL in *. apply (rx_allowed_life _ (pe_state p) None (pe_state p1) Hrl Hal). }
  destruct Hr2 as (life' & -> & Hlife').
  apply (c14_tail c s' _ None g life' (chs c s') (g14_turns g) None 0%nat (g14_dirty g) t r); auto.
  - split; [exact I'|]. apply (ginv_frame _ m1); [reflexivity|reflexivity|exact G'].
  - rewrite Hstepcc. intro E. rewrite E in Hpr'. split; [reflexivity|exact Hpr'].
  - intro Hd. split.
    + specialize (HT Hd). rewrite Hr in HT. rewrite (HP addr eq_refl), <- Ha in HT.
      apply (turns_rx (cf_params c) (dm_op (sy_m s)) (sy_m s) (sy_m s') i r p _ _ _ HT Hr Hfw Hsl Hoth).
    + rewrite Hstepcc. destruct r; [reflexivity|symmetry; exact Hpr'].
Qed.

Lemma model_out_ok : forall s i s' t, model_step s i = Ok (s', t) ->
  match ts_out t with OutHang | OutPanic => False | _ => True end.
Proof.
  intros s i s' t H. unfold model_step in H.
  destruct (run_in s i) as [[s1 o]| |] eqn:Hr; cbn [bind] in H; try discriminate H. inversion H; subst s' t. cbn [ts_out].
  destruct i; cbn [run_in] in Hr; unfold bind in Hr;
    repeat match type of Hr with context [match ?x with _ => _ end] => destruct x end;
    try discriminate Hr; inversion Hr; exact Logic.I.
Qed.

(* add(): the new peripheral's order in the current cycle is not judged *)
Lemma c14_add : forall s gs g t s' gs' n,
  Rel14 c s gs None g -> Base c s' gs' None -> Trans c s gs None t s' gs' -> (exists k, ts_in t = InAdd k) ->
  dm_cycle (sy_m s') = dm_cycle (sy_m s) -> step_cc t = false -> ts_obs t = observe s' ->
  exists g', c14_step c g n t = inl g' /\ Rel14 c s' gs' None g'.
Proof.
  intros s gs g t s' gs' n (HB & Hh & Hcc & Hlife & HP & HT) HB' HTr (k0 & Hin0) Hcy Hncc Hto.
  destruct HTr as [_ _ Hin _ _|j q q' _ _ _ _ HS|k j pc _ Hin Hv Hev Hpc Hnone Hout Hhs Hfree Hnew Hoth -> Hfresh];
    [rewrite Hin0 in Hin; contradiction|now elim (slotev_no_add _ _ _ _ _ _ _ _ _ _ HS k0)|].
  rewrite c14_step_eq, Hout. cbn zeta.
  assert (Ehs : c14_hs g t = chs c s').
  { unfold c14_hs, chs. rewrite Hin, Hout, Hh, Hhs. unfold chs. symmetry. apply cur_hs_set_nth. exact Hpc. }
  assert (Ed : c14_dirty g t = true) by (unfold c14_dirty; rewrite Hin; reflexivity).
  assert (Er1 : c14_r1 (Z.to_nat (p_max_retry (cf_params c))) g (chs c s') true t = inl (g14_turns g, g14_cur g, g14_sends g))
    by (unfold c14_r1; rewrite Hv; reflexivity).
  assert (Er2 : c14_r2 g (chs c s') (g14_turns g) t = inl (g14_life g, g14_turns g)) by (unfold c14_r2; rewrite Hev; reflexivity).
  rewrite Ehs, Ed, Er1, Er2.
  apply (c14_tail c s' _ None g (g14_life g) (chs c s') (g14_turns g) (g14_cur g) (g14_sends g) true t [] HB'); auto.
  - intros E Hn. rewrite Hcy in E. specialize (Hcc E).
    destruct (occupied (sy_m s)) as [|j0 r0] eqn:Eo; [now elim Hcc|].
    assert (Hj0 : In j0 (occupied (sy_m s))) by (rewrite Eo; left; reflexivity).
    apply occupied_in_slot in Hj0. destruct Hj0 as (p0 & Hp0).
    assert (Hne : j0 <> j) by (intro X; subst j0; rewrite Hfree in Hp0; discriminate Hp0).
    assert (X : In j0 (occupied (sy_m s'))) by (apply occupied_in_slot; exists p0; rewrite Hoth by exact Hne; exact Hp0).
    rewrite Hn in X. destruct X.
  - apply (per_ok_add _ _ _ _ _ _ _ _ (periph_of_conf pc) Hlife Hfree Hnew Hoth Hfresh). reflexivity.
  - rewrite Hncc. intro E. discriminate E.
  - intro E. discriminate E.
Qed.

Lemma c14_sound_step : forall s gs pend g i t s' n,
  Rel14 c s gs pend g -> model_step s i = Ok (s', t) ->
  head_ok (p_address (cf_params c)) (sy_handles s) pend t -> is_reset_in i = false ->
  exists gs' g', c14_step c g n t = inl g' /\
                 Rel14 c s' gs' (pend_next_v pend (view_of t)) g' /\ sy_handles s' = hs_next (sy_handles s) t.
Proof.
  intros s gs pend g i t s' n HR Hstep Hhead Hnri. pose proof HR as (HB & _).
  destruct (model_trans c Hc s gs pend i t s' HB Hstep Hhead Hnri) as (gs' & HB' & HTr & HSc).
  pose proof (trans_handles c _ _ _ _ _ _ HTr) as Hhs. destruct (model_step_obs _ _ _ _ Hstep) as (Hto & _).
  destruct HSc as [Hh Hna Hus Hpr Hcy Hv Hev Hcc|now hp m1 o log -> Hop Hrel Es Et|now addr wire tg m1 -> Hdec Hrx Es Et|k Hin Hcy Hncc].
  - destruct (c14_static c s gs pend g t s' gs' n HR HB' Hh Hna Hus Hpr Hcy Hv Hev Hcc Hto (model_out_ok _ _ _ _ Hstep))
      as (g' & H1 & H2).
    exists gs', g'. auto.
  - subst s' t. destruct (c14_tx s gs g now hp m1 o log n HR Hop Hrel) as (gs2 & g' & H1 & H2).
    exists gs2, g'. auto.
  - subst s' t. destruct (c14_rx s gs g now addr wire tg m1 n HR Hdec Hrx (proj1 HB')) as (gs2 & g' & H1 & H2).
    exists gs2, g'. rewrite (view_rx _ _ _ _ _ _ _ _ Hdec). auto.
  - assert (Hp : pend = None /\ view_of t = VOther).
    { destruct HTr as [_ _ Hi _ _|j q q' _ _ _ _ HS|k1 j pc Hp _ Hv _ _ _ _ _ _ _ _ _ _];
        [rewrite Hin in Hi; contradiction|now elim (slotev_no_add _ _ _ _ _ _ _ _ _ _ HS k)|auto]. }
    destruct Hp as (-> & Hv). rewrite Hv in *. cbn [pend_next_v] in *.
    destruct (c14_add s gs g t s' gs' n HR HB' HTr (ex_intro _ k Hin) Hcy Hncc Hto) as (g' & H1 & H2).
    exists gs', g'. auto.
Qed.

End C14b.

(* two peripherals (7 is added at set-up, 9 later by add()), max_retry_limit 1; the history has a global control
   broadcast, bring-up requests, an accepted diagnostics reply (Online, the cycle completes), take_last_events,
   a time-out with retransmission, a request dropped by the FDL, user calls, add() between requests, the Offline
   event after 1 + 1 transmissions, probes of both peripherals, a completed cycle, a reply that is not accepted,
   an environment step and the CLEAN marker *)
Definition ex_pa : params := mkParams 2 B19200 100 32436 10 126 1 11 None.
Definition ex_opts : poptions := mkOpts 4660 false false 0 100 false (Some [170]) (Some [17]).
Definition ex_conf : conf :=
  mkConf ex_pa 256 2 false true
    [mkPconf None false 7 ex_opts 1 1 0; mkPconf None true 9 ex_opts 0 0 0]
    [slave_new 7 4660 [17] 1 1].
Definition ex_diag : bytes :=
  frame_spec (mkHeader 2 7 (Some 62) (Some 60) (FcResponse RsSlave StDataLow)) [0; 0; 0; 2; 18; 52].
Definition ex_ins : list tr_in :=
  [InEnter OpOperate; InTx 0 false; InTx 10 false; InRx 20 7 ex_diag; InTake; InTx 30 false; InTx 35 false; InTo 40 7;
   InTx 50 false; InAbandon; InReqDiag 0; InWriteQ 0 [5]; InAdd 1; InTx 60 false; InTx 70 false; InTo 80 9; InTx 90 false;
   InTx 100 false; InRx 110 7 [229]; InTx 120 false; InSlave 0 [229]; InClean].

Lemma ex_conf_ok : conf_ok ex_conf.
Proof.
  constructor; try reflexivity.
  - unfold ex_conf, ex_pa. cbn. lia.
  - intros k pc i Hk Hs. destruct k as [|[|k]]; cbn in Hk; try (destruct k; discriminate Hk);
      inversion Hk; subst pc; discriminate Hs.
Qed.

(* The computed histories are checked by one evaluation each: the model is run once and the result of the run
   is only tested, so that no transcript has to be written out in a proof. *)
Definition ex_run (ins : list tr_in) (chk : sys -> list tstep -> bool) : bool :=
  match init_sys ex_conf with
  | Ok s0 => match model_run s0 ins with Ok (_, tr) => chk s0 tr | _ => false end
  | _ => false
  end.

Lemma ex_run_true : forall ins chk, ex_run ins chk = true ->
  exists s0 s' tr, init_sys ex_conf = Ok s0 /\ model_run s0 ins = Ok (s', tr) /\ chk s0 tr = true.
Proof.
  intros ins chk H. unfold ex_run in H. destruct (init_sys ex_conf) as [s0| |] eqn:E0; try discriminate H.
  destruct (model_run s0 ins) as [[s' tr]| |] eqn:E1; try discriminate H. exists s0, s', tr. auto.
Qed.

Definition holds {P : Prop} (d : {P} + {~ P}) : bool := if d then true else false.

Lemma holds_true : forall (P : Prop) (d : {P} + {~ P}), holds d = true -> P.
Proof. intros P [H|] E; [exact H|discriminate E]. Qed.

Definition ev_dec : forall x y : option (Z * pevent), {x = y} + {x <> y}.
Proof. repeat decide equality. Defined.

Lemma oracle_sound_example :
  conf_ok ex_conf /\
  exists s0 s' tr, init_sys ex_conf = Ok s0 /\ model_run s0 ex_ins = Ok (s', tr) /\
    no_reset ex_ins = true /\ contract_ok ex_conf tr = true /\ driver_ok (sy_handles s0) tr = true /\ length tr = 22%nat /\
    map step_event tr = [None; None; None; Some (7, EvOnline); None; None; None; None; None; None; None; None; None;
                         Some (7, EvOffline); None; None; None; None; None; None; None; None] /\
    map step_cc tr = [false; false; false; true; false; false; false; false; false; false; false; false; false; false;
                      false; false; true; false; false; false; false; false].
Proof.
  split; [exact ex_conf_ok|].
  destruct (ex_run_true ex_ins (fun s0 tr =>
              no_reset ex_ins && contract_ok ex_conf tr && driver_ok (sy_handles s0) tr && Nat.eqb (length tr) 22 &&
              holds (list_eq_dec ev_dec (map step_event tr)
                       [None; None; None; Some (7, EvOnline); None; None; None; None; None; None; None; None; None;
                        Some (7, EvOffline); None; None; None; None; None; None; None; None]) &&
              holds (list_eq_dec Bool.bool_dec (map step_cc tr)
                       [false; false; false; true; false; false; false; false; false; false; false; false; false; false;
                        false; false; true; false; false; false; false; false])))
    as (s0 & s' & tr & E0 & E1 & H); [vm_compute; reflexivity|].
  repeat (apply andb_true_iff in H; let X := fresh "X" in destruct H as [H X]).
  exists s0, s', tr. repeat (split; [assumption|]).
  split; [apply Nat.eqb_eq; assumption|]. split; eapply holds_true; eassumption.
Qed.

Lemma nth_set_addr : forall c k a k',
  nth_error (cf_periphs (conf_set_addr c k a)) k' =
  if Nat.eqb k' k then option_map (fun p => pconf_set_addr p a) (nth_error (cf_periphs c) k)
  else nth_error (cf_periphs c) k'.
Proof.
  intros c k a k'. unfold conf_set_addr. cbn [cf_periphs].
  destruct (nth_error (cf_periphs c) k) as [pc|] eqn:Hk.
  - assert (Hlt : (k < length (cf_periphs c))%nat) by (apply nth_error_Some; rewrite Hk; discriminate).
    destruct (Nat.eqb_spec k' k) as [->|Hne].
    + rewrite set_nth_same by exact Hlt. reflexivity.
    + apply set_nth_other. exact Hne.
  - destruct (Nat.eqb_spec k' k) as [->|Hne]; [exact Hk|reflexivity].
Qed.

Lemma len_set_addr : forall c k a, length (cf_periphs (conf_set_addr c k a)) = length (cf_periphs c).
Proof.
  intros c k a. unfold conf_set_addr. cbn [cf_periphs].
  destruct (nth_error (cf_periphs c) k); [apply set_nth_length|reflexivity].
Qed.

Lemma conf_ok_set_addr : forall c k a,
  conf_ok c -> conf_sane (conf_set_addr c k a) = true -> 0 <= a <= 125 -> conf_ok (conf_set_addr c k a).
Proof.
  intros c k a Hc Hs Ha. constructor.
  - exact (co_auto _ Hc).
  - exact Hs.
  - pose proof (co_limits _ Hc) as Hl. unfold conf_within_limits in *.
    apply andb_true_iff in Hl. destruct Hl as [H1 H2]. apply andb_true_iff. split; [exact H1|].
    rewrite forallb_forall in *. intros x Hx. apply In_nth_error in Hx. destruct Hx as (k' & Hk').
    rewrite nth_set_addr in Hk'. destruct (Nat.eqb k' k).
    + destruct (nth_error (cf_periphs c) k) as [pc|] eqn:Hk; [|discriminate Hk']. inversion Hk'; subst x.
      specialize (H2 pc (nth_error_In _ _ Hk)).
      repeat (apply andb_true_iff in H2; let X := fresh "X" in destruct H2 as [H2 X]).
      cbn [pconf_set_addr pc_addr pc_in pc_out pc_opts]. rewrite X, X0, X1, X2.
      replace (0 <=? a) with true by (symmetry; apply Z.leb_le; lia).
      replace (a <=? 125) with true by (symmetry; apply Z.leb_le; lia). reflexivity.
    + apply H2. apply (nth_error_In _ _ Hk').
  - exact (co_retry _ Hc).
  - exact (co_own _ Hc).
  - intros k1 pc1 i H1 Hsl. rewrite nth_set_addr in H1.
    assert (Hbase : forall k2 pc2, nth_error (cf_periphs (conf_set_addr c k a)) k2 = Some pc2 ->
              exists pc0, nth_error (cf_periphs c) k2 = Some pc0 /\ pc_slot pc0 = pc_slot pc2).
    { intros k2 pc2 H. rewrite nth_set_addr in H. destruct (Nat.eqb_spec k2 k) as [->|Hne].
      - destruct (nth_error (cf_periphs c) k) as [pc0|]; [|discriminate H]. inversion H; subst pc2.
        exists pc0. split; reflexivity.
      - exists pc2. split; [exact H|reflexivity]. }
    assert (H1' : nth_error (cf_periphs (conf_set_addr c k a)) k1 = Some pc1) by (rewrite nth_set_addr; exact H1).
    destruct (Hbase _ _ H1') as (pc0 & Hpc0 & Es). rewrite <- Es in Hsl.
    destruct (co_placed _ Hc k1 pc0 i Hpc0 Hsl) as (Hlt & Hu). split; [exact Hlt|].
    intros k' pc' Hk' Hs'. destruct (Hbase _ _ Hk') as (pc0' & Hpc0' & Es'). rewrite <- Es' in Hs'.
    apply (Hu k' pc0' Hpc0' Hs').
Qed.

Lemma ra_sane_head : forall c l, ra_sane c l = true -> conf_sane c = true.
Proof. intros c [|t r] H; cbn [ra_sane] in H; [exact H|]. apply andb_true_iff in H. exact (proj1 H). Qed.

(* a reset_address step: the new address is a station address (0..125) and no reply of that peripheral is
   outstanding (DpOracle.known_reset_while_pending, F22) *)
Fixpoint reset_guard (c : conf) (pend : option Z) (l : list tstep) : bool :=
  match l with
  | [] => true
  | s :: r =>
      match reset_of c s with
      | Some (k, old, a) =>
          (0 <=? a) && (a <=? 125) &&
          negb (match pend with Some da => da =? old | None => false end) &&
          reset_guard (conf_set_addr c k a) pend r
      | None => reset_guard c (pend_next_v pend (view_of s)) r
      end
  end.

Lemma step_reset : forall s k a s' t,
  model_step s (InResetAddr k a) = Ok (s', t) -> is_bad (ts_out t) = false ->
  exists h p, nth_error (sy_handles s) k = Some (Some h) /\ slot (sy_m s) (hd_index h) = Some p /\
    s' = set_m s (set_slots (sy_m s) (put_slot (dm_slots (sy_m s)) (hd_index h) (p_reset_address p a))) /\
    t = mkStep (InResetAddr k a) false OutUnit None (observe s') (dm_op (sy_m s)).
Proof.
  intros s k a s' t H Hb. unfold model_step in H. cbn [run_in] in H. unfold handle_of in H.
  destruct (nth_error (sy_handles s) k) as [[h|]|] eqn:Hh;
    try (cbn [bind] in H; inversion H; subst t; discriminate Hb).
  unfold dp_reset_address, dp_update in H.
  destruct (dp_get_mut (sy_m s) h) as [p| |] eqn:Hg; cbn [bind] in H; try discriminate H.
  rewrite auto_take_other in H by reflexivity. cbn [fst snd taken_of] in H. inversion H; subst s' t.
  exists h, p. split; [reflexivity|]. split; [apply dp_get_mut_slot; exact Hg|]. split; reflexivity.
Qed.

Lemma reset_inv : forall pa p a, 0 <= p_max_retry pa ->
  Inv pa a (pe_opts p) (p_reset_address p a) ghost0.
Proof.
  intros. constructor; cbn; try reflexivity; try lia; try discriminate; auto; intros; try lia; try discriminate;
    try contradiction.
Qed.

Section Reset.
Variable c : conf.
Hypothesis Hc : conf_ok c.

Lemma reset_of_step : forall s gs pend k a s' t,
  Base c s gs pend -> model_step s (InResetAddr k a) = Ok (s', t) -> is_bad (ts_out t) = false ->
  exists old, reset_of c t = Some (k, old, a) /\ sy_handles s' = sy_handles s.
Proof.
  intros s gs pend k a s' t [I _] Hstep Hb.
  destruct (step_reset _ _ _ _ _ Hstep Hb) as (h & p & Hk & _ & -> & ->).
  destruct (si_h _ _ I _ _ Hk) as (pc & _ & Hpc & _). exists (pc_addr pc).
  split; [unfold reset_of, conf_addr; cbn [ts_in ts_out]; rewrite Hpc|]; reflexivity.
Qed.

(* what a reset_address step does to the system and to the invariants: slot i, the slot of peripheral k, is
   back to its initial state at the new address; the configuration in force follows *)
Lemma reset_common : forall s gs pend k a s' t old,
  Base c s gs pend -> model_step s (InResetAddr k a) = Ok (s', t) -> is_bad (ts_out t) = false ->
  reset_of c t = Some (k, old, a) -> conf_ok (conf_set_addr c k a) -> pend <> Some old ->
  exists i p h pc,
    Base (conf_set_addr c k a) s' (gupd gs i ghost0) pend /\
    slot (sy_m s) i = Some p /\ pe_addr p = old /\ slot (sy_m s') i = Some (p_reset_address p a) /\
    (forall j, j <> i -> slot (sy_m s') j = slot (sy_m s) j) /\
    (forall j q, j <> i -> slot (sy_m s) j = Some q -> pe_addr q <> a) /\
    addr_inj (sy_m s) /\ addr_inj (sy_m s') /\
    (forall da, pend = Some da -> exists j q, slot (sy_m s) j = Some q /\ pe_addr q = da) /\
    sy_handles s' = sy_handles s /\
    t = mkStep (InResetAddr k a) false OutUnit None (observe s') (dm_op (sy_m s')) /\
    pos_rem (sy_m s') = pos_rem (sy_m s) /\ dm_cycle (sy_m s') = dm_cycle (sy_m s) /\
    nth_error (sy_handles s) k = Some (Some h) /\ hd_index h = i /\ nth_error (cf_periphs c) k = Some pc /\ fits pc p.
Proof.
  intros s gs pend k a s' t old [I G] Hstep Hb Hro Hc' Hpend.
  destruct (step_reset _ _ _ _ _ Hstep Hb) as (h & p & Hk & Hsl & Es & Et).
  destruct (si_h _ _ I _ _ Hk) as (pc & p0 & Hpc & Hsl0 & Hfit). rewrite Hsl in Hsl0. inversion Hsl0; subst p0.
  assert (Eold : old = pc_addr pc).
  { rewrite Et in Hro. unfold reset_of, conf_addr in Hro. cbn [ts_in ts_out] in Hro. rewrite Hpc in Hro. inversion Hro; reflexivity. }
  subst old. remember (hd_index h) as i eqn:Ei.
  assert (Hslots : forall j, slot (sy_m s') j = if Nat.eqb j i then Some (p_reset_address p a) else slot (sy_m s) j).
  { intro j. rewrite Es. cbn [sy_m set_m]. destruct (Nat.eqb_spec j i) as [->|Hne].
    - apply (slot_put_same _ _ _ _ Hsl).
    - apply slot_put_other. intro E; apply Hne; symmetry; exact E. }
  assert (Hsl' : slot (sy_m s') i = Some (p_reset_address p a)) by (rewrite Hslots, Nat.eqb_refl; reflexivity).
  assert (Hoth : forall j, j <> i -> slot (sy_m s') j = slot (sy_m s) j)
    by (intros j Hne; rewrite Hslots; destruct (Nat.eqb_spec j i); [contradiction|reflexivity]).
  assert (Hhs : sy_handles s' = sy_handles s) by (rewrite Es; reflexivity).
  assert (Hpr : pos_rem (sy_m s') = pos_rem (sy_m s)).
  { rewrite Es. cbn [sy_m set_m]. apply pos_rem_mask; [apply (mask_put _ _ _ _ Hsl)|reflexivity]. }
  assert (I' : SInv (conf_set_addr c k a) s').
  { constructor.
    - destruct (si_conf _ _ I) as (E1 & E2 & E3 & E4). rewrite Es. cbn [sy_conf set_m].
      unfold conf_like. rewrite len_set_addr. unfold conf_set_addr. cbn [cf_params cf_bufsize cf_autotake]. auto.
    - rewrite Hhs, len_set_addr. exact (si_len _ _ I).
    - rewrite Es. cbn [sy_m set_m dm_events set_slots]. exact (si_events _ _ I).
    - intros k' h' Hk'. rewrite Hhs in Hk'. rewrite nth_set_addr. destruct (Nat.eqb_spec k' k) as [->|Hne].
      + rewrite Hk in Hk'. inversion Hk'; subst h'. rewrite Hpc. cbn [option_map].
        exists (pconf_set_addr pc a), (p_reset_address p a). split; [reflexivity|]. split; [rewrite <- Ei; exact Hsl'|].
        destruct Hfit as (F1 & F2 & F3 & F4). unfold fits. cbn. auto.
      + destruct (si_h _ _ I _ _ Hk') as (pc' & p' & Hpc' & Hs' & Hf'). exists pc', p'.
        split; [exact Hpc'|]. split; [|exact Hf']. rewrite Hoth; [exact Hs'|].
        intro E. apply Hne. apply (handle_index_unique c Hc s k' k h' h I Hk' Hk). congruence.
    - intros j q Hq. rewrite Hhs. rewrite Hslots in Hq. destruct (Nat.eqb_spec j i) as [->|Hne].
      + exists k, h. split; [exact Hk|symmetry; exact Ei].
      + apply (si_s _ _ I _ _ Hq).
    - intros k' Hk'. rewrite Hhs in Hk'. rewrite nth_set_addr. destruct (Nat.eqb_spec k' k) as [->|Hne].
      + rewrite Hk in Hk'. discriminate Hk'.
      + rewrite Es. cbn [sy_conf set_m]. apply (si_late _ _ I). exact Hk'. }
  assert (G' : GInv (cf_params c) (sy_m s') (gupd gs i ghost0) pend).
  { destruct G as [G1 G2 G3]. constructor.
    - intros j q Hq. rewrite Hslots in Hq. unfold gupd. destruct (Nat.eqb_spec j i) as [->|Hne]; [|apply G1; exact Hq].
      inversion Hq; subst q. cbn [pe_addr pe_opts p_reset_address]. apply reset_inv. pose proof (co_retry _ Hc). lia.
    - intros j q Hq Ho. rewrite Hslots in Hq. unfold gupd in Ho. destruct (Nat.eqb_spec j i) as [->|Hne]; [discriminate Ho|].
      unfold cur_is. rewrite Hpr. apply (G2 j q Hq Ho).
    - intros da E. destruct (G3 da E) as (j & q & Hcur & Hq & Ha & Ho).
      assert (Hne : j <> i).
      { intro X. subst j. rewrite Hsl in Hq. inversion Hq; subst q. apply Hpend. rewrite E, <- Ha. f_equal. exact (proj1 Hfit). }
      exists j, q. unfold cur_is. rewrite Hpr, Hoth, gupd_other by exact Hne. auto. }
  pose proof (sinv_addr_inj c s Hc I) as Hinj. pose proof (sinv_addr_inj _ s' Hc' I') as Hinj'.
  exists i, p, h, pc. split; [split; [exact I'|exact G']|]. split; [exact Hsl|]. split; [exact (proj1 Hfit)|].
  split; [exact Hsl'|]. split; [exact Hoth|]. split.
  { intros j q Hne Hq E. apply Hne. apply (Hinj' j i q (p_reset_address p a)); [rewrite Hoth by exact Hne; exact Hq|exact Hsl'|exact E]. }
  split; [exact Hinj|]. split; [exact Hinj'|]. split.
  { intros da E. destruct (gi_pend _ _ _ _ G da E) as (j & q & _ & Hq & Ha & _). exists j, q. auto. }
  split; [exact Hhs|]. split; [rewrite Et, Es; reflexivity|]. split; [exact Hpr|]. split; [rewrite Es; reflexivity|]. auto.
Qed.

End Reset.

Section PerAddrReset.
Variable A : Type.
Variable d : A.
Variable Rp : periph -> ghost -> A -> Prop.

Lemma per_ok_reset : forall m gs per m' i p p' old a,
  addr_inj m -> slot m i = Some p -> pe_addr p = old -> slot m' i = Some p' -> pe_addr p' = a ->
  (forall j, j <> i -> slot m' j = slot m j) ->
  (forall j q, j <> i -> slot m j = Some q -> pe_addr q <> a) ->
  Rp p' ghost0 d ->
  per_ok A d Rp m gs per -> per_ok A d Rp m' (gupd gs i ghost0) (alist_set (alist_set per old d) a d).
Proof.
  intros m gs per m' i p p' old a Hinj Hp Hold Hp' Ha Hoth Hfree Hr [H1 H2]. split.
  - intros j q Hq. unfold gupd. destruct (Nat.eqb_spec j i) as [->|Hne].
    + rewrite Hp' in Hq. inversion Hq; subst q. rewrite Ha, alist_get_set_same. exact Hr.
    + rewrite Hoth in Hq by exact Hne.
      rewrite alist_get_set_other by (apply (Hfree j q Hne Hq)).
      rewrite alist_get_set_other.
      * apply H1. exact Hq.
      * intro E. apply Hne. apply (Hinj _ _ _ _ Hq Hp). congruence.
  - intros x Hx.
    assert (Hxa : x <> a) by (intro E; apply (Hx i p' Hp'); congruence).
    rewrite alist_get_set_other by exact Hxa.
    destruct (Z.eq_dec x old) as [->|Hxo]; [apply alist_get_set_same|].
    rewrite alist_get_set_other by exact Hxo. apply H2.
    intros j q Hq. destruct (Nat.eq_dec j i) as [->|Hne].
    + rewrite Hp in Hq. inversion Hq; subst q. congruence.
    + apply (Hx j). rewrite Hoth by exact Hne. exact Hq.
Qed.

End PerAddrReset.

Lemma pend_link_reset : forall m gs pend op m' i p g0,
  addr_inj m' -> slot m i = Some p ->
  (forall j, j <> i -> slot m' j = slot m j) ->
  pend <> Some (pe_addr p) ->
  (forall da, pend = Some da -> exists j q, slot m j = Some q /\ pe_addr q = da) ->
  pend_link m gs pend op -> pend_link m' (gupd gs i g0) pend op.
Proof.
  intros m gs pend op m' i p g0 Hinj Hp Hoth Hne Hex H.
  destruct pend as [da|], op as [[da' sv]|]; try contradiction; [|exact Logic.I].
  destruct H as (-> & H). split; [reflexivity|].
  destruct (Hex da eq_refl) as (j & q & Hq & Hqa).
  assert (Hji : j <> i) by (intro X; subst j; rewrite Hp in Hq; inversion Hq; subst q; apply Hne; congruence).
  assert (Hq' : slot m' j = Some q) by (rewrite Hoth by exact Hji; exact Hq).
  intros i0 p0 Hp0 Ha0.
  assert (i0 = j) by (apply (Hinj _ _ _ _ Hp0 Hq'); congruence). subst i0.
  rewrite gupd_other by exact Hji. apply (H j q Hq Hqa).
Qed.

Lemma reset_of_none : forall c t, is_reset_in (ts_in t) = false -> reset_of c t = None.
Proof. intros c t H. unfold reset_of. destruct (ts_in t); try reflexivity. discriminate H. Qed.

Lemma reset_view : forall t k a, ts_in t = InResetAddr k a -> view_of t = VOther.
Proof. intros t k a H. unfold view_of. rewrite H. reflexivity. Qed.

Section GenericRa.
Variable St : Type.
Variable ostep : conf -> St -> nat -> tstep -> St + Z.
Variable ostep_ra : conf * St -> nat -> tstep -> (conf * St) + Z.
Variable R : conf -> sys -> gmap -> option Z -> St -> Prop.
Variable P : conf -> Prop.

Hypothesis HP : forall c k a, P c -> P (conf_set_addr c k a).
Hypothesis Hwrap : forall c g n t, P c -> reset_of c t = None ->
  ostep_ra (c, g) n t = match ostep c g n t with inl g' => inl (c, g') | inr e => inr e end.
Hypothesis HRB : forall c s gs pend g, R c s gs pend g -> Base c s gs pend.
Hypothesis Hstep : forall c, conf_ok c -> forall s gs pend g i t s' n,
  R c s gs pend g -> model_step s i = Ok (s', t) ->
  head_ok (p_address (cf_params c)) (sy_handles s) pend t -> is_reset_in i = false ->
  exists gs' g', ostep c g n t = inl g' /\ R c s' gs' (pend_next_v pend (view_of t)) g' /\
                 sy_handles s' = hs_next (sy_handles s) t.
Hypothesis Hreset : forall c, conf_ok c -> P c -> forall s gs pend g k a t s' n old,
  R c s gs pend g -> model_step s (InResetAddr k a) = Ok (s', t) -> is_bad (ts_out t) = false ->
  reset_of c t = Some (k, old, a) -> conf_ok (conf_set_addr c k a) -> pend <> Some old ->
  exists gs' g', ostep_ra (c, g) n t = inl (conf_set_addr c k a, g') /\ R (conf_set_addr c k a) s' gs' pend g'.

Lemma sound_generic_ra : forall ins c s gs pend g s' tr n,
  conf_ok c -> P c -> R c s gs pend g -> model_run s ins = Ok (s', tr) ->
  contract_from (p_address (cf_params c)) pend tr = true -> driver_from (sy_handles s) pend tr = true ->
  ra_sane c tr = true -> reset_guard c pend tr = true ->
  run_monitor ostep_ra (c, g) n tr = None.
Proof.
  induction ins as [|i ins IH]; intros c s gs pend g s' tr n Hc HPc HR Hrun Hct Hdr Hsane Hguard; cbn [model_run] in Hrun.
  - inversion Hrun; subst. reflexivity.
  - destruct (model_step s i) as [[s1 t]| |] eqn:Hs; cbn [bind] in Hrun; try discriminate Hrun.
    destruct (model_run s1 ins) as [[s2 tr1]| |] eqn:Hr; cbn [bind] in Hrun; try discriminate Hrun.
    inversion Hrun; subst s' tr. clear Hrun.
    assert (Hb : is_bad (ts_out t) = false).
    { cbn [driver_from] in Hdr. destruct (is_bad (ts_out t)); [discriminate Hdr|reflexivity]. }
    pose proof (model_view_not_crash _ _ _ _ Hs Hb) as Hv.
    destruct (heads _ _ _ _ _ Hct Hdr Hv) as (Hh & Hct' & Hdr').
    destruct (model_out_shape _ _ _ _ Hs) as (Hin & _).
    cbn [ra_sane] in Hsane. apply andb_true_iff in Hsane. destruct Hsane as [_ Hsane].
    cbn [reset_guard] in Hguard. cbn [run_monitor].
    destruct (is_reset_in i) eqn:Hri.
    + (* reset_address *)
      destruct i; try discriminate Hri.
      pose proof (HRB _ _ _ _ _ HR) as HB.
      destruct (reset_of_step c s gs pend k a s1 t HB Hs Hb) as (old & Hro & Hhs).
      rewrite Hro in Hsane, Hguard.
      apply andb_true_iff in Hguard. destruct Hguard as [Hguard Hg4].
      apply andb_true_iff in Hguard. destruct Hguard as [Hguard Hg3].
      apply andb_true_iff in Hguard. destruct Hguard as [Hg1 Hg2].
      apply Z.leb_le in Hg1. apply Z.leb_le in Hg2.
      assert (Hpend : pend <> Some old).
      { intro E. rewrite E, Z.eqb_refl in Hg3. discriminate Hg3. }
      assert (Hc' : conf_ok (conf_set_addr c k a)).
      { apply conf_ok_set_addr; [exact Hc|apply (ra_sane_head _ _ Hsane)|lia]. }
      destruct (Hreset c Hc HPc s gs pend g k a t s1 n old HR Hs Hb Hro Hc' Hpend) as (gs' & g' & Ho & HR').
      rewrite Ho. rewrite (reset_view t k a Hin) in Hct', Hdr'. cbn [pend_next_v] in Hct', Hdr'.
      rewrite hs_next_other in Hdr' by (intros k' E; rewrite Hin in E; discriminate E).
      rewrite <- Hhs in Hdr'.
      apply (IH (conf_set_addr c k a) s1 gs' pend g' s2 tr1 (S n) Hc' (HP _ _ _ HPc) HR' Hr Hct' Hdr' Hsane Hg4).
    + assert (Hro : reset_of c t = None) by (apply reset_of_none; rewrite Hin; exact Hri).
      rewrite Hro in Hsane, Hguard.
      destruct (Hstep c Hc _ _ _ _ _ _ _ n HR Hs Hh Hri) as (gs' & g' & Ho & HR' & Hhs).
      rewrite (Hwrap c g n t HPc Hro), Ho. rewrite <- Hhs in Hdr'.
      apply (IH c s1 gs' _ g' s2 tr1 (S n) Hc HPc HR' Hr Hct' Hdr' Hsane Hguard).
Qed.

End GenericRa.

Definition Pparams (pa : params) (c : conf) : Prop := cf_params c = pa.

Lemma Pparams_set : forall pa c k a, Pparams pa c -> Pparams pa (conf_set_addr c k a).
Proof. intros pa c k a H. exact H. Qed.

Lemma R8_reset : forall p a, R8 (p_reset_address p a) ghost0 c08_init.
Proof. intros. unfold R8. cbn. split; [reflexivity|]. split; [reflexivity|]. intro H; discriminate H. Qed.

Lemma pending_keep : forall (pendg : option (Z * service)) pend m gs old,
  pend_link m gs pend pendg -> pend <> Some old ->
  match pendg with Some (da, sv) => if da =? old then None else Some (da, sv) | None => None end = pendg.
Proof.
  intros [[da sv]|] pend m gs old H Hne; [|reflexivity].
  destruct pend as [d|]; [|contradiction]. destruct H as (-> & _).
  destruct (Z.eqb_spec d old) as [->|_]; [now elim Hne|reflexivity].
Qed.

Lemma c08_reset_step : forall pa c, conf_ok c -> forall s gs pend g k a t s' n old,
  Rel8 c s gs pend g -> model_step s (InResetAddr k a) = Ok (s', t) -> is_bad (ts_out t) = false ->
  reset_of c t = Some (k, old, a) -> conf_ok (conf_set_addr c k a) -> pend <> Some old ->
  exists gs' g', c08_step_ra (Z.to_nat (p_max_retry pa)) (c, g) n t = inl (conf_set_addr c k a, g') /\
                 Rel8 (conf_set_addr c k a) s' gs' pend g'.
Proof.
  intros pa c Hc s gs pend g k a t s' n old (HB & Hper & Hpl) Hs Hb Hro Hc' Hpend.
  destruct (reset_common c Hc s gs pend k a s' t old HB Hs Hb Hro Hc' Hpend)
    as (i & p & h & pc & HB' & Hsl & Hold & Hsl' & Hoth & Hfree & Hinj & Hinj' & Hex & _).
  unfold c08_step_ra. rewrite Hro. rewrite (pending_keep _ _ _ _ old Hpl Hpend).
  eexists. eexists. split; [reflexivity|].
  split; [exact HB'|]. cbn [g8_per g8_pending]. split.
  - apply (per_ok_reset c08st c08_init R8 (sy_m s) gs (g8_per g) (sy_m s') i p (p_reset_address p a) old a); auto.
    apply R8_reset.
  - apply (pend_link_reset (sy_m s) gs pend (g8_pending g) (sy_m s') i p ghost0); auto.
    rewrite Hold. exact Hpend.
Qed.

Theorem c08_oracle_sound_ra : forall c s0 ins s' tr, conf_ok c ->
  init_sys c = Ok s0 -> model_run s0 ins = Ok (s', tr) ->
  contract_ok c tr = true -> driver_ok (sy_handles s0) tr = true ->
  ra_sane c tr = true -> reset_guard c None tr = true ->
  c08_monitor_ra c tr = None.
Proof.
  intros c s0 ins s' tr Hc Hinit Hrun Hct Hdr Hsane Hguard.
  destruct (init_invariants c s0 Hc Hinit) as (I0 & G0 & _ & _ & Hfresh & _).
  unfold c08_monitor_ra.
  apply (sound_generic_ra c08g (fun c => c08_step (Z.to_nat (p_max_retry (cf_params c))))
           (c08_step_ra (Z.to_nat (p_max_retry (cf_params c)))) Rel8 (Pparams (cf_params c))
           (Pparams_set (cf_params c))) with (ins := ins) (s := s0) (gs := fun _ => ghost0) (pend := None) (s' := s'); auto.
  - intros c1 g n t HP Hro. unfold c08_step_ra. rewrite Hro. rewrite HP. reflexivity.
  - intros c1 s gs pend g (HB & _). exact HB.
  - intros c1 Hc1 s gs pend g i t s1 n HR Hs Hh Hri. apply (c08_sound_step c1 Hc1 s gs pend g i t s1 n HR Hs Hh Hri).
  - intros c1 Hc1 _. apply (c08_reset_step (cf_params c) c1 Hc1).
  - reflexivity.
  - split; [split; assumption|]. cbn [g8_per g8_pending]. split; [|exact Logic.I].
    split.
    + intros i p Hp. destruct (Hfresh _ _ Hp) as (k & pc & _ & ->). cbn. unfold periph_of_conf. apply R8_init.
    + intros a _. reflexivity.
Qed.

Lemma c03_reset_step : forall c, conf_ok c -> forall s gs pend g k a t s' n old,
  Rel3 c s gs pend g -> model_step s (InResetAddr k a) = Ok (s', t) -> is_bad (ts_out t) = false ->
  reset_of c t = Some (k, old, a) -> conf_ok (conf_set_addr c k a) -> pend <> Some old ->
  exists gs' g', c03_step_ra (c, g) n t = inl (conf_set_addr c k a, g') /\
                 Rel3 (conf_set_addr c k a) s' gs' pend g'.
Proof.
  intros c Hc s gs pend g k a t s' n old (HB & Hper & Hpl) Hs Hb Hro Hc' Hpend.
  destruct (reset_common c Hc s gs pend k a s' t old HB Hs Hb Hro Hc' Hpend)
    as (i & p & h & pc & HB' & Hsl & Hold & Hsl' & Hoth & Hfree & Hinj & Hinj' & Hex & _).
  unfold c03_step_ra. rewrite Hro.
  eexists. eexists. split; [reflexivity|].
  split; [exact HB'|]. cbn [g3_per g3_pending]. split.
  - apply (per_ok_reset phase PhNeedDiag R3 (sy_m s) gs (g3_per g) (sy_m s') i p (p_reset_address p a) old a); auto.
    reflexivity.
  - apply (pend_link_reset (sy_m s) gs pend (g3_pending g) (sy_m s') i p ghost0); auto.
    rewrite Hold. exact Hpend.
Qed.

Theorem c03_oracle_sound_ra : forall c s0 ins s' tr, conf_ok c ->
  init_sys c = Ok s0 -> model_run s0 ins = Ok (s', tr) ->
  contract_ok c tr = true -> driver_ok (sy_handles s0) tr = true ->
  ra_sane c tr = true -> reset_guard c None tr = true ->
  c03_monitor_ra c tr = None.
Proof.
  intros c s0 ins s' tr Hc Hinit Hrun Hct Hdr Hsane Hguard.
  destruct (init_invariants c s0 Hc Hinit) as (I0 & G0 & _ & _ & Hfresh & _).
  unfold c03_monitor_ra.
  apply (sound_generic_ra c03g c03_step c03_step_ra Rel3 (fun _ => True) (fun _ _ _ _ => Logic.I))
    with (ins := ins) (s := s0) (gs := fun _ => ghost0) (pend := None) (s' := s'); auto.
  - intros c1 g n t _ Hro. unfold c03_step_ra. rewrite Hro. reflexivity.
  - intros c1 s gs pend g (HB & _). exact HB.
  - intros c1 Hc1 s gs pend g i t s1 n HR Hs Hh Hri. apply (c03_sound_step c1 Hc1 s gs pend g i t s1 n HR Hs Hh Hri).
  - intros c1 Hc1 _. apply (c03_reset_step c1 Hc1).
  - split; [split; assumption|]. cbn [g3_per g3_pending]. split; [|exact Logic.I].
    split.
    + intros i p Hp. reflexivity.
    + intros a _. reflexivity.
Qed.

Lemma c04_reset_step : forall c, conf_ok c -> forall s gs pend g k a t s' n old,
  Rel4 c s gs pend g -> model_step s (InResetAddr k a) = Ok (s', t) -> is_bad (ts_out t) = false ->
  reset_of c t = Some (k, old, a) -> conf_ok (conf_set_addr c k a) -> pend <> Some old ->
  exists gs' g', c04_step_ra (c, g) n t = inl (conf_set_addr c k a, g') /\
                 Rel4 (conf_set_addr c k a) s' gs' pend g'.
Proof.
  intros c Hc s gs pend g k a t s' n old (HB & Hobs & Hop & Hpl) Hs Hb Hro Hc' Hpend.
  destruct (reset_common c Hc s gs pend k a s' t old HB Hs Hb Hro Hc' Hpend)
    as (i & p & h & pc & HB' & Hsl & Hold & Hsl' & Hoth & Hfree & Hinj & Hinj' & Hex & Hhs & -> & _).
  pose proof HB as [I G]. pose proof HB' as [I' G'].
  unfold c04_step_ra. rewrite Hro. rewrite (pending_keep _ _ _ _ old Hpl Hpend).
  assert (Hchk : chk_go None (InResetAddr k a) 0%nat (g4_obs g) (observe s') = None).
  { rewrite Hobs. apply (chk_images_ok c (conf_set_addr c k a) None _ s s' I I').
    - intros n0 h0 H0. rewrite Hhs. exact H0.
    - apply images_same; [|exact Logic.I].
      intros j q q' Hq Hq'. destruct (Nat.eq_dec j i) as [->|Hne].
      + rewrite Hsl in Hq. rewrite Hsl' in Hq'. inversion Hq; inversion Hq'; subst. split; reflexivity.
      + rewrite Hoth in Hq' by exact Hne. rewrite Hq in Hq'. inversion Hq'; subst. split; reflexivity. }
  match goal with |- context [c04_step c ?g0 n ?t0] =>
    assert (E : c04_step c g0 n t0 = inl (mkC04g (observe s') (dm_op (sy_m s')) (g4_pending g)))
      by (apply (c04_accept c g0 n t0); [discriminate|exact Hchk|reflexivity|apply evok_none; exact Logic.I]) end.
  rewrite E. eexists. eexists. split; [reflexivity|].
  split; [exact HB'|]. cbn [g4_obs g4_op g4_pending]. split; [reflexivity|]. split; [reflexivity|].
  apply (pend_link_reset (sy_m s) gs pend (g4_pending g) (sy_m s') i p ghost0); auto.
  rewrite Hold. exact Hpend.
Qed.

Theorem c04_oracle_sound_ra : forall c s0 ins s' tr, conf_ok c ->
  init_sys c = Ok s0 -> model_run s0 ins = Ok (s', tr) ->
  contract_ok c tr = true -> driver_ok (sy_handles s0) tr = true ->
  ra_sane c tr = true -> reset_guard c None tr = true ->
  c04_monitor_ra c (observe s0) tr = None.
Proof.
  intros c s0 ins s' tr Hc Hinit Hrun Hct Hdr Hsane Hguard.
  destruct (init_invariants c s0 Hc Hinit) as (I0 & G0 & Hop0 & _ & Hfresh & _).
  unfold c04_monitor_ra.
  apply (sound_generic_ra c04g c04_step c04_step_ra Rel4 (fun _ => True) (fun _ _ _ _ => Logic.I))
    with (ins := ins) (s := s0) (gs := fun _ => ghost0) (pend := None) (s' := s'); auto.
  - intros c1 g n t _ Hro. unfold c04_step_ra. rewrite Hro. reflexivity.
  - intros c1 s gs pend g (HB & _). exact HB.
  - intros c1 Hc1 s gs pend g i t s1 n HR Hs Hh Hri. apply (c04_sound_step c1 Hc1 s gs pend g i t s1 n HR Hs Hh Hri).
  - intros c1 Hc1 _. apply (c04_reset_step c1 Hc1).
  - split; [split; assumption|]. cbn [g4_obs g4_op g4_pending]. split; [reflexivity|].
    split; [symmetry; exact Hop0|exact Logic.I].
Qed.

Lemma chs_set_addr : forall ps hs k pc h a,
  nth_error ps k = Some pc -> nth_error hs k = Some (Some h) ->
  handles_set_addr (cur_hs ps hs) k a = cur_hs (set_nth ps k (pconf_set_addr pc a)) hs.
Proof.
  induction ps as [|p ps IH]; intros hs k pc h a Hp Hh.
  - destruct k; discriminate Hp.
  - destruct hs as [|x hs]; [destruct k; discriminate Hh|].
    destruct k as [|k].
    + cbn in Hp, Hh. inversion Hp; subst p. inversion Hh; subst x. reflexivity.
    + cbn [nth_error] in Hp, Hh. specialize (IH hs k pc h a Hp Hh).
      unfold handles_set_addr in *. destruct x as [hx|]; cbn [cur_hs set_nth nth_error].
      * destruct (nth_error (cur_hs ps hs) k) as [[h1|]|]; rewrite <- IH; reflexivity.
      * destruct (nth_error (cur_hs ps hs) k) as [[h1|]|]; rewrite <- IH; reflexivity.
Qed.

Lemma cur_hs_id : forall ps hs, length hs = length ps ->
  (forall k h, nth_error hs k = Some (Some h) -> exists pc, nth_error ps k = Some pc /\ hd_addr h = pc_addr pc) ->
  cur_hs ps hs = hs.
Proof.
  induction ps as [|p ps IH]; intros [|x hs] Hl H; try discriminate Hl; [reflexivity|].
  cbn in Hl. assert (IH' : cur_hs ps hs = hs).
  { apply IH; [lia|]. intros k h Hk. apply (H (S k) h Hk). }
  destruct x as [h|]; cbn [cur_hs]; rewrite IH'; [|reflexivity].
  destruct (H 0%nat h eq_refl) as (pc & Hpc & Ha). cbn in Hpc. inversion Hpc; subst pc.
  rewrite <- Ha. destruct h; reflexivity.
Qed.

Lemma turns_reset : forall m m' rem turns cur sends due i p a,
  addr_inj m -> slot m i = Some p -> slot m' i = Some (p_reset_address p a) ->
  (forall j, j <> i -> slot m' j = slot m j) -> dm_cycle m' = dm_cycle m ->
  Turns m rem turns cur sends due ->
  Turns m' rem (map (fun x => if x =? pe_addr p then a else x) turns)
     (match cur with Some x => Some (if x =? pe_addr p then a else x) | None => None end)
     (if match cur with Some x => x =? pe_addr p | None => false end then 0%nat else sends)
     (filter (fun x => negb (x =? pe_addr p)) due).
Proof.
  intros m m' rem turns cur sends due i p a Hinj Hp Hp' Hoth Hcy [T4 T5 T6 T7].
  (* a slot with address x in m: the same slot has the renamed address in m' *)
  assert (Hren : forall j q, slot m j = Some q ->
            exists q', slot m' j = Some q' /\ pe_addr q' = (if pe_addr q =? pe_addr p then a else pe_addr q) /\
                       ((pe_addr q =? pe_addr p) = true -> j = i /\ pe_retry q' = 0) /\
                       ((pe_addr q =? pe_addr p) = false -> q' = q)).
  { intros j q Hq. destruct (Z.eqb_spec (pe_addr q) (pe_addr p)) as [E|Hne].
    - assert (j = i) by (apply (Hinj _ _ _ _ Hq Hp E)). subst j.
      exists (p_reset_address p a). split; [exact Hp'|]. split; [reflexivity|]. split; [auto|]. intro X; discriminate X.
    - assert (Hji : j <> i) by (intro X; subst j; rewrite Hp in Hq; inversion Hq; subst q; apply Hne; reflexivity).
      exists q. split; [rewrite Hoth by exact Hji; exact Hq|]. split; [reflexivity|]. split; [intro X; discriminate X|auto]. }
  constructor.
  - intros x Hx. apply in_map_iff in Hx. destruct Hx as (y & <- & Hy).
    destruct (T4 y Hy) as (j & q & Hq & Hqa & Hor). destruct (Hren _ _ Hq) as (q' & Hq' & Ea & _).
    exists j, q'. split; [exact Hq'|]. split; [rewrite Ea, Hqa; reflexivity|].
    destruct Hor as [Hn|(r & Hr & Hc)]; [left; exact Hn|right]. exists r. split; [exact Hr|]. rewrite Hc. reflexivity.
  - intros x Hx. destruct cur as [y|]; [|discriminate Hx]. inversion Hx; subst x. clear Hx.
    destruct (T5 y eq_refl) as (j & r & q & Hr & Hq & Hqa & Hin & Hsd).
    destruct (Hren _ _ Hq) as (q' & Hq' & Ea & H1 & H2).
    exists j, r, q'. split; [exact Hr|]. split; [exact Hq'|]. split; [rewrite Ea, Hqa; reflexivity|].
    split; [apply in_map_iff; exists y; auto|].
    rewrite <- Hqa. destruct (pe_addr q =? pe_addr p) eqn:E.
    + destruct (H1 eq_refl) as (_ & ->). cbn. lia.
    + rewrite (H2 eq_refl). exact Hsd.
  - intros x Hx. apply filter_In in Hx. destruct Hx as (Hx & Hne). apply negb_true_iff in Hne.
    destruct (T6 x Hx) as [Hin|(j & q & Hj & Hq & Hqa & Hl & Hcm)].
    + left. apply in_map_iff. exists x. rewrite Hne. auto.
    + right. destruct (Hren _ _ Hq) as (q' & Hq' & _ & _ & H2). rewrite Hqa, Hne in H2. rewrite (H2 eq_refl) in Hq'.
      exists j, q. auto.
  - intro E. rewrite Hcy in E. rewrite (T7 E). reflexivity.
Qed.

Lemma c14_reset_step : forall c, conf_ok c -> forall s gs pend g k a t s' n old,
  Rel14 c s gs pend g -> model_step s (InResetAddr k a) = Ok (s', t) -> is_bad (ts_out t) = false ->
  reset_of c t = Some (k, old, a) -> conf_ok (conf_set_addr c k a) -> pend <> Some old ->
  exists gs' g', c14_step_ra (c, g) n t = inl (conf_set_addr c k a, g') /\
                 Rel14 (conf_set_addr c k a) s' gs' pend g'.
Proof.
  intros c Hc s gs pend g k a t s' n old (HB & Hh & Hcc & Hlife & HP & HT) Hs Hb Hro Hc' Hpend.
  destruct (reset_common c Hc s gs pend k a s' t old HB Hs Hb Hro Hc' Hpend)
    as (i & p & h & pc & HB' & Hsl & Hold & Hsl' & Hoth & Hfree & Hinj & Hinj' & Hex & Hhs & -> & Hpr & Hcy & Hk & Hhi & Hpc & Hfit).
  unfold c14_step_ra. rewrite Hro.
  match goal with |- context [c14_step ?c2 ?g1 n ?t] => set (g1v := g1) end.
  assert (HR1 : Rel14 (conf_set_addr c k a) s' (gupd gs i ghost0) pend g1v).
  { split; [exact HB'|]. unfold g1v. cbn [g14_handles g14_life g14_cur g14_dirty g14_turns g14_sends g14_due].
    split.
    { rewrite Hh. unfold chs. rewrite Hhs. unfold conf_set_addr. cbn [cf_periphs]. rewrite Hpc.
      apply (chs_set_addr _ _ _ _ h a Hpc Hk). }
    split.
    { intros _ E. assert (X : In i (occupied (sy_m s'))) by (apply occupied_in_slot; eexists; exact Hsl').
      rewrite E in X. destruct X. }
    split.
    { apply (per_ok_reset lstate LOff RL (sy_m s) gs (g14_life g) (sy_m s') i p (p_reset_address p a) old a); auto.
      reflexivity. }
    split.
    { intros da E. rewrite (HP da E). destruct (Z.eqb_spec da old) as [->|_]; [now elim Hpend|reflexivity]. }
    intro Hd. specialize (HT Hd). rewrite Hpr. rewrite <- Hold.
    apply (turns_reset (sy_m s) (sy_m s') _ _ _ _ _ i p a Hinj Hsl Hsl' Hoth Hcy HT). }
  match goal with |- context [c14_step _ _ n ?t] =>
    destruct (c14_static (conf_set_addr c k a) s' (gupd gs i ghost0) pend g1v t s' (gupd gs i ghost0) n HR1) as (g' & Hg1 & Hg2)
  end; try reflexivity; try exact Logic.I.
  - exact HB'.
  - intros k0 E. discriminate E.
  - intro j. left. reflexivity.
  - left. reflexivity.
  - rewrite Hg1. exists (gupd gs i ghost0), g'. auto.
Qed.

Theorem c14_oracle_sound_ra : forall c s0 ins s' tr, conf_ok c ->
  init_sys c = Ok s0 -> model_run s0 ins = Ok (s', tr) ->
  contract_ok c tr = true -> driver_ok (sy_handles s0) tr = true ->
  ra_sane c tr = true -> reset_guard c None tr = true ->
  c14_monitor_ra c (sy_handles s0) tr = None.
Proof.
  intros c s0 ins s' tr Hc Hinit Hrun Hct Hdr Hsane Hguard.
  destruct (init_invariants c s0 Hc Hinit) as (I0 & G0 & Hop0 & Hcy0 & Hfresh & Hha & _).
  unfold c14_monitor_ra.
  apply (sound_generic_ra c14g c14_step c14_step_ra Rel14 (fun _ => True) (fun _ _ _ _ => Logic.I))
    with (ins := ins) (s := s0) (gs := fun _ => ghost0) (pend := None) (s' := s'); auto.
  - intros c1 g n t _ Hro. unfold c14_step_ra. rewrite Hro. reflexivity.
  - intros c1 s gs pend g (HB & _). exact HB.
  - intros c1 Hc1 s gs pend g i t s1 n HR Hs Hh Hri. apply (c14_sound_step c1 Hc1 s gs pend g i t s1 n HR Hs Hh Hri).
  - intros c1 Hc1 _. apply (c14_reset_step c1 Hc1).
  - split; [split; assumption|]. cbn [g14_handles g14_life g14_cur g14_dirty g14_turns g14_sends g14_due].
    split.
    { unfold chs. symmetry. apply cur_hs_id; [exact (si_len _ _ I0)|exact Hha]. }
    split; [intro E; rewrite Hcy0 in E; discriminate E|]. split.
    + split.
      * intros i p Hp. destruct (Hfresh _ _ Hp) as (k & pc & _ & ->). reflexivity.
      * intros a _. reflexivity.
    + split; [intros da E; discriminate E|]. intros _. apply turns_fresh.
      * apply pos_rem_zero. exact Hcy0.
      * intros a [].
Qed.

Section Wrap.
Variable St : Type.
Variable c : conf.
Variable step : St -> nat -> tstep -> St + Z.
Variable step_ra : conf * St -> nat -> tstep -> (conf * St) + Z.
Hypothesis Hwrap : forall g i s, is_reset_in (ts_in s) = false ->
  step_ra (c, g) i s = match step g i s with inl g' => inl (c, g') | inr code => inr code end.

Lemma run_monitor_wrap : forall l g i, has_reset l = false ->
  run_monitor step_ra (c, g) i l = run_monitor step g i l.
Proof.
  induction l as [|s l IH]; intros g i H; [reflexivity|].
  unfold has_reset in H. cbn [existsb] in H. apply orb_false_iff in H. destruct H as [H1 H2].
  cbn [run_monitor]. rewrite (Hwrap g i s H1). destruct (step g i s) as [g'|code]; [apply IH; exact H2|reflexivity].
Qed.
End Wrap.

Theorem c03_ra_agrees : forall c l, has_reset l = false -> c03_monitor_ra c l = c03_monitor c l.
Proof.
  intros c l H. unfold c03_monitor_ra, c03_monitor. apply run_monitor_wrap; [|exact H].
  intros g i s Hs. unfold c03_step_ra. rewrite (reset_of_none c s Hs). reflexivity.
Qed.

Theorem c08_ra_agrees : forall c l, has_reset l = false -> c08_monitor_ra c l = c08_monitor c l.
Proof.
  intros c l H. unfold c08_monitor_ra, c08_monitor. apply run_monitor_wrap; [|exact H].
  intros g i s Hs. unfold c08_step_ra. rewrite (reset_of_none c s Hs). reflexivity.
Qed.

Theorem c04_ra_agrees : forall c obs0 l, has_reset l = false -> c04_monitor_ra c obs0 l = c04_monitor c obs0 l.
Proof.
  intros c obs0 l H. unfold c04_monitor_ra, c04_monitor. apply run_monitor_wrap; [|exact H].
  intros g i s Hs. unfold c04_step_ra. rewrite (reset_of_none c s Hs). reflexivity.
Qed.

Theorem c14_ra_agrees : forall c hs0 l, has_reset l = false -> c14_monitor_ra c hs0 l = c14_monitor c hs0 l.
Proof.
  intros c hs0 l H. unfold c14_monitor_ra, c14_monitor. apply run_monitor_wrap; [|exact H].
  intros g i s Hs. unfold c14_step_ra. rewrite (reset_of_none c s Hs). reflexivity.
Qed.

Theorem c07_ra_agrees : forall c l, has_reset l = false -> c07_monitor_ra c l = c07_monitor c l.
Proof.
  intros c l H. unfold c07_monitor_ra, c07_monitor.
  destruct (ts_op (last l (mkStep InClean false OutUnit None [] OpStop))); try reflexivity;
    (apply run_monitor_wrap; [|exact H]; intros g i s Hs; unfold c07_step_ra; rewrite (reset_of_none c s Hs); reflexivity).
Qed.

Lemma ra_sane_plain : forall c l, has_reset l = false -> ra_sane c l = conf_sane c.
Proof.
  intros c l. induction l as [|s l IH]; intro H; [reflexivity|].
  unfold has_reset in H. cbn [existsb] in H. apply orb_false_iff in H. destruct H as [H1 H2].
  cbn [ra_sane]. rewrite (reset_of_none c s H1). rewrite (IH H2). destruct (conf_sane c); reflexivity.
Qed.

Lemma reset_guard_plain : forall l c pend, has_reset l = false -> reset_guard c pend l = true.
Proof.
  induction l as [|s l IH]; intros c pend H; [reflexivity|].
  unfold has_reset in H. cbn [existsb] in H. apply orb_false_iff in H. destruct H as [H1 H2].
  cbn [reset_guard]. rewrite (reset_of_none c s H1). apply IH. exact H2.
Qed.

Section RaSound.
Variable c : conf.
Hypothesis Hc : conf_ok c.

Lemma plain_hyps : forall s0 ins s' tr, model_run s0 ins = Ok (s', tr) -> no_reset ins = true ->
  has_reset tr = false /\ ra_sane c tr = true /\ reset_guard c None tr = true.
Proof.
  intros s0 ins s' tr Hr Hn. pose proof (model_run_no_reset _ _ _ _ Hr Hn) as H.
  split; [exact H|]. split; [rewrite (ra_sane_plain c tr H); exact (co_sane _ Hc)|apply reset_guard_plain; exact H].
Qed.

Theorem c03_oracle_sound_ra0 : forall s0 ins s' tr,
  init_sys c = Ok s0 -> no_reset ins = true -> model_run s0 ins = Ok (s', tr) ->
  contract_ok c tr = true -> driver_ok (sy_handles s0) tr = true ->
  c03_monitor_ra c tr = None.
Proof.
  intros s0 ins s' tr H0 Hn Hr Hct Hd. destruct (plain_hyps _ _ _ _ Hr Hn) as (_ & H1 & H2).
  apply (c03_oracle_sound_ra c s0 ins s' tr); assumption.
Qed.

Theorem c08_oracle_sound_ra0 : forall s0 ins s' tr,
  init_sys c = Ok s0 -> no_reset ins = true -> model_run s0 ins = Ok (s', tr) ->
  contract_ok c tr = true -> driver_ok (sy_handles s0) tr = true ->
  c08_monitor_ra c tr = None.
Proof.
  intros s0 ins s' tr H0 Hn Hr Hct Hd. destruct (plain_hyps _ _ _ _ Hr Hn) as (_ & H1 & H2).
  apply (c08_oracle_sound_ra c s0 ins s' tr); assumption.
Qed.

Theorem c04_oracle_sound_ra0 : forall s0 ins s' tr,
  init_sys c = Ok s0 -> no_reset ins = true -> model_run s0 ins = Ok (s', tr) ->
  contract_ok c tr = true -> driver_ok (sy_handles s0) tr = true ->
  c04_monitor_ra c (observe s0) tr = None.
Proof.
  intros s0 ins s' tr H0 Hn Hr Hct Hd. destruct (plain_hyps _ _ _ _ Hr Hn) as (_ & H1 & H2).
  apply (c04_oracle_sound_ra c s0 ins s' tr); assumption.
Qed.

Theorem c14_oracle_sound_ra0 : forall s0 ins s' tr,
  init_sys c = Ok s0 -> no_reset ins = true -> model_run s0 ins = Ok (s', tr) ->
  contract_ok c tr = true -> driver_ok (sy_handles s0) tr = true ->
  c14_monitor_ra c (sy_handles s0) tr = None.
Proof.
  intros s0 ins s' tr H0 Hn Hr Hct Hd. destruct (plain_hyps _ _ _ _ Hr Hn) as (_ & H1 & H2).
  apply (c14_oracle_sound_ra c s0 ins s' tr); assumption.
Qed.

Theorem c03_oracle_sound : forall s0 ins s' tr,
  init_sys c = Ok s0 -> no_reset ins = true -> model_run s0 ins = Ok (s', tr) ->
  contract_ok c tr = true -> driver_ok (sy_handles s0) tr = true ->
  c03_monitor c tr = None.
Proof.
  intros s0 ins s' tr H0 Hn Hr Hct Hd. rewrite <- (c03_ra_agrees c tr (model_run_no_reset _ _ _ _ Hr Hn)).
  apply (c03_oracle_sound_ra0 s0 ins s' tr); assumption.
Qed.

Theorem c08_oracle_sound : forall s0 ins s' tr,
  init_sys c = Ok s0 -> no_reset ins = true -> model_run s0 ins = Ok (s', tr) ->
  contract_ok c tr = true -> driver_ok (sy_handles s0) tr = true ->
  c08_monitor c tr = None.
Proof.
  intros s0 ins s' tr H0 Hn Hr Hct Hd. rewrite <- (c08_ra_agrees c tr (model_run_no_reset _ _ _ _ Hr Hn)).
  apply (c08_oracle_sound_ra0 s0 ins s' tr); assumption.
Qed.

Theorem c04_oracle_sound : forall s0 ins s' tr,
  init_sys c = Ok s0 -> no_reset ins = true -> model_run s0 ins = Ok (s', tr) ->
  contract_ok c tr = true -> driver_ok (sy_handles s0) tr = true ->
  c04_monitor c (observe s0) tr = None.
Proof.
  intros s0 ins s' tr H0 Hn Hr Hct Hd. rewrite <- (c04_ra_agrees c _ tr (model_run_no_reset _ _ _ _ Hr Hn)).
  apply (c04_oracle_sound_ra0 s0 ins s' tr); assumption.
Qed.

Theorem c14_oracle_sound : forall s0 ins s' tr,
  init_sys c = Ok s0 -> no_reset ins = true -> model_run s0 ins = Ok (s', tr) ->
  contract_ok c tr = true -> driver_ok (sy_handles s0) tr = true ->
  c14_monitor c (sy_handles s0) tr = None.
Proof.
  intros s0 ins s' tr H0 Hn Hr Hct Hd. rewrite <- (c14_ra_agrees c _ tr (model_run_no_reset _ _ _ _ Hr Hn)).
  apply (c14_oracle_sound_ra0 s0 ins s' tr); assumption.
Qed.
End RaSound.

Fixpoint reset_range (c : conf) (l : list tstep) : bool :=
  match l with
  | [] => true
  | s :: r =>
      match reset_of c s with
      | Some (k, _, a) => (0 <=? a) && (a <=? 125) && reset_range (conf_set_addr c k a) r
      | None => reset_range c r
      end
  end.

Definition kstep (acc : (conf * option Z) * bool) (s : tstep) : (conf * option Z) * bool :=
  let '(c, pending, hit) := acc in
  match reset_of c s with
  | Some (k, old, a) =>
      (conf_set_addr c k a, pending, hit || match pending with Some da => da =? old | None => false end)
  | None =>
      match view_of s with
      | VReq da _ _ _ => (c, Some da, hit)
      | VReply _ _ | VTimeout _ | VAbandon => (c, None, hit)
      | _ => (c, pending, hit)
      end
  end.

Lemma known_eq : forall c l, known_reset_while_pending c l = snd (fold_left kstep l (c, None, false)).
Proof. reflexivity. Qed.

Lemma kstep_hit : forall l c p, snd (fold_left kstep l (c, p, true)) = true.
Proof.
  induction l as [|s l IH]; intros c p; [reflexivity|]. cbn [fold_left]. unfold kstep at 2.
  destruct (reset_of c s) as [[[k old] a]|]; [apply IH|].
  destruct (view_of s); apply IH.
Qed.

Lemma reset_guard_known_gen : forall l c pk pm, (pm = None \/ pm = pk) ->
  snd (fold_left kstep l (c, pk, false)) = false -> reset_range c l = true -> reset_guard c pm l = true.
Proof.
  induction l as [|s l IH]; intros c pk pm Hp Hk Hr; [reflexivity|].
  cbn [fold_left] in Hk. unfold kstep at 2 in Hk. cbn [reset_range] in Hr. cbn [reset_guard].
  destruct (reset_of c s) as [[[k old] a]|].
  - apply andb_true_iff in Hr. destruct Hr as [Hr1 Hr2]. rewrite Hr1. cbn [orb andb] in *.
    destruct (match pk with Some da => da =? old | None => false end) eqn:E.
    + rewrite kstep_hit in Hk. discriminate Hk.
    + assert (E' : match pm with Some da => da =? old | None => false end = false)
        by (destruct Hp as [->| ->]; [reflexivity|exact E]).
      rewrite E'. cbn [negb andb]. apply (IH _ pk pm Hp Hk Hr2).
  - destruct (view_of s) eqn:Ev; cbn [pend_next_v];
      first [apply (IH c _ _ (or_intror eq_refl) Hk Hr) | apply (IH c _ _ (or_introl eq_refl) Hk Hr) | apply (IH c _ _ Hp Hk Hr)].
Qed.

(* the driver's test: no reset_address while the reply of that peripheral is outstanding (outside F22), and every
   new address a station address (reset_range) *)
Theorem reset_guard_known : forall c l,
  known_reset_while_pending c l = false -> reset_range c l = true -> reset_guard c None l = true.
Proof.
  intros c l Hk Hr. rewrite known_eq in Hk. apply (reset_guard_known_gen l c None None); auto.
Qed.

(* ex_conf as above; reset_address to the same address after the bring-up started, to another address after a
   time-out, of a peripheral that was just added, and back to the first address *)
Definition ex_ins_ra : list tr_in :=
  [InEnter OpOperate; InTx 0 false; InTx 10 false; InRx 20 7 ex_diag; InTake; InResetAddr 0 7; InTx 30 false;
   InTx 35 false; InTo 40 7; InResetAddr 0 12; InTx 50 false; InTo 60 12; InAdd 1; InResetAddr 1 9; InTx 70 false;
   InTo 80 9; InTx 90 false; InResetAddr 0 7; InTx 110 false; InTo 120 7; InClean].

Lemma oracle_sound_ra_example :
  conf_ok ex_conf /\
  exists s0 s' tr, init_sys ex_conf = Ok s0 /\ model_run s0 ex_ins_ra = Ok (s', tr) /\
    has_reset tr = true /\ contract_ok ex_conf tr = true /\ driver_ok (sy_handles s0) tr = true /\
    ra_sane ex_conf tr = true /\ known_reset_while_pending ex_conf tr = false /\ reset_range ex_conf tr = true /\
    reset_guard ex_conf None tr = true /\ length tr = 21%nat /\
    map (fun t => match reset_of ex_conf t with Some _ => true | None => false end) tr =
      [false; false; false; false; false; true; false; false; false; true; false; false; false; true; false; false;
       false; true; false; false; false] /\
    map step_event tr = [None; None; None; Some (7, EvOnline); None; None; None; None; None; None; None; None; None;
                         None; None; None; None; None; None; None; None].
Proof.
  split; [exact ex_conf_ok|].
  destruct (ex_run_true ex_ins_ra (fun s0 tr =>
              has_reset tr && contract_ok ex_conf tr && driver_ok (sy_handles s0) tr && ra_sane ex_conf tr &&
              negb (known_reset_while_pending ex_conf tr) && reset_range ex_conf tr && reset_guard ex_conf None tr &&
              Nat.eqb (length tr) 21 &&
              holds (list_eq_dec Bool.bool_dec
                       (map (fun t => match reset_of ex_conf t with Some _ => true | None => false end) tr)
                       [false; false; false; false; false; true; false; false; false; true; false; false; false; true;
                        false; false; false; true; false; false; false]) &&
              holds (list_eq_dec ev_dec (map step_event tr)
                       [None; None; None; Some (7, EvOnline); None; None; None; None; None; None; None; None; None;
                        None; None; None; None; None; None; None; None])))
    as (s0 & s' & tr & E0 & E1 & H); [vm_compute; reflexivity|].
  repeat (apply andb_true_iff in H; let X := fresh "X" in destruct H as [H X]).
  apply negb_true_iff in X4.
  exists s0, s', tr. repeat (split; [assumption|]).
  split; [apply Nat.eqb_eq; assumption|]. split; eapply holds_true; eassumption.
Qed.
