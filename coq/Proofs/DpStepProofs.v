(* One-step theorems about the peripheral model (Peripheral.v): they hold for EVERY value of the
   peripheral record, reachable or not.  Used by Properties/C03.v C04.v C07.v C08.v.
   Each of the functions p_transmit, p_handle_diag, p_receive_dx, p_receive_reply gets one case lemma
   (`*_inv`) that names its outcomes with the resulting record written out; everything else here and in the
   history files is read from these. *)
From PB Require Import Peripheral.

Lemma opstate_eqb_stop : forall op, op <> OpStop -> opstate_eqb op OpStop = false.
Proof. intros op H. destruct op; try reflexivity. now elim H. Qed.

Lemma fcbit_cycle_toggles : forall f f',
  fcbit_cycle f = Some f' -> fcbit_fcv f' = true /\ fcbit_fcb f' = negb (fcbit_fcb f).
Proof. intros f f' H. destruct f; inversion H; subst; split; reflexivity. Qed.

Lemma cycle_active : forall f f', fcbit_cycle f = Some f' -> f' <> FcbInactive.
Proof. intros f f' H. destruct f; inversion H; discriminate. Qed.

Lemma fcb_cycle_ok : forall f f', fcb_cycle f = Ok f' -> fcbit_cycle f = Some f'.
Proof. intros f f'. unfold fcb_cycle. destruct (fcbit_cycle f); intro H; inversion H; reflexivity. Qed.

Definition in_exchange (p : periph) : Prop := pe_state p = PsPreDataExchange \/ pe_state p = PsDataExchange.

(* F10: what the latch `pe_diag_in_flight` holds once transmit_telegram has chosen the service *)
Definition latched (p : periph) : bool :=
  if pe_retry p =? 0 then pe_diag_needed p else pe_diag_in_flight p.

Lemma latched_retransmission : forall p, pe_retry p <> 0 -> latched p = pe_diag_in_flight p.
Proof. intros p H. unfold latched. apply Z.eqb_neq in H. rewrite H. reflexivity. Qed.

(* the `match self.state` when it sends: the peripheral after the match and the request *)
Inductive requests (pa : params) (op : opstate) (p : periph) : periph -> ptx -> Prop :=
| RqProbe : pe_state p = PsOffline -> pe_retry p = 0 -> requests pa op p p (diag_request pa p)
| RqPrm : forall user, pe_state p = PsWaitForParam -> o_user_prm (pe_opts p) = Some user ->
    requests pa op p p (prm_request pa p user)
| RqCfg : forall cfg, pe_state p = PsWaitForConfig -> o_config (pe_opts p) = Some cfg ->
    requests pa op p p (cfg_request pa p cfg)
| RqValidate : pe_state p = PsValidateConfig -> requests pa op p p (diag_request pa p)
| RqDiag : in_exchange p -> latched p = true ->
    requests pa op p (set_diag_in_flight p true) (diag_request pa p)
| RqDx : in_exchange p -> latched p = false ->
    requests pa op p (set_diag_in_flight p false) (dx_request pa op p).

Inductive idles (p : periph) : periph -> Prop :=
| IdProbed : pe_state p = PsOffline -> pe_retry p <> 0 -> idles p (set_fcb p fcbit_reset)
| IdNoPrm : pe_state p = PsWaitForParam -> o_user_prm (pe_opts p) = None -> idles p p
| IdNoCfg : pe_state p = PsWaitForConfig -> o_config (pe_opts p) = None -> idles p p.

Inductive p_transmits (pa : params) (op : opstate) (p : periph) : periph -> ptx -> Prop :=
| TrOffline : dp_retry_exhausted (pe_retry p) (p_max_retry pa) = true ->
    p_transmits pa op p (set_retry (set_state (set_fcb p fcbit_reset) PsOffline) 0) (PtxSkip (Some EvOffline))
| TrSend : forall p1 h pdu, dp_retry_exhausted (pe_retry p) (p_max_retry pa) = false ->
    requests pa op p p1 (PtxSend h pdu) -> pe_retry p < 255 ->
    p_transmits pa op p (set_retry p1 (pe_retry p + 1)) (PtxSend h pdu)
| TrIdle : forall p1, dp_retry_exhausted (pe_retry p) (p_max_retry pa) = false -> idles p p1 ->
    p_transmits pa op p (set_retry p1 0) (PtxSkip None).

Lemma select_exchange : forall pa op p,
  let p1 := if pe_retry p =? 0 then set_diag_in_flight p (pe_diag_needed p) else p in
  (if pe_diag_in_flight p1 then (p1, diag_request pa p1) else (p1, dx_request pa op p1)) =
  (set_diag_in_flight p (latched p), if latched p then diag_request pa p else dx_request pa op p).
Proof.
  intros pa op p. unfold latched. destruct p as [a s r f i q d x needed fl o]. cbn.
  destruct (r =? 0); [destruct needed|destruct fl]; reflexivity.
Qed.

Lemma p_transmit_inv : forall pa op p p' r,
  p_transmit pa op p = Ok (p', r) <-> op <> OpStop /\ p_transmits pa op p p' r.
Proof.
  intros pa op p p' r. unfold p_transmit, p_transmit_select. split.
  - intro H. split; [intros ->; discriminate H|].
    destruct (opstate_eqb op OpStop); [discriminate H|].
    destruct (dp_retry_exhausted (pe_retry p) (p_max_retry pa)) eqn:Hex.
    { inversion H; subst. apply TrOffline. exact Hex. }
    assert (Send : forall p1 h pdu, requests pa op p p1 (PtxSend h pdu) -> pe_retry p1 = pe_retry p ->
              (if 255 <=? pe_retry p1 then Panic SiteArith else Ok (set_retry p1 (pe_retry p1 + 1), PtxSend h pdu))
              = Ok (p', r) -> p_transmits pa op p p' r).
    { intros p1 h pdu R -> E. destruct (Z.leb_spec 255 (pe_retry p)); inversion E; subst.
      apply TrSend; assumption. }
    assert (Idle : forall p1, idles p p1 -> Ok (set_retry p1 0, PtxSkip None) = Ok (p', r) -> p_transmits pa op p p' r).
    { intros p1 I E. inversion E; subst. apply TrIdle; assumption. }
    destruct (pe_state p) eqn:Hst.
    (* the two data exchange states *)
    5, 6: assert (Hx : in_exchange p) by (unfold in_exchange; auto);
          rewrite select_exchange in H; destruct (latched p) eqn:Hl.
    5, 7: eapply Send; [apply RqDiag|reflexivity|exact H]; assumption.
    5, 6: eapply Send; [apply RqDx|reflexivity|exact H]; assumption.
    + change dp_offline_probe_retry with 0 in H. destruct (Z.eqb_spec (pe_retry p) 0).
      * eapply Send; [apply RqProbe|reflexivity|exact H]; assumption.
      * eapply Idle; [apply IdProbed|exact H]; assumption.
    + destruct (o_user_prm (pe_opts p)) eqn:Ho.
      * eapply Send; [eapply RqPrm|reflexivity|exact H]; assumption.
      * eapply Idle; [apply IdNoPrm|exact H]; assumption.
    + destruct (o_config (pe_opts p)) eqn:Ho.
      * eapply Send; [eapply RqCfg|reflexivity|exact H]; assumption.
      * eapply Idle; [apply IdNoCfg|exact H]; assumption.
    + eapply Send; [apply RqValidate|reflexivity|exact H]; assumption.
  - intros [Hop T]. rewrite (opstate_eqb_stop op Hop).
    destruct T as [Hex|p1 h pdu Hex R Hlt|p1 Hex I]; rewrite Hex; [reflexivity| |].
    + apply Z.leb_gt in Hlt.
      inversion R as [Hs Hr|user Hs Ho|cfg Hs Ho|Hs|[Hs|Hs] Hl|[Hs|Hs] Hl]; subst; rewrite Hs;
        rewrite ?select_exchange, ?Ho, ?Hl; try (change dp_offline_probe_retry with 0; rewrite Hr at 1);
        cbn; rewrite Hlt; reflexivity.
    + destruct I as [Hs Hr|Hs Ho|Hs Ho]; rewrite Hs, ?Ho; [|reflexivity|reflexivity].
      change dp_offline_probe_retry with 0. apply Z.eqb_neq in Hr. rewrite Hr. reflexivity.
Qed.

(* C08: what transmit_telegram does with the frame count bit and the retry counter *)
Lemma transmit_spec : forall pa op p p' r,
  p_transmit pa op p = Ok (p', r) ->
  match r with
  | PtxSend h pdu =>
      dp_retry_exhausted (pe_retry p) (p_max_retry pa) = false /\
      (exists rq, h_fc h = FcRequest (pe_fcb p) rq) /\ h_da h = pe_addr p /\ h_sa h = p_address pa /\
      pe_fcb p' = pe_fcb p /\ pe_retry p' = pe_retry p + 1 /\ pe_state p' = pe_state p
  | PtxSkip (Some ev) =>
      ev = EvOffline /\ dp_retry_exhausted (pe_retry p) (p_max_retry pa) = true /\
      pe_fcb p' = FcbFirst /\ pe_state p' = PsOffline /\ pe_retry p' = 0
  | PtxSkip None =>
      dp_retry_exhausted (pe_retry p) (p_max_retry pa) = false /\ pe_retry p' = 0 /\
      pe_state p' = pe_state p /\ (pe_fcb p' = pe_fcb p \/ (pe_state p = PsOffline /\ pe_fcb p' = FcbFirst))
  end.
Proof.
  intros pa op p p' r H. apply p_transmit_inv in H. destruct H as [_ [Hex|p1 h pdu Hex R _|p1 Hex I]].
  - repeat split; auto.
  - inversion R; subst; cbn; repeat split; eauto.
  - destruct I; cbn; repeat split; auto.
Qed.

Lemma dx_request_only_when_ready : forall pa op p p' h pdu,
  p_transmit pa op p = Ok (p', PtxSend h pdu) ->
  h_dsap h = None ->
  (pe_state p = PsPreDataExchange \/ pe_state p = PsDataExchange) /\
  pe_diag_in_flight p' = false /\
  h = mkHeader (pe_addr p) (p_address pa) None None (FcRequest (pe_fcb p) RqSrdHigh) /\
  pdu = (if opstate_eqb op OpOperate then pe_pi_q p else repeat 0 (length (pe_pi_q p))).
Proof.
  intros pa op p p' h pdu H Hd. apply p_transmit_inv in H. destruct H as [_ T].
  inversion T as [|p1 h' pdu' _ R _|]; subst. inversion R; subst; try discriminate Hd. repeat split; auto.
Qed.

Lemma set_prm_bytes : forall pa op p user,
  op <> OpStop ->
  dp_retry_exhausted (pe_retry p) (p_max_retry pa) = false ->
  pe_retry p < 255 ->
  pe_state p = PsWaitForParam ->
  o_user_prm (pe_opts p) = Some user ->
  p_transmit pa op p =
    Ok (set_retry p (pe_retry p + 1),
        PtxSend (mkHeader (pe_addr p) (p_address pa) (Some 61) (Some 62) (FcRequest (pe_fcb p) RqSrdLow))
                ([128 + (if o_sync (pe_opts p) then 32 else 0) + (if o_freeze (pe_opts p) then 16 else 0)
                      + (match p_watchdog pa with Some _ => 8 | None => 0 end);
                  match p_watchdog pa with Some (f1, _) => f1 | None => 0 end;
                  match p_watchdog pa with Some (_, f2) => f2 | None => 0 end;
                  p_min_tsdr_bits pa; o_ident (pe_opts p) / 256; o_ident (pe_opts p) mod 256;
                  o_groups (pe_opts p)] ++ user)).
Proof.
  intros pa op p user Hop Hex Hr Hst Hprm.
  replace (PtxSend _ _) with (prm_request pa p user).
  - apply p_transmit_inv. split; [exact Hop|]. apply TrSend; [exact Hex| |exact Hr]. apply RqPrm; assumption.
  - unfold prm_request, set_prm_pdu.
    destruct (o_sync (pe_opts p)); destruct (o_freeze (pe_opts p)); destruct (p_watchdog pa) as [[f1 f2]|];
      reflexivity.
Qed.

Lemma chk_cfg_bytes : forall pa op p cfg,
  op <> OpStop ->
  dp_retry_exhausted (pe_retry p) (p_max_retry pa) = false ->
  pe_retry p < 255 ->
  pe_state p = PsWaitForConfig ->
  o_config (pe_opts p) = Some cfg ->
  p_transmit pa op p =
    Ok (set_retry p (pe_retry p + 1),
        PtxSend (mkHeader (pe_addr p) (p_address pa) (Some 62) (Some 62) (FcRequest (pe_fcb p) RqSrdLow)) cfg).
Proof.
  intros pa op p cfg Hop Hex Hr Hst Hcfg.
  apply p_transmit_inv. split; [exact Hop|]. apply TrSend; [exact Hex| |exact Hr]. apply (RqCfg pa op p cfg); assumption.
Qed.

Lemma offline_declared : forall pa op p,
  op <> OpStop ->
  dp_retry_exhausted (pe_retry p) (p_max_retry pa) = true ->
  exists p', p_transmit pa op p = Ok (p', PtxSkip (Some EvOffline)) /\
             pe_fcb p' = FcbFirst /\ is_live p' = false /\ pe_retry p' = 0.
Proof.
  intros pa op p Hop Hex. eexists. split; [apply p_transmit_inv; split; [exact Hop|apply TrOffline; exact Hex]|].
  repeat split; reflexivity.
Qed.

(* a peripheral that is not live sends nothing but Slave_Diag requests, and with the
   bit First they carry FCV=0/FCB=1 (function code byte 0x6C) *)
Lemma offline_probe : forall pa op p p' h pdu,
  pe_state p = PsOffline ->
  p_transmit pa op p = Ok (p', PtxSend h pdu) ->
  h = mkHeader (pe_addr p) (p_address pa) (Some 60) (Some 62) (FcRequest (pe_fcb p) RqSrdLow) /\ pdu = [] /\
  (pe_fcb p = FcbFirst -> fc_to_byte (h_fc h) = 108).
Proof.
  intros pa op p p' h pdu Hst H. apply p_transmit_inv in H. destruct H as [_ T].
  inversion T as [|p1 h' pdu' _ R _|]; subst.
  inversion R as [| | | |[Hx|Hx] _|[Hx|Hx] _]; subst; try congruence.
  repeat split. cbn. intros ->. reflexivity.
Qed.

(* what handle_diagnostics_response takes for a diagnostics reply: DSAP 62, SSAP 60, at least 6 bytes *)
Definition is_diag_reply (t : telegram) : bool :=
  match t with
  | TData h pdu => opt_eqb (h_dsap h) dp_diag_reply_dsap && opt_eqb (h_ssap h) dp_diag_reply_ssap &&
                   negb (Nat.ltb (length pdu) dp_diag_min_len)
  | _ => false
  end.

(* ... it then cycles the frame count bit to f and stores the diagnostics di *)
Definition diag_accepted (p : periph) (t : telegram) (f : fcbit) (di : diaginfo) : Prop :=
  is_diag_reply t = true /\ fcbit_cycle (pe_fcb p) = Some f /\
  exists h pdu, t = TData h pdu /\ d_flags di = flags_remove (nth 0 pdu 0 + 256 * nth 1 pdu 0) DF_PERMANENT_BIT.

Lemma handle_diag_inv : forall p t p1 d,
  p_handle_diag p t = Ok (p1, d) ->
  match d with
  | None => is_diag_reply t = false /\ p1 = p
  | Some di => exists f x, diag_accepted p t f di /\ p1 = set_diag (set_fcb p f) d x
  end.
Proof.
  intros p t p1 d H. unfold p_handle_diag in H.
  destruct t as [h pdu| |]; try (inversion H; split; reflexivity). unfold diag_accepted. cbn [is_diag_reply].
  destruct (opt_eqb (h_dsap h) dp_diag_reply_dsap); [|inversion H; split; reflexivity].
  destruct (opt_eqb (h_ssap h) dp_diag_reply_ssap); [|inversion H; split; reflexivity].
  destruct (Nat.ltb (length pdu) dp_diag_min_len) eqn:Hlen; [inversion H; split; reflexivity|].
  destruct pdu as [|b0 [|b1 [|b2 [|b3 [|b4 [|b5 rest]]]]]]; try discriminate Hlen.
  cbn [negb get nth_error bind dp_diag_master_pos] in H.
  match type of H with bind ?e _ = _ => assert (Hx : exists x, e = Ok x) end.
  { destruct (flags_contains _ DF_EXT_DIAG); eexists; reflexivity. }
  destruct Hx as [x Hx]. rewrite Hx in H. cbn [bind] in H.
  destruct (fcb_cycle (pe_fcb p)) as [f| |] eqn:Hf; inversion H; subst.
  exists f, x. split; [|reflexivity]. split; [reflexivity|]. split; [apply fcb_cycle_ok; exact Hf|].
  exists h. eexists. split; reflexivity.
Qed.

Lemma handle_diag_frame : forall p t p1 d,
  p_handle_diag p t = Ok (p1, d) ->
  pe_addr p1 = pe_addr p /\ pe_state p1 = pe_state p /\ pe_retry p1 = pe_retry p /\
  pe_pi_i p1 = pe_pi_i p /\ pe_pi_q p1 = pe_pi_q p /\ pe_diag_needed p1 = pe_diag_needed p /\
  pe_diag_in_flight p1 = pe_diag_in_flight p /\ pe_opts p1 = pe_opts p /\
  (d = None -> p1 = p) /\
  (d <> None -> fcbit_cycle (pe_fcb p) = Some (pe_fcb p1)).
Proof.
  intros p t p1 d H. apply handle_diag_inv in H.
  destruct d as [di|]; [destruct H as (f & x & (_ & Hf & _) & ->)|destruct H as [_ ->]];
    repeat split; auto; try discriminate. intro E; now elim E.
Qed.

(* the input data a reply to a Data_Exchange request delivers: a response with status Ok / DataLow / DataHigh
   and as many bytes as the input image holds, or a short confirmation when it holds none *)
Definition dx_data (p : periph) (t : telegram) : option bytes :=
  match t with
  | TData h pdu =>
      match h_fc h with
      | FcResponse _ (StOk | StDataLow | StDataHigh) =>
          if Nat.eqb (length pdu) (length (pe_pi_i p)) then Some pdu else None
      | _ => None
      end
  | TShortConf => if Nat.eqb (length (pe_pi_i p)) 0 then Some [] else None
  | TToken _ _ => None
  end.

(* "service not activated" *)
Definition is_rs (t : telegram) : bool :=
  match t with
  | TData h _ => match h_fc h with FcResponse _ StSapNotEnabled => true | _ => false end
  | _ => false
  end.

(* the Data_Exchange branch of receive_reply; `needed`: status DataHigh asks for a diagnostics request *)
Lemma receive_dx_inv : forall p t p1 ev,
  p_receive_dx p t = Ok (p1, ev) ->
  match t with TToken _ _ => False | _ => True end /\
  exists needed,
    match dx_data p t with
    | Some d => p1 = set_state (set_pi_i (set_diag_needed p needed) d) PsDataExchange /\ ev = Some EvDataExchanged
    | None => p1 = set_state (set_diag_needed p needed) (if is_rs t then PsValidateConfig else pe_state p) /\
              ev = None
    end.
Proof.
  intros p t p1 ev H. destruct p as [a s r f i q d x needed fl o].
  unfold p_receive_dx, dx_data, is_rs, copy_from_slice in *. cbn [pe_pi_i] in *.
  destruct t as [h pdu| |]; [|discriminate H|]; (split; [exact I|]).
  - destruct (h_fc h) as [|st rs]; [discriminate H|].
    exists (match rs with StDataHigh => true | _ => needed end).
    destruct rs; cbn in H |- *;
      try (destruct (Nat.eqb_spec (length pdu) (length i)) as [E|_];
           [rewrite <- E, Nat.eqb_refl in H; cbn in H|]);
      inversion H; split; reflexivity.
  - exists needed. destruct i; cbn in H |- *; inversion H; split; reflexivity.
Qed.

Definition rejects (p : periph) (t : telegram) : Prop :=
  match pe_state p with
  | PsOffline | PsValidateConfig => is_diag_reply t = false
  | PsWaitForParam | PsWaitForConfig => is_sc t = false
  | PsPreDataExchange | PsDataExchange => pe_diag_in_flight p = true /\ is_diag_reply t = false
  end.

(* where a short confirmation leads from WaitForParam / WaitForConfig *)
Definition acked (s : pstate) : pstate :=
  match s with PsWaitForParam => PsWaitForConfig | _ => PsValidateConfig end.

(* Peripheral::receive_reply.  A rejected reply changes nothing (not even the retry counter: the request
   stays unanswered); every other reply cycles the frame count bit and clears the retry counter. *)
Inductive replies (p : periph) (t : telegram) : periph -> option pevent -> Prop :=
| RpRejected : rejects p t -> replies p t p None
| RpOnline : forall f di x, pe_state p = PsOffline -> diag_accepted p t f di ->
    replies p t (set_state (set_retry (set_diag (set_fcb p f) (Some di) x) 0) PsWaitForParam) (Some EvOnline)
| RpAck : forall f, pe_state p = PsWaitForParam \/ pe_state p = PsWaitForConfig -> is_sc t = true ->
    fcbit_cycle (pe_fcb p) = Some f ->
    replies p t (set_retry (set_state (set_fcb p f) (acked (pe_state p))) 0) None
| RpValidated : forall f di x, pe_state p = PsValidateConfig -> diag_accepted p t f di ->
    replies p t (set_state (set_diag (set_fcb (set_retry p 0) f) (Some di) x) (fst (validate_outcome (d_flags di))))
            (snd (validate_outcome (d_flags di)))
| RpDiag : forall f di x, in_exchange p -> pe_diag_in_flight p = true -> diag_accepted p t f di ->
    replies p t
      (let p2 := set_diag_needed (set_retry (set_diag (set_fcb p f) (Some di) x) 0) false in
       if flags_contains (d_flags di) DF_PARAMETER_REQUIRED then set_state p2 PsWaitForParam else p2)
      (Some EvDiagnostics)
| RpDx : forall p1 ev f, in_exchange p -> pe_diag_in_flight p = false -> p_receive_dx p t = Ok (p1, ev) ->
    fcbit_cycle (pe_fcb p) = Some f -> replies p t (set_fcb (set_retry p1 0) f) ev.

Lemma p_receive_reply_inv : forall p t p' ev, p_receive_reply p t = Ok (p', ev) -> replies p t p' ev.
Proof.
  intros p t p' ev H. unfold p_receive_reply in H.
  assert (Diag : forall q p1 d, p_handle_diag q t = Ok (p1, d) -> pe_fcb q = pe_fcb p ->
            match d with
            | None => is_diag_reply t = false /\ p1 = q
            | Some di => exists f x, diag_accepted p t f di /\ p1 = set_diag (set_fcb q f) d x
            end).
  { intros q p1 d Hd E. apply handle_diag_inv in Hd. unfold diag_accepted in *. rewrite E in Hd. exact Hd. }
  assert (Exch : in_exchange p ->
            (if pe_diag_in_flight p
             then let* (p1, d) := p_handle_diag p t in
                  match d with
                  | Some di =>
                      Ok (let p2 := set_diag_needed (set_retry p1 0) false in
                          if flags_contains (d_flags di) DF_PARAMETER_REQUIRED then set_state p2 PsWaitForParam else p2,
                          Some EvDiagnostics)
                  | None => Ok (p1, None)
                  end
             else let* (p1, ev) := p_receive_dx p t in
                  let* f := fcb_cycle (pe_fcb (set_retry p1 0)) in Ok (set_fcb (set_retry p1 0) f, ev)) = Ok (p', ev) ->
            replies p t p' ev).
  { intros Hx E. destruct (pe_diag_in_flight p) eqn:Hfl; unfold bind in E.
    - destruct (p_handle_diag p t) as [[p1 d]| |] eqn:Hd; try discriminate E. apply Diag in Hd; [|reflexivity].
      destruct d as [di|]; inversion E; subst.
      + destruct Hd as (f & x & Ha & ->). apply RpDiag; assumption.
      + destruct Hd as [Hn ->]. apply RpRejected. unfold rejects. destruct Hx as [-> | ->]; auto.
    - destruct (p_receive_dx p t) as [[p1 e1]| |] eqn:Hd; try discriminate E.
      destruct (fcb_cycle (pe_fcb (set_retry p1 0))) as [f| |] eqn:Hf; inversion E; subst.
      apply RpDx; try assumption. apply fcb_cycle_ok in Hf.
      destruct (receive_dx_inv _ _ _ _ Hd) as (_ & n & Hi). destruct (dx_data p t); destruct Hi as [-> _]; exact Hf. }
  destruct (pe_state p) eqn:Hst; try (apply Exch; [unfold in_exchange; auto|exact H]); unfold bind in H.
  - destruct (p_handle_diag p t) as [[p1 d]| |] eqn:Hd; try discriminate H. apply Diag in Hd; [|reflexivity].
    destruct d as [di|]; inversion H; subst.
    + destruct Hd as (f & x & Ha & ->). apply RpOnline; assumption.
    + destruct Hd as [Hn ->]. apply RpRejected. unfold rejects. rewrite Hst. exact Hn.
  - destruct (is_sc t) eqn:Hsc.
    + destruct (fcb_cycle (pe_fcb p)) as [f| |] eqn:Hf; inversion H; subst.
      change PsWaitForConfig with (acked PsWaitForParam). rewrite <- Hst.
      apply RpAck; auto. apply fcb_cycle_ok; exact Hf.
    + inversion H; subst. apply RpRejected. unfold rejects. rewrite Hst. exact Hsc.
  - destruct (is_sc t) eqn:Hsc.
    + destruct (fcb_cycle (pe_fcb p)) as [f| |] eqn:Hf; inversion H; subst.
      change PsValidateConfig with (acked PsWaitForConfig). rewrite <- Hst.
      apply RpAck; auto. apply fcb_cycle_ok; exact Hf.
    + inversion H; subst. apply RpRejected. unfold rejects. rewrite Hst. exact Hsc.
  - destruct (p_handle_diag (set_retry p 0) t) as [[p1 d]| |] eqn:Hd; try discriminate H. apply Diag in Hd; [|reflexivity].
    destruct d as [di|].
    + destruct Hd as (f & x & Ha & ->). destruct (validate_outcome (d_flags di)) as [s e] eqn:Hv. inversion H; subst.
      change s with (fst (s, ev)). change ev with (snd (s, ev)) at 2. rewrite <- Hv. apply RpValidated; assumption.
    + destruct Hd as [Hn ->]. inversion H; subst.
      replace (set_state _ _) with p by (destruct p; cbn in Hst; subst; reflexivity).
      apply RpRejected. unfold rejects. rewrite Hst. exact Hn.
Qed.

(* what the FDL layer hands to receive_reply: never a token, never a request *)
Definition is_reply (t : telegram) : Prop :=
  match t with
  | TToken _ _ => False
  | TShortConf => True
  | TData h _ => exists st s, h_fc h = FcResponse st s
  end.

Lemma handle_diag_total : forall p t, pe_fcb p <> FcbInactive -> exists r, p_handle_diag p t = Ok r.
Proof.
  intros p t Hf. unfold p_handle_diag. destruct t as [h pdu| |]; try (eexists; reflexivity).
  destruct (negb (opt_eqb (h_dsap h) dp_diag_reply_dsap)); [eexists; reflexivity|].
  destruct (negb (opt_eqb (h_ssap h) dp_diag_reply_ssap)); [eexists; reflexivity|].
  destruct (Nat.ltb (length pdu) dp_diag_min_len) eqn:El; [eexists; reflexivity|].
  destruct pdu as [|b0 [|b1 [|b2 [|b3 [|b4 [|b5 rest]]]]]]; try discriminate El.
  cbn [get nth_error bind dp_diag_master_pos].
  assert (Hc : exists f, fcb_cycle (pe_fcb p) = Ok f).
  { unfold fcb_cycle. destruct (pe_fcb p); cbn; try (eexists; reflexivity). now elim Hf. }
  destruct Hc as (f & Hc).
  destruct (flags_contains _ DF_EXT_DIAG); unfold slice_from; cbn [length Nat.leb bind]; rewrite Hc; eexists; reflexivity.
Qed.

Lemma receive_dx_total : forall p t, is_reply t -> exists r, p_receive_dx p t = Ok r.
Proof.
  intros p t Hsh. unfold p_receive_dx, copy_from_slice. destruct t as [h pdu| |]; [|contradiction|].
  - destruct Hsh as (st & s & ->). destruct s; cbn [pe_pi_i set_diag_needed]; try (eexists; reflexivity);
      (destruct (Nat.eqb_spec (length pdu) (length (pe_pi_i p))) as [E|_]; [rewrite <- E, Nat.eqb_refl|]);
      eexists; reflexivity.
  - destruct (negb _); eexists; reflexivity.
Qed.

Lemma p_receive_reply_defined : forall p t,
  pe_fcb p <> FcbInactive -> is_reply t -> exists r, p_receive_reply p t = Ok r.
Proof.
  intros p t Hf Hsh.
  assert (Hc : exists f, fcb_cycle (pe_fcb p) = Ok f).
  { unfold fcb_cycle. destruct (pe_fcb p); cbn; try (eexists; reflexivity). now elim Hf. }
  destruct Hc as (f & Hc). unfold p_receive_reply. destruct (pe_state p).
  1: destruct (handle_diag_total p t Hf) as ([p1 d] & ->); cbn [bind]; destruct d; eexists; reflexivity.
  1,2: destruct (is_sc t); [rewrite Hc|]; eexists; reflexivity.
  1: destruct (handle_diag_total (set_retry p 0) t Hf) as ([p1 d] & ->); cbn [bind];
     destruct d; [destruct (validate_outcome _)|]; eexists; reflexivity.
  all: destruct (pe_diag_in_flight p).
  1,3: destruct (handle_diag_total p t Hf) as ([p1 d] & ->); cbn [bind]; destruct d; eexists; reflexivity.
  all: destruct (receive_dx_total p t Hsh) as ([p1 e] & Hd); rewrite Hd; cbn [bind];
    destruct (receive_dx_inv _ _ _ _ Hd) as (_ & n & Hi); destruct (dx_data p t); destruct Hi as [-> _];
    cbn; rewrite Hc; eexists; reflexivity.
Qed.

Lemma dx_data_some : forall p t d,
  dx_data p t = Some d ->
  (t = TShortConf /\ pe_pi_i p = [] /\ d = []) \/
  exists h st s, t = TData h d /\ h_fc h = FcResponse st s /\ (s = StOk \/ s = StDataLow \/ s = StDataHigh) /\
                 length d = length (pe_pi_i p).
Proof.
  intros p t d H. unfold dx_data in H. destruct t as [h pdu| |]; [right|discriminate H|left].
  - destruct (h_fc h) as [|st s] eqn:Hfc; [discriminate H|]. exists h, st, s.
    destruct s; try discriminate H; destruct (Nat.eqb_spec (length pdu) (length (pe_pi_i p))); inversion H; subst;
      repeat split; auto.
  - destruct (pe_pi_i p); inversion H; auto.
Qed.

(* C04: the input image changes only through a well-formed Data_Exchange reply *)
Lemma pi_i_frame : forall p t p' ev,
  p_receive_reply p t = Ok (p', ev) ->
  pe_pi_i p' = pe_pi_i p \/
  ((pe_state p = PsPreDataExchange \/ pe_state p = PsDataExchange) /\ pe_diag_in_flight p = false /\
   exists h pdu st s, t = TData h pdu /\ h_fc h = FcResponse st s /\
     (s = StOk \/ s = StDataLow \/ s = StDataHigh) /\
     length pdu = length (pe_pi_i p) /\ pe_pi_i p' = pdu /\ ev = Some EvDataExchanged).
Proof.
  intros p t p' ev H. apply p_receive_reply_inv in H.
  destruct H as [| | | |f di x _ _ _|p1 ev f Hx Hfl Hd _]; try (left; reflexivity).
  - left. cbv zeta. destruct (flags_contains _ _); reflexivity.
  - destruct (receive_dx_inv _ _ _ _ Hd) as (_ & n & Hi).
    destruct (dx_data p t) as [d|] eqn:E; destruct Hi as [-> ->]; [|left; reflexivity].
    destruct (dx_data_some _ _ _ E) as [(_ & Hnil & ->)|(h & st & s & -> & Hfc & Hs & Hlen)].
    + left. symmetry. exact Hnil.
    + right. split; [exact Hx|]. split; [exact Hfl|]. exists h, d, st, s. repeat split; auto.
Qed.

(* C08: a reply either leaves frame count bit and retry counter alone (rejected) or cycles the bit
   and clears the counter (accepted) *)
Lemma fcb_after_reply : forall p t p' ev,
  p_receive_reply p t = Ok (p', ev) ->
  (pe_fcb p' = pe_fcb p /\ pe_retry p' = pe_retry p) \/
  (fcbit_cycle (pe_fcb p) = Some (pe_fcb p') /\ pe_retry p' = 0).
Proof.
  intros p t p' ev H. apply p_receive_reply_inv in H.
  destruct H as [|f di x _ (_ & Hf & _)|f _ _ Hf|f di x _ (_ & Hf & _)|f di x _ _ (_ & Hf & _)|p1 ev f _ _ _ Hf];
    [left; split; reflexivity|right; split; try exact Hf; try reflexivity..].
  all: cbv zeta; destruct (flags_contains _ _); try exact Hf; reflexivity.
Qed.

Lemma toggle_after_accept : forall p t p' ev,
  p_receive_reply p t = Ok (p', ev) ->
  (pe_fcb p' = pe_fcb p /\ pe_retry p' = pe_retry p) \/
  (fcbit_fcv (pe_fcb p') = true /\ fcbit_fcb (pe_fcb p') = negb (fcbit_fcb (pe_fcb p)) /\ pe_retry p' = 0).
Proof.
  intros p t p' ev H. destruct (fcb_after_reply _ _ _ _ H) as [Hl|[Hc Hr]]; [left; exact Hl|].
  right. destruct (fcbit_cycle_toggles _ _ Hc). auto.
Qed.
