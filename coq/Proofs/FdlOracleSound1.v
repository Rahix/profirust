(* FDL oracle soundness, part 1: the transcript of the MODEL, the generic induction, and the decomposition
   of the executable monitors of Model/FdlOracle.v into their rule groups.

   ORACLE SOUNDNESS: "the executable monitors that the check runs on the implementation's transcripts
   (FdlOracle.monitor, run by ocaml/run_fdl.ml) never reject a transcript of the MODEL".

   model_events mirrors what harness/src/fdl.rs + ocaml/run_fdl.ml build from a run, with the model (Fdl.poll,
   set_online, set_offline, set_passive, fdl_new) in the place of the crate:
   - the first event is `A new <obs>`; then API calls and polls in any order;
   - the PHY receive buffer is the harness PHY's: bytes are only APPENDED between polls (input of a poll = the
     new bytes), a poll sees the whole buffer and drops what it consumed (HPhy.rx, receive_data); the buffer
     survives set_offline / set_online;
   - a poll event carries now, the busy flag, the buffer, the transmission, the number of consumed bytes, the
     call log (run_fdl.ml: calls_of_string puts the poll's transmission into the transmit calls) and the view
     parsed from the observation string = a function of the model state (view_of: connectivity, is_in_ring,
     state name, NS, PS, LAS valid, active stations, GAP cursor in DoPoll, ClaimToken::ScanAwaitResponse);
   - a call that panics ends the transcript: an API call leaves `A <name> =` (the view of the last observation)
     followed by PANIC, a panicking poll is dropped by the driver (drop_panicked) and leaves PANIC only.
   The string round trips of the driver (hex, telegram_dots / telegram_of_dots) are taken as the identity. *)
From Coq Require Import Arith.
From PB Require Import Common Tables FdlTables Telegram Phy TokenRing Params Fdl FdlOracle FdlProofs FdlStepProofs.
From PB Require Import C05Proofs.

(* the view of a model state (ocaml/run_fdl.ml: obs_of, then view_of_obs) *)

Definition view_of (f : fdl) : view :=
  mkView (f_conn f) (is_in_ring f) (kind_of (f_state f)) (r_ns (f_ring f)) (r_ps (f_ring f))
         (match r_state (f_ring f) with LasValid => true | _ => false end)
         (las_ones (r_las (f_ring f)))
         (match f_gap f with GapDoPoll _ => true | GapWaiting _ => false end)
         (match f_state f with ClaimToken (StepScanAwaitResponse _) => true | _ => false end).

(* the view the driver uses when there has been no observation yet (`A new =;PANIC`) *)
Definition default_view : view := mkView ConnOffline false KOffline 0 0 false [] true false.

(* calls_of_string: the wire bytes of a transmit call are the poll's transmission *)
Definition conv_call (txo : option bytes) (c : call) : call :=
  match c with
  | CallTransmit i hp (Some (_, er)) => CallTransmit i hp (Some (match txo with Some b => b | None => [] end, er))
  | _ => c
  end.

Inductive minput : Type :=
| InApi (a : api_call)                          (* on / off / pas (ApiNew: the station is created again) *)
| InPoll (now : Z) (busy : bool) (newrx : bytes).

Section Model.
Variable A : Type.
Variable ops : app_ops A.
Variable p : params.

Definition api_result (a : api_call) (f : fdl) : res fdl :=
  match a with
  | ApiNew => fdl_new p
  | ApiOnline => set_online f
  | ApiOffline => set_offline f
  | ApiPassive => set_passive f
  end.

Definition poll_event (now : Z) (busy : bool) (rxb : bytes) (f' : fdl) (o : phy_out) (calls : list call) : pstep :=
  mkPStep now busy rxb (tx o) (length rxb - length (rx_left o)) (map (conv_call (tx o)) calls) (view_of f').

Fixpoint model_events (f : fdl) (apps : list A) (buf : bytes) (ins : list minput) : list event :=
  match ins with
  | [] => []
  | InApi a :: tl =>
      match api_result a f with
      | Ok f' => EApi a (view_of f') :: model_events f' apps buf tl
      | _ => [EApi a (view_of f); EPanic]
      end
  | InPoll now busy nb :: tl =>
      match poll ops f now (mkPhyIn busy (buf ++ nb)) apps with
      | Ok (f', o, apps', calls) =>
          EPoll (poll_event now busy (buf ++ nb) f' o calls) :: model_events f' apps' (rx_left o) tl
      | _ => [EPanic]
      end
  end.

Definition model_transcript (apps : list A) (ins : list minput) : list event :=
  match fdl_new p with
  | Ok f0 => EApi ApiNew (view_of f0) :: model_events f0 apps [] ins
  | _ => [EApi ApiNew default_view; EPanic]
  end.

(* admissible inputs: times in range and strictly increasing (the harness advances the clock by at least
   1 us before every poll), received bytes are bytes *)
Fixpoint ins_ok (tl : Z) (ins : list minput) : Prop :=
  match ins with
  | [] => True
  | InApi _ :: r => ins_ok tl r
  | InPoll now _ nb :: r => tl < now /\ time_ok now /\ all_bytes nb /\ ins_ok now r
  end.

Definition no_passive (ins : list minput) : Prop := Forall (fun i => i <> InApi ApiPassive) ins.

(* G: a side condition on every station state the run goes through; always True except `no_stale` in c01_corner_example *)
Fixpoint run_ok (G : fdl -> Prop) (f : fdl) (apps : list A) (buf : bytes) (ins : list minput) : Prop :=
  match ins with
  | [] => True
  | InApi a :: tl =>
      match api_result a f with
      | Ok f' => G f' /\ run_ok G f' apps buf tl
      | _ => True
      end
  | InPoll now busy nb :: tl =>
      match poll ops f now (mkPhyIn busy (buf ++ nb)) apps with
      | Ok (f', o, apps', _) => G f' /\ run_ok G f' apps' (rx_left o) tl
      | _ => True
      end
  end.

Definition transcript_ok (G : fdl -> Prop) (apps : list A) (ins : list minput) : Prop :=
  match fdl_new p with
  | Ok f0 => G f0 /\ run_ok G f0 apps [] ins
  | _ => True
  end.

Lemma run_ok_true f apps buf ins : run_ok (fun _ => True) f apps buf ins.
Proof.
  revert f apps buf. induction ins as [|x ins IH]; intros f apps buf; [exact I|].
  destruct x as [a|now busy nb]; cbn [run_ok].
  - destruct (api_result a f); [split; [exact I|apply IH]|exact I|exact I].
  - destruct (poll ops f now _ apps) as [[[[f' o] apps'] calls]| |]; [split; [exact I|apply IH]|exact I|exact I].
Qed.

End Model.

Definition onlyp (Q : pid -> Prop) (l : list rule) : Prop := forall r, In r l -> Q (rule_prop r).

Lemma onlyp_nil (Q : pid -> Prop) : onlyp Q []. Proof. intros r []. Qed.
Lemma onlyp_app (Q : pid -> Prop) l1 l2 : onlyp Q l1 -> onlyp Q l2 -> onlyp Q (l1 ++ l2).
Proof. intros H1 H2 r Hr. apply in_app_or in Hr. destruct Hr; auto. Qed.
Lemma onlyp_one (Q : pid -> Prop) r : Q (rule_prop r) -> onlyp Q [r].
Proof. intros H r' [<-|[]]. exact H. Qed.
Lemma onlyp_check (Q : pid -> Prop) b r : Q (rule_prop r) -> onlyp Q (check b r).
Proof. intros H. unfold check. destruct b; [apply onlyp_nil|apply onlyp_one; exact H]. Qed.
Lemma onlyp_weaken (Q Q' : pid -> Prop) l : (forall x, Q x -> Q' x) -> onlyp Q l -> onlyp Q' l.
Proof. intros H O r Hr. apply H, O, Hr. Qed.

(* a rule group is a tree of if/match over `check`s and literal lists: split at every branch, look at the leaves *)
Ltac solve_onlyp :=
  repeat first
    [ apply onlyp_nil
    | apply onlyp_app
    | apply onlyp_check; cbn; auto; fail
    | apply onlyp_one; cbn; auto; fail
    | match goal with
      | |- onlyp _ (if ?b then _ else _) => destruct b
      | |- onlyp _ (match ?x with _ => _ end) => destruct x
      end ].

(* `onlyp (is_not P) l`: no rule of l belongs to property P *)
Definition is_not (P : pid) (x : pid) : Prop := x <> P.

(* mon_poll, cut into named pieces: intermediate values x_.., rule groups x_e.. (mon_poll_eq) *)
Section MP.
Variables (p : params) (napps : nat) (m : mon) (s : pstep).

Definition x_ts : Z := p_address p.
Definition x_now : Z := s_now s.
Definition x_pre : view := m_view m.
Definition x_post : view := s_view s.
Definition x_k0 : state_kind := v_kind x_pre.
Definition x_k1 : state_kind := v_kind x_post.
Definition x_grew : bool := Nat.ltb (m_left m) (length (s_rx s)).
Definition x_pre_online : bool := match v_conn x_pre with ConnOffline => false | _ => true end.
Definition x_lba : option Z := if (x_grew || s_busy s) && x_pre_online then Some (zmax_opt (m_lba m) x_now) else m_lba m.
Definition x_sync : Z := p_bits_to_time p prop_sync_bits.
Definition x_slot : Z := slot_time p.
Definition x_silent (d : Z) : bool := match x_lba with Some l => l + d <? x_now | None => true end.
Definition x_txt : option telegram := match s_tx s with Some w => decode_one w | None => None end.
Definition x_tels : list (telegram * bool) := if Nat.eqb (s_consumed s) 0 then [] else delivered (s_rx s).
Definition x_heard : bool := (negb (Nat.eqb (s_consumed s) 0)) && match x_tels with _ :: _ => true | [] => false end.
Definition x_lastt : option telegram := if Nat.eqb (s_consumed s) 0 then None else last_delivered (s_rx s).

Definition x_e01 : list rule :=
    match s_tx s with
    | None => []
    | Some w =>
        check (negb (s_busy s)) R01_tx_while_busy ++
        check (x_silent x_sync) R01_sync_pause ++
        (if kind_in x_k0 [KUseToken; KClaimToken; KAwaitDataResponse; KAwaitStatusResponse; KPassToken] then []
         else if state_kind_eqb x_k0 KCheckTokenPass then check (x_silent x_slot) R01_check_pass_before_slot
         else if kind_in x_k0 [KListenToken; KActiveIdle; KOffline] then
           match x_txt with
           | Some (TData h _) =>
               check (match h_fc h with FcResponse _ _ => (h_sa h =? x_ts) && negb (state_kind_eqb x_k0 KOffline) | _ => false end)
                     R01_who_may_transmit
           | _ =>
               check (is_claim_token x_ts w) R01_who_may_transmit ++
               check (match m_start m with
                      | Some t0 => token_lost_timeout p <=? x_now - zmax_opt x_lba t0
                      | None => false
                      end) R01_claim_before_timeout
           end
         else [R01_who_may_transmit])
    end.

Definition x_e06 : list rule :=
    if kind_in x_k0 [KListenToken; KActiveIdle] && negb (s_busy s) &&
       match s_rx s with [] => true | _ => false end &&
       match m_quiet m with Some q => token_lost_timeout p <=? x_now - q | None => false end
    then check (match s_tx s with Some w => is_claim_token x_ts w | None => false end) R06_no_claim_after_timeout
    else [].

Definition x_tx_end : option Z :=
  match s_tx s with
  | Some w => Some (x_now + bits_to_time (p_baud p) (prop_bits_per_byte * Zlen w))
  | None => None
  end.
Definition x_online : bool := match v_conn x_post with ConnOffline => false | _ => true end.
Definition x_start : option Z :=
  if x_online then match m_start m with Some t => Some t | None => Some x_now end
  else if x_pre_online then Some x_now else m_start m.
Definition x_quiet : option Z :=
  if negb x_online then None else
  match x_tx_end with
  | Some e => Some (zmax_opt (m_quiet m) e)
  | None => if s_busy s || match s_rx s with [] => false | _ => true end
            then Some (zmax_opt (m_quiet m) x_now)
            else match m_quiet m with Some q => Some q | None => Some x_now end
  end.

Definition x_accepted : bool :=
  state_kind_eqb x_k1 KUseToken && kind_in x_k0 [KActiveIdle; KCheckTokenPass] &&
  match s_tx s with None => true | Some _ => false end.
Definition x_cand0 : option Z := if state_kind_eqb x_k0 KActiveIdle then m_cand m else None.

Definition x_e11a : list rule :=
    (if state_kind_eqb x_k0 KListenToken
     then check (kind_in x_k1 [KListenToken; KActiveIdle; KClaimToken; KOffline]) R11_accept_while_listening else []) ++
    (if x_accepted then
       match x_lastt with
       | Some (TToken da sa) =>
           check ((da =? x_ts) && negb (sa =? x_ts)) R11_accept_without_token ++
           (match x_tels with
            | [_] => check ((sa =? v_ps x_pre) || opt_eqb x_cand0 (Some sa)) R11_accept_from_stranger
            | _ => []
            end)
       | _ => [R11_accept_without_token]
       end
     else []).

Definition x_e11c : list rule :=
    if state_kind_eqb x_k1 KActiveIdle && kind_in x_k0 [KActiveIdle; KCheckTokenPass] &&
       match s_tx s with None => true | Some _ => false end
    then match x_lastt, x_tels with
         | Some (TToken da sa), [_] =>
             if (da =? x_ts) && negb (sa =? x_ts)
             then check ((v_ns x_post =? v_ns x_pre) && (v_ps x_post =? v_ps x_pre) &&
                         Bool.eqb (v_las_valid x_post) (v_las_valid x_pre) && bytes_eqb (v_active x_post) (v_active x_pre))
                        R11_offer_changes_ring_view
             else []
         | _, _ => []
         end
    else [].

Definition x_cand : option Z :=
    if state_kind_eqb x_k1 KActiveIdle then
      if kind_in x_k0 [KActiveIdle; KCheckTokenPass] then
        match x_lastt with
        | Some (TToken da sa) => if (da =? x_ts) && negb (sa =? x_ts) then Some sa else x_cand0
        | _ => x_cand0
        end
      else None
    else None.

Definition x_token_tx : option (Z * Z) := match x_txt with Some (TToken da sa) => Some (da, sa) | _ => None end.

Definition x_e11b : list rule :=
    match x_token_tx with
    | Some (da, sa) =>
        if (sa =? x_ts) && negb (da =? x_ts) && state_kind_eqb x_k0 KCheckTokenPass then
          match m_pass m with
          | Some (da', n) =>
              if da' =? da then
                check (x_silent x_slot) R11_retry_too_early ++ check (Nat.ltb n 3) R11_too_many_retries
              else
                if Nat.eqb (s_consumed s) 0 && mem_z da' (v_active x_pre) && negb (mem_z da' (v_active x_post))
                then check (Nat.eqb n 3 && x_silent x_slot) R11_removed_too_early else []
          | None => []
          end
        else []
    | None => []
    end ++
    (if state_kind_eqb x_k0 KCheckTokenPass && x_heard
     then check (kind_in x_k1 [KActiveIdle; KUseToken; KListenToken] &&
                 match s_tx s with None => true | Some _ => false end) R11_heard_but_supervising
     else []).

Definition x_pass : option (Z * nat) :=
    match x_token_tx with
    | Some (da, sa) =>
        if (sa =? x_ts) && negb (da =? x_ts) then
          match m_pass m with
          | Some (da', n) => if (da' =? da) && state_kind_eqb x_k0 KCheckTokenPass then Some (da, S n) else Some (da, 1%nat)
          | None => Some (da, 1%nat)
          end
        else None
    | None => if kind_in x_k1 [KCheckTokenPass; KPassToken] then m_pass m else None
    end.

Definition x_self_pass : bool :=
  kind_in x_k0 [KUseToken; KAwaitDataResponse] &&
  match x_token_tx with Some (da, sa) => (da =? x_ts) && (sa =? x_ts) | None => false end.
Definition x_new_visit : bool :=
  state_kind_eqb x_k1 KUseToken && (negb (kind_in x_k0 [KUseToken; KAwaitDataResponse]) || x_self_pass).
Definition x_gap_poll : option Z :=
    match x_txt with
    | Some (TData h _) =>
        if is_fdl_status_request h && (h_sa h =? x_ts) && negb (app_sent (s_calls s)) then Some (h_da h) else None
    | _ => None
    end.

Definition x_e12a : list rule :=
    match x_gap_poll with
    | Some da =>
        check (in_gapb x_ts (v_ns x_pre) da && (da <? p_hsa p) && negb (da =? x_ts)) R12_gap_poll_outside_gap ++
        (if state_kind_eqb x_k0 KClaimToken then [] else check (Nat.eqb (m_gap_polls m) 0) R12_two_gap_polls_per_visit)
    | None => []
    end.

Definition x_gap_polls : nat :=
    match x_token_tx with
    | Some _ => 0%nat
    | None => if x_new_visit then 0%nat
              else match x_gap_poll with
                   | Some _ => if state_kind_eqb x_k0 KClaimToken then m_gap_polls m else S (m_gap_polls m)
                   | None => m_gap_polls m
                   end
    end.

Definition x_e12b : list rule :=
    match x_txt with
    | Some (TData h _) =>
        match h_fc h with
        | FcResponse st status =>
            if h_sa h =? x_ts then
              check (opt_eqb (m_req m) (Some (h_da h))) R12_reply_without_request ++
              (if state_kind_eqb x_k0 KActiveIdle then
                 check ((resp_state_to_byte st =? resp_state_to_byte RsMasterInRing) &&
                        (resp_status_to_byte status =? resp_status_to_byte StOk)) R12_reply_untruthful
               else if state_kind_eqb x_k0 KListenToken then
                 let ready := v_las_valid x_pre && (h_da h =? v_ps x_pre) in
                 check ((resp_state_to_byte st =?
                         resp_state_to_byte (if ready then RsMasterWithoutToken else RsMasterNotReady)) &&
                        (resp_status_to_byte status =? resp_status_to_byte StOk)) R12_reply_untruthful
               else [R12_reply_from_wrong_state])
            else []
        | _ => []
        end
    | _ => []
    end.

Definition x_req : option Z :=
    if negb (kind_in x_k1 [KListenToken; KActiveIdle]) then None else
    match s_tx s with
    | Some _ => None
    | None =>
        if kind_in x_k0 [KListenToken; KActiveIdle; KCheckTokenPass; KOffline] then
          match x_lastt with
          | Some (TData h _) =>
              if is_fdl_status_request h && (h_da h =? x_ts) &&
                 negb (state_kind_eqb x_k0 KListenToken && (h_sa h =? x_ts))
              then Some (h_sa h) else m_req m
          | Some _ => m_req m
          | None => m_req m
          end
        else None
    end.

Definition x_m1 : mon :=
  mkMon x_pre (m_left m) x_lba x_quiet x_cand x_pass x_gap_polls x_req (m_out m) (m_turn m)
        (m_prev_tt m) (m_tt m) (m_rounds m) x_start.
Definition x_fold : mon * list rule :=
  fold_left (mon_call p napps x_k0 x_now (m_rounds m)) (s_calls s) (x_m1, []).
Definition x_asked : bool :=
  match s_calls s with
  | [] => false
  | _ => existsb (fun c => match c with CallTransmit _ _ _ => true | _ => false end) (s_calls s)
  end.
Definition x_e15 : list rule :=
  if state_kind_eqb x_k1 KAwaitDataResponse
  then check (match m_out (fst x_fold) with Some _ => true | None => false end) R15_await_without_request else [].
Definition x_out : option (nat * Z) := if state_kind_eqb x_k1 KAwaitDataResponse then m_out (fst x_fold) else None.
Definition x_rounds : nat := if x_asked then S (m_rounds m) else m_rounds m.
Definition x_lba' : option Z := match x_tx_end with Some e => Some (zmax_opt x_lba e) | None => x_lba end.
Definition x_left : nat := (length (s_rx s) - s_consumed s)%nat.
Definition x_m3 : mon :=
    if x_new_visit
    then mkMon x_post x_left x_lba' x_quiet x_cand x_pass x_gap_polls x_req x_out (m_turn (fst x_fold)) (m_tt m) x_now 0 x_start
    else if state_kind_eqb x_k1 KOffline
    then mkMon x_post x_left x_lba' x_quiet x_cand x_pass x_gap_polls x_req x_out (m_turn (fst x_fold)) 0 0 0%nat x_start
    else mkMon x_post x_left x_lba' x_quiet x_cand x_pass x_gap_polls x_req x_out (m_turn (fst x_fold)) (m_prev_tt m) (m_tt m) x_rounds x_start.

Lemma mon_poll_eq :
  mon_poll p napps m s =
  (x_m3, x_e01 ++ x_e06 ++ x_e11a ++ x_e11c ++ x_e11b ++ x_e12a ++ x_e12b ++ snd x_fold ++ x_e15).
Proof.
  unfold mon_poll, x_m3, x_e15, x_out, x_fold.
  destruct (fold_left (mon_call p napps x_k0 x_now (m_rounds m)) (s_calls s) (x_m1, [])) as [m2 ec] eqn:E.
  unfold x_m1, x_k0, x_now, x_pre in E. cbv zeta.
  match goal with |- context [fold_left ?a ?b ?c] => replace (fold_left a b c) with (m2, ec) by (symmetry; exact E) end.
  reflexivity.
Qed.

End MP.

(* mon_poll2 likewise: y_.., y_e_.. (mon_poll2_eq) *)
Section MP2.
Variables (p : params) (napps : nat) (m : mon) (g : mon2) (s : pstep).

Definition y_ts : Z := p_address p.
Definition y_now : Z := s_now s.
Definition y_pre : view := m_view m.
Definition y_post : view := s_view s.
Definition y_k0 : state_kind := v_kind y_pre.
Definition y_k1 : state_kind := v_kind y_post.
Definition y_txt : option telegram := match s_tx s with Some w => decode_one w | None => None end.
Definition y_gap_poll : option Z :=
    match y_txt with
    | Some (TData h _) =>
        if is_fdl_status_request h && (h_sa h =? y_ts) && negb (app_sent (s_calls s)) then Some (h_da h) else None
    | _ => None
    end.
Definition y_token_tx : option Z :=
  match y_txt with Some (TToken da sa) => if sa =? y_ts then Some da else None | _ => None end.
Definition y_first : option telegram :=
  match decode (s_rx s) with
  | Ok (Accept t n) => if Nat.eqb n (s_consumed s) then Some t else None
  | _ => None
  end.
Definition y_awaiting : bool := kind_in y_k0 [KAwaitStatusResponse; KClaimToken].
Definition y_ready_reply : bool :=
    y_awaiting &&
    match g_wait g, y_first with
    | Some a, Some (TData h _) =>
        match h_fc h with
        | FcResponse st status =>
            (h_sa h =? a) && (h_da h =? y_ts) && (resp_status_to_byte status =? resp_status_to_byte StOk) &&
            is_ready_master st
        | _ => false
        end
    | _, _ => false
    end.
Definition y_e_found : list rule :=
    if y_ready_reply
    then check (match g_wait g with Some a => v_ns y_post =? a | None => true end) R12_found_not_successor
    else if y_awaiting then check (v_ns y_post =? v_ns y_pre) R12_successor_changed_without_ready_reply
    else [].
Definition y_e_tok : list rule :=
  match y_token_tx, g_expect g with
  | Some da, Some a => check (da =? a) R12_found_not_next_token
  | _, _ => []
  end.
Definition y_expect : option Z :=
    match y_token_tx with
    | Some _ => None
    | None => if kind_in y_k1 [KActiveIdle; KListenToken; KOffline] then None
              else if y_ready_reply then g_wait g else g_expect g
    end.
Definition y_wait : option Z :=
  match y_gap_poll with
  | Some da => Some da
  | None => if kind_in y_k1 [KAwaitStatusResponse; KClaimToken] then g_wait g else None
  end.
Definition y_visit_tx : bool :=
  match y_token_tx with
  | Some _ => kind_in y_k0 [KPassToken; KAwaitStatusResponse; KUseToken; KAwaitDataResponse]
  | None => false
  end.
Definition y_claim_tx : bool :=
  match y_token_tx with Some da => (da =? y_ts) && kind_in y_k0 [KListenToken; KActiveIdle; KClaimToken] | None => false end.
Definition y_restart : bool := negb (v_ns y_post =? v_ns y_pre) || y_claim_tx || kind_in y_k1 [KListenToken; KOffline].
Definition y_last1 : list nat :=
  match y_gap_poll with
  | Some da => if (0 <=? da) && (da <? 126) then set_nth_nat (g_last g) (Z.to_nat da) (g_visit g) else g_last g
  | None => g_last g
  end.
Definition y_last2 : list nat := if y_restart then repeat (g_visit g) addr_count else y_last1.
Definition y_visit : nat := if y_visit_tx then S (g_visit g) else g_visit g.
Definition y_e_sweep : list rule :=
    if y_visit_tx && negb y_restart
    then (let gap := gap_addrs p (v_ns y_post) in
          let bound := (length gap + Z.to_nat (p_gap_wait p) + 2)%nat in
          check (forallb (fun a => Nat.leb (y_visit - nth (Z.to_nat a) y_last2 0%nat) bound) gap) R12_sweep_bound)
    else [].
Definition y_e13 : list rule :=
  flat_map (fun c => match c with
                     | CallTransmit _ hp _ =>
                         if hp then check (h_end g <=? y_now) R13_high_prio_inside_hold_time
                         else check (y_now <? h_end g) R13_low_prio_after_hold_time
                     | _ => []
                     end) (s_calls s).
Definition y_self_pass : bool :=
  kind_in y_k0 [KUseToken; KAwaitDataResponse] && match y_token_tx with Some da => da =? y_ts | None => false end.
Definition y_new_visit : bool :=
  state_kind_eqb y_k1 KUseToken && (negb (kind_in y_k0 [KUseToken; KAwaitDataResponse]) || y_self_pass).
Definition y_hend : Z :=
  if y_new_visit
  then m_tt m + token_rotation_time p -
       (if v_gap_due y_post then p_bits_to_time p (p_slot_bits p + prop_gap_reserve_extra_bits) else 0)
  else h_end g.
Definition y_in_list (a : Z) (l : list Z) : bool := existsb (Z.eqb a) l.
Definition y_scan1 : option (list Z) :=
  if y_claim_tx then Some (gap_addrs p (v_ns y_post))
  else match g_scan g, y_gap_poll with
       | Some l, Some da => Some (filter (fun a => negb (a =? da)) l)
       | sc, _ => sc
       end.
Definition y_scan_ends : bool := state_kind_eqb y_k0 KClaimToken && negb (state_kind_eqb y_k1 KClaimToken).
Definition y_e_scan : list rule :=
    if y_scan_ends && state_kind_eqb y_k1 KPassToken then
      match y_scan1 with
      | Some l => (let gap := gap_addrs p (v_ns y_post) in
                   check (negb (existsb (fun a => y_in_list a gap) l)) R12_post_claim_scan_incomplete)
      | None => []
      end
    else [].
Definition y_scan : option (list Z) :=
  if y_scan_ends then None
  else if kind_in y_k1 [KClaimToken; KListenToken; KActiveIdle] then y_scan1 else None.
Definition y_in_vis (k : state_kind) : bool := kind_in k [KUseToken; KAwaitDataResponse].
Definition y_rr_step (acc : nat * nat * list rule) (c : call) : nat * nat * list rule :=
       let '(turn, decl, errs) := acc in
       match c with
       | CallTransmit i hp r =>
           let e := check (Nat.eqb i turn && Nat.ltb i napps) R15_round_robin ++
                    check (Nat.ltb decl napps) R15_asked_after_all_declined in
           match r with
           | None => (Nat.modulo (i + 1) napps, S decl, errs ++ e)
           | Some _ => (turn, decl, errs ++ e)
           end
       | CallReceiveReply i _ _ | CallHandleTimeout i _ =>
           (turn, decl, errs ++ check (Nat.eqb i turn) R15_round_robin)
       end.
Definition y_rr : nat * nat * list rule := fold_left y_rr_step (s_calls s) (r_turn g, r_decl g, []).
Definition y_turn1 : nat := fst (fst y_rr).
Definition y_decl1 : nat := snd (fst y_rr).
Definition y_e_rr : list rule := snd y_rr.
Definition y_passed : bool := kind_in y_k1 [KPassToken; KAwaitStatusResponse; KCheckTokenPass] || y_self_pass.
Definition y_e_end : list rule :=
    if y_in_vis y_k0 then
      (if Nat.ltb 0 napps && Nat.eqb y_decl1 napps
       then check y_passed R15_not_passed_after_all_declined else []) ++
      (if y_passed
       then check (Nat.eqb y_decl1 napps || (h_end g <=? y_now)) R15_passed_before_all_declined else [])
    else [].
Definition y_turn2 : nat := if state_kind_eqb y_k1 KOffline then 0%nat else y_turn1.
Definition y_decl2 : nat := if y_in_vis y_k1 then (if y_in_vis y_k0 && negb y_self_pass then y_decl1 else 0%nat) else 0%nat.
Definition y_grew : bool := Nat.ltb (m_left m) (length (s_rx s)).
Definition y_tx_end : option Z :=
  match s_tx s with
  | Some w => Some (y_now + bits_to_time (p_baud p) (prop_bits_per_byte * Zlen w))
  | None => None
  end.
Definition y_ongoing : bool := match l_txend g with Some e => y_now <=? e | None => false end.
Definition y_looks : bool := negb (s_busy s) && negb y_ongoing.
Definition y_spur_now : bool := l_spur g && y_looks && match s_rx s with [] => false | _ => true end.
Definition y_consumed : bool := negb (Nat.eqb (s_consumed s) 0).
Definition y_quiet : bool := y_looks && negb y_grew && negb y_spur_now.
Definition y_waiting_c12 : bool :=
  state_kind_eqb y_k0 KAwaitStatusResponse || (state_kind_eqb y_k0 KClaimToken && v_scan_await y_pre).
Definition y_acted : bool :=
  y_consumed || negb (state_kind_eqb y_k1 y_k0) ||
  match s_tx s with Some _ => true | None => false end ||
  match s_calls s with [] => false | _ => true end ||
  (state_kind_eqb y_k0 KClaimToken && negb (v_scan_await y_post)).
Definition y_expired : bool := match l_ref g with Some r => r + slot_time p <? y_now | None => false end.
Definition y_e_live : list rule :=
    if y_quiet && y_expired && negb y_acted then
      (if y_waiting_c12 then [R12_gap_wait_never_ends] else []) ++
      (if state_kind_eqb y_k0 KCheckTokenPass then [R11_supervision_never_ends] else []) ++
      (if state_kind_eqb y_k0 KAwaitDataResponse then [R15_no_reply_no_timeout] else [])
    else [].
Definition y_happened : bool := y_grew || s_busy s || y_consumed || y_spur_now.
Definition y_ref1 : option Z :=
  if y_happened then Some (zmax_opt (l_ref g) y_now)
  else match l_ref g with Some r => Some r | None => Some y_now end.
Definition y_ref2 : option Z := match y_tx_end with Some e => Some (zmax_opt y_ref1 e) | None => y_ref1 end.
Definition y_txend : option Z := match y_tx_end with Some e => Some e | None => l_txend g end.
Definition y_spur : bool :=
  if y_consumed then Nat.ltb (s_consumed s) (length (s_rx s))
  else if y_looks then false else (l_spur g || y_grew).

Definition y_e_backoff : list rule :=
    if y_looks then
      match decode (s_rx s) with
      | Ok (Accept t n) =>
          let gap_reply (a : Z) := match t with
                                   | TData h _ => match h_fc h with
                                                  | FcResponse _ _ => (h_sa h =? a) && (h_da h =? y_ts)
                                                  | _ => false
                                                  end
                                   | _ => false
                                   end in
          let unexpected :=
            if state_kind_eqb y_k0 KAwaitDataResponse then
              match m_out m with
              | Some (_, addr) => negb (match t with TShortConf => true | TToken _ _ => false | _ => gap_reply addr end)
              | None => false
              end
            else if y_waiting_c12 then
              match g_wait g with Some a => negb (gap_reply a) | None => false end
            else false in
          if unexpected
          then check (state_kind_eqb y_k1 KActiveIdle &&
                      match s_tx s with None => true | Some _ => false end &&
                      match s_calls s with [] => true | _ => false end &&
                      Nat.eqb (s_consumed s) n) R06_no_backoff
          else []
      | _ => []
      end
    else [].

Definition y_g' : mon2 :=
  mkMon2 y_wait y_expect y_visit y_last2 y_hend y_scan y_turn2 y_decl2 y_ref2 y_txend y_spur.

Lemma mon_poll2_eq :
  mon_poll2 p napps m g s =
  (y_g', y_e_found ++ y_e_tok ++ y_e_sweep ++ y_e13 ++ y_e_scan ++ y_e_rr ++ y_e_end ++ y_e_live ++ y_e_backoff).
Proof.
  unfold mon_poll2.
  cbv zeta.
  match goal with |- context [fold_left ?a ?b ?c] => change (fold_left a b c) with y_rr end.
  unfold y_g', y_e_rr, y_e_end, y_turn2, y_decl2, y_turn1, y_decl1.
  destruct y_rr as [[t1 d1] e1].
  cbn [fst snd].
  cbv beta zeta delta [y_ts y_now y_pre y_post y_k0 y_k1 y_txt y_gap_poll y_token_tx y_first y_awaiting y_ready_reply
    y_e_found y_e_tok y_expect y_wait y_visit_tx y_claim_tx y_restart y_last1 y_last2 y_visit y_e_sweep y_e13 y_self_pass
    y_new_visit y_hend y_in_list y_scan1 y_scan_ends y_e_scan y_scan y_in_vis y_passed y_grew y_tx_end y_ongoing y_looks
    y_spur_now y_consumed y_quiet y_waiting_c12 y_acted y_expired y_e_live y_happened y_ref1 y_ref2 y_txend y_spur y_e_backoff].
  reflexivity.
Qed.

End MP2.

Lemma x_e01_only p m s : onlyp (eq PC01) (x_e01 p m s).
Proof. unfold x_e01. solve_onlyp. Qed.
Lemma x_e06_only p m s : onlyp (eq PC06) (x_e06 p m s).
Proof. unfold x_e06. solve_onlyp. Qed.
Lemma x_e11a_only p m s : onlyp (eq PC11) (x_e11a p m s).
Proof. unfold x_e11a. solve_onlyp. Qed.
Lemma x_e11c_only p m s : onlyp (eq PC11) (x_e11c p m s).
Proof. unfold x_e11c. solve_onlyp. Qed.
Lemma x_e11b_only p m s : onlyp (eq PC11) (x_e11b p m s).
Proof. unfold x_e11b. solve_onlyp. Qed.
Lemma x_e12a_only p m s : onlyp (eq PC12) (x_e12a p m s).
Proof. unfold x_e12a. solve_onlyp. Qed.
Lemma x_e12b_only p m s : onlyp (eq PC12) (x_e12b p m s).
Proof. unfold x_e12b. cbv zeta. solve_onlyp. Qed.
Lemma x_e15_only p n m s : onlyp (eq PC15) (x_e15 p n m s).
Proof. unfold x_e15. solve_onlyp. Qed.

(* the callbacks: rules of C13 and C15 *)
Definition p1315 (x : pid) : Prop := x = PC13 \/ x = PC15.

Lemma mon_call_snd p n k0 now r0 m e c :
  exists ec, snd (mon_call p n k0 now r0 (m, e) c) = e ++ ec /\ onlyp p1315 ec /\
             forall e', fst (mon_call p n k0 now r0 (m, e') c) = fst (mon_call p n k0 now r0 (m, e) c).
Proof.
  destruct c as [i hp r|i a t|i a]; cbn [mon_call fst snd].
  - eexists. split; [reflexivity|]. split; [|reflexivity].
    cbn [app]. unfold p1315. solve_onlyp.
  - eexists. split; [reflexivity|]. split; [|reflexivity]. unfold p1315. solve_onlyp.
  - eexists. split; [reflexivity|]. split; [|reflexivity]. unfold p1315. solve_onlyp.
Qed.

Lemma mon_calls_only p n k0 now r0 l : forall m e, onlyp p1315 e ->
  onlyp p1315 (snd (fold_left (mon_call p n k0 now r0) l (m, e))).
Proof.
  induction l as [|c l IH]; intros m e He; [exact He|]. cbn [fold_left].
  destruct (mon_call p n k0 now r0 (m, e) c) as [m1 e1] eqn:E.
  destruct (mon_call_snd p n k0 now r0 m e c) as (ec & H1 & H2 & _). rewrite E in H1. cbn in H1. subst e1.
  apply IH. apply onlyp_app; assumption.
Qed.

Lemma x_fold_only p n m s : onlyp p1315 (snd (x_fold p n m s)).
Proof. unfold x_fold. apply mon_calls_only. apply onlyp_nil. Qed.

Lemma y_e_found_only p m g s : onlyp (eq PC12) (y_e_found p m g s).
Proof. unfold y_e_found. solve_onlyp. Qed.
Lemma y_e_tok_only p g s : onlyp (eq PC12) (y_e_tok p g s).
Proof. unfold y_e_tok. solve_onlyp. Qed.
Lemma y_e_sweep_only p m g s : onlyp (eq PC12) (y_e_sweep p m g s).
Proof. unfold y_e_sweep. cbv zeta. solve_onlyp. Qed.
Lemma y_e13_only g s : onlyp (eq PC13) (y_e13 g s).
Proof.
  unfold y_e13. induction (s_calls s) as [|c l IH]; [apply onlyp_nil|]. cbn [flat_map].
  apply onlyp_app; [|exact IH]. solve_onlyp.
Qed.
Lemma y_e_scan_only p m g s : onlyp (eq PC12) (y_e_scan p m g s).
Proof. unfold y_e_scan. cbv zeta. solve_onlyp. Qed.
Lemma y_rr_only n l : forall t d e, onlyp (eq PC15) e -> onlyp (eq PC15) (snd (fold_left (y_rr_step n) l (t, d, e))).
Proof.
  induction l as [|c l IH]; intros t d e He; [exact He|]. cbn [fold_left].
  destruct c as [i hp [r|]|i a tt|i a]; cbn [y_rr_step]; apply IH; apply onlyp_app; try exact He; solve_onlyp.
Qed.
Lemma y_e_rr_only n g s : onlyp (eq PC15) (y_e_rr n g s).
Proof. unfold y_e_rr, y_rr. apply y_rr_only. apply onlyp_nil. Qed.
Lemma y_e_end_only p n m g s : onlyp (eq PC15) (y_e_end p n m g s).
Proof. unfold y_e_end. solve_onlyp. Qed.
Definition p_live (x : pid) : Prop := x = PC12 \/ x = PC11 \/ x = PC15.
Lemma y_e_live_only p m g s : onlyp p_live (y_e_live p m g s).
Proof. unfold y_e_live, p_live. solve_onlyp. Qed.
Lemma y_e_backoff_only p m g s : onlyp (eq PC06) (y_e_backoff p m g s).
Proof. unfold y_e_backoff. cbv zeta. solve_onlyp. Qed.

Definition mon_after_api (a : api_call) (v : view) (m : mon) (g : mon2) : mon * mon2 :=
  match a with
  | ApiNew | ApiOffline => (mon_reset v (m_left m), mon2_reset)
  | ApiPassive => (m, g)
  | ApiOnline =>
      (mkMon v (m_left m) (m_lba m) (m_quiet m) (m_cand m) (m_pass m) (m_gap_polls m) (m_req m)
             (m_out m) (m_turn m) (m_prev_tt m) (m_tt m) (m_rounds m) (m_start m), g)
  end.

Lemma mon_event_api p n m g la a v :
  mon_event p n (Some (m, g), la, []) (EApi a v) = (Some (mon_after_api a v m g), Some a, []).
Proof. destruct a; reflexivity. Qed.

Lemma monitor_from_api p n i m g la a v tl :
  monitor_from p n i (Some (m, g)) la (EApi a v :: tl) =
  monitor_from p n (S i) (Some (mon_after_api a v m g)) (Some a) tl.
Proof. cbn [monitor_from]. rewrite mon_event_api. reflexivity. Qed.

Lemma set_passive_panics f : set_passive f = Panic SiteUnreachable.
Proof. reflexivity. Qed.

Section Generic.
Variable A : Type.
Variable ops : app_ops A.
Variable p : params.
Variable n : nat.
(* what may fire: a predicate on rules (for whole properties: fun r => rule_prop r <> PCxx) *)
Variable Q : rule -> Prop.
(* invariant: station, applications, PHY buffer, time of the last poll, monitor states *)
Variable J : fdl -> list A -> bytes -> Z -> mon -> mon2 -> Prop.
(* side condition on the states of the run (every caller but c01_corner_example takes fun _ => True) *)
Variable G : fdl -> Prop.

Hypothesis HQ5 : Q R05_panic.

Hypothesis J_api : forall a f apps buf tl m g f',
  J f apps buf tl m g -> api_result p a f = Ok f' -> G f' ->
  J f' apps buf tl (fst (mon_after_api a (view_of f') m g)) (snd (mon_after_api a (view_of f') m g)).

Hypothesis J_poll : forall f apps buf tl m g now busy nb f' o apps' calls,
  J f apps buf tl m g -> tl < now -> time_ok now -> all_bytes nb ->
  poll ops f now (mkPhyIn busy (buf ++ nb)) apps = Ok (f', o, apps', calls) -> G f' ->
  (forall r, In r (snd (mon_poll p n m (poll_event now busy (buf ++ nb) f' o calls))) -> Q r) /\
  (forall r, In r (snd (mon_poll2 p n m g (poll_event now busy (buf ++ nb) f' o calls))) -> Q r) /\
  J f' apps' (rx_left o) now (fst (mon_poll p n m (poll_event now busy (buf ++ nb) f' o calls)))
                             (fst (mon_poll2 p n m g (poll_event now busy (buf ++ nb) f' o calls))).

Lemma monitor_from_panic i om la k r :
  In (k, r) (monitor_from p n i om la [EPanic]) -> Q r.
Proof.
  cbn. destruct la as [[ | | | ]|]; cbn; intros H; try contradiction;
    destruct H as [H|[]]; injection H as _ <-; exact HQ5.
Qed.

Theorem generic_sound : forall ins f apps buf tl m g i la,
  J f apps buf tl m g -> ins_ok tl ins -> run_ok A ops p G f apps buf ins ->
  forall k r, In (k, r) (monitor_from p n i (Some (m, g)) la (model_events A ops p f apps buf ins)) -> Q r.
Proof.
  induction ins as [|x ins IH]; intros f apps buf tl m g i la HJ Hok Hrun k r Hin; [contradiction|].
  destruct x as [a|now busy nb]; cbn [model_events] in Hin; cbn [run_ok] in Hrun.
  - cbn [ins_ok] in Hok.
    destruct (api_result p a f) as [f'| |] eqn:Ea.
    + rewrite monitor_from_api in Hin. destruct Hrun as (Hg & Hrun).
      destruct (mon_after_api a (view_of f') m g) as [m' g'] eqn:Em.
      pose proof (J_api _ _ _ _ _ _ _ _ HJ Ea Hg) as HJ'. rewrite Em in HJ'. cbn [fst snd] in HJ'.
      exact (IH _ _ _ _ _ _ _ _ HJ' Hok Hrun _ _ Hin).
    + rewrite monitor_from_api in Hin. exact (monitor_from_panic _ _ _ _ _ Hin).
    + rewrite monitor_from_api in Hin. exact (monitor_from_panic _ _ _ _ _ Hin).
  - cbn [ins_ok] in Hok. destruct Hok as (Htl & Hnow & Hnb & Hok).
    destruct (poll ops f now (mkPhyIn busy (buf ++ nb)) apps) as [[[[f' o] apps'] calls]| |] eqn:Ep;
      try exact (monitor_from_panic _ _ _ _ _ Hin).
    destruct Hrun as (Hg & Hrun).
    destruct (J_poll _ _ _ _ _ _ _ _ _ _ _ _ _ HJ Htl Hnow Hnb Ep Hg) as (H1 & H2 & HJ').
    cbn [monitor_from mon_event] in Hin.
    destruct (mon_poll p n m (poll_event now busy (buf ++ nb) f' o calls)) as [m' e1].
    destruct (mon_poll2 p n m g (poll_event now busy (buf ++ nb) f' o calls)) as [g' e2].
    cbn [fst snd app] in *. apply in_app_or in Hin. destruct Hin as [Hin|Hin].
    + apply in_map_iff in Hin. destruct Hin as (r' & Hr & Hin). injection Hr as _ <-.
      apply in_app_or in Hin. destruct Hin as [Hin|Hin]; [exact (H1 _ Hin)|exact (H2 _ Hin)].
    + exact (IH _ _ _ _ _ _ _ _ HJ' Hok Hrun _ _ Hin).
Qed.

Hypothesis J_init : forall f0 apps, fdl_new p = Ok f0 -> length apps = n -> G f0 ->
  J f0 apps [] 0 (mon_reset (view_of f0) 0) mon2_reset.

Theorem generic_sound_transcript apps ins : length apps = n -> ins_ok 0 ins -> transcript_ok A ops p G apps ins ->
  forall k r, In (k, r) (monitor p n (model_transcript A ops p apps ins)) -> Q r.
Proof.
  intros Hn Hok Hrun k r Hin. unfold monitor in Hin. destruct (builder_validb p); [|contradiction].
  unfold model_transcript in Hin. unfold transcript_ok in Hrun. pose proof J_init as Ji. destruct (fdl_new p) as [f0| |].
  - cbn [monitor_from mon_event map app] in Hin. destruct Hrun as (Hg0 & Hrun).
    exact (generic_sound _ _ _ _ _ _ _ _ _ (Ji _ _ eq_refl Hn Hg0) Hok Hrun _ _ Hin).
  - cbn in Hin. contradiction.
  - cbn in Hin. contradiction.
Qed.

End Generic.
