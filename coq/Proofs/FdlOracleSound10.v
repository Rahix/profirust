(* C11, accepting the token: in every poll the rule groups of R11_accept_without_token, R11_accept_from_stranger
   (e11a_ok) and R11_offer_changes_ring_view (e11c_ok) are empty, with the invariant CD.  The receive loops of
   do_active_idle / do_check_token_pass are runs of handle_telegram (hrun) over `delivered` of the monitors. *)
From Coq Require Import Arith.
From PB Require Import Common Tables FdlTables Telegram Phy TokenRing Params Fdl FdlOracle FdlProofs FdlStepProofs.
From PB Require Import ByteFacts C05Proofs C01Proofs C11Proofs C15Proofs C13Proofs C12Proofs.
From PB Require Import FdlOracleSound1 FdlOracleSound2 FdlOracleSound3 FdlOracleSound4 FdlOracleSound5 FdlOracleSound6
                       FdlOracleSound7 FdlOracleSound8 FdlOracleSound9.

Section Fold.
Context {S R : Type}.

Fixpoint fold_cb (cb : S -> telegram -> bool -> res (S * R)) (s : S) (l : list (telegram * bool)) : res S :=
  match l with
  | [] => Ok s
  | (t, il) :: l' => let* (s1, _) := cb s t il in fold_cb cb s1 l'
  end.

(* only the last delivered telegram can carry is_last *)
Fixpoint flags_ok (l : list (telegram * bool)) : Prop :=
  match l with
  | [] => True
  | [_] => True
  | (_, il) :: l' => il = false /\ flags_ok l'
  end.

(* the closure of FdlOracle.delivered *)
Definition collect (acc : list (telegram * bool)) (t : telegram) (l : bool) : res (list (telegram * bool) * unit) :=
  Ok (acc ++ [(t, l)], tt).

Lemma receive_all_fold (cb : S -> telegram -> bool -> res (S * R)) :
  forall fuel s buf s' rest r acc, receive_all cb fuel s buf = Ok (s', rest, r) ->
  exists l r', receive_all collect fuel acc buf = Ok (acc ++ l, rest, r') /\ fold_cb cb s l = Ok s' /\ flags_ok l /\
               (l = [] -> s' = s /\ (rest = buf \/ rest = [])) /\ (l <> [] -> (length rest < length buf)%nat).
Proof.
  induction fuel as [|fuel IH]; intros s buf s' rest r acc H; [discriminate H|].
  cbn [receive_all] in H |- *.
  destruct (decode buf) as [d| |] eqn:Ed; cbn [bind] in H |- *; try discriminate H.
  destruct d as [ | |t k].
  - injection H as <- <- _. exists [], None. rewrite app_nil_r. split; [reflexivity|]. split; [reflexivity|]. split; [exact I|].
    split; [intros _; split; [reflexivity|left; reflexivity]|intros C; contradiction C; reflexivity].
  - injection H as <- <- _. exists [], None. rewrite app_nil_r. split; [reflexivity|]. split; [reflexivity|]. split; [exact I|].
    split; [intros _; split; [reflexivity|right; reflexivity]|intros C; contradiction C; reflexivity].
  - cbv zeta in H |- *. pose proof (C16Proofs.decode_accept_bounds _ _ _ Ed) as Hk.
    destruct (cb s t (Nat.eqb k (length buf))) as [[s1 r1]| |] eqn:Ec; cbn [bind] in H; try discriminate H.
    unfold collect at 1. cbn [bind].
    destruct (Nat.eqb k (length buf)) eqn:El.
    + injection H as <- <- _. exists [(t, true)], (Some tt). split; [reflexivity|]. cbn [fold_cb]. rewrite Ec. cbn [bind].
      split; [reflexivity|]. split; [exact I|]. split; [intros C; discriminate C|]. intros _. rewrite skipn_length. lia.
    + destruct (IH _ _ _ _ _ (acc ++ [(t, false)]) H) as (l & r' & Hc & Hf & Hfl & Hnil & Hne).
      exists ((t, false) :: l), r'. rewrite <- app_assoc in Hc. cbn [app] in Hc.
      split; [exact Hc|]. cbn [fold_cb]. rewrite Ec. cbn [bind]. split; [exact Hf|].
      split; [destruct l as [|x l]; [exact I|split; [reflexivity|exact Hfl]]|].
      split; [intros C; discriminate C|]. intros _.
      destruct l as [|x l].
      * destruct (Hnil eq_refl) as (_ & [-> | ->]); [rewrite skipn_length; lia|cbn; lia].
      * specialize (Hne ltac:(discriminate)). rewrite skipn_length in Hne. lia.
Qed.

End Fold.

Lemma receive_all_delivered {S R} (cb : S -> telegram -> bool -> res (S * R)) s buf s' rest r :
  receive_all cb (receive_all_fuel buf) s buf = Ok (s', rest, r) ->
  fold_cb cb s (delivered buf) = Ok s' /\ flags_ok (delivered buf) /\
  (delivered buf = [] -> s' = s /\ (rest = buf \/ rest = [])) /\ (delivered buf <> [] -> (length rest < length buf)%nat).
Proof.
  intros H. destruct (receive_all_fold cb _ _ _ _ _ _ [] H) as (l & r' & Hc & Hf & Hfl & Hnil & Hne).
  unfold delivered. change (fun (acc : list (telegram * bool)) t l => Ok (acc ++ [(t, l)], tt)) with collect.
  rewrite Hc. cbn [app]. tauto.
Qed.

Lemma x_tels_delivered now busy rxb f' o calls :
  (delivered rxb = [] \/ (length (rx_left o) < length rxb)%nat) ->
  x_tels (poll_event now busy rxb f' o calls) = delivered rxb /\
  x_lastt (poll_event now busy rxb f' o calls) = last_delivered rxb.
Proof.
  intros H. unfold x_tels, x_lastt. cbn [poll_event s_consumed s_rx].
  destruct (Nat.eqb (length rxb - length (rx_left o)) 0) eqn:E; [|split; reflexivity].
  apply Nat.eqb_eq in E. destruct H as [H|H]; [|lia]. unfold last_delivered. rewrite H. split; reflexivity.
Qed.

Lemma x_tels_untouched now busy rxb f' o calls :
  rx_left o = rxb -> x_tels (poll_event now busy rxb f' o calls) = [] /\ x_lastt (poll_event now busy rxb f' o calls) = None.
Proof. intros H. unfold x_tels, x_lastt. cbn [poll_event s_consumed s_rx]. rewrite H, Nat.sub_diag. split; reflexivity. Qed.

(* the token offer / the status request that a delivered telegram leaves pending *)
Definition offer_of (tsa : Z) (t : telegram) (il : bool) : option Z :=
  match t with
  | TToken da sa => if (da =? tsa) && negb (sa =? tsa) && il then Some sa else None
  | _ => None
  end.

Definition req_of (tsa : Z) (t : telegram) (il : bool) : option Z :=
  match t with
  | TData h _ => if is_fdl_status_request h && (h_da h =? tsa) && il then Some (h_sa h) else None
  | _ => None
  end.

(* a marker of the station (pending requester, pending offer) after the telegrams l: that of the last one *)
Definition mark_of (rq : Z -> telegram -> bool -> option Z) (tsa : Z) (l : list (telegram * bool)) (d : option Z) : option Z :=
  match rev l with
  | (t, il) :: _ => match rq tsa t il with Some a => Some a | None => d end
  | [] => d
  end.

Lemma mark_of_cons rq tsa x l d : l <> [] -> mark_of rq tsa (x :: l) d = mark_of rq tsa l d.
Proof.
  intros Hne. unfold mark_of. cbn [rev]. destruct (rev l) as [|y r] eqn:Er; [|reflexivity].
  exfalso. apply Hne. apply (f_equal (@rev _)) in Er. rewrite rev_involutive in Er. exact Er.
Qed.

Lemma mark_of_last rq tsa rxb d : (forall t, rq tsa t false = None) ->
  mark_of rq tsa (delivered rxb) d =
  match last_delivered rxb with Some t => match rq tsa t true with Some a => Some a | None => d end | None => d end.
Proof.
  intros Hf. unfold mark_of, last_delivered. destruct (rev (delivered rxb)) as [|[t [|]] r]; try reflexivity.
  rewrite Hf. reflexivity.
Qed.

Lemma offer_of_false tsa t : offer_of tsa t false = None.
Proof. destruct t; cbn; try reflexivity. rewrite andb_false_r. reflexivity. Qed.

Lemma req_of_false tsa t : req_of tsa t false = None.
Proof. destruct t; cbn; try reflexivity. rewrite andb_false_r. reflexivity. Qed.

Section Handle.
Variable A : Type.
Notation W := (world A).

Lemma ht_step now f (w : W) t il f' w' sr nps cc :
  f_state f = ActiveIdle sr nps cc -> handle_telegram A now f w t il = Ok (f', w') ->
  f_p f' = f_p f /\
  match offer_of (ts f) t il with
  | Some sa => (f_state f' = UseToken now None false /\ (sa = r_ps (f_ring f) \/ nps = Some sa)) \/
               (f_state f' = ActiveIdle sr (Some sa) 0 /\ f_ring f' = f_ring f)
  | None => (exists cc', f_state f' = ActiveIdle (match req_of (ts f) t il with Some a => Some a | None => sr end) nps cc') \/
            f_state f' = ListenToken None 0
  end.
Proof.
  intros Es H. split; [exact (proj1 (proj2 (proj2 (handle_telegram_heard A now f w t il f' w' ltac:(rewrite Es; exact I) H))))|].
  unfold handle_telegram in H. rewrite Es in H. cbn [kind_of state_kind_eqb negb get_active_idle bind] in H.
  destruct t as [h pdu|da sa| ]; cbn [offer_of req_of].
  - left. destruct (is_fdl_status_request h && (h_da h =? ts f) && il); injection H as <- _; cbn; [eauto|rewrite Es; eauto].
  - destruct (Z.eqb_spec sa (ts f)) as [Esa|Esa].
    + rewrite andb_false_r. cbn [andb].
      unfold u8_add in H. destruct (cc + 1 <=? 255); cbn [bind] in H; [|discriminate H].
      destruct (cc + 1 =? active_idle_collision_tolerated).
      * injection H as <- _. left. cbn. eauto.
      * apply trans_spec in H. destruct H as (s' & Ht & -> & _). cbn [f_state set_st] in Ht |- *.
        unfold transition_listen_token in Ht. destruct (assert_kind _ _); cbn [bind] in Ht; try discriminate Ht.
        injection Ht as <-. right. reflexivity.
    + cbn [negb]. rewrite andb_true_r.
      replace (ts (set_st f (ActiveIdle sr nps 0))) with (ts f) in H by reflexivity.
      replace (f_ring (set_st f (ActiveIdle sr nps 0))) with (f_ring f) in H by reflexivity.
      destruct (da =? ts f) eqn:Eda; cbn [negb orb andb] in H |- *.
      * destruct il; cbn [negb] in H |- *.
        -- destruct (Z.eqb_spec sa (r_ps (f_ring f))) as [Eps|Eps].
           ++ apply trans_spec in H. destruct H as (s' & Ht & -> & _). cbn [f_state set_st] in Ht |- *.
              unfold transition_use_token in Ht. destruct (assert_kind _ _); cbn [bind] in Ht; try discriminate Ht.
              injection Ht as <-. left. split; [reflexivity|left; exact Eps].
           ++ destruct nps as [a|].
              ** destruct (Z.eqb_spec a sa) as [Ea|Ea].
                 --- destruct (witness _ _ _) as [r| |]; cbn [bind] in H; try discriminate H.
                     apply trans_spec in H. destruct H as (s' & Ht & -> & _). cbn [f_state set_st set_ring] in Ht |- *.
                     unfold transition_use_token in Ht. destruct (assert_kind _ _); cbn [bind] in Ht; try discriminate Ht.
                     injection Ht as <-. left. split; [reflexivity|right; rewrite Ea; reflexivity].
                 --- injection H as <- _. right. cbn. split; reflexivity.
              ** injection H as <- _. right. cbn. split; reflexivity.
        -- destruct (witness _ _ _) as [r| |]; cbn [bind] in H; try discriminate H. injection H as <- _. left. cbn. eauto.
      * destruct (witness _ _ _) as [r| |]; cbn [bind] in H; try discriminate H. injection H as <- _. left. cbn. eauto.
  - injection H as <- _. left. rewrite Es. eauto.
Qed.

(* a run of handle_telegram calls; before each the station may have been touched in its bookkeeping fields only *)
Inductive hrun (now : Z) : fdl -> list (telegram * bool) -> fdl -> Prop :=
| hr_nil f : hrun now f [] f
| hr_cons f fm (w w' : W) f1 t il l f2 :
    f_state fm = f_state f -> f_ring fm = f_ring f -> f_p fm = f_p f ->
    handle_telegram A now fm w t il = Ok (f1, w') -> hrun now f1 l f2 -> hrun now f ((t, il) :: l) f2.

Lemma hrun_listen now f l f' sr cc : hrun now f l f' -> f_state f = ListenToken sr cc ->
  f_state f' = ListenToken sr cc /\ f_p f' = f_p f.
Proof.
  intros H. revert sr cc. induction H as [f|f fm w w' f1 t il l f2 Hs Hr Hp Hh _ IH]; intros sr cc Es; [auto|].
  unfold handle_telegram in Hh. rewrite Hs, Es in Hh. injection Hh as <- _.
  destruct (IH sr cc ltac:(congruence)) as (E2 & P2). split; congruence.
Qed.

Lemma hrun_result now f l f' : hrun now f l f' -> flags_ok l ->
  forall sr nps cc, f_state f = ActiveIdle sr nps cc ->
  f_p f' = f_p f /\
  match f_state f' with
  | UseToken tk fa fcd =>
      tk = now /\ exists l0 t sa, l = l0 ++ [(t, true)] /\ offer_of (ts f) t true = Some sa /\
        (l0 = [] -> sa = r_ps (f_ring f) \/ nps = Some sa)
  | ActiveIdle sr' nps' cc' =>
      sr' = mark_of req_of (ts f) l sr /\ nps' = mark_of offer_of (ts f) l nps /\
      (forall t sa, l = [(t, true)] -> offer_of (ts f) t true = Some sa -> f_ring f' = f_ring f)
  | ListenToken sr' _ => sr' = None
  | _ => False
  end.
Proof.
  intros H. induction H as [f|f fm w w' f1 t il l f2 Hs Hr Hp Hh Hrun IH]; intros Hfl sr nps cc Es.
  - split; [reflexivity|]. rewrite Es. split; [reflexivity|]. split; [reflexivity|]. intros t sa C. discriminate C.
  - assert (Esm : f_state fm = ActiveIdle sr nps cc) by congruence.
    assert (Htsm : ts fm = ts f) by (unfold ts; rewrite Hp; reflexivity).
    destruct (ht_step now fm w t il f1 w' sr nps cc Esm Hh) as (Hp1 & Hstep). rewrite Htsm, Hr in Hstep.
    assert (Hts1 : ts f1 = ts f) by (unfold ts; rewrite Hp1, Hp; reflexivity).
    destruct l as [|x l].
    + (* the last telegram *)
      inversion Hrun; subst. split; [congruence|]. unfold mark_of. cbn [rev app].
      destruct (offer_of (ts f) t il) as [sa|] eqn:Eo.
      * assert (Hil : il = true) by (destruct il; [reflexivity|rewrite offer_of_false in Eo; discriminate Eo]). subst il.
        assert (Er : req_of (ts f) t true = None) by (destruct t; try discriminate Eo; reflexivity). rewrite Er.
        destruct Hstep as [(E1 & Hacc)|(E1 & Hring)]; rewrite E1; [|auto].
        split; [reflexivity|]. exists [], t, sa. auto.
      * destruct Hstep as [(cc' & E1)|E1]; rewrite E1; [|reflexivity].
        split; [reflexivity|]. split; [reflexivity|]. intros t0 sa0 C Ho. injection C as -> ->. rewrite Eo in Ho. discriminate Ho.
    + (* not the last: is_last = false *)
      destruct Hfl as (-> & Hfl). rewrite offer_of_false, req_of_false in Hstep.
      destruct Hstep as [(cc' & E1)|E1].
      * destruct (IH Hfl sr nps cc' E1) as (Hp2 & Hres). split; [congruence|]. rewrite Hts1 in Hres.
        destruct (f_state f2) as [ | |sr2 cc2|sr2 nps2 cc2|tk fa fcd| | | | | ]; try exact Hres.
        -- destruct Hres as (Hs2 & Hn & _). rewrite (mark_of_cons req_of), (mark_of_cons offer_of) by discriminate. split; [exact Hs2|]. split; [exact Hn|]. intros t0 sa0 C. discriminate C.
        -- destruct Hres as (Htk & l0 & t0 & sa & Hl & Ho & _). split; [exact Htk|].
           exists ((t, false) :: l0), t0, sa. split; [rewrite Hl; reflexivity|]. split; [exact Ho|]. intros C. discriminate C.
      * destruct (hrun_listen _ _ _ _ _ _ Hrun E1) as (E2 & P2). rewrite E2. split; [congruence|reflexivity].
Qed.

End Handle.

Section Loops.
Variable A : Type.
Variable ops : app_ops A.
Notation W := (world A).

Lemma ai_fold_hrun now : forall l f0 (w0 : W) f1 w1,
  fold_cb (active_idle_telegram A now) (f0, w0) l = Ok (f1, w1) -> hrun A now f0 l f1.
Proof.
  induction l as [|[t il] l IH]; intros f0 w0 f1 w1 H; cbn [fold_cb] in H.
  - injection H as <- _. constructor.
  - unfold active_idle_telegram in H at 1.
    destruct (handle_telegram A now (mark_rx f0 now) w0 t il) as [[fa wa]| |] eqn:Eh; cbn [bind] in H; try discriminate H.
    destruct (mark_rx_spec f0 now) as (_ & _ & Ms & Mp & _ & _ & Mr).
    eapply hr_cons; [exact Ms|exact Mr|exact Mp|exact Eh|]. eapply IH. exact H.
Qed.

Lemma ctp_fold_false now : forall l f0 (w0 : W) f1 w1 b1,
  fold_cb (check_token_pass_telegram A now) (f0, w0, false) l = Ok (f1, w1, b1) -> hrun A now f0 l f1.
Proof.
  induction l as [|[t il] l IH]; intros f0 w0 f1 w1 b1 H; cbn [fold_cb] in H.
  - injection H as <- _ _. constructor.
  - unfold check_token_pass_telegram in H at 1. cbn [bind] in H.
    destruct (handle_telegram A now (mark_rx f0 now) w0 t il) as [[fa wa]| |] eqn:Eh; cbn [bind] in H; try discriminate H.
    destruct (mark_rx_spec f0 now) as (_ & _ & Ms & Mp & _ & _ & Mr).
    eapply hr_cons; [exact Ms|exact Mr|exact Mp|exact Eh|]. eapply IH. exact H.
Qed.

Lemma ctp_fold_hrun now l f0 (w0 : W) f1 w1 b1 :
  fold_cb (check_token_pass_telegram A now) (f0, w0, true) l = Ok (f1, w1, b1) ->
  match l with
  | [] => f1 = f0 /\ b1 = true
  | _ :: _ => hrun A now (set_st f0 (ActiveIdle None None 0)) l f1
  end.
Proof.
  destruct l as [|[t il] l]; cbn [fold_cb]; intros H.
  - injection H as <- _ <-. split; reflexivity.
  - unfold check_token_pass_telegram in H at 1.
    match type of H with context [trans A ?a ?b ?c] => destruct (trans A a b c) as [[fa wa]| |] eqn:Et end; cbn [bind] in H; try discriminate H.
    apply trans_spec in Et. destruct Et as (s' & Ht & -> & ->).
    unfold transition_active_idle in Ht. destruct (assert_kind _ _); cbn [bind] in Ht; try discriminate Ht. injection Ht as <-.
    match type of H with context [handle_telegram A now ?a ?b t il] => destruct (handle_telegram A now a b t il) as [[fb wb]| |] eqn:Eh end;
      cbn [bind] in H; try discriminate H.
    destruct (mark_rx_spec f0 now) as (_ & _ & Ms & Mp & _ & _ & Mr).
    eapply hr_cons; [| | |exact Eh|eapply ctp_fold_false; exact H]; cbn; [reflexivity|exact Mr|exact Mp].
Qed.

End Loops.

Section PollRuns.
Variable A : Type.
Variable ops : app_ops A.
Notation W := (world A).

(* the receive loop of the poll, as a run of handle_telegram over what the monitors see delivered *)
Definition run_of (now : Z) (f0 f' : fdl) (rxb rxl : bytes) : Prop :=
  exists f1, hrun A now f0 (delivered rxb) f1 /\ f_state f' = f_state f1 /\ f_ring f' = f_ring f1 /\
    flags_ok (delivered rxb) /\ (delivered rxb = [] \/ (length rxl < length rxb)%nat).

Lemma hrun_start now fa fb l f1 :
  f_state fa = f_state fb -> f_ring fa = f_ring fb -> f_p fa = f_p fb -> hrun A now fa l f1 ->
  exists f1', hrun A now fb l f1' /\ f_state f1' = f_state f1 /\ f_ring f1' = f_ring f1.
Proof.
  intros Hs Hr Hp H. inversion H as [f|f fm w w' f2 t il l' f3 Hs' Hr' Hp' Hh Hrun]; subst.
  - exists fb. split; [constructor|]. split; congruence.
  - exists f1. split; [|split; reflexivity]. eapply hr_cons; [| | |exact Hh|exact Hrun]; congruence.
Qed.

Lemma active_idle_poll_run f now pin (apps : list A) f' o apps' calls sr nps cc k :
  poll ops f now pin apps = Ok (f', o, apps', calls) -> Rep k f -> f_state f = ActiveIdle sr nps cc ->
  (rx_left o = rx pin /\
   ((f_state f' = f_state f /\ f_ring f' = f_ring f) \/ (exists src, sr = Some src /\ tx o <> None /\ f_state f' = ActiveIdle None nps cc))) \/
  early_claim (f_state f') \/
  (tx o = None /\ sr = None /\ run_of now f f' (rx pin) (rx_left o)).
Proof.
  intros E R Es.
  destruct (poll_split A ops _ _ _ _ _ _ _ _ _ E R ltac:(rewrite Es; discriminate))
    as [(Hr & Hs & _ & Hrx)|(f1 & w1 & w' & (Hp1 & Hr1 & _ & _ & Hs1 & _) & Htx1 & Hrx1 & Hd & -> & ->)]; [left; auto|].
  unfold C11Proofs.dispatch in Hd. rewrite Hs1, Es in Hd. cbn [kind_of poll_dispatch] in Hd. rewrite Es in Hs1.
  destruct (do_active_idle_cases A _ _ _ _ _ _ _ _ Hd Hs1) as [K|(f0 & (Hp0 & Hr0 & _ & _ & Hs0 & _) & Hc)]; [auto|].
  destruct sr as [src|].
  - left. destruct Hc as (Hrx & Hr & Hc). split; [congruence|].
    destruct Hc as [Hs|(Htx & Hs)]; [left; split; congruence|right; eauto].
  - right. right. unfold receive_all_telegrams in Hc.
    destruct (receive_all _ _ (f0, w1) (w_rx w1)) as [[[[f3 w3] rest] r]| |] eqn:Er; cbn [bind] in Hc; try discriminate Hc.
    assert (Htx : w_tx w3 = None).
    { assert (HL : LI0 A now f0 w1 (fst (f3, w3)) (snd (f3, w3))); [|destruct HL as (T & _); cbn in T; congruence].
      refine (receive_all_inv (fun s => LI0 A now f0 w1 (fst s) (snd s)) _ _ _ (f0, w1) _ (f3, w3) rest r _ Er); [|apply LI0_refl].
      intros s t l s' u Hp Hcb. exact (active_idle_telegram_LI0 A _ _ _ _ _ _ _ _ Hp Hcb). }
    injection Hc as <- <-. cbn [w_tx w_rx set_rx].
    rewrite Hrx1 in Er. destruct (receive_all_delivered _ _ _ _ _ _ Er) as (Hfold & Hfl & Hnil & Hne).
    apply ai_fold_hrun in Hfold.
    destruct (hrun_start now f0 f _ _ ltac:(congruence) ltac:(congruence) ltac:(congruence) Hfold) as (f3' & Hrun & Hs3 & Hr3).
    split; [exact Htx|split; [reflexivity|]].
    exists f3'. split; [exact Hrun|]. split; [cbn; congruence|]. split; [cbn; congruence|]. split; [exact Hfl|].
    destruct (delivered (rx pin)) as [|x l]; [left; reflexivity|right; apply Hne; discriminate].
Qed.

Lemma check_pass_poll_run f now pin (apps : list A) f' o apps' calls att :
  poll ops f now pin apps = Ok (f', o, apps', calls) -> f_state f = CheckTokenPass att ->
  (in_pass (f_state f') = true /\ (delivered (rx pin) = [] \/ rx_left o = rx pin)) \/
  (tx o <> None /\ kind_of (f_state f') <> KActiveIdle) \/
  (tx o = None /\ delivered (rx pin) <> [] /\ run_of now (set_st f (ActiveIdle None None 0)) f' (rx pin) (rx_left o)).
Proof.
  intros E Es.
  destruct (in_pass_poll_split A ops _ _ _ _ _ _ _ _ ltac:(rewrite Es; reflexivity) E)
    as [(_ & Hs & _ & Hrx)|(f1 & w1 & w' & (Hp1 & Hr1 & _ & _ & Hs1 & _) & Htx1 & Hrx1 & Hd & -> & ->)].
  - left. rewrite Hs, Es. auto.
  - unfold C11Proofs.dispatch in Hd. rewrite Hs1, Es in Hd. cbn [kind_of poll_dispatch] in Hd.
    assert (Es1 : f_state f1 = CheckTokenPass att) by congruence.
    destruct (do_check_token_pass_cse A _ _ _ _ _ _ Es1 Hd) as (f2 & [|] & Ecs).
    + destruct (do_check_token_pass_expired A _ _ _ _ _ _ _ Es1 Ecs Hd) as (f3 & w3 & Hd3 & Es3 & _ & _ & _ & _ & _ & Htx3 & _ & Hrx3 & _).
      assert (Htx3' : w_tx w3 = None) by congruence.
      destruct (C11Proofs.do_pass_token_spec A _ _ _ _ _ _ _ Es3 Htx3' Hd3) as [Hsame _ _ Hrx _|a C _ _ _ _ _ _ _ _|(r' & _ & _ & Htx & Hs' & _)].
      * left. destruct Hsame as (_ & _ & _ & _ & Hs & _). split; [rewrite Hs, Es3; reflexivity|right; congruence].
      * discriminate C.
      * right. left. split; [rewrite Htx; discriminate|]. rewrite Hs'. destruct (r_ns r' =? ts f3); discriminate.
    + pose proof (do_check_token_pass_waiting A _ _ _ _ _ _ _ Es1 Ecs Hd) as (Htx' & _).
      unfold do_check_token_pass, assert_entry in Hd. rewrite Es1 in Hd. cbn [kind_of do_fn_entry state_kind_eqb bind] in Hd.
      rewrite Ecs in Hd. cbn [bind] in Hd.
      apply cse_spec in Ecs. destruct Ecs as ((Hp2 & Hr2 & _ & _ & Hs2 & _) & _).
      destruct (receive_all _ _ (f2, w1, true) (w_rx w1)) as [[[[[f3 w3] b3] rest] r]| |] eqn:Er; cbn [bind] in Hd; try discriminate Hd.
      injection Hd as <- <-. cbn [w_tx w_rx set_rx].
      rewrite Hrx1 in Er. destruct (receive_all_delivered _ _ _ _ _ _ Er) as (Hfold & Hfl & Hnil & Hne).
      apply ctp_fold_hrun in Hfold.
      destruct (delivered (rx pin)) as [|x l] eqn:Edel.
      * left. destruct Hfold as (-> & _). cbn. rewrite Hs2, Es1. auto.
      * right. right. split; [cbn in Htx'; destruct b3; cbn in Htx' |- *; congruence|]. split; [discriminate|].
        destruct (hrun_start now (set_st f2 (ActiveIdle None None 0)) (set_st f (ActiveIdle None None 0)) _ _ ltac:(reflexivity) ltac:(cbn; congruence) ltac:(cbn; congruence) Hfold)
          as (f3' & Hrun & Hs3 & Hr3).
        exists f3'. rewrite Edel. split; [exact Hrun|]. split; [cbn; congruence|]. split; [cbn; congruence|]. split; [exact Hfl|].
        right. apply Hne. discriminate.
Qed.

Lemma other_active_idle f now pin (apps : list A) f' o apps' calls sr nps cc k :
  poll ops f now pin apps = Ok (f', o, apps', calls) -> Rep k f ->
  kind_in (kind_of (f_state f)) [KActiveIdle; KCheckTokenPass] = false ->
  f_state f' = ActiveIdle sr nps cc -> sr = None /\ nps = None.
Proof.
  intros E R Hk Es'. pose proof (poll_next A ops _ _ _ _ _ _ _ _ _ E R) as Hnx. rewrite Es' in Hnx.
  (* next_state: these states reach ActiveIdle only as ActiveIdle None None 0 *)
  destruct (f_state f); try discriminate Hk; cbn in Hnx; unfold early_claim, passed_on, in_use in Hnx; cbn in Hnx;
    intuition (try discriminate; try congruence).
Qed.

End PollRuns.

Section AcceptMon.
Variable A : Type.
Variable ops : app_ops A.
Variable p : params.
Variable n : nat.

(* CD: m_cand is the pending first offer of a stranger (new_previous_station of ActiveIdle) *)
Definition CD (f : fdl) (m : mon) : Prop := forall sr nps cc, f_state f = ActiveIdle sr nps cc -> m_cand m = nps.

Lemma m_cand_x_m3 m s : m_cand (x_m3 p n m s) = x_cand p m s.
Proof. unfold x_m3. destruct (x_new_visit p m s); [reflexivity|]. destruct (state_kind_eqb _ _); reflexivity. Qed.

Lemma last_delivered_snoc rxb l0 t : delivered rxb = l0 ++ [(t, true)] -> last_delivered rxb = Some t.
Proof. intros H. unfold last_delivered. rewrite H, rev_app_distr. reflexivity. Qed.

Lemma cand_of_last tsa rxb nps :
  mark_of offer_of tsa (delivered rxb) nps =
  match last_delivered rxb with
  | Some (TToken da sa) => if (da =? tsa) && negb (sa =? tsa) then Some sa else nps
  | _ => nps
  end.
Proof.
  rewrite mark_of_last by apply offer_of_false. destruct (last_delivered rxb) as [[h pdu|da sa| ]|]; cbn [offer_of]; try reflexivity.
  rewrite andb_true_r. destruct (_ && _); reflexivity.
Qed.

Lemma same_ring_view f f' : f_ring f' = f_ring f ->
  (v_ns (view_of f') =? v_ns (view_of f)) && (v_ps (view_of f') =? v_ps (view_of f)) &&
  Bool.eqb (v_las_valid (view_of f')) (v_las_valid (view_of f)) && bytes_eqb (v_active (view_of f')) (v_active (view_of f)) = true.
Proof. intros H. cbn [view_of v_ns v_ps v_las_valid v_active]. rewrite H, !Z.eqb_refl, Bool.eqb_reflx, bytes_eqb_refl. reflexivity. Qed.

(* what the accept rules need of one poll *)
Record acc_facts (f f' : fdl) (m : mon) (s : pstep) : Prop := mkAcc {
  af_use : x_accepted m s = true ->
           exists da sa, x_lastt s = Some (TToken da sa) /\ da = ts f /\ sa <> ts f /\
             (forall x, x_tels s = [x] -> sa = r_ps (f_ring f) \/ x_cand0 m = Some sa);
  af_idle : forall sr' nps' cc', f_state f' = ActiveIdle sr' nps' cc' ->
            x_cand p m s = nps' /\
            (kind_in (x_k0 m) [KActiveIdle; KCheckTokenPass] = true -> s_tx s = None ->
             forall da sa x, x_lastt s = Some (TToken da sa) -> x_tels s = [x] -> da = ts f -> sa <> ts f -> f_ring f' = f_ring f)
}.

Lemma acc_poll f apps buf tl m now busy nb f' o apps' calls :
  Base A p n f apps buf tl m -> CD f m ->
  poll ops f now (mkPhyIn busy (buf ++ nb)) apps = Ok (f', o, apps', calls) ->
  acc_facts f f' m (poll_event now busy (buf ++ nb) f' o calls).
Proof.
  intros HB HC E. pose proof (x_k0_base A p n _ _ _ _ _ HB) as Hk0.
  destruct HB as [R Hp Hn Hv Hl Hpd Hb Htl].
  assert (Hxts : x_ts p = ts f) by (unfold x_ts, ts; rewrite Hp; reflexivity).
  set (s := poll_event now busy (buf ++ nb) f' o calls).
  assert (Hk1 : x_k1 s = kind_of (f_state f')) by reflexivity.
  (* the analysis of a run of handle_telegram that the poll performed *)
  assert (Hrun : forall f0 sr nps cc, f_state f0 = ActiveIdle sr nps cc -> f_ring f0 = f_ring f -> f_p f0 = f_p f ->
            tx o = None -> run_of A now f0 f' (buf ++ nb) (rx_left o) -> x_cand0 m = nps ->
            kind_in (x_k0 m) [KActiveIdle; KCheckTokenPass] = true -> acc_facts f f' m s).
  { intros f0 sr nps cc Es0 Hr0 Hp0 Htx (f1 & Hh & Hs1 & Hr1 & Hfl & Hsh) Hc0 Hkin.
    destruct (x_tels_delivered now busy (buf ++ nb) f' o calls Hsh) as (Htels & Hlast). fold s in Htels, Hlast.
    assert (Hts0 : ts f0 = ts f) by (unfold ts; rewrite Hp0; reflexivity).
    destruct (hrun_result A now _ _ _ Hh Hfl sr nps cc Es0) as (_ & Hres). rewrite Hts0, Hr0 in Hres.
    split.
    - intros Hacc. unfold x_accepted in Hacc. apply andb_true_iff in Hacc. destruct Hacc as (Hacc & _).
      apply andb_true_iff in Hacc. destruct Hacc as (Hu & _). rewrite Hk1, Hs1 in Hu.
      destruct (f_state f1) as [ | | | |tk fa fcd| | | | | ]; try discriminate Hu.
      destruct Hres as (_ & l0 & t & sa & Hl0 & Ho & Hsingle).
      destruct t as [h pdu|da sa0| ]; cbn [offer_of] in Ho; try discriminate Ho.
      rewrite andb_true_r in Ho. destruct ((da =? ts f) && negb (sa0 =? ts f)) eqn:Ec; [|discriminate Ho]. injection Ho as <-.
      apply andb_true_iff in Ec. destruct Ec as (Ed & Es'). apply Z.eqb_eq in Ed. apply negb_true_iff, Z.eqb_neq in Es'.
      exists da, sa0. split; [rewrite Hlast; eapply last_delivered_snoc; exact Hl0|]. split; [exact Ed|]. split; [exact Es'|].
      intros x Hx. rewrite Htels, Hl0 in Hx. destruct l0 as [|y l0]; [|destruct l0; discriminate Hx].
      destruct (Hsingle eq_refl) as [H1|H1]; [left; exact H1|right; rewrite Hc0; exact H1].
    - intros sr' nps' cc' Es'. rewrite Hs1 in Es'. rewrite Es' in Hres. destruct Hres as (_ & Hn' & Hring).
      split.
      + unfold x_cand. rewrite Hk1, Hs1, Es', Hkin. cbn [kind_of state_kind_eqb]. rewrite Hlast, Hc0, Hxts.
        rewrite Hn'. apply (eq_sym (cand_of_last _ _ _)).
      + intros _ _ da sa x Hl1 Hx Hda Hsa. rewrite Hr1.
        rewrite Htels in Hx. rewrite Hlast in Hl1. unfold last_delivered in Hl1. rewrite Hx in Hl1. cbn [rev app] in Hl1.
        destruct x as [t il]. destruct il; [|discriminate Hl1]. injection Hl1 as ->.
        eapply (Hring _ sa); [exact Hx|]. cbn [offer_of]. rewrite Hda, Z.eqb_refl. apply Z.eqb_neq in Hsa. rewrite Hsa. reflexivity. }
  (* a poll that does not read the receive buffer, or reads nothing: no telegram is seen *)
  assert (Hquiet : x_tels s = [] /\ x_lastt s = None -> (kind_of (f_state f') = KUseToken -> x_accepted m s = false) ->
            (forall sr' nps' cc', f_state f' = ActiveIdle sr' nps' cc' ->
               if kind_in (x_k0 m) [KActiveIdle; KCheckTokenPass] then x_cand0 m = nps' else nps' = None) ->
            acc_facts f f' m s).
  { intros (Ht & Hlst) Hna Hcand. split.
    - intros Hacc. exfalso. pose proof Hacc as Hacc0. unfold x_accepted in Hacc. apply andb_true_iff in Hacc. destruct Hacc as (Hacc & _).
      apply andb_true_iff in Hacc. destruct Hacc as (Hu & _). rewrite Hk1 in Hu.
      rewrite Hna in Hacc0; [discriminate Hacc0|]. destruct (f_state f'); try discriminate Hu; reflexivity.
    - intros sr' nps' cc' Es'. split.
      + unfold x_cand. rewrite Hk1, Es', Hlst. cbn [kind_of state_kind_eqb]. specialize (Hcand _ _ _ Es').
        destruct (kind_in (x_k0 m) [KActiveIdle; KCheckTokenPass]); [exact Hcand|symmetry; exact Hcand].
      + intros _ _ da sa x C. rewrite Hlst in C. discriminate C. }
  assert (Hother : kind_in (x_k0 m) [KActiveIdle; KCheckTokenPass] = false ->
            (forall sr' nps' cc', f_state f' = ActiveIdle sr' nps' cc' -> nps' = None) -> acc_facts f f' m s).
  { intros Hkin Hnone. split.
    - intros Hacc. exfalso. unfold x_accepted in Hacc. rewrite Hkin, andb_false_r in Hacc. discriminate Hacc.
    - intros sr' nps' cc' Es'. split.
      + unfold x_cand. rewrite Hk1, Es', Hkin. cbn [kind_of state_kind_eqb]. symmetry. exact (Hnone _ _ _ Es').
      + intros C. rewrite Hkin in C. discriminate C. }
  assert (Hnone : kind_of (f_state f') <> KUseToken -> kind_of (f_state f') <> KActiveIdle -> acc_facts f f' m s).
  { intros H1 H2. split.
    - intros Hacc. exfalso. unfold x_accepted in Hacc. apply andb_true_iff in Hacc. destruct Hacc as (Hacc & _).
      apply andb_true_iff in Hacc. destruct Hacc as (Hu & _). rewrite Hk1 in Hu. apply H1. destruct (f_state f'); try discriminate Hu; reflexivity.
    - intros sr' nps' cc' Es'. exfalso. apply H2. rewrite Es'. reflexivity. }
  rewrite Hk0 in Hrun, Hquiet, Hother. unfold x_cand0 in Hrun, Hquiet. rewrite Hk0 in Hrun, Hquiet.
  destruct (f_state f) as [ | |sr0 cc0|sr0 nps0 cc0|tk fa fcd|st|a1 tk fa|dg att|att|a0] eqn:Es.
  1-3,5-8,10: (apply Hother; [reflexivity|];
    intros sr' nps' cc' Es'; eapply (proj2 (other_active_idle A ops _ _ _ _ _ _ _ _ _ _ _ _ E R ltac:(rewrite Es; reflexivity) Es'))).
  - cbn [kind_of kind_in existsb state_kind_eqb orb] in Hrun, Hquiet.
    destruct (active_idle_poll_run A ops _ _ _ _ _ _ _ _ _ _ _ _ E R Es) as [(Hrx & Hcase)|[Hcl|(Htx & -> & Hro)]]; cbn [rx] in *.
    + apply Hquiet.
      * exact (x_tels_untouched now busy (buf ++ nb) f' o calls Hrx).
      * intros Hu. exfalso. destruct Hcase as [(C & _)|(src & _ & _ & C)]; rewrite C in Hu; try rewrite Es in Hu; discriminate Hu.
      * intros sr' nps' cc' Es'. rewrite (HC _ _ _ Es). destruct Hcase as [(C & _)|(src & _ & _ & C)]; rewrite C in Es'; try rewrite Es in Es';
          injection Es' as _ <- _; reflexivity.
    + apply Hnone; destruct Hcl as [C|C]; rewrite C; discriminate.
    + eapply (Hrun f); [exact Es|reflexivity|reflexivity|exact Htx|exact Hro|exact (HC _ _ _ Es)|reflexivity].
  - cbn [kind_of kind_in existsb state_kind_eqb orb] in Hrun, Hquiet.
    destruct (check_pass_poll_run A ops _ _ _ _ _ _ _ _ _ E Es) as [(Hip & Hsh)|[(Htx & Hna)|(Htx & Hne & Hro)]]; cbn [rx] in *.
    + apply Hnone; destruct (f_state f'); cbn in Hip; try discriminate Hip; discriminate.
    + split.
      * intros Hacc. exfalso. unfold x_accepted in Hacc. apply andb_true_iff in Hacc. destruct Hacc as (_ & Hacc).
        cbn [s poll_event s_tx] in Hacc. destruct (tx o); [discriminate Hacc|contradiction Htx; reflexivity].
      * intros sr' nps' cc' Es'. exfalso. apply Hna. rewrite Es'. reflexivity.
    + eapply (Hrun (set_st f (ActiveIdle None None 0))); [reflexivity|reflexivity|reflexivity|exact Htx|exact Hro|reflexivity|reflexivity].
Qed.

Lemma e11a_ok f apps buf tl m now busy nb f' o apps' calls :
  Base A p n f apps buf tl m -> CD f m ->
  poll ops f now (mkPhyIn busy (buf ++ nb)) apps = Ok (f', o, apps', calls) ->
  x_e11a p m (poll_event now busy (buf ++ nb) f' o calls) = [].
Proof.
  intros HB HC E. pose proof (acc_poll _ _ _ _ _ _ _ _ _ _ _ _ HB HC E) as [Huse _].
  pose proof (listen_ok A ops p n _ _ _ _ _ _ _ _ _ _ _ _ HB E) as Hl.
  destruct HB as [R Hp Hn Hv Hl0 Hpd Hb Htl].
  assert (Hxts : x_ts p = ts f) by (unfold x_ts, ts; rewrite Hp; reflexivity).
  set (s := poll_event now busy (buf ++ nb) f' o calls) in *.
  unfold x_e11a. rewrite Hl. cbn [app].
  destruct (x_accepted m s) eqn:Ea; [|reflexivity].
  destruct (Huse eq_refl) as (da & sa & Hlast & Hda & Hsa & Hsingle).
  rewrite Hlast, Hxts, Hda, Z.eqb_refl. apply Z.eqb_neq in Hsa. rewrite Hsa. cbn [negb andb check app].
  destruct (x_tels s) as [|x [|y l]] eqn:Et; try reflexivity.
  destruct (Hsingle x eq_refl) as [H1|H1].
  - unfold x_pre. rewrite Hv. cbn [view_of v_ps]. rewrite H1, Z.eqb_refl. reflexivity.
  - rewrite H1. cbn [opt_eqb]. rewrite Z.eqb_refl, orb_true_r. reflexivity.
Qed.

Lemma e11c_ok f apps buf tl m now busy nb f' o apps' calls :
  Base A p n f apps buf tl m -> CD f m ->
  poll ops f now (mkPhyIn busy (buf ++ nb)) apps = Ok (f', o, apps', calls) ->
  x_e11c p m (poll_event now busy (buf ++ nb) f' o calls) = [].
Proof.
  intros HB HC E. pose proof (acc_poll _ _ _ _ _ _ _ _ _ _ _ _ HB HC E) as [_ Hidle].
  destruct HB as [R Hp Hn Hv Hl0 Hpd Hb Htl].
  assert (Hxts : x_ts p = ts f) by (unfold x_ts, ts; rewrite Hp; reflexivity).
  set (s := poll_event now busy (buf ++ nb) f' o calls) in *.
  unfold x_e11c.
  destruct (state_kind_eqb (x_k1 s) KActiveIdle) eqn:Ek1; [|reflexivity].
  destruct (kind_in (x_k0 m) [KActiveIdle; KCheckTokenPass]) eqn:Ek0; [|reflexivity].
  destruct (s_tx s) eqn:Etx; [reflexivity|]. cbn [andb].
  destruct (x_lastt s) as [[h pdu|da sa| ]|] eqn:El; try reflexivity.
  destruct (x_tels s) as [|x [|y l]] eqn:Et; try reflexivity.
  destruct ((da =? x_ts p) && negb (sa =? x_ts p)) eqn:Ec; [|reflexivity].
  apply andb_true_iff in Ec. destruct Ec as (Ed & Es'). rewrite Hxts in Ed, Es'. apply Z.eqb_eq in Ed. apply negb_true_iff, Z.eqb_neq in Es'.
  change (x_k1 s) with (kind_of (f_state f')) in Ek1.
  destruct (f_state f') as [ | | |sr' nps' cc'| | | | | | ] eqn:Es1; try discriminate Ek1.
  destruct (Hidle _ _ _ eq_refl) as (_ & Hring).
  pose proof (Hring eq_refl eq_refl da sa x eq_refl eq_refl Ed Es') as Hr.
  unfold x_post, x_pre. rewrite Hv. cbn [s poll_event s_view]. rewrite (same_ring_view _ _ Hr). reflexivity.
Qed.

Lemma cd_poll f apps buf tl m now busy nb f' o apps' calls :
  Base A p n f apps buf tl m -> CD f m ->
  poll ops f now (mkPhyIn busy (buf ++ nb)) apps = Ok (f', o, apps', calls) ->
  CD f' (x_m3 p n m (poll_event now busy (buf ++ nb) f' o calls)).
Proof.
  intros HB HC E. pose proof (acc_poll _ _ _ _ _ _ _ _ _ _ _ _ HB HC E) as [_ Hidle].
  intros sr' nps' cc' Es'. rewrite m_cand_x_m3. exact (proj1 (Hidle _ _ _ Es')).
Qed.

Lemma cd_api a f f' m g v : api_result p a f = Ok f' -> CD f m -> CD f' (fst (mon_after_api a v m g)).
Proof.
  intros E HC. destruct (api_cases p a f f' v m g E) as [(S1 & _ & ->)|(-> & ->)]; [|exact HC].
  intros sr nps cc Es. rewrite S1 in Es. discriminate Es.
Qed.

End AcceptMon.
