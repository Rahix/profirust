(* C12, the status reply: for applications that transmit request telegrams (app_sends_requests) the rule group of
   R12_reply_without_request, R12_reply_untruthful, R12_reply_from_wrong_state is empty in every poll (e12b_ok), with
   the invariant RQ: a request that the station has pending is the one the monitor has recorded. *)
From Coq Require Import Arith.
From PB Require Import Common Tables FdlTables Telegram Phy TokenRing Params Fdl FdlOracle FdlProofs FdlStepProofs.
From PB Require Import C05Proofs C01Proofs C11Proofs C15Proofs C13Proofs C12Proofs.
From PB Require Import FdlOracleSound1 FdlOracleSound2 FdlOracleSound3 FdlOracleSound4 FdlOracleSound5 FdlOracleSound6
                       FdlOracleSound7 FdlOracleSound8 FdlOracleSound9 FdlOracleSound10.

(* in ListenToken a telegram with the own source address is the collision branch *)
Definition lreq_of (tsa : Z) (t : telegram) (il : bool) : option Z :=
  match t with
  | TData h _ => if negb (h_sa h =? tsa) && is_fdl_status_request h && (h_da h =? tsa) && il then Some (h_sa h) else None
  | _ => None
  end.

Lemma lreq_of_false tsa t : lreq_of tsa t false = None.
Proof. destruct t; cbn; try reflexivity. rewrite andb_false_r. reflexivity. Qed.

Section Marker.
Variable A : Type.
Notation W := (world A).

Lemma lt_step now f (w : W) t il f' w' u sr cc :
  f_state f = ListenToken sr cc -> f_conn f <> ConnOffline -> listen_token_telegram A now (f, w) t il = Ok (f', w', u) ->
  (exists cc1, f_state f' = ListenToken (match lreq_of (ts f) t il with Some a => Some a | None => sr end) cc1 /\
               f_conn f' <> ConnOffline /\ ts f' = ts f) \/
  (f_state f' = Offline /\ f_conn f' = ConnOffline).
Proof.
  intros Es Hc H. unfold listen_token_telegram in H. destruct (mark_rx_spec f now) as (_ & _ & Ms & Mp & Mc & _).
  set (fm := mark_rx f now) in *. rewrite <- Mc in Hc.
  assert (Htsm : ts fm = ts f) by (unfold ts; rewrite Mp; reflexivity).
  assert (Hgo : forall X Y : res (fdl * W * unit), match f_conn fm with ConnOffline => X | _ => Y end = Ok (f', w', u) -> Y = Ok (f', w', u))
    by (intros X Y; destruct (f_conn fm); [contradiction Hc; reflexivity|auto|auto]).
  apply Hgo in H. clear Hgo. rewrite Htsm in H.
  assert (Hkeep : forall cc1 s1, ts (set_st fm (ListenToken s1 cc1)) = ts f /\ f_conn (set_st fm (ListenToken s1 cc1)) <> ConnOffline) by (intros; split; assumption).
  destruct (opt_eqb (source_address t) (Some (ts f))) eqn:Esrc.
  - (* own source address: a collision *)
    assert (Hl : lreq_of (ts f) t il = None)
      by (destruct t as [h pdu|da sa| ]; cbn [lreq_of]; try reflexivity; cbn [source_address opt_eqb] in Esrc; rewrite Esrc; reflexivity).
    rewrite Ms, Es in H. cbn [get_listen_token bind] in H.
    destruct (u8_add cc 1) as [cc1| |]; cbn [bind] in H; try discriminate H.
    destruct (cc1 =? listen_collision_tolerated).
    + injection H as <- _ _. left. exists cc1. rewrite Hl. split; [reflexivity|]. apply and_comm, Hkeep.
    + match type of H with bind (set_offline ?fx) _ = _ => destruct (set_offline fx) as [fo| |] eqn:Eo end;
        cbn [bind] in H; try discriminate H. injection H as <- _ _.
      unfold set_offline, set_state in Eo. apply fdl_new_fields in Eo. right. tauto.
  - left. destruct t as [h pdu|da sa| ]; cbn [lreq_of].
    + cbn [source_address opt_eqb] in Esrc. rewrite Esrc. cbn [negb andb].
      destruct (is_fdl_status_request h && (h_da h =? ts f)); [destruct il|]; cbn [andb].
      * rewrite Ms, Es in H. cbn [get_listen_token bind] in H. injection H as <- _ _. exists cc. split; [reflexivity|]. apply and_comm, Hkeep.
      * injection H as <- _ _. exists cc. rewrite Ms, Es. auto.
      * injection H as <- _ _. exists cc. rewrite Ms, Es. auto.
    + destruct (witness _ _ _) as [r| |]; cbn [bind] in H; try discriminate H. injection H as <- _ _.
      exists cc. cbn [f_state set_ring f_conn]. rewrite Ms, Es. auto.
    + injection H as <- _ _. exists cc. rewrite Ms, Es. auto.
Qed.

Lemma listen_fold_marker now : forall l f0 (w0 : W) f1 w1 sr cc sr' cc',
  fold_cb (listen_token_telegram A now) (f0, w0) l = Ok (f1, w1) -> flags_ok l ->
  f_state f0 = ListenToken sr cc -> f_conn f0 <> ConnOffline -> f_state f1 = ListenToken sr' cc' ->
  sr' = mark_of lreq_of (ts f0) l sr.
Proof.
  induction l as [|[t il] l IH]; intros f0 w0 f1 w1 sr cc sr' cc' H Hfl Es Hc Es'; cbn [fold_cb] in H.
  - injection H as <- _. rewrite Es in Es'. injection Es' as <- _. reflexivity.
  - destruct (listen_token_telegram A now (f0, w0) t il) as [[[fa wa] u]| |] eqn:Est; cbn [bind] in H; try discriminate H.
    destruct (lt_step _ _ _ _ _ _ _ _ _ _ Es Hc Est) as [(cc1 & E1 & Hc1 & Hts1)|(E1 & C1)].
    + destruct l as [|x l].
      * cbn [fold_cb] in H. injection H as <- _. rewrite E1 in Es'. injection Es' as <- _. reflexivity.
      * destruct Hfl as (-> & Hfl). rewrite mark_of_cons by discriminate.
        rewrite lreq_of_false in E1. rewrite <- Hts1. eapply IH; eassumption.
    + (* the station re-created itself: it is not listening any more *)
      exfalso. clear IH.
      assert (Hoff : forall l fa wa f1 w1, fold_cb (listen_token_telegram A now) (fa, wa) l = Ok (f1, w1) ->
                f_state fa = Offline -> f_conn fa = ConnOffline -> f_state f1 = Offline).
      { clear. induction l as [|[t il] l IH]; intros fa wa f1 w1 H Es Ec; cbn [fold_cb] in H.
        - injection H as <- _. exact Es.
        - unfold listen_token_telegram in H at 1. destruct (mark_rx_spec fa now) as (_ & _ & Ms & _ & Mc & _).
          rewrite Mc, Ec in H. cbn [bind] in H. eapply IH; [exact H|congruence|congruence]. }
      rewrite (Hoff _ _ _ _ _ H E1 C1) in Es'. discriminate Es'.
Qed.

End Marker.

Section ListenPoll.
Variable A : Type.
Variable ops : app_ops A.
Notation W := (world A).

(* the poll of a station that listens: nothing is read (and a pending request is kept or answered), or the token
   is claimed, or the receive loop runs - then nothing was pending *)
Definition listen_run (f0 : fdl) (sr : option Z) (cc : Z) (pin : phy_in) (f' : fdl) (o : phy_out) : Prop :=
  (rx_left o = rx pin /\ (f_state f' = ListenToken sr cc \/ marker (f_state f') = None)) \/
  early_claim (f_state f') \/
  (tx o = None /\ sr = None /\ flags_ok (delivered (rx pin)) /\
   (delivered (rx pin) = [] \/ (length (rx_left o) < length (rx pin))%nat) /\
   forall sr' cc', f_state f' = ListenToken sr' cc' -> sr' = mark_of lreq_of (ts f0) (delivered (rx pin)) None).

Lemma listen_polled f0 now pin f' o sr cc :
  polled A ops f0 now pin f' o -> f_state f0 = ListenToken sr cc -> f_conn f0 = ConnOnline -> listen_run f0 sr cc pin f' o.
Proof.
  unfold listen_run. intros [(_ & Hs & _ & Hrx)|(f1 & w1 & w' & (Hp1 & _ & Hc1 & _ & Hs1 & _) & Htx1 & Hrx1 & Hd & -> & ->)] Es0 Hc0.
  - left. split; [exact Hrx|]. left. congruence.
  - unfold C11Proofs.dispatch in Hd. rewrite Hs1, Es0 in Hd. cbn [kind_of poll_dispatch] in Hd. rewrite Es0 in Hs1.
    destruct (do_listen_token_cases A _ _ _ _ _ _ _ Hd Hs1) as [K|(f2 & (Hp2 & _ & Hc2 & _ & Hs2 & _) & Hc)]; [auto|].
    destruct sr as [src|].
    + left. destruct Hc as (Hrx & [Hs|[Hs|Hs]]); (split; [congruence|]); rewrite Hs; auto.
    + right. right. unfold receive_all_telegrams in Hc.
      destruct (receive_all _ _ (f2, w1) (w_rx w1)) as [[[[f3 w3] rest] r]| |] eqn:Er; cbn [bind] in Hc; try discriminate Hc.
      assert (Htx : w_tx w3 = None).
      { assert (HL : LI A now f2 w1 (f3, w3)); [|destruct HL as (T & _); cbn [snd] in T; congruence].
        refine (receive_all_inv (LI A now f2 w1) _ _ _ (f2, w1) _ (f3, w3) rest r _ Er).
        - intros s t l s' u Hp Hcb. exact (listen_token_telegram_LI A _ _ _ _ _ _ _ _ Hp Hcb).
        - unfold LI. cbn. repeat split; try reflexivity. left. apply lba_moves_refl. }
      injection Hc as <- <-. cbn [w_tx w_rx set_rx].
      rewrite Hrx1 in Er. destruct (receive_all_delivered _ _ _ _ _ _ Er) as (Hfold & Hfl & Hnil & Hne).
      split; [exact Htx|split; [reflexivity|split; [exact Hfl|split]]].
      * destruct (delivered (rx pin)) as [|x l]; [left; reflexivity|right; apply Hne; discriminate].
      * intros sr' cc' Es'. cbn [f_state sync_pending_bytes set_pending] in Es'.
        replace (ts f0) with (ts f2) by (unfold ts; congruence).
        refine (listen_fold_marker A now _ f2 w1 f3 w3 None cc sr' cc' Hfold Hfl _ _ Es'); [congruence|rewrite Hc2, Hc1, Hc0; discriminate].
Qed.

End ListenPoll.

Section ReplyMon.
Variable A : Type.
Variable ops : app_ops A.
Variable p : params.
Variable n : nat.
Hypothesis Hdata : app_sends_data A ops.

(* what the reply rules assume of the applications: they transmit REQUEST telegrams (a response telegram with the
   own source address is taken for a status reply of the station) *)
Definition app_sends_requests : Prop :=
  forall a now q hp a' wire er, a_tx ops a now q hp = Ok (a', Some (wire, er)) ->
    exists h pdu fcb rq, decode_one wire = Some (TData h pdu) /\ h_fc h = FcRequest fcb rq.

(* RQ: a status request that the station has pending is the one the monitor keeps in m_req *)
Definition RQ (f : fdl) (m : mon) : Prop := forall src, marker (f_state f) = Some src -> m_req m = Some src.

Lemma m_req_x_m3 m s : m_req (x_m3 p n m s) = x_req p m s.
Proof. unfold x_m3. destruct (x_new_visit p m s); [reflexivity|]. destruct (state_kind_eqb _ _); reflexivity. Qed.

Lemma x_req_quiet m s : s_tx s = None -> kind_in (x_k1 s) [KListenToken; KActiveIdle] = true ->
  kind_in (x_k0 m) [KListenToken; KActiveIdle; KCheckTokenPass; KOffline] = true -> x_lastt s = None ->
  x_req p m s = m_req m.
Proof. intros Htx Hk1 Hk0 Hl. unfold x_req. rewrite Hk1, Htx, Hk0, Hl. reflexivity. Qed.

Lemma x_req_loop m now busy rxb f' o calls rq src :
  let s := poll_event now busy rxb f' o calls in
  tx o = None -> kind_in (x_k1 s) [KListenToken; KActiveIdle] = true ->
  kind_in (x_k0 m) [KListenToken; KActiveIdle; KCheckTokenPass; KOffline] = true ->
  (delivered rxb = [] \/ (length (rx_left o) < length rxb)%nat) ->
  (forall t, rq (x_ts p) t false = None) ->
  (forall t a, rq (x_ts p) t true = Some a -> exists h pdu, t = TData h pdu /\ h_sa h = a /\
     is_fdl_status_request h && (h_da h =? x_ts p) && negb (state_kind_eqb (x_k0 m) KListenToken && (h_sa h =? x_ts p)) = true) ->
  mark_of rq (x_ts p) (delivered rxb) None = Some src -> x_req p m s = Some src.
Proof.
  intros s Htx Hk1 Hk0 Hsh Hf Ht Hmk. unfold x_req. rewrite Hk1, Hk0. cbn [negb s poll_event s_tx]. rewrite Htx.
  destruct (x_tels_delivered now busy rxb f' o calls Hsh) as (_ & Hlast). fold s in Hlast. rewrite Hlast.
  rewrite mark_of_last in Hmk by exact Hf. destruct (last_delivered rxb) as [t|]; [|discriminate Hmk].
  destruct (rq (x_ts p) t true) as [a|] eqn:Eq; [|discriminate Hmk]. injection Hmk as ->.
  destruct (Ht t src Eq) as (h & pdu & -> & Hsa & Hc). rewrite Hc, Hsa. reflexivity.
Qed.

Lemma rq_poll f apps buf tl m now busy nb f' o apps' calls :
  Base A p n f apps buf tl m -> RQ f m ->
  poll ops f now (mkPhyIn busy (buf ++ nb)) apps = Ok (f', o, apps', calls) ->
  RQ f' (x_m3 p n m (poll_event now busy (buf ++ nb) f' o calls)).
Proof.
  intros HB HR E src Hm'. pose proof (x_k0_base A p n _ _ _ _ _ HB) as Hk0.
  destruct HB as [R Hp Hn Hv Hl Hpd Hb Htl].
  assert (Hxts : x_ts p = ts f) by (unfold x_ts, ts; rewrite Hp; reflexivity).
  pose proof (poll_next A ops _ _ _ _ _ _ _ _ _ E R) as Hnx.
  set (s := poll_event now busy (buf ++ nb) f' o calls).
  rewrite m_req_x_m3.
  assert (Hk1 : kind_in (x_k1 s) [KListenToken; KActiveIdle] = true).
  { change (x_k1 s) with (kind_of (f_state f')). destruct (f_state f'); cbn in Hm'; try discriminate Hm'; reflexivity. }
  (* a poll that leaves a request pending transmits nothing *)
  assert (Htx : tx o = None).
  { destruct (tx o) as [wire|] eqn:Etx; [exfalso|reflexivity].
    destruct (poll_transmissions A ops _ _ _ _ _ _ _ _ _ E Etx) as [(cs & i & hp & er & _ & _ & [K|K])|(_ & [Htok|[Hgap|Hrep]])].
    - destruct (f_state f'); cbn in Hm', K; try discriminate Hm'; discriminate K.
    - destruct (f_state f'); cbn in Hm', K; try discriminate Hm'; discriminate K.
    - destruct Htok as (da & _ & [(_ & [(C & _)|(C & _)])|([C|(att & C)] & _)]); rewrite C in Hm'; discriminate Hm'.
    - destruct Hgap as (a & _ & _ & _ & _ & _ & [(C & _)|(C & _)]); rewrite C in Hm'; discriminate Hm'.
    - destruct Hrep as (src0 & st & _ & [(cc & _ & _ & C)|(nps & cc & _ & _ & C)]); rewrite C in Hm'; [destruct (ready_for_ring _)|]; discriminate Hm'. }
  (* nothing read: the pending request is the one the station had *)
  assert (Hsame : rx_left o = buf ++ nb -> marker (f_state f) = Some src ->
            kind_in (x_k0 m) [KListenToken; KActiveIdle; KCheckTokenPass; KOffline] = true -> x_req p m s = Some src).
  { intros Hrx Hm Hkin. rewrite <- (HR _ Hm). apply x_req_quiet; [exact Htx|exact Hk1|exact Hkin|].
    exact (proj2 (x_tels_untouched now busy (buf ++ nb) f' o calls Hrx)). }
  (* the loop of a listening station *)
  assert (Hlisten : forall f0 sr cc, ts f0 = ts f -> marker (f_state f) = sr ->
            kind_in (x_k0 m) [KListenToken; KOffline] = true ->
            listen_run f0 sr cc (mkPhyIn busy (buf ++ nb)) f' o -> x_req p m s = Some src).
  { intros f0 sr cc Hts0 Hmk Hkin [(Hrx & [C|C])|[[C|C]|(_ & _ & Hfl & Hsh & Hmark)]]; try (rewrite C in Hm'; discriminate Hm').
    - rewrite C in Hm'. cbn in Hm'. apply Hsame; [exact Hrx|congruence|destruct (x_k0 m); try discriminate Hkin; reflexivity].
    - destruct (f_state f') as [ | |sr' cc'|sr' nps' cc'| | | | | | ] eqn:Es'; cbn in Hm'; try discriminate Hm'.
      + apply (x_req_loop m now busy (buf ++ nb) f' o calls lreq_of src Htx Hk1);
          [destruct (x_k0 m); try discriminate Hkin; reflexivity|exact Hsh|apply lreq_of_false| |].
        * intros t a Hq. destruct t as [h pdu| | ]; try discriminate Hq. cbn [lreq_of] in Hq. rewrite andb_true_r in Hq.
          destruct (negb (h_sa h =? x_ts p) && is_fdl_status_request h && (h_da h =? x_ts p)) eqn:Ec; [|discriminate Hq].
          injection Hq as Hq. exists h, pdu. split; [reflexivity|]. split; [exact Hq|].
          apply andb_true_iff in Ec. destruct Ec as (Ec & E3). apply andb_true_iff in Ec. destruct Ec as (E1 & E2).
          rewrite E2, E3. apply negb_true_iff in E1. rewrite E1, andb_false_r. reflexivity.
        * rewrite Hxts, <- Hts0, <- Hm'. symmetry. exact (Hmark _ _ eq_refl).
      + exfalso. rewrite Hk0 in Hkin. destruct (f_state f); try discriminate Hkin; cbn in Hnx, Hm';
          unfold early_claim in Hnx; intuition (try discriminate; congruence). }
  (* the loop of an idle or supervising station *)
  assert (Hidle : forall f0 sr nps cc, f_state f0 = ActiveIdle sr nps cc -> ts f0 = ts f ->
            kind_in (x_k0 m) [KActiveIdle; KCheckTokenPass] = true ->
            run_of A now f0 f' (buf ++ nb) (rx_left o) -> sr = None -> x_req p m s = Some src).
  { intros f0 sr nps cc Es0 Hts0 Hkin (f1 & Hrun & Hs1 & _ & Hfl & Hsh) ->.
    rewrite Hs1 in Hm'. pose proof (hrun_result A _ _ _ _ Hrun Hfl _ _ _ Es0) as (_ & Hres).
    destruct (f_state f1) as [ | |sr' cc'|sr' nps' cc'| | | | | | ]; cbn in Hm'; try discriminate Hm'; [congruence|].
    destruct Hres as (Hsr & _).
    apply (x_req_loop m now busy (buf ++ nb) f' o calls req_of src Htx Hk1);
      [destruct (x_k0 m); try discriminate Hkin; reflexivity|exact Hsh|apply req_of_false| |congruence].
    intros t a Hq. destruct t as [h pdu| | ]; try discriminate Hq. cbn [req_of] in Hq. rewrite andb_true_r in Hq.
    destruct (is_fdl_status_request h && (h_da h =? x_ts p)) eqn:Ec; [|discriminate Hq]. injection Hq as Hq.
    exists h, pdu. split; [reflexivity|]. split; [exact Hq|].
    rewrite Ec. destruct (x_k0 m); try discriminate Hkin; reflexivity. }
  rewrite Hk0 in *.
  destruct (f_state f) as [ | |sr0 cc0|sr0 nps0 cc0|tk fa fcd|st|a1 tk fa|dg att|att|a0] eqn:Es;
    (* next_state: the token-holding states but CheckTokenPass end neither listening nor idle with a request pending *)
    try (exfalso; cbn in Hnx; unfold early_claim, passed_on, in_use in Hnx; destruct (f_state f'); cbn in Hm', Hnx; try discriminate Hm';
         intuition (try discriminate; congruence)).
  - destruct (offline_poll_split A ops _ _ _ _ _ _ _ _ _ E R Es) as [(-> & _)|(Hc & Hpl)]; [rewrite Es in Hm'; discriminate Hm'|].
    exact (Hlisten _ None 0 eq_refl eq_refl eq_refl (listen_polled A ops _ _ _ _ _ _ _ Hpl eq_refl Hc)).
  - pose proof (poll_split A ops _ _ _ _ _ _ _ _ _ E R ltac:(rewrite Es; discriminate)) as Hpl.
    refine (Hlisten _ sr0 cc0 eq_refl eq_refl eq_refl (listen_polled A ops _ _ _ _ _ _ _ Hpl Es _)).
    apply (Rep_online _ _ R). rewrite Es. discriminate.
  - destruct (active_idle_poll_run A ops _ _ _ _ _ _ _ _ _ _ _ _ E R Es) as [(Hrx & [(C & _)|(src0 & _ & _ & C)])|[[C|C]|(_ & Hsr & Hro)]];
      try (rewrite C in Hm'; discriminate Hm').
    + apply Hsame; [exact Hrx|rewrite C, Es in Hm'; exact Hm'|reflexivity].
    + exact (Hidle f _ _ _ Es eq_refl eq_refl Hro Hsr).
  - destruct (check_pass_poll_run A ops _ _ _ _ _ _ _ _ _ E Es) as [(Hip & _)|[(Htx' & _)|(_ & _ & Hro)]].
    + exfalso. destruct (f_state f'); cbn in Hm', Hip; try discriminate Hm'; discriminate Hip.
    + exfalso. exact (Htx' Htx).
    + exact (Hidle (set_st f (ActiveIdle None None 0)) _ _ _ eq_refl eq_refl eq_refl Hro eq_refl).
Qed.

Lemma rq_api a f f' m g v : api_result p a f = Ok f' -> RQ f m -> RQ f' (fst (mon_after_api a v m g)).
Proof.
  intros E HR. destruct (api_cases p a f f' v m g E) as [(S1 & _ & ->)|(-> & ->)]; [|exact HR].
  intros src Hm. rewrite S1 in Hm. discriminate Hm.
Qed.

Hypothesis Hreq : app_sends_requests.

Lemma e12b_ok f apps buf tl m now busy nb f' o apps' calls :
  Base A p n f apps buf tl m -> RQ f m ->
  poll ops f now (mkPhyIn busy (buf ++ nb)) apps = Ok (f', o, apps', calls) ->
  x_e12b p m (poll_event now busy (buf ++ nb) f' o calls) = [].
Proof.
  intros HB HR E. pose proof (x_k0_base A p n _ _ _ _ _ HB) as Hk0.
  destruct HB as [R Hp Hn Hv Hl Hpd Hb Htl].
  assert (Hxts : x_ts p = ts f) by (unfold x_ts, ts; rewrite Hp; reflexivity).
  set (s := poll_event now busy (buf ++ nb) f' o calls).
  unfold x_e12b. destruct (tx o) as [wire|] eqn:Etx.
  2:{ unfold x_txt. cbn [s poll_event s_tx]. rewrite Etx. reflexivity. }
  rewrite (x_txt_tx s wire) by (cbn; exact Etx).
  destruct (poll_txd A ops Hdata _ _ _ _ _ _ _ _ _ _ E Etx R) as
    [h pdu Hd (cs & i & hp & er & Hcs) Hu Hu'|da Hw Hd Hq Htok|a Hw Hd Hq Hg Ha Hne Hin Hg' Hst|src st Hw Hd Hc Hrs].
  - (* an application's telegram: a request *)
    pose proof (poll_results A ops _ _ _ _ _ _ _ _ E) as Hr. rewrite Hcs in Hr.
    apply Forall_app in Hr. destruct Hr as (_ & Hr). inversion Hr as [|? ? H1 _]. subst.
    destruct (H1 i hp (Some (wire, er)) eq_refl) as (a0 & now' & q & a' & Ea).
    destruct (Hreq _ _ _ _ _ _ _ Ea) as (h0 & pdu0 & fcb & rq & Hd0 & Hfc). rewrite Hd0. rewrite Hfc. reflexivity.
  - rewrite Hd. reflexivity.
  - rewrite Hd. reflexivity.
  - rewrite Hd. cbn [status_response_header h_fc h_sa h_da]. rewrite Hxts, Z.eqb_refl.
    assert (Hm : marker (f_state f) = Some src) by (destruct Hrs as [(cc & -> & _)|(nps & cc & -> & _)]; reflexivity).
    rewrite (HR _ Hm). cbn [opt_eqb]. rewrite Z.eqb_refl. cbn [check app].
    rewrite Hk0. destruct Hrs as [(cc & Es & -> & _)|(nps & cc & Es & -> & _)]; rewrite Es; cbn [kind_of state_kind_eqb].
    + unfold x_pre. rewrite Hv. cbn [view_of v_las_valid v_ps]. unfold ready_for_ring.
      destruct (match r_state (f_ring f) with LasValid => true | _ => false end && (src =? r_ps (f_ring f))); reflexivity.
    + reflexivity.
Qed.

End ReplyMon.
