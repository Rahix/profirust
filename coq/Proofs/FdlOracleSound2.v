(* FDL oracle soundness, part 2: the bus-activity bookkeeping of one poll, for ALL station states.
   What a poll does to last_bus_activity, pending_bytes and the receive buffer:
   - the buffer left behind is a suffix of the buffer the poll saw;
   - pending_bytes <= buffer length is kept (sync_pending_bytes after every receive attempt);
   - a poll that transmits `wire` leaves last_bus_activity = now + 11 bit * |wire|;
   - a poll that does not transmit leaves last_bus_activity as it was, or sets it to the value it had
     (or `now` if it had none), or to the maximum of that and `now` (`lba_moves`) - or the station
     re-created itself after an address collision (`rst`).
   Every state function is a sequence of steps of three kinds: `frm` (touches none of this), `bk0` (quiet:
   nothing handed to the PHY), `txs` (a telegram handed to the PHY, then mark_tx); `bk` sums up a whole function. *)
From Coq Require Import Arith.
From PB Require Import Common Tables FdlTables Telegram Phy TokenRing Params Fdl FdlOracle FdlProofs FdlStepProofs.
From PB Require Import C05Proofs C01Proofs FdlOracleSound1.
From PB Require C11Proofs C12Proofs C13Proofs C15Proofs.

(* `step H as pat eqn:E`, for H : (let* x := r in k) = Ok _: the call r returned; name its value by `pat`,
   keep r = Ok pat as E and go on with k.  Fails (no matching clause) when H is not headed by a `let*`: destruct an
   `if` or `match` in front of it first. *)
Tactic Notation "step" hyp(H) "as" simple_intropattern(pat) "eqn" ":" ident(E) :=
  match type of H with
  | bind ?r _ = Ok _ => destruct r as [pat| |] eqn:E; cbn [bind] in H; [|discriminate H|discriminate H]
  end.
Tactic Notation "step" hyp(H) "as" simple_intropattern(pat) :=
  let E := fresh in step H as pat eqn:E; clear E.

(* a recorded instant, or `now` if there is none: gv now (f_lba f) is FdlProofs.goi_val f now, the value of
   last_bus_activity.get_or_insert(now) *)
Definition gv (now : Z) (v : option Z) : Z := match v with Some l => l | None => now end.

(* mk: bus activity may have been marked at `now` (PHY busy, or something in the receive buffer) *)
Definition lba_moves (mk : Prop) (now : Z) (v v' : option Z) : Prop :=
  v' = v \/ v' = Some (gv now v) \/ (mk /\ v' = Some (Z.max (gv now v) now)).

Lemma lba_moves_refl mk now v : lba_moves mk now v v.
Proof. left. reflexivity. Qed.

Lemma lba_moves_trans mk now v1 v2 v3 : lba_moves mk now v1 v2 -> lba_moves mk now v2 v3 -> lba_moves mk now v1 v3.
Proof.
  unfold lba_moves. intros [-> | [-> | (M1 & ->)]] [-> | [-> | (M2 & ->)]]; cbn [gv]; auto;
    right; right; (split; [assumption|]); f_equal; lia.
Qed.

Lemma lba_moves_weaken (mk mk' : Prop) now v v' : (mk -> mk') -> lba_moves mk now v v' -> lba_moves mk' now v v'.
Proof. unfold lba_moves. intros H [E|[E|(M & E)]]; auto. Qed.

(* time on the wire of k characters of 11 bits *)
Definition dur (p : params) (k : nat) : Z := bits_to_time (p_baud p) (bits_per_byte * Z.of_nat k).

(* the station re-created itself in this poll (second address collision while listening) *)
Definition rst (now : Z) (f' : fdl) : Prop :=
  f_state f' = Offline /\ f_conn f' = ConnOffline /\ f_pending f' = 0%nat /\ (f_lba f' = None \/ f_lba f' = Some now).

Lemma fdl_new_fields p f : fdl_new p = Ok f ->
  f_state f = Offline /\ f_conn f = ConnOffline /\ f_lba f = None /\ f_pending f = 0%nat /\ f_p f = p.
Proof.
  unfold fdl_new. destruct (negb _); [discriminate|]. destruct (negb _); [discriminate|].
  destruct (ring_new _) as [r| |]; cbn [bind]; try discriminate. intros H. injection H as <-. cbn. tauto.
Qed.

Lemma fdl_new_rst p f now : fdl_new p = Ok f -> rst now f.
Proof. intros E. destruct (fdl_new_fields _ _ E) as (S1 & C1 & L1 & P1 & _). unfold rst. tauto. Qed.

Section BK.
Variable A : Type.
Variable ops : app_ops A.
Notation W := (world A).

Definition suffix_rx (w w' : W) : Prop := exists k, w_rx w' = skipn k (w_rx w).

Lemma suffix_rx_refl (w : W) : suffix_rx w w.
Proof. exists 0%nat. reflexivity. Qed.
Lemma suffix_rx_trans (w1 w2 w3 : W) : suffix_rx w1 w2 -> suffix_rx w2 w3 -> suffix_rx w1 w3.
Proof. intros [k1 E1] [k2 E2]. exists (k1 + k2)%nat. rewrite E2, E1. apply ByteFacts.skipn_skipn'. Qed.
Lemma suffix_rx_eq (w w' : W) : w_rx w' = w_rx w -> suffix_rx w w'.
Proof. intros E. exists 0%nat. exact E. Qed.
Lemma suffix_nonempty (w w' : W) : suffix_rx w w' -> w_rx w' <> [] -> w_rx w <> [].
Proof. intros [k E] H C. apply H. rewrite E, C. destruct k; reflexivity. Qed.

(* a step on the station alone that leaves the bookkeeping fields as they are *)
Definition frm (f : fdl) (w : W) (f' : fdl) (w' : W) : Prop :=
  w_tx w' = w_tx w /\ w_rx w' = w_rx w /\ f_lba f' = f_lba f /\ f_pending f' = f_pending f /\ f_p f' = f_p f.

(* a step that transmits nothing and does not re-create the station *)
Definition bk0 (now : Z) (f : fdl) (w : W) (f' : fdl) (w' : W) : Prop :=
  w_tx w' = w_tx w /\ suffix_rx w w' /\
  ((f_pending f <= length (w_rx w))%nat -> (f_pending f' <= length (w_rx w'))%nat) /\
  f_p f' = f_p f /\ lba_moves (w_rx w <> []) now (f_lba f) (f_lba f').

(* a transmitting step: the telegram handed to the PHY, then mark_tx *)
Definition txs (now : Z) (f : fdl) (w : W) (f' : fdl) (w' : W) : Prop :=
  w_tx w = None /\ exists wire, w_tx w' = Some wire /\ w_rx w' = w_rx w /\
    f_lba f' = Some (now + dur (f_p f) (length wire)) /\ f_pending f' = f_pending f /\ f_p f' = f_p f.

(* a whole state function, entered with nothing transmitted yet *)
Definition bk (now : Z) (f : fdl) (w : W) (f' : fdl) (w' : W) : Prop :=
  suffix_rx w w' /\
  ((f_pending f <= length (w_rx w))%nat -> (f_pending f' <= length (w_rx w'))%nat) /\
  f_p f' = f_p f /\
  match w_tx w' with
  | Some wire => f_lba f' = Some (now + dur (f_p f) (length wire))
  | None => lba_moves (w_rx w <> []) now (f_lba f) (f_lba f') \/ rst now f'
  end.

Lemma frm_refl f w : frm f w f w. Proof. unfold frm. tauto. Qed.
Lemma frm_trans f w f1 w1 f2 w2 : frm f w f1 w1 -> frm f1 w1 f2 w2 -> frm f w f2 w2.
Proof. unfold frm. intuition congruence. Qed.

Lemma frm_bk0 now f w f' w' : frm f w f' w' -> bk0 now f w f' w'.
Proof.
  intros (T & R & L & P & Q). split; [exact T|]. split; [apply suffix_rx_eq; exact R|]. split; [rewrite P, R; auto|].
  split; [exact Q|]. rewrite L. apply lba_moves_refl.
Qed.

Lemma bk0_refl now f w : bk0 now f w f w.
Proof. apply frm_bk0, frm_refl. Qed.

Lemma bk0_trans now f w f1 w1 f2 w2 : bk0 now f w f1 w1 -> bk0 now f1 w1 f2 w2 -> bk0 now f w f2 w2.
Proof.
  intros (T1 & S1 & P1 & Q1 & L1) (T2 & S2 & P2 & Q2 & L2).
  split; [congruence|]. split; [eapply suffix_rx_trans; eassumption|]. split; [auto|]. split; [congruence|].
  eapply lba_moves_trans; [exact L1|]. eapply lba_moves_weaken; [|exact L2]. apply suffix_nonempty; exact S1.
Qed.

Lemma bk0_frame now f (w : W) f' w' :
  w_tx w' = w_tx w -> w_rx w' = w_rx w -> f_lba f' = f_lba f -> f_pending f' = f_pending f -> f_p f' = f_p f ->
  bk0 now f w f' w'.
Proof. intros T R L P Q. apply frm_bk0. unfold frm. tauto. Qed.

Lemma bk0_bk now f w f' w' : w_tx w = None -> bk0 now f w f' w' -> bk now f w f' w'.
Proof. intros Hw (T & S & P & Q & L). unfold bk. rewrite T, Hw. tauto. Qed.

Lemma bk_after_bk0 now f w f1 w1 f2 w2 : bk0 now f w f1 w1 -> bk now f1 w1 f2 w2 -> bk now f w f2 w2.
Proof.
  intros (T1 & S1 & P1 & Q1 & L1) (S2 & P2 & Q2 & L2).
  split; [eapply suffix_rx_trans; eassumption|]. split; [auto|]. split; [congruence|].
  destruct (w_tx w2) as [wire|]; [rewrite <- Q1; exact L2|].
  destruct L2 as [L2|R2]; [left|right; exact R2].
  eapply lba_moves_trans; [exact L1|]. eapply lba_moves_weaken; [|exact L2]. apply suffix_nonempty; exact S1.
Qed.

Lemma txs_bk now f w f' w' : txs now f w f' w' -> bk now f w f' w'.
Proof.
  intros (_ & wire & T & R & L & P & Q). split; [apply suffix_rx_eq; exact R|]. split; [rewrite P, R; auto|].
  split; [exact Q|]. rewrite T. exact L.
Qed.

Lemma bk0_txs now f w f1 w1 f2 w2 : bk0 now f w f1 w1 -> txs now f1 w1 f2 w2 -> bk now f w f2 w2.
Proof. intros H1 H2. eapply bk_after_bk0; [exact H1|apply txs_bk; exact H2]. Qed.

Lemma frm_txs now f (w : W) f1 w1 f2 w2 : frm f w f1 w1 -> txs now f1 w1 f2 w2 -> txs now f w f2 w2.
Proof.
  intros (T & R & L & P & Q) (Hn & wire & T2 & R2 & L2 & P2 & Q2). split; [congruence|]. exists wire.
  split; [exact T2|]. split; [congruence|]. split; [rewrite <- Q; exact L2|]. split; congruence.
Qed.

Lemma txs_frm now f (w : W) f1 w1 f2 w2 : txs now f w f1 w1 -> frm f1 w1 f2 w2 -> txs now f w f2 w2.
Proof.
  intros (Hn & wire & T & R & L & P & Q) (T2 & R2 & L2 & P2 & Q2). split; [exact Hn|]. exists wire.
  repeat split; congruence.
Qed.

Lemma trans_frm f (w : W) t f' w' : trans A f w t = Ok (f', w') -> frm f w f' w'.
Proof. intros H. apply trans_spec in H. destruct H as (s' & _ & -> & ->). unfold frm. cbn. tauto. Qed.

Lemma next_gap_frm f (w : W) cur f' w' : next_gap_poll_traced A f w cur = Ok (f', w') -> frm f w f' w'.
Proof. unfold next_gap_poll_traced. intros H. step H as g. injection H as <- <-. unfold frm. cbn. tauto. Qed.

Lemma set_claim_step_spec' f s f' : set_claim_step f s = Ok f' -> f' = set_st f (ClaimToken s).
Proof. exact (C15Proofs.set_claim_step_spec f s f'). Qed.

Lemma set_first_cycle_done_frm f f' (w : W) : set_first_cycle_done f = Ok f' -> frm f w f' w.
Proof. unfold set_first_cycle_done. intros H. step H as [[tk fa] fcd]. injection H as <-. unfold frm. cbn. tauto. Qed.

Lemma schedule_next_frm f k f' c (w : W) : schedule_next_application f k = Ok (f', c) -> frm f w f' w.
Proof.
  unfold schedule_next_application. intros H. step H as [[tk fa] fcd].
  destruct (Nat.eqb k 0); [discriminate H|]. injection H as <- _. unfold frm. cbn. tauto.
Qed.

(* last_bus_activity.get_or_insert(now), however it is reached *)
Lemma insert_bk0 now f f1 (w : W) : same_but_lba f f1 -> f_lba f1 = Some (gv now (f_lba f)) -> bk0 now f w f1 w.
Proof.
  intros (Hp & _ & _ & _ & _ & Hpd & _) Hl. split; [reflexivity|]. split; [apply suffix_rx_refl|].
  split; [rewrite Hpd; auto|]. split; [exact Hp|]. right. left. exact Hl.
Qed.

Lemma goi_gv f now l f1 : lba_get_or_insert f now = (l, f1) -> same_but_lba f f1 /\ f_lba f1 = Some (gv now (f_lba f)) /\ l = gv now (f_lba f).
Proof.
  intros E. apply lba_get_or_insert_same in E. destruct E as (Hs & Hl & Hm). split; [exact Hs|].
  assert (l = gv now (f_lba f)) by (destruct (f_lba f); exact Hm). split; congruence.
Qed.

Lemma goi_bk0 now f l f1 (w : W) : lba_get_or_insert f now = (l, f1) -> bk0 now f w f1 w /\ f_state f1 = f_state f /\ f_lba f1 = Some l.
Proof.
  intros E. destruct (goi_gv _ _ _ _ E) as (Hs & Hl & ->). split; [apply insert_bk0; assumption|].
  split; [apply Hs|exact Hl].
Qed.

Lemma wait_sync_bk0 now f f1 b (w : W) : wait_synchronization_pause f now = Ok (f1, b) ->
  bk0 now f w f1 w /\ same_but_lba f f1.
Proof.
  intros E. apply wait_sync_same in E. destruct E as (Hs & l & Hl & Hm & _). split; [|exact Hs].
  apply insert_bk0; [exact Hs|]. rewrite Hl. destruct (f_lba f); subst; reflexivity.
Qed.

Lemma check_slot_bk0 now f f1 b (w : W) : check_slot_expired f now = Ok (f1, b) ->
  bk0 now f w f1 w /\ same_but_lba f f1.
Proof.
  intros E. pose proof (check_slot_expired_same _ _ _ _ E) as Hs. split; [|exact Hs].
  unfold check_slot_expired in E. destruct (lba_get_or_insert f now) as [l f0] eqn:E0.
  step E as d. injection E as <- _. exact (proj1 (goi_bk0 now f l f0 w E0)).
Qed.

Lemma mark_tx_spec f now k f' : mark_tx f now k = Ok f' -> f' = set_lba f (Some (now + dur (f_p f) k)).
Proof.
  unfold mark_tx. destruct (4294967295 <? Z.of_nat k); [discriminate|].
  destruct (4294967295 <? bits_per_byte * Z.of_nat k); [discriminate|].
  unfold inst_add. destruct (i64_ok _); cbn [bind]; [|discriminate].
  intros H. injection H as <-. reflexivity.
Qed.

Lemma phy_send_spec (w : W) rq w' k : phy_send A w rq = Ok (w', k) ->
  w_tx w = None /\ exists wire, w_tx w' = Some wire /\ k = length wire /\ w_rx w' = w_rx w /\
    w_calls w' = w_calls w /\ w_apps w' = w_apps w.
Proof.
  unfold phy_send. intros H. step H as [wire e].
  unfold phy_transmit in H. destruct (w_tx w) eqn:E; cbn [bind] in H; [discriminate H|].
  injection H as <- <-. cbn. split; [reflexivity|]. exists wire. repeat split; reflexivity.
Qed.

Lemma send_mark now f (w : W) rq w1 k f1 f2 w2 :
  phy_send A w rq = Ok (w1, k) -> mark_tx f1 now k = Ok f2 ->
  f_pending f1 = f_pending f -> f_p f1 = f_p f -> w_tx w2 = w_tx w1 -> w_rx w2 = w_rx w1 ->
  txs now f w f2 w2.
Proof.
  intros Ep Em P Q T R. apply phy_send_spec in Ep. destruct Ep as (Hn & wire & Ht & -> & Hr & _).
  apply mark_tx_spec in Em. subst f2. split; [exact Hn|]. exists wire. cbn.
  split; [congruence|]. split; [congruence|]. split; [rewrite Q; reflexivity|]. split; assumption.
Qed.

Lemma transmit_gap_bk now f (w : W) f' w' polled :
  transmit_gap_poll_if_pending A f now w = Ok (f', w', polled) ->
  f_state f' = f_state f /\
  match polled with
  | None => f' = f /\ w' = w
  | Some _ => txs now f w f' w'
  end.
Proof.
  unfold transmit_gap_poll_if_pending. intros H. destruct (f_gap f) as [rc|cur].
  - injection H as <- <- <-. split; [reflexivity|split; reflexivity].
  - destruct (cur =? ts f); [discriminate H|]. step H as [w1 k] eqn:Ep. step H as f1 eqn:Em.
    injection H as <- <- <-. split; [exact (mark_tx_state _ _ _ _ Em)|].
    eapply send_mark; try eassumption; reflexivity.
Qed.

Lemma mark_rx_spec f now :
  f_lba (mark_rx f now) = Some (Z.max (gv now (f_lba f)) now) /\ f_pending (mark_rx f now) = 0%nat /\
  f_state (mark_rx f now) = f_state f /\ f_p (mark_rx f now) = f_p f /\ f_conn (mark_rx f now) = f_conn f /\
  f_gap (mark_rx f now) = f_gap f /\ f_ring (mark_rx f now) = f_ring f.
Proof. unfold mark_rx, mark_bus_activity, lba_get_or_insert. cbn. destruct (f_lba f); cbn; repeat split; reflexivity. Qed.

Lemma mark_bus_activity_spec f now :
  f_lba (mark_bus_activity f now) = Some (Z.max (gv now (f_lba f)) now) /\
  f_pending (mark_bus_activity f now) = f_pending f /\
  f_state (mark_bus_activity f now) = f_state f /\ f_p (mark_bus_activity f now) = f_p f /\
  f_conn (mark_bus_activity f now) = f_conn f.
Proof. unfold mark_bus_activity, lba_get_or_insert. destruct (f_lba f); cbn; repeat split; reflexivity. Qed.

Lemma decode_nil : decode [] = Ok NeedMore.
Proof. reflexivity. Qed.

Lemma receive_telegram_suffix {R} (g : telegram -> R) buf rest r :
  receive_telegram g buf = Ok (rest, r) -> exists k, rest = skipn k buf.
Proof.
  unfold receive_telegram. intros H. step H as d. destruct d as [ | |t n]; injection H as <- _.
  - exists 0%nat. reflexivity.
  - exists (length buf). symmetry. apply skipn_all.
  - exists n. reflexivity.
Qed.

Lemma receive_telegram_some {R} (g : telegram -> R) buf rest r :
  receive_telegram g buf = Ok (rest, Some r) -> buf <> [].
Proof. intros H ->. unfold receive_telegram in H. rewrite decode_nil in H. discriminate H. Qed.

Lemma received_bk0 now f (w : W) k fx wx :
  w_rx w <> [] -> frm (mark_rx f now) (set_rx A w (skipn k (w_rx w))) fx wx -> bk0 now f w fx wx.
Proof.
  intros Hne (T & R & L & P & Q). destruct (mark_rx_spec f now) as (ML & MP & _ & MQ & _).
  split; [exact T|]. split; [exists k; exact R|]. split; [intros _; rewrite P, MP; lia|].
  split; [congruence|]. right. right. split; [exact Hne|]. rewrite L. exact ML.
Qed.

Lemma no_telegram_bk0 now f (w wx : W) k f1 expired :
  w_tx wx = w_tx w ->
  check_slot_expired (sync_pending_bytes A f (set_rx A wx (skipn k (w_rx w)))) now = Ok (f1, expired) ->
  bk0 now f w f1 (set_rx A wx (skipn k (w_rx w))) /\ f_state f1 = f_state f.
Proof.
  intros T Ec. destruct (check_slot_bk0 now _ _ _ (set_rx A wx (skipn k (w_rx w))) Ec) as (B & Hs). split.
  - eapply bk0_trans; [|exact B]. split; [exact T|]. split; [exists k; reflexivity|].
    split; [intros _; cbn; apply Nat.le_min_r|]. split; [reflexivity|apply lba_moves_refl].
  - destruct Hs as (_ & _ & _ & _ & Hs & _). exact Hs.
Qed.

Lemma await_gap_bk0 now f (w : W) pa f' w' r :
  await_gap_poll_response A f now w pa = Ok (f', w', r) ->
  bk0 now f w f' w' /\ f_state f' = f_state f.
Proof.
  unfold await_gap_poll_response. intros H.
  destruct (pa =? ts f); [discriminate H|]. destruct (negb _); [discriminate H|].
  step H as [rest received] eqn:Er. destruct (receive_telegram_suffix _ _ _ _ Er) as [k ->].
  destruct received as [t|].
  - pose proof (receive_telegram_some _ _ _ _ Er) as Hne. destruct (mark_rx_spec f now) as (_ & _ & MS & _).
    assert (Hdone : forall fx t0, fx = mark_rx f now \/ (exists r0, fx = set_ring (mark_rx f now) r0) ->
              bk0 now f w fx (note A (set_rx A w (skipn k (w_rx w))) t0) /\ f_state fx = f_state f).
    { intros fx t0 Hfx. split; [apply (received_bk0 now f w k); [exact Hne|]|]; destruct Hfx as [-> |(r0 & ->)];
        solve [unfold frm; cbn; tauto | exact MS]. }
    destruct t as [[da sa dsap ssap fc] pdu|da sa|]; [destruct fc as [fb rq|st status]| |];
      try (injection H as <- <- _; apply Hdone; left; reflexivity).
    destruct ((sa =? pa) && (da =? ts (mark_rx f now))); [|injection H as <- <- _; apply Hdone; left; reflexivity].
    destruct (resp_status_eqb status gap_reply_status && gap_reply_state_is_master st);
      [|injection H as <- <- _; apply Hdone; left; reflexivity].
    step H as r'. injection H as <- <- _. apply Hdone. right. exists r'. reflexivity.
  - step H as [f1 expired] eqn:Ec. apply no_telegram_bk0 in Ec; [|destruct (Nat.ltb _ _); reflexivity].
    destruct Ec as (B & Hs).
    destruct expired; injection H as <- <- _; (split; [|exact Hs]);
      (eapply bk0_trans; [exact B|apply bk0_frame; reflexivity]).
Qed.

(* the synchronisation pause before a transmission: the poll ends waiting, or goes on with the station as it is then *)
Lemma sync_then now f (w : W) (k : fdl -> res (fdl * W)) f' w' :
  (let* (f1, wait) := wait_synchronization_pause f now in
   if wait then Ok (f1, note A w TSyncWait) else k f1) = Ok (f', w') ->
  w_tx w = None ->
  (forall f1, k f1 = Ok (f', w') -> bk now f1 w f' w') ->
  bk now f w f' w'.
Proof.
  intros H Hw Hk. step H as [f1 wait] eqn:Ew. destruct (wait_sync_bk0 now f f1 wait w Ew) as (B1 & _).
  destruct wait; [|exact (bk_after_bk0 _ _ _ _ _ _ _ B1 (Hk f1 H))].
  injection H as <- <-. apply bk0_bk; [exact Hw|]. eapply bk0_trans; [exact B1|apply bk0_frame; reflexivity].
Qed.

Lemma do_claim_token_scan_bk now f (w : W) f' w' :
  do_claim_token_scan A f now w = Ok (f', w') -> w_tx w = None -> bk now f w f' w'.
Proof.
  unfold do_claim_token_scan. intros H Hw. refine (sync_then now f w _ f' w' H Hw _). clear H. intros f1 H.
  destruct (f_gap f1) as [rc|cur].
  - step H as [f2 w2] eqn:Et. injection H as <- <-. apply trans_frm in Et.
    apply bk0_bk; [exact Hw|]. apply frm_bk0. eapply frm_trans; [|exact Et]. unfold frm. cbn. tauto.
  - step H as [f2 w2] eqn:En. apply next_gap_frm in En.
    step H as [[f3 w3] polled] eqn:Eg. destruct (transmit_gap_bk now _ _ _ _ _ Eg) as (_ & Hg).
    destruct polled as [a|].
    + step H as f4 eqn:Es. injection H as <- <-. apply set_claim_step_spec' in Es. subst f4.
      apply txs_bk. eapply frm_txs; [exact En|]. eapply txs_frm; [exact Hg|]. unfold frm. cbn. tauto.
    + destruct Hg as (-> & ->). injection H as <- <-. apply bk0_bk; [exact Hw|]. apply frm_bk0.
      eapply frm_trans; [exact En|]. unfold frm. cbn. tauto.
Qed.

Lemma do_claim_token_bk now f (w : W) f' w' :
  do_claim_token A f now w = Ok (f', w') -> w_tx w = None -> bk now f w f' w'.
Proof.
  unfold do_claim_token. intros H Hw. step H as []. step H as cstep.
  assert (Htok : forall nxt,
    (let* (f0, wait) := wait_synchronization_pause f now in
     if wait then Ok (f0, note A w TSyncWait)
     else let* (w0, n) := phy_send A w (TxToken (ts f0) (ts f0)) in
          let f1 := set_ring f0 (claim_token (f_ring f0)) in
          let* f2 := set_claim_step f1 nxt in
          let f3 := set_gap f2 (GapDoPoll (ts f2)) in
          let* f4 := mark_tx f3 now n in Ok (f4, note A w0 TClaimSendToken)) = Ok (f', w') -> bk now f w f' w').
  { intros nxt H0. refine (sync_then now f w _ f' w' H0 Hw _). clear H0. intros f1 H0.
    step H0 as [w1 k] eqn:Ep. step H0 as f2 eqn:Es. apply set_claim_step_spec' in Es. subst f2.
    step H0 as f4 eqn:Em. injection H0 as <- <-. apply txs_bk. eapply send_mark; try eassumption; reflexivity. }
  destruct cstep as [ | | |a0].
  - exact (Htok _ H).
  - exact (Htok _ H).
  - exact (do_claim_token_scan_bk now _ _ _ _ H Hw).
  - step H as [[f1 w1] r] eqn:Ea. destruct (await_gap_bk0 now _ _ _ _ _ _ Ea) as (B1 & _).
    assert (Hw1 : w_tx w1 = None) by (destruct B1 as (T & _); congruence).
    destruct r.
    + injection H as <- <-. apply bk0_bk; assumption.
    + step H as f2 eqn:Es. apply set_claim_step_spec' in Es. subst f2.
      eapply bk_after_bk0; [exact B1|]. eapply bk_after_bk0; [|exact (do_claim_token_scan_bk now _ _ _ _ H Hw1)].
      apply bk0_frame; reflexivity.
    + step H as f2 eqn:Es. apply set_claim_step_spec' in Es. subst f2. injection H as <- <-.
      apply bk0_bk; [exact Hw|]. eapply bk0_trans; [exact B1|apply bk0_frame; reflexivity].
    + apply trans_frm in H. apply bk0_bk; [exact Hw|]. eapply bk0_trans; [exact B1|apply frm_bk0; exact H].
Qed.

(* ClaimToken before the post-claim GAP scan: the first or the second claim token is still to be sent *)
Definition early_claim (s : state) : Prop := s = ClaimToken StepFirstToken \/ s = ClaimToken StepSecondToken.

Lemma do_claim_token_first_state f now (w : W) f' w' :
  do_claim_token A f now w = Ok (f', w') -> f_state f = ClaimToken StepFirstToken -> early_claim (f_state f').
Proof.
  unfold do_claim_token, assert_entry. intros H Es. rewrite Es in H.
  cbn [kind_of do_fn_entry state_kind_eqb bind get_claim_token_step] in H.
  step H as [f1 wait] eqn:Ew. apply wait_sync_same in Ew. destruct Ew as ((_ & _ & _ & _ & Hs1 & _) & _).
  destruct wait; [injection H as <- <-; left; rewrite Hs1; exact Es|].
  step H as [w1 k]. step H as f2 eqn:Es2. apply set_claim_step_spec' in Es2. subst f2.
  step H as f4 eqn:Em. injection H as <- <-. rewrite (mark_tx_state _ _ _ _ Em). right. reflexivity.
Qed.

(* the silence time-out has expired (d): the station claims the token in this poll *)
Lemma handle_lost_token_bk now f (w : W) f' w' d :
  handle_lost_token A f now w = Ok (f', w', d) ->
  if d then early_claim (f_state f') /\ (w_tx w = None -> bk now f w f' w')
  else bk0 now f w f' w' /\ f_state f' = f_state f.
Proof.
  unfold handle_lost_token. intros H.
  destruct (lba_get_or_insert f now) as [l f0] eqn:El. destruct (goi_bk0 now f l f0 w El) as (B0 & Hs0 & _).
  step H as since. destruct (_ <=? since).
  - step H as [f1 w1] eqn:Et. pose proof (trans_frm _ _ _ _ _ Et) as F1.
    apply trans_spec in Et. destruct Et as (s1 & Ht & -> & ->).
    unfold transition_claim_token in Ht. step Ht as []. injection Ht as <-.
    step H as [f2 w2] eqn:Ed. injection H as <- <- <-.
    split; [exact (do_claim_token_first_state _ _ _ _ _ Ed eq_refl)|]. intros Hw.
    eapply bk_after_bk0; [exact B0|]. eapply bk_after_bk0; [|exact (do_claim_token_bk now _ _ _ _ Ed Hw)].
    eapply bk0_trans; [|apply frm_bk0; exact F1]. apply bk0_frame; reflexivity.
  - injection H as <- <- <-. split; assumption.
Qed.

Lemma handle_lost_token_claims f now (w : W) f' w' :
  handle_lost_token A f now w = Ok (f', w', true) -> early_claim (f_state f').
Proof. intros H. exact (proj1 (handle_lost_token_bk _ _ _ _ _ _ H)). Qed.

Lemma handle_lost_token_keeps f now (w : W) f' w' :
  handle_lost_token A f now w = Ok (f', w', false) -> f_state f' = f_state f.
Proof. intros H. exact (proj2 (handle_lost_token_bk _ _ _ _ _ _ H)). Qed.

Lemma receive_all_suffix {S R} (cb : S -> telegram -> bool -> res (S * R)) :
  forall fuel s buf s' rest r, receive_all cb fuel s buf = Ok (s', rest, r) -> exists k, rest = skipn k buf.
Proof.
  induction fuel as [|fuel IH]; intros s buf s' rest r H; [discriminate H|].
  cbn [receive_all] in H. step H as d. destruct d as [ | |t n].
  - injection H as _ <- _. exists 0%nat. reflexivity.
  - injection H as _ <- _. exists (length buf). symmetry. apply skipn_all.
  - step H as [s1 r1]. destruct (Nat.eqb n (length buf)).
    + injection H as _ <- _. exists n. reflexivity.
    + apply IH in H. destruct H as [k ->]. exists (n + k)%nat. apply ByteFacts.skipn_skipn'.
Qed.

Lemma receive_all_nil {S R} (cb : S -> telegram -> bool -> res (S * R)) fuel s s' rest r :
  receive_all cb fuel s [] = Ok (s', rest, r) -> s' = s.
Proof. destruct fuel; [discriminate|]. cbn. intros H. injection H as <- _ _. reflexivity. Qed.

Lemma handle_telegram_frm now f (w : W) t il f' w' :
  handle_telegram A now f w t il = Ok (f', w') -> frm f w f' w'.
Proof.
  unfold handle_telegram. intros H.
  destruct (f_state f) eqn:Es; cbn [negb kind_of state_kind_eqb] in H; try discriminate H;
    try (injection H as <- <-; unfold frm; cbn; tauto).
  destruct t as [h pdu|da sa|].
  - destruct (is_fdl_status_request h && (h_da h =? ts f) && il).
    + cbn [get_active_idle bind] in H. injection H as <- <-. unfold frm; cbn; tauto.
    + injection H as <- <-. unfold frm; cbn; tauto.
  - cbn [get_active_idle bind] in H.
    assert (Htr : forall f0 w0 t0, trans A f0 w0 t0 = Ok (f', w') -> frm f w f0 w0 -> frm f w f' w')
      by (intros f0 w0 t0 Et F0; exact (frm_trans _ _ _ _ _ _ F0 (trans_frm _ _ _ _ _ Et))).
    destruct (sa =? ts f).
    + step H as cc'. destruct (cc' =? _).
      * injection H as <- <-. unfold frm; cbn; tauto.
      * apply (Htr _ _ _ H). unfold frm; cbn; tauto.
    + destruct (negb _ || negb il).
      * step H as r. injection H as <- <-. unfold frm; cbn; tauto.
      * destruct (sa =? _).
        -- apply (Htr _ _ _ H). unfold frm; cbn; tauto.
        -- destruct new_previous_station as [address|]; [destruct (address =? sa)|].
           ++ step H as r. apply (Htr _ _ _ H). unfold frm; cbn; tauto.
           ++ injection H as <- <-. unfold frm; cbn; tauto.
           ++ injection H as <- <-. unfold frm; cbn; tauto.
  - injection H as <- <-. unfold frm; cbn; tauto.
Qed.

(* loop invariants of the receive closures, relative to the station and world the loop started with:
   LI0 for the loops that cannot re-create the station, LI for the one of do_listen_token *)
Definition LI0 (now : Z) (f : fdl) (w : W) (fc : fdl) (wc : W) : Prop :=
  w_tx wc = w_tx w /\ w_rx wc = w_rx w /\ f_p fc = f_p f /\ lba_moves True now (f_lba f) (f_lba fc).

Definition LI (now : Z) (f : fdl) (w : W) (s : fdl * W) : Prop :=
  w_tx (snd s) = w_tx w /\ w_rx (snd s) = w_rx w /\ f_p (fst s) = f_p f /\
  (lba_moves True now (f_lba f) (f_lba (fst s)) \/ rst now (fst s)).

Lemma LI0_LI now f w fc wc : LI0 now f w fc wc -> LI now f w (fc, wc).
Proof. unfold LI0, LI. cbn. tauto. Qed.

Lemma LI0_refl now f w : LI0 now f w f w.
Proof. unfold LI0. repeat split; try reflexivity. apply lba_moves_refl. Qed.

Lemma LI0_mark_rx now f w fc wc : LI0 now f w fc wc -> LI0 now f w (mark_rx fc now) wc.
Proof.
  intros (T & R & Q & L). destruct (mark_rx_spec fc now) as (ML & _ & _ & MQ & _).
  split; [exact T|]. split; [exact R|]. split; [congruence|].
  eapply lba_moves_trans; [exact L|]. right. right. split; [exact I|exact ML].
Qed.

Lemma LI0_frm now f w fc wc f' w' : LI0 now f w fc wc -> frm fc wc f' w' -> LI0 now f w f' w'.
Proof.
  intros (T & R & Q & L) (T' & R' & L' & P' & Q'). split; [congruence|]. split; [congruence|]. split; [congruence|].
  rewrite L'. exact L.
Qed.

Lemma rst_mark_rx now f : rst now f -> rst now (mark_rx f now).
Proof.
  intros (S1 & C1 & _ & L1). destruct (mark_rx_spec f now) as (ML & MP & MS & _ & MC & _).
  split; [congruence|]. split; [congruence|]. split; [exact MP|]. right. rewrite ML.
  destruct L1 as [-> | ->]; cbn [gv]; f_equal; lia.
Qed.

Lemma LI_mark_rx now f w fc wc : LI now f w (fc, wc) -> LI now f w (mark_rx fc now, wc).
Proof.
  intros (T & R & Q & [L|L]).
  - apply LI0_LI, LI0_mark_rx. split; [exact T|]. split; [exact R|]. split; assumption.
  - cbn [fst snd] in *. split; [exact T|]. split; [exact R|]. split; [rewrite <- Q; apply mark_rx_spec|].
    right. apply rst_mark_rx. exact L.
Qed.

Lemma LI_frm now f w fc wc f' w' : LI now f w (fc, wc) -> frm fc wc f' w' -> f_conn fc <> ConnOffline -> LI now f w (f', w').
Proof.
  intros (T & R & Q & [L|(_ & C1 & _)]) F Hc; [|contradiction].
  apply LI0_LI. eapply LI0_frm; [|exact F]. split; [exact T|]. split; [exact R|]. split; assumption.
Qed.

Lemma listen_token_telegram_cases now fc wc t il f' w' u :
  listen_token_telegram A now (fc, wc) t il = Ok (f', w', u) ->
  w_tx w' = w_tx wc /\ w_rx w' = w_rx wc /\
  (f' = mark_rx fc now \/
   (f_conn fc <> ConnOffline /\
    ((exists sr cc, f' = set_st (mark_rx fc now) (ListenToken sr cc)) \/ (exists r, f' = set_ring (mark_rx fc now) r) \/
     fdl_new (f_p fc) = Ok f'))).
Proof.
  unfold listen_token_telegram. destruct (mark_rx_spec fc now) as (_ & _ & _ & MQ & MC & _).
  set (fm := mark_rx fc now) in *. intros H. rewrite <- MC, <- MQ.
  assert (Hw : forall f1 (w1 : W) (u1 : unit) tg, Ok (f1, note A wc tg, u1) = Ok (f', w', u) -> w_tx w' = w_tx wc /\ w_rx w' = w_rx wc /\ f1 = f')
    by (intros f1 w1 u1 tg E; injection E as <- <- _; repeat split).
  assert (Hc : f_conn fm = ConnOffline \/ f_conn fm <> ConnOffline) by (destruct (f_conn fm); auto; right; discriminate).
  destruct Hc as [Hc|Hc].
  { rewrite Hc in H. destruct (Hw _ wc _ _ H) as (T & R & <-). tauto. }
  assert (H0 : (if opt_eqb (source_address t) (Some (ts fm)) then _ else _) = Ok (f', w', u))
    by (destruct (f_conn fm); [contradiction|exact H|exact H]).
  clear H. destruct (opt_eqb (source_address t) (Some (ts fm))).
  - step H0 as [sr cc]. step H0 as cc'. destruct (cc' =? listen_collision_tolerated).
    + destruct (Hw _ wc _ _ H0) as (T & R & <-). eauto 8.
    + step H0 as fo eqn:Eo. destruct (Hw _ wc _ _ H0) as (T & R & <-). auto 8.
  - destruct t as [h pdu|da sa|].
    + destruct (is_fdl_status_request h && (h_da h =? ts fm)); [destruct il; [step H0 as [sr cc]|]|];
        destruct (Hw _ wc _ _ H0) as (T & R & <-); eauto 8.
    + step H0 as r. destruct (Hw _ wc _ _ H0) as (T & R & <-). eauto 8.
    + destruct (Hw _ wc _ _ H0) as (T & R & <-). auto.
Qed.

Lemma listen_token_telegram_LI now f w s t il s' u :
  LI now f w s -> listen_token_telegram A now s t il = Ok (s', u) -> LI now f w s'.
Proof.
  destruct s as [fc wc], s' as [f' w']. intros HI H. apply LI_mark_rx in HI.
  destruct (mark_rx_spec fc now) as (_ & _ & _ & MQ & MC & _).
  destruct (listen_token_telegram_cases _ _ _ _ _ _ _ _ H) as (T & R & Hf'). unfold LI in *. cbn [fst snd] in *.
  destruct Hf' as [-> |(Hc & [(sr & cc & ->)|[(r & ->)|En]])].
  - rewrite T, R. exact HI.
  - eapply (LI_frm now f w _ wc); [exact HI| |congruence]. unfold frm. cbn. tauto.
  - eapply (LI_frm now f w _ wc); [exact HI| |congruence]. unfold frm. cbn. tauto.
  - destruct HI as (T0 & R0 & Q0 & _). destruct (fdl_new_fields _ _ En) as (_ & _ & _ & _ & Q1).
    split; [congruence|]. split; [congruence|]. split; [congruence|]. right. exact (fdl_new_rst _ _ now En).
Qed.

(* in that loop the station is in state Offline only after its re-creation *)
Definition LS (now : Z) (s : fdl * W) : Prop := f_state (fst s) = Offline -> rst now (fst s).

Lemma listen_token_telegram_LS now s t il s' u :
  LS now s -> listen_token_telegram A now s t il = Ok (s', u) -> LS now s'.
Proof.
  destruct s as [fc wc], s' as [f' w']. unfold LS. cbn [fst]. intros HI H.
  assert (HI' : f_state (mark_rx fc now) = Offline -> rst now (mark_rx fc now)).
  { rewrite (proj1 (proj2 (proj2 (mark_rx_spec fc now)))). intros C. exact (rst_mark_rx _ _ (HI C)). }
  destruct (listen_token_telegram_cases _ _ _ _ _ _ _ _ H) as (_ & _ & [-> |(_ & [(sr & cc & ->)|[(r & ->)|En]])]).
  - exact HI'.
  - discriminate.
  - exact HI'.
  - intros _. exact (fdl_new_rst _ _ now En).
Qed.

Lemma active_idle_telegram_LI0 now f w s t il s' u :
  LI0 now f w (fst s) (snd s) -> active_idle_telegram A now s t il = Ok (s', u) -> LI0 now f w (fst s') (snd s').
Proof.
  destruct s as [fc wc]. cbn [fst snd]. unfold active_idle_telegram. intros HI H. apply LI0_mark_rx in HI.
  step H as [f1 w1] eqn:Eh. injection H as <- _. exact (LI0_frm _ _ _ _ _ _ _ HI (handle_telegram_frm _ _ _ _ _ _ _ Eh)).
Qed.

Lemma check_token_pass_telegram_LI0 now f w s t il s' u :
  LI0 now f w (fst (fst s)) (snd (fst s)) -> check_token_pass_telegram A now s t il = Ok (s', u) ->
  LI0 now f w (fst (fst s')) (snd (fst s')).
Proof.
  destruct s as [[fc wc] fi]. cbn [fst snd]. unfold check_token_pass_telegram. intros HI H. apply LI0_mark_rx in HI.
  step H as [f1 w1] eqn:E1. step H as [f2 w2] eqn:Eh. injection H as <- _. cbn [fst snd].
  eapply LI0_frm; [|exact (handle_telegram_frm _ _ _ _ _ _ _ Eh)].
  destruct fi; [|injection E1 as <- <-; exact HI].
  eapply LI0_frm; [exact HI|]. eapply frm_trans; [|exact (trans_frm _ _ _ _ _ E1)]. unfold frm. cbn. tauto.
Qed.

(* the end of a receive loop: the rest of the buffer is set, pending_bytes is synchronised.  Bus activity was
   marked only if a telegram was seen, so only if the buffer was not empty. *)
Lemma loop_end_bk now f (w : W) fc wc k :
  w_tx w = None -> LI now f w (fc, wc) -> (w_rx w = [] -> f_lba fc = f_lba f) ->
  bk now f w (sync_pending_bytes A fc (set_rx A wc (skipn k (w_rx w)))) (set_rx A wc (skipn k (w_rx w))).
Proof.
  intros Hw (T & R & Q & L) Hnil. cbn [fst snd] in *.
  split; [exists k; reflexivity|]. split; [intros _; cbn; apply Nat.le_min_r|]. split; [exact Q|].
  cbn [w_tx set_rx f_lba sync_pending_bytes set_pending]. rewrite T, Hw. destruct L as [L|(S1 & C1 & P1 & L1)]; [left|right].
  - destruct (w_rx w) eqn:Erx; [rewrite Hnil by reflexivity; apply lba_moves_refl|].
    eapply lba_moves_weaken; [|exact L]. discriminate.
  - split; [exact S1|]. split; [exact C1|]. split; [cbn; rewrite P1; reflexivity|exact L1].
Qed.

Lemma send_frm_mark now f (w : W) rq w1 k f1 w2 f' :
  phy_send A w rq = Ok (w1, k) -> frm f w1 f1 w2 -> mark_tx f1 now k = Ok f' -> txs now f w f' w2.
Proof. intros Ep (T & R & _ & P & Q) Em. eapply send_mark; eassumption. Qed.

Lemma do_listen_token_bk_off now f (w : W) f' w' :
  do_listen_token A f now w = Ok (f', w') ->
  (w_tx w = None -> bk now f w f' w') /\ (f_state f' = Offline -> rst now f').
Proof.
  unfold do_listen_token. intros H. step H as []. step H as [[f0 w0] d] eqn:Eh.
  pose proof (handle_lost_token_bk now _ _ _ _ _ Eh) as Hh.
  destruct d.
  { injection H as <- <-. destruct Hh as ([C|C] & Hh). all: split; [exact Hh|rewrite C; discriminate]. }
  destruct Hh as (B0 & Hs0). assert (Hw0 : w_tx w = None -> w_tx w0 = None) by (destruct B0 as (T & _); congruence).
  step H as [sr cc] eqn:Es. destruct sr as [src|].
  - (* a status request is pending: the reply, after the synchronisation pause *)
    step H as [f1 wait] eqn:Ew. destruct (wait_sync_bk0 now f0 f1 wait w0 Ew) as (B1 & _ & _ & _ & _ & S1 & _).
    pose proof (bk0_trans _ _ _ _ _ _ _ B0 B1) as B01.
    assert (Hn : f_state f1 <> Offline) by (rewrite S1; destruct (f_state f0); discriminate).
    destruct wait.
    { injection H as <- <-. split; [|contradiction]. intros Hw. apply bk0_bk; [exact Hw|].
      eapply bk0_trans; [exact B01|apply bk0_frame; reflexivity]. }
    step H as [w1 k] eqn:Ep. step H as [f2 w2] eqn:E2. step H as f3 eqn:Em. injection H as <- <-.
    assert (H2 : frm f1 w1 f2 w2 /\ f_state f2 <> Offline).
    { destruct (ready_for_ring (f_ring f1)).
      - pose proof (trans_frm _ _ _ _ _ E2) as F. apply trans_spec in E2. destruct E2 as (s2 & Ht & -> & _).
        unfold transition_active_idle in Ht. step Ht as []. injection Ht as <-.
        split; [|discriminate]. eapply frm_trans; [|exact F]. unfold frm. cbn. tauto.
      - step E2 as [sr1 cc1]. injection E2 as <- <-. split; [unfold frm; cbn; tauto|discriminate]. }
    destruct H2 as (F2 & Hn2). rewrite (mark_tx_state _ _ _ _ Em). split; [|contradiction].
    intros Hw. exact (bk0_txs _ _ _ _ _ _ _ B01 (send_frm_mark _ _ _ _ _ _ _ _ _ Ep F2 Em)).
  - unfold receive_all_telegrams in H. step H as [[[f1 w1] rest] r] eqn:Er. injection H as <- <-.
    destruct (receive_all_suffix _ _ _ _ _ _ _ Er) as [k ->].
    assert (HI : LI now f0 w0 (f1, w1) /\ LS now (f1, w1)).
    { refine (receive_all_inv (fun s => LI now f0 w0 s /\ LS now s) _ _ _ (f0, w0) _ (f1, w1) _ r _ Er).
      - intros s t l s' u (H1 & H2) Hc.
        split; [exact (listen_token_telegram_LI _ _ _ _ _ _ _ _ H1 Hc)|exact (listen_token_telegram_LS _ _ _ _ _ _ H2 Hc)].
      - split; [apply LI0_LI, LI0_refl|]. unfold LS. cbn [fst]. destruct (f_state f0); discriminate. }
    destruct HI as (HI & HS). split.
    + intros Hw. eapply bk_after_bk0; [exact B0|]. apply loop_end_bk; [exact (Hw0 Hw)|exact HI|].
      intros E. rewrite E in Er. apply receive_all_nil in Er. injection Er as <- _. reflexivity.
    + intros Hoff. destruct (HS Hoff) as (S1 & C1 & P1 & L1). cbn [fst] in *.
      split; [exact S1|]. split; [exact C1|]. split; [cbn; rewrite P1; reflexivity|exact L1].
Qed.

Lemma do_listen_token_bk now f (w : W) f' w' :
  do_listen_token A f now w = Ok (f', w') -> w_tx w = None -> bk now f w f' w'.
Proof. intros H. exact (proj1 (do_listen_token_bk_off now _ _ _ _ H)). Qed.

Lemma do_listen_token_offline now f (w : W) f' w' :
  do_listen_token A f now w = Ok (f', w') -> f_state f' = Offline -> rst now f'.
Proof. intros H. exact (proj2 (do_listen_token_bk_off now _ _ _ _ H)). Qed.

Lemma do_active_idle_bk_off now f (w : W) f' w' :
  do_active_idle A f now w = Ok (f', w') -> (w_tx w = None -> bk now f w f' w') /\ f_state f' <> Offline.
Proof.
  unfold do_active_idle. intros H. step H as []. step H as [[f0 w0] d] eqn:Eh.
  pose proof (handle_lost_token_bk now _ _ _ _ _ Eh) as Hh.
  destruct d.
  { injection H as <- <-. destruct Hh as ([C|C] & Hh). all: split; [exact Hh|rewrite C; discriminate]. }
  destruct Hh as (B0 & Hs0). assert (Hw0 : w_tx w = None -> w_tx w0 = None) by (destruct B0 as (T & _); congruence).
  step H as [[sr nps] cc] eqn:Es. destruct sr as [src|].
  - step H as [f1 wait] eqn:Ew. destruct (wait_sync_bk0 now f0 f1 wait w0 Ew) as (B1 & _ & _ & _ & _ & S1 & _).
    pose proof (bk0_trans _ _ _ _ _ _ _ B0 B1) as B01.
    destruct wait.
    { injection H as <- <-. split; [|rewrite S1; destruct (f_state f0); discriminate]. intros Hw.
      apply bk0_bk; [exact Hw|]. eapply bk0_trans; [exact B01|apply bk0_frame; reflexivity]. }
    step H as [w1 k] eqn:Ep. step H as f3 eqn:Em. injection H as <- <-.
    rewrite (mark_tx_state _ _ _ _ Em). split; [|discriminate].
    intros Hw. refine (bk0_txs _ _ _ _ _ _ _ B01 (send_frm_mark _ _ _ _ _ _ _ w1 _ Ep _ Em)). unfold frm. cbn. tauto.
  - unfold receive_all_telegrams in H. step H as [[[f1 w1] rest] r] eqn:Er. injection H as <- <-.
    destruct (receive_all_suffix _ _ _ _ _ _ _ Er) as [k ->].
    assert (HI : LI0 now f0 w0 f1 w1 /\ C11Proofs.heard_kind (f_state f1)).
    { refine (receive_all_inv (fun s => LI0 now f0 w0 (fst s) (snd s) /\ C11Proofs.heard_kind (f_state (fst s)))
                _ _ _ (f0, w0) _ (f1, w1) _ r _ Er).
      - intros s t l s' u (H1 & H2) Hc.
        split; [exact (active_idle_telegram_LI0 _ _ _ _ _ _ _ _ H1 Hc)|exact (C11Proofs.active_idle_telegram_heard A now s t l s' u H2 Hc)].
      - split; [apply LI0_refl|]. cbn [fst]. destruct (f_state f0); try discriminate Es. exact I. }
    destruct HI as (HI & HK). split; [|intros C; cbn in C; rewrite C in HK; exact HK].
    intros Hw. eapply bk_after_bk0; [exact B0|]. apply loop_end_bk; [exact (Hw0 Hw)|apply LI0_LI; exact HI|].
    intros E. rewrite E in Er. apply receive_all_nil in Er. injection Er as <- _. reflexivity.
Qed.

Lemma do_active_idle_bk now f (w : W) f' w' :
  do_active_idle A f now w = Ok (f', w') -> w_tx w = None -> bk now f w f' w'.
Proof. intros H. exact (proj1 (do_active_idle_bk_off now _ _ _ _ H)). Qed.

Lemma do_pass_token_bk now f (w : W) f' w' :
  do_pass_token A f now w = Ok (f', w') -> w_tx w = None -> bk now f w f' w'.
Proof.
  unfold do_pass_token. intros H Hw. step H as [].
  refine (sync_then now f w _ f' w' H Hw _). clear H. intros f1 H.
  step H as [do_gap att]. step H as [[f2 w2] polled] eqn:Eg.
  (* the GAP step: frame steps, then possibly the request *)
  assert (Hg : exists fa wa, frm f1 w fa wa /\
                 match polled with Some _ => txs now fa wa f2 w2 | None => f2 = fa /\ w2 = wa end).
  { destruct do_gap; [|injection Eg as <- <- <-; exists f1, w; split; [apply frm_refl|split; reflexivity]].
    step Eg as [fa wa] eqn:Ea. exists fa, wa. split; [|exact (proj2 (transmit_gap_bk now _ _ _ _ _ Eg))].
    destruct (f_gap f1) as [rc|cur]; [destruct (p_gap_wait (f_p f1) <? rc)|].
    - eapply frm_trans; [|exact (next_gap_frm _ _ _ _ _ Ea)]. unfold frm. cbn. tauto.
    - step Ea as rc'. injection Ea as <- <-. unfold frm. cbn. tauto.
    - exact (next_gap_frm _ _ _ _ _ Ea). }
  destruct Hg as (fa & wa & Hfa & Hg). destruct polled as [pa|].
  - apply trans_frm in H. apply txs_bk. exact (txs_frm _ _ _ _ _ _ _ (frm_txs _ _ _ _ _ _ _ Hfa Hg) H).
  - destruct Hg as (-> & ->). step H as [w3 k] eqn:Ep. step H as r. step H as [f4 w4] eqn:E4. step H as f5 eqn:Em.
    injection H as <- <-. apply txs_bk. eapply frm_txs; [exact Hfa|]. refine (send_frm_mark _ _ _ _ _ _ _ _ _ Ep _ Em).
    destruct (_ =? _); [|step E4 as [g2 a2]]; apply trans_frm in E4;
      (eapply frm_trans; [|exact E4]); unfold frm; cbn; tauto.
Qed.

Lemma do_await_status_response_bk now f (w : W) f' w' :
  do_await_status_response A f now w = Ok (f', w') -> w_tx w = None -> bk now f w f' w'.
Proof.
  unfold do_await_status_response. intros H Hw. step H as []. step H as a0.
  step H as [[f1 w1] r] eqn:Ea. destruct (await_gap_bk0 now _ _ _ _ _ _ Ea) as (B1 & _).
  assert (Hw1 : w_tx w1 = None) by (destruct B1 as (T & _); congruence).
  destruct r.
  - injection H as <- <-. apply bk0_bk; assumption.
  - step H as [f2 w2] eqn:Et. apply trans_frm in Et.
    eapply bk_after_bk0; [exact (bk0_trans _ _ _ _ _ _ _ B1 (frm_bk0 now _ _ _ _ Et))|].
    apply (do_pass_token_bk now _ _ _ _ H). destruct Et as (T & _). congruence.
  - apply trans_frm in H. apply bk0_bk; [exact Hw|]. eapply bk0_trans; [exact B1|apply frm_bk0; exact H].
  - apply trans_frm in H. apply bk0_bk; [exact Hw|]. eapply bk0_trans; [exact B1|apply frm_bk0; exact H].
Qed.

Lemma do_check_token_pass_bk now f (w : W) f' w' :
  do_check_token_pass A f now w = Ok (f', w') -> w_tx w = None -> bk now f w f' w'.
Proof.
  unfold do_check_token_pass. intros H Hw. step H as [].
  step H as [f1 expired] eqn:Ec. destruct (check_slot_bk0 now f f1 expired w Ec) as (B1 & _).
  eapply bk_after_bk0; [exact B1|]. clear Ec B1. destruct expired.
  - step H as att. step H as [f2 w2] eqn:E2. step H as [f3 w3] eqn:Et. apply trans_frm in Et.
    assert (H2 : frm f1 w f2 w2).
    { destruct (check_pass_removes att); [step E2 as r|]; injection E2 as <- <-; unfold frm; cbn; tauto. }
    pose proof (frm_trans _ _ _ _ _ _ H2 Et) as H3.
    eapply bk_after_bk0; [apply frm_bk0; exact H3|]. apply (do_pass_token_bk now _ _ _ _ H).
    destruct H3 as (T & _). congruence.
  - step H as [[[[f2 w2] fi] rest] r] eqn:Er. injection H as <- <-.
    destruct (receive_all_suffix _ _ _ _ _ _ _ Er) as [k ->].
    assert (HI : LI0 now f1 w f2 w2).
    { refine (receive_all_inv (fun s => LI0 now f1 w (fst (fst s)) (snd (fst s))) _ _ _ (f1, w, true) _ (f2, w2, fi) _ r _ Er).
      - intros s t l s' u Hp Hc. exact (check_token_pass_telegram_LI0 _ _ _ _ _ _ _ _ Hp Hc).
      - apply LI0_refl. }
    apply loop_end_bk; [exact Hw| |].
    + apply LI0_LI. eapply LI0_frm; [exact HI|]. destruct fi; unfold frm; cbn; tauto.
    + intros E. rewrite E in Er. apply receive_all_nil in Er. injection Er as <- _ _. reflexivity.
Qed.

Lemma app_transmit_bk now f (w : W) idx app hp f' w' d :
  app_transmit_telegram A ops f now w idx app hp = Ok (f', w', d) ->
  if d then w_tx w = None -> txs now f w f' w' else frm f w f' w'.
Proof.
  unfold app_transmit_telegram. intros H. step H as [app' r]. destruct r as [[wire er]|].
  - match type of H with bind (phy_transmit A ?wx wire) _ = _ => set (w1 := wx) in * end.
    unfold phy_transmit in H. destruct (w_tx w1) eqn:Et1; cbn [bind] in H; [discriminate H|].
    step H as [f1 w3] eqn:E1. step H as f2 eqn:Em. injection H as <- <- <-. intros Hw.
    apply mark_tx_spec in Em. subst f2.
    assert (H1 : frm f (mkWorld (w_rx w1) (Some wire) (w_apps w1) (w_calls w1) (w_trace w1)) f1 w3).
    { destruct er as [addr|]; [step E1 as [[tk fa] fcd]; apply trans_frm in E1|injection E1 as <- <-];
        (eapply frm_trans; [|try exact E1; apply frm_refl]); unfold frm; cbn; tauto. }
    destruct H1 as (T & R & L & P & Q). split; [exact Hw|]. exists wire. cbn in *. rewrite Q. tauto.
  - injection H as <- <- <-. unfold frm. cbn. tauto.
Qed.

Lemma apps_loop_bk now : forall k f (w : W) hp f' w' d,
  apps_transmit_loop A ops k f now w hp = Ok (f', w', d) ->
  if d then w_tx w = None -> txs now f w f' w' else frm f w f' w'.
Proof.
  induction k as [|k IH]; intros f w hp f' w' d H; cbn [apps_transmit_loop] in H.
  - injection H as <- <- <-. apply frm_refl.
  - destruct (nth_error (w_apps w) (f_next_app f)) as [app|]; [|discriminate H].
    step H as [[f1 w1] d1] eqn:Ea. pose proof (app_transmit_bk now _ _ _ _ _ _ _ _ Ea) as Ha.
    destruct d1; [injection H as <- <- <-; exact Ha|].
    step H as [f2 c] eqn:Es. pose proof (frm_trans _ _ _ _ _ _ Ha (schedule_next_frm _ _ _ _ w1 Es)) as Hs.
    destruct c.
    + injection H as <- <- <-. eapply frm_trans; [exact Hs|]. unfold frm. cbn. tauto.
    + apply IH in H. destruct d.
      * intros Hw. eapply frm_txs; [exact Hs|]. apply H. destruct Hs as (T & _). congruence.
      * eapply frm_trans; eassumption.
Qed.

Lemma do_use_token_bk now f (w : W) f' w' :
  do_use_token A ops f now w = Ok (f', w') -> w_tx w = None -> bk now f w f' w'.
Proof.
  unfold do_use_token. intros H Hw. step H as []. step H as [[tk fa] fcd]. step H as [f1 w1] eqn:E1.
  assert (H1 : frm f w f1 w1).
  { destruct (negb _); [|injection E1 as <- <-; apply frm_refl]. step E1 as e.
    destruct (f_gap f); [|step E1 as e2]; injection E1 as <- <-; unfold frm; cbn; tauto. }
  assert (Hw1 : w_tx w1 = None) by (destruct H1 as (T & _); congruence).
  eapply bk_after_bk0; [apply frm_bk0; exact H1|]. clear E1 H1.
  refine (sync_then now f1 w1 _ f' w' H Hw1 _). clear H. intros f2 H.
  step H as [[tk2 fa2] fcd2]. step H as [[f3 w3] done] eqn:E3.
  (* the applications are asked, after first_cycle_done is set *)
  assert (Hask : forall t hp, (let* f0 := set_first_cycle_done f2 in
                               apps_transmit_telegram A ops f0 now (note A w1 t) hp) = Ok (f3, w3, done) ->
                 if done then txs now f2 w1 f3 w3 else frm f2 w1 f3 w3).
  { intros t hp E. step E as f2' eqn:Es. apply (set_first_cycle_done_frm _ _ w1) in Es.
    assert (Hs : frm f2 w1 f2' (note A w1 t)) by (eapply frm_trans; [exact Es|]; unfold frm; cbn; tauto).
    apply apps_loop_bk in E. destruct done; [exact (frm_txs _ _ _ _ _ _ _ Hs (E Hw1))|exact (frm_trans _ _ _ _ _ _ Hs E)]. }
  assert (H3 : if done then txs now f2 w1 f3 w3 else frm f2 w1 f3 w3).
  { destruct (now <? f_end_tht f2); [exact (Hask _ _ E3)|]. destruct (negb fcd2); [exact (Hask _ _ E3)|].
    injection E3 as <- <- <-. unfold frm. cbn. tauto. }
  destruct done; [injection H as <- <-; apply txs_bk; exact H3|].
  step H as [f4 w4] eqn:Et. pose proof (frm_trans _ _ _ _ _ _ H3 (trans_frm _ _ _ _ _ Et)) as H4.
  eapply bk_after_bk0; [apply frm_bk0; exact H4|]. apply (do_pass_token_bk now _ _ _ _ H).
  destruct H4 as (T & _). congruence.
Qed.

Lemma do_await_data_response_bk now f (w : W) f' w' :
  do_await_data_response A ops f now w = Ok (f', w') -> w_tx w = None -> bk now f w f' w'.
Proof.
  unfold do_await_data_response. intros H Hw. step H as []. step H as [[addr tk] fa].
  destruct (nth_error (w_apps w) (f_next_app f)) as [app|]; [|discriminate H].
  step H as [rest received] eqn:Er. destruct (receive_telegram_suffix _ _ _ _ Er) as [k ->].
  destruct received as [t|].
  - pose proof (receive_telegram_some _ _ _ _ Er) as Hne. apply bk0_bk; [exact Hw|].
    apply (received_bk0 now f w k); [exact Hne|].
    destruct (is_valid_response (mark_rx f now) addr t); [|exact (trans_frm _ _ _ _ _ H)].
    step H as app'. step H as [f2 w2] eqn:E2. step H as f3 eqn:Es. injection H as <- <-.
    eapply frm_trans; [|exact (set_first_cycle_done_frm _ _ w2 Es)].
    eapply frm_trans; [|exact (trans_frm _ _ _ _ _ E2)].
    unfold frm. cbn. rewrite (proj1 (proj2 (mark_rx_spec f now))). tauto.
  - step H as [f1 expired] eqn:Ec. apply no_telegram_bk0 in Ec; [|destruct (Nat.ltb _ _); exact eq_refl].
    destruct Ec as (B01 & _). match type of B01 with bk0 _ _ _ _ ?wx => set (w0 := wx) in * end.
    assert (Hw0 : w_tx w0 = None) by (destruct B01 as (T & _); congruence). clearbody w0.
    destruct expired.
    + step H as app'. step H as [f2 w2] eqn:E2. step H as f3 eqn:Es.
      assert (H3 : frm f1 w0 f3 w2).
      { eapply frm_trans; [|exact (set_first_cycle_done_frm _ _ w2 Es)].
        eapply frm_trans; [|exact (trans_frm _ _ _ _ _ E2)]. unfold frm. cbn. tauto. }
      eapply bk_after_bk0; [exact (bk0_trans _ _ _ _ _ _ _ B01 (frm_bk0 now _ _ _ _ H3))|].
      apply (do_use_token_bk now _ _ _ _ H). destruct H3 as (T & _). congruence.
    + injection H as <- <-. apply bk0_bk; [exact Hw|]. eapply bk0_trans; [exact B01|apply bk0_frame; reflexivity].
Qed.

Lemma dispatch_bk now f (w : W) f' w' :
  dispatch A ops f now w = Ok (f', w') -> w_tx w = None -> bk now f w f' w'.
Proof.
  unfold dispatch. intros H Hw.
  destruct (poll_dispatch (kind_of (f_state f))) as [ | |[ | | | | | | | ]]; try discriminate H.
  - exact (do_listen_token_bk now _ _ _ _ H Hw).
  - exact (do_active_idle_bk now _ _ _ _ H Hw).
  - exact (do_claim_token_bk now _ _ _ _ H Hw).
  - exact (do_use_token_bk now _ _ _ _ H Hw).
  - exact (do_await_data_response_bk now _ _ _ _ H Hw).
  - exact (do_pass_token_bk now _ _ _ _ H Hw).
  - exact (do_await_status_response_bk now _ _ _ _ H Hw).
  - exact (do_check_token_pass_bk now _ _ _ _ H Hw).
Qed.

(* a whole poll.  Bus activity may have been marked when the PHY was busy or the receive buffer was not empty;
   a poll that sees new activity (the PHY busy, the buffer grown) transmits nothing and marks it. *)
Lemma poll_inner_bk now f busy (w : W) f' w' :
  poll_inner ops f now busy w = Ok (f', w') -> w_tx w = None ->
  suffix_rx w w' /\
  ((f_pending f <= length (w_rx w))%nat -> (f_pending f' <= length (w_rx w'))%nat) /\
  f_p f' = f_p f /\
  match w_tx w' with
  | Some wire => f_lba f' = Some (now + dur (f_p f) (length wire)) /\ busy = false /\
                 (length (w_rx w) <= f_pending f)%nat /\ lba_ok f now
  | None => lba_moves (busy = true \/ w_rx w <> []) now (f_lba f) (f_lba f') \/
            (rst now f' /\ forall l, f_lba f = Some l -> l < now)
  end /\
  (f_conn f <> ConnOffline -> busy = true \/ (f_pending f < length (w_rx w))%nat ->
     w_tx w' = None /\ (f_lba f' = Some (Z.max (gv now (f_lba f)) now) \/ rst now f')).
Proof.
  intros E Hw. apply poll_inner_inv in E as [(Hc & _ & -> & ->)|(f0 & w0 & _ & Hpro & E)].
  { split; [apply suffix_rx_refl|]. split; [auto|]. split; [reflexivity|]. rewrite Hw.
    split; [left; apply lba_moves_refl|]. intros C. contradiction. }
  assert (F0 : frm f w f0 w0) by (destruct Hpro as [(-> & ->)|(s' & -> & -> & _)]; unfold frm; cbn; tauto).
  destruct F0 as (T0 & R0 & L0 & P0 & Q0). rewrite L0 in E.
  destruct (mark_bus_activity_spec f0 now) as (ML & MP & _ & MQ & _). rewrite L0 in ML.
  destruct (busy || _) eqn:Eong.
  { (* the PHY is busy or the own transmission is not over yet: bus activity is marked, nothing else *)
    destruct E as (-> & ->). cbn [w_tx w_rx note]. rewrite T0, Hw, MP, P0, ML.
    split; [apply suffix_rx_eq; exact R0|]. split; [rewrite R0; auto|]. split; [congruence|]. split; [|auto]. left.
    destruct busy; [right; right; split; [left; reflexivity|reflexivity]|]. cbn [orb] in Eong.
    destruct (f_lba f) as [l|]; [|discriminate Eong]. apply Z.leb_le in Eong. right. left. cbn [gv]. f_equal. lia. }
  apply orb_false_iff in Eong. destruct Eong as (-> & Hpred).
  assert (Hpr : forall l, f_lba f = Some l -> l < now) by (intros l El; rewrite El in Hpred; apply Z.leb_gt; exact Hpred).
  destruct E as (f1 & w1 & Ecf & E). unfold check_for_bus_activity in Ecf. rewrite P0, R0 in Ecf.
  assert (Hact : w_tx w1 = None /\ w_rx w1 = w_rx w /\ f_p f1 = f_p f /\
            if (f_pending f <? length (w_rx w))%nat
            then f_lba f1 = Some (Z.max (gv now (f_lba f)) now) /\ f_pending f1 = length (w_rx w) else f1 = f0).
  { destruct (_ <? _)%nat; injection Ecf as <- <-; cbn; rewrite ?MQ; repeat split; congruence. }
  destruct Hact as (Hw1 & R1 & Q1 & Hact).
  pose proof (dispatch_bk now _ _ _ _ E Hw1) as (S & P & Q & L). rewrite R1 in P, L.
  split; [destruct S as (k & S); exists k; congruence|]. rewrite Q1 in Q, L.
  (* a transmission needs the synchronisation pause (dispatch_sync), so none follows marked activity *)
  assert (Hsync : w_tx w' <> None -> lba_ok f1 now) by (intros C; apply (dispatch_sync A ops _ _ _ _ _ E); split; assumption).
  revert Hact. destruct (Nat.ltb_spec (f_pending f) (length (w_rx w))) as [Hgrow|Hgrow]; intros Hact.
  - destruct Hact as (L1' & P1). split; [rewrite P1 in P; auto|]. split; [exact Q|].
    assert (Hntx : w_tx w' = None).
    { destruct (w_tx w') eqn:Et; [|reflexivity]. destruct (Hsync ltac:(discriminate)) as (l1 & El1 & Hlt).
      rewrite L1' in El1. injection El1 as <-. pose proof (sync_nonneg f1). lia. }
    assert (Hne : w_rx w <> []) by (intros C; rewrite C in Hgrow; cbn in Hgrow; lia).
    rewrite Hntx in *. rewrite L1' in L.
    assert (L' : f_lba f' = Some (Z.max (gv now (f_lba f)) now) \/ rst now f').
    { destruct L as [[-> | [-> | (_ & ->)]]|R]; [left..|right; exact R]; cbn [gv]; f_equal; lia. }
    split; [|auto]. destruct L' as [-> |R]; [left; right; right; auto|right; auto].
  - subst f1. rewrite P0 in P. rewrite L0 in L. split; [exact P|]. split; [exact Q|]. split.
    + destruct (w_tx w') as [wire|] eqn:Et.
      * split; [exact L|]. split; [reflexivity|]. split; [exact Hgrow|].
        destruct (Hsync ltac:(discriminate)) as (l & El & Hlt). exists l. rewrite <- L0, <- Q0. split; assumption.
      * destruct L as [L|R]; [left|right; auto]. eapply lba_moves_weaken; [|exact L]. auto.
    + intros _ [C|C]; [discriminate C|lia].
Qed.

Theorem poll_bk now f pin (apps : list A) f' o apps' calls :
  poll ops f now pin apps = Ok (f', o, apps', calls) ->
  (exists k, rx_left o = skipn k (rx pin)) /\
  ((f_pending f <= length (rx pin))%nat -> (f_pending f' <= length (rx_left o))%nat) /\
  f_p f' = f_p f /\
  match tx o with
  | Some wire => f_lba f' = Some (now + dur (f_p f) (length wire)) /\ tx_busy pin = false /\
                 (length (rx pin) <= f_pending f)%nat /\ lba_ok f now
  | None => lba_moves (tx_busy pin = true \/ rx pin <> []) now (f_lba f) (f_lba f') \/
            (rst now f' /\ forall l, f_lba f = Some l -> l < now)
  end /\
  (f_conn f <> ConnOffline -> tx_busy pin = true \/ (f_pending f < length (rx pin))%nat ->
     tx o = None /\ (f_lba f' = Some (Z.max (gv now (f_lba f)) now) \/ rst now f')).
Proof.
  intros H. apply (C11Proofs.poll_inv A ops) in H. destruct H as (w' & H & -> & _).
  exact (poll_inner_bk now _ _ _ _ _ H eq_refl).
Qed.

Lemma goi_idem f now l f0 : lba_get_or_insert f now = (l, f0) -> lba_get_or_insert f0 now = (l, f0).
Proof.
  unfold lba_get_or_insert. destruct (f_lba f) as [l0|] eqn:E; intros H; injection H as <- <-.
  - rewrite E. reflexivity.
  - cbn. reflexivity.
Qed.

(* do_listen_token begins with last_bus_activity.get_or_insert(now): doing that beforehand changes nothing *)
Lemma do_listen_token_goi f now (w : W) l f0 :
  lba_get_or_insert f now = (l, f0) -> do_listen_token A f0 now w = do_listen_token A f now w.
Proof.
  intros E. pose proof (goi_idem _ _ _ _ E) as E0. pose proof (lba_get_or_insert_same _ _ _ _ E) as ((_ & _ & _ & _ & Hs & _) & _).
  unfold do_listen_token, assert_entry, handle_lost_token. rewrite E, E0, Hs. reflexivity.
Qed.

Lemma do_listen_token_lba_some now f (w : W) f' w' :
  do_listen_token A f now w = Ok (f', w') -> w_tx w = None -> f_lba f' <> None \/ rst now f'.
Proof.
  intros H Hw. destruct (lba_get_or_insert f now) as [l f0] eqn:E.
  rewrite <- (do_listen_token_goi _ _ _ _ _ E) in H.
  pose proof (lba_get_or_insert_same _ _ _ _ E) as (_ & Hl & _).
  destruct (do_listen_token_bk now _ _ _ _ H Hw) as (_ & _ & _ & L).
  destruct (w_tx w') as [wire|]; [left; rewrite L; discriminate|].
  destruct L as [L|R]; [left|right; exact R]. rewrite Hl in L.
  destruct L as [-> | [-> | (_ & ->)]]; discriminate.
Qed.

Lemma poll_online_lba_some now f pin (apps : list A) f' o apps' calls :
  poll ops f now pin apps = Ok (f', o, apps', calls) ->
  f_conn f = ConnOnline -> f_state f = Offline -> f_lba f = None ->
  f_lba f' <> None \/ rst now f'.
Proof.
  intros H Hc Hs Hl. apply (C11Proofs.poll_inv A ops) in H. destruct H as (w' & H & _).
  apply poll_inner_inv in H as [(C & _)|(f0 & w0 & _ & Hpro & E)]; [congruence|].
  destruct (_ || _).
  { destruct E as (-> & _). left. rewrite (proj1 (mark_bus_activity_spec f0 now)). discriminate. }
  destruct E as (f1 & w1 & Ecf & E).
  (* the prologue has taken the station to ListenToken; the bus-activity check leaves state and transmission alone *)
  destruct Hpro as [(-> & ->)|(s' & -> & -> & [(_ & _ & ->)|(C & _)])]; [|clear Hs|congruence];
    unfold check_for_bus_activity in Ecf; destruct (_ <? _)%nat; injection Ecf as <- <-;
    unfold dispatch in E; cbn [f_state set_pending set_st kind_of] in E;
    rewrite ?(proj1 (proj2 (proj2 (mark_bus_activity_spec _ now)))) in E; cbn [f_state set_st kind_of poll_dispatch] in E;
    rewrite ?Hs in E; try discriminate E; exact (do_listen_token_lba_some now _ _ _ _ E eq_refl).
Qed.

Lemma do_active_idle_not_off f now (w : W) f' w' : do_active_idle A f now w = Ok (f', w') -> f_state f' <> Offline.
Proof. intros H. exact (proj2 (do_active_idle_bk_off now _ _ _ _ H)). Qed.

Lemma do_claim_token_not_off f now (w : W) f' w' : do_claim_token A f now w = Ok (f', w') -> f_state f' <> Offline.
Proof.
  intros H C. apply do_claim_token_inv in H as (st0 & Es0 & [(_ & [E|(_ & [E|[E|E]])] & _)|(_ & s' & E & _)]);
    rewrite E, ?Es0 in C; discriminate C.
Qed.

Lemma squiet_not_off now f (w : W) f' w' : C15Proofs.squiet A now f w f' w' -> f_state f <> Offline -> f_state f' <> Offline.
Proof. intros (_ & _ & Hq) Hn C. rewrite C in Hq. cbn in Hq. apply Hn. symmetry. exact Hq. Qed.

Lemma do_use_token_not_off f now (w : W) f' w' : do_use_token A ops f now w = Ok (f', w') -> f_state f' <> Offline.
Proof.
  intros H C.
  assert (Hst : exists tk fa fcd, f_state f = UseToken tk fa fcd).
  { unfold do_use_token, assert_entry in H. destruct (f_state f); cbn in H; try discriminate H. eauto. }
  destruct Hst as (tk & fa & fcd & Es).
  destruct (C13Proofs.do_use_token_state A ops _ _ _ _ _ _ _ _ H Es) as (_ & _ & [(E & _)|[(fa' & E)|[(a & fa' & E)|[E|E]]]]);
    try (rewrite E in C; try rewrite Es in C; discriminate C).
  rewrite C in E. discriminate E.
Qed.

Lemma do_await_data_not_off f now (w : W) f' w' : do_await_data_response A ops f now w = Ok (f', w') -> f_state f' <> Offline.
Proof.
  intros H C. apply (C15Proofs.do_await_data_response_split A ops) in H.
  destruct H as (a1 & tk1 & fa1 & ap & Es & _ & [(t & ap' & _ & _ & _ & _ & _ & E)|[(_ & _ & E)|[(_ & _ & E)|(ap' & f3 & w3 & _ & _ & _ & _ & _ & Hdo)]]]);
    try (rewrite E in C; try rewrite Es in C; discriminate C).
  exact (do_use_token_not_off _ _ _ _ _ Hdo C).
Qed.

Lemma poll_offline_rst f now pin (apps : list A) f' o apps' calls :
  poll ops f now pin apps = Ok (f', o, apps', calls) -> f_conn f = ConnOnline -> f_state f' = Offline -> rst now f'.
Proof.
  intros H Hc Hoff. apply (C11Proofs.poll_inv A ops) in H. destruct H as (w' & H & _).
  unfold poll_inner in H. rewrite Hc in H. step H as [[f0 w0] off] eqn:Ep.
  (* after the connectivity prologue the station is not in state Offline *)
  assert (Hn0 : f_state f0 <> Offline /\ off = false).
  { destruct (online_entry_kind (kind_of (f_state f))) eqn:Ek.
    - step Ep as [f1 w1] eqn:Et. injection Ep as <- <- <-. apply trans_inv in Et as (s' & Et & -> & _).
      unfold transition_listen_token in Et. step Et as []. injection Et as <-. split; [discriminate|reflexivity].
    - injection Ep as <- <- <-. split; [|reflexivity]. intros C. rewrite C in Ek. discriminate Ek. }
  destruct Hn0 as (Hn0 & ->). unfold check_for_ongoing_transmision in H. rewrite mark_bus_activity_eq in H.
  destruct (_ || _); [injection H as <- _; contradiction|].
  assert (Hb : exists f1 w1, f_state f1 = f_state f0 /\ dispatch A ops f1 now w1 = Ok (f', w')).
  { unfold check_for_bus_activity in H. rewrite mark_bus_activity_eq in H. destruct (_ <? _)%nat; eexists _, _; (split; [|exact H]); reflexivity. }
  destruct Hb as (f1 & w1 & Hs1 & Hb). rewrite <- Hs1 in Hn0. unfold dispatch in Hb.
  destruct (f_state f1) eqn:Es1; cbn [kind_of poll_dispatch] in Hb; try discriminate Hb; try (exfalso; apply Hn0; reflexivity).
    + eapply do_listen_token_offline; eassumption.
    + exfalso. exact (do_active_idle_not_off _ _ _ _ _ Hb Hoff).
    + exfalso. exact (do_use_token_not_off _ _ _ _ _ Hb Hoff).
    + exfalso. exact (do_claim_token_not_off _ _ _ _ _ Hb Hoff).
    + exfalso. exact (do_await_data_not_off _ _ _ _ _ Hb Hoff).
    + exfalso. refine (squiet_not_off now _ _ _ _ (C15Proofs.do_pass_token_squiet A _ _ _ _ _ Hb) _ Hoff). rewrite Es1. discriminate.
    + exfalso. refine (squiet_not_off now _ _ _ _ (C15Proofs.do_check_token_pass_squiet A _ _ _ _ _ Hb) _ Hoff). rewrite Es1. discriminate.
    + exfalso. refine (squiet_not_off now _ _ _ _ (C15Proofs.do_await_status_response_squiet A _ _ _ _ _ Hb) _ Hoff). rewrite Es1. discriminate.
Qed.

End BK.
