(* FDL oracle soundness, part 3: the base invariant between the model run and the monitor state, and the rule
   groups of C01 (bus access), C05 (no panic) and C06 (claim after the time-out).

   The corner O9: after the SECOND address collision while listening, when further
   telegrams follow in the same receive buffer, the closure of do_listen_token re-creates the station
   (set_offline) and the next iteration still calls mark_rx on it, so last_bus_activity = Some(now) survives in the
   offline station (`no_stale` below fails).  When it is set online again the silence time-out is measured from
   that instant: the station may claim the token in the very poll that takes it online.  The monitor follows the
   code there (an offline station observes nothing, the claim reference is re-based at the self-offline poll);
   FdlOracleSound2.poll_offline_rst: a poll of an online station ends in state Offline only by that re-creation. *)
From Coq Require Import Arith.
From PB Require Import Common Tables FdlTables Telegram Phy TokenRing Params Fdl FdlOracle FdlProofs FdlStepProofs.
From PB Require Import ByteFacts C05Proofs C01Proofs C09Proofs C12Proofs FdlOracleSound1 FdlOracleSound2.

(* the states outside the corner O9 (not a hypothesis of the theorems; see c01_corner_example) *)
Definition no_stale (f : fdl) : Prop := f_state f = Offline -> f_lba f = None.

Lemma decode_one_token da sa : decode_one (encode_token da sa) = Some (TToken da sa).
Proof.
  unfold decode_one. rewrite <- (app_nil_r (encode_token da sa)). rewrite decode_token_frame. reflexivity.
Qed.

Lemma decode_one_data h pdu : wf_header h -> (length_byte h (length pdu) <= 249)%nat ->
  decode_one (encode (TData h pdu)) = Some (TData h pdu).
Proof.
  intros Hw Hl. unfold decode_one. cbn [encode]. rewrite <- (app_nil_r (frame_spec h pdu)).
  rewrite (decode_data_frame h pdu [] Hw Hl). rewrite app_nil_r, frame_spec_length, Nat.eqb_refl. reflexivity.
Qed.

Lemma dur_nonneg p k : 0 <= dur p k.
Proof. unfold dur. apply btt_nonneg. unfold bits_per_byte. lia. Qed.

(* the monitor's 11 bits per character (prop_bits_per_byte) are the code's (bits_per_byte) *)
Lemma dur_is_prop p (w : bytes) : bits_to_time (p_baud p) (prop_bits_per_byte * Zlen w) = dur p (length w).
Proof. reflexivity. Qed.

Lemma sync_is_prop p : p_bits_to_time p prop_sync_bits = p_bits_to_time p sync_pause_bits.
Proof. reflexivity. Qed.

Lemma sync_lt_timeout p : builder_valid p -> p_bits_to_time p sync_pause_bits < token_lost_timeout p.
Proof.
  intros B. pose proof (bv_ranges _ B) as (Ha & _ & Hs & _).
  destruct B as (_ & (Hmin & _) & _).
  unfold token_lost_timeout, p_bits_to_time, bits_to_time, token_lost_base, token_lost_per_addr, sync_pause_bits.
  assert (H100 : 100 <= p_slot_bits p) by (destruct (p_baud p); cbn in Hmin; lia).
  assert (Hr : 1 <= baud_to_rate (p_baud p) <= 12000000) by (destruct (p_baud p); cbn; lia).
  set (r := baud_to_rate (p_baud p)) in *.
  assert (H1 : 33 * 1000000 / r + 1 = (33 * 1000000 + 1 * r) / r) by (rewrite Z.div_add by lia; reflexivity).
  assert (H2 : (33 * 1000000 + 1 * r) / r <= p_slot_bits p * (6 + 2 * p_address p) * 1000000 / r)
    by (apply Z.div_le_mono; nia).
  lia.
Qed.

Section S3.
Variable A : Type.
Variable ops : app_ops A.
Variable p : params.
Variable n : nat.
Hypothesis Happs : apps_total A ops.
Hypothesis Hbv : builder_valid p.

(* the base invariant: station, applications, PHY buffer, time of the last poll, first monitor *)
Record Base (f : fdl) (apps : list A) (buf : bytes) (tl : Z) (m : mon) : Prop := mkBase {
  b_rep : Rep (length apps) f;
  b_p : f_p f = p;
  b_n : length apps = n;
  b_view : m_view m = view_of f;
  b_left : m_left m = length buf;
  b_pend : (f_pending f <= length buf)%nat;
  b_bytes : all_bytes buf;
  b_tl : 0 <= tl
}.

Lemma all_bytes_app (a b : bytes) : all_bytes a -> all_bytes b -> all_bytes (a ++ b).
Proof. unfold all_bytes. intros Ha Hb. apply Forall_app. split; assumption. Qed.

Lemma m_view_x_m3 m s : m_view (x_m3 p n m s) = s_view s.
Proof. unfold x_m3. destruct (x_new_visit p m s); [reflexivity|]. destruct (state_kind_eqb _ _); reflexivity. Qed.
Lemma m_left_x_m3 m s : m_left (x_m3 p n m s) = x_left s.
Proof. unfold x_m3. destruct (x_new_visit p m s); [reflexivity|]. destruct (state_kind_eqb _ _); reflexivity. Qed.
Lemma m_lba_x_m3 m s : m_lba (x_m3 p n m s) = x_lba' p m s.
Proof. unfold x_m3. destruct (x_new_visit p m s); [reflexivity|]. destruct (state_kind_eqb _ _); reflexivity. Qed.
Lemma m_quiet_x_m3 m s : m_quiet (x_m3 p n m s) = x_quiet p m s.
Proof. unfold x_m3. destruct (x_new_visit p m s); [reflexivity|]. destruct (state_kind_eqb _ _); reflexivity. Qed.
Lemma m_start_x_m3 m s : m_start (x_m3 p n m s) = x_start m s.
Proof. unfold x_m3. destruct (x_new_visit p m s); [reflexivity|]. destruct (state_kind_eqb _ _); reflexivity. Qed.

Lemma fst_mon_poll m s : fst (mon_poll p n m s) = x_m3 p n m s.
Proof. rewrite mon_poll_eq. reflexivity. Qed.

Lemma skipn_length_le {X} k (l : list X) : (length (skipn k l) <= length l)%nat.
Proof. rewrite skipn_length. lia. Qed.

Lemma base_poll f apps buf tl m now busy nb f' o apps' calls :
  Base f apps buf tl m -> tl <= now -> time_ok now -> all_bytes nb ->
  poll ops f now (mkPhyIn busy (buf ++ nb)) apps = Ok (f', o, apps', calls) ->
  Base f' apps' (rx_left o) now (fst (mon_poll p n m (poll_event now busy (buf ++ nb) f' o calls))).
Proof.
  intros [R Hp Hn Hv Hl Hpd Hb Htl] Hle Hnow Hnb E.
  assert (Hrx : all_bytes (buf ++ nb)) by (apply all_bytes_app; assumption).
  destruct (poll_rep_step A ops Happs f now (mkPhyIn busy (buf ++ nb)) apps R Hnow Hrx) as (f'' & o'' & apps'' & c'' & E' & R' & L').
  rewrite E in E'. injection E' as <- <- <- <-.
  destruct (poll_bk A ops now _ _ _ _ _ _ _ E) as ((k & Ek) & Pp & Qp & _). cbn [rx] in *.
  rewrite fst_mon_poll. constructor.
  - rewrite L'. exact R'.
  - congruence.
  - congruence.
  - rewrite m_view_x_m3. reflexivity.
  - rewrite m_left_x_m3. unfold x_left. cbn [s_rx s_consumed poll_event]. rewrite Ek.
    pose proof (skipn_length_le k (buf ++ nb)). lia.
  - apply Pp. rewrite app_length. lia.
  - rewrite Ek. apply all_bytes_skipn. exact Hrx.
  - lia.
Qed.

Lemma base_api a f apps buf tl m g f' :
  Base f apps buf tl m -> api_result p a f = Ok f' ->
  Base f' apps buf tl (fst (mon_after_api a (view_of f') m g)).
Proof.
  intros [R Hp Hn Hv Hl Hpd Hb Htl] E.
  assert (Hnew : forall f1, fdl_new p = Ok f1 -> Base f1 apps buf tl (mon_reset (view_of f1) (m_left m))).
  { intros f1 E1. destruct (fdl_new_rep (length apps) p Hbv) as (f0 & E0 & R0 & _). rewrite E1 in E0. injection E0 as <-.
    destruct (fdl_new_fields _ _ E1) as (_ & _ & _ & P1 & Q1).
    constructor; try assumption; try reflexivity. rewrite P1. lia. }
  destruct a; cbn [api_result mon_after_api fst] in *.
  - apply Hnew. exact E.
  - unfold set_online, set_state in E. injection E as <-.
    destruct (Rep_set_online _ f R) as (f1 & E1 & R1). unfold set_online, set_state in E1. injection E1 as <-.
    constructor; try assumption; reflexivity.
  - unfold set_offline, set_state in E. rewrite Hp in E. apply Hnew. exact E.
  - discriminate E.
Qed.

Lemma base_init f0 apps : fdl_new p = Ok f0 -> length apps = n -> Base f0 apps [] 0 (mon_reset (view_of f0) 0).
Proof.
  intros E Hn. destruct (fdl_new_rep (length apps) p Hbv) as (f1 & E1 & R1 & _). rewrite E in E1. injection E1 as <-.
  destruct (fdl_new_fields _ _ E) as (_ & _ & _ & P1 & Q1).
  constructor; try assumption; try reflexivity; try lia. constructor.
Qed.

(* the timing invariant of C01 / C06 between the station's last_bus_activity and the monitor *)

Record TI (f : fdl) (tl : Z) (m : mon) : Prop := mkTI {
  ti_lba : forall x, m_lba m = Some x -> match f_lba f with Some l => x <= l | None => x <= tl end;
  ti_some : f_lba f = None -> f_state f = Offline;
  ti_s1 : m_start m = None -> f_state f = Offline /\ f_lba f = None;
  ti_s2 : forall t0, m_start m = Some t0 -> t0 <= tl /\ forall l, f_lba f = Some l -> t0 <= l;
  ti_q0 : m_quiet m = None -> f_state f = Offline;
  ti_q1 : forall q, m_quiet m = Some q -> f_lba f <> None /\ forall l, f_lba f = Some l -> l <= q;
  ti_off : f_state f = Offline -> forall l, f_lba f = Some l -> l <= tl
}.

(* what one poll does to last_bus_activity, as far as the timing monitors need it *)
Inductive lba_case (f f' : fdl) (now : Z) (busy : bool) (rxb : bytes) (txo : option bytes) : Prop :=
| LcTx (wire : bytes) (l : Z) :
    txo = Some wire -> f_lba f' = Some (now + dur (f_p f) (length wire)) -> busy = false ->
    (length rxb <= f_pending f)%nat -> f_lba f = Some l -> l + p_bits_to_time (f_p f) sync_pause_bits < now ->
    lba_case f f' now busy rxb txo
| LcSame : txo = None -> f_lba f' = f_lba f -> lba_case f f' now busy rxb txo
| LcInsert : txo = None -> f_lba f' = Some (gv now (f_lba f)) -> lba_case f f' now busy rxb txo
| LcMark : txo = None -> (busy = true \/ rxb <> []) -> f_lba f' = Some (Z.max (gv now (f_lba f)) now) ->
    lba_case f f' now busy rxb txo
| LcReset : txo = None -> rst now f' -> (forall l, f_lba f = Some l -> l < now) -> lba_case f f' now busy rxb txo.

Lemma poll_lba_case f now busy rxb (apps : list A) f' o apps' calls :
  poll ops f now (mkPhyIn busy rxb) apps = Ok (f', o, apps', calls) ->
  lba_case f f' now busy rxb (tx o).
Proof.
  intros E. destruct (poll_bk A ops now _ _ _ _ _ _ _ E) as (_ & _ & _ & L & _). cbn [rx tx_busy] in L.
  destruct (tx o) as [wire|].
  - destruct L as (L1 & L2 & L3 & (l & El & Hlt)). eapply LcTx; eauto.
  - destruct L as [[L|[L|(M & L)]]|(R & Hl)].
    + apply LcSame; [reflexivity|exact L].
    + apply LcInsert; [reflexivity|exact L].
    + apply LcMark; [reflexivity|exact M|exact L].
    + apply LcReset; [reflexivity|exact R|exact Hl].
Qed.

(* the same in numbers, with gv now for "the last bus activity, or now if none is recorded": the instant never moves
   back; a poll that transmits nothing moves it at most to now, and not at all when the PHY is idle and the buffer empty *)
Lemma lba_case_sum f f' now busy rxb txo :
  lba_case f f' now busy rxb txo -> 0 <= p_bits_to_time (f_p f) sync_pause_bits ->
  gv now (f_lba f) <= gv now (f_lba f') /\
  match txo with
  | Some wire => f_lba f' = Some (now + dur (f_p f) (length wire)) /\ busy = false /\ (length rxb <= f_pending f)%nat /\
                 f_lba f <> None /\ gv now (f_lba f) + p_bits_to_time (f_p f) sync_pause_bits < now
  | None => rst now f' \/
            (gv now (f_lba f') <= Z.max (gv now (f_lba f)) now /\ (busy = false -> rxb = [] -> gv now (f_lba f') = gv now (f_lba f)) /\
             (f_lba f' = None -> f_lba f = None))
  end.
Proof.
  intros [wire l -> L' Hb Hng El Hlt| -> L'| -> L'| -> M L'| -> R Hl] Hsync.
  - rewrite L', El. cbn [gv]. pose proof (dur_nonneg (f_p f) (length wire)). split; [lia|]. repeat split; try assumption. discriminate.
  - rewrite L'. split; [lia|]. right. split; [lia|]. split; auto.
  - rewrite L'. cbn [gv]. split; [lia|]. right. split; [lia|]. split; [reflexivity|discriminate].
  - rewrite L'. cbn [gv]. split; [lia|]. right. split; [lia|]. split; [|discriminate].
    intros -> ->. destruct M as [C|C]; [discriminate C|contradiction].
  - split; [|left; exact R]. destruct R as (_ & _ & _ & [-> | ->]); cbn [gv];
      (destruct (f_lba f) as [l|]; cbn [gv]; [specialize (Hl l eq_refl)|]; lia).
Qed.

Lemma zmax_opt_gv o x : zmax_opt o x = Z.max (gv x o) x.
Proof. destruct o; cbn [zmax_opt gv]; lia. Qed.

Lemma poll_conn_cases n0 f now pin (apps : list A) f' o apps' calls :
  Rep n0 f -> poll ops f now pin apps = Ok (f', o, apps', calls) ->
  (f_conn f = ConnOffline /\ f_state f = Offline /\ f' = f /\ tx o = None) \/ f_conn f = ConnOnline.
Proof.
  intros R E. pose proof (rep_conn _ _ R) as C. destruct (f_conn f) eqn:Ec; [left|exfalso|right; reflexivity].
  - assert (Hs : f_state f = Offline) by (destruct (f_state f); cbn in C; try congruence; try contradiction; reflexivity).
    rewrite (poll_offline_noop A ops f now _ apps Ec Hs) in E. injection E as <- <- _ _. tauto.
  - destruct (f_state f); cbn in C; try congruence; contradiction.
Qed.

Lemma ti_poll f apps buf tl m now busy nb f' o apps' calls :
  Base f apps buf tl m -> TI f tl m -> tl <= now -> time_ok now -> all_bytes nb ->
  poll ops f now (mkPhyIn busy (buf ++ nb)) apps = Ok (f', o, apps', calls) ->
  TI f' now (fst (mon_poll p n m (poll_event now busy (buf ++ nb) f' o calls))).
Proof.
  intros HB [Tl Tsome Ts1 Ts2 Tq0 Tq1 Toff] Hle Hnow Hnb E.
  pose proof (base_poll _ _ _ _ _ _ _ _ _ _ _ _ HB Hle Hnow Hnb E) as HB'.
  destruct HB as [R Hp Hn Hv Hl Hpd Hb Htl].
  set (s := poll_event now busy (buf ++ nb) f' o calls) in *. rewrite fst_mon_poll.
  assert (Hpo : x_pre_online m = match f_conn f with ConnOffline => false | _ => true end)
    by (unfold x_pre_online, x_pre; rewrite Hv; reflexivity).
  assert (Hon : x_online s = match f_conn f' with ConnOffline => false | _ => true end) by reflexivity.
  assert (Hoff' : f_conn f' = ConnOffline -> f_state f' = Offline).
  { intros Hc. pose proof (rep_conn _ _ (b_rep _ _ _ _ _ HB')) as C. rewrite Hc in C.
    destruct (f_state f'); cbn in C; try congruence; try contradiction; reflexivity. }
  assert (Hon' : f_conn f' <> ConnOffline -> f_conn f' = ConnOnline).
  { intros Hc. pose proof (rep_conn _ _ (b_rep _ _ _ _ _ HB')) as C. destruct (f_conn f'); [contradiction| |reflexivity].
    destruct (f_state f'); cbn in C; try congruence; contradiction. }
  destruct (poll_conn_cases _ _ _ _ _ _ _ _ _ R E) as [(Ec & Hs & -> & Etx)|Ec].
  { (* offline: nothing happens, the monitor keeps what it has *)
    constructor.
    - rewrite m_lba_x_m3. unfold x_lba', x_tx_end, x_lba. cbn [s_tx s poll_event]. rewrite Etx, Hpo, Ec, andb_false_r.
      intros x Hx. specialize (Tl x Hx). destruct (f_lba f); lia.
    - exact Tsome.
    - rewrite m_start_x_m3. unfold x_start. rewrite Hon, Hpo, Ec. exact Ts1.
    - rewrite m_start_x_m3. unfold x_start. rewrite Hon, Hpo, Ec. intros t0 H. destruct (Ts2 t0 H). split; [lia|assumption].
    - intros _. exact Hs.
    - rewrite m_quiet_x_m3. unfold x_quiet. rewrite Hon, Ec. discriminate.
    - intros _ l El. specialize (Toff Hs l El). lia. }
  rewrite Ec in Hpo.
  pose proof (lba_case_sum _ _ _ _ _ _ (poll_lba_case _ _ _ _ _ _ _ _ _ E) (sync_nonneg f)) as (Hmono & Hsum). rewrite Hp in Hsum.
  destruct (poll_bk A ops now _ _ _ _ _ _ _ E) as (_ & _ & _ & _ & Hact). cbn [rx tx_busy] in Hact.
  assert (Hrst : f_state f' = Offline -> f_lba f' = None \/ f_lba f' = Some now)
    by (intros Hs'; apply (poll_offline_rst A ops _ _ _ _ _ _ _ _ E Ec Hs')).
  (* a station without last_bus_activity that is polled while online records one, unless it re-creates itself *)
  assert (Hfresh : f_lba f = None -> f_lba f' = None -> f_conn f' = ConnOffline).
  { intros E0 E1. destruct (poll_online_lba_some A ops now _ _ _ _ _ _ _ E Ec (Tsome E0) E0) as [C|(_ & C & _)]; [contradiction|exact C]. }
  (* the monitor's bus activity is not after the station's *)
  assert (Ha : forall x, m_lba m = Some x -> x <= gv now (f_lba f)).
  { intros x Hx. specialize (Tl x Hx). destruct (f_lba f); cbn [gv]; lia. }
  (* activity seen by the monitor is activity seen by the station: nothing is transmitted, and it is marked *)
  set (gr := x_grew m s || s_busy s).
  assert (Hg : gr = true -> tx o = None /\ now <= gv now (f_lba f')).
  { intros Hg1. destruct Hact as (Htx0 & Hl').
    - rewrite Ec. discriminate.
    - apply orb_prop in Hg1. destruct Hg1 as [Hg1|Hg1]; [right|left; exact Hg1].
      unfold x_grew in Hg1. apply Nat.ltb_lt in Hg1. cbn [s_rx s poll_event] in Hg1. lia.
    - split; [exact Htx0|]. destruct Hl' as [-> |(_ & _ & _ & [-> | ->])]; cbn [gv]; lia. }
  assert (Hnog : tx o <> None -> gr = false).
  { intros C. destruct gr; [|reflexivity]. destruct (Hg eq_refl) as (C' & _). contradiction. }
  constructor.
  - (* ti_lba *)
    rewrite m_lba_x_m3. unfold x_lba', x_tx_end, x_lba. fold gr. rewrite Hpo, andb_true_r.
    change (s_tx s) with (tx o). change (x_now s) with now.
    intros x Hx. enough (x <= gv now (f_lba f')) by (destruct (f_lba f'); assumption).
    destruct (tx o) as [wire|] eqn:Etx.
    + rewrite (Hnog ltac:(discriminate)), dur_is_prop in Hx. destruct Hsum as (L' & _). rewrite L' in *. cbn [gv] in *.
      injection Hx as <-. rewrite zmax_opt_gv. destruct (m_lba m) as [x0|]; cbn [gv]; [specialize (Ha x0 eq_refl)|]; lia.
    + destruct gr.
      * destruct (Hg eq_refl) as (_ & Hn'). injection Hx as <-. rewrite zmax_opt_gv.
        destruct (m_lba m) as [x0|]; cbn [gv]; [specialize (Ha x0 eq_refl)|]; lia.
      * specialize (Ha x Hx). lia.
  - (* ti_some *)
    intros E1. apply Hoff'. destruct (tx o); [destruct Hsum as (L' & _); congruence|].
    destruct Hsum as [(_ & C & _)|(_ & _ & E0)]; [exact C|exact (Hfresh (E0 E1) E1)].
  - (* ti_s1 *)
    rewrite m_start_x_m3. unfold x_start. rewrite Hon, Hpo. destruct (f_conn f'), (m_start m); discriminate.
  - (* ti_s2 *)
    rewrite m_start_x_m3. unfold x_start. rewrite Hon, Hpo. cbn [x_now s_now s poll_event]. intros t0 H.
    enough (t0 <= now /\ t0 <= gv now (f_lba f')) as (H1 & H2).
    { split; [exact H1|]. intros l' El'. rewrite El' in H2. exact H2. }
    assert (H0 : (m_start m = Some t0 /\ f_conn f' <> ConnOffline) \/ (t0 = now /\ (m_start m = None \/ f_conn f' = ConnOffline))).
    { destruct (f_conn f'), (m_start m); injection H as <-; (left; split; [reflexivity|discriminate]) || (right; auto). }
    destruct H0 as [(Es & _)|(-> & Hc)].
    + destruct (Ts2 t0 Es) as (Ht0 & Hl0). split; [lia|]. destruct (f_lba f) as [l|]; cbn [gv] in Hmono; [specialize (Hl0 l eq_refl)|]; lia.
    + split; [lia|]. destruct Hc as [Es|Hc].
      * destruct (Ts1 Es) as (_ & E0). rewrite E0 in Hmono. exact Hmono.
      * destruct (Hrst (Hoff' Hc)) as [-> | ->]; cbn [gv]; lia.
  - (* ti_q0 *)
    rewrite m_quiet_x_m3. unfold x_quiet. rewrite Hon. intros H. apply Hoff'.
    destruct (f_conn f'); [reflexivity| |]; cbn [negb] in H;
      (destruct (x_tx_end p s); [discriminate H|]);
      (match type of H with context [if ?b then _ else _] => destruct b end; [discriminate H|]);
      destruct (m_quiet m); discriminate H.
  - (* ti_q1 *)
    rewrite m_quiet_x_m3. unfold x_quiet, x_tx_end. rewrite Hon. cbn [s_tx s_busy s_rx x_now s_now s poll_event]. intros q H.
    assert (Hc' : f_conn f' = ConnOnline) by (apply Hon'; intros C; rewrite C in H; discriminate H).
    rewrite Hc' in H. cbn [negb] in H.
    (* the station's bus activity is not after the monitor's quiet instant, or not after now if there is none *)
    assert (Hq : gv now (f_lba f) <= match m_quiet m with Some q0 => q0 | None => now end).
    { destruct (m_quiet m) as [q0|] eqn:Eq.
      - destruct (Tq1 q0 eq_refl) as (Hne & Hle0). destruct (f_lba f) as [l|]; [exact (Hle0 l eq_refl)|contradiction].
      - destruct (f_lba f) as [l|]; cbn [gv]; [specialize (Toff (Tq0 eq_refl) l eq_refl)|]; lia. }
    enough (f_lba f' <> None /\ gv now (f_lba f') <= q) as (H1 & H2).
    { split; [exact H1|]. intros l' El'. rewrite El' in H2. exact H2. }
    destruct (tx o) as [wire|] eqn:Etx.
    + rewrite dur_is_prop in H. destruct Hsum as (L' & _). rewrite L'. split; [discriminate|]. cbn [gv]. injection H as <-. rewrite zmax_opt_gv. lia.
    + destruct Hsum as [(_ & C & _)|(Hup & Hsame & Hnone)]; [congruence|]. split.
      * intros C. pose proof (Hfresh (Hnone C) C). congruence.
      * destruct (busy || _) eqn:Eb.
        -- injection H as <-. rewrite zmax_opt_gv. destruct (m_quiet m); cbn [gv]; lia.
        -- apply orb_false_iff in Eb. destruct Eb as (-> & Erx). rewrite Hsame; [|reflexivity|destruct (buf ++ nb); [reflexivity|discriminate Erx]].
           destruct (m_quiet m); injection H as <-; lia.
  - (* ti_off *)
    intros Hs' l' El'. destruct (Hrst Hs') as [C|C]; rewrite C in El'; [discriminate El'|injection El' as <-; lia].
Qed.

Lemma ti_new f1 tl v k : fdl_new p = Ok f1 -> TI f1 tl (mon_reset v k).
Proof.
  intros E1. destruct (fdl_new_fields _ _ E1) as (S1 & _ & L1 & _).
  constructor; cbn [mon_reset m_lba m_start m_quiet]; try discriminate; try (intros _; exact S1).
  - intros _. split; assumption.
  - intros _ l C. rewrite L1 in C. discriminate C.
Qed.

Lemma ti_api a f apps buf tl m g f' :
  Base f apps buf tl m -> TI f tl m -> api_result p a f = Ok f' ->
  TI f' tl (fst (mon_after_api a (view_of f') m g)).
Proof.
  intros HB [Tl Tsome Ts1 Ts2 Tq0 Tq1 Toff] E.
  destruct a; cbn [api_result mon_after_api fst] in *.
  - apply ti_new. exact E.
  - unfold set_online, set_state in E. injection E as <-. constructor; cbn; assumption.
  - unfold set_offline, set_state in E. rewrite (b_p _ _ _ _ _ HB) in E. apply ti_new. exact E.
  - discriminate E.
Qed.

Lemma no_stale_new f1 : fdl_new p = Ok f1 -> no_stale f1.
Proof. intros E _. exact (proj1 (proj2 (proj2 (fdl_new_fields _ _ E)))). Qed.

Lemma x_k0_base f apps buf tl m : Base f apps buf tl m -> x_k0 m = kind_of (f_state f).
Proof. intros HB. unfold x_k0, x_pre. rewrite (b_view _ _ _ _ _ HB). reflexivity. Qed.

Lemma c01_ok f apps buf tl m now busy nb f' o apps' calls :
  Base f apps buf tl m -> TI f tl m -> tl <= now -> time_ok now -> all_bytes nb ->
  poll ops f now (mkPhyIn busy (buf ++ nb)) apps = Ok (f', o, apps', calls) ->
  x_e01 p m (poll_event now busy (buf ++ nb) f' o calls) = [].
Proof.
  intros HB HT Hle Hnow Hnb E.
  pose proof (poll_lba_case _ _ _ _ _ _ _ _ _ E) as LC.
  pose proof (x_k0_base _ _ _ _ _ HB) as Hk0.
  destruct HB as [R Hp Hn Hv Hl Hpd Hb Htl]. destruct HT as [Tl Tsome Ts1 Ts2 Tq0 Tq1 Toff].
  set (s := poll_event now busy (buf ++ nb) f' o calls) in *.
  unfold x_e01. cbn [s_tx s poll_event]. destruct (tx o) as [wire|] eqn:Etx; [|reflexivity].
  destruct LC as [wire' l Etx' L' Hb0 Hng El Hlt|C _|C _|C _ _|C _ _]; try discriminate C. injection Etx' as <-.
  assert (Hts : x_ts p = ts f) by (unfold x_ts, ts; rewrite Hp; reflexivity).
  assert (Hxl : x_lba m s = m_lba m).
  { unfold x_lba, x_grew. cbn [s_rx s_busy s poll_event]. rewrite Hl, Hb0.
    replace (Nat.ltb (length buf) (length (buf ++ nb))) with false by (symmetry; apply Nat.ltb_ge; lia). reflexivity. }
  assert (Hsil : forall d, l + d < now -> x_silent m s d = true).
  { intros d Hd. unfold x_silent. rewrite Hxl. cbn [x_now s_now s poll_event]. destruct (m_lba m) as [x|] eqn:Em; [|reflexivity].
    specialize (Tl x eq_refl). rewrite El in Tl. apply Z.ltb_lt. unfold x_now. cbn. lia. }
  cbn [s_busy s poll_event]. rewrite Hb0. cbn [negb check app].
  unfold x_sync. rewrite sync_is_prop. rewrite <- Hp at 1. rewrite (Hsil _ Hlt). cbn [check app].
  rewrite Hk0.
  pose proof (bv_timeouts _ Hbv) as (Hslot & Hto).
  (* the claim: the station's time-out has run since its last_bus_activity, which is not before the monitor's *)
  set (claim := check (is_claim_token (x_ts p) wire) R01_who_may_transmit ++ _).
  assert (Hclaim : (kind_of (f_state f) = KListenToken \/ kind_of (f_state f) = KActiveIdle \/ online_entry_kind (kind_of (f_state f)) = true) ->
            wire = encode_token (ts f) (ts f) -> kind_of (f_state f') = KClaimToken ->
            x_txt s = Some (TToken (ts f) (ts f)) /\ claim = []).
  { intros Hk Hw Hs'. split; [unfold x_txt; cbn [s_tx s poll_event]; rewrite Etx, Hw; apply decode_one_token|].
    unfold claim, is_claim_token. rewrite Hw, Hts, bytes_eqb_refl. cbn [check app].
    destruct (poll_claim_needs_timeout A ops _ _ _ _ _ _ _ _ E Hk Hs' ltac:(rewrite Hp; exact Hto)) as (l2 & El2 & _ & Hl2).
    rewrite El in El2. injection El2 as <-.
    destruct (m_start m) as [t0|] eqn:Est; [|destruct (Ts1 eq_refl) as (_ & C); rewrite C in El; discriminate El].
    destruct (Ts2 t0 eq_refl) as (_ & Ht0). specialize (Ht0 l El).
    rewrite Hxl. replace (token_lost_timeout p <=? x_now s - zmax_opt (m_lba m) t0) with true; [reflexivity|].
    symmetry. apply Z.leb_le. unfold x_now. cbn [s_now s poll_event]. rewrite Hp in Hl2.
    destruct (m_lba m) as [x|] eqn:Em; cbn [zmax_opt]; [specialize (Tl x eq_refl); rewrite El in Tl; lia|lia]. }
  (* a listening or idle station: the claim, or the status reply with the own address as its source *)
  assert (Hli : kind_of (f_state f) = KListenToken \/ kind_of (f_state f) = KActiveIdle ->
            (x_txt s = Some (TToken (ts f) (ts f)) /\ claim = []) \/
            exists src st, x_txt s = Some (TData (status_response_header src (ts f) st status_reply_status) [])).
  { intros Hk. destruct (listen_idle_transmissions A ops _ _ _ _ _ _ _ _ _ E Hk Etx) as (_ & [(Hw & Hs')|(src & st & Hm & Hw & _)]).
    - left. apply Hclaim; [tauto|exact Hw|rewrite Hs'; reflexivity].
    - right. exists src, st. unfold x_txt. cbn [s_tx s poll_event]. rewrite Etx, Hw. apply decode_one_data; [|cbn; lia].
      pose proof (rep_st _ _ R) as St. pose proof (Rep_ts _ _ R).
      destruct Hk as [Hk|Hk]; destruct (f_state f); try discriminate Hk; cbn in Hm; subst;
        destruct St as (Hsr & _); cbn in Hsr; unfold wf_header, is_addr7; cbn; lia. }
  destruct (f_state f) as [ | |sr cc|sr nps cc|tk fa fcd|st|a tk fa|dg att|att|a] eqn:Es; cbn [kind_of kind_in existsb state_kind_eqb orb];
    try reflexivity.
  - (* Offline: the poll takes the station online; the only transmission is the claim - at once when the station
       kept a last_bus_activity from its re-creation (O9) *)
    assert (Hcl : wire = encode_token (ts f) (ts f) /\ kind_of (f_state f') = KClaimToken).
    { destruct (poll_transmissions A ops _ _ _ _ _ _ _ _ _ E Etx) as [(cs & i & hp & er & _ & [K|K] & _)|(_ & [Htok|[Hgap|Hrep]])];
        try (rewrite Es in K; discriminate K).
      - destruct Htok as (da & Hw & [(Hda & Hcl)|(_ & [K|[K|[K|[K|K]]]])]); try (rewrite Es in K; discriminate K).
        subst da. split; [exact Hw|]. destruct Hcl as [(S & _)|(S & _)]; rewrite S; reflexivity.
      - exfalso. destruct Hgap as (a & _ & _ & _ & _ & _ & [(_ & [(att & K)|[K|K]])|(_ & [K|(a0 & K)])]); rewrite Es in K; discriminate K.
      - exfalso. destruct Hrep as (src & st & _ & [(cc & K & _)|(nps & cc & K & _)]); rewrite Es in K; discriminate K. }
    destruct (Hclaim ltac:(right; right; reflexivity) (proj1 Hcl) (proj2 Hcl)) as (-> & Hc). exact Hc.
  - (* PassiveIdle *) exfalso. pose proof (rep_st _ _ R) as St. rewrite Es in St. exact St.
  - (* ListenToken *)
    destruct (Hli ltac:(left; reflexivity)) as [(-> & Hc)|(src & st & ->)]; [exact Hc|].
    cbn [status_response_header h_fc h_sa]. rewrite Hts, Z.eqb_refl. reflexivity.
  - (* ActiveIdle *)
    destruct (Hli ltac:(right; reflexivity)) as [(-> & Hc)|(src & st & ->)]; [exact Hc|].
    cbn [status_response_header h_fc h_sa]. rewrite Hts, Z.eqb_refl. reflexivity.
  - (* CheckTokenPass: the retry, after the slot time *)
    destruct (poll_who A ops _ _ _ _ _ _ _ _ _ E Etx ltac:(rewrite Hp; exact Hslot) ltac:(rewrite Hp; exact Hto))
      as [H|[H|[(_ & l2 & El2 & Hl2)|[(src & cc & H)|[(src & nps & cc & H)|([H|[H|H]] & _)]]]]];
      try (rewrite Es in H; discriminate H).
    rewrite El in El2. injection El2 as <-. unfold x_slot. rewrite <- Hp. rewrite (Hsil _ Hl2). reflexivity.
Qed.

Lemma c06_ok f apps buf tl m now busy nb f' o apps' calls :
  Base f apps buf tl m -> TI f tl m -> tl <= now -> time_ok now -> all_bytes nb ->
  poll ops f now (mkPhyIn busy (buf ++ nb)) apps = Ok (f', o, apps', calls) ->
  x_e06 p m (poll_event now busy (buf ++ nb) f' o calls) = [].
Proof.
  intros HB HT Hle Hnow Hnb E.
  pose proof (x_k0_base _ _ _ _ _ HB) as Hk0.
  destruct HB as [R Hp Hn Hv Hl Hpd Hb Htl]. destruct HT as [Tl Tsome Ts1 Ts2 Tq0 Tq1 Toff].
  unfold x_e06. rewrite Hk0. cbn [s_busy s_rx s_tx poll_event].
  destruct (kind_in (kind_of (f_state f)) [KListenToken; KActiveIdle]) eqn:Ek; [|reflexivity].
  destruct busy; [reflexivity|]. cbn [negb andb].
  destruct (buf ++ nb) as [|b0 rest] eqn:Erx; [|reflexivity]. cbn [andb].
  destruct (m_quiet m) as [q|] eqn:Eq; [|reflexivity].
  destruct (token_lost_timeout p <=? x_now (poll_event now false [] f' o calls) - q) eqn:Et; [|reflexivity].
  apply Z.leb_le in Et. unfold x_now in Et. cbn [s_now poll_event] in Et.
  destruct (Tq1 q eq_refl) as (Hne & Hq). destruct (f_lba f) as [l|] eqn:El; [|contradiction]. specialize (Hq l eq_refl).
  pose proof (sync_lt_timeout p Hbv) as Hst.
  assert (Hcl : exists f2, poll ops f now (mkPhyIn false []) apps =
                  Ok (f2, mkPhyOut (Some (encode_token (ts f) (ts f))) [], apps, []) /\ f_state f2 = ClaimToken StepSecondToken).
  { apply (claim_progress A ops f now [] apps l).
    - apply (Rep_online _ _ R). intros C. rewrite C in Ek. discriminate Ek.
    - destruct (f_state f); try discriminate Ek; [left|right]; eauto.
    - exact El.
    - pose proof (rep_lba _ _ R) as Rl. rewrite El in Rl. cbn in Rl. unfold lba_rng in Rl. unfold time_ok in *.
      pose proof (bv_timeouts _ Hbv). lia.
    - exact Hnow.
    - cbn. lia.
    - rewrite Hp. lia.
    - rewrite Hp. lia. }
  destruct Hcl as (f2 & E2 & _). rewrite E2 in E. injection E as _ <- _ _. cbn [tx].
  unfold is_claim_token, x_ts, ts. rewrite Hp, bytes_eqb_refl. reflexivity.
Qed.

End S3.

(* the errors of one poll, by property: a rule of property P that fires is in one of the rule groups of P,
   or in one of the two groups that mix properties (the callbacks: C13 and C15; the liveness rules)      *)

Lemma group_of (P P' : pid) (Q : rule -> Prop) l :
  onlyp (eq P') l -> (P = P' -> forall r, In r l -> Q r) -> forall r, In r l -> rule_prop r = P -> Q r.
Proof. intros O H r Hr HP. apply H; [rewrite <- HP; symmetry; exact (O r Hr)|exact Hr]. Qed.

Lemma onlyp_other (P P' : pid) l : P' <> P -> onlyp (eq P') l -> onlyp (is_not P) l.
Proof. intros H O r Hr. unfold is_not. rewrite <- (O r Hr). exact H. Qed.

Lemma group_app (P : pid) (Q : rule -> Prop) l l' :
  (forall r, In r l -> rule_prop r = P -> Q r) -> (forall r, In r l' -> rule_prop r = P -> Q r) ->
  forall r, In r (l ++ l') -> rule_prop r = P -> Q r.
Proof. intros H H' r Hr. apply in_app_or in Hr. destruct Hr; auto. Qed.

Lemma mon_poll_errs_of (P : pid) (Q : rule -> Prop) p n m s :
  (P = PC01 -> forall r, In r (x_e01 p m s) -> Q r) -> (P = PC06 -> forall r, In r (x_e06 p m s) -> Q r) ->
  (P = PC11 -> forall r, In r (x_e11a p m s) -> Q r) -> (P = PC11 -> forall r, In r (x_e11c p m s) -> Q r) ->
  (P = PC11 -> forall r, In r (x_e11b p m s) -> Q r) ->
  (P = PC12 -> forall r, In r (x_e12a p m s) -> Q r) -> (P = PC12 -> forall r, In r (x_e12b p m s) -> Q r) ->
  (forall r, In r (snd (x_fold p n m s)) -> rule_prop r = P -> Q r) ->
  (P = PC15 -> forall r, In r (x_e15 p n m s) -> Q r) ->
  forall r, In r (snd (mon_poll p n m s)) -> rule_prop r = P -> Q r.
Proof.
  intros H1 H6 H11a H11c H11b H12a H12b Hf H15. rewrite mon_poll_eq. cbn [snd].
  apply group_app; [exact (group_of _ _ _ _ (x_e01_only p m s) H1)|].
  apply group_app; [exact (group_of _ _ _ _ (x_e06_only p m s) H6)|].
  apply group_app; [exact (group_of _ _ _ _ (x_e11a_only p m s) H11a)|].
  apply group_app; [exact (group_of _ _ _ _ (x_e11c_only p m s) H11c)|].
  apply group_app; [exact (group_of _ _ _ _ (x_e11b_only p m s) H11b)|].
  apply group_app; [exact (group_of _ _ _ _ (x_e12a_only p m s) H12a)|].
  apply group_app; [exact (group_of _ _ _ _ (x_e12b_only p m s) H12b)|].
  apply group_app; [exact Hf|].
  exact (group_of _ _ _ _ (x_e15_only p n m s) H15).
Qed.

Lemma mon_poll2_errs_of (P : pid) (Q : rule -> Prop) p n m g s :
  (P = PC12 -> forall r, In r (y_e_found p m g s) -> Q r) -> (P = PC12 -> forall r, In r (y_e_tok p g s) -> Q r) ->
  (P = PC12 -> forall r, In r (y_e_sweep p m g s) -> Q r) ->
  (P = PC13 -> forall r, In r (y_e13 g s) -> Q r) -> (P = PC12 -> forall r, In r (y_e_scan p m g s) -> Q r) ->
  (P = PC15 -> forall r, In r (y_e_rr n g s) -> Q r) -> (P = PC15 -> forall r, In r (y_e_end p n m g s) -> Q r) ->
  (forall r, In r (y_e_live p m g s) -> rule_prop r = P -> Q r) ->
  (P = PC06 -> forall r, In r (y_e_backoff p m g s) -> Q r) ->
  forall r, In r (snd (mon_poll2 p n m g s)) -> rule_prop r = P -> Q r.
Proof.
  intros Hf Ht Hs H13 Hsc Hrr He Hl Hb. rewrite mon_poll2_eq. cbn [snd].
  apply group_app; [exact (group_of _ _ _ _ (y_e_found_only p m g s) Hf)|].
  apply group_app; [exact (group_of _ _ _ _ (y_e_tok_only p g s) Ht)|].
  apply group_app; [exact (group_of _ _ _ _ (y_e_sweep_only p m g s) Hs)|].
  apply group_app; [exact (group_of _ _ _ _ (y_e13_only g s) H13)|].
  apply group_app; [exact (group_of _ _ _ _ (y_e_scan_only p m g s) Hsc)|].
  apply group_app; [exact (group_of _ _ _ _ (y_e_rr_only n g s) Hrr)|].
  apply group_app; [exact (group_of _ _ _ _ (y_e_end_only p n m g s) He)|].
  apply group_app; [exact Hl|].
  exact (group_of _ _ _ _ (y_e_backoff_only p m g s) Hb).
Qed.

Lemma silent (P P' : pid) l : (P = P' -> l = []) -> P = P' -> forall r : rule, In r l -> False.
Proof. intros H E r Hr. rewrite (H E) in Hr. exact Hr. Qed.

Lemma mon_poll_errs_other (P : pid) p n m s :
  (P = PC01 -> x_e01 p m s = []) -> (P = PC06 -> x_e06 p m s = []) ->
  (P = PC11 -> x_e11a p m s = []) -> (P = PC11 -> x_e11c p m s = []) -> (P = PC11 -> x_e11b p m s = []) ->
  (P = PC12 -> x_e12a p m s = []) -> (P = PC12 -> x_e12b p m s = []) ->
  onlyp (is_not P) (snd (x_fold p n m s)) ->
  (P = PC15 -> x_e15 p n m s = []) ->
  onlyp (is_not P) (snd (mon_poll p n m s)).
Proof.
  intros H1 H6 H11a H11c H11b H12a H12b Hf H15 r Hr HP.
  apply (mon_poll_errs_of P (fun _ => False) p n m s) with (r := r); try (eapply silent; eassumption); assumption.
Qed.

Lemma x_fold_other (P : pid) p n m s : P <> PC13 -> P <> PC15 -> onlyp (is_not P) (snd (x_fold p n m s)).
Proof.
  intros H13 H15. eapply onlyp_weaken; [|apply x_fold_only]. intros x [-> | ->]; unfold is_not; congruence.
Qed.

Lemma mon_poll2_errs_other (P : pid) p n m g s :
  (P = PC12 -> y_e_found p m g s = []) -> (P = PC12 -> y_e_tok p g s = []) -> (P = PC12 -> y_e_sweep p m g s = []) ->
  (P = PC13 -> y_e13 g s = []) -> (P = PC12 -> y_e_scan p m g s = []) ->
  (P = PC15 -> y_e_rr n g s = []) -> (P = PC15 -> y_e_end p n m g s = []) ->
  onlyp (is_not P) (y_e_live p m g s) ->
  (P = PC06 -> y_e_backoff p m g s = []) ->
  onlyp (is_not P) (snd (mon_poll2 p n m g s)).
Proof.
  intros Hf Ht Hs H13 Hsc Hrr He Hl Hb r Hr HP.
  apply (mon_poll2_errs_of P (fun _ => False) p n m g s) with (r := r); try (eapply silent; eassumption); assumption.
Qed.

Lemma y_e_live_other (P : pid) p m g s : P <> PC12 -> P <> PC11 -> P <> PC15 -> onlyp (is_not P) (y_e_live p m g s).
Proof.
  intros H12 H11 H15. eapply onlyp_weaken; [|apply y_e_live_only]. intros x [-> |[-> | ->]]; unfold is_not; congruence.
Qed.

Lemma y_e_live_in p m g s r : In r (y_e_live p m g s) ->
  r = R12_gap_wait_never_ends \/ r = R11_supervision_never_ends \/ r = R15_no_reply_no_timeout.
Proof.
  unfold y_e_live. destruct (_ && _ && _); [|contradiction]. intros Hr.
  apply in_app_or in Hr. destruct Hr as [Hr|Hr]; [destruct (y_waiting_c12 m); [destruct Hr as [<-|[]]; auto|contradiction]|].
  apply in_app_or in Hr. destruct Hr as [Hr|Hr]; destruct (state_kind_eqb _ _); try contradiction; destruct Hr as [<-|[]]; auto.
Qed.

Lemma y_e_backoff_rule p m g s r : In r (y_e_backoff p m g s) -> r = R06_no_backoff.
Proof.
  unfold y_e_backoff. cbv zeta. destruct (y_looks g s); [|contradiction].
  destruct (decode (s_rx s)) as [[ | |t k]| |]; try contradiction.
  destruct (if state_kind_eqb _ _ then _ else _); [|contradiction].
  unfold check. destruct (_ && _); [contradiction|]. intros [<-|[]]. reflexivity.
Qed.

Section Theorems.
Variable A : Type.
Variable ops : app_ops A.
Variable p : params.
Hypothesis Happs : apps_total A ops.
Hypothesis Hbv : builder_valid p.

Definition J1 (n : nat) (f : fdl) (apps : list A) (buf : bytes) (tl : Z) (m : mon) (g : mon2) : Prop :=
  Base A p n f apps buf tl m /\ TI f tl m.

Lemma J1_init n f0 apps : fdl_new p = Ok f0 -> length apps = n ->
  J1 n f0 apps [] 0 (mon_reset (view_of f0) 0) mon2_reset.
Proof.
  intros E Hn. split; [eapply base_init; eassumption|apply (ti_new p); assumption].
Qed.

Lemma J1_api n a f apps buf tl m g f' :
  J1 n f apps buf tl m g -> api_result p a f = Ok f' ->
  J1 n f' apps buf tl (fst (mon_after_api a (view_of f') m g)) (snd (mon_after_api a (view_of f') m g)).
Proof.
  intros (HB & HT) E. split; [eapply base_api; eassumption|].
  eapply ti_api; eassumption.
Qed.

Lemma J1_poll n f apps buf tl m g now busy nb f' o apps' calls :
  J1 n f apps buf tl m g -> tl < now -> time_ok now -> all_bytes nb ->
  poll ops f now (mkPhyIn busy (buf ++ nb)) apps = Ok (f', o, apps', calls) ->
  J1 n f' apps' (rx_left o) now (fst (mon_poll p n m (poll_event now busy (buf ++ nb) f' o calls)))
                                (fst (mon_poll2 p n m g (poll_event now busy (buf ++ nb) f' o calls))).
Proof.
  intros (HB & HT) Hlt Hnow Hnb E. assert (Hle : tl <= now) by lia.
  split; [eapply base_poll; eassumption|].
  eapply ti_poll; eassumption.
Qed.

Lemma transcript_ok_true (apps : list A) (ins : list minput) : transcript_ok A ops p (fun _ => True) apps ins.
Proof. unfold transcript_ok. destruct (fdl_new p); [split; [exact I|apply run_ok_true]|exact I|exact I]. Qed.

(* C01: no rule of C01 fires on a transcript of the model - for ALL input histories, the O9 corner included *)
Theorem c01_oracle_sound (apps : list A) (ins : list minput) :
  ins_ok 0 ins ->
  forall k r, In (k, r) (monitor p (length apps) (model_transcript A ops p apps ins)) -> rule_prop r <> PC01.
Proof.
  intros Hok.
  apply (generic_sound_transcript A ops p (length apps) (fun r => rule_prop r <> PC01) (J1 (length apps)) (fun _ => True)); try assumption; try reflexivity.
  - discriminate.
  - intros a f apps0 buf tl m g f' HJ E _. exact (J1_api _ _ _ _ _ _ _ _ _ HJ E).
  - intros f apps0 buf tl m g now busy nb f' o apps' calls HJ Hle Hnow Hnb E _.
    split; [|split; [|exact (J1_poll _ _ _ _ _ _ _ _ _ _ _ _ _ _ HJ Hle Hnow Hnb E)]].
    + destruct HJ as (HB & HT). assert (Hle' : tl <= now) by lia.
      apply mon_poll_errs_other; try discriminate.
      * intros _. eapply c01_ok; eassumption.
      * apply x_fold_other; discriminate.
    + apply mon_poll2_errs_other; try discriminate. apply y_e_live_other; discriminate.
  - intros f0 apps0 E Hn _. exact (J1_init _ _ _ E Hn).
  - apply transcript_ok_true.
Qed.

(* C06: the rule R06_no_claim_after_timeout (the claim after the time-out) never fires; the other rule of C06,
   R06_no_backoff, is FdlOracleSound8.backoff_ok (transcript theorem in FdlOracleSoundAll) *)
Theorem c06_claim_oracle_sound (apps : list A) (ins : list minput) :
  ins_ok 0 ins ->
  forall k r, In (k, r) (monitor p (length apps) (model_transcript A ops p apps ins)) -> r <> R06_no_claim_after_timeout.
Proof.
  intros Hok.
  apply (generic_sound_transcript A ops p (length apps) (fun r => r <> R06_no_claim_after_timeout) (J1 (length apps)) (fun _ => True)); try assumption; try reflexivity.
  - discriminate.
  - intros a f apps0 buf tl m g f' HJ E _. exact (J1_api _ _ _ _ _ _ _ _ _ HJ E).
  - intros f apps0 buf tl m g now busy nb f' o apps' calls HJ Hle Hnow Hnb E _.
    split; [|split; [|exact (J1_poll _ _ _ _ _ _ _ _ _ _ _ _ _ _ HJ Hle Hnow Hnb E)]].
    + destruct HJ as (HB & HT). assert (Hle' : tl <= now) by lia. intros r Hr ->.
      refine (mon_poll_errs_other PC06 p _ m _ _ _ _ _ _ _ _ _ _ _ Hr eq_refl); try discriminate;
        [intros _; eapply c06_ok; eassumption|apply x_fold_other; discriminate].
    + intros r Hr ->.
      refine (mon_poll2_errs_of PC06 (fun r => r <> R06_no_claim_after_timeout) p _ m g _ _ _ _ _ _ _ _ _ _ _ Hr eq_refl eq_refl);
        try discriminate.
      * intros r Hr' HP. destruct (y_e_live_other PC06 p m g _ ltac:(discriminate) ltac:(discriminate) ltac:(discriminate) r Hr' HP).
      * intros _ r Hr'. rewrite (y_e_backoff_rule _ _ _ _ _ Hr'). discriminate.
  - intros f0 apps0 E Hn _. exact (J1_init _ _ _ E Hn).
  - apply transcript_ok_true.
Qed.

(* C05: with total applications no call of the model panics (poll_rep_step, fdl_new_rep) - except the documented
   todo!() of set_passive, which the monitor excuses - and the model has no time-outs: neither rule of C05 fires,
   for ALL input histories *)
Lemma c05_from n : forall ins f apps buf tl m g i la,
  Base A p n f apps buf tl m -> ins_ok tl ins ->
  forall k r, In (k, r) (monitor_from p n i (Some (m, g)) la (model_events A ops p f apps buf ins)) -> rule_prop r <> PC05.
Proof.
  induction ins as [|x ins IH]; intros f apps buf tl m g i la HB Hok k r Hin; [contradiction|].
  destruct x as [a|now busy nb]; cbn [model_events] in Hin.
  - cbn [ins_ok] in Hok.
    assert (Hres : (exists f', api_result p a f = Ok f') \/ (a = ApiPassive /\ api_result p a f = Panic SiteUnreachable)).
    { destruct a; cbn [api_result].
      - left. destruct (fdl_new_rep (length apps) p Hbv) as (f1 & E1 & _). exists f1. exact E1.
      - left. eexists. reflexivity.
      - left. unfold set_offline, set_state. rewrite (b_p _ _ _ _ _ _ _ _ HB).
        destruct (fdl_new_rep (length apps) p Hbv) as (f1 & E1 & _). exists f1. exact E1.
      - right. split; reflexivity. }
    destruct Hres as [(f' & Ea)|(-> & Ea)]; rewrite Ea in Hin.
    + rewrite monitor_from_api in Hin.
      destruct (mon_after_api a (view_of f') m g) as [m' g'] eqn:Em.
      assert (HB' : Base A p n f' apps buf tl (fst (mon_after_api a (view_of f') m g))) by (eapply base_api; eassumption).
      rewrite Em in HB'. cbn [fst] in HB'.
      exact (IH _ _ _ _ _ _ _ _ HB' Hok _ _ Hin).
    + rewrite monitor_from_api in Hin. cbn in Hin. contradiction.
  - cbn [ins_ok] in Hok. destruct Hok as (Htl & Hnow & Hnb & Hok).
    assert (Hrx : all_bytes (buf ++ nb)) by (apply all_bytes_app; [exact (b_bytes _ _ _ _ _ _ _ _ HB)|exact Hnb]).
    assert (Hr : Rep (length apps) f) by exact (b_rep _ _ _ _ _ _ _ _ HB).
    destruct (poll_rep_step A ops Happs f now (mkPhyIn busy (buf ++ nb)) apps Hr Hnow Hrx) as (f' & o & apps' & calls & Ep & _).
    rewrite Ep in Hin. assert (Htl' : tl <= now) by lia.
    assert (HB' : Base A p n f' apps' (rx_left o) now (fst (mon_poll p n m (poll_event now busy (buf ++ nb) f' o calls)))) by (eapply base_poll; eassumption).
    cbn [monitor_from mon_event] in Hin.
    assert (H1 : onlyp (is_not PC05) (snd (mon_poll p n m (poll_event now busy (buf ++ nb) f' o calls))))
      by (apply mon_poll_errs_other; try discriminate; apply x_fold_other; discriminate).
    assert (H2 : onlyp (is_not PC05) (snd (mon_poll2 p n m g (poll_event now busy (buf ++ nb) f' o calls))))
      by (apply mon_poll2_errs_other; try discriminate; apply y_e_live_other; discriminate).
    destruct (mon_poll p n m (poll_event now busy (buf ++ nb) f' o calls)) as [m' e1].
    destruct (mon_poll2 p n m g (poll_event now busy (buf ++ nb) f' o calls)) as [g' e2].
    cbn [fst snd app] in *. apply in_app_or in Hin. destruct Hin as [Hin|Hin].
    + apply in_map_iff in Hin. destruct Hin as (r' & Hr' & Hin). injection Hr' as _ <-.
      apply in_app_or in Hin. destruct Hin as [Hin|Hin]; [exact (H1 _ Hin)|exact (H2 _ Hin)].
    + exact (IH _ _ _ _ _ _ _ _ HB' Hok _ _ Hin).
Qed.

Theorem c05_oracle_sound (apps : list A) (ins : list minput) :
  ins_ok 0 ins ->
  forall k r, In (k, r) (monitor p (length apps) (model_transcript A ops p apps ins)) -> rule_prop r <> PC05.
Proof.
  intros Hok k r Hin. unfold monitor in Hin. destruct (builder_validb p); [|contradiction].
  unfold model_transcript in Hin.
  destruct (fdl_new_rep (length apps) p Hbv) as (f0 & E0 & _). rewrite E0 in Hin.
  cbn [monitor_from mon_event map app] in Hin.
  refine (c05_from (length apps) _ _ _ _ _ _ _ _ _ _ Hok _ _ Hin). eapply base_init; [exact Hbv|exact E0|reflexivity].
Qed.

End Theorems.

(* the corner O9, computed: the monitors accept the transcript, the run leaves `no_stale` *)
Definition ex_corner_params : params := mkParams 3 B19200 100 80000 1 16 1 11 None.
Definition ex_corner_inputs : list minput :=
  [InApi ApiOnline; InPoll 834 false []; InPoll 2629 false [220;5;3;220;5;3;220;5;3]; InApi ApiOnline; InPoll 134064 false []].

Lemma c01_corner_example :
  builder_validb ex_corner_params = true /\ ins_ok 0 ex_corner_inputs /\
  monitor ex_corner_params 0 (model_transcript unit unit_app_ops ex_corner_params [] ex_corner_inputs) = [] /\
  ~ transcript_ok unit unit_app_ops ex_corner_params no_stale [] ex_corner_inputs.
Proof.
  split; [reflexivity|]. split.
  { cbn. unfold time_ok, all_bytes. repeat split; try lia; repeat constructor; unfold is_byte; lia. }
  split; [vm_compute; reflexivity|].
  intros H. vm_compute in H. destruct H as (_ & _ & _ & (H & _)). specialize (H eq_refl). discriminate H.
Qed.
