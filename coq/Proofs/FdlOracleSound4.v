(* FDL oracle soundness, part 4: what one poll of a token-use state (UseToken / AwaitDataResponse) does, in the
   terms the monitors of C13 and C15 use; the ring view after the station witnessed its own token pass. *)
From Coq Require Import Arith Sorted.
From PB Require Import Common Tables FdlTables Telegram Phy TokenRing Params Fdl FdlOracle FdlProofs FdlStepProofs.
From PB Require Import LasOracle LasRep C02Proofs C05Proofs C11Proofs C15Proofs C13Proofs C12Proofs.
From PB Require Import FdlOracleSound1 FdlOracleSound2 FdlOracleSound3.

Lemma next_after_own_pass las ts ns :
  length las = 128%nat -> 0 <= ts < 128 -> ns = next_of (las_ones las) ts -> 0 <= ns <= 128 ->
  next_of (las_ones (las_after las ts ns)) ts = ns.
Proof.
  intros HL Hts Ens Hns.
  pose proof (next_of_spec (las_ones las) ts (las_ones_sorted las)) as Hn. rewrite <- Ens in Hn. clear Ens.
  pose proof (next_of_spec (las_ones (las_after las ts ns)) ts (las_ones_sorted _)) as Hn'.
  eapply cyc_next_unique; [exact Hn'|].
  assert (Hin : forall x, In x (las_ones (las_after las ts ns)) <-> x = ts \/ (In x (las_ones las) /\ ~ LasOracle.in_gap ts ns x)).
  { intros x. pose proof (In_las_ones (las_after las ts ns) x) as I1. pose proof (In_las_ones las x) as I2.
    pose proof (active_las_after las ts ns x HL ltac:(lia) ltac:(lia)) as I3. tauto. }
  assert (Hts_in : In ts (las_ones (las_after las ts ns))) by (apply Hin; left; reflexivity).
  unfold cyc_next. destruct (las_ones (las_after las ts ns)) as [|y l'] eqn:El'; [destruct Hts_in|].
  rewrite <- El' in *. clear El'.
  unfold cyc_next in Hn. destruct (las_ones las) as [|x0 l0] eqn:El.
  - (* nobody in the LAS: NS = TS *)
    cbn in Hn. subst ns. split; [exact Hts_in|]. right. split.
    + intros a Ha. apply Hin in Ha. destruct Ha as [-> |[[] _]]. lia.
    + intros a Ha. apply Hin in Ha. destruct Ha as [-> |[[] _]]. lia.
  - rewrite <- El in *. destruct Hn as (Hi & [(H1 & H2)|(H1 & H2)]).
    + (* TS < NS, NS the smallest above TS *)
      assert (Hnin : In ns (las_ones (las_after las ts ns))).
      { apply Hin. right. split; [exact Hi|]. unfold LasOracle.in_gap. destruct (Z.ltb_spec ts ns); lia. }
      split; [exact Hnin|]. left. split; [exact H1|].
      intros a Ha Hlt. apply Hin in Ha. destruct Ha as [-> |[Ha _]]; [lia|]. exact (H2 a Ha Hlt).
    + (* everybody <= TS, NS the smallest of all *)
      pose proof (H1 ns Hi) as Hle.
      destruct (Z.eq_dec ns ts) as [E|E].
      * split; [apply Hin; left; exact E|]. right. split.
        -- intros a Ha. apply Hin in Ha. destruct Ha as [-> |[Ha _]]; [lia|]. exact (H1 a Ha).
        -- intros a Ha. apply Hin in Ha. destruct Ha as [-> |[Ha Hg]]; [lia|]. exact (H2 a Ha).
      * assert (Hnin : In ns (las_ones (las_after las ts ns))).
        { apply Hin. right. split; [exact Hi|]. unfold LasOracle.in_gap. destruct (Z.ltb_spec ts ns); lia. }
        split; [exact Hnin|]. right. split.
        -- intros a Ha. apply Hin in Ha. destruct Ha as [-> |[Ha _]]; [lia|]. exact (H1 a Ha).
        -- intros a Ha. apply Hin in Ha. destruct Ha as [-> |[Ha Hg]]; [lia|]. exact (H2 a Ha).
Qed.

Lemma witness_own_pass_ns r a r' :
  ring_ok r a -> 0 <= a <= 125 -> witness r a (r_ns r) = Ok r' -> r_ns r' = r_ns r.
Proof.
  intros (W & Ht & (Hns & Hps)) Ha E. subst a.
  assert (Hn0 : 0 <= r_ns r < 128) by (apply (ring_ok_ns r (r_ts r)); [repeat split; assumption|lia]).
  assert (Hupd : r_ns (upd r (r_ts r) (r_ns r)) = r_ns r).
  { destruct (upd_fields r (r_ts r) (r_ns r)) as (_ & _ & _ & Hn & _). rewrite Hn.
    apply next_after_own_pass; [exact W|lia|exact Hns|lia]. }
  destruct (witness_cases r (r_ts r) (r_ns r) r' W ltac:(lia) ltac:(lia) E) as [(_ & ->)|(_ & Hc)]; [reflexivity|].
  destruct (r_state r).
  - subst r'. destruct (is_wrapb _); reflexivity.
  - subst r'. destruct (is_wrapb _); exact Hupd.
  - destruct Hc as [(_ & ->)|(_ & ->)]; [destruct (is_wrapb _); reflexivity|exact Hupd].
  - subst r'. exact Hupd.
Qed.

Section Visit.
Variable A : Type.
Variable ops : app_ops A.
Notation W := (world A).

(* the token time of the visit the station is in, if it is in a token-use state *)
Definition visit_tk (s : state) : option Z :=
  match s with UseToken tk _ _ => Some tk | AwaitDataResponse _ tk _ => Some tk | _ => None end.

Lemma visit_tk_in_visit s tk : visit_tk s = Some tk -> in_visit (kind_of s) = true.
Proof. destruct s; cbn; intros H; try discriminate H; reflexivity. Qed.
Lemma visit_tk_none s : visit_tk s = None -> in_visit (kind_of s) = false.
Proof. destruct s; cbn; intros H; try discriminate H; reflexivity. Qed.

(* one poll of a token-use state: nothing at all (PHY busy / own transmission not over yet), or the state
   function on the station as it was (up to the bus-activity bookkeeping) *)
Lemma visit_poll_split f now pin (apps : list A) f' o apps' calls :
  poll ops f now pin apps = Ok (f', o, apps', calls) -> in_visit (kind_of (f_state f)) = true ->
  (f' = mark_bus_activity f now /\ tx o = None /\ calls = [] /\ apps' = apps /\ rx_left o = rx pin) \/
  (exists f1 w1 w', same_but_lba_pending f f1 /\ w_tx w1 = None /\ w_calls w1 = [] /\ w_apps w1 = apps /\
     w_rx w1 = rx pin /\ o = mkPhyOut (w_tx w') (w_rx w') /\ apps' = w_apps w' /\ calls = w_calls w' /\
     tx_busy pin = false /\ (forall l, f_lba f = Some l -> l < now) /\
     (do_use_token A ops f1 now w1 = Ok (f', w') \/ do_await_data_response A ops f1 now w1 = Ok (f', w'))).
Proof.
  intros H Hv. apply (C11Proofs.poll_inv A ops) in H. destruct H as (w' & H & -> & -> & ->).
  apply (C11Proofs.poll_inner_cases A ops) in H.
  destruct H as [(_ & Hs & _)|(_ & f0 & w0 & Hpro & Hb)]; [rewrite Hs in Hv; discriminate Hv|].
  assert (Hht : have_token (f_state f) = true) by (unfold have_token; apply in_visit_have_token; exact Hv).
  destruct (prologue_have_token A _ _ _ _ Hpro Hht) as (-> & ->).
  unfold C11Proofs.body in Hb.
  destruct (tx_busy pin || predicted f now) eqn:Eb.
  - injection Hb as <- <-. left. cbn. repeat split; reflexivity.
  - apply orb_false_iff in Eb. destruct Eb as (Hbusy & Hpred).
    destruct (check_for_bus_activity A f now _) as [f1 w1] eqn:Ec.
    apply cfba_spec in Ec. destruct Ec as (Hs & T1 & C1 & R1 & A1 & _). cbn in T1, C1, R1, A1.
    right. exists f1, w1, w'. split; [exact Hs|]. split; [exact T1|]. split; [exact C1|]. split; [exact A1|].
    split; [exact R1|]. split; [reflexivity|]. split; [reflexivity|]. split; [reflexivity|]. split; [exact Hbusy|].
    split.
    + intros l El. unfold predicted in Hpred. rewrite El in Hpred. apply Z.leb_gt in Hpred. exact Hpred.
    + unfold C11Proofs.dispatch in Hb. destruct Hs as (_ & _ & _ & _ & Hst & _).
      rewrite Hst in Hb. destruct (f_state f); cbn in Hv; try discriminate Hv; cbn [kind_of poll_dispatch] in Hb; [left|right]; exact Hb.
Qed.

End Visit.

Section UseFacts.
Variable A : Type.
Variable ops : app_ops A.
Variable n : nat.
Notation W := (world A).

(* the deadline of the visit whose token time is tk: end_token_hold_time once do_use_token has computed it
   (last_token_time = tk), and what do_use_token is going to compute otherwise *)
Definition dl (f : fdl) (tk : Z) : Z :=
  if f_last_token_time f =? tk then f_end_tht f
  else f_last_token_time f + token_rotation_time (f_p f) - gap_reserve f.

(* first_cycle_done; an outstanding request means the first cycle has begun *)
Definition fcd_of (s : state) : bool :=
  match s with UseToken _ _ fcd => fcd | AwaitDataResponse _ _ _ => true | _ => false end.

(* how do_use_token ends when it goes on to pass the token: waiting for the synchronisation pause, the GAP request
   sent, or the token sent (to the station itself: the first state of its next visit) *)
Definition passed_tx (f : fdl) (now : Z) (f' : fdl) (txo : option bytes) : Prop :=
  (txo = None /\ f_state f' = PassToken true first_attempt) \/
  (exists a, f_state f' = AwaitStatusResponse a /\ txo <> None) \/
  (txo = Some (encode_token (r_ns (f_ring f)) (ts f)) /\
   f_state f' = if r_ns (f_ring f) =? ts f then UseToken now None false else CheckTokenPass first_attempt).

Lemma use_facts f now (w : W) f' w' c tk fa fcd :
  do_use_token A ops f now w = Ok (f', w') -> f_state f = UseToken tk fa fcd -> w_tx w = None ->
  length (w_apps w) = n -> in_visit (c_kind c) = true -> c_turn c = f_next_app f -> inv_st n f c ->
  ring_ok (f_ring f) (ts f) -> 0 <= ts f <= 125 ->
  exists l, w_calls w' = w_calls w ++ l /\
  let c' := mcalls n c l in
  acalls n (ts f) c l /\ f_p f' = f_p f /\ f_last_token_time f' = tk /\ f_end_tht f' = dl f tk /\
  (exists hp, Forall (is_transmit_call hp) l /\
     (l <> [] -> if hp then fcd = false /\ f_end_tht f' <= now else now < f_end_tht f')) /\
  ((inv_st n f' c' /\
    ((f_state f' = f_state f /\ l = []) \/ (exists fa', f_state f' = UseToken tk fa' true) \/
     (exists a fa', f_state f' = AwaitDataResponse a tk fa'))) \/
   ((c_decl c' = n \/ f_end_tht f' <= now) /\ passed_tx f now f' (w_tx w'))).
Proof.
  intros H Es Hw Hlen Hvis Hturn Hinv Hring Hts.
  rewrite do_use_token_split in H.
  destruct (do_use_token_head A ops f now w) as [[f1 w1]| |] eqn:Eh; cbn [bind] in H; try discriminate H.
  (* the head: C15 monitor, C13 deadline and states, C13 priority class *)
  destruct (do_use_token_head_mon A ops n (ts f) _ _ _ _ _ c Eh Hlen Hvis Hturn Hinv) as (l0 & Hl0 & Hacc & Hlen1 & Hp1 & Hturn1 & Hinv1 & Hcases).
  destruct (do_use_token_head_state A ops _ _ _ _ _ _ _ _ Eh Es) as (_ & Hdl & Hst).
  assert (Hd : f_last_token_time f1 = tk /\ f_end_tht f1 = dl f tk).
  { unfold dl. destruct (Z.eqb_spec (f_last_token_time f) tk) as [E|E]; destruct Hdl as (D1 & D2); split; congruence. }
  destruct Hd as (D1 & D2).
  destruct (do_use_token_head_hold_rule A ops _ _ _ _ _ Eh) as (l1 & hp & Hl1 & Hprio & Hrule).
  assert (El1 : l1 = l0) by (rewrite Hl0 in Hl1; apply app_inv_head in Hl1; symmetry; exact Hl1).
  rewrite El1 in *. clear El1 Hl1.
  assert (Hprio' : exists hp, Forall (is_transmit_call hp) l0 /\
     (l0 <> [] -> if hp then fcd = false /\ f_end_tht f1 <= now else now < f_end_tht f1)).
  { exists hp. split; [exact Hprio|]. intros Hne. specialize (Hrule Hne). destruct hp; [|exact Hrule].
    destruct Hrule as ((tk0 & fa0 & E0) & Hle). rewrite Es in E0. injection E0 as _ _ ->. split; [reflexivity|exact Hle]. }
  exists l0. cbn zeta.
  destruct (is_pass_token (f_state f1)) eqn:Ek.
  - (* the head turned to passing the token: do_pass_token in the same poll *)
    destruct (do_use_token_head_pass A ops _ _ _ _ _ Eh Ek) as (Es1 & _ & (Hpp & Hr1 & Hc1 & Hg1 & Hpd1 & Ht1 & Hrx1 & _)).
    assert (Hw1 : w_tx w1 = None) by congruence.
    pose proof (C11Proofs.do_pass_token_spec A _ _ _ _ _ _ _ Es1 Hw1 H) as Hout.
    destruct (do_pass_token_squiet A _ _ _ _ _ H) as ((Kc & Ka) & (Kp & Kn & Kl & Ke) & _).
    split; [congruence|].
    split; [exact Hacc|]. split; [congruence|]. split; [congruence|]. split; [congruence|].
    split; [rewrite Ke; exact Hprio'|]. right.
    split.
    { destruct Hcases as [Hv|(_ & Hde)]; [rewrite Es1 in Hv; discriminate Hv|]. rewrite Ke. exact Hde. }
    destruct Hout as [Hsame Htx _ _ _|a _ Hs' _ _ _ Htx _ _ _|(r' & Hwit & Hr' & Htx & Hs' & _)].
    + left. split; [exact Htx|]. destruct Hsame as (_ & _ & _ & _ & Hs & _). rewrite Hs. exact Es1.
    + right. left. exists a. split; [exact Hs'|exact Htx].
    + right. right. unfold ts in *. rewrite Hr1, Hpp in *. split; [exact Htx|].
      rewrite (witness_own_pass_ns _ _ _ Hring Hts Hwit) in Hs'. exact Hs'.
  - injection H as <- <-.
    split; [exact Hl0|].
    split; [exact Hacc|]. split; [exact Hp1|].
    split; [exact D1|]. split; [exact D2|]. split; [exact Hprio'|]. left. split; [exact Hinv1|].
    destruct Hst as [(E1 & E2)|[E1|[E1|E1]]].
    + left. split; [exact E1|]. rewrite E2 in Hl0. rewrite <- (app_nil_r (w_calls w)) in Hl0 at 1.
      apply app_inv_head in Hl0. symmetry. exact Hl0.
    + right. left. exact E1.
    + right. right. exact E1.
    + exfalso. unfold is_pass_token in Ek. rewrite E1 in Ek. discriminate Ek.
Qed.

End UseFacts.

Section VisitPoll.
Variable A : Type.
Variable ops : app_ops A.
Variable n : nat.
Notation W := (world A).

(* the transmission of the poll, if any, is the telegram of the application that was asked last *)
Definition tx_is_app (calls : list call) (txo : option bytes) : Prop :=
  txo = None \/ exists cs i hp wire er, calls = cs ++ [CallTransmit i hp (Some (wire, er))] /\ txo = Some wire.

(* how a poll of a token-use state ends: the visit goes on, the token is passed on, or it is given up *)
Inductive vend (f : fdl) (now : Z) (c' : cst) (tk : Z) (f' : fdl) (txo : option bytes) (calls : list call) : Prop :=
| VeKeep : visit_tk (f_state f') = Some tk -> inv_st n f' c' ->
    (asks calls -> fcd_of (f_state f') = true) -> (fcd_of (f_state f) = true -> fcd_of (f_state f') = true) ->
    (kind_of (f_state f') = KAwaitDataResponse -> f_last_token_time f' = tk) ->
    dl f' tk = dl f tk -> (f_last_token_time f' = f_last_token_time f \/ f_last_token_time f' = tk) ->
    vend f now c' tk f' txo calls
| VePass : (c_decl c' = n \/ f_end_tht f' <= now) ->
    f_last_token_time f' = tk -> f_end_tht f' = dl f tk -> passed_tx f now f' txo ->
    vend f now c' tk f' txo calls
| VeGiveUp : kind_of (f_state f') = KActiveIdle -> calls = [] -> txo = None ->
    f_last_token_time f' = f_last_token_time f -> kind_of (f_state f) = KAwaitDataResponse ->
    vend f now c' tk f' txo calls.

Lemma asks_app l1 l2 : asks (l1 ++ l2) <-> asks l1 \/ asks l2.
Proof.
  unfold asks. split.
  - intros (i & hp & r & Hin). apply in_app_or in Hin. destruct Hin; [left|right]; eauto.
  - intros [(i & hp & r & Hin)|(i & hp & r & Hin)]; exists i, hp, r; apply in_or_app; auto.
Qed.

Lemma transmit_calls_asks hp l : Forall (is_transmit_call hp) l -> l <> [] -> asks l.
Proof. intros Hf Hne. destruct l as [|x l]; [contradiction|]. inversion Hf as [|? ? (i & r & ->) _]. exists i, hp, r. left. reflexivity. Qed.

Lemma asks_transmit_calls hp l : Forall (is_transmit_call hp) l -> asks l -> l <> [].
Proof. intros _ (i & hp' & r & Hin) ->. contradiction. Qed.

Lemma dl_same f f' tk : f_p f' = f_p f -> f_last_token_time f' = f_last_token_time f -> f_end_tht f' = f_end_tht f ->
  (f_gap f' = f_gap f \/ f_last_token_time f = tk) -> dl f' tk = dl f tk.
Proof.
  intros Hp Hl He Hg. unfold dl, gap_reserve. rewrite Hl, He, Hp.
  destruct (Z.eqb_spec (f_last_token_time f) tk) as [E|E]; [reflexivity|].
  destruct Hg as [-> |C]; [reflexivity|contradiction].
Qed.

Lemma dl_done f f' tk : f_last_token_time f' = tk -> f_end_tht f' = dl f tk -> dl f' tk = dl f tk.
Proof. intros Hl He. unfold dl at 1. rewrite Hl, Z.eqb_refl. exact He. Qed.

(* the time-out branch of do_await_data_response: what do_use_token starts from *)
Lemma await_timeout_start f now (w : W) f' w' :
  do_await_data_response A ops f now w = Ok (f', w') ->
  (forall i a0, ~ exists l, w_calls w' = w_calls w ++ CallHandleTimeout i a0 :: l) \/
  exists a tk fa f3 w3, f_state f = AwaitDataResponse a tk fa /\ w_tx w3 = w_tx w /\
    w_calls w3 = w_calls w ++ [CallHandleTimeout (f_next_app f) a] /\ length (w_apps w3) = length (w_apps w) /\
    keepf f f3 /\ f_ring f3 = f_ring f /\ f_gap f3 = f_gap f /\ f_state f3 = UseToken tk fa true /\
    do_use_token A ops f3 now w3 = Ok (f', w').
Proof.
  intros H0. pose proof H0 as H. unfold do_await_data_response in H.
  destruct (assert_entry DoAwaitDataResponse f) as [[]| |]; cbn [bind] in H; try discriminate H.
  destruct (f_state f) as [ | | | | | |a tk fa| | | ] eqn:Es; cbn [get_await_data_response bind] in H; try discriminate H.
  destruct (nth_error (w_apps w) (f_next_app f)) as [ap|] eqn:En; [|discriminate H].
  destruct (receive_telegram (fun t => t) (w_rx w)) as [[rest received]| |]; cbn [bind] in H; try discriminate H.
  assert (Hno : forall l0 : list nat, (w_calls w' = w_calls w \/ exists t, w_calls w' = w_calls w ++ [CallReceiveReply (f_next_app f) a t]) ->
            forall i a0, ~ exists l, w_calls w' = w_calls w ++ CallHandleTimeout i a0 :: l).
  { intros _ [Hc|(t & Hc)] i a0 (l & Hl); rewrite Hc in Hl.
    - rewrite <- (app_nil_r (w_calls w)) in Hl at 1. apply app_inv_head in Hl. discriminate Hl.
    - apply app_inv_head in Hl. discriminate Hl. }
  destruct received as [t|].
  - left. apply (Hno []).
    (* a telegram was received: no time-out callback *)
    destruct (is_valid_response (mark_rx f now) a t).
    + destruct (a_rx ops ap now _ a t) as [app'| |]; cbn [bind] in H; try discriminate H.
      match type of H with context [trans A ?x ?y ?z] => destruct (trans A x y z) as [[f1 w1]| |] eqn:Et end; cbn [bind] in H; try discriminate H.
      apply trans_keep in Et. destruct Et as (s' & _ & _ & _ & (Hw1 & _) & _).
      destruct (set_first_cycle_done f1); cbn [bind] in H; try discriminate H. injection H as _ <-.
      right. exists t. rewrite Hw1. reflexivity.
    + apply trans_keep in H. destruct H as (s' & _ & _ & _ & (Hw1 & _) & _). left. rewrite Hw1. reflexivity.
  - set (wx := if Nat.ltb (length rest) (length (w_rx w)) then note A w TReplyRxDiscard else w) in *.
    assert (Hwx : w_calls wx = w_calls w /\ w_apps wx = w_apps w /\ w_tx wx = w_tx w) by (unfold wx; destruct (Nat.ltb _ _); repeat split; reflexivity).
    destruct Hwx as (Hwx1 & Hwx2 & Hwx3). clearbody wx.
    destruct (check_slot_expired _ now) as [[f1 expired]| |] eqn:Ec; cbn [bind] in H; try discriminate H.
    apply check_slot_expired_same in Ec.
    assert (Hk1 : keepf f f1) by (eapply keepf_trans; [apply keepf_sync_pending|apply keepf_same; exact Ec]).
    destruct Ec as (Cp & Cr & _ & Cg & Cs & _). cbn in Cp, Cr, Cg, Cs.
    destruct expired.
    + right.
      destruct (a_to ops ap now _ a) as [app'| |] eqn:Ea; cbn [bind] in H; try discriminate H.
      match type of H with context [trans A ?x ?y ?z] => destruct (trans A x y z) as [[f2 w2]| |] eqn:Et end; cbn [bind] in H; try discriminate H.
      pose proof (trans_spec A _ _ _ _ _ Et) as (s2 & _ & Ef2 & Ew2).
      apply trans_keep in Et. destruct Et as (s' & Ht & _ & Hk & (Hw1 & Hw2) & Hs).
      unfold transition_use_token in Ht. destruct (assert_kind _ _); cbn [bind] in Ht; try discriminate Ht. injection Ht as <-.
      unfold set_first_cycle_done in H. rewrite Hs in H. cbn [get_use_token bind] in H.
      exists a, tk, fa, (set_st f2 (UseToken tk fa true)), w2.
      split; [reflexivity|]. split; [rewrite Ew2; cbn; exact Hwx3|].
      split; [rewrite Hw1; cbn; rewrite Hwx1; reflexivity|].
      split; [rewrite Hw2; cbn; rewrite Hwx2; apply length_replace_nth|].
      split; [eapply keepf_trans; [exact Hk1|]; eapply keepf_trans; [exact Hk|apply keepf_set_st]|].
      split; [rewrite Ef2; cbn; exact Cr|]. split; [rewrite Ef2; cbn; exact Cg|]. split; [reflexivity|exact H].
    + left. apply (Hno []). left. injection H as _ <-. cbn. exact Hwx1.
Qed.

Lemma visit_tx_is_app f now pin (apps : list A) f' o apps' calls tk :
  poll ops f now pin apps = Ok (f', o, apps', calls) -> in_visit (kind_of (f_state f)) = true -> tk <> now ->
  visit_tk (f_state f') = Some tk -> tx o <> None ->
  exists cs i hp wire er, calls = cs ++ [CallTransmit i hp (Some (wire, er))] /\ tx o = Some wire.
Proof.
  intros E Hv Hne Htk' Htx. destruct (tx o) as [wire|] eqn:Etx; [|contradiction]. clear Htx.
  destruct (poll_transmissions A ops _ _ _ _ _ _ _ _ _ E Etx) as [(cs & i & hp & er & Hcs & _)|(_ & [Htok|[Hgap|Hrep]])].
  - exists cs, i, hp, wire, er. split; [exact Hcs|reflexivity].
  - exfalso. destruct Htok as (da & _ & [(_ & [(E1 & _)|(E1 & _)])|([E1|(att & E1)] & _)]); rewrite E1 in Htk'; try discriminate Htk'.
    injection Htk' as Htk'. symmetry in Htk'. contradiction.
  - exfalso. destruct Hgap as (a & _ & _ & _ & _ & _ & [(E1 & _)|(E1 & _)]); rewrite E1 in Htk'; discriminate Htk'.
  - exfalso. destruct Hrep as (src & st & _ & [(cc & E1 & _)|(nps & cc & E1 & _)]); rewrite E1 in Hv; discriminate Hv.
Qed.

Theorem visit_poll_facts f now pin (apps : list A) f' o apps' calls c tk :
  poll ops f now pin apps = Ok (f', o, apps', calls) ->
  Rep (length apps) f -> length apps = n -> Inv n f c -> visit_tk (f_state f) = Some tk ->
  (kind_of (f_state f) = KAwaitDataResponse -> f_last_token_time f = tk) ->
  acalls n (ts f) c calls /\ f_p f' = f_p f /\
  (exists hp, Forall (prio_of hp) calls /\
     (asks calls -> (if hp then fcd_of (f_state f) = false /\ f_end_tht f' <= now else now < f_end_tht f') /\
                    f_last_token_time f' = tk /\ f_end_tht f' = dl f tk)) /\
  vend f now (mcalls n c calls) tk f' (tx o) calls.
Proof.
  intros E R Hn (Hk & Hturn & Hinv) Htk Haw.
  pose proof (visit_tk_in_visit _ _ Htk) as Hv.
  assert (Hvis : in_visit (c_kind c) = true) by (rewrite Hk; exact Hv).
  pose proof (Rep_ts _ _ R) as Hts.
  destruct (visit_poll_split A ops _ _ _ _ _ _ _ _ E Hv) as
    [(-> & Htx & -> & -> & _)|(f1 & w1 & w' & Hs & Hw1 & Hc1 & Ha1 & Hrx1 & -> & -> & -> & _ & _ & Hd)].
  - (* nothing happened *)
    pose proof (mark_bus_activity_sblp f now) as (Mp & Mr & Mc & Mg & Ms & Ml & Me & Mn).
    split; [exact I|]. split; [exact Mp|]. split.
    { exists false. split; [constructor|]. intros C. destruct (asks_nil C). }
    change (mcalls n c []) with c. apply VeKeep.
    + rewrite Ms. exact Htk.
    + unfold inv_st in *. rewrite Ms, Mn. exact Hinv.
    + intros C. destruct (asks_nil C).
    + rewrite Ms. auto.
    + rewrite Ms, Ml. exact Haw.
    + apply dl_same; try assumption. left. exact Mg.
    + left. exact Ml.
  - destruct Hs as (Sp & Sr & Sc & Sg & Ss & Sl & Se & Sn). cbn [tx] in *.
    assert (Hts1 : ts f1 = ts f) by (unfold ts; rewrite Sp; reflexivity).
    (* do_use_token, from the station as it is after the callbacks `pre` of this poll (none, or the time-out) *)
    assert (Huse : forall f2 (w2 : W) c2 pre fa fcd,
              do_use_token A ops f2 now w2 = Ok (f', w') -> f_state f2 = UseToken tk fa fcd -> w_tx w2 = None ->
              w_calls w2 = pre -> ~ asks pre -> length (w_apps w2) = n -> c_kind c2 = c_kind c -> c_turn c2 = f_next_app f2 ->
              inv_st n f2 c2 -> keepf f f2 -> f_ring f2 = f_ring f -> dl f2 tk = dl f tk ->
              (fcd_of (f_state f) = true -> fcd = true) -> (if fcd then True else fcd_of (f_state f) = false) ->
              exists l, w_calls w' = pre ++ l /\ acalls n (ts f) c2 l /\ f_p f' = f_p f /\
                (exists hp, Forall (prio_of hp) l /\
                   (asks (pre ++ l) -> (if hp then fcd_of (f_state f) = false /\ f_end_tht f' <= now else now < f_end_tht f') /\
                                       f_last_token_time f' = tk /\ f_end_tht f' = dl f tk)) /\
                vend f now (mcalls n c2 l) tk f' (w_tx w') (pre ++ l)).
    { intros f2 w2 c2 pre fa fcd Hdu Es2 Hw2 Hc2 Hpre Hlen2 Hk2 Hturn2 Hinv2 (Kp & Kn & Kl & Ke) Kr Hdl2 Hfcd Hfcd'.
      assert (Hts2 : ts f2 = ts f) by (unfold ts; rewrite Kp; reflexivity).
      destruct (use_facts A ops n _ _ _ _ _ c2 tk fa fcd Hdu Es2 Hw2 Hlen2 ltac:(rewrite Hk2; exact Hvis) Hturn2 Hinv2
                  ltac:(rewrite Kr, Hts2; exact (rep_ring _ _ R)) ltac:(rewrite Hts2; lia))
        as (l & Hl & Hacc & Hp' & D1 & D2 & (hp & Hprio & Hrule) & Hend).
      rewrite Hc2 in Hl. rewrite Hts2, Hdl2 in *. exists l.
      split; [exact Hl|]. split; [exact Hacc|]. split; [congruence|]. split.
      { exists hp. split; [apply transmit_calls_prio; exact Hprio|]. intros Hask.
        assert (Hask' : asks l) by (apply asks_app in Hask; destruct Hask; [contradiction|assumption]).
        specialize (Hrule (asks_transmit_calls _ _ Hprio Hask')). split; [|split; assumption].
        destruct hp; [|exact Hrule]. destruct Hrule as (-> & Hle). split; assumption. }
      destruct Hend as [(Hi' & Hst')|(Hde' & Hpass)].
      - assert (Hst2 : f_state f' = f_state f2 /\ l = [] \/ fcd_of (f_state f') = true /\ visit_tk (f_state f') = Some tk).
        { destruct Hst' as [Hst'|[(fa' & E1)|(a & fa' & E1)]]; [left; exact Hst'|right; rewrite E1; split; reflexivity..]. }
        apply VeKeep; try assumption.
        + destruct Hst2 as [(E1 & _)|(_ & E1)]; [rewrite E1, Es2; reflexivity|exact E1].
        + intros Hask. destruct Hst2 as [(_ & ->)|(E1 & _)]; [|exact E1].
          rewrite app_nil_r in Hask. contradiction.
        + intros Hf. destruct Hst2 as [(E1 & _)|(E1 & _)]; [rewrite E1, Es2; exact (Hfcd Hf)|exact E1].
        + intros _. exact D1.
        + apply dl_done; assumption.
        + right. exact D1.
      - apply VePass; try assumption. unfold passed_tx in *. rewrite Kr, Hts2 in Hpass. exact Hpass. }
    destruct Hd as [Hd|Hd].
    + assert (Hes : exists fa fcd, f_state f = UseToken tk fa fcd).
      { destruct (f_state f) as [ | | | |tk0 fa fcd| | | | | ] eqn:Es; cbn in Htk; try discriminate Htk.
        - injection Htk as ->. exists fa, fcd. reflexivity.
        - exfalso. unfold do_use_token, assert_entry in Hd. rewrite Ss in Hd. discriminate Hd. }
      destruct Hes as (fa & fcd & Es).
      edestruct (Huse f1 w1 c [] fa fcd Hd) as (l & -> & Hrest); try exact Hrest; try assumption; try congruence.
      * intros C. destruct (asks_nil C).
      * unfold inv_st in *. rewrite Ss, Sn. exact Hinv.
      * unfold keepf. tauto.
      * unfold dl, gap_reserve. rewrite Sl, Se, Sp, Sg. reflexivity.
      * rewrite Es. cbn. auto.
      * rewrite Es. destruct fcd; cbn; auto.
    + pose proof Hd as Hd0. apply do_await_data_response_split in Hd.
      destruct Hd as (a & tk0 & fa & ap & Es1 & En & Hcases).
      assert (Es : f_state f = AwaitDataResponse a tk0 fa) by congruence.
      rewrite Es in Htk. cbn in Htk. injection Htk as ->.
      assert (Hltt : f_last_token_time f = tk) by (apply Haw; rewrite Es; reflexivity).
      pose proof Hinv as Hinv0. unfold inv_st in Hinv0. rewrite Es in Hinv0. destruct Hinv0 as (Hout & Hvi).
      rewrite Hts1 in *. rewrite Sn in *.
      destruct Hcases as [(t & app' & Hok & _ & Hc & _ & (Kp & Kn & Kl & Ke) & Es')|[((Hc & _) & (Kp & Kn & Kl & Ke) & Es')|[((Hc & _) & (Kp & Kn & Kl & Ke) & Es')|(app' & f3 & w3 & _ & Hc3 & Ha3 & (Kp & Kn & Kl & Ke) & Es3 & Hdo)]]].
      * (* a valid reply *)
        rewrite Hc1 in Hc. cbn [app] in Hc. rewrite Hc.
        assert (Hpre : cpre n (ts f) c (HCall (CallReceiveReply (f_next_app f) a t))).
        { cbn. rewrite Hk, Es. cbn. split; [reflexivity|]. split; [exact Hout|]. split; [symmetry; exact Hturn|exact Hok]. }
        split; [split; [exact Hpre|exact I]|]. split; [congruence|]. split.
        { exists false. split; [constructor; [exact I|constructor]|]. intros (i & hp & r & [C|[]]). discriminate C. }
        apply VeKeep; try (intros _; rewrite Es'; reflexivity).
        -- rewrite Es'. reflexivity.
        -- unfold inv_st. rewrite Es'. cbn. rewrite Kn, Sn. split; [reflexivity|exact Hvi].
        -- intros _. congruence.
        -- apply dl_same; [congruence|congruence|congruence|right; exact Hltt].
        -- left. congruence.
      * (* something else: the token is given up *)
        rewrite Hc1 in Hc. rewrite Hc.
        split; [exact I|]. split; [congruence|]. split.
        { exists false. split; [constructor|]. intros C. destruct (asks_nil C). }
        apply VeGiveUp; try reflexivity.
        -- rewrite Es'. reflexivity.
        -- destruct (w_tx w') as [wire|] eqn:Etx; [|reflexivity]. exfalso.
           pose proof (poll_transmissions A ops _ _ _ _ _ _ _ _ _ E eq_refl) as Hcl. cbn [w_calls] in Hcl. rewrite Hc in Hcl.
           destruct Hcl as [(cs & i & hp & er & Hcs & _)|(_ & [Htok|[Hgap|Hrep]])].
           ++ destruct cs; discriminate Hcs.
           ++ destruct Htok as (da & _ & [(_ & [(E1 & _)|(E1 & _)])|([E1|(att & E1)] & _)]); rewrite E1 in Es'; discriminate Es'.
           ++ destruct Hgap as (a0 & _ & _ & _ & _ & _ & [(E1 & _)|(E1 & _)]); rewrite E1 in Es'; discriminate Es'.
           ++ destruct Hrep as (src & st & _ & [(cc & E1 & _)|(nps & cc & E1 & _)]); rewrite E1 in Es; discriminate Es.
        -- congruence.
        -- rewrite Es. reflexivity.
      * (* still waiting *)
        rewrite Hc1 in Hc. rewrite Hc.
        split; [exact I|]. split; [congruence|]. split.
        { exists false. split; [constructor|]. intros C. destruct (asks_nil C). }
        change (mcalls n c []) with c. apply VeKeep.
        -- rewrite Es', Ss, Es. reflexivity.
        -- unfold inv_st. rewrite Es', Ss, Es, Kn, Sn. split; assumption.
        -- intros C. destruct (asks_nil C).
        -- intros _. rewrite Es', Ss, Es. reflexivity.
        -- intros _. congruence.
        -- apply dl_same; [congruence|congruence|congruence|right; exact Hltt].
        -- left. congruence.
      * (* slot time expired: time-out callback, then do_use_token *)
        set (c1 := cpost n c (HCall (CallHandleTimeout (f_next_app f) a))).
        assert (Hpre : cpre n (ts f) c (HCall (CallHandleTimeout (f_next_app f) a))).
        { cbn. rewrite Hk, Es. cbn. split; [reflexivity|]. split; [exact Hout|symmetry; exact Hturn]. }
        (* the same branch, with what the world looks like before do_use_token *)
        destruct (await_timeout_start _ _ _ _ _ Hd0) as [Hno|(a2 & tk2 & fa2 & f4 & w4 & Es2 & Ht4 & Hc4 & Hl4 & (K4p & K4n & K4l & K4e) & Hr4 & Hg4 & Es4 & Hdo4)].
        { exfalso. apply do_use_token_hold_rule in Hdo. destruct Hdo as (l2 & hp2 & Hl2 & _).
          apply (Hno (f_next_app f) a). exists l2. rewrite Hl2, Hc3, <- app_assoc. reflexivity. }
        rewrite Es1 in Es2. injection Es2 as <- <- <-. rewrite ?Sn in *.
        edestruct (Huse f4 w4 c1 [CallHandleTimeout (f_next_app f) a] fa true Hdo4 Es4) as (l & -> & Hacc & Hp' & Hprio & Hend);
          try exact I; try reflexivity; try congruence.
        { rewrite Hc4, Hc1. reflexivity. }
        { intros (i & hp & r & [C|[]]). discriminate C. }
        { unfold c1. cbn. congruence. }
        { unfold inv_st, c1. rewrite Es4, K4n, ?Sn. cbn. split; [reflexivity|exact Hvi]. }
        { unfold keepf. split; [congruence|]. split; [congruence|]. split; congruence. }
        { apply dl_same; [congruence|congruence|congruence|right; congruence]. }
        change (mcalls n c (CallHandleTimeout (f_next_app f) a :: l)) with (mcalls n c1 l).
        split; [split; [exact Hpre|exact Hacc]|]. split; [exact Hp'|]. split; [|exact Hend].
        destruct Hprio as (hp & Hprio & Hrule). exists hp. split; [constructor; [exact I|exact Hprio]|exact Hrule].
Qed.

End VisitPoll.
