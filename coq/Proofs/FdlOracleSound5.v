(* FDL oracle soundness: the rule groups of C13 (token hold time) and C15 (application contract, routing, round
   robin), by an invariant between the station, the ghost monitor of Proofs/C15Proofs.v and the executable monitors. *)
From Coq Require Import Arith.
From PB Require Import Common Tables FdlTables Telegram Phy TokenRing Params Fdl FdlOracle FdlProofs FdlStepProofs.
From PB Require Import C05Proofs C01Proofs C11Proofs C15Proofs C13Proofs C12Proofs.
From PB Require Import FdlOracleSound1 FdlOracleSound2 FdlOracleSound3 FdlOracleSound4.

Section Folds.
Variable p : params.
Variable n : nat.

Lemma kind_in_visit k : kind_in k [KUseToken; KAwaitDataResponse] = in_visit k.
Proof. destruct k; reflexivity. Qed.

Lemma mon_calls_ok (k0 : state_kind) (now : Z) (rounds0 : nat) (txo : option bytes) :
  forall calls c m1 e0,
  acalls n (p_address p) c calls -> m_out m1 = c_out c -> c_kind c = k0 ->
  (forall i hp r, In (CallTransmit i hp r) calls ->
     if hp then rounds0 = 0%nat else now < m_prev_tt m1 + token_rotation_time p) ->
  let r := fold_left (mon_call p n k0 now rounds0) (map (conv_call txo) calls) (m1, e0) in
  snd r = e0 /\ m_out (fst r) = c_out (mcalls n c calls).
Proof.
  induction calls as [|x calls IH]; intros c m1 e0 Hacc Hout Hk Hprio; [split; [reflexivity|exact Hout]|].
  cbn [map fold_left]. destruct Hacc as (Hpre & Hacc).
  change (mcalls n c (x :: calls)) with (mcalls n (cpost n c (HCall x)) calls).
  assert (Hk' : c_kind (cpost n c (HCall x)) = k0).
  { destruct x as [i hp [[wire [da|]]|]|i a t|i a]; cbn; exact Hk. }
  assert (Hprio' : forall m2, m_prev_tt m2 = m_prev_tt m1 -> forall i hp r, In (CallTransmit i hp r) calls ->
             if hp then rounds0 = 0%nat else now < m_prev_tt m2 + token_rotation_time p).
  { intros m2 E i hp r Hin. rewrite E. apply (Hprio i hp r). right. exact Hin. }
  destruct x as [i hp r|i a t|i a].
  - cbn in Hpre. destruct Hpre as (Hv & Ho & Hi & Hlt & Hd).
    pose proof (Hprio i hp r (or_introl eq_refl)) as Hp0.
    cbn [conv_call mon_call].
    assert (He1 : check (kind_in k0 [KUseToken; KAwaitDataResponse]) R15_transmit_without_token = []).
    { rewrite kind_in_visit, <- Hk, Hv. reflexivity. }
    assert (He2 : check (match m_out m1 with None => true | Some _ => false end) R15_transmit_while_outstanding = []).
    { rewrite Hout, Ho. reflexivity. }
    assert (He4 : (if hp then check (Nat.eqb rounds0 0) R13_second_cycle_after_hold_time ++ check (Nat.eqb rounds0 0) R15_cycle_after_hold_time
                   else check (now <? m_prev_tt m1 + token_rotation_time p) R13_low_prio_after_hold_time) = []).
    { destruct hp; [rewrite Hp0; reflexivity|]. replace (now <? _) with true by (symmetry; apply Z.ltb_lt; exact Hp0). reflexivity. }
    destruct r as [[wire [da|]]|]; cbn [conv_call];
      match goal with |- context [fold_left ?F ?L (?M, ?E)] =>
        replace E with e0 by (rewrite He1, He2, He4, !app_nil_r; reflexivity) end;
      (apply IH; [exact Hacc| |exact Hk'|apply Hprio'; reflexivity]); cbn; congruence.
  - cbn in Hpre. destruct Hpre as (Hkk & Ho & Hi & Hrep).
    cbn [conv_call mon_call].
    assert (He1 : check (match m_out m1 with Some (j, b) => Nat.eqb i j && (a =? b) | None => false end) R15_reply_not_requested = []).
    { rewrite Hout, Ho, Nat.eqb_refl, Z.eqb_refl. reflexivity. }
    assert (He2 : check (match t with
                         | TShortConf => true
                         | TData h _ => (h_sa h =? a) && (h_da h =? p_address p) &&
                                        match h_fc h with FcResponse _ _ => true | _ => false end
                         | TToken _ _ => false
                         end) R15_reply_invalid = []).
    { destruct Hrep as [-> |(h & pdu & st & s & -> & Hfc & Hsa & Hda)]; [reflexivity|].
      rewrite Hfc, Hsa, Hda, !Z.eqb_refl. reflexivity. }
    match goal with |- context [fold_left ?F ?L (?M, ?E)] =>
      replace E with e0 by (rewrite He1, He2, !app_nil_r; reflexivity) end.
    apply IH; [exact Hacc|reflexivity|exact Hk'|apply Hprio'; reflexivity].
  - cbn in Hpre. destruct Hpre as (Hkk & Ho & Hi).
    cbn [conv_call mon_call].
    assert (He1 : check (match m_out m1 with Some (j, b) => Nat.eqb i j && (a =? b) | None => false end) R15_timeout_not_requested = []).
    { rewrite Hout, Ho, Nat.eqb_refl, Z.eqb_refl. reflexivity. }
    match goal with |- context [fold_left ?F ?L (?M, ?E)] =>
      replace E with e0 by (rewrite He1, !app_nil_r; reflexivity) end.
    apply IH; [exact Hacc|reflexivity|exact Hk'|apply Hprio'; reflexivity].
Qed.

Lemma rr_calls_ok (txo : option bytes) : forall calls c t0 d0 e0,
  acalls n (p_address p) c calls -> t0 = c_turn c -> d0 = c_decl c ->
  fold_left (y_rr_step n) (map (conv_call txo) calls) (t0, d0, e0) =
  (c_turn (mcalls n c calls), c_decl (mcalls n c calls), e0).
Proof.
  induction calls as [|x calls IH]; intros c t0 d0 e0 Hacc Ht Hd; [subst; reflexivity|].
  cbn [map fold_left]. destruct Hacc as (Hpre & Hacc).
  change (mcalls n c (x :: calls)) with (mcalls n (cpost n c (HCall x)) calls).
  destruct x as [i hp r|i a t|i a].
  - cbn in Hpre. destruct Hpre as (Hv & Ho & Hi & Hlt & Hdl). subst t0 d0.
    assert (He : check (Nat.eqb i (c_turn c) && Nat.ltb i n) R15_round_robin ++ check (Nat.ltb (c_decl c) n) R15_asked_after_all_declined = []).
    { rewrite Hi, Nat.eqb_refl. replace (Nat.ltb (c_turn c) n) with true by (symmetry; apply Nat.ltb_lt; lia).
      replace (Nat.ltb (c_decl c) n) with true by (symmetry; apply Nat.ltb_lt; exact Hdl). reflexivity. }
    destruct r as [[wire [da|]]|]; cbn [conv_call y_rr_step]; rewrite He, app_nil_r; apply IH; try exact Hacc; reflexivity.
  - cbn in Hpre. destruct Hpre as (_ & _ & Hi & _). subst t0 d0. cbn [conv_call y_rr_step].
    rewrite Hi, Nat.eqb_refl. cbn [check]. rewrite app_nil_r. apply IH; try exact Hacc; reflexivity.
  - cbn in Hpre. destruct Hpre as (_ & _ & Hi). subst t0 d0. cbn [conv_call y_rr_step].
    rewrite Hi, Nat.eqb_refl. cbn [check]. rewrite app_nil_r. apply IH; try exact Hacc; reflexivity.
Qed.

Lemma e13_ok (g : mon2) (now : Z) (txo : option bytes) : forall calls,
  (forall i hp r, In (CallTransmit i hp r) calls -> if hp then h_end g <= now else now < h_end g) ->
  flat_map (fun c => match c with
                     | CallTransmit _ hp _ =>
                         if hp then check (h_end g <=? now) R13_high_prio_inside_hold_time
                         else check (now <? h_end g) R13_low_prio_after_hold_time
                     | _ => []
                     end) (map (conv_call txo) calls) = [].
Proof.
  induction calls as [|x calls IH]; intros H; [reflexivity|]. cbn [map flat_map].
  rewrite IH by (intros i hp r Hin; apply (H i hp r); right; exact Hin). rewrite app_nil_r.
  destruct x as [i hp r|i a t|i a]; [|reflexivity|reflexivity].
  pose proof (H i hp r (or_introl eq_refl)) as H0.
  destruct r as [[wire er]|]; cbn [conv_call]; destruct hp;
    [replace (h_end g <=? now) with true by (symmetry; apply Z.leb_le; exact H0)|
     replace (now <? h_end g) with true by (symmetry; apply Z.ltb_lt; exact H0)|
     replace (h_end g <=? now) with true by (symmetry; apply Z.leb_le; exact H0)|
     replace (now <? h_end g) with true by (symmetry; apply Z.ltb_lt; exact H0)]; reflexivity.
Qed.

End Folds.

Section Quiet.
Variable A : Type.
Variable ops : app_ops A.

Lemma quiet_poll_facts f now pin (apps : list A) f' o apps' calls :
  poll ops f now pin apps = Ok (f', o, apps', calls) -> visit_tk (f_state f) = None ->
  calls = [] /\ f_p f' = f_p f /\
  (is_reset f' \/
   (keepf f f' /\ (f_state f' = Offline -> f_state f = Offline) /\
    (forall tk, visit_tk (f_state f') = Some tk -> f_state f' = UseToken now None false))).
Proof.
  intros E Hn. pose proof (visit_tk_none _ Hn) as Hv.
  destruct (poll_state_cases A ops _ _ _ _ _ _ _ _ E) as [(-> & Hp & Hq)|(tk & [(fa & fcd & Es)|(a & fa & Es)] & _)];
    try (rewrite Es in Hn; discriminate Hn).
  split; [reflexivity|]. split; [exact Hp|].
  destruct Hq as [R|(K & s3 & Hpro & Hqs & _)]; [left; exact R|right]. split; [exact K|].
  assert (Hs3 : in_visit (kind_of s3) = false).
  { destruct Hpro as [-> |(_ & [-> | ->])]; [exact Hv|reflexivity|reflexivity]. }
  split.
  - intros Es'. rewrite Es' in Hqs. cbn in Hqs. subst s3.
    destruct Hpro as [E1|(_ & [E1|E1])]; [symmetry; exact E1|discriminate E1|discriminate E1].
  - intros tk Htk. destruct (f_state f') as [ | | | |tk0 fa fcd| |a tk0 fa| | | ]; cbn in Htk; try discriminate Htk; cbn in Hqs.
    + destruct Hqs as [E1|E1]; [rewrite <- E1 in Hs3; discriminate Hs3|exact E1].
    + rewrite <- Hqs in Hs3. discriminate Hs3.
Qed.

End Quiet.

Section S5.
Variable A : Type.
Variable ops : app_ops A.
Variable p : params.
Variable n : nat.
Hypothesis Happs : apps_total A ops.
Hypothesis Hbv : builder_valid p.
(* the FdlApplication contract as far as the monitors depend on it: what an application hands to the PHY
   is a data telegram (TelegramTx::send_data_telegram) - not a token *)
Definition app_sends_data : Prop :=
  forall a now q hp a' wire er, a_tx ops a now q hp = Ok (a', Some (wire, er)) ->
    exists h pdu, decode_one wire = Some (TData h pdu).
Hypothesis Hdata : app_sends_data.

Record VI (f : fdl) (tl : Z) (m : mon) (g : mon2) (c : cst) : Prop := mkVI {
  v_inv : Inv n f c;
  v_out : m_out m = c_out c;
  v_turn : FdlOracle.r_turn g = c_turn c;
  v_decl : FdlOracle.r_decl g = c_decl c;
  v_ltt : f_last_token_time f <= tl;
  v_off : f_state f = Offline -> f_last_token_time f = 0;
  v_vis : match visit_tk (f_state f) with
          | Some tk => m_tt m = tk /\ tk <= tl /\ h_end g = dl f tk /\ dl f tk <= m_prev_tt m + token_rotation_time p /\
                       (m_rounds m <> 0%nat -> fcd_of (f_state f) = true) /\
                       (kind_of (f_state f) = KAwaitDataResponse -> f_last_token_time f = tk)
          | None => m_tt m = f_last_token_time f
          end
}.

Lemma new_visit_xy m s : x_new_visit p m s = y_new_visit p m s.
Proof.
  unfold x_new_visit, y_new_visit, x_self_pass, y_self_pass, x_token_tx, y_token_tx. change (y_txt s) with (x_txt s).
  destruct (x_txt s) as [[h pdu|da sa|]|]; try reflexivity. change (y_ts p) with (x_ts p). destruct (sa =? x_ts p); [rewrite andb_true_r|rewrite andb_false_r]; reflexivity.
Qed.

Lemma m_out_x_m3 m s : m_out (x_m3 p n m s) = x_out p n m s.
Proof. unfold x_m3. destruct (x_new_visit p m s); [reflexivity|]. destruct (state_kind_eqb _ _); reflexivity. Qed.
Lemma m_tt_x_m3 m s : m_tt (x_m3 p n m s) =
  if y_new_visit p m s then x_now s else if state_kind_eqb (x_k1 s) KOffline then 0 else m_tt m.
Proof. rewrite <- new_visit_xy. unfold x_m3. destruct (x_new_visit p m s); [reflexivity|]. destruct (state_kind_eqb _ _); reflexivity. Qed.
Lemma m_prev_tt_x_m3 m s : m_prev_tt (x_m3 p n m s) =
  if y_new_visit p m s then m_tt m else if state_kind_eqb (x_k1 s) KOffline then 0 else m_prev_tt m.
Proof. rewrite <- new_visit_xy. unfold x_m3. destruct (x_new_visit p m s); [reflexivity|]. destruct (state_kind_eqb _ _); reflexivity. Qed.
Lemma m_rounds_x_m3 m s : m_rounds (x_m3 p n m s) =
  if y_new_visit p m s then 0%nat else if state_kind_eqb (x_k1 s) KOffline then 0%nat else x_rounds m s.
Proof. rewrite <- new_visit_xy. unfold x_m3. destruct (x_new_visit p m s); [reflexivity|]. destruct (state_kind_eqb _ _); reflexivity. Qed.

Lemma gap_reserve_view f : f_p f = p ->
  gap_reserve f = if v_gap_due (view_of f) then p_bits_to_time p (p_slot_bits p + prop_gap_reserve_extra_bits) else 0.
Proof. intros Hp. unfold gap_reserve, view_of. cbn [v_gap_due]. rewrite Hp. destruct (f_gap f); reflexivity. Qed.

Lemma gap_reserve_nonneg f : f_p f = p -> 0 <= gap_reserve f.
Proof.
  intros Hp. unfold gap_reserve. rewrite Hp. destruct (f_gap f); [lia|].
  unfold p_bits_to_time. apply btt_nonneg. pose proof (bv_ranges _ Hbv). unfold gap_reserve_extra_bits. lia.
Qed.

(* the visit that begins in this poll: what the monitors note, against the station *)
Lemma fresh_visit_vis f' m g s now :
  f_p f' = p -> f_state f' = UseToken now None false -> f_last_token_time f' < now ->
  s_view s = view_of f' -> x_now s = now -> y_new_visit p m s = true ->
  m_tt m = f_last_token_time f' ->
  match visit_tk (f_state f') with
  | Some tk => m_tt (x_m3 p n m s) = tk /\ tk <= now /\ h_end (y_g' p n m g s) = dl f' tk /\
               dl f' tk <= m_prev_tt (x_m3 p n m s) + token_rotation_time p /\
               (m_rounds (x_m3 p n m s) <> 0%nat -> fcd_of (f_state f') = true) /\
               (kind_of (f_state f') = KAwaitDataResponse -> f_last_token_time f' = tk)
  | None => m_tt (x_m3 p n m s) = f_last_token_time f'
  end.
Proof.
  intros Hp Es Hlt Hv Hn1 Hnv2 Htt. rewrite Es. cbn [visit_tk].
  rewrite m_tt_x_m3, m_prev_tt_x_m3, m_rounds_x_m3, Hnv2, Hn1.
  assert (Hdl : dl f' now = f_last_token_time f' + token_rotation_time p - gap_reserve f').
  { unfold dl. destruct (Z.eqb_spec (f_last_token_time f') now) as [C|_]; [lia|]. rewrite Hp. reflexivity. }
  split; [reflexivity|]. split; [lia|]. split.
  { cbn [y_g' h_end]. unfold y_hend. rewrite Hnv2. unfold y_post. rewrite Hv, <- (gap_reserve_view f' Hp), Htt. symmetry. exact Hdl. }
  split; [rewrite Hdl, Htt; pose proof (gap_reserve_nonneg f' Hp); lia|].
  split; [intros C; contradiction C; reflexivity|]. intros C. discriminate C.
Qed.

(* one poll, for C13 and C15: their rule groups are silent and the invariant VI holds afterwards *)
Definition step1315 (m : mon) (g : mon2) (s : pstep) (f' : fdl) (now : Z) (c' : cst) : Prop :=
  snd (x_fold p n m s) = [] /\ x_e15 p n m s = [] /\ y_e13 g s = [] /\ y_e_rr n g s = [] /\ y_e_end p n m g s = [] /\
  VI f' now (x_m3 p n m s) (y_g' p n m g s) c'.

Lemma poll_inv_after f apps now pin f' o apps' calls c :
  Inv (length apps) f c -> poll ops f now pin apps = Ok (f', o, apps', calls) ->
  cpre (length apps) (ts f) (mcalls (length apps) c calls) (HEnd now f') /\
  Inv (length apps) f' (cpost (length apps) (mcalls (length apps) c calls) (HEnd now f')).
Proof.
  intros HI E.
  assert (Es : step A ops f apps (EvPoll A now pin) = Ok (f', apps', map HCall calls ++ [HEnd now f'])).
  { cbn [step]. rewrite E. reflexivity. }
  destruct (step_preserves A ops _ _ _ _ _ _ c HI Es) as (Hacc & Hinv & _).
  unfold accepted in Hacc. apply accepts_app in Hacc. destruct Hacc as (_ & (Hpre & _)).
  unfold after in Hinv. rewrite posts_app in Hinv. split; [exact Hpre|exact Hinv].
Qed.

(* the end of a poll: what the monitors keep of the callbacks (the outstanding request, the turn, the declines)
   is what the ghost monitor keeps at HEnd; the side condition relates "passed the token to itself" (a token
   TS -> TS on the wire) to "in the first state of a visit" *)
Lemma end_of_poll tsa m g s c1 f' now :
  s_view s = view_of f' ->
  m_out (fst (x_fold p n m s)) = c_out c1 -> y_rr n g s = (c_turn c1, c_decl c1, []) -> c_kind c1 = y_k0 m ->
  cpre n tsa c1 (HEnd now f') ->
  (in_visit (y_k0 m) = true -> in_visit (kind_of (f_state f')) = true ->
   if y_self_pass p m s then fresh_visit (f_state f') = true else fresh_visit (f_state f') = true -> c_decl c1 = 0%nat) ->
  x_e15 p n m s = [] /\ y_e_rr n g s = [] /\
  m_out (x_m3 p n m s) = c_out (cpost n c1 (HEnd now f')) /\
  FdlOracle.r_turn (y_g' p n m g s) = c_turn (cpost n c1 (HEnd now f')) /\
  FdlOracle.r_decl (y_g' p n m g s) = c_decl (cpost n c1 (HEnd now f')).
Proof.
  intros Hv Hout Hrr Hck (Hpre & _) Hself.
  assert (Hk1 : x_k1 s = kind_of (f_state f')) by (unfold x_k1, x_post; rewrite Hv; reflexivity).
  split; [|split; [unfold y_e_rr; rewrite Hrr; reflexivity|split; [|split]]].
  - unfold x_e15. rewrite Hk1, Hout. destruct (kind_of (f_state f')); try reflexivity.
    destruct (c_out c1); [reflexivity|]. contradiction (Hpre eq_refl). reflexivity.
  - rewrite m_out_x_m3. unfold x_out. rewrite Hk1, Hout. cbn [cpost c_out]. destruct (kind_of (f_state f')); reflexivity.
  - cbn [y_g' FdlOracle.r_turn cpost c_turn]. unfold y_turn2, y_turn1. rewrite Hrr. change (y_k1 s) with (x_k1 s).
    rewrite Hk1. destruct (kind_of (f_state f')); reflexivity.
  - cbn [y_g' FdlOracle.r_decl cpost c_decl]. unfold y_decl2, y_decl1, y_in_vis. rewrite Hrr. change (y_k1 s) with (x_k1 s).
    rewrite Hk1, !kind_in_visit, Hck. cbn [fst snd].
    destruct (in_visit (kind_of (f_state f'))); [|reflexivity]. destruct (in_visit (y_k0 m)); [|reflexivity].
    specialize (Hself eq_refl eq_refl). cbn [andb].
    destruct (y_self_pass p m s); [rewrite Hself; reflexivity|]. cbn [negb].
    destruct (fresh_visit (f_state f')); [exact (Hself eq_refl)|reflexivity].
Qed.

Lemma quiet_step f apps buf tl m g c now busy nb f' o apps' calls :
  Base A p n f apps buf tl m -> VI f tl m g c -> tl < now -> time_ok now ->
  poll ops f now (mkPhyIn busy (buf ++ nb)) apps = Ok (f', o, apps', calls) -> visit_tk (f_state f) = None ->
  exists c', step1315 m g (poll_event now busy (buf ++ nb) f' o calls) f' now c'.
Proof.
  intros HB [Vinv Vout Vturn Vdecl Vltt Voff Vvis] Hlt Hnow E Hnv.
  pose proof (x_k0_base A p n _ _ _ _ _ HB) as Hk0.
  destruct HB as [R Hp Hn Hv Hl Hpd Hb Htl].
  destruct (quiet_poll_facts A ops _ _ _ _ _ _ _ _ E Hnv) as (-> & Hpp & Hq).
  rewrite <- Hn in Vinv. destruct (poll_inv_after _ _ _ _ _ _ _ _ c Vinv E) as (Hpre & Hinv'). rewrite Hn in *.
  change (mcalls n c []) with c in *.
  set (s := poll_event now busy (buf ++ nb) f' o []) in *.
  exists (cpost n c (HEnd now f')).
  assert (Hk0v : in_visit (kind_of (f_state f)) = false) by (apply visit_tk_none; exact Hnv).
  assert (Hk1 : x_k1 s = kind_of (f_state f')) by reflexivity.
  assert (Hyk0 : y_k0 m = kind_of (f_state f)) by exact Hk0.
  destruct (end_of_poll (ts f) m g s c f' now eq_refl Vout) as (H15 & Hrr & Fout & Fturn & Fdecl);
    [unfold y_rr; cbn; rewrite Vturn, Vdecl; reflexivity|rewrite Hyk0; apply Vinv|exact Hpre|rewrite Hyk0, Hk0v; discriminate|].
  assert (Hnvy : y_new_visit p m s = state_kind_eqb (kind_of (f_state f')) KUseToken).
  { unfold y_new_visit. change (y_k1 s) with (kind_of (f_state f')). rewrite Hyk0, kind_in_visit, Hk0v. cbn [negb orb]. apply andb_true_r. }
  split; [reflexivity|]. split; [exact H15|]. split; [reflexivity|]. split; [exact Hrr|].
  split; [unfold y_e_end, y_in_vis; rewrite Hyk0, kind_in_visit, Hk0v; reflexivity|].
  assert (Hoff' : f_state f' = Offline -> f_last_token_time f' = 0).
  { intros Es'. destruct Hq as [(_ & _ & _ & L & _)|((_ & _ & Kl & _) & Ho & _)]; [exact L|]. rewrite Kl. exact (Voff (Ho Es')). }
  rewrite Hnv in Vvis.
  constructor; [exact Hinv'|exact Fout|exact Fturn|exact Fdecl| |exact Hoff'|].
  - destruct Hq as [(_ & _ & _ & L & _)|((_ & _ & Kl & _) & _)]; [rewrite L; unfold time_ok in Hnow|]; lia.
  - destruct (visit_tk (f_state f')) as [tk'|] eqn:Etk'.
    + (* a visit begins: the token was accepted in this poll *)
      destruct Hq as [(S1 & _)|((Kp & Kn & Kl & Ke) & _ & Hfr)]; [rewrite S1 in Etk'; discriminate Etk'|].
      pose proof (Hfr _ eq_refl) as Es'. rewrite Es' in Etk'. cbn in Etk'. injection Etk' as <-.
      pose proof (fresh_visit_vis f' m g s now ltac:(congruence) Es' ltac:(rewrite Kl; lia) eq_refl eq_refl
                    ltac:(rewrite Hnvy, Es'; reflexivity) ltac:(congruence)) as Hfv.
      rewrite Es' in Hfv. cbn [visit_tk] in Hfv. rewrite Es'. exact Hfv.
    + rewrite m_tt_x_m3, Hnvy, Hk1.
      assert (Hku : state_kind_eqb (kind_of (f_state f')) KUseToken = false).
      { destruct (f_state f'); cbn in Etk'; try discriminate Etk'; reflexivity. }
      rewrite Hku. destruct (state_kind_eqb (kind_of (f_state f')) KOffline) eqn:Eo.
      * symmetry. apply Hoff'. destruct (f_state f'); try discriminate Eo; reflexivity.
      * destruct Hq as [(S1 & _)|((_ & _ & Kl & _) & _)]; [rewrite S1 in Eo; discriminate Eo|]. congruence.
Qed.

Lemma x_txt_tx s w : s_tx s = Some w -> x_txt s = decode_one w.
Proof. unfold x_txt. intros ->. reflexivity. Qed.
Lemma y_txt_tx s w : s_tx s = Some w -> y_txt s = decode_one w.
Proof. unfold y_txt. intros ->. reflexivity. Qed.

Lemma app_wire_is_data f now pin (apps : list A) f' o apps' calls cs i hp wire er :
  poll ops f now pin apps = Ok (f', o, apps', calls) -> calls = cs ++ [CallTransmit i hp (Some (wire, er))] ->
  exists h pdu, decode_one wire = Some (TData h pdu).
Proof.
  intros E Hc. pose proof (poll_results A ops _ _ _ _ _ _ _ _ E) as Hr. rewrite Hc in Hr.
  apply Forall_app in Hr. destruct Hr as (_ & Hr). inversion Hr as [|? ? H1 _]. subst.
  destruct (H1 i hp (Some (wire, er)) eq_refl) as (a & now' & q & a' & Ea). exact (Hdata _ _ _ _ _ _ _ Ea).
Qed.

Lemma x_asked_asks s txo calls : s_calls s = map (conv_call txo) calls -> x_asked s = true -> asks calls.
Proof.
  unfold x_asked. intros -> H.
  assert (He : existsb (fun c => match c with CallTransmit _ _ _ => true | _ => false end) (map (conv_call txo) calls) = true)
    by (destruct calls; [discriminate H|exact H]).
  apply existsb_exists in He. destruct He as (x & Hin & Hx). apply in_map_iff in Hin. destruct Hin as (y & <- & Hin).
  destruct y as [i hp r| |]; try discriminate Hx. exists i, hp, r. exact Hin.
Qed.

Lemma e_end_not_passed m g s fa next :
  in_visit (y_k0 m) = true -> y_passed p m s = false -> visit_inv n fa next (y_decl1 n g s) -> y_e_end p n m g s = [].
Proof.
  intros Hv Hps Hvi. unfold y_e_end, y_in_vis. rewrite kind_in_visit, Hv, Hps.
  destruct (Nat.ltb 0 n && Nat.eqb (y_decl1 n g s) n) eqn:Ed; [|reflexivity]. exfalso.
  apply andb_prop in Ed. destruct Ed as (Ed1 & Ed2). apply Nat.ltb_lt in Ed1. apply Nat.eqb_eq in Ed2.
  exact (visit_inv_not_all n _ _ _ Ed1 Hvi Ed2).
Qed.

Lemma visit_step_ok f apps buf tl m g c now busy nb f' o apps' calls tk :
  Base A p n f apps buf tl m -> VI f tl m g c -> tl < now -> time_ok now ->
  poll ops f now (mkPhyIn busy (buf ++ nb)) apps = Ok (f', o, apps', calls) -> visit_tk (f_state f) = Some tk ->
  exists c', step1315 m g (poll_event now busy (buf ++ nb) f' o calls) f' now c'.
Proof.
  intros HB [Vinv Vout Vturn Vdecl Vltt Voff Vvis] Hlt Hnow E Htk.
  pose proof (x_k0_base A p n _ _ _ _ _ HB) as Hk0.
  destruct HB as [R Hp Hn Hv Hl Hpd Hb Htl].
  rewrite Htk in Vvis. destruct Vvis as (Vtt & Vtkl & Vhe & Vdl & Vr & Vaw).
  rewrite <- Hn in Vinv.
  destruct (visit_poll_facts A ops (length apps) _ _ _ _ _ _ _ _ c tk E R eq_refl Vinv Htk Vaw)
    as (Hacc & Hpp & (hp & Hprio & Hask) & Hend).
  destruct (poll_inv_after _ _ _ _ _ _ _ _ c Vinv E) as (Hpre & Hinv').
  rewrite Hn in *.
  set (c1 := mcalls n c calls) in *.
  set (s := poll_event now busy (buf ++ nb) f' o calls) in *.
  assert (Hts : ts f = p_address p) by (unfold ts; rewrite Hp; reflexivity).
  assert (Hk0v : in_visit (kind_of (f_state f)) = true) by (eapply visit_tk_in_visit; exact Htk).
  assert (Hck : c_kind c = kind_of (f_state f)) by (destruct Vinv as (H1 & _); exact H1).
  assert (Hk1 : x_k1 s = kind_of (f_state f')) by reflexivity.
  assert (Hyk0 : y_k0 m = kind_of (f_state f)) by exact Hk0.
  assert (Hyk1 : y_k1 s = kind_of (f_state f')) by reflexivity.
  assert (Hcalls : s_calls s = map (conv_call (tx o)) calls) by reflexivity.
  (* the priority class of the calls, against the deadline of the visit as the monitors know it *)
  assert (PF : forall i hp' r, In (CallTransmit i hp' r) calls ->
            (if hp' then m_rounds m = 0%nat else now < m_prev_tt m + token_rotation_time p) /\
            (if hp' then h_end g <= now else now < h_end g)).
  { intros i hp' r Hin.
    assert (Hhp : hp' = hp) by (rewrite Forall_forall in Hprio; exact (Hprio _ Hin)). subst hp'.
    destruct (Hask (ex_intro _ i (ex_intro _ hp (ex_intro _ r Hin)))) as (H1 & H2 & H3).
    destruct hp.
    - destruct H1 as (Hfcd & Hle). split; [|lia].
      destruct (Nat.eq_dec (m_rounds m) 0) as [E0|E0]; [exact E0|]. rewrite (Vr E0) in Hfcd. discriminate Hfcd.
    - split; lia. }
  (* first monitor: the fold over the calls *)
  assert (Hfold : snd (x_fold p n m s) = [] /\ m_out (fst (x_fold p n m s)) = c_out c1).
  { unfold x_fold. rewrite Hcalls, Hk0.
    apply (mon_calls_ok p n (kind_of (f_state f)) (x_now s) (m_rounds m) (tx o) calls c (x_m1 p m s) []).
    - rewrite <- Hts. exact Hacc.
    - exact Vout.
    - exact Hck.
    - intros i hp' r Hin. exact (proj1 (PF i hp' r Hin)). }
  destruct Hfold as (Hf1 & Hf2).
  (* second monitor: round robin *)
  assert (Hrr : y_rr n g s = (c_turn c1, c_decl c1, [])).
  { unfold y_rr. rewrite Hcalls. apply (rr_calls_ok p n (tx o) calls c); [rewrite <- Hts; exact Hacc|exact Vturn|exact Vdecl]. }
  assert (Hdecl1 : y_decl1 n g s = c_decl c1) by (unfold y_decl1; rewrite Hrr; reflexivity).
  assert (He13 : y_e13 g s = []).
  { unfold y_e13. rewrite Hcalls. apply e13_ok. intros i hp' r Hin. exact (proj2 (PF i hp' r Hin)). }
  assert (Hck1 : c_kind c1 = y_k0 m) by (unfold c1; rewrite mcalls_kind, Hyk0; exact Hck).
  pose proof (end_of_poll (ts f) m g s c1 f' now eq_refl Hf2 Hrr Hck1 Hpre) as Hfin. rewrite Hyk0, Hk0v in Hfin.
  exists (cpost n c1 (HEnd now f')).
  unfold step1315.
  split; [exact Hf1|].
  (* what the end of the poll looks like, case by case *)
  destruct Hend as [Htk' Hi' Hfcd1 Hfcd2 Haw' Hdl' Hltt'|Hde' Hl' He' Hpass|Hk' Hc0 Htx0 Hl' Hkf].
  - (* the visit goes on *)
    assert (Hv' : in_visit (kind_of (f_state f')) = true) by (eapply visit_tk_in_visit; exact Htk').
    assert (Htx2 : y_token_tx p s = None).
    { destruct (tx o) as [wire|] eqn:Etx.
      - destruct (visit_tx_is_app A ops _ _ _ _ _ _ _ _ tk E Hk0v ltac:(lia) Htk' ltac:(rewrite Etx; discriminate))
          as (cs & i & hp0 & wire' & er & Hcs & Hw). rewrite Etx in Hw. injection Hw as <-.
        destruct (app_wire_is_data _ _ _ _ _ _ _ _ _ _ _ _ _ E Hcs) as (h & pdu & Hdec).
        unfold y_token_tx. rewrite (y_txt_tx s wire), Hdec by (cbn; exact Etx). reflexivity.
      - unfold y_token_tx, y_txt. cbn [s_tx s poll_event]. rewrite Etx. reflexivity. }
    assert (Hsp2 : y_self_pass p m s = false) by (unfold y_self_pass; rewrite Htx2; apply andb_false_r).
    assert (Hnv2 : y_new_visit p m s = false).
    { unfold y_new_visit. rewrite Hyk0, kind_in_visit, Hk0v, Hsp2. apply andb_false_r. }
    assert (Hnoff : state_kind_eqb (kind_of (f_state f')) KOffline = false).
    { destruct (f_state f'); cbn in Hv'; try discriminate Hv'; reflexivity. }
    assert (Hpassed : y_passed p m s = false).
    { unfold y_passed. rewrite Hyk1, Hsp2. destruct (f_state f'); cbn in Hv'; try discriminate Hv'; reflexivity. }
    (* a visit in its first state has no declines yet *)
    assert (Hvi : exists fa, visit_inv n fa (f_next_app f') (c_decl c1) /\ (fresh_visit (f_state f') = true -> fa = None)).
    { unfold inv_st in Hi'. destruct (f_state f') as [ | | | |tk0 fa0 fcd0| |a0 tk0 fa0| | | ]; cbn in Hv'; try discriminate Hv';
        destruct Hi' as (_ & Hvi); exists fa0; (split; [exact Hvi|]); [destruct fa0, fcd0|]; discriminate || reflexivity. }
    destruct Hvi as (fa0 & Hvi & Hfr).
    destruct Hfin as (H15 & Herr & Fout & Fturn & Fdecl).
    { intros _ _. rewrite Hsp2. intros Efr. rewrite (Hfr Efr) in Hvi. exact Hvi. }
    split; [exact H15|]. split; [exact He13|]. split; [exact Herr|].
    split; [rewrite <- Hdecl1 in Hvi; rewrite <- Hyk0 in Hk0v; exact (e_end_not_passed _ _ _ _ _ Hk0v Hpassed Hvi)|].
    constructor; [exact Hinv'|exact Fout|exact Fturn|exact Fdecl| | |].
    + destruct Hltt' as [-> | ->]; lia.
    + intros Es'. rewrite Es' in Hv'. discriminate Hv'.
    + rewrite Htk'. rewrite m_tt_x_m3, m_prev_tt_x_m3, m_rounds_x_m3, Hnv2, Hk1, Hnoff.
      split; [exact Vtt|]. split; [lia|]. split.
      { cbn [y_g' h_end]. unfold y_hend. rewrite Hnv2, Hdl'. exact Vhe. }
      split; [rewrite Hdl'; exact Vdl|]. split; [|exact Haw'].
      unfold x_rounds. destruct (x_asked s) eqn:Ea; [intros _; exact (Hfcd1 (x_asked_asks _ _ _ Hcalls Ea))|intros Hr0; exact (Hfcd2 (Vr Hr0))].
  - (* the token is passed on in this poll *)
    assert (Hdeadline : Nat.eqb (c_decl c1) n || (h_end g <=? now) = true).
    { destruct Hde' as [Hd|Hd]; [rewrite Hd, Nat.eqb_refl; reflexivity|].
      replace (h_end g <=? now) with true by (symmetry; apply Z.leb_le; lia). apply orb_true_r. }
    assert (Hend_ok : y_passed p m s = true -> y_e_end p n m g s = []).
    { intros Hps. unfold y_e_end, y_in_vis. change (y_now s) with now. rewrite Hyk0, kind_in_visit, Hk0v, Hps, Hdecl1, Hdeadline.
      destruct (Nat.ltb 0 n && Nat.eqb (c_decl c1) n); reflexivity. }
    assert (Hcases : (in_visit (kind_of (f_state f')) = false /\ state_kind_eqb (kind_of (f_state f')) KUseToken = false /\
                      state_kind_eqb (kind_of (f_state f')) KOffline = false /\
                      kind_in (kind_of (f_state f')) [KPassToken; KAwaitStatusResponse; KCheckTokenPass] = true) \/
                     (f_state f' = UseToken now None false /\ tx o = Some (encode_token (ts f) (ts f)))).
    { destruct Hpass as [(_ & S')|[(a & S' & _)|(T & S')]].
      - left. rewrite S'. repeat split; reflexivity.
      - left. rewrite S'. repeat split; reflexivity.
      - destruct (Z.eqb_spec (r_ns (f_ring f)) (ts f)) as [En|En].
        + right. split; [exact S'|]. rewrite T, En. reflexivity.
        + left. rewrite S'. repeat split; reflexivity. }
    destruct Hcases as [(Hv' & Hnu & Hnoff & Hpk)|(Es' & Etx)].
    + (* to another station, or the GAP request, or the synchronisation pause *)
      assert (Hnv2 : y_new_visit p m s = false) by (unfold y_new_visit; rewrite Hyk1, Hnu; reflexivity).
      assert (Hps : y_passed p m s = true) by (unfold y_passed; rewrite Hyk1, Hpk; reflexivity).
      destruct Hfin as (H15 & Herr & Fout & Fturn & Fdecl); [rewrite Hv'; discriminate|].
      split; [exact H15|]. split; [exact He13|]. split; [exact Herr|]. split; [exact (Hend_ok Hps)|].
      assert (Hvt' : visit_tk (f_state f') = None) by (destruct (f_state f'); cbn in Hv'; try discriminate Hv'; reflexivity).
      constructor; [exact Hinv'|exact Fout|exact Fturn|exact Fdecl|lia| |].
      * intros Es'. rewrite Es' in Hnoff. discriminate Hnoff.
      * rewrite Hvt', m_tt_x_m3, Hnv2, Hk1, Hnoff. congruence.
    + (* to itself: the next visit begins *)
      assert (Hdec : decode_one (encode_token (ts f) (ts f)) = Some (TToken (ts f) (ts f))) by apply decode_one_token.
      assert (Hsp2 : y_self_pass p m s = true).
      { unfold y_self_pass, y_token_tx. rewrite (y_txt_tx s _ Etx), Hdec, Hyk0, kind_in_visit, Hk0v.
        unfold y_ts. rewrite <- Hts, !Z.eqb_refl. cbn. rewrite ?Z.eqb_refl. reflexivity. }
      assert (Hnv2 : y_new_visit p m s = true) by (unfold y_new_visit; rewrite Hyk1, Es', Hsp2; cbn; apply orb_true_r).
      assert (Hps : y_passed p m s = true) by (unfold y_passed; rewrite Hsp2; apply orb_true_r).
      destruct Hfin as (H15 & Herr & Fout & Fturn & Fdecl); [intros _ _; rewrite Hsp2, Es'; reflexivity|].
      split; [exact H15|]. split; [exact He13|]. split; [exact Herr|]. split; [exact (Hend_ok Hps)|].
      constructor; [exact Hinv'|exact Fout|exact Fturn|exact Fdecl|lia| |].
      * intros C. rewrite Es' in C. discriminate C.
      * exact (fresh_visit_vis f' m g s now ltac:(congruence) Es' ltac:(lia) eq_refl eq_refl Hnv2 ltac:(congruence)).
  - (* the station gives the token up: it received something that is not the reply *)
    subst calls. change (mcalls n c []) with c in c1. subst c1.
    assert (Htx2 : y_token_tx p s = None) by (unfold y_token_tx, y_txt; cbn [s_tx s poll_event]; rewrite Htx0; reflexivity).
    assert (Hsp2 : y_self_pass p m s = false) by (unfold y_self_pass; rewrite Htx2; apply andb_false_r).
    assert (Hnv2 : y_new_visit p m s = false) by (unfold y_new_visit; rewrite Hyk1, Hk'; reflexivity).
    assert (Hpassed : y_passed p m s = false) by (unfold y_passed; rewrite Hyk1, Hk', Hsp2; reflexivity).
    destruct Hfin as (H15 & Herr & Fout & Fturn & Fdecl); [rewrite Hk'; discriminate|].
    split; [exact H15|]. split; [exact He13|]. split; [exact Herr|].
    split.
    { destruct Vinv as (_ & _ & Hi). unfold inv_st in Hi. destruct (f_state f); try discriminate Hkf. destruct Hi as (_ & Hvi).
      rewrite <- Hdecl1 in Hvi. rewrite <- Hyk0 in Hk0v. exact (e_end_not_passed _ _ _ _ _ Hk0v Hpassed Hvi). }
    assert (Hvt' : visit_tk (f_state f') = None) by (destruct (f_state f'); try discriminate Hk'; reflexivity).
    constructor; [exact Hinv'|exact Fout|exact Fturn|exact Fdecl|lia| |].
    + intros Es'. rewrite Es' in Hk'. discriminate Hk'.
    + rewrite Hvt', m_tt_x_m3, Hnv2, Hk1, Hk'. cbn [state_kind_eqb]. rewrite Hl', (Vaw Hkf). exact Vtt.
Qed.

Lemma vi_api a f apps buf tl m g c f' :
  Base A p n f apps buf tl m -> VI f tl m g c -> api_result p a f = Ok f' ->
  exists c', VI f' tl (fst (mon_after_api a (view_of f') m g)) (snd (mon_after_api a (view_of f') m g)) c'.
Proof.
  intros HB [Vinv Vout Vturn Vdecl Vltt Voff Vvis] E.
  assert (Hnew : forall f1 v k, fdl_new p = Ok f1 -> VI f1 tl (mon_reset v k) mon2_reset cst_init).
  { intros f1 v k E1. pose proof (Inv_init n _ _ E1) as Hi.
    destruct (fdl_new_spec _ _ E1) as ((S1 & _ & _ & L1 & _) & _).
    constructor; try reflexivity; try exact Hi.
    - rewrite L1. exact (b_tl _ _ _ _ _ _ _ _ HB).
    - intros _. exact L1.
    - rewrite S1. cbn. symmetry. exact L1. }
  destruct a; cbn [api_result mon_after_api fst snd] in *.
  - exists cst_init. apply Hnew. exact E.
  - unfold set_online, set_state in E. injection E as <-. exists c. constructor; cbn; assumption.
  - unfold set_offline, set_state in E. rewrite (b_p _ _ _ _ _ _ _ _ HB) in E. exists cst_init. apply Hnew. exact E.
  - discriminate E.
Qed.

Definition J5 (f : fdl) (apps : list A) (buf : bytes) (tl : Z) (m : mon) (g : mon2) : Prop :=
  Base A p n f apps buf tl m /\ exists c, VI f tl m g c.

Lemma J5_poll f apps buf tl m g now busy nb f' o apps' calls :
  J5 f apps buf tl m g -> tl < now -> time_ok now -> all_bytes nb ->
  poll ops f now (mkPhyIn busy (buf ++ nb)) apps = Ok (f', o, apps', calls) ->
  (exists c', step1315 m g (poll_event now busy (buf ++ nb) f' o calls) f' now c') /\
  Base A p n f' apps' (rx_left o) now (fst (mon_poll p n m (poll_event now busy (buf ++ nb) f' o calls))).
Proof.
  intros (HB & c & HV) Hlt Hnow Hnb E. split.
  - destruct (visit_tk (f_state f)) as [tk|] eqn:Etk.
    + eapply visit_step_ok; eassumption.
    + eapply quiet_step; eassumption.
  - eapply base_poll; try eassumption. lia.
Qed.

End S5.

Section Theorems5.
Variable A : Type.
Variable ops : app_ops A.
Variable p : params.
Hypothesis Happs : apps_total A ops.
Hypothesis Hbv : builder_valid p.
Hypothesis Hdata : app_sends_data A ops.

Lemma J5_init n f0 apps : fdl_new p = Ok f0 -> length apps = n ->
  J5 A p n f0 apps [] 0 (mon_reset (view_of f0) 0) mon2_reset.
Proof.
  intros E Hn. split; [eapply base_init; eassumption|]. exists cst_init.
  pose proof (Inv_init n _ _ E) as Hi. destruct (fdl_new_spec _ _ E) as ((S1 & _ & _ & L1 & _) & _).
  constructor; try reflexivity; try exact Hi.
  - rewrite L1. lia.
  - intros _. exact L1.
  - rewrite S1. cbn. symmetry. exact L1.
Qed.

(* C13: no rule of C13 fires on a transcript of the model *)
Theorem c13_oracle_sound (apps : list A) (ins : list minput) :
  ins_ok 0 ins ->
  forall k r, In (k, r) (monitor p (length apps) (model_transcript A ops p apps ins)) -> rule_prop r <> PC13.
Proof.
  intros Hok.
  apply (generic_sound_transcript A ops p (length apps) (fun r => rule_prop r <> PC13) (J5 A p (length apps)) (fun _ => True));
    try assumption; try reflexivity.
  - discriminate.
  - intros a f apps0 buf tl m g f' (HB & c & HV) E _. split; [eapply base_api; eassumption|].
    eapply vi_api; eassumption.
  - intros f apps0 buf tl m g now busy nb f' o apps' calls HJ Hlt Hnow Hnb E _.
    destruct (J5_poll A ops p (length apps) Happs Hbv Hdata _ _ _ _ _ _ _ _ _ _ _ _ _ HJ Hlt Hnow Hnb E)
      as ((c' & Hf & H15 & H13 & Hrr & Hend & HV') & HB').
    split; [|split; [|split; [exact HB'|exists c'; rewrite fst_mon_poll, mon_poll2_eq; exact HV']]].
    + apply (mon_poll_errs_other PC13); try discriminate. rewrite Hf. apply onlyp_nil.
    + apply (mon_poll2_errs_other PC13); try discriminate; [intros _; exact H13|apply y_e_live_other; discriminate].
  - intros f0 apps0 E Hn _. apply J5_init; assumption.
  - unfold transcript_ok. destruct (fdl_new p); [split; [exact I|apply run_ok_true]|exact I|exact I].
Qed.

(* C15: no rule of C15 fires, except possibly the liveness rule R15_no_reply_no_timeout (C15Liveness.c15_oracle_sound) *)
Theorem c15_oracle_sound_partial (apps : list A) (ins : list minput) :
  ins_ok 0 ins ->
  forall k r, In (k, r) (monitor p (length apps) (model_transcript A ops p apps ins)) ->
  rule_prop r = PC15 -> r = R15_no_reply_no_timeout.
Proof.
  intros Hok.
  apply (generic_sound_transcript A ops p (length apps) (fun r => rule_prop r = PC15 -> r = R15_no_reply_no_timeout)
           (J5 A p (length apps)) (fun _ => True)); try assumption; try reflexivity.
  - discriminate.
  - intros a f apps0 buf tl m g f' (HB & c & HV) E _. split; [eapply base_api; eassumption|].
    eapply vi_api; eassumption.
  - intros f apps0 buf tl m g now busy nb f' o apps' calls HJ Hlt Hnow Hnb E _.
    destruct (J5_poll A ops p (length apps) Happs Hbv Hdata _ _ _ _ _ _ _ _ _ _ _ _ _ HJ Hlt Hnow Hnb E)
      as ((c' & Hf & H15 & H13 & Hrr & Hend & HV') & HB').
    split; [|split; [|split; [exact HB'|exists c'; rewrite fst_mon_poll, mon_poll2_eq; exact HV']]].
    + intros r Hr Hp15. exfalso.
      assert (Ho : onlyp (is_not PC15) (snd (mon_poll p (length apps) m (poll_event now busy (buf ++ nb) f' o calls)))).
      { apply (mon_poll_errs_other PC15); try discriminate; [rewrite Hf; apply onlyp_nil|intros _; exact H15]. }
      exact (Ho r Hr Hp15).
    + intros r Hr Hp15.
      refine (mon_poll2_errs_of PC15 (fun r => r = R15_no_reply_no_timeout) p _ m g _ _ _ _ _ _ _ _ _ _ r Hr Hp15); try discriminate.
      * intros _ r' Hr'. rewrite Hrr in Hr'. destruct Hr'.
      * intros _ r' Hr'. rewrite Hend in Hr'. destruct Hr'.
      * (* the liveness group: the only C15 rule in it *)
        intros r' Hr' HP. destruct (y_e_live_in _ _ _ _ _ Hr') as [-> |[-> | ->]]; [discriminate HP|discriminate HP|reflexivity].
  - intros f0 apps0 E Hn _. apply J5_init; assumption.
  - unfold transcript_ok. destruct (fdl_new p); [split; [exact I|apply run_ok_true]|exact I|exact I].
Qed.

End Theorems5.
