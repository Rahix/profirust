(* One poll of the station model, in the terms the soundness proofs of the FDL monitors (Model/FdlOracle.v) need:
   guard or state function (poll_split), the states it can end in (poll_next), what the monitors decode from its
   transmission (txflags), the GAP reply (reply_taken).  For C12: in every poll the rule group of
   R12_gap_poll_outside_gap / R12_two_gap_polls_per_visit is empty (e12a_ok, invariant GP). *)
From Coq Require Import Arith.
From PB Require Import Common Tables FdlTables Telegram Phy TokenRing Params Fdl FdlOracle FdlProofs FdlStepProofs.
From PB Require Import C05Proofs C01Proofs C11Proofs C15Proofs C13Proofs C12Proofs.
From PB Require Import FdlOracleSound1 FdlOracleSound2 FdlOracleSound3 FdlOracleSound4 FdlOracleSound5.

Definition awaiting_state (s : state) (a : Z) : Prop :=
  s = AwaitStatusResponse a \/ s = ClaimToken (StepScanAwaitResponse a).

Section PollSplit.
Variable A : Type.
Variable ops : app_ops A.
Notation W := (world A).

(* the poll of an online station that the connectivity prologue left as f0: the guard (PHY busy, or not after the
   predicted end of the own transmission) ends the poll at once; otherwise the state function of the state runs,
   on the station with the new bytes noted as bus activity *)
Definition polled (f0 : fdl) (now : Z) (pin : phy_in) (f' : fdl) (o : phy_out) : Prop :=
  (f_ring f' = f_ring f0 /\ f_state f' = f_state f0 /\ tx o = None /\ rx_left o = rx pin) \/
  (exists f1 w1 w', same_but_lba_pending f0 f1 /\ w_tx w1 = None /\ w_rx w1 = rx pin /\
     C11Proofs.dispatch A ops f1 now w1 = Ok (f', w') /\ tx o = w_tx w' /\ rx_left o = w_rx w').

Lemma body_polled f0 now pin (w : W) f' w' :
  w_tx w = None -> w_rx w = rx pin -> C11Proofs.body A ops f0 now (tx_busy pin) w = Ok (f', w') ->
  polled f0 now pin f' (mkPhyOut (w_tx w') (w_rx w')).
Proof.
  intros Ht Hr H. unfold C11Proofs.body in H. destruct (tx_busy pin || predicted f0 now).
  - injection H as <- <-. left. destruct (mark_bus_activity_sblp f0 now) as (_ & Hr0 & _ & _ & Hs0 & _). cbn. auto.
  - destruct (check_for_bus_activity A f0 now w) as [f1 w1] eqn:Ec. apply cfba_spec in Ec.
    destruct Ec as (Hs & T1 & _ & R1 & _). right. exists f1, w1, w'. cbn. split; [exact Hs|]. repeat split; congruence.
Qed.

Lemma poll_split k f now pin (apps : list A) f' o apps' calls :
  poll ops f now pin apps = Ok (f', o, apps', calls) -> Rep k f -> f_state f <> Offline -> polled f now pin f' o.
Proof.
  intros E R Hs. apply (C11Proofs.poll_inv A ops) in E. destruct E as (w' & H & -> & _).
  pose proof (rep_st _ _ R) as St. rewrite C11Proofs.poll_inner_online in H.
  - eapply body_polled; [| |exact H]; reflexivity.
  - apply (Rep_online _ _ R). destruct (f_state f); try discriminate. congruence.
  - destruct (f_state f); try reflexivity; [congruence|contradiction].
Qed.

Lemma offline_poll_split k f now pin (apps : list A) f' o apps' calls :
  poll ops f now pin apps = Ok (f', o, apps', calls) -> Rep k f -> f_state f = Offline ->
  (f' = f /\ tx o = None /\ rx_left o = rx pin) \/
  (f_conn f = ConnOnline /\ polled (set_st f (ListenToken None 0)) now pin f' o).
Proof.
  intros E R Es. pose proof (rep_conn _ _ R) as Cn. rewrite Es in Cn.
  destruct (f_conn f) eqn:Hc; [left|contradiction Cn; reflexivity|right; split; [reflexivity|]].
  - rewrite (poll_offline_noop A ops f now pin apps Hc Es) in E. injection E as <- <- _ _. auto.
  - apply (C11Proofs.poll_inv A ops) in E. destruct E as (w' & H & -> & _).
    unfold poll_inner in H. rewrite Hc, Es in H. cbn [kind_of online_entry_kind] in H.
    unfold trans, transition_listen_token, assert_kind in H. rewrite Es in H. cbn [kind_of may_transition_listen_token bind] in H.
    rewrite C11Proofs.body_eq in H. eapply body_polled; [| |exact H]; reflexivity.
Qed.

Lemma handle_lost_token_waits f now (w : W) f' w' :
  handle_lost_token A f now w = Ok (f', w', false) -> same_but_lba f f' /\ w' = w.
Proof.
  unfold handle_lost_token. intros Eh.
  destruct (lba_get_or_insert f now) as [l fx] eqn:El. destruct (inst_diff now l); cbn [bind] in Eh; try discriminate Eh.
  match type of Eh with (if ?c then _ else _) = _ => destruct c end.
  - match type of Eh with context [trans A ?a ?b ?c] => destruct (trans A a b c) as [[fy wy]| |] end; cbn [bind] in Eh; try discriminate Eh.
    destruct (do_claim_token A fy now wy) as [[fz wz]| |]; cbn [bind] in Eh; discriminate Eh.
  - injection Eh as <- <-. split; [exact (proj1 (lba_get_or_insert_same _ _ _ _ El))|reflexivity].
Qed.

(* do_listen_token: the token is claimed after the time-out; a pending status request is answered after the
   synchronisation pause (the station enters the ring if its LAS is valid); otherwise the receive loop runs *)
Lemma do_listen_token_cases f now (w : W) f' w' sr cc :
  do_listen_token A f now w = Ok (f', w') -> f_state f = ListenToken sr cc ->
  early_claim (f_state f') \/
  exists f0, same_but_lba f f0 /\
    match sr with
    | Some src => w_rx w' = w_rx w /\
        (f_state f' = ListenToken sr cc \/ f_state f' = ActiveIdle None None 0 \/ f_state f' = ListenToken None cc)
    | None => receive_all_telegrams A (listen_token_telegram A now) f0 w = Ok (f', w')
    end.
Proof.
  unfold do_listen_token, assert_entry. intros H Es. rewrite Es in H. cbn [kind_of do_fn_entry state_kind_eqb bind] in H.
  destruct (handle_lost_token A f now w) as [[[f0 w0] d]| |] eqn:Eh; cbn [bind] in H; try discriminate H.
  destruct d; [injection H as <- <-; left; exact (handle_lost_token_claims A _ _ _ _ _ Eh)|right].
  destruct (handle_lost_token_waits _ _ _ _ _ Eh) as (Hsame & ->). exists f0. split; [exact Hsame|].
  destruct Hsame as (_ & _ & _ & _ & Hs0 & _). rewrite Hs0, Es in H. cbn [get_listen_token bind] in H.
  destruct sr as [src|]; [|exact H].
  destruct (wait_synchronization_pause f0 now) as [[f1 wait]| |] eqn:Ew; cbn [bind] in H; try discriminate H.
  apply wait_sync_same in Ew. destruct Ew as ((_ & _ & _ & _ & Hs1 & _) & _).
  destruct wait; [injection H as <- <-; split; [reflexivity|left; congruence]|].
  destruct (phy_send A w _) as [[w1 k]| |] eqn:Eps; cbn [bind] in H; try discriminate H.
  apply phy_send_tx in Eps. destruct Eps as (_ & _ & _ & Hrx1 & _).
  match type of H with bind ?x _ = _ => destruct x as [[f2 w2]| |] eqn:E2 end; cbn [bind] in H; try discriminate H.
  destruct (mark_tx f2 now k) as [f3| |] eqn:Em; cbn [bind] in H; try discriminate H.
  injection H as <- <-. apply mark_tx_same in Em. destruct Em as (_ & _ & _ & _ & -> & _).
  destruct (ready_for_ring (f_ring f1)).
  - apply trans_spec in E2. destruct E2 as (s2 & Ht & -> & ->). split; [exact Hrx1|right; left].
    unfold transition_active_idle in Ht. destruct (assert_kind _ _); cbn [bind] in Ht; try discriminate Ht. injection Ht as <-. reflexivity.
  - rewrite Hs1, Hs0, Es in E2. cbn [get_listen_token bind] in E2. injection E2 as <- <-. split; [exact Hrx1|right; right; reflexivity].
Qed.

Lemma do_listen_token_ends f now (w : W) f' w' :
  do_listen_token A f now w = Ok (f', w') ->
  kind_of (f_state f') = KListenToken \/ f_state f' = Offline \/ early_claim (f_state f') \/ f_state f' = ActiveIdle None None 0.
Proof.
  intros H.
  assert (Hst : exists sr cc, f_state f = ListenToken sr cc).
  { unfold do_listen_token, assert_entry in H. destruct (f_state f); cbn in H; try discriminate H. eauto. }
  destruct Hst as (sr & cc & Es).
  destruct (do_listen_token_cases _ _ _ _ _ _ _ H Es) as [K|(f0 & (_ & _ & _ & _ & Hs0 & _) & Hc)]; [auto|].
  destruct sr as [src|]; [destruct Hc as (_ & [-> |[-> | ->]]); auto|].
  unfold receive_all_telegrams in Hc.
  destruct (receive_all _ _ (f0, w) (w_rx w)) as [[[[f1 w1] rest] r]| |] eqn:Er; cbn [bind] in Hc; try discriminate Hc.
  injection Hc as <- _. cbn [f_state sync_pending_bytes set_pending].
  assert (Hl : listening A (f1, w1)).
  { refine (receive_all_inv (listening A) _ _ _ (f0, w) _ (f1, w1) rest r _ Er); [|left; cbn; rewrite Hs0, Es; reflexivity].
    intros s t l s' u Hp Hc. exact (listen_token_telegram_listening A _ _ _ _ _ _ Hp Hc). }
  destruct Hl as [K|K]; cbn [fst] in K; [left; exact K|right; left]. destruct (f_state f1); try discriminate K. reflexivity.
Qed.

Lemma do_active_idle_cases f now (w : W) f' w' sr nps cc :
  do_active_idle A f now w = Ok (f', w') -> f_state f = ActiveIdle sr nps cc ->
  early_claim (f_state f') \/
  exists f0, same_but_lba f f0 /\
    match sr with
    | Some src => w_rx w' = w_rx w /\ f_ring f' = f_ring f /\
        (f_state f' = f_state f \/ (w_tx w' <> None /\ f_state f' = ActiveIdle None nps cc))
    | None => receive_all_telegrams A (active_idle_telegram A now) f0 w = Ok (f', w')
    end.
Proof.
  unfold do_active_idle, assert_entry. intros H Es. rewrite Es in H. cbn [kind_of do_fn_entry state_kind_eqb bind] in H.
  destruct (handle_lost_token A f now w) as [[[f0 w0] d]| |] eqn:Eh; cbn [bind] in H; try discriminate H.
  destruct d; [injection H as <- <-; left; exact (handle_lost_token_claims A _ _ _ _ _ Eh)|right].
  destruct (handle_lost_token_waits _ _ _ _ _ Eh) as (Hsame & ->). exists f0. split; [exact Hsame|].
  destruct Hsame as (_ & Hr0 & _ & _ & Hs0 & _). rewrite Hs0, Es in H. cbn [get_active_idle bind] in H.
  destruct sr as [src|]; [|exact H].
  destruct (wait_synchronization_pause f0 now) as [[f1 wait]| |] eqn:Ew; cbn [bind] in H; try discriminate H.
  apply wait_sync_same in Ew. destruct Ew as ((_ & Hr1 & _ & _ & Hs1 & _) & _).
  destruct wait; [injection H as <- <-; split; [reflexivity|split; [congruence|left; congruence]]|].
  destruct (phy_send A w _) as [[w1 k]| |] eqn:Eps; cbn [bind] in H; try discriminate H.
  destruct (mark_tx _ now k) as [f2| |] eqn:Em; cbn [bind] in H; try discriminate H.
  injection H as <- <-. apply mark_tx_same in Em. destruct Em as (_ & Hr2 & _ & _ & Hs2 & _).
  apply phy_send_tx in Eps. destruct Eps as (_ & (wire & Htx1) & _ & Hrx1 & _).
  split; [exact Hrx1|]. split; [cbn in Hr2; congruence|]. right. split; [cbn; rewrite Htx1; discriminate|exact Hs2].
Qed.

Lemma do_active_idle_kinds f now (w : W) f' w' :
  do_active_idle A f now w = Ok (f', w') -> early_claim (f_state f') \/ heard_kind (f_state f').
Proof.
  intros H.
  assert (Hst : exists sr nps cc, f_state f = ActiveIdle sr nps cc).
  { unfold do_active_idle, assert_entry in H. destruct (f_state f); cbn in H; try discriminate H. eauto. }
  destruct Hst as (sr & nps & cc & Es).
  destruct (do_active_idle_cases _ _ _ _ _ _ _ _ H Es) as [K|(f0 & (_ & _ & _ & _ & Hs0 & _) & Hc)]; [auto|right].
  destruct sr as [src|]; [destruct Hc as (_ & _ & [-> |(_ & ->)]); [rewrite Es|]; exact I|].
  unfold receive_all_telegrams in Hc.
  destruct (receive_all _ _ _ _) as [[[[f1 w1] rest] r]| |] eqn:Er; cbn [bind] in Hc; try discriminate Hc.
  injection Hc as <- _.
  refine (receive_all_inv (fun s : fdl * W => heard_kind (f_state (fst s))) (active_idle_telegram A now) _ _ (f0, w) _ (f1, w1) rest r _ Er).
  - intros s t il s' u Hp Hcb. exact (active_idle_telegram_heard A now s t il s' u Hp Hcb).
  - cbn [fst]. rewrite Hs0, Es. exact I.
Qed.

(* where the scan of the GAP after a claim is, or has just ended *)
Definition scan_like (s : state) : Prop :=
  s = ClaimToken StepScan \/ (exists a, s = ClaimToken (StepScanAwaitResponse a)) \/
  s = PassToken false AttFirst \/ s = ActiveIdle None None 0.

Lemma do_claim_token_steps f now (w : W) f' w' st :
  do_claim_token A f now w = Ok (f', w') -> f_state f = ClaimToken st ->
  match st with
  | StepFirstToken | StepSecondToken => f_state f' = ClaimToken st \/ f_state f' = ClaimToken (claim_next st)
  | _ => scan_like (f_state f')
  end /\
  forall a, awaiting_state (f_state f') a -> w_tx w' = None -> f_state f' = f_state f.
Proof.
  intros H Es. destruct (C12Proofs.do_claim_token_spec A _ _ _ _ _ H) as (st0 & Es0 & _ & _ & _ & _ & Hspec).
  rewrite Es in Es0. injection Es0 as <-. unfold scan_like, awaiting_state. rewrite Es in *. destruct st as [ | | |a0].
  - destruct Hspec as (_ & [(_ & E & _)|(_ & _ & E & _)]); rewrite E; cbn; intuition discriminate.
  - destruct Hspec as (_ & [(_ & E & _)|(_ & _ & E & _)]); rewrite E; cbn; intuition discriminate.
  - destruct Hspec as (_ & _ & [(_ & E & _)|[(_ & _ & _ & E)|[(_ & cur & _ & _ & _ & E)|(cur & a1 & _ & _ & _ & E & _ & T)]]]);
      rewrite E; (split; [eauto 6|]); intros a [C|C] Hn; try discriminate C; congruence.
  - destruct Hspec as (_ & _ & rest & received & _ & _ & Hcases).
    destruct Hcases as [(_ & _ & E & _)|[(t & _ & _ & _ & E & _)|[(t & _ & _ & _ & E & _)|(_ & _ & [(_ & E & _)|[(_ & _ & _ & E)|(a1 & _ & _ & E & _ & T)]])]]];
      rewrite E; (split; [eauto 6|]); intros a [C|C] Hn; try discriminate C; congruence.
Qed.

Lemma do_use_token_passes f now (w : W) f' w' :
  do_use_token A ops f now w = Ok (f', w') ->
  in_use (f_state f') \/
  exists f2 w2, f_p f2 = f_p f /\ f_ring f2 = f_ring f /\ f_state f2 = PassToken true first_attempt /\
                do_pass_token A f2 now w2 = Ok (f', w').
Proof.
  intros H. pose proof H as H0. rewrite do_use_token_split in H.
  destruct (do_use_token_head A ops f now w) as [[f2 w2]| |] eqn:Eh; cbn [bind] in H; try discriminate H.
  destruct (is_pass_token (f_state f2)) eqn:Ep.
  - right. destruct (do_use_token_head_pass A ops _ _ _ _ _ Eh Ep) as (Es2 & _ & (Hpp & Hr2 & _)). eauto 6.
  - injection H as <- <-. left.
    assert (Hst : exists tk fa fcd, f_state f = UseToken tk fa fcd).
    { unfold do_use_token, assert_entry in H0. destruct (f_state f); cbn in H0; try discriminate H0. eauto. }
    destruct Hst as (tk & fa & fcd & Es).
    destruct (do_use_token_head_state A ops _ _ _ _ _ _ _ _ Eh Es) as (_ & _ & [(E & _)|[(fa' & E)|[(a & fa' & E)|E]]]);
      rewrite E in *; try rewrite Es; try discriminate Ep; unfold in_use; cbn; auto.
Qed.

Lemma do_use_token_calls f now (w : W) f' w' :
  do_use_token A ops f now w = Ok (f', w') -> exists l, w_calls w' = w_calls w ++ l.
Proof.
  intros H. rewrite do_use_token_split in H.
  destruct (do_use_token_head A ops f now w) as [[f2 w2]| |] eqn:Eh; cbn [bind] in H; try discriminate H.
  destruct (do_use_token_head_results A ops _ _ _ _ _ Eh) as (l & Hl & _).
  destruct (is_pass_token (f_state f2)).
  - destruct (C12Proofs.do_pass_token_spec A _ _ _ _ _ H) as (dg & att & _ & _ & _ & Hc & _). exists l. congruence.
  - injection H as <- <-. exists l. exact Hl.
Qed.

Lemma visit_poll_use k f now pin (apps : list A) f' o apps' calls tk :
  poll ops f now pin apps = Ok (f', o, apps', calls) -> Rep k f -> visit_tk (f_state f) = Some tk ->
  visit_tk (f_state f') = Some tk \/ f_state f' = ActiveIdle None None 0 \/
  exists f3 w3 w', f_p f3 = f_p f /\ f_ring f3 = f_ring f /\ do_use_token A ops f3 now w3 = Ok (f', w') /\ tx o = w_tx w'.
Proof.
  intros H R Htk.
  destruct (poll_split _ _ _ _ _ _ _ _ _ H R ltac:(intros C; rewrite C in Htk; discriminate Htk))
    as [(_ & Hs & _)|(f1 & w1 & w' & (Hp1 & Hr1 & _ & _ & Hs1 & _) & _ & _ & Hd & Htx & _)]; [left; congruence|].
  unfold C11Proofs.dispatch in Hd.
  destruct (f_state f) eqn:Es; cbn in Htk; try discriminate Htk; injection Htk as ->;
    rewrite Hs1 in Hd; cbn [kind_of poll_dispatch] in Hd; [right; right; eauto 8|].
  destruct (await_timeout_start A ops _ _ _ _ _ Hd) as [Hno|(a1 & tk1 & fa1 & f3 & w3 & _ & _ & _ & _ & (Hp3 & _) & Hr3 & _ & _ & Hdo)];
    [|right; right; exists f3, w3, w'; repeat split; congruence].
  apply (do_await_data_response_split A ops) in Hd.
  destruct Hd as (a1 & tk1 & fa1 & ap & Es1 & _ & [(t & ap' & _ & _ & _ & _ & _ & E)|[(_ & _ & E)|[(_ & _ & E)|(ap' & f3 & w3 & _ & Hc3 & _ & _ & _ & Hdo)]]]);
    rewrite Hs1 in Es1; injection Es1 as <- <- <-; try (rewrite E, ?Hs1; auto; fail).
  exfalso. eapply Hno. destruct (do_use_token_calls _ _ _ _ _ Hdo) as (l & Hl). exists l. rewrite Hl, Hc3, <- app_assoc. reflexivity.
Qed.

Definition next_state (now : Z) (s s' : state) : Prop :=
  match s with
  | Offline | ListenToken _ _ =>
      s' = s \/ kind_of s' = KListenToken \/ s' = Offline \/ early_claim s' \/ s' = ActiveIdle None None 0
  | PassiveIdle => False
  | ActiveIdle _ _ _ => early_claim s' \/ heard_kind s'
  | UseToken _ _ _ | AwaitDataResponse _ _ _ => in_use s' \/ s' = ActiveIdle None None 0 \/ passed_on now s'
  | ClaimToken _ => kind_of s' = KClaimToken \/ s' = PassToken false AttFirst \/ s' = ActiveIdle None None 0
  | PassToken dg att =>
      s' = s \/ (dg = true /\ kind_of s' = KAwaitStatusResponse) \/ s' = UseToken now None false \/ s' = CheckTokenPass att
  | CheckTokenPass att =>
      s' = s \/ s' = PassToken false (check_pass_next att) \/ s' = UseToken now None false \/
      s' = CheckTokenPass (check_pass_next att) \/ heard_kind s'
  | AwaitStatusResponse _ =>
      s' = s \/ s' = PassToken false AttFirst \/ s' = ActiveIdle None None 0 \/ s' = UseToken now None false \/
      kind_of s' = KCheckTokenPass
  end.

Lemma poll_next k f now pin (apps : list A) f' o apps' calls :
  poll ops f now pin apps = Ok (f', o, apps', calls) -> Rep k f -> next_state now (f_state f) (f_state f').
Proof.
  intros E R.
  (* the guard leaves the state alone; otherwise the state function of the state runs *)
  assert (Hdo : forall f0, polled f0 now pin f' o -> f_state f' = f_state f0 \/
            exists f1 w1 w', f_state f1 = f_state f0 /\ C11Proofs.dispatch A ops f1 now w1 = Ok (f', w')).
  { intros f0 [(_ & Hs & _)|(f1 & w1 & w' & (_ & _ & _ & _ & Hs1 & _) & _ & _ & Hd & _)]; [left; exact Hs|right; eauto]. }
  pose proof (fun Hn => Hdo _ (poll_split _ _ _ _ _ _ _ _ _ E R Hn)) as Hon.
  unfold C11Proofs.dispatch in Hdo, Hon.
  assert (Hvisit : forall tk, visit_tk (f_state f) = Some tk ->
            in_use (f_state f') \/ f_state f' = ActiveIdle None None 0 \/ passed_on now (f_state f')).
  { intros tk Htk. destruct (visit_poll_use _ _ _ _ _ _ _ _ _ _ E R Htk) as [K|[K|(f3 & w3 & w' & _ & _ & Hd & _)]]; [left|auto|].
    - unfold in_use. destruct (f_state f'); try discriminate K; auto.
    - destruct (do_use_token_passes _ _ _ _ _ Hd) as [K|(f2 & w2 & _ & _ & _ & Hd2)]; [auto|].
      right. right. exact (do_pass_token_ends A _ _ _ _ _ Hd2). }
  destruct (f_state f) as [ | |sr cc|sr nps cc|tk fa fcd|st|a1 tk fa|dg att|att|a0] eqn:Es; cbn [next_state].
  - destruct (offline_poll_split _ _ _ _ _ _ _ _ _ E R Es) as [(-> & _)|(_ & Hp)]; [left; exact Es|right].
    destruct (Hdo _ Hp) as [->|(f1 & w1 & w' & Hs1 & Hd)]; [left; reflexivity|].
    rewrite Hs1 in Hd. exact (do_listen_token_ends _ _ _ _ _ Hd).
  - exact (eq_ind _ (st_ok k _ _ _) (rep_st _ _ R) _ Es).
  - destruct (Hon ltac:(discriminate)) as [Hs|(f1 & w1 & w' & Hs1 & Hd)]; [left; exact Hs|right].
    rewrite Hs1 in Hd. exact (do_listen_token_ends _ _ _ _ _ Hd).
  - destruct (Hon ltac:(discriminate)) as [Hs|(f1 & w1 & w' & Hs1 & Hd)]; [right; rewrite Hs; exact I|].
    rewrite Hs1 in Hd. exact (do_active_idle_kinds _ _ _ _ _ Hd).
  - exact (Hvisit tk eq_refl).
  - destruct (Hon ltac:(discriminate)) as [Hs|(f1 & w1 & w' & Hs1 & Hd)]; [left; rewrite Hs; reflexivity|].
    rewrite Hs1 in Hd. destruct (do_claim_token_steps _ _ _ _ _ _ Hd Hs1) as (He & _).
    destruct st; [destruct He as [-> | ->]|destruct He as [-> | ->]
                 |destruct He as [->|[(a & ->)|[->| ->]]]|destruct He as [->|[(a & ->)|[->| ->]]]]; auto.
  - exact (Hvisit tk eq_refl).
  - destruct (pass_token_poll A ops _ _ _ _ _ _ _ _ _ _ Es E) as (_ & _ & _ & _ & [(_ & E1 & _)|[(addr & -> & _ & E1 & _)|(r' & _ & _ & _ & E1)]]);
      rewrite E1; [auto|auto|destruct (_ =? _); auto].
  - destruct (check_pass_poll A ops _ _ _ _ _ _ _ _ _ Es E) as (_ & _ & _ & Hc). destruct (slot_expired f now pin).
    + destruct Hc as (_ & r1 & _ & [(_ & E1 & _)|(r' & _ & _ & _ & E1)]); rewrite E1; [auto|destruct (_ =? _); auto].
    + destruct Hc as (_ & _ & Hc). destruct (tx_busy pin || predicted f now); [left; exact (proj1 Hc)|].
      destruct (DecodeSpec.decode_spec (rx pin)); [left; exact (proj1 Hc)|left; exact (proj1 Hc)|do 4 right; exact Hc].
  - destruct (after_gap_request_step A ops _ _ _ _ _ _ _ _ E ltac:(rewrite Es; reflexivity)) as (_ & _ & [(_ & [E1|[E1|E1]])|(_ & _ & [E1|(att & E1)])]);
      rewrite E1; auto.
Qed.

Lemma idle_poll_ends f now pin (apps : list A) f' o apps' calls :
  poll ops f now pin apps = Ok (f', o, apps', calls) -> have_token (f_state f) = false -> in_pass (f_state f) = false ->
  (have_token (f_state f') = false /\ in_pass (f_state f') = false) \/ early_claim (f_state f') \/
  kind_of (f_state f') = KUseToken.
Proof.
  intros H Hht Hip. apply (C11Proofs.poll_inv A ops) in H. destruct H as (w' & H & _).
  apply (C11Proofs.poll_inner_cases A ops) in H.
  destruct H as [(_ & _ & -> & _)|(_ & f0 & w0 & Hpro & Hb)]; [left; split; assumption|].
  assert (Hk0 : have_token (f_state f0) = false /\ in_pass (f_state f0) = false).
  { destruct Hpro as [f1 w1|f1 w1 s' _ _ [(-> & _)| ->]]; split; assumption || reflexivity. }
  unfold C11Proofs.body in Hb. destruct (tx_busy pin || predicted f0 now).
  - injection Hb as <- _. left. destruct (mark_bus_activity_sblp f0 now) as (_ & _ & _ & _ & -> & _). exact Hk0.
  - destruct (check_for_bus_activity A f0 now w0) as [f1 w1] eqn:Ec.
    apply cfba_spec in Ec. destruct Ec as ((_ & _ & _ & _ & Hs1 & _) & _).
    unfold C11Proofs.dispatch in Hb. rewrite <- Hs1 in Hk0. destruct Hk0 as (Hk0 & Hk1).
    destruct (f_state f1); try discriminate Hk0; try discriminate Hk1; cbn [kind_of poll_dispatch] in Hb; try discriminate Hb.
    + destruct (do_listen_token_ends _ _ _ _ _ Hb) as [K|[K|[K|K]]]; [left|left; rewrite K; auto|auto|left; rewrite K; auto].
      destruct (f_state f'); try discriminate K; auto.
    + destruct (do_active_idle_kinds _ _ _ _ _ Hb) as [K|K]; [auto|].
      destruct (f_state f'); try contradiction K; auto.
Qed.

End PollSplit.

Section TxDecode.
Variable A : Type.
Variable ops : app_ops A.
Hypothesis Hdata : app_sends_data A ops.

(* the transmission of a poll, as the monitors decode it *)
Inductive txd (f f' : fdl) (now : Z) (calls : list call) (wire : bytes) : Prop :=
| TxdApp h pdu : decode_one wire = Some (TData h pdu) ->
    (exists cs i hp er, calls = cs ++ [CallTransmit i hp (Some (wire, er))]) ->
    in_use (f_state f) -> in_use (f_state f') -> txd f f' now calls wire
| TxdToken da : wire = encode_token da (ts f) -> decode_one wire = Some (TToken da (ts f)) ->
    quiet_calls f [] calls -> tx_token f f' now wire -> txd f f' now calls wire
| TxdGap a : wire = sr_wire a (ts f) -> decode_one wire = Some (TData (status_request_header a (ts f)) []) ->
    quiet_calls f [] calls -> tx_gap f f' wire -> 0 <= a < p_hsa (f_p f) -> a <> ts f ->
    in_gap (ts f) (r_ns (f_ring f)) a -> f_gap f' = GapDoPoll a ->
    ((f_state f' = AwaitStatusResponse a /\ gap_origin (f_state f)) \/
     (f_state f' = ClaimToken (StepScanAwaitResponse a) /\ kind_of (f_state f) = KClaimToken)) ->
    txd f f' now calls wire
| TxdReply src st : wire = reply_wire src (ts f) st ->
    decode_one wire = Some (TData (status_response_header src (ts f) st status_reply_status) []) ->
    calls = [] -> reply_sent f f' src st -> txd f f' now calls wire.

Lemma sr_wire_inj a b t : sr_wire a t = sr_wire b t -> a = b.
Proof. unfold sr_wire. cbn. intros H. injection H as H _. lia. Qed.

Lemma poll_txd n f now pin (apps : list A) f' o apps' calls wire :
  poll ops f now pin apps = Ok (f', o, apps', calls) -> tx o = Some wire -> Rep n f ->
  txd f f' now calls wire.
Proof.
  intros E Etx R. pose proof (Rep_ts _ _ R) as Hts.
  destruct (poll_transmissions A ops _ _ _ _ _ _ _ _ _ E Etx) as [(cs & i & hp & er & Hcs & Hu & Hu')|(Hq & [Htok|[Hgap|Hrep]])].
  - destruct (app_wire_is_data A ops Hdata _ _ _ _ _ _ _ _ _ _ _ _ _ E Hcs) as (h & pdu & Hd).
    eapply TxdApp; eauto.
  - pose proof Htok as (da & Hw & _). eapply (TxdToken _ _ _ _ _ da); [exact Hw|rewrite Hw; apply decode_one_token|exact Hq|exact Htok].
  - pose proof Hgap as (a & Hw & Hin & Hrng & Hring & Hg' & Hst).
    assert (Hco : gap_cursor_ok f).
    { split; [lia|]. intros c Ec. pose proof (rep_gap _ _ R) as G. rewrite Ec in G. exact G. }
    specialize (Hrng Hco).
    assert (Hne : a <> ts f) by (eapply in_gap_not_self; exact Hin).
    assert (Hwf : wf_header (status_request_header a (ts f))) by (unfold wf_header, is_addr7; cbn; lia).
    eapply (TxdGap _ _ _ _ _ a); try eassumption.
    + rewrite Hw. unfold sr_wire. apply (decode_one_data _ [] Hwf). cbn. lia.
    + destruct Hst as [(S1 & S2)|(S1 & S2)]; [left; split; assumption|right; split; [exact S1|]].
      destruct S2 as [-> |(a0 & ->)]; reflexivity.
  - pose proof Hrep as (src & st & Hw & Hrs).
    assert (Hsrc : 0 <= src < 128).
    { pose proof (rep_st _ _ R) as St. destruct Hrs as [(cc & Es & _)|(nps & cc & Es & _)]; rewrite Es in St; cbn in St; tauto. }
    assert (Hwf : wf_header (status_response_header src (ts f) st status_reply_status)) by (unfold wf_header, is_addr7; cbn; lia).
    eapply (TxdReply _ _ _ _ _ src st); try eassumption.
    + rewrite Hw. unfold reply_wire. apply (decode_one_data _ [] Hwf). cbn. lia.
    + destruct Hq as (l & Hl & _ & Hu). cbn in Hl. subst l. destruct calls as [|c0 calls]; [reflexivity|].
      exfalso. specialize (Hu ltac:(discriminate)).
      destruct Hrs as [(cc & Es & _)|(nps & cc & Es & _)]; destruct Hu as [Hu|Hu]; rewrite Es in Hu; discriminate Hu.
Qed.

End TxDecode.

Section Gap.
Variable A : Type.
Variable ops : app_ops A.
Variable p : params.
Variable n : nat.
Hypothesis Hdata : app_sends_data A ops.

Lemma app_sent_conv txo calls : app_sent (map (conv_call txo) calls) = app_sent calls.
Proof.
  unfold app_sent. induction calls as [|c l IH]; [reflexivity|]. cbn [map existsb]. rewrite IH.
  destruct c as [i hp [[w er]|]|i a t|i a]; reflexivity.
Qed.

Lemma app_sent_last cs i hp wire er : app_sent (cs ++ [CallTransmit i hp (Some (wire, er))]) = true.
Proof. unfold app_sent. rewrite existsb_app. cbn. apply orb_true_r. Qed.

Lemma app_sent_quiet f calls : quiet_calls f [] calls -> app_sent calls = false.
Proof.
  intros (l & Hl & Hf & _). cbn in Hl. subst l. unfold app_sent.
  induction calls as [|c l IH]; [reflexivity|]. inversion Hf as [|? ? H1 H2]; subst. cbn [existsb]. rewrite (IH H2).
  destruct c as [i hp [r|]|i a t|i a]; try reflexivity. contradiction.
Qed.

Record txflags (f f' : fdl) (now : Z) (calls : list call) (s : pstep) : Prop := mkTxf {
  tf_token : forall da sa, x_token_tx s = Some (da, sa) -> sa = ts f /\ tx_token f f' now (encode_token da (ts f)) /\ s_tx s = Some (encode_token da (ts f));
  tf_gap : forall a, x_gap_poll p s = Some a ->
           0 <= a < p_hsa (f_p f) /\ a <> ts f /\ in_gap (ts f) (r_ns (f_ring f)) a /\ f_gap f' = GapDoPoll a /\
           ((f_state f' = AwaitStatusResponse a /\ gap_origin (f_state f)) \/
            (f_state f' = ClaimToken (StepScanAwaitResponse a) /\ kind_of (f_state f) = KClaimToken));
  tf_none : s_tx s = None -> x_token_tx s = None /\ x_gap_poll p s = None
}.

Lemma poll_txflags f apps now busy rxb f' o apps' calls :
  Rep (length apps) f -> f_p f = p ->
  poll ops f now (mkPhyIn busy rxb) apps = Ok (f', o, apps', calls) ->
  txflags f f' now calls (poll_event now busy rxb f' o calls).
Proof.
  intros R Hp E. set (s := poll_event now busy rxb f' o calls).
  assert (Hts : x_ts p = ts f) by (unfold x_ts, ts; rewrite Hp; reflexivity).
  destruct (tx o) as [wire|] eqn:Etx.
  2:{ constructor; unfold x_token_tx, x_gap_poll, x_txt; cbn [s_tx s poll_event]; rewrite Etx; try discriminate. intros _. split; reflexivity. }
  assert (Hxt : x_txt s = decode_one wire) by (apply x_txt_tx; cbn; exact Etx).
  assert (Hsome : s_tx s <> None) by (cbn; rewrite Etx; discriminate).
  destruct (poll_txd A ops Hdata _ _ _ _ _ _ _ _ _ _ E Etx R) as
    [h pdu Hd (cs & i & hp & er & Hcs) Hu Hu'|da Hw Hd Hq Htok|a Hw Hd Hq Hg Ha Hne Hin Hg' Hst|src st Hw Hd Hc Hrs];
    (constructor; [intros da' sa H; unfold x_token_tx in H; rewrite Hxt, Hd in H
                  |intros a' H; unfold x_gap_poll in H; rewrite Hxt, Hd in H
                  |intros C; destruct (Hsome C)]); try discriminate H.
  - cbn [s_calls s poll_event] in H.
    rewrite app_sent_conv, Hcs, app_sent_last in H. cbn [negb] in H. rewrite andb_false_r in H. discriminate H.
  - injection H as <- <-.
    split; [reflexivity|]. split; [rewrite <- Hw; exact Htok|cbn; rewrite Etx, Hw; reflexivity].
  - cbn [s_calls s poll_event status_request_header h_fc h_sa h_da is_fdl_status_request] in H.
    rewrite app_sent_conv, (app_sent_quiet _ _ Hq), Hts, Z.eqb_refl in H. cbn in H. injection H as <-. tauto.
Qed.

(* GP: while the GAP step of the visit is still ahead the monitor has counted no GAP poll *)
Definition GP (f : fdl) (m : mon) : Prop := gap_origin (f_state f) -> m_gap_polls m = 0%nat.

Lemma m_gap_polls_x_m3 m s : m_gap_polls (x_m3 p n m s) = x_gap_polls p m s.
Proof. unfold x_m3. destruct (x_new_visit p m s); [reflexivity|]. destruct (state_kind_eqb _ _); reflexivity. Qed.

Lemma e12a_ok f apps buf tl m now busy nb f' o apps' calls :
  Base A p n f apps buf tl m -> GP f m ->
  poll ops f now (mkPhyIn busy (buf ++ nb)) apps = Ok (f', o, apps', calls) ->
  x_e12a p m (poll_event now busy (buf ++ nb) f' o calls) = [].
Proof.
  intros HB HG E. pose proof (x_k0_base A p n _ _ _ _ _ HB) as Hk0.
  destruct HB as [R Hp Hn Hv Hl Hpd Hb Htl].
  pose proof (poll_txflags _ _ _ _ _ _ _ _ _ R Hp E) as [_ Hgap _].
  set (s := poll_event now busy (buf ++ nb) f' o calls) in *.
  unfold x_e12a. destruct (x_gap_poll p s) as [a|] eqn:Eg; [|reflexivity].
  destruct (Hgap a eq_refl) as (Ha & Hne & Hin & _ & Hst).
  assert (Hts : x_ts p = ts f) by (unfold x_ts, ts; rewrite Hp; reflexivity).
  assert (Hns : v_ns (x_pre m) = r_ns (f_ring f)) by (unfold x_pre; rewrite Hv; reflexivity).
  rewrite Hts, Hns. rewrite Hp in Ha.
  replace (in_gapb (ts f) (r_ns (f_ring f)) a) with true by (symmetry; apply in_gapb_spec; exact Hin).
  replace (a <? p_hsa p) with true by (symmetry; apply Z.ltb_lt; lia).
  replace (a =? ts f) with false by (symmetry; apply Z.eqb_neq; exact Hne).
  cbn [andb negb check app]. rewrite Hk0.
  destruct (state_kind_eqb (kind_of (f_state f)) KClaimToken) eqn:Ek; [reflexivity|].
  destruct Hst as [(_ & Hor)|(_ & Hk)]; [|rewrite Hk in Ek; discriminate Ek].
  rewrite (HG Hor). reflexivity.
Qed.

Lemma gp_poll f apps buf tl m now busy nb f' o apps' calls :
  Base A p n f apps buf tl m -> GP f m ->
  poll ops f now (mkPhyIn busy (buf ++ nb)) apps = Ok (f', o, apps', calls) ->
  GP f' (x_m3 p n m (poll_event now busy (buf ++ nb) f' o calls)).
Proof.
  intros HB HG E Hor. pose proof (x_k0_base A p n _ _ _ _ _ HB) as Hk0.
  destruct HB as [R Hp Hn Hv Hl Hpd Hb Htl].
  pose proof (poll_txflags _ _ _ _ _ _ _ _ _ R Hp E) as [_ Hgap _].
  pose proof (poll_next A ops _ _ _ _ _ _ _ _ _ E R) as Hnx.
  set (s := poll_event now busy (buf ++ nb) f' o calls) in *.
  rewrite m_gap_polls_x_m3. unfold x_gap_polls.
  destruct (x_token_tx s) as [[da sa]|]; [reflexivity|].
  destruct (x_new_visit p m s) eqn:Env; [reflexivity|].
  destruct (x_gap_poll p s) as [a|] eqn:Eg.
  - exfalso. destruct (Hgap a eq_refl) as (_ & _ & _ & _ & [(Es' & _)|(Es' & _)]); rewrite Es' in Hor;
      destruct Hor as [(att & C)|[C|C]]; discriminate C.
  - (* no new visit, nothing sent: the station was already in a state from which the GAP step is taken *)
    apply HG. unfold x_new_visit in Env. change (x_k1 s) with (kind_of (f_state f')) in Env. rewrite Hk0 in Env.
    unfold gap_origin, in_use in *.
    destruct Hor as [(att' & Es')|Hu].
    + (* next_state: PassToken true _ is only kept, never entered, outside a visit *)
      rewrite Es' in Hnx. destruct (f_state f); cbn in Hnx; unfold early_claim in Hnx; cbn;
        intuition (try discriminate; try congruence; eauto).
    + destruct (in_visit (kind_of (f_state f))) eqn:Ev.
      * right. destruct (f_state f); try discriminate Ev; [left|right]; reflexivity.
      * (* entered from outside a visit: a new visit, or AwaitDataResponse - which is not entered so *)
        exfalso. rewrite kind_in_visit, Ev in Env. cbn [negb orb] in Env. rewrite andb_true_r in Env.
        destruct (f_state f'); destruct Hu as [Hu|Hu]; try discriminate Hu; try discriminate Env.
        destruct (f_state f); try discriminate Ev; cbn in Hnx; unfold early_claim, passed_on in Hnx; cbn in Hnx;
          intuition (try discriminate; congruence).
Qed.

End Gap.

Section Found.
Variable A : Type.
Variable ops : app_ops A.
Notation W := (world A).

Lemma receive_not_accept (buf rest : bytes) : receive_telegram (fun t : telegram => t) buf = Ok (rest, None) ->
  forall t n, decode buf <> Ok (Accept t n).
Proof. intros H t n C. rewrite (receive_telegram_accept _ _ _ C) in H. discriminate H. Qed.

Lemma mba_ring f now : f_ring (mark_bus_activity f now) = f_ring f.
Proof. destruct (mark_bus_activity_sblp f now) as (_ & Hr & _). exact Hr. Qed.

(* what a function that awaits the GAP reply of a0 does with the head of the receive buffer rxb, leaving rxl: a
   telegram is consumed; the reply "master, ready" of a0 makes a0 the successor, and the function goes on in
   state fs; anything else leaves NS alone *)
Definition reply_taken (f : fdl) (rxb : bytes) (a0 : Z) (f' : fdl) (rxl : bytes) (fs : state) : Prop :=
  (forall t k, decode rxb = Ok (Accept t k) ->
     rxl = skipn k rxb /\
     (is_master_ready_reply (ts f) a0 t -> r_ns (f_ring f') = a0 /\ f_state f' = fs) /\
     (~ is_master_ready_reply (ts f) a0 t -> r_ns (f_ring f') = r_ns (f_ring f))) /\
  ((forall t k, decode rxb <> Ok (Accept t k)) -> r_ns (f_ring f') = r_ns (f_ring f)).

Lemma taken_none f rxb a0 f' rxl fs :
  receive_telegram (fun t => t) rxb = Ok (rxl, None) -> r_ns (f_ring f') = r_ns (f_ring f) -> reply_taken f rxb a0 f' rxl fs.
Proof.
  intros Hr Hns. split; [|intros _; exact Hns].
  intros t k Hd. destruct (receive_not_accept _ _ Hr t k Hd).
Qed.

Lemma taken_some f rxb a0 f' rxl fs t :
  receive_telegram (fun t => t) rxb = Ok (rxl, Some t) -> ring_ok (f_ring f) (ts f) -> 0 <= ts f <= 125 -> a0 <> ts f ->
  (is_master_ready_reply (ts f) a0 t -> f_state f' = fs /\ set_next_station (f_ring f) a0 = Ok (f_ring f')) ->
  (~ is_master_ready_reply (ts f) a0 t -> f_ring f' = f_ring f) -> reply_taken f rxb a0 f' rxl fs.
Proof.
  intros Hr (HL & Hrts & _) Hts Hne Hy Hn. apply C12Proofs.receive_telegram_some in Hr. destruct Hr as (n & Hd & ->).
  split; [|intros C; destruct (C t n Hd)].
  intros t' k Hd'. rewrite Hd in Hd'. injection Hd' as <- <-. split; [reflexivity|]. split.
  - intros Hm. destruct (Hy Hm) as (Hs & Hset). split; [|exact Hs].
    exact (proj1 (proj2 (set_next_station_effect _ _ _ HL ltac:(rewrite Hrts; lia) ltac:(rewrite Hrts; exact Hne) Hset))).
  - intros Hm. rewrite (Hn Hm). reflexivity.
Qed.

Lemma do_await_status_outcome f now (w : W) f' w' a0 :
  do_await_status_response A f now w = Ok (f', w') -> f_state f = AwaitStatusResponse a0 ->
  ring_ok (f_ring f) (ts f) -> 0 <= ts f <= 125 -> reply_taken f (w_rx w) a0 f' (w_rx w') (PassToken false AttFirst).
Proof.
  intros H Es Hring Hts.
  destruct (do_await_status_response_spec A _ _ _ _ _ H) as (a1 & Ea1 & Hne & _ & _ & _ & _ & _ & _ & rest & received & Hrecv & -> & Hcases).
  rewrite Es in Ea1. injection Ea1 as <-.
  destruct Hcases as [(-> & _ & _ & Hr)|[(t & -> & _ & _ & E1 & Hm)|[(t & -> & Hnf & _ & _ & Hr)|(-> & [(_ & _ & Hr)|(_ & _ & Hwit & _)])]]].
  - apply (taken_none _ _ _ _ _ _ Hrecv). rewrite Hr. reflexivity.
  - apply (taken_some _ _ _ _ _ _ _ Hrecv Hring Hts Hne); tauto.
  - apply (taken_some _ _ _ _ _ _ _ Hrecv Hring Hts Hne); [|intros _; exact Hr].
    intros Hm. destruct (Hnf (master_ready_is_reply _ _ _ Hm)).
  - apply (taken_none _ _ _ _ _ _ Hrecv). rewrite Hr. reflexivity.
  - apply (taken_none _ _ _ _ _ _ Hrecv). exact (witness_own_pass_ns _ _ _ Hring Hts Hwit).
Qed.

Lemma do_claim_token_outcome f now (w : W) f' w' st :
  do_claim_token A f now w = Ok (f', w') -> f_state f = ClaimToken st ->
  ring_ok (f_ring f) (ts f) -> 0 <= ts f <= 125 ->
  match st with
  | StepScanAwaitResponse a0 => reply_taken f (w_rx w) a0 f' (w_rx w') (ClaimToken StepScan)
  | _ => r_ns (f_ring f') = r_ns (f_ring f) /\ w_rx w' = w_rx w
  end.
Proof.
  intros H Es Hring Hts.
  destruct (C12Proofs.do_claim_token_spec A _ _ _ _ _ H) as (st0 & Es0 & _ & _ & _ & _ & Hspec).
  rewrite Es in Es0. injection Es0 as <-. destruct st as [ | | |a0].
  - destruct Hspec as (Hrx & [(_ & _ & _ & Hr)|(_ & _ & _ & _ & Hr)]); rewrite Hr; split; [reflexivity|exact Hrx|reflexivity|exact Hrx].
  - destruct Hspec as (Hrx & [(_ & _ & _ & Hr)|(_ & _ & _ & _ & Hr)]); rewrite Hr; split; [reflexivity|exact Hrx|reflexivity|exact Hrx].
  - destruct Hspec as (Hr & Hrx & _). rewrite Hr. split; [reflexivity|exact Hrx].
  - destruct Hspec as (Hne & _ & rest & received & Hrecv & -> & Hcases).
    destruct Hcases as [(-> & _ & _ & _ & Hr)|[(t & -> & _ & _ & E1 & _ & Hm)|[(t & -> & Hnf & _ & _ & _ & Hr)|(-> & Hr & _)]]].
    + apply (taken_none _ _ _ _ _ _ Hrecv). rewrite Hr. reflexivity.
    + apply (taken_some _ _ _ _ _ _ _ Hrecv Hring Hts Hne); tauto.
    + apply (taken_some _ _ _ _ _ _ _ Hrecv Hring Hts Hne); [|intros _; exact Hr].
      intros Hm. destruct (Hnf (master_ready_is_reply _ _ _ Hm)).
    + apply (taken_none _ _ _ _ _ _ Hrecv). rewrite Hr. reflexivity.
Qed.

End Found.

(* every rule of l satisfies Q: FdlOracleSound1.onlyp with a predicate on the rule itself, not on rule_prop r *)
Definition onlyr (Q : rule -> Prop) (l : list rule) : Prop := forall r, In r l -> Q r.
Lemma onlyr_nil (Q : rule -> Prop) : onlyr Q []. Proof. intros r []. Qed.
Lemma onlyr_app (Q : rule -> Prop) l1 l2 : onlyr Q l1 -> onlyr Q l2 -> onlyr Q (l1 ++ l2).
Proof. intros H1 H2 r Hr. apply in_app_or in Hr. destruct Hr; auto. Qed.
Lemma onlyr_one (Q : rule -> Prop) r : Q r -> onlyr Q [r].
Proof. intros H r' [<-|[]]. exact H. Qed.
Lemma onlyr_check (Q : rule -> Prop) b r : Q r -> onlyr Q (check b r).
Proof. intros H. unfold check. destruct b; [apply onlyr_nil|apply onlyr_one; exact H]. Qed.
Lemma onlyr_of_onlyp (Q : rule -> Prop) (P : pid -> Prop) l : (forall r, P (rule_prop r) -> Q r) -> onlyp P l -> onlyr Q l.
Proof. intros H O r Hr. exact (H r (O r Hr)). Qed.
Lemma onlyr_in (Q : rule -> Prop) L l : onlyr (fun r => In r L) l -> Forall Q L -> onlyr Q l.
Proof. intros H F r Hr. exact (proj1 (Forall_forall Q L) F r (H r Hr)). Qed.
(* Forall Q [r1; ..; rn] with tac for each Q ri; where tac fails the list is left and the final Forall_nil fails *)
Ltac each_rule tac := repeat (apply Forall_cons; [tac|]); apply Forall_nil.

(* onlyr Q of a rule group: case analysis on its conditionals, `tac` for Q of each rule it can report; a leaf that
   tac does not close (`tac; fail`) is left as it is, so the call ends with open onlyr goals *)
Ltac solve_onlyr tac :=
  repeat first
    [ apply onlyr_nil
    | apply onlyr_app
    | apply onlyr_check; tac; fail
    | apply onlyr_one; tac; fail
    | match goal with
      | |- onlyr _ (if ?b then _ else _) => destruct b
      | |- onlyr _ (match ?x with _ => _ end) => destruct x
      end ].

(* the groups of the first monitor that belong to C01, C06 and C11 *)
Definition x_e_other (p : params) (m : mon) (s : pstep) : list rule :=
  x_e01 p m s ++ x_e06 p m s ++ x_e11a p m s ++ x_e11c p m s ++ x_e11b p m s.

Lemma x_e_other_only p m s : onlyp (is_not PC12) (x_e_other p m s).
Proof.
  unfold x_e_other. apply onlyp_app; [|apply onlyp_app; [|apply onlyp_app; [|apply onlyp_app]]].
  - apply (onlyp_other _ PC01); [discriminate|apply x_e01_only].
  - apply (onlyp_other _ PC06); [discriminate|apply x_e06_only].
  - apply (onlyp_other _ PC11); [discriminate|apply x_e11a_only].
  - apply (onlyp_other _ PC11); [discriminate|apply x_e11c_only].
  - apply (onlyp_other _ PC11); [discriminate|apply x_e11b_only].
Qed.

(* the groups of the second monitor whose rules are left open in FdlOracleSound6-11 *)
Definition y_e_open (p : params) (m : mon) (g : mon2) (s : pstep) : list rule :=
  y_e_sweep p m g s ++ y_e_scan p m g s ++ y_e_live p m g s.

Lemma x_e12b_rules p m s :
  onlyr (fun r => In r [R12_reply_without_request; R12_reply_untruthful; R12_reply_from_wrong_state]) (x_e12b p m s).
Proof. unfold x_e12b. cbv zeta. solve_onlyr ltac:(cbn; auto 8). Qed.
Lemma y_e_found_rules p m g s :
  onlyr (fun r => In r [R12_found_not_successor; R12_successor_changed_without_ready_reply]) (y_e_found p m g s).
Proof. unfold y_e_found. solve_onlyr ltac:(cbn; auto 8). Qed.
Lemma y_e_tok_rules p g s : onlyr (fun r => In r [R12_found_not_next_token]) (y_e_tok p g s).
Proof. unfold y_e_tok. solve_onlyr ltac:(cbn; auto 8). Qed.
Lemma y_e_open_rules p m g s :
  onlyr (fun r => In r [R12_sweep_bound; R12_post_claim_scan_incomplete;
                        R12_gap_wait_never_ends; R11_supervision_never_ends; R15_no_reply_no_timeout]) (y_e_open p m g s).
Proof. unfold y_e_open, y_e_sweep, y_e_scan, y_e_live. cbv zeta. solve_onlyr ltac:(cbn; auto 8). Qed.

Section GapTheorem.
Variable A : Type.
Variable ops : app_ops A.
Variable p : params.
Hypothesis Happs : apps_total A ops.
Hypothesis Hbv : builder_valid p.
Hypothesis Hdata : app_sends_data A ops.

(* J6: the invariant of FdlOracleSound5 and GP *)
Definition J6 (n : nat) (f : fdl) (apps : list A) (buf : bytes) (tl : Z) (m : mon) (g : mon2) : Prop :=
  J5 A p n f apps buf tl m g /\ GP f m.

Lemma api_cases a f f' v m g : api_result p a f = Ok f' ->
  (f_state f' = Offline /\ f_lba f' = None /\ mon_after_api a v m g = (mon_reset v (m_left m), mon2_reset)) \/
  (a = ApiOnline /\ f' = set_conn f ConnOnline).
Proof.
  destruct a; cbn [api_result]; intros E; [left|right|left|discriminate E].
  - destruct (fdl_new_fields _ _ E) as (S1 & _ & L1 & _). auto.
  - injection E as <-. auto.
  - destruct (fdl_new_fields _ _ E) as (S1 & _ & L1 & _). auto.
Qed.

Lemma gp_api a f f' m g v : api_result p a f = Ok f' -> GP f m -> GP f' (fst (mon_after_api a v m g)).
Proof.
  intros E HG Hor. destruct (api_cases a f f' v m g E) as [(S1 & _ & ->)|(-> & ->)]; [reflexivity|exact (HG Hor)].
Qed.

Lemma J6_init n f0 apps : fdl_new p = Ok f0 -> length apps = n -> J6 n f0 apps [] 0 (mon_reset (view_of f0) 0) mon2_reset.
Proof. intros E Hn. split; [apply J5_init; assumption|intros _; reflexivity]. Qed.

Lemma J6_api n a f apps buf tl m g f' :
  J6 n f apps buf tl m g -> api_result p a f = Ok f' ->
  J6 n f' apps buf tl (fst (mon_after_api a (view_of f') m g)) (snd (mon_after_api a (view_of f') m g)).
Proof.
  intros ((HB & c & HV) & HG) E. split; [split|].
  - eapply base_api; eassumption.
  - eapply vi_api; eassumption.
  - eapply gp_api; eassumption.
Qed.

Lemma J6_poll f apps buf tl m g now busy nb f' o apps' calls :
  J6 (length apps) f apps buf tl m g -> tl < now -> time_ok now -> all_bytes nb ->
  poll ops f now (mkPhyIn busy (buf ++ nb)) apps = Ok (f', o, apps', calls) ->
  let s := poll_event now busy (buf ++ nb) f' o calls in
  snd (mon_poll p (length apps) m s) = x_e_other p m s ++ x_e12b p m s /\
  snd (mon_poll2 p (length apps) m g s) = y_e_found p m g s ++ y_e_tok p g s ++ y_e_open p m g s ++ y_e_backoff p m g s /\
  J6 (length apps) f' apps' (rx_left o) now (fst (mon_poll p (length apps) m s)) (fst (mon_poll2 p (length apps) m g s)).
Proof.
  intros (HJ & HG) Hlt Hnow Hnb E s. pose proof HJ as (HB & _).
  destruct (J5_poll A ops p (length apps) Happs Hbv Hdata _ _ _ _ _ _ _ _ _ _ _ _ _ HJ Hlt Hnow Hnb E)
    as ((c' & Hf & H15 & H13 & Hrr & Hend & HV') & HB').
  pose proof (e12a_ok A ops p (length apps) Hdata _ _ _ _ _ _ _ _ _ _ _ _ HB HG E) as H12a.
  fold s in Hf, H15, H13, Hrr, Hend, HV', HB', H12a.
  rewrite mon_poll_eq, mon_poll2_eq. cbn [fst snd]. split; [|split].
  - rewrite H12a, Hf, H15. unfold x_e_other. cbn [app]. rewrite app_nil_r, <- !app_assoc. reflexivity.
  - rewrite H13, Hrr, Hend. unfold y_e_open. cbn [app]. rewrite <- !app_assoc. reflexivity.
  - split; [split; [rewrite <- fst_mon_poll; exact HB'|exists c'; exact HV']|].
    eapply gp_poll; eassumption.
Qed.

Definition q12a (r : rule) : Prop := r <> R12_gap_poll_outside_gap /\ r <> R12_two_gap_polls_per_visit.

Lemma q12a_other r : is_not PC12 (rule_prop r) -> q12a r.
Proof. intros Hr. split; intros ->; apply Hr; reflexivity. Qed.

(* C12: R12_gap_poll_outside_gap and R12_two_gap_polls_per_visit are not reported on a transcript of the model *)
Theorem c12_gap_oracle_sound (apps : list A) (ins : list minput) :
  ins_ok 0 ins ->
  forall k r, In (k, r) (monitor p (length apps) (model_transcript A ops p apps ins)) ->
  r <> R12_gap_poll_outside_gap /\ r <> R12_two_gap_polls_per_visit.
Proof.
  intros Hok.
  apply (generic_sound_transcript A ops p (length apps) q12a (J6 (length apps)) (fun _ => True)); try assumption; try reflexivity.
  - split; discriminate.
  - intros a f apps0 buf tl m g f' HJ E _. exact (J6_api _ _ _ _ _ _ _ _ _ HJ E).
  - intros f apps0 buf tl m g now busy nb f' o apps' calls HJ Hlt Hnow Hnb E _.
    assert (Hlen : length apps = length apps0) by (destruct HJ as ((HB & _) & _); symmetry; exact (b_n _ _ _ _ _ _ _ _ HB)).
    rewrite Hlen in *. destruct (J6_poll _ _ _ _ _ _ _ _ _ _ _ _ _ HJ Hlt Hnow Hnb E) as (H1 & H2 & HJ').
    split; [|split; [|exact HJ']].
    + rewrite H1. apply onlyr_app; [exact (onlyr_of_onlyp _ _ _ q12a_other (x_e_other_only _ _ _))|].
      apply (onlyr_in _ _ _ (x_e12b_rules _ _ _)). each_rule ltac:(split; discriminate).
    + rewrite H2. apply onlyr_app; [|apply onlyr_app; [|apply onlyr_app]].
      * apply (onlyr_in _ _ _ (y_e_found_rules _ _ _ _)). each_rule ltac:(split; discriminate).
      * apply (onlyr_in _ _ _ (y_e_tok_rules _ _ _)). each_rule ltac:(split; discriminate).
      * apply (onlyr_in _ _ _ (y_e_open_rules _ _ _ _)). each_rule ltac:(split; discriminate).
      * exact (onlyr_of_onlyp _ _ _ q12a_other (onlyp_other PC12 PC06 _ ltac:(discriminate) (y_e_backoff_only _ _ _ _))).
  - intros f0 apps0 E Hn _. exact (J6_init _ _ _ E Hn).
  - apply transcript_ok_true.
Qed.

End GapTheorem.
