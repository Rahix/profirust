(* The successor rules of C12 (R12_found_not_successor, R12_found_not_next_token,
   R12_successor_changed_without_ready_reply): a poll in a state that awaits a GAP reply against the verdict of the
   second monitor (PO, RC), invariant GX; with FdlOracleSound6: theorem c12_oracle_sound_partial. *)
From Coq Require Import Arith.
From PB Require Import Common Tables FdlTables Telegram Phy TokenRing Params Fdl FdlOracle FdlProofs FdlStepProofs.
From PB Require Import C05Proofs C01Proofs C11Proofs C15Proofs C13Proofs C12Proofs.
From PB Require Import FdlOracleSound1 FdlOracleSound2 FdlOracleSound3 FdlOracleSound4 FdlOracleSound5.
From PB Require Import FdlOracleSound6.

Section AwaitEntry.
Variable A : Type.
Variable ops : app_ops A.
Notation W := (world A).

Lemma do_use_token_await_entry f now (w : W) f' w' a :
  do_use_token A ops f now w = Ok (f', w') -> awaiting_state (f_state f') a -> w_tx w' <> None.
Proof.
  intros H Haw. destruct (do_use_token_passes A ops _ _ _ _ _ H) as [[K|K]|(f2 & w2 & _ & _ & _ & Hd)].
  - destruct Haw as [C|C]; rewrite C in K; discriminate K.
  - destruct Haw as [C|C]; rewrite C in K; discriminate K.
  - destruct Haw as [C|C].
    + destruct (do_pass_token_gap_poll A _ _ _ _ _ _ Hd C) as (_ & _ & _ & _ & (wire & ->) & _). discriminate.
    + destruct (do_pass_token_ends A _ _ _ _ _ Hd) as [K|K]; rewrite C in K; discriminate K.
Qed.

Lemma visit_poll_await_entry k f now pin (apps : list A) f' o apps' calls a tk :
  poll ops f now pin apps = Ok (f', o, apps', calls) -> Rep k f -> visit_tk (f_state f) = Some tk ->
  awaiting_state (f_state f') a -> tx o <> None.
Proof.
  intros H R Htk Haw.
  destruct (visit_poll_use A ops _ _ _ _ _ _ _ _ _ _ H R Htk) as [K|[K|(f3 & w3 & w' & _ & _ & Hdo & ->)]];
    [exfalso; destruct Haw as [C|C]; rewrite C in K; discriminate K ..|].
  exact (do_use_token_await_entry _ _ _ _ _ _ Hdo Haw).
Qed.

End AwaitEntry.

Section PollFacts.
Variable A : Type.
Variable ops : app_ops A.
Variable n : nat.
Notation W := (world A).

(* outcome of a poll in a state that awaits the GAP reply of a0, in terms of the PHY buffer; `fs`: the state
   after a reply of the polled station *)
Definition PO (f : fdl) (rxb : bytes) (a0 : Z) (f' : fdl) (rxl : bytes) (fs : state) : Prop :=
  (rxl = rxb /\ r_ns (f_ring f') = r_ns (f_ring f)) \/ reply_taken f rxb a0 f' rxl fs.

Lemma sblp_ring_ok f f1 : same_but_lba_pending f f1 -> ring_ok (f_ring f) (ts f) -> ring_ok (f_ring f1) (ts f1).
Proof. intros (Hp & Hr & _) H. unfold ts. rewrite Hp, Hr. exact H. Qed.

Lemma sblp_ts f f1 : same_but_lba_pending f f1 -> ts f1 = ts f.
Proof. intros (Hp & _). unfold ts. rewrite Hp. reflexivity. Qed.

Lemma claim_poll_facts f now pin (apps : list A) f' o apps' calls st :
  poll ops f now pin apps = Ok (f', o, apps', calls) -> f_state f = ClaimToken st -> Rep n f ->
  (forall a, awaiting_state (f_state f') a -> tx o = None -> f_state f' = f_state f) /\
  match st with
  | StepScanAwaitResponse a0 => PO f (rx pin) a0 f' (rx_left o) (ClaimToken StepScan) /\ scan_like (f_state f')
  | StepScan => r_ns (f_ring f') = r_ns (f_ring f) /\ rx_left o = rx pin /\ scan_like (f_state f')
  | _ => r_ns (f_ring f') = r_ns (f_ring f) /\ rx_left o = rx pin
  end.
Proof.
  intros H Es R.
  destruct (poll_split A ops _ _ _ _ _ _ _ _ _ H R ltac:(rewrite Es; discriminate))
    as [(Hr & Hs & _ & Hrx)|(f1 & w1 & w' & Hs & _ & Hrx1 & Hd & -> & ->)].
  - split; [intros a _ _; exact Hs|].
    unfold PO, scan_like. rewrite Hr, Hrx, Hs, Es. destruct st; eauto 7.
  - pose proof (sblp_ring_ok _ _ Hs (rep_ring _ _ R)) as Hring1. pose proof (sblp_ts _ _ Hs) as Hts1.
    pose proof (Rep_ts _ _ R) as (Hts & _). rewrite <- Hts1 in Hts.
    destruct Hs as (_ & Hr1 & _ & _ & Hs1 & _).
    unfold C11Proofs.dispatch in Hd. rewrite Hs1, Es in Hd. cbn [kind_of poll_dispatch] in Hd. rewrite Es in Hs1.
    pose proof (do_claim_token_outcome A _ _ _ _ _ _ Hd Hs1 Hring1 Hts) as Hout.
    destruct (do_claim_token_steps A _ _ _ _ _ _ Hd Hs1) as (Hend & Hentry).
    rewrite Hs1, <- Es in Hentry. split; [exact Hentry|].
    unfold PO, reply_taken in *. rewrite Hts1, Hr1, Hrx1 in Hout. destruct st; tauto.
Qed.

Lemma await_poll_facts f now pin (apps : list A) f' o apps' calls a0 :
  poll ops f now pin apps = Ok (f', o, apps', calls) -> f_state f = AwaitStatusResponse a0 -> Rep n f ->
  PO f (rx pin) a0 f' (rx_left o) (PassToken false AttFirst).
Proof.
  intros H Es R.
  destruct (poll_split A ops _ _ _ _ _ _ _ _ _ H R ltac:(rewrite Es; discriminate))
    as [(Hr & _ & _ & Hrx)|(f1 & w1 & w' & Hs & _ & Hrx1 & Hd & _ & ->)].
  - left. rewrite Hr. auto.
  - pose proof (sblp_ring_ok _ _ Hs (rep_ring _ _ R)) as Hring1. pose proof (sblp_ts _ _ Hs) as Hts1.
    pose proof (Rep_ts _ _ R) as (Hts & _). rewrite <- Hts1 in Hts.
    destruct Hs as (_ & Hr1 & _ & _ & Hs1 & _).
    unfold C11Proofs.dispatch in Hd. rewrite Hs1, Es in Hd. cbn [kind_of poll_dispatch] in Hd. rewrite Es in Hs1.
    pose proof (do_await_status_outcome A _ _ _ _ _ _ Hd Hs1 Hring1 Hts) as Hout.
    right. unfold reply_taken in *. rewrite Hts1, Hr1, Hrx1 in Hout. exact Hout.
Qed.

Lemma await_entry f now pin (apps : list A) f' o apps' calls a :
  poll ops f now pin apps = Ok (f', o, apps', calls) -> Rep n f ->
  awaiting_state (f_state f') a -> tx o = None -> f_state f' = f_state f.
Proof.
  intros H R Haw Hn. pose proof (poll_next A ops _ _ _ _ _ _ _ _ _ H R) as Hnx.
  destruct (f_state f) as [ | |sr cc|sr nps cc|tk fa fcd|st|a1 tk fa|dg att|att|a0] eqn:Es.
  (* next_state: from these states the only awaiting state reached is the one the poll began in *)
  1-4, 9-10: (cbn in Hnx; unfold early_claim in Hnx; destruct Haw as [E|E]; rewrite E in *; cbn in Hnx;
    intuition (try discriminate; congruence)).
  - destruct (visit_poll_await_entry A ops _ _ _ _ _ _ _ _ _ a tk H R ltac:(rewrite Es; reflexivity) Haw Hn).
  - destruct (claim_poll_facts _ _ _ _ _ _ _ _ _ H Es R) as (He & _). rewrite <- Es. exact (He a Haw Hn).
  - destruct (visit_poll_await_entry A ops _ _ _ _ _ _ _ _ _ a tk H R ltac:(rewrite Es; reflexivity) Haw Hn).
  - destruct (pass_token_poll A ops _ _ _ _ _ _ _ _ _ _ Es H) as (_ & _ & _ & _ & [(_ & E & _)|[(addr & _ & Htx & _)|(r' & _ & _ & Htx & _)]]);
      [exact E|contradiction|rewrite Htx in Hn; discriminate Hn].
Qed.

End PollFacts.

(* is_master_ready_reply as the second monitor computes it *)
Definition readyb (tsa a : Z) (t : telegram) : bool :=
  match t with
  | TData h _ =>
      match h_fc h with
      | FcResponse st status =>
          (h_sa h =? a) && (h_da h =? tsa) && (resp_status_to_byte status =? resp_status_to_byte StOk) && is_ready_master st
      | _ => false
      end
  | _ => false
  end.

Lemma readyb_spec tsa a t : readyb tsa a t = true <-> is_master_ready_reply tsa a t.
Proof.
  unfold readyb, is_master_ready_reply. split.
  - destruct t as [h pdu|da sa| ]; try discriminate. destruct (h_fc h) as [fcb rq|st status] eqn:Efc; try discriminate.
    intros H. apply andb_true_iff in H. destruct H as (H & H4). apply andb_true_iff in H. destruct H as (H & H3).
    apply andb_true_iff in H. destruct H as (H1 & H2). apply Z.eqb_eq in H1, H2.
    exists h, pdu, st. split; [reflexivity|].
    assert (status = StOk) by (destruct status; cbn in H3; try discriminate H3; reflexivity). subst status.
    split; [exact Efc|]. split; [|split; assumption].
    destruct st; cbn in H4; try discriminate H4; auto.
  - intros (h & pdu & st & -> & Hfc & Hst & Hsa & Hda). rewrite Hfc, Hsa, Hda, !Z.eqb_refl. cbn [andb].
    destruct Hst as [-> | ->]; reflexivity.
Qed.

Lemma y_ready_reply_eq p m g s :
  y_ready_reply p m g s =
  y_awaiting m && match g_wait g, y_first s with Some a, Some t => readyb (p_address p) a t | _, _ => false end.
Proof.
  unfold y_ready_reply, readyb, y_ts. destruct (y_awaiting m); [|reflexivity]. cbn [andb].
  destruct (g_wait g) as [a|]; [|reflexivity]. destruct (y_first s) as [[h pdu|da sa| ]|]; reflexivity.
Qed.

Section FirstTel.
Variables (now : Z) (busy : bool) (rxb : bytes) (f' : fdl) (o : phy_out) (calls : list call).
Let s := poll_event now busy rxb f' o calls.

Lemma y_first_untouched : rx_left o = rxb -> y_first s = None.
Proof.
  intros H. unfold y_first. cbn [s poll_event s_rx s_consumed]. rewrite H, Nat.sub_diag.
  destruct (decode rxb) as [[ | |t k]| |] eqn:Ed; try reflexivity.
  apply C16Proofs.decode_accept_bounds in Ed. destruct k; [lia|reflexivity].
Qed.

Lemma y_first_consumed t k : decode rxb = Ok (Accept t k) -> rx_left o = skipn k rxb -> y_first s = Some t.
Proof.
  intros Ed H. unfold y_first. cbn [s poll_event s_rx s_consumed]. rewrite Ed, H, skipn_length.
  apply C16Proofs.decode_accept_bounds in Ed.
  replace (length rxb - (length rxb - k))%nat with k by lia. rewrite Nat.eqb_refl. reflexivity.
Qed.

Lemma y_first_none : (forall t k, decode rxb <> Ok (Accept t k)) -> y_first s = None.
Proof.
  intros H. unfold y_first. cbn [s poll_event s_rx]. destruct (decode rxb) as [[ | |t k]| |] eqn:Ed; try reflexivity.
  exfalso. exact (H t k eq_refl).
Qed.

End FirstTel.

Section GX.
Variable A : Type.
Variable ops : app_ops A.
Variable p : params.
Variable n : nat.
Hypothesis Hdata : app_sends_data A ops.

(* the states in which a found successor still waits for its token *)
Definition expect_state (s : state) : Prop :=
  (exists att, s = PassToken false att) \/ s = ClaimToken StepScan \/ exists a1, s = ClaimToken (StepScanAwaitResponse a1).

(* GX: g_wait is the address whose reply the station awaits; g_expect is NS while the token to it is due *)
Record GX (f : fdl) (g : mon2) : Prop := mkGX {
  gx_wait : forall a, awaiting_state (f_state f) a -> g_wait g = Some a;
  gx_expect : forall a, g_expect g = Some a -> r_ns (f_ring f) = a /\ expect_state (f_state f)
}.

(* the verdict of the monitor on the reply, against what the station did with it *)
Definition RC (f f' : fdl) (m : mon) (g : mon2) (s : pstep) : Prop :=
  (y_ready_reply p m g s = true /\ exists a0, g_wait g = Some a0 /\ r_ns (f_ring f') = a0 /\
     (f_state f' = PassToken false AttFirst \/ f_state f' = ClaimToken StepScan)) \/
  (y_ready_reply p m g s = false /\ (y_awaiting m = true -> r_ns (f_ring f') = r_ns (f_ring f))).

Lemma po_rc f rxb a0 f' o fs m g now busy calls :
  PO f rxb a0 f' (rx_left o) fs -> g_wait g = Some a0 -> p_address p = ts f ->
  (fs = PassToken false AttFirst \/ fs = ClaimToken StepScan) ->
  RC f f' m g (poll_event now busy rxb f' o calls).
Proof.
  intros HPO Hw Hts Hfs. unfold RC. rewrite y_ready_reply_eq, Hw.
  (* no telegram is taken: the monitor sees no reply *)
  match goal with |- ?G =>
    assert (Hno : y_first (poll_event now busy rxb f' o calls) = None -> r_ns (f_ring f') = r_ns (f_ring f) -> G)
      by (intros E Hns; right; rewrite E, andb_false_r; split; [reflexivity|intros _; exact Hns])
  end.
  destruct HPO as [(Hrx & Hns)|(H1 & H2)]; [exact (Hno (y_first_untouched _ _ _ _ _ _ Hrx) Hns)|].
  destruct (decode rxb) as [[ | |t k]| |] eqn:Ed;
    try (apply Hno; [apply y_first_none; congruence|apply H2; congruence]).
  destruct (H1 t k eq_refl) as (X1 & X2 & X3).
  rewrite (y_first_consumed _ _ _ _ _ _ t k Ed X1), Hts.
  destruct (readyb (ts f) a0 t) eqn:Er.
  - apply readyb_spec in Er. destruct (X2 Er) as (Y1 & Y2).
    destruct (y_awaiting m); [left|right; split; [reflexivity|discriminate]].
    split; [reflexivity|]. exists a0. rewrite Y2. auto.
  - right. rewrite andb_false_r. split; [reflexivity|]. intros _. apply X3. intros C. apply readyb_spec in C. congruence.
Qed.

Lemma rc_poll f apps buf tl m g now busy nb f' o apps' calls :
  Base A p n f apps buf tl m -> GX f g ->
  poll ops f now (mkPhyIn busy (buf ++ nb)) apps = Ok (f', o, apps', calls) ->
  RC f f' m g (poll_event now busy (buf ++ nb) f' o calls).
Proof.
  intros HB [GW GE] E. pose proof (x_k0_base A p n _ _ _ _ _ HB) as Hk0.
  destruct HB as [R Hp Hn Hv Hl Hpd Hb Htl].
  assert (Hts : p_address p = ts f) by (unfold ts; rewrite Hp; reflexivity).
  change (x_k0 m) with (y_k0 m) in Hk0.
  destruct (f_state f) as [ | |sr cc|sr nps cc|tk fa fcd|st|a1 tk fa|dg att|att|a0] eqn:Es;
    try (right; rewrite y_ready_reply_eq; unfold y_awaiting; rewrite Hk0; cbn; split; [reflexivity|intros C; discriminate C]).
  - pose proof (claim_poll_facts A ops _ _ _ _ _ _ _ _ _ _ E Es R) as (_ & Hc). cbn [rx] in Hc.
    assert (Hquiet : r_ns (f_ring f') = r_ns (f_ring f) /\ rx_left o = buf ++ nb -> RC f f' m g (poll_event now busy (buf ++ nb) f' o calls)).
    { intros (Hns & Hrx). right. rewrite y_ready_reply_eq, (y_first_untouched _ _ _ _ _ _ Hrx).
      destruct (g_wait g); rewrite andb_false_r; (split; [reflexivity|intros _; exact Hns]). }
    destruct st as [ | | |a0].
    + exact (Hquiet Hc).
    + exact (Hquiet Hc).
    + apply Hquiet. tauto.
    + destruct Hc as (HPO & _). eapply po_rc; [exact HPO| |exact Hts|right; reflexivity].
      apply GW. right. reflexivity.
  - pose proof (await_poll_facts A ops _ _ _ _ _ _ _ _ _ _ E Es R) as HPO. cbn [rx] in HPO.
    eapply po_rc; [exact HPO| |exact Hts|left; reflexivity]. apply GW. left. reflexivity.
Qed.

Lemma y_tx_none now busy rxb f' o calls :
  tx o = None -> y_token_tx p (poll_event now busy rxb f' o calls) = None /\ y_gap_poll p (poll_event now busy rxb f' o calls) = None.
Proof. intros H. unfold y_token_tx, y_gap_poll, y_txt. cbn [poll_event s_tx]. rewrite H. split; reflexivity. Qed.

Lemma y_token_of_wire now busy rxb f' o calls da :
  tx o = Some (encode_token da (p_address p)) -> y_token_tx p (poll_event now busy rxb f' o calls) = Some da.
Proof.
  intros H. unfold y_token_tx. rewrite (y_txt_tx _ (encode_token da (p_address p))) by (cbn; exact H).
  rewrite decode_one_token. unfold y_ts. rewrite Z.eqb_refl. reflexivity.
Qed.

Lemma y_token_x s da : y_token_tx p s = Some da -> x_token_tx s = Some (da, p_address p).
Proof.
  unfold y_token_tx, x_token_tx. change (y_txt s) with (x_txt s). destruct (x_txt s) as [[h pdu|da' sa| ]|]; try discriminate.
  unfold y_ts. destruct (Z.eqb_spec sa (p_address p)) as [->|]; [|discriminate]. intros H. injection H as <-. reflexivity.
Qed.

Lemma gap_flag f now busy rxb (apps : list A) f' o apps' calls a :
  poll ops f now (mkPhyIn busy rxb) apps = Ok (f', o, apps', calls) -> Rep (length apps) f -> f_p f = p ->
  awaiting_state (f_state f') a -> tx o <> None ->
  y_gap_poll p (poll_event now busy rxb f' o calls) = Some a.
Proof.
  intros E R Hp Haw Htx. pose proof (Rep_ts _ _ R) as Hts.
  destruct (poll_gap_request_in_gap A ops _ _ _ _ _ _ _ _ a E (conj Htx Haw)) as (_ & Hne & _ & Hrng & Hw & (Hns & Hu) & _).
  assert (Hco : gap_cursor_ok f).
  { split; [lia|]. intros c Ec. pose proof (rep_gap _ _ R) as G. rewrite Ec in G. exact G. }
  specialize (Hrng Hco).
  assert (Hwf : wf_header (status_request_header a (ts f))) by (unfold wf_header, is_addr7; cbn; lia).
  unfold y_gap_poll. rewrite (y_txt_tx _ (sr_wire a (ts f))) by (cbn; exact Hw).
  unfold sr_wire. rewrite (decode_one_data _ [] Hwf) by (cbn; lia).
  cbn [poll_event s_calls status_request_header h_fc h_sa h_da is_fdl_status_request].
  rewrite app_sent_conv. rewrite (app_sent_quiet f calls) by (exists calls; split; [reflexivity|split; assumption]).
  unfold y_ts, ts. rewrite Hp, Z.eqb_refl. reflexivity.
Qed.

(* the kinds in which the monitor forgets g_expect *)
Definition idle_kinds : list state_kind := [KActiveIdle; KListenToken; KOffline].

Lemma expect_poll f apps buf tl m g now busy nb f' o apps' calls a :
  Base A p n f apps buf tl m -> GX f g ->
  poll ops f now (mkPhyIn busy (buf ++ nb)) apps = Ok (f', o, apps', calls) -> g_expect g = Some a ->
  (forall da, y_token_tx p (poll_event now busy (buf ++ nb) f' o calls) = Some da -> da = a) /\
  (y_token_tx p (poll_event now busy (buf ++ nb) f' o calls) = None ->
   kind_in (kind_of (f_state f')) idle_kinds = false ->
   expect_state (f_state f') /\ (y_awaiting m = false -> r_ns (f_ring f') = r_ns (f_ring f))).
Proof.
  intros HB [GW GE] E He. pose proof (x_k0_base A p n _ _ _ _ _ HB) as Hk0.
  destruct HB as [R Hp Hn Hv Hl Hpd Hb Htl].
  assert (Hts : p_address p = ts f) by (unfold ts; rewrite Hp; reflexivity).
  change (x_k0 m) with (y_k0 m) in Hk0.
  destruct (GE a He) as (Hns & Hes).
  set (s := poll_event now busy (buf ++ nb) f' o calls).
  assert (Hclaim : kind_of (f_state f) = KClaimToken -> scan_like (f_state f') ->
            (f_state f = ClaimToken StepScan \/ exists a1, f_state f = ClaimToken (StepScanAwaitResponse a1)) ->
            (forall da, y_token_tx p s = Some da -> da = a) /\
            (y_token_tx p s = None -> kind_in (kind_of (f_state f')) idle_kinds = false ->
             expect_state (f_state f') /\ (y_awaiting m = false -> r_ns (f_ring f') = r_ns (f_ring f)))).
  { intros Hk Hsl Hst. split.
    - intros da Hda. exfalso. apply y_token_x in Hda.
      pose proof (poll_txflags A ops p Hdata _ _ _ _ _ _ _ _ _ R Hp E) as [Htok _ _].
      destruct (Htok _ _ Hda) as (_ & (da' & _ & Hcases) & _).
      destruct Hcases as [(_ & [(_ & [Hi|C])|(_ & C)])|(_ & [C|[C|[C|[C|C]]]])]; try (rewrite Hk in C; discriminate C).
      + destruct Hi as [C|[C|C]]; rewrite Hk in C; discriminate C.
      + destruct Hst as [C'|(a1 & C')]; rewrite C' in C; discriminate C.
      + destruct Hst as [C'|(a1 & C')]; rewrite C' in C; discriminate C.
    - intros _ Hni. split.
      + destruct Hsl as [E1|[(a1 & E1)|[E1|E1]]].
        * right. left. exact E1.
        * right. right. exists a1. exact E1.
        * left. exists AttFirst. exact E1.
        * rewrite E1 in Hni. discriminate Hni.
      + unfold y_awaiting. rewrite Hk0, Hk. intros C. discriminate C. }
  destruct Hes as [(att & Es)|[Es|(a1 & Es)]].
  - destruct (pass_token_poll A ops _ _ _ _ _ _ _ _ _ _ Es E) as (_ & _ & _ & _ & [(Htx & Es' & Hr)|[(addr & C & _)|(r' & _ & _ & Htx & _)]]).
    + destruct (y_tx_none now busy (buf ++ nb) f' o calls Htx) as (Ht & _). fold s in Ht. split.
      * intros da Hda. rewrite Ht in Hda. discriminate Hda.
      * intros _ _. split; [left; exists att; exact Es'|intros _; rewrite Hr; reflexivity].
    + discriminate C.
    + rewrite <- Hts in Htx. pose proof (y_token_of_wire now busy (buf ++ nb) f' o calls _ Htx) as Ht. fold s in Ht. split.
      * intros da Hda. rewrite Ht in Hda. injection Hda as <-. exact Hns.
      * intros C. rewrite Ht in C. discriminate C.
  - destruct (claim_poll_facts A ops _ _ _ _ _ _ _ _ _ _ E Es R) as (_ & _ & _ & Hsl).
    apply Hclaim; [rewrite Es; reflexivity|exact Hsl|left; exact Es].
  - destruct (claim_poll_facts A ops _ _ _ _ _ _ _ _ _ _ E Es R) as (_ & _ & Hsl).
    apply Hclaim; [rewrite Es; reflexivity|exact Hsl|right; exists a1; exact Es].
Qed.

Lemma gx_poll f apps buf tl m g now busy nb f' o apps' calls :
  Base A p n f apps buf tl m -> GX f g ->
  poll ops f now (mkPhyIn busy (buf ++ nb)) apps = Ok (f', o, apps', calls) ->
  y_e_found p m g (poll_event now busy (buf ++ nb) f' o calls) = [] /\
  y_e_tok p g (poll_event now busy (buf ++ nb) f' o calls) = [] /\
  GX f' (y_g' p n m g (poll_event now busy (buf ++ nb) f' o calls)).
Proof.
  intros HB HG E.
  pose proof (rc_poll _ _ _ _ _ _ _ _ _ _ _ _ _ HB HG E) as Hrc.
  pose proof (fun a => expect_poll _ _ _ _ _ _ _ _ _ _ _ _ _ a HB HG E) as Hex.
  destruct HG as [GW GE].
  destruct HB as [R Hp Hn Hv Hl Hpd Hb Htl].
  set (s := poll_event now busy (buf ++ nb) f' o calls) in *.
  assert (Hpre : v_ns (y_pre m) = r_ns (f_ring f)) by (unfold y_pre; rewrite Hv; reflexivity).
  assert (Hpost : v_ns (y_post s) = r_ns (f_ring f')) by reflexivity.
  assert (Hk1 : y_k1 s = kind_of (f_state f')) by reflexivity.
  split; [|split].
  - unfold y_e_found. rewrite Hpre, Hpost.
    destruct Hrc as [(-> & a0 & -> & -> & _)|(-> & Hns)].
    + rewrite Z.eqb_refl. reflexivity.
    + destruct (y_awaiting m); [|reflexivity]. rewrite (Hns eq_refl), Z.eqb_refl. reflexivity.
  - unfold y_e_tok. destruct (y_token_tx p s) as [da|] eqn:Et; [|reflexivity].
    destruct (g_expect g) as [a|] eqn:Ee; [|reflexivity].
    destruct (Hex a eq_refl) as (H1 & _). rewrite (H1 da eq_refl), Z.eqb_refl. reflexivity.
  - split.
    + intros a Haw. change (g_wait (y_g' p n m g s)) with (y_wait p g s). unfold y_wait.
      destruct (tx o) as [wire|] eqn:Etx.
      * assert (Hg : y_gap_poll p s = Some a) by (apply (gap_flag _ _ _ _ _ _ _ _ _ a E R Hp Haw); rewrite Etx; discriminate).
        rewrite Hg. reflexivity.
      * destruct (y_tx_none now busy (buf ++ nb) f' o calls Etx) as (_ & Hg). fold s in Hg. rewrite Hg, Hk1.
        pose proof (await_entry A ops _ _ _ _ _ _ _ _ _ _ E R Haw Etx) as Hsame.
        replace (kind_in (kind_of (f_state f')) [KAwaitStatusResponse; KClaimToken]) with true
          by (destruct Haw as [-> | ->]; reflexivity).
        apply GW. rewrite <- Hsame. exact Haw.
    + intros a. change (g_expect (y_g' p n m g s)) with (y_expect p m g s). unfold y_expect. rewrite Hk1.
      destruct (y_token_tx p s) as [da|] eqn:Et; [discriminate|].
      change [KActiveIdle; KListenToken; KOffline] with idle_kinds.
      destruct (kind_in (kind_of (f_state f')) idle_kinds) eqn:Ei; [discriminate|].
      destruct Hrc as [(-> & a0 & Hw & Hns & Hst)|(-> & Hns)].
      * rewrite Hw. intros H. injection H as <-. split; [exact Hns|].
        destruct Hst as [-> | ->]; [left; exists AttFirst; reflexivity|right; left; reflexivity].
      * intros He. destruct (Hex a He) as (_ & H2). destruct (H2 eq_refl eq_refl) as (Hes & Hns').
        split; [|exact Hes]. destruct (GE a He) as (Ha & _).
        destruct (y_awaiting m) eqn:Eaw; [rewrite (Hns eq_refl)|rewrite (Hns' eq_refl)]; exact Ha.
Qed.

Lemma gx_api a f f' m g v :
  api_result p a f = Ok f' -> GX f g -> GX f' (snd (mon_after_api a v m g)).
Proof.
  intros E [GW GE]. destruct (api_cases p a f f' v m g E) as [(S1 & _ & ->)|(-> & ->)]; [|split; assumption].
  split; [|intros a0 C; discriminate C]. intros a0 Haw. rewrite S1 in Haw. destruct Haw as [C|C]; discriminate C.
Qed.

End GX.

Section SuccessorTheorem.
Variable A : Type.
Variable ops : app_ops A.
Variable p : params.
Hypothesis Happs : apps_total A ops.
Hypothesis Hbv : builder_valid p.
Hypothesis Hdata : app_sends_data A ops.

(* J7: J6 and GX *)
Definition J7 (n : nat) (f : fdl) (apps : list A) (buf : bytes) (tl : Z) (m : mon) (g : mon2) : Prop :=
  J6 A p n f apps buf tl m g /\ GX f g.

Lemma J7_init n f0 apps : fdl_new p = Ok f0 -> length apps = n -> J7 n f0 apps [] 0 (mon_reset (view_of f0) 0) mon2_reset.
Proof.
  intros E Hn. split; [eapply J6_init; eassumption|]. split; [|intros a C; discriminate C].
  intros a Haw. destruct (fdl_new_fields _ _ E) as (S1 & _). rewrite S1 in Haw. destruct Haw as [C|C]; discriminate C.
Qed.

Lemma J7_api n a f apps buf tl m g f' :
  J7 n f apps buf tl m g -> api_result p a f = Ok f' ->
  J7 n f' apps buf tl (fst (mon_after_api a (view_of f') m g)) (snd (mon_after_api a (view_of f') m g)).
Proof. intros (HJ & HX) E. split; [eapply J6_api; eassumption|eapply gx_api; eassumption]. Qed.

Lemma J7_poll f apps buf tl m g now busy nb f' o apps' calls :
  J7 (length apps) f apps buf tl m g -> tl < now -> time_ok now -> all_bytes nb ->
  poll ops f now (mkPhyIn busy (buf ++ nb)) apps = Ok (f', o, apps', calls) ->
  let s := poll_event now busy (buf ++ nb) f' o calls in
  snd (mon_poll p (length apps) m s) = x_e_other p m s ++ x_e12b p m s /\
  snd (mon_poll2 p (length apps) m g s) = y_e_open p m g s ++ y_e_backoff p m g s /\
  J7 (length apps) f' apps' (rx_left o) now (fst (mon_poll p (length apps) m s)) (fst (mon_poll2 p (length apps) m g s)).
Proof.
  intros (HJ & HX) Hlt Hnow Hnb E s. pose proof HJ as ((HB & _) & _).
  destruct (J6_poll A ops p Happs Hbv Hdata _ _ _ _ _ _ _ _ _ _ _ _ _ HJ Hlt Hnow Hnb E) as (H1 & H2 & HJ').
  destruct (gx_poll A ops p (length apps) Hdata _ _ _ _ _ _ _ _ _ _ _ _ _ HB HX E) as (Hfound & Htok & HX').
  fold s in H1, H2, HJ', Hfound, Htok, HX'. rewrite Hfound, Htok in H2.
  split; [exact H1|]. split; [exact H2|]. split; [exact HJ'|]. rewrite mon_poll2_eq. exact HX'.
Qed.

Definition c12_covered : list rule :=
  [R12_gap_poll_outside_gap; R12_two_gap_polls_per_visit;
   R12_found_not_successor; R12_found_not_next_token; R12_successor_changed_without_ready_reply].

Definition nin (l : list rule) (r : rule) : Prop := ~ In r l.
(* nin l r for a concrete rule r and list l: r differs from every element; fails if r is in l *)
Ltac nin_leaf := unfold nin; cbn; intuition discriminate.

Lemma c12_covered_other r : is_not PC12 (rule_prop r) -> nin c12_covered r.
Proof. intros Hr Hin. cbn in Hin. repeat (destruct Hin as [<-|Hin]; [apply Hr; reflexivity|]). exact Hin. Qed.

(* C12: the rules of c12_covered are not reported on a transcript of the model *)
Theorem c12_oracle_sound_partial (apps : list A) (ins : list minput) :
  ins_ok 0 ins ->
  forall k r, In (k, r) (monitor p (length apps) (model_transcript A ops p apps ins)) -> ~ In r c12_covered.
Proof.
  intros Hok.
  apply (generic_sound_transcript A ops p (length apps) (nin c12_covered) (J7 (length apps)) (fun _ => True)); try assumption; try reflexivity.
  - nin_leaf.
  - intros a f apps0 buf tl m g f' HJ E _. exact (J7_api _ _ _ _ _ _ _ _ _ HJ E).
  - intros f apps0 buf tl m g now busy nb f' o apps' calls HJ Hlt Hnow Hnb E _.
    assert (Hlen : length apps = length apps0) by (destruct HJ as (((HB & _) & _) & _); symmetry; exact (b_n _ _ _ _ _ _ _ _ HB)).
    rewrite Hlen in *. destruct (J7_poll _ _ _ _ _ _ _ _ _ _ _ _ _ HJ Hlt Hnow Hnb E) as (H1 & H2 & HJ').
    split; [|split; [|exact HJ']].
    + rewrite H1. apply onlyr_app; [exact (onlyr_of_onlyp _ _ _ c12_covered_other (x_e_other_only _ _ _))|].
      apply (onlyr_in _ _ _ (x_e12b_rules _ _ _)). each_rule nin_leaf.
    + rewrite H2. apply onlyr_app.
      * apply (onlyr_in _ _ _ (y_e_open_rules _ _ _ _)). each_rule nin_leaf.
      * exact (onlyr_of_onlyp _ _ _ c12_covered_other (onlyp_other PC12 PC06 _ ltac:(discriminate) (y_e_backoff_only _ _ _ _))).
  - intros f0 apps0 E Hn _. exact (J7_init _ _ _ E Hn).
  - apply transcript_ok_true.
Qed.

End SuccessorTheorem.
