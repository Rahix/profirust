(* C06, rule R06_no_backoff: in every poll its rule group is empty (backoff_ok: theorem C06Proofs.backoff against the
   second monitor), with the invariant UB. *)
From Coq Require Import Arith.
From PB Require Import Common Tables FdlTables Telegram Phy TokenRing Params Fdl FdlOracle FdlProofs FdlStepProofs.
From PB Require Import C05Proofs C01Proofs C11Proofs C15Proofs C13Proofs C12Proofs.
From PB Require Import FdlOracleSound1 FdlOracleSound2 FdlOracleSound3 FdlOracleSound4 FdlOracleSound5 FdlOracleSound6 FdlOracleSound7.
From PB Require C06Proofs.

Section Backoff.
Variable A : Type.
Variable ops : app_ops A.
Variable p : params.
Variable n : nat.

(* UB: last_bus_activity is not later than the last poll or the predicted end of the station's last transmission
   as the second monitor keeps it (l_txend) *)
Definition UB (f : fdl) (tl : Z) (g : mon2) : Prop :=
  forall l, f_lba f = Some l -> l <= tl \/ exists e, l_txend g = Some e /\ l <= e.

Lemma ub_poll f apps buf tl m g now busy nb f' o apps' calls :
  Base A p n f apps buf tl m -> UB f tl g -> tl <= now ->
  poll ops f now (mkPhyIn busy (buf ++ nb)) apps = Ok (f', o, apps', calls) ->
  UB f' now (y_g' p n m g (poll_event now busy (buf ++ nb) f' o calls)).
Proof.
  intros HB HU Hle E. pose proof (b_p _ _ _ _ _ _ _ _ HB) as Hp.
  pose proof (poll_lba_case A ops _ _ _ _ _ _ _ _ _ E) as LC.
  intros l' El'. change (l_txend (y_g' p n m g (poll_event now busy (buf ++ nb) f' o calls))) with
    (y_txend p g (poll_event now busy (buf ++ nb) f' o calls)).
  unfold y_txend, y_tx_end, y_now. cbn [poll_event s_tx FdlOracle.s_now].
  destruct LC as [wire l Etx L' Hb0 Hng El Hlt|Etx L'|Etx L'|Etx M L'|Etx (S1 & C1 & P1 & L1) Hl1]; rewrite Etx.
  - right. eexists. split; [reflexivity|]. rewrite L' in El'. injection El' as <-. rewrite dur_is_prop, Hp. lia.
  - rewrite L' in El'. destruct (HU l' El') as [H|(e & He & H)]; [left; lia|right; exists e; split; assumption].
  - rewrite L' in El'. injection El' as <-. destruct (f_lba f) as [l|] eqn:El; cbn [gv]; [|left; lia].
    destruct (HU l El) as [H|(e & He & H)]; [left; lia|right; exists e; split; assumption].
  - rewrite L' in El'. injection El' as <-. destruct (f_lba f) as [l|] eqn:El; cbn [gv]; [|left; lia].
    destruct (HU l El) as [H|(e & He & H)]; [left; lia|].
    destruct (Z.le_ge_cases l now); [left; lia|right; exists e; split; [exact He|lia]].
  - destruct L1 as [L1|L1]; rewrite L1 in El'; [discriminate El'|injection El' as <-; left; lia].
Qed.

Lemma ub_api a f f' m g v tl : api_result p a f = Ok f' -> UB f tl g -> UB f' tl (snd (mon_after_api a v m g)).
Proof.
  intros E HU. destruct (api_cases p a f f' v m g E) as [(_ & L1 & ->)|(-> & ->)]; [|exact HU].
  intros l El. rewrite L1 in El. discriminate El.
Qed.

Lemma backoff_ok f apps buf tl m g c now busy nb f' o apps' calls :
  Base A p n f apps buf tl m -> VI p n f tl m g c -> GX f g -> UB f tl g -> tl < now ->
  poll ops f now (mkPhyIn busy (buf ++ nb)) apps = Ok (f', o, apps', calls) ->
  y_e_backoff p m g (poll_event now busy (buf ++ nb) f' o calls) = [].
Proof.
  intros HB HV [GW _] HU Hlt E. pose proof (x_k0_base A p n _ _ _ _ _ HB) as Hk0. change (x_k0 m) with (y_k0 m) in Hk0.
  destruct HB as [R Hp Hn Hv Hl Hpd Hb Htl].
  assert (Hts : y_ts p = ts f) by (unfold y_ts, ts; rewrite Hp; reflexivity).
  set (s := poll_event now busy (buf ++ nb) f' o calls).
  unfold y_e_backoff. destruct (y_looks g s) eqn:Elooks; [|reflexivity].
  cbn [s poll_event s_rx]. destruct (decode (buf ++ nb)) as [[ | |t k]| |] eqn:Ed; try reflexivity.
  cbv zeta.
  match goal with |- (if ?u then _ else _) = [] => destruct u eqn:Eu end; [|reflexivity].
  (* the poll looks at the buffer *)
  unfold y_looks, y_ongoing, y_now in Elooks. cbn [s poll_event s_busy FdlOracle.s_now] in Elooks.
  apply andb_true_iff in Elooks. destruct Elooks as (Hbusy & Hong).
  assert (Hb0 : busy = false) by (destruct busy; [discriminate Hbusy|reflexivity]).
  assert (Hpred : C11Proofs.predicted f now = false).
  { unfold C11Proofs.predicted. destruct (f_lba f) as [l|] eqn:El; [|reflexivity]. apply Z.leb_gt.
    destruct (HU l El) as [H|(e & He & H)]; [lia|]. rewrite He in Hong. apply negb_true_iff, Z.leb_gt in Hong. lia. }
  assert (Hdec : DecodeSpec.decode_spec (buf ++ nb) = Accept t k).
  { rewrite DecodeSpec.decode_is_spec in Ed. injection Ed as Ed. exact Ed. }
  assert (Hun : C06Proofs.unexpected_for f t).
  { unfold C06Proofs.unexpected_for. rewrite Hk0 in Eu. unfold y_waiting_c12 in Eu. rewrite Hk0 in Eu.
    unfold y_pre in Eu. rewrite Hv in Eu.
    destruct (f_state f) as [ | |sr cc|sr nps cc|tk fa fcd|st|a tk fa|dg att|att|a0] eqn:Es;
      cbn [kind_of state_kind_eqb orb andb view_of v_scan_await] in Eu; try discriminate Eu.
    - rewrite Es in Eu. destruct st as [ | | |a0]; try discriminate Eu.
      rewrite (GW a0 ltac:(right; reflexivity)) in Eu. rewrite Hts in Eu. apply negb_true_iff in Eu.
      unfold C06Proofs.gap_reply_from. destruct t as [h pdu|da sa| ]; try reflexivity.
      destruct h as [da sa ds ss fc]. cbn [h_fc h_sa h_da] in Eu. destruct fc; [reflexivity|exact Eu].
    - destruct HV as [(_ & _ & Vst) Vout _ _ _ _ _]. unfold inv_st in Vst. rewrite Es in Vst. destruct Vst as (Vo & _).
      rewrite Vout, Vo in Eu. apply negb_true_iff in Eu. rewrite Hts in Eu.
      unfold is_valid_response. destruct t as [h pdu|da sa| ]; [|reflexivity|discriminate Eu].
      destruct (h_fc h); [rewrite andb_false_r; reflexivity|rewrite andb_true_r; exact Eu].
    - rewrite (GW a0 ltac:(left; reflexivity)) in Eu. rewrite Hts in Eu. apply negb_true_iff in Eu.
      unfold C06Proofs.gap_reply_from. destruct t as [h pdu|da sa| ]; try reflexivity.
      destruct h as [da sa ds ss fc]. cbn [h_fc h_sa h_da] in Eu. destruct fc; [reflexivity|exact Eu]. }
  rewrite Hb0 in E.
  destruct (C06Proofs.backoff A ops f now (mkPhyIn false (buf ++ nb)) apps t k f' o apps' calls Hun eq_refl Hpred Hdec E)
    as (Hs' & -> & -> & _).
  unfold y_k1, y_post. cbn [s poll_event s_view s_tx s_calls s_consumed s_rx view_of v_kind tx rx_left rx map]. rewrite Hs'.
  cbn [kind_of state_kind_eqb andb]. rewrite skipn_length.
  apply C16Proofs.decode_accept_bounds in Ed.
  replace (length (buf ++ nb) - (length (buf ++ nb) - k))%nat with k by lia. rewrite Nat.eqb_refl. reflexivity.
Qed.

End Backoff.
