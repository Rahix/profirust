(* C11, supervision of the token pass: in every poll the rule groups of R11_retry_too_early, R11_too_many_retries,
   R11_removed_too_early, R11_heard_but_supervising (e11b_ok) and R11_accept_while_listening (listen_ok) are empty.
   With builder-valid parameters a poll in CheckTokenPass never falls back to PassToken: the slot time covers the
   synchronisation pause (check_pass_no_wait). *)
From Coq Require Import Arith.
From PB Require Import Common Tables FdlTables Telegram Phy TokenRing Params Fdl FdlOracle FdlProofs FdlStepProofs.
From PB Require Import LasRep C02Proofs C05Proofs C01Proofs C11Proofs C15Proofs C13Proofs C12Proofs.
From PB Require Import FdlOracleSound1 FdlOracleSound2 FdlOracleSound3 FdlOracleSound4 FdlOracleSound5 FdlOracleSound6 FdlOracleSound7 FdlOracleSound8.

Lemma sync_le_slot p : builder_valid p -> p_bits_to_time p sync_pause_bits <= slot_time p.
Proof.
  intros B. destruct B as (_ & (Hmin & _) & _).
  unfold slot_time, p_bits_to_time. apply btt_mono.
  assert (100 <= p_slot_bits p) by (destruct (p_baud p); cbn in Hmin; lia). unfold sync_pause_bits. lia.
Qed.

Lemma remove_ns_changes r a r1 :
  ring_ok r a -> 0 <= a < 128 -> r_ns r <> a -> remove_station r (r_ns r) = Ok r1 -> r_ns r1 <> r_ns r.
Proof.
  intros R Ha Hne E. pose proof (ring_ok_ns _ _ R Ha) as Hns. destruct R as (W & Ht & Hn & _).
  rewrite remove_station_ok in E by exact Hns. injection E as <-.
  unfold update_next_previous. cbn [r_ns r_las r_ts]. rewrite Ht. intros C.
  destruct (next_of_in (las_ones (set_nth (r_las r) (Z.to_nat (r_ns r)) false)) a) as [E1|E1].
  - rewrite E1 in C. apply Hne. symmetry. exact C.
  - rewrite C in E1. apply In_las_ones in E1. unfold LasOracle.active, LasOracle.activeb in E1. apply andb_true_iff in E1. destruct E1 as (_ & E1).
    rewrite nth_set_nth_eq in E1; [discriminate E1|]. unfold wf in W. rewrite W. lia.
Qed.

Section Retry.
Variable A : Type.
Variable ops : app_ops A.
Notation W := (world A).

Lemma do_pass_token_nowait f now (w : W) f' w' l :
  do_pass_token A f now w = Ok (f', w') -> f_lba f = Some l -> l + p_bits_to_time (f_p f) sync_pause_bits < now ->
  kind_of (f_state f') <> KPassToken.
Proof. intros H El Hlt Hk. pose proof (do_pass_token_wait_timing A _ _ _ _ _ _ H Hk El). lia. Qed.

Lemma in_pass_poll_split f now pin (apps : list A) f' o a c :
  in_pass (f_state f) = true -> poll ops f now pin apps = Ok (f', o, a, c) -> polled A ops f now pin f' o.
Proof.
  intros Hp H. apply (poll_in_pass_body A ops) in H; [|exact Hp]. destruct H as (w' & H & -> & _).
  eapply body_polled; [| |exact H]; reflexivity.
Qed.

(* a poll in CheckTokenPass never ends in PassToken: when the slot time has run out the synchronisation pause is
   over as well (builder-valid parameters) and the retry goes out in this poll *)
Lemma check_pass_no_wait f now pin (apps : list A) f' o a c att :
  f_state f = CheckTokenPass att -> builder_valid (f_p f) ->
  poll ops f now pin apps = Ok (f', o, a, c) -> kind_of (f_state f') <> KPassToken.
Proof.
  intros Hst Hbv H.
  destruct (in_pass_poll_split _ _ _ _ _ _ _ _ ltac:(rewrite Hst; reflexivity) H)
    as [(_ & Hs & _)|(f1 & w1 & w' & (Hp1 & _ & _ & _ & Hs1 & _) & _ & _ & Hd & _)].
  - rewrite Hs, Hst. discriminate.
  - unfold C11Proofs.dispatch in Hd. rewrite Hs1, Hst in Hd. cbn [kind_of poll_dispatch] in Hd.
    assert (Hst1 : f_state f1 = CheckTokenPass att) by congruence.
    destruct (do_check_token_pass_cse A _ _ _ _ _ _ Hst1 Hd) as (f1' & [|] & Ecs).
    + destruct (do_check_token_pass_expired A _ _ _ _ _ _ _ Hst1 Ecs Hd) as (f2 & w2 & Hd2 & _ & _ & Hp2 & _ & _ & Hl2 & _).
      apply cse_spec in Ecs. destruct Ecs as (_ & l & _ & El & Hb). symmetry in Hb. apply Z.ltb_lt in Hb.
      rewrite El in Hl2. eapply do_pass_token_nowait; [exact Hd2|exact Hl2|].
      pose proof (sync_le_slot _ Hbv). rewrite Hp2. rewrite Hp1 in *. lia.
    + pose proof (do_check_token_pass_waiting A _ _ _ _ _ _ _ Hst1 Ecs Hd) as (_ & _ & _ & _ & _ & _ & Hm).
      intros C. destruct (DecodeSpec.decode_spec (w_rx w1)); [destruct Hm as (E & _); rewrite E in C; discriminate C ..|].
      destruct (f_state f'); try discriminate C. exact Hm.
Qed.

Lemma do_use_token_pass_ns f now (w : W) f' w' att :
  do_use_token A ops f now w = Ok (f', w') -> ring_ok (f_ring f) (ts f) -> 0 <= ts f <= 125 ->
  f_state f' = CheckTokenPass att ->
  att = AttFirst /\ w_tx w' = Some (encode_token (r_ns (f_ring f')) (ts f)) /\ r_ns (f_ring f') <> ts f /\
  r_ns (f_ring f') = r_ns (f_ring f).
Proof.
  intros H Hring Hts Es'.
  destruct (do_use_token_passes A ops _ _ _ _ _ H) as [[K|K]|(f2 & w2 & Hpp & Hr2 & Es2 & Hd)]; try (rewrite Es' in K; discriminate K).
  assert (Hts2 : ts f2 = ts f) by (unfold ts; rewrite Hpp; reflexivity).
  destruct (C12Proofs.do_pass_token_spec A _ _ _ _ _ Hd) as (dg & att0 & Es2' & _ & _ & _ & _ & _ & [(_ & Hs & _)|[(_ & a & _ & _ & Hs & _)|(_ & _ & Htx & Hwit & Hs)]]);
    [rewrite Hs, Es2 in Es'; discriminate Es'|rewrite Hs in Es'; discriminate Es'|].
  rewrite Es2 in Es2'. injection Es2' as _ <-. rewrite Hts2, Hr2 in *.
  pose proof (witness_own_pass_ns _ _ _ Hring Hts Hwit) as Hns.
  destruct Hs as [(_ & Hs)|(Hne & Hs)]; rewrite Hs in Es'; [discriminate Es'|]. injection Es' as <-.
  rewrite Hns in Hne |- *. repeat split; reflexivity || assumption.
Qed.

Lemma visit_pass_token f now pin (apps : list A) f' o apps' calls tk att n :
  poll ops f now pin apps = Ok (f', o, apps', calls) -> Rep n f -> visit_tk (f_state f) = Some tk ->
  f_state f' = CheckTokenPass att ->
  att = AttFirst /\ tx o = Some (encode_token (r_ns (f_ring f')) (ts f)) /\ r_ns (f_ring f') <> ts f /\
  r_ns (f_ring f') = r_ns (f_ring f).
Proof.
  intros H R Htk Es'. pose proof (Rep_ts _ _ R) as (Hts & _). pose proof (rep_ring _ _ R) as Hring.
  destruct (visit_poll_use A ops _ _ _ _ _ _ _ _ _ _ H R Htk) as [K|[K|(f3 & w3 & w' & Hp3 & Hr3 & Hdo & ->)]];
    try (rewrite Es' in K; discriminate K).
  assert (Hts3 : ts f3 = ts f) by (unfold ts; rewrite Hp3; reflexivity).
  rewrite <- Hts3, <- Hr3 in *. exact (do_use_token_pass_ns _ _ _ _ _ _ Hdo Hring Hts Es').
Qed.

Lemma idle_poll_not_in_pass f now pin (apps : list A) f' o apps' calls :
  poll ops f now pin apps = Ok (f', o, apps', calls) -> have_token (f_state f) = false -> in_pass (f_state f) = false ->
  in_pass (f_state f') = false.
Proof.
  intros H Hht Hip. destruct (idle_poll_ends A ops _ _ _ _ _ _ _ _ H Hht Hip) as [(_ & K)|[[K|K]|K]];
    [exact K|rewrite K; reflexivity|rewrite K; reflexivity|destruct (f_state f'); try discriminate K; reflexivity].
Qed.

Lemma do_claim_token_not_in_pass f now (w : W) f' w' att : do_claim_token A f now w = Ok (f', w') -> f_state f' <> CheckTokenPass att.
Proof.
  intros H C. destruct (C12Proofs.do_claim_token_spec A _ _ _ _ _ H) as (st & Es & _).
  destruct (do_claim_token_steps A _ _ _ _ _ _ H Es) as (He & _). rewrite C in He. unfold scan_like in He.
  destruct st; [destruct He as [He|He]|destruct He as [He|He]
              |destruct He as [He|[(a & He)|[He|He]]]|destruct He as [He|[(a & He)|[He|He]]]]; discriminate He.
Qed.

Lemma check_pass_entry f now pin (apps : list A) f' o apps' calls att' n :
  poll ops f now pin apps = Ok (f', o, apps', calls) -> Rep n f ->
  (forall dg att, f_state f = PassToken dg att -> att = AttFirst) ->
  f_state f' = CheckTokenPass att' ->
  (tx o = None /\ f_state f = CheckTokenPass att' /\ f_ring f' = f_ring f) \/
  (tx o = Some (encode_token (r_ns (f_ring f')) (ts f)) /\ r_ns (f_ring f') <> ts f /\
   ((exists att, f_state f = CheckTokenPass att /\ att' = check_pass_next att /\ rx_left o = rx pin /\
       (if check_pass_removes att then r_ns (f_ring f') <> r_ns (f_ring f) else r_ns (f_ring f') = r_ns (f_ring f))) \/
    (kind_of (f_state f) <> KCheckTokenPass /\ att' = AttFirst))).
Proof.
  intros H R Hfirst Es'. pose proof (Rep_ts _ _ R) as (Hts & _). pose proof (rep_ring _ _ R) as Hring.
  pose proof (poll_next A ops _ _ _ _ _ _ _ _ _ H R) as Hnx. rewrite Es' in Hnx.
  destruct (f_state f) as [ | |sr cc|sr nps cc|tk fa fcd|st|a1 tk fa|dg att|att|a0] eqn:Es;
    try (exfalso; cbn in Hnx; unfold early_claim in Hnx; intuition discriminate).   (* next_state: no CheckTokenPass from these *)
  - destruct (visit_pass_token _ _ _ _ _ _ _ _ tk att' n H R ltac:(rewrite Es; reflexivity) Es') as (-> & Htx & Hne & _).
    right. split; [exact Htx|split; [exact Hne|right; split; [discriminate|reflexivity]]].
  - destruct (visit_pass_token _ _ _ _ _ _ _ _ tk att' n H R ltac:(rewrite Es; reflexivity) Es') as (-> & Htx & Hne & _).
    right. split; [exact Htx|split; [exact Hne|right; split; [discriminate|reflexivity]]].
  - destruct (pass_token_poll A ops _ _ _ _ _ _ _ _ _ _ Es H) as (_ & _ & _ & _ & [(_ & E & _)|[(addr & _ & _ & E & _)|(r' & Hwit & Hr' & Htx & E)]]);
      try (rewrite E in Es'; discriminate Es').
    rewrite E in Es'. destruct (r_ns r' =? ts f) eqn:En; [discriminate Es'|]. apply Z.eqb_neq in En. injection Es' as <-.
    pose proof (witness_own_pass_ns _ _ _ Hring Hts Hwit) as Hns.
    right. rewrite Hr', Hns. split; [exact Htx|split; [rewrite <- Hns; exact En|right; split; [discriminate|exact (Hfirst _ _ eq_refl)]]].
  - destruct (check_pass_poll A ops _ _ _ _ _ _ _ _ _ Es H) as (_ & _ & _ & Hc).
    destruct (slot_expired f now pin).
    + destruct Hc as (Hrx & r1 & Hrm & [(_ & E & _)|(r' & Hwit & Hr' & Htx & E)]); [rewrite E in Es'; discriminate Es'|].
      rewrite E in Es'. destruct (r_ns r' =? ts f) eqn:En; [discriminate Es'|]. apply Z.eqb_neq in En. injection Es' as <-.
      assert (Hring1 : ring_ok r1 (ts f)).
      { destruct (check_pass_removes att); [|subst r1; exact Hring].
        destruct (remove_station_ring_ok _ _ (r_ns (f_ring f)) Hring ltac:(lia) (ring_ok_ns _ _ Hring ltac:(lia))) as (r2 & E2 & R2).
        rewrite Hrm in E2. injection E2 as <-. exact R2. }
      pose proof (witness_own_pass_ns _ _ _ Hring1 Hts Hwit) as Hns.
      right. rewrite Hr'. split; [rewrite Hns; exact Htx|]. split; [exact En|]. left. exists att.
      split; [reflexivity|]. split; [reflexivity|]. split; [exact Hrx|].
      destruct (check_pass_removes att).
      * rewrite Hns. destruct (Z.eq_dec (r_ns (f_ring f)) (ts f)) as [E0|E0].
        -- rewrite E0. rewrite <- Hns. exact En.
        -- exact (remove_ns_changes _ _ _ Hring ltac:(lia) E0 Hrm).
      * subst r1. exact Hns.
    + destruct Hc as (Htx & _ & Hc). left. split; [exact Htx|].
      destruct (tx_busy pin || predicted f now);
        [|destruct (DecodeSpec.decode_spec (rx pin)); [| |exfalso; rewrite Es' in Hc; exact Hc]];
        destruct Hc as (E & Hr & _); rewrite E in Es'; injection Es' as <-; (split; [reflexivity|exact Hr]).
  - (* AwaitStatusResponse: the slot time ran out and the token goes on *)
    destruct (poll_split A ops _ _ _ _ _ _ _ _ _ H R ltac:(rewrite Es; discriminate))
      as [(_ & Hs & _)|(f1 & w1 & w' & Hs & _ & _ & Hd & -> & _)].
    + exfalso. rewrite Hs, Es in Es'. discriminate Es'.
    + pose proof (sblp_ring_ok _ _ Hs Hring) as Hring1. pose proof (sblp_ts _ _ Hs) as Hts1.
      destruct Hs as (_ & Hr1 & _ & _ & Hs1 & _). unfold C11Proofs.dispatch in Hd. rewrite Hs1, Es in Hd. cbn [kind_of poll_dispatch] in Hd.
      destruct (do_await_status_response_spec A _ _ _ _ _ Hd) as (a1 & _ & _ & _ & _ & _ & _ & _ & _ & rest & received & _ & _ & Hcases).
      destruct Hcases as [(_ & _ & E & _)|[(t & _ & _ & _ & E & _)|[(t & _ & _ & _ & E & _)|(_ & [(_ & E & _)|(_ & Htx & Hwit & [(_ & E)|(Hne & E)])])]]];
        try (rewrite E in Es'; try rewrite Hs1 in Es'; try rewrite Es in Es'; discriminate Es').
      rewrite E in Es'. injection Es' as <-. rewrite Hts1 in *.
      pose proof (witness_own_pass_ns _ _ _ Hring1 Hts Hwit) as Hns.
      right. split; [rewrite Hns; exact Htx|split; [exact Hne|right; split; [discriminate|reflexivity]]].
Qed.

End Retry.

Section RetryMon.
Variable A : Type.
Variable ops : app_ops A.
Variable p : params.
Variable n : nat.
Hypothesis Hbv : builder_valid p.

(* PS (pass, not the previous station r_ps): the monitor's record m_pass of the current token pass is NS with the
   number of the attempt label of the code; a pass begins with the first attempt *)
Record PS (f : fdl) (m : mon) : Prop := mkPS {
  ps_check : forall att, f_state f = CheckTokenPass att -> m_pass m = Some (r_ns (f_ring f), att_index att);
  ps_pass : forall dg att, f_state f = PassToken dg att -> att = AttFirst
}.

Lemma m_pass_x_m3 m s : m_pass (x_m3 p n m s) = x_pass p m s.
Proof. unfold x_m3. destruct (x_new_visit p m s); [reflexivity|]. destruct (state_kind_eqb _ _); reflexivity. Qed.

Lemma delivered_reject rxb : DecodeSpec.decode_spec rxb = Reject -> delivered rxb = [].
Proof. intros H. unfold delivered, receive_all_fuel. rewrite C16Proofs.receive_all_step, H. reflexivity. Qed.

Lemma silent_from_e01 m s w :
  x_e01 p m s = [] -> s_tx s = Some w -> x_k0 m = KCheckTokenPass -> x_silent m s (x_slot p) = true.
Proof.
  unfold x_e01. intros H Etx Hk. rewrite Etx, Hk in H. cbn [kind_in existsb state_kind_eqb orb] in H.
  apply app_eq_nil in H. destruct H as (_ & H). apply app_eq_nil in H. destruct H as (_ & H).
  unfold check in H. destruct (x_silent m s (x_slot p)); [reflexivity|discriminate H].
Qed.

Lemma encode_token_inj a b c d : encode_token a b = encode_token c d -> a = c /\ b = d.
Proof. intros H. pose proof (decode_one_token a b) as H1. rewrite H, decode_one_token in H1. injection H1 as <- <-. split; reflexivity. Qed.

Lemma x_token_of_wire now busy rxb f' o calls da sa :
  tx o = Some (encode_token da sa) -> x_token_tx (poll_event now busy rxb f' o calls) = Some (da, sa).
Proof. intros H. unfold x_token_tx. rewrite (x_txt_tx _ (encode_token da sa)) by (cbn; exact H). rewrite decode_one_token. reflexivity. Qed.

Lemma x_token_none now busy rxb f' o calls : tx o = None -> x_token_tx (poll_event now busy rxb f' o calls) = None.
Proof. intros H. unfold x_token_tx, x_txt. cbn [poll_event s_tx]. rewrite H. reflexivity. Qed.

Lemma e11b_ok f apps buf tl m now busy nb f' o apps' calls :
  Base A p n f apps buf tl m -> PS f m ->
  poll ops f now (mkPhyIn busy (buf ++ nb)) apps = Ok (f', o, apps', calls) ->
  x_e01 p m (poll_event now busy (buf ++ nb) f' o calls) = [] ->
  x_e11b p m (poll_event now busy (buf ++ nb) f' o calls) = [].
Proof.
  intros HB [PC PP] E H01. pose proof (x_k0_base A p n _ _ _ _ _ HB) as Hk0.
  destruct HB as [R Hp Hn Hv Hl Hpd Hb Htl].
  pose proof (Rep_ts _ _ R) as (Hts & _). pose proof (rep_ring _ _ R) as Hring.
  assert (Hxts : x_ts p = ts f) by (unfold x_ts, ts; rewrite Hp; reflexivity).
  set (s := poll_event now busy (buf ++ nb) f' o calls) in *.
  unfold x_e11b. rewrite Hk0.
  destruct (state_kind_eqb (kind_of (f_state f)) KCheckTokenPass) eqn:Ek.
  2:{ destruct (x_token_tx s) as [[da sa]|]; [rewrite andb_false_r|]; reflexivity. }
  cbn [andb].
  destruct (f_state f) as [ | |sr cc|sr nps cc|tk fa fcd|st|a1 tk fa|dg att0|att|a0] eqn:Es; try discriminate Ek.
  pose proof (PC att eq_refl) as Hpass.
  destruct (check_pass_poll A ops _ _ _ _ _ _ _ _ _ Es E) as (_ & _ & _ & Hc). cbn [rx tx_busy] in Hc.
  destruct (slot_expired f now _).
  - (* the slot time has run out: the retry (or, after the third, the pass to the next station) *)
    destruct Hc as (Hrx & r1 & Hrm & [(_ & Es' & _)|(r' & Hwit & Hr' & Htx & Es')]).
    { exfalso. apply (check_pass_no_wait A ops _ _ _ _ _ _ _ _ _ Es ltac:(rewrite Hp; exact Hbv) E). rewrite Es'. reflexivity. }
    assert (Hcons : s_consumed s = 0%nat) by (cbn [s poll_event s_consumed]; rewrite Hrx; apply Nat.sub_diag).
    unfold x_heard. rewrite Hcons. cbn [Nat.eqb negb andb]. rewrite app_nil_r.
    rewrite (x_token_of_wire _ _ _ _ _ _ _ _ Htx : x_token_tx s = _). rewrite Hxts, Z.eqb_refl. cbn [andb].
    destruct (r_ns r1 =? ts f) eqn:Eda; [reflexivity|]. cbn [negb]. apply Z.eqb_neq in Eda.
    rewrite Hpass.
    assert (Hsil : x_silent m s (x_slot p) = true).
    { eapply silent_from_e01; [exact H01|cbn; exact Htx|rewrite Hk0; reflexivity]. }
    rewrite Hsil.
    destruct att; cbn [check_pass_removes] in Hrm.
    + subst r1. rewrite Z.eqb_refl. reflexivity.
    + subst r1. rewrite Z.eqb_refl. reflexivity.
    + assert (Hne : r_ns (f_ring f) <> r_ns r1).
      { destruct (Z.eq_dec (r_ns (f_ring f)) (ts f)) as [E0|E0]; [rewrite E0; intros C; apply Eda; symmetry; exact C|].
        intros C. exact (remove_ns_changes _ _ _ Hring ltac:(lia) E0 Hrm (eq_sym C)). }
      apply Z.eqb_neq in Hne. rewrite Hne. cbn [att_index Nat.eqb andb check].
      destruct (_ && _); reflexivity.
  - destruct Hc as (Htx & _ & Hc).
    rewrite (x_token_none _ _ _ _ _ _ Htx : x_token_tx s = None). cbn [app].
    destruct (x_heard s) eqn:Eh; [|reflexivity].
    unfold x_heard, x_tels in Eh. apply andb_true_iff in Eh. destruct Eh as (Hcons & Htels).
    apply negb_true_iff in Hcons. rewrite Hcons in Htels. cbn [s poll_event s_rx s_consumed] in Hcons, Htels.
    cbn [s poll_event s_tx]. rewrite Htx.
    match type of Hc with (if ?c then _ else _) => destruct c end.
    + exfalso. destruct Hc as (_ & _ & Hrx). rewrite Hrx, Nat.sub_diag in Hcons. discriminate Hcons.
    + destruct (DecodeSpec.decode_spec (buf ++ nb)) eqn:Ed.
      * exfalso. destruct Hc as (_ & _ & Hrx). cbn [rx] in Hrx. rewrite Hrx, Nat.sub_diag in Hcons. discriminate Hcons.
      * exfalso. rewrite (delivered_reject _ Ed) in Htels. discriminate Htels.
      * unfold x_k1, x_post. cbn [s poll_event s_view view_of v_kind].
        destruct (f_state f'); cbn in Hc; try contradiction; reflexivity.
Qed.

Lemma ps_poll f apps buf tl m now busy nb f' o apps' calls :
  Base A p n f apps buf tl m -> PS f m ->
  poll ops f now (mkPhyIn busy (buf ++ nb)) apps = Ok (f', o, apps', calls) ->
  PS f' (x_m3 p n m (poll_event now busy (buf ++ nb) f' o calls)).
Proof.
  intros HB [PC PP] E. pose proof (x_k0_base A p n _ _ _ _ _ HB) as Hk0.
  destruct HB as [R Hp Hn Hv Hl Hpd Hb Htl].
  assert (Hxts : x_ts p = ts f) by (unfold x_ts, ts; rewrite Hp; reflexivity).
  set (s := poll_event now busy (buf ++ nb) f' o calls) in *.
  split.
  - intros att' Es'. rewrite m_pass_x_m3. unfold x_pass.
    destruct (check_pass_entry A ops _ _ _ _ _ _ _ _ att' _ E R PP Es') as [(Htx & Es & Hr)|(Htx & Hne & Horig)].
    + rewrite (x_token_none _ _ _ _ _ _ Htx : x_token_tx s = None).
      unfold x_k1, x_post. cbn [s poll_event s_view view_of v_kind]. rewrite Es'. cbn [kind_of kind_in existsb state_kind_eqb orb].
      rewrite Hr. exact (PC _ Es).
    + rewrite (x_token_of_wire _ _ _ _ _ _ _ _ Htx : x_token_tx s = _). rewrite Hxts, Z.eqb_refl. cbn [andb].
      replace (r_ns (f_ring f') =? ts f) with false by (symmetry; apply Z.eqb_neq; exact Hne). cbn [negb].
      destruct Horig as [(att & Es & -> & _ & Hns)|(Hk & ->)].
      * rewrite (PC _ Es), Hk0, Es. cbn [kind_of state_kind_eqb]. rewrite andb_true_r.
        destruct att; cbn [check_pass_removes check_pass_next att_index] in *.
        -- rewrite Hns, Z.eqb_refl. reflexivity.
        -- rewrite Hns, Z.eqb_refl. reflexivity.
        -- replace (r_ns (f_ring f) =? r_ns (f_ring f')) with false by (symmetry; apply Z.eqb_neq; intros C; apply Hns; symmetry; exact C).
           reflexivity.
      * rewrite Hk0. replace (state_kind_eqb (kind_of (f_state f)) KCheckTokenPass) with false
          by (destruct (f_state f); cbn in Hk |- *; try reflexivity; contradiction Hk; reflexivity).
        destruct (m_pass m) as [[da' k]|]; [rewrite andb_false_r|]; reflexivity.
  - intros dg att' Es'.
    destruct (in_pass (f_state f)) eqn:Ep.
    + destruct (f_state f) as [ | | | | | | |dg0 att0|att0| ] eqn:Es; try discriminate Ep.
      * destruct (pass_token_poll A ops _ _ _ _ _ _ _ _ _ _ Es E) as (_ & _ & _ & _ & [(_ & E1 & _)|[(addr & _ & _ & E1 & _)|(r' & _ & _ & _ & E1)]]).
        -- rewrite E1 in Es'. injection Es' as _ <-. exact (PP _ _ eq_refl).
        -- rewrite E1 in Es'. discriminate Es'.
        -- rewrite E1 in Es'. destruct (r_ns r' =? ts f); discriminate Es'.
      * exfalso. apply (check_pass_no_wait A ops _ _ _ _ _ _ _ _ _ Es ltac:(rewrite Hp; exact Hbv) E). rewrite Es'. reflexivity.
    + pose proof (poll_entry A ops _ _ _ _ _ _ _ _ Ep E) as He. rewrite Es' in He. destruct He as (-> & _). reflexivity.
Qed.

Lemma ps_api a f f' m g v : api_result p a f = Ok f' -> PS f m -> PS f' (fst (mon_after_api a v m g)).
Proof.
  intros E [PC PP]. destruct (api_cases p a f f' v m g E) as [(S1 & _ & ->)|(-> & ->)]; [|split; assumption].
  split; intros; rewrite S1 in *; discriminate.
Qed.

End RetryMon.

Section Listening.
Variable A : Type.
Variable ops : app_ops A.
Variable p : params.
Variable n : nat.

Lemma listen_poll_kinds f now pin (apps : list A) f' o apps' calls k :
  poll ops f now pin apps = Ok (f', o, apps', calls) -> Rep k f -> kind_of (f_state f) = KListenToken ->
  kind_in (kind_of (f_state f')) [KListenToken; KActiveIdle; KClaimToken; KOffline] = true.
Proof.
  intros H R Hk. pose proof (poll_next A ops _ _ _ _ _ _ _ _ _ H R) as Hnx.
  destruct (f_state f); try discriminate Hk. cbn in Hnx. unfold early_claim in Hnx.
  destruct Hnx as [->|[K|[->|[[->| ->]| ->]]]]; try reflexivity. destruct (f_state f'); try discriminate K; reflexivity.
Qed.

Lemma listen_ok f apps buf tl m now busy nb f' o apps' calls :
  Base A p n f apps buf tl m ->
  poll ops f now (mkPhyIn busy (buf ++ nb)) apps = Ok (f', o, apps', calls) ->
  (if state_kind_eqb (x_k0 m) KListenToken
   then check (kind_in (x_k1 (poll_event now busy (buf ++ nb) f' o calls)) [KListenToken; KActiveIdle; KClaimToken; KOffline])
              R11_accept_while_listening
   else []) = [].
Proof.
  intros HB E. rewrite (x_k0_base A p n _ _ _ _ _ HB).
  destruct (state_kind_eqb (kind_of (f_state f)) KListenToken) eqn:Ek; [|reflexivity].
  assert (Hk : kind_of (f_state f) = KListenToken) by (destruct (f_state f); cbn in Ek; try discriminate Ek; reflexivity).
  change (x_k1 (poll_event now busy (buf ++ nb) f' o calls)) with (kind_of (f_state f')).
  rewrite (listen_poll_kinds _ _ _ _ _ _ _ _ _ E (b_rep _ _ _ _ _ _ _ _ HB) Hk). reflexivity.
Qed.

End Listening.
