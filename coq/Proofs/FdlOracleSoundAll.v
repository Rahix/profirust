(* ORACLE SOUNDNESS of the FDL monitors, all rule groups of FdlOracleSound3-11 in one induction over the transcript
   of the model.  fdl_oracle_sound: a reported rule is one of `open_rules`, the rules this induction does not treat
   (they are closed in FdlOracleSound3, C11Liveness, C12OracleSound, C15Liveness); fdl_oracle_sound_req: for
   applications that transmit request telegrams the status-reply rules of C12 are not among them. *)
From Coq Require Import Arith.
From PB Require Import Common Tables FdlTables Telegram Phy TokenRing Params Fdl FdlOracle FdlProofs FdlStepProofs.
From PB Require Import C05Proofs C01Proofs C11Proofs C15Proofs C13Proofs C12Proofs.
From PB Require Import FdlOracleSound1 FdlOracleSound2 FdlOracleSound3 FdlOracleSound4 FdlOracleSound5 FdlOracleSound6
                       FdlOracleSound7 FdlOracleSound8 FdlOracleSound9 FdlOracleSound10 FdlOracleSound11.

(* rules not treated here: R05_panic in FdlOracleSound3.c05_oracle_sound, the others in C11Liveness, C12OracleSound,
   C15Liveness *)
Definition open_rules_req : list rule :=
  [R05_panic;
   R11_supervision_never_ends;
   R12_sweep_bound; R12_post_claim_scan_incomplete; R12_gap_wait_never_ends;
   R15_no_reply_no_timeout].

(* ... and without app_sends_requests (FdlOracleSound11) *)
Definition open_rules : list rule :=
  [R12_reply_without_request; R12_reply_untruthful; R12_reply_from_wrong_state] ++ open_rules_req.

Definition may_fire (l : list rule) (r : rule) : Prop := In r l.
(* may_fire l r (In r l) for a concrete rule r of open_rules / open_rules_req; fails if r is not in the list *)
Ltac in_leaf := unfold may_fire, open_rules, open_rules_req; cbn; repeat (first [left; reflexivity | right]).

Section Master.
Variable A : Type.
Variable ops : app_ops A.
Variable p : params.
Hypothesis Happs : apps_total A ops.
Hypothesis Hbv : builder_valid p.
Hypothesis Hdata : app_sends_data A ops.

(* JA: all the invariants - J7, FdlOracleSound3.TI (times), UB, PS, CD, RQ *)
Definition JA (n : nat) (f : fdl) (apps : list A) (buf : bytes) (tl : Z) (m : mon) (g : mon2) : Prop :=
  J7 A p n f apps buf tl m g /\ TI f tl m /\ UB f tl g /\ PS f m /\ CD f m /\ RQ f m.

Lemma y_e_open_open l m g s : (forall r, In r open_rules_req -> In r l) -> onlyr (may_fire l) (y_e_open p m g s).
Proof. intros Hl. apply (onlyr_in _ _ _ (y_e_open_rules _ _ _ _)). each_rule ltac:(apply Hl; in_leaf). Qed.

Lemma JA_init n f0 apps : fdl_new p = Ok f0 -> length apps = n -> JA n f0 apps [] 0 (mon_reset (view_of f0) 0) mon2_reset.
Proof.
  intros E Hn. destruct (fdl_new_fields _ _ E) as (S1 & _ & L1 & _).
  split; [eapply J7_init; eassumption|split; [|split; [|split; [|split]]]].
  - destruct (J1_init A p Hbv _ _ _ E Hn) as (_ & HT). exact HT.
  - intros l El. rewrite L1 in El. discriminate El.
  - split; intros; rewrite S1 in *; discriminate.
  - intros sr nps cc Es. rewrite S1 in Es. discriminate Es.
  - intros src Hm. rewrite S1 in Hm. discriminate Hm.
Qed.

Lemma JA_api n a f apps buf tl m g f' :
  JA n f apps buf tl m g -> api_result p a f = Ok f' ->
  JA n f' apps buf tl (fst (mon_after_api a (view_of f') m g)) (snd (mon_after_api a (view_of f') m g)).
Proof.
  intros (HJ & HT & HU & HP & HC & HR) E. pose proof HJ as (((HB & _) & _) & _).
  split; [eapply J7_api; eassumption|split; [|split; [|split; [|split]]]].
  - eapply ti_api; eassumption.
  - eapply ub_api; eassumption.
  - eapply ps_api; eassumption.
  - eapply cd_api; eassumption.
  - eapply rq_api; eassumption.
Qed.

(* one poll: every treated rule group is silent; what is left (the last two conjuncts hand Base and RQ of the
   hypothesis to the callers) *)
Lemma JA_poll n f apps buf tl m g now busy nb f' o apps' calls :
  length apps = n ->
  JA n f apps buf tl m g -> tl < now -> time_ok now -> all_bytes nb ->
  poll ops f now (mkPhyIn busy (buf ++ nb)) apps = Ok (f', o, apps', calls) ->
  let s := poll_event now busy (buf ++ nb) f' o calls in
  snd (mon_poll p n m s) = x_e12b p m s /\
  snd (mon_poll2 p n m g s) = y_e_sweep p m g s ++ y_e_scan p m g s ++ y_e_live p m g s /\
  JA n f' apps' (rx_left o) now (fst (mon_poll p n m s)) (fst (mon_poll2 p n m g s)) /\
  Base A p n f apps buf tl m /\ RQ f m.
Proof.
  intros Hlen (HJ & HT & HU & HP & HC & HR) Hlt Hnow Hnb E s. subst n.
  pose proof HJ as (((HB & c & HV) & _) & HX). assert (Hle : tl <= now) by lia.
  destruct (J7_poll A ops p Happs Hbv Hdata _ _ _ _ _ _ _ _ _ _ _ _ _ HJ Hlt Hnow Hnb E) as (H1 & H2 & HJ').
  pose proof (c01_ok A ops p (length apps) Hbv _ _ _ _ _ _ _ _ _ _ _ _ HB HT Hle Hnow Hnb E) as H01.
  pose proof (c06_ok A ops p (length apps) Hbv _ _ _ _ _ _ _ _ _ _ _ _ HB HT Hle Hnow Hnb E) as H06.
  pose proof (backoff_ok A ops p (length apps) _ _ _ _ _ _ _ _ _ _ _ _ _ _ HB HV HX HU Hlt E) as Hbo.
  pose proof (e11b_ok A ops p (length apps) Hbv _ _ _ _ _ _ _ _ _ _ _ _ HB HP E H01) as H11b.
  pose proof (e11a_ok A ops p (length apps) _ _ _ _ _ _ _ _ _ _ _ _ HB HC E) as H11a.
  pose proof (e11c_ok A ops p (length apps) _ _ _ _ _ _ _ _ _ _ _ _ HB HC E) as H11c.
  fold s in H1, H2, HJ', H01, H06, Hbo, H11b, H11a, H11c.
  split; [|split; [|split; [|split; [exact HB|exact HR]]]].
  - rewrite H1. unfold x_e_other. rewrite H01, H06, H11a, H11c, H11b. reflexivity.
  - rewrite H2, Hbo. apply app_nil_r.
  - split; [exact HJ'|split; [|split; [|split; [|split]]]].
    + eapply ti_poll; eassumption.
    + rewrite mon_poll2_eq. cbn [fst]. eapply ub_poll; eassumption.
    + rewrite fst_mon_poll. eapply ps_poll; eassumption.
    + rewrite fst_mon_poll. eapply cd_poll; eassumption.
    + rewrite fst_mon_poll. eapply rq_poll; eassumption.
Qed.

Lemma fdl_oracle_sound_with (l : list rule) (apps : list A) (ins : list minput) :
  (forall r, In r open_rules_req -> In r l) ->
  (forall f apps0 buf tl m now busy nb f' o apps' calls, Base A p (length apps) f apps0 buf tl m -> RQ f m ->
     poll ops f now (mkPhyIn busy (buf ++ nb)) apps0 = Ok (f', o, apps', calls) ->
     onlyr (may_fire l) (x_e12b p m (poll_event now busy (buf ++ nb) f' o calls))) ->
  ins_ok 0 ins ->
  forall k r, In (k, r) (monitor p (length apps) (model_transcript A ops p apps ins)) -> In r l.
Proof.
  intros Hl H12b Hok.
  apply (generic_sound_transcript A ops p (length apps) (may_fire l) (JA (length apps)) (fun _ => True)); try assumption; try reflexivity.
  - apply Hl. in_leaf.
  - intros a f apps0 buf tl m g f' HJ E _. exact (JA_api _ _ _ _ _ _ _ _ _ HJ E).
  - intros f apps0 buf tl m g now busy nb f' o apps' calls HJ Hlt Hnow Hnb E _.
    assert (Hlen : length apps0 = length apps) by (destruct HJ as ((((HB & _) & _) & _) & _); exact (b_n _ _ _ _ _ _ _ _ HB)).
    destruct (JA_poll _ _ _ _ _ _ _ _ _ _ _ _ _ _ Hlen HJ Hlt Hnow Hnb E) as (H1 & H2 & HJ' & HB & HR).
    split; [|split; [|exact HJ']].
    + rewrite H1. exact (H12b _ _ _ _ _ _ _ _ _ _ _ _ HB HR E).
    + rewrite H2. apply y_e_open_open. exact Hl.
  - intros f0 apps0 E Hn _. exact (JA_init _ _ _ E Hn).
  - apply transcript_ok_true.
Qed.

Theorem fdl_oracle_sound (apps : list A) (ins : list minput) :
  ins_ok 0 ins ->
  forall k r, In (k, r) (monitor p (length apps) (model_transcript A ops p apps ins)) -> In r open_rules.
Proof.
  apply fdl_oracle_sound_with.
  - intros r Hr. unfold open_rules. apply in_or_app. right. exact Hr.
  - intros. apply (onlyr_in _ _ _ (x_e12b_rules _ _ _)). each_rule in_leaf.
Qed.

Theorem fdl_oracle_sound_req (apps : list A) (ins : list minput) :
  app_sends_requests A ops -> ins_ok 0 ins ->
  forall k r, In (k, r) (monitor p (length apps) (model_transcript A ops p apps ins)) -> In r open_rules_req.
Proof.
  intros Hreq. apply fdl_oracle_sound_with; [auto|].
  intros f apps0 buf tl m now busy nb f' o apps' calls HB HR E.
  rewrite (e12b_ok A ops p (length apps) Hdata Hreq _ _ _ _ _ _ _ _ _ _ _ _ HB HR E). apply onlyr_nil.
Qed.

Corollary c06_oracle_sound (apps : list A) (ins : list minput) :
  ins_ok 0 ins ->
  forall k r, In (k, r) (monitor p (length apps) (model_transcript A ops p apps ins)) -> rule_prop r <> PC06.
Proof.
  intros Hok k r Hin. pose proof (fdl_oracle_sound _ _ Hok _ _ Hin) as H. clear Hin. revert r H.
  apply Forall_forall. each_rule discriminate.
Qed.

Corollary c11_open (apps : list A) (ins : list minput) :
  ins_ok 0 ins ->
  forall k r, In (k, r) (monitor p (length apps) (model_transcript A ops p apps ins)) -> rule_prop r = PC11 ->
  r = R11_supervision_never_ends.
Proof.
  intros Hok k r Hin. pose proof (fdl_oracle_sound _ _ Hok _ _ Hin) as H. clear Hin. revert r H.
  apply (Forall_forall (fun r => rule_prop r = PC11 -> r = R11_supervision_never_ends)).
  each_rule ltac:(intros Hp; first [discriminate Hp | reflexivity]).
Qed.

Corollary c12_open (apps : list A) (ins : list minput) :
  ins_ok 0 ins ->
  forall k r, In (k, r) (monitor p (length apps) (model_transcript A ops p apps ins)) -> rule_prop r = PC12 ->
  In r [R12_reply_without_request; R12_reply_untruthful; R12_reply_from_wrong_state;
        R12_sweep_bound; R12_post_claim_scan_incomplete; R12_gap_wait_never_ends].
Proof.
  intros Hok k r Hin. pose proof (fdl_oracle_sound _ _ Hok _ _ Hin) as H. clear Hin. revert r H.
  apply (Forall_forall (fun r => rule_prop r = PC12 -> In r _)). each_rule ltac:(intros Hp; first [discriminate Hp | cbn; auto 8]).
Qed.

Corollary c12_open_req (apps : list A) (ins : list minput) :
  app_sends_requests A ops -> ins_ok 0 ins ->
  forall k r, In (k, r) (monitor p (length apps) (model_transcript A ops p apps ins)) -> rule_prop r = PC12 ->
  In r [R12_sweep_bound; R12_post_claim_scan_incomplete; R12_gap_wait_never_ends].
Proof.
  intros Hreq Hok k r Hin. pose proof (fdl_oracle_sound_req _ _ Hreq Hok _ _ Hin) as H. clear Hin. revert r H.
  apply (Forall_forall (fun r => rule_prop r = PC12 -> In r _)). each_rule ltac:(intros Hp; first [discriminate Hp | cbn; auto 8]).
Qed.

End Master.
