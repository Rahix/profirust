(* Soundness of the reaction-time monitor Model/FdlPrompt.v (C01), part 1: the model side.
   (1) `nm` ("no mark"): a step of the station that consumes nothing from the receive buffer keeps
       pending_bytes >= the buffered bytes and - when it transmits nothing - leaves last_bus_activity as
       it was (or records `now` where there was none); for every do_* function, hence for the dispatch of
       poll_inner.  (The bookkeeping relation bk of FdlOracleSound2 allows a mark whenever the buffer is
       not empty; here the mark needs a consumed telegram.)
   (2) `gated_acts`: in the states the monitor calls gated - PassToken, UseToken, ClaimToken outside
       ScanAwaitResponse, ListenToken / ActiveIdle with a pending status request - a dispatch whose
       synchronisation pause is over transmits, changes the state kind, or flips gapdue.
   (3) listen_none_quiet: a station in ListenToken None cc whose last_bus_activity is not in the future and
       that consumes nothing and transmits nothing stays in ListenToken None cc.
   The monadic steps are taken with `step H as pat eqn:E` (defined in FdlOracleSound2.v). *)
From Coq Require Import Arith.
From PB Require Import Common Tables FdlTables Telegram Phy TokenRing Params Fdl FdlOracle FdlProofs FdlStepProofs.
From PB Require Import C05Proofs C01Proofs FdlOracleSound1 FdlOracleSound2 FdlOracleSound3 FdlOracleSound10.
From PB Require C11Proofs C12Proofs C16Proofs.

Definition lbs (now : Z) (v v' : option Z) : Prop := v' = v \/ v' = Some (gv now v).

Lemma lbs_refl now v : lbs now v v.
Proof. left. reflexivity. Qed.

Lemma lbs_trans now v1 v2 v3 : lbs now v1 v2 -> lbs now v2 v3 -> lbs now v1 v3.
Proof. unfold lbs. intros [-> | ->] [-> | ->]; cbn [gv]; auto. Qed.

Lemma lbs_some now l v' : lbs now (Some l) v' -> v' = Some l.
Proof. intros [-> | ->]; reflexivity. Qed.

Section NM.
Variable A : Type.
Variable ops : app_ops A.
Notation W := (world A).

(* pending_bytes covers the receive buffer *)
Definition plb (f : fdl) (w : W) : Prop := (length (w_rx w) <= f_pending f)%nat.

(* "no mark": see (1) at the head of the file; a pending transmission is kept *)
Definition nm (now : Z) (f : fdl) (w : W) (f' : fdl) (w' : W) : Prop :=
  suffix_rx A w w' /\
  (length (w_rx w') = length (w_rx w) ->
     (plb f w -> plb f' w') /\
     (forall x, w_tx w = Some x -> w_tx w' = Some x) /\
     (w_tx w' = None -> lbs now (f_lba f) (f_lba f'))).

Lemma suffix_len (w w' : W) : suffix_rx A w w' -> (length (w_rx w') <= length (w_rx w))%nat.
Proof. intros (k & ->). rewrite skipn_length. lia. Qed.

Lemma nm_refl now f w : nm now f w f w.
Proof.
  split; [apply suffix_rx_refl|]. intros _. split; [auto|]. split; [auto|]. intros _. apply lbs_refl.
Qed.

Lemma nm_trans now f w f1 w1 f2 w2 : nm now f w f1 w1 -> nm now f1 w1 f2 w2 -> nm now f w f2 w2.
Proof.
  intros (S1 & H1) (S2 & H2). split; [eapply suffix_rx_trans; eassumption|]. intros Hlen.
  pose proof (suffix_len _ _ S1). pose proof (suffix_len _ _ S2).
  destruct (H1 ltac:(lia)) as (P1 & M1 & L1). destruct (H2 ltac:(lia)) as (P2 & M2 & L2).
  split; [auto|]. split; [intros x Hx; apply M2, M1, Hx|]. intros Hn.
  assert (Hn1 : w_tx w1 = None).
  { destruct (w_tx w1) as [x|] eqn:E; [|reflexivity]. rewrite (M2 x eq_refl) in Hn. discriminate Hn. }
  eapply lbs_trans; [apply L1; exact Hn1|apply L2; exact Hn].
Qed.

Lemma nm_frame now f (w : W) f' w' :
  w_rx w' = w_rx w -> w_tx w' = w_tx w -> f_pending f' = f_pending f -> lbs now (f_lba f) (f_lba f') ->
  nm now f w f' w'.
Proof.
  intros R T P L. split; [apply suffix_rx_eq; exact R|]. intros _. unfold plb. rewrite R, P, T.
  split; [auto|]. split; [auto|]. intros _. exact L.
Qed.

Lemma nm_frm now f (w : W) f' w' : frm A f w f' w' -> nm now f w f' w'.
Proof. intros (T & R & L & P & _). apply nm_frame; try assumption. rewrite L. apply lbs_refl. Qed.

Lemma nm_txs now f (w : W) f' w' : txs A now f w f' w' -> nm now f w f' w'.
Proof.
  intros (Hn & wire & T & R & _ & P & _). split; [apply suffix_rx_eq; exact R|]. intros _. unfold plb. rewrite R, P.
  split; [auto|]. split; [intros x Hx; rewrite Hn in Hx; discriminate Hx|]. intros C. rewrite T in C. discriminate C.
Qed.

Lemma nm_consumed now f (w : W) f' w' :
  suffix_rx A w w' -> (length (w_rx w') < length (w_rx w))%nat -> nm now f w f' w'.
Proof. intros S Hlt. split; [exact S|]. intros C. lia. Qed.

Lemma goi_nm now f l f1 (w : W) : lba_get_or_insert f now = (l, f1) ->
  nm now f w f1 w /\ f_state f1 = f_state f /\ f_lba f1 = Some l.
Proof.
  intros E. apply lba_get_or_insert_same in E. destruct E as ((_ & _ & _ & _ & Hs & Hpd & _) & Hl & Hm).
  split; [|split; [exact Hs|exact Hl]].
  apply nm_frame; try reflexivity; try assumption.
  right. rewrite Hl. unfold gv. destruct (f_lba f); subst; reflexivity.
Qed.

Lemma wait_sync_nm now f f1 b (w : W) : wait_synchronization_pause f now = Ok (f1, b) ->
  nm now f w f1 w /\ same_but_lba f f1.
Proof.
  intros E. apply wait_sync_same in E. destruct E as (Hsame & l & Hl & Hm & _). split; [|exact Hsame].
  destruct Hsame as (_ & _ & _ & _ & _ & Hpd & _).
  apply nm_frame; try reflexivity; try assumption.
  right. rewrite Hl. unfold gv. destruct (f_lba f); subst; reflexivity.
Qed.

Lemma check_slot_nm now f f1 b (w : W) : check_slot_expired f now = Ok (f1, b) ->
  nm now f w f1 w /\ same_but_lba f f1.
Proof.
  intros E. pose proof (check_slot_expired_same _ _ _ _ E) as Hsame. split; [|exact Hsame].
  unfold check_slot_expired in E. destruct (lba_get_or_insert f now) as [l f0] eqn:E0.
  destruct (inst_add _ _); cbn [bind] in E; try discriminate. injection E as <- _.
  exact (proj1 (goi_nm now f l f0 w E0)).
Qed.

Lemma trans_nm now f (w : W) t f' w' : trans A f w t = Ok (f', w') -> nm now f w f' w'.
Proof. intros H. apply nm_frm. exact (trans_frm A _ _ _ _ _ H). Qed.

Lemma receive_telegram_some_lt {R} (g : telegram -> R) buf rest r :
  receive_telegram g buf = Ok (rest, Some r) -> (length rest < length buf)%nat.
Proof.
  unfold receive_telegram. destruct (decode buf) as [d| |] eqn:Ed; cbn [bind]; try discriminate.
  destruct d as [ | |t n]; intros H; try discriminate H. injection H as <- _.
  pose proof (C16Proofs.decode_accept_bounds _ _ _ Ed). rewrite skipn_length. lia.
Qed.

Lemma receive_all_len {S R} (cb : S -> telegram -> bool -> res (S * R)) s buf s' rest r :
  receive_all cb (receive_all_fuel buf) s buf = Ok (s', rest, r) -> length rest = length buf -> s' = s.
Proof.
  intros H Hlen. destruct (receive_all_delivered _ _ _ _ _ _ H) as (_ & _ & Hnil & Hne).
  destruct (delivered buf) as [|x l]; [exact (proj1 (Hnil eq_refl))|].
  specialize (Hne ltac:(discriminate)). lia.
Qed.

Lemma loop_end_nm now f (w : W) (wc : W) rest k :
  rest = skipn k (w_rx w) -> w_tx wc = w_tx w ->
  nm now f w (sync_pending_bytes A f (set_rx A wc rest)) (set_rx A wc rest).
Proof.
  intros Ek T. split; [exists k; exact Ek|]. cbn [w_rx set_rx]. intros Hlen. unfold plb. cbn. rewrite T.
  split; [intros P; rewrite Hlen; lia|]. split; [auto|]. intros _. apply lbs_refl.
Qed.

Lemma await_gap_nm now f (w : W) pa f' w' r :
  await_gap_poll_response A f now w pa = Ok (f', w', r) -> nm now f w f' w'.
Proof.
  unfold await_gap_poll_response.
  destruct (pa =? ts f); [discriminate|]. destruct (negb _); [discriminate|].
  destruct (receive_telegram (fun t => t) (w_rx w)) as [[rest received]| |] eqn:Er; cbn [bind]; try discriminate.
  destruct (receive_telegram_suffix _ _ _ _ Er) as [k Ek].
  destruct received as [t|].
  - pose proof (receive_telegram_some_lt _ _ _ _ Er) as Hlt.
    assert (Hdone : forall fx t0, nm now f w fx (note A (set_rx A w rest) t0)).
    { intros fx t0. apply nm_consumed; [exists k; exact Ek|exact Hlt]. }
    destruct t as [[da sa dsap ssap fc] pdu|da sa|]; [destruct fc as [fb rq|st status]| |];
      try (intros H; injection H as <- <- _; apply Hdone).
    destruct ((sa =? pa) && (da =? ts (mark_rx f now))); [|intros H; injection H as <- <- _; apply Hdone].
    destruct (resp_status_eqb status gap_reply_status && gap_reply_state_is_master st);
      [|intros H; injection H as <- <- _; apply Hdone].
    destruct (set_next_station _ _) as [r'| |]; cbn [bind]; try discriminate.
    intros H; injection H as <- <- _; apply Hdone.
  - match goal with |- context [check_slot_expired ?fx now] => destruct (check_slot_expired fx now) as [[f1 expired]| |] eqn:Ec end;
      cbn [bind]; try discriminate.
    match type of Ec with check_slot_expired ?fx now = _ => set (f0 := fx) in * end.
    match goal with |- context [set_rx A ?wx rest] => set (wx0 := wx) in * end.
    destruct (check_slot_nm now f0 f1 expired (set_rx A wx0 rest) Ec) as (Hb & _).
    assert (H0 : nm now f w f0 (set_rx A wx0 rest)).
    { subst f0. apply loop_end_nm with (k := k); [exact Ek|]. subst wx0. destruct (Nat.ltb _ _); reflexivity. }
    assert (Hfin : forall t, nm now f w f1 (note A (set_rx A wx0 rest) t)).
    { intros t. eapply nm_trans; [exact H0|]. eapply nm_trans; [exact Hb|apply nm_frame; try reflexivity; apply lbs_refl]. }
    destruct expired; intros H; injection H as <- <- _; apply Hfin.
Qed.

Lemma next_gap_nm now f (w : W) cur f' w' : next_gap_poll_traced A f w cur = Ok (f', w') -> nm now f w f' w'.
Proof.
  unfold next_gap_poll_traced. destruct (next_gap_poll f cur) as [g| |]; cbn [bind]; try discriminate.
  intros H. injection H as <- <-. apply nm_frame; try reflexivity. apply lbs_refl.
Qed.

Lemma transmit_gap_nm now f (w : W) f' w' polled :
  transmit_gap_poll_if_pending A f now w = Ok (f', w', polled) -> nm now f w f' w'.
Proof.
  intros H. destruct (transmit_gap_bk A now _ _ _ _ _ H) as (_ & Hg). destruct polled.
  - apply nm_txs. exact Hg.
  - destruct Hg as (-> & ->). apply nm_refl.
Qed.

Lemma nm_note now f (w : W) t : nm now f w f (note A w t).
Proof. apply nm_frame; try reflexivity. apply lbs_refl. Qed.

Lemma nm_set_st now f (w : W) s : nm now f w (set_st f s) w.
Proof. apply nm_frame; try reflexivity. apply lbs_refl. Qed.

Lemma do_claim_token_scan_nm now f (w : W) f' w' :
  do_claim_token_scan A f now w = Ok (f', w') -> nm now f w f' w'.
Proof.
  unfold do_claim_token_scan. intros H.
  step H as [f1 wait] eqn:Ew.
  destruct (wait_sync_nm now f f1 wait w Ew) as (B1 & _).
  destruct wait.
  { injection H as <- <-. eapply nm_trans; [exact B1|apply nm_note]. }
  destruct (f_gap f1) as [rc|cur].
  - step H as [f2 w2] eqn:Et.
    injection H as <- <-. apply trans_nm with (now := now) in Et.
    eapply nm_trans; [exact B1|]. eapply nm_trans; [apply nm_note|exact Et].
  - step H as [f2 w2] eqn:En.
    pose proof (next_gap_nm now _ _ _ _ _ En) as B2.
    step H as [[f3 w3] polled] eqn:Eg.
    pose proof (transmit_gap_nm now _ _ _ _ _ Eg) as B3.
    assert (B13 : nm now f w f3 w3) by (eapply nm_trans; [exact B1|]; eapply nm_trans; eassumption).
    destruct polled as [a|].
    + step H as f4 eqn:Es.
      injection H as <- <-. apply set_claim_step_spec' in Es. subst f4.
      eapply nm_trans; [exact B13|]. eapply nm_trans; [apply nm_set_st|apply nm_note].
    + injection H as <- <-. eapply nm_trans; [exact B13|apply nm_note].
Qed.

Lemma send_mark_nm now f (w : W) rq w1 k f1 f2 w2 :
  phy_send A w rq = Ok (w1, k) -> mark_tx f1 now k = Ok f2 ->
  f_pending f1 = f_pending f -> f_p f1 = f_p f -> w_tx w2 = w_tx w1 -> w_rx w2 = w_rx w1 ->
  nm now f w f2 w2.
Proof. intros. apply nm_txs. eapply send_mark; eassumption. Qed.

(* the claim: after the synchronisation pause the station sends the token to itself *)
Lemma claim_send_shape now f (w : W) nxt f' w' :
  (let* (f0, wait) := wait_synchronization_pause f now in
   if wait then Ok (f0, note A w TSyncWait)
   else let* (w0, n) := phy_send A w (TxToken (ts f0) (ts f0)) in
        let f1 := set_ring f0 (claim_token (f_ring f0)) in
        let* f2 := set_claim_step f1 nxt in
        let f3 := set_gap f2 (GapDoPoll (ts f2)) in
        let* f4 := mark_tx f3 now n in Ok (f4, note A w0 TClaimSendToken)) = Ok (f', w') ->
  exists f1 wait, wait_synchronization_pause f now = Ok (f1, wait) /\
    if wait then (f', w') = (f1, note A w TSyncWait) else txs A now f1 w f' w'.
Proof.
  intros H0. destruct (wait_synchronization_pause f now) as [[f1 wait]| |]; cbn [bind] in H0; try discriminate H0.
  exists f1, wait. split; [reflexivity|]. destruct wait; [injection H0 as <- <-; reflexivity|].
  step H0 as [w1 k] eqn:Ep.
  step H0 as f2 eqn:Es.
  apply set_claim_step_spec' in Es. subst f2.
  step H0 as f4 eqn:Em.
  injection H0 as <- <-. eapply send_mark; try eassumption; reflexivity.
Qed.

Lemma do_claim_token_nm now f (w : W) f' w' :
  do_claim_token A f now w = Ok (f', w') -> nm now f w f' w'.
Proof.
  unfold do_claim_token. intros H.
  step H as ?.
  step H as step.
  assert (Htok : forall f1 wait, wait_synchronization_pause f now = Ok (f1, wait) ->
            (if wait then (f', w') = (f1, note A w TSyncWait) else txs A now f1 w f' w') -> nm now f w f' w').
  { intros f1 wait Ew Hc. eapply nm_trans; [exact (proj1 (wait_sync_nm now f f1 wait w Ew))|].
    destruct wait; [injection Hc as -> ->; apply nm_note|apply nm_txs; exact Hc]. }
  destruct step as [ | | |a0].
  - destruct (claim_send_shape now _ _ _ _ _ H) as (f1 & wait & Ew & Hc). exact (Htok _ _ Ew Hc).
  - destruct (claim_send_shape now _ _ _ _ _ H) as (f1 & wait & Ew & Hc). exact (Htok _ _ Ew Hc).
  - exact (do_claim_token_scan_nm now _ _ _ _ H).
  - step H as [[f1 w1] r] eqn:Ea.
    pose proof (await_gap_nm now _ _ _ _ _ _ Ea) as B1.
    destruct r.
    + injection H as <- <-. exact B1.
    + step H as f2 eqn:Es.
      apply set_claim_step_spec' in Es. subst f2.
      eapply nm_trans; [exact B1|]. eapply nm_trans; [apply nm_set_st|exact (do_claim_token_scan_nm now _ _ _ _ H)].
    + step H as f2 eqn:Es.
      apply set_claim_step_spec' in Es. subst f2. injection H as <- <-.
      eapply nm_trans; [exact B1|apply nm_set_st].
    + apply trans_nm with (now := now) in H. eapply nm_trans; eassumption.
Qed.

Lemma handle_lost_token_nm now f (w : W) f' w' d :
  handle_lost_token A f now w = Ok (f', w', d) -> nm now f w f' w'.
Proof.
  unfold handle_lost_token. intros H.
  destruct (lba_get_or_insert f now) as [l f0] eqn:El. destruct (goi_nm now f l f0 w El) as (B0 & _).
  step H as ?.
  match type of H with (if ?c then _ else _) = _ => destruct c end.
  - step H as [f1 w1] eqn:Et.
    apply trans_nm with (now := now) in Et.
    step H as [f2 w2] eqn:Ed.
    injection H as <- <- <-.
    eapply nm_trans; [exact B0|]. eapply nm_trans; [apply nm_note|]. eapply nm_trans; [exact Et|].
    exact (do_claim_token_nm now _ _ _ _ Ed).
  - injection H as <- <- <-. exact B0.
Qed.

Lemma receive_all_telegrams_nm now cb f (w : W) f' w' :
  receive_all_telegrams A cb f w = Ok (f', w') -> nm now f w f' w'.
Proof.
  unfold receive_all_telegrams. intros H.
  step H as [[s1 rest] r] eqn:Er.
  destruct s1 as [f1 w1]. injection H as <- <-.
  destruct (receive_all_suffix _ _ _ _ _ _ _ Er) as [k Ek].
  split; [exists k; exact Ek|]. cbn [w_rx set_rx]. intros Hlen.
  pose proof (receive_all_len _ _ _ _ _ _ Er Hlen) as Es. injection Es as -> ->.
  destruct (loop_end_nm now f w w rest k Ek eq_refl) as (_ & Hn). exact (Hn Hlen).
Qed.

Lemma do_listen_token_nm now f (w : W) f' w' :
  do_listen_token A f now w = Ok (f', w') -> nm now f w f' w'.
Proof.
  unfold do_listen_token. intros H.
  step H as ?.
  step H as [[f0 w0] d] eqn:Eh.
  pose proof (handle_lost_token_nm now _ _ _ _ _ Eh) as B0.
  destruct d; [injection H as <- <-; exact B0|].
  step H as [sr cc].
  destruct sr as [src|].
  - step H as [f1 wait] eqn:Ew.
    destruct (wait_sync_nm now f0 f1 wait w0 Ew) as (B1 & _).
    destruct wait.
    { injection H as <- <-. eapply nm_trans; [exact B0|]. eapply nm_trans; [exact B1|apply nm_note]. }
    step H as [w1 k] eqn:Ep.
    step H as [f2 w2] eqn:E2.
    step H as f3 eqn:Em.
    injection H as <- <-.
    eapply nm_trans; [exact B0|]. eapply nm_trans; [exact B1|].
    assert (H2 : frm A f1 (note A w1 (if ready_for_ring (f_ring f1) && (src =? r_ps (f_ring f1)) then TLtReplyReady else TLtReplyNotReady)) f2 w2).
    { destruct (ready_for_ring (f_ring f1)).
      - apply trans_frm in E2. exact E2.
      - step E2 as [sr1 cc1].
        injection E2 as <- <-. unfold frm. cbn. tauto. }
    destruct H2 as (T2 & R2 & L2 & P2 & Q2). cbn [w_tx w_rx note] in T2, R2.
    eapply send_mark_nm; try eassumption.
  - eapply nm_trans; [exact B0|]. exact (receive_all_telegrams_nm now _ _ _ _ _ H).
Qed.

Lemma do_active_idle_nm now f (w : W) f' w' :
  do_active_idle A f now w = Ok (f', w') -> nm now f w f' w'.
Proof.
  unfold do_active_idle. intros H.
  step H as ?.
  step H as [[f0 w0] d] eqn:Eh.
  pose proof (handle_lost_token_nm now _ _ _ _ _ Eh) as B0.
  destruct d; [injection H as <- <-; exact B0|].
  step H as [[sr nps] cc].
  destruct sr as [src|].
  - step H as [f1 wait] eqn:Ew.
    destruct (wait_sync_nm now f0 f1 wait w0 Ew) as (B1 & _).
    destruct wait.
    { injection H as <- <-. eapply nm_trans; [exact B0|]. eapply nm_trans; [exact B1|apply nm_note]. }
    step H as [w1 k] eqn:Ep.
    step H as f3 eqn:Em.
    injection H as <- <-.
    eapply nm_trans; [exact B0|]. eapply nm_trans; [exact B1|].
    eapply send_mark_nm; try eassumption; reflexivity.
  - eapply nm_trans; [exact B0|]. exact (receive_all_telegrams_nm now _ _ _ _ _ H).
Qed.

Lemma do_pass_token_nm now f (w : W) f' w' :
  do_pass_token A f now w = Ok (f', w') -> nm now f w f' w'.
Proof.
  unfold do_pass_token. intros H.
  step H as ?.
  step H as [f1 wait] eqn:Ew.
  destruct (wait_sync_nm now f f1 wait w Ew) as (B1 & _).
  destruct wait.
  { injection H as <- <-. eapply nm_trans; [exact B1|apply nm_note]. }
  step H as [do_gap att].
  step H as [[f2 w2] polled] eqn:Eg.
  assert (Hg : nm now f1 w f2 w2).
  { destruct do_gap.
    - step Eg as [fa wa] eqn:Ea.
      assert (Hfa : nm now f1 w fa wa).
      { destruct (f_gap f1) as [rc|cur].
        - destruct (p_gap_wait (f_p f1) <? rc).
          + eapply nm_trans; [apply nm_note|exact (next_gap_nm now _ _ _ _ _ Ea)].
          + step Ea as ?. injection Ea as <- <-.
            apply nm_frame; try reflexivity. apply lbs_refl.
        - exact (next_gap_nm now _ _ _ _ _ Ea). }
      eapply nm_trans; [exact Hfa|exact (transmit_gap_nm now _ _ _ _ _ Eg)].
    - injection Eg as <- <- <-. apply nm_refl. }
  eapply nm_trans; [exact B1|]. eapply nm_trans; [exact Hg|].
  destruct polled as [pa|].
  - exact (trans_nm now _ _ _ _ _ H).
  - step H as [w3 k] eqn:Ep.
    step H as r.
    step H as [f4 w4] eqn:E4.
    step H as f5 eqn:Em.
    injection H as <- <-.
    assert (H4 : exists t0, frm A (set_ring f2 r) (note A w3 t0) f4 w4).
    { destruct (r_ns (f_ring (set_ring f2 r)) =? ts (set_ring f2 r)).
      - eexists. apply trans_frm in E4. exact E4.
      - step E4 as [g2 a2].
        eexists. apply trans_frm in E4. exact E4. }
    destruct H4 as (t0 & T4 & R4 & L4 & P4 & Q4). cbn in T4, R4, L4, P4, Q4.
    eapply send_mark_nm; try eassumption.
Qed.

Lemma do_await_status_response_nm now f (w : W) f' w' :
  do_await_status_response A f now w = Ok (f', w') -> nm now f w f' w'.
Proof.
  unfold do_await_status_response. intros H.
  step H as ?.
  step H as a0.
  step H as [[f1 w1] r] eqn:Ea.
  pose proof (await_gap_nm now _ _ _ _ _ _ Ea) as B1.
  eapply nm_trans; [exact B1|].
  destruct r.
  - injection H as <- <-. apply nm_refl.
  - step H as [f2 w2] eqn:Et.
    eapply nm_trans; [exact (trans_nm now _ _ _ _ _ Et)|exact (do_pass_token_nm now _ _ _ _ H)].
  - exact (trans_nm now _ _ _ _ _ H).
  - exact (trans_nm now _ _ _ _ _ H).
Qed.

Lemma do_check_token_pass_nm now f (w : W) f' w' :
  do_check_token_pass A f now w = Ok (f', w') -> nm now f w f' w'.
Proof.
  unfold do_check_token_pass. intros H.
  step H as ?.
  step H as [f1 expired] eqn:Ec.
  destruct (check_slot_nm now f f1 expired w Ec) as (B1 & _).
  eapply nm_trans; [exact B1|].
  destruct expired.
  - step H as att.
    step H as [f2 w2] eqn:E2.
    assert (H2 : frm A f1 w f2 w2).
    { destruct (check_pass_removes att).
      - step E2 as ?. injection E2 as <- <-. unfold frm. cbn. tauto.
      - injection E2 as <- <-. unfold frm. cbn. tauto. }
    step H as [f3 w3] eqn:Et.
    eapply nm_trans; [apply nm_frm; exact H2|]. eapply nm_trans; [exact (trans_nm now _ _ _ _ _ Et)|].
    exact (do_pass_token_nm now _ _ _ _ H).
  - step H as [[s1 rest] r] eqn:Er.
    destruct s1 as [[f2 w2] fi]. injection H as <- <-.
    destruct (receive_all_suffix _ _ _ _ _ _ _ Er) as [k Ek].
    split; [exists k; exact Ek|]. cbn [w_rx set_rx]. intros Hlen.
    pose proof (receive_all_len _ _ _ _ _ _ Er Hlen) as Es. injection Es as -> -> ->.
    destruct (loop_end_nm now f1 w (note A w TCheckAwait) rest k Ek eq_refl) as (_ & Hn). exact (Hn Hlen).
Qed.

Lemma use_token_shape now f (w : W) f' w' :
  do_use_token A ops f now w = Ok (f', w') -> w_tx w = None ->
  exists f1 w1 f2 wait, frm A f w f1 w1 /\ wait_synchronization_pause f1 now = Ok (f2, wait) /\
    if wait then frm A f2 w1 f' w'
    else exists f3 w3 (done : bool),
      if done then txs A now f2 w1 f3 w3 /\ f' = f3 /\ w' = w3
      else frm A f2 w1 f3 w3 /\ exists f4 w4, frm A f3 w3 f4 w4 /\ do_pass_token A f4 now w4 = Ok (f', w').
Proof.
  unfold do_use_token. intros H Hw.
  step H as ?.
  step H as [[tk fa] fcd].
  step H as [f1 w1] eqn:E1.
  assert (H1 : frm A f w f1 w1).
  { destruct (negb _).
    - step E1 as e.
      destruct (f_gap f).
      + injection E1 as <- <-. unfold frm. cbn. tauto.
      + step E1 as e2.
        injection E1 as <- <-. unfold frm. cbn. tauto.
    - injection E1 as <- <-. apply frm_refl. }
  assert (Hw1 : w_tx w1 = None) by (destruct H1 as (T & _); congruence).
  step H as [f2 wait] eqn:Ew.
  exists f1, w1, f2, wait. split; [exact H1|]. split; [exact Ew|].
  destruct wait.
  { injection H as <- <-. unfold frm. cbn. tauto. }
  step H as [[tk2 fa2] fcd2].
  step H as [[f3 w3] done] eqn:E3.
  assert (Hround : forall f2' t hp, set_first_cycle_done f2 = Ok f2' ->
            apps_transmit_telegram A ops f2' now (note A w1 t) hp = Ok (f3, w3, done) ->
            if done then txs A now f2 w1 f3 w3 else frm A f2 w1 f3 w3).
  { intros f2' t hp Es E. pose proof (set_first_cycle_done_frm A _ _ w1 Es) as Hs.
    unfold apps_transmit_telegram in E. apply (apps_loop_bk A ops now) in E. destruct done.
    - eapply frm_txs; [eapply frm_trans; [exact Hs|]|apply E; exact Hw1]. unfold frm. cbn. tauto.
    - eapply frm_trans; [exact Hs|]. eapply frm_trans; [|exact E]. unfold frm. cbn. tauto. }
  assert (H3 : if done then txs A now f2 w1 f3 w3 else frm A f2 w1 f3 w3).
  { destruct (now <? f_end_tht f2); [|destruct (negb fcd2)].
    - step E3 as f2'. exact (Hround _ _ _ eq_refl E3).
    - step E3 as f2'. exact (Hround _ _ _ eq_refl E3).
    - injection E3 as <- <- <-. unfold frm. cbn. tauto. }
  exists f3, w3, done. destruct done.
  - injection H as <- <-. split; [exact H3|split; reflexivity].
  - step H as [f4 w4] eqn:Et. split; [exact H3|]. exists f4, w4. split; [exact (trans_frm A _ _ _ _ _ Et)|exact H].
Qed.

Lemma do_use_token_nm now f (w : W) f' w' :
  do_use_token A ops f now w = Ok (f', w') -> w_tx w = None -> nm now f w f' w'.
Proof.
  intros H Hw. destruct (use_token_shape now _ _ _ _ H Hw) as (f1 & w1 & f2 & wait & H1 & Ew & Hrest).
  eapply nm_trans; [apply nm_frm; exact H1|]. eapply nm_trans; [exact (proj1 (wait_sync_nm now f1 f2 wait w1 Ew))|].
  destruct wait; [apply nm_frm; exact Hrest|]. destruct Hrest as (f3 & w3 & [|] & Hd).
  - destruct Hd as (T & -> & ->). apply nm_txs. exact T.
  - destruct Hd as (F3 & f4 & w4 & F4 & Hp). eapply nm_trans; [apply nm_frm; exact F3|].
    eapply nm_trans; [apply nm_frm; exact F4|exact (do_pass_token_nm now _ _ _ _ Hp)].
Qed.

Lemma do_await_data_response_nm now f (w : W) f' w' :
  do_await_data_response A ops f now w = Ok (f', w') -> w_tx w = None -> nm now f w f' w'.
Proof.
  unfold do_await_data_response. intros H Hw.
  step H as ?.
  step H as [[addr tk] fa].
  destruct (nth_error (w_apps w) (f_next_app f)) as [app|]; [|discriminate H].
  step H as [rest received] eqn:Er.
  destruct (receive_telegram_suffix _ _ _ _ Er) as [k Ek].
  destruct received as [t|].
  - pose proof (receive_telegram_some_lt _ _ _ _ Er) as Hlt.
    destruct (is_valid_response (mark_rx f now) addr t).
    + step H as app'.
      step H as [f2 w2] eqn:E2.
      step H as f3 eqn:Es.
      injection H as <- <-. apply trans_frm in E2. destruct E2 as (T & R & _). cbn in R.
      apply nm_consumed; [exists k; rewrite R; exact Ek|rewrite R; exact Hlt].
    + apply trans_frm in H. destruct H as (T & R & _). cbn in R.
      apply nm_consumed; [exists k; rewrite R; exact Ek|rewrite R; exact Hlt].
  - match type of H with context [check_slot_expired ?fx now] => destruct (check_slot_expired fx now) as [[f1 expired]| |] eqn:Ec end;
      cbn [bind] in H; try discriminate H.
    match type of Ec with check_slot_expired ?fx now = _ => set (f0 := fx) in * end.
    match type of H with context [set_rx A ?wx rest] => set (wx0 := wx) in * end.
    assert (Hwx : w_tx wx0 = w_tx w) by (subst wx0; destruct (Nat.ltb _ _); reflexivity).
    destruct (check_slot_nm now f0 f1 expired (set_rx A wx0 rest) Ec) as (Hb & _).
    assert (H0 : nm now f w f0 (set_rx A wx0 rest)).
    { subst f0. apply loop_end_nm with (k := k); [exact Ek|exact Hwx]. }
    assert (B01 : nm now f w f1 (set_rx A wx0 rest)) by (eapply nm_trans; eassumption).
    eapply nm_trans; [exact B01|].
    destruct expired.
    + step H as app'.
      step H as [f2 w2] eqn:E2.
      step H as f3 eqn:Es.
      pose proof (trans_frm A _ _ _ _ _ E2) as F2. pose proof (set_first_cycle_done_frm A _ _ w2 Es) as Hs.
      assert (Hw2 : w_tx w2 = None) by (destruct F2 as (T & _); cbn in T; congruence).
      eapply nm_trans; [|exact (do_use_token_nm now _ _ _ _ H Hw2)].
      eapply nm_trans; [|apply nm_frm; exact Hs]. eapply nm_trans; [|apply nm_frm; exact F2].
      apply nm_frame; try reflexivity. apply lbs_refl.
    + injection H as <- <-. apply nm_note.
Qed.

Lemma dispatch_nm now f (w : W) f' w' :
  C11Proofs.dispatch A ops f now w = Ok (f', w') -> w_tx w = None -> nm now f w f' w'.
Proof.
  unfold C11Proofs.dispatch. intros H Hw.
  destruct (poll_dispatch (kind_of (f_state f))) as [ | |[ | | | | | | | ]]; try discriminate H.
  - exact (do_listen_token_nm now _ _ _ _ H).
  - exact (do_active_idle_nm now _ _ _ _ H).
  - exact (do_claim_token_nm now _ _ _ _ H).
  - exact (do_use_token_nm now _ _ _ _ H Hw).
  - exact (do_await_data_response_nm now _ _ _ _ H Hw).
  - exact (do_pass_token_nm now _ _ _ _ H).
  - exact (do_await_status_response_nm now _ _ _ _ H).
  - exact (do_check_token_pass_nm now _ _ _ _ H).
Qed.

End NM.

Definition gapdue (f : fdl) : bool := match f_gap f with GapDoPoll _ => true | GapWaiting _ => false end.

(* the states the monitor calls gated (pmon_poll: gated), as a function of the station state *)
Definition gatedS (s : state) : bool :=
  match s with
  | PassToken _ _ | UseToken _ _ _ => true
  | ClaimToken (StepScanAwaitResponse _) => false
  | ClaimToken _ => true
  | ListenToken (Some _) _ | ActiveIdle (Some _) _ _ => true
  | _ => false
  end.

Section Acts.
Variable A : Type.
Variable ops : app_ops A.
Notation W := (world A).

(* the synchronisation pause of the station's parameters (the same as C12Proofs.t_sync) *)
Definition sync_of (f : fdl) : Z := p_bits_to_time (f_p f) sync_pause_bits.

Lemma wait_sync_val f now f1 b :
  wait_synchronization_pause f now = Ok (f1, b) -> b = (now <=? gv now (f_lba f) + sync_of f).
Proof.
  unfold wait_synchronization_pause, lba_get_or_insert, sync_of. destruct (f_lba f) as [l|]; cbn [gv];
    unfold inst_add; (destruct (i64_ok _); cbn [bind]; [|discriminate]); intros H; injection H as _ <-; reflexivity.
Qed.

Lemma wait_sync_over f now f1 b l :
  wait_synchronization_pause f now = Ok (f1, b) -> f_lba f = Some l -> l + sync_of f < now -> b = false /\ f1 = f.
Proof.
  intros H Hl Hlt. pose proof (wait_sync_val _ _ _ _ H) as Hb. rewrite Hl in Hb. cbn [gv] in Hb.
  split; [rewrite Hb; apply Z.leb_gt; exact Hlt|].
  unfold wait_synchronization_pause, lba_get_or_insert in H. rewrite Hl in H.
  step H as ?. injection H as <- _. reflexivity.
Qed.

Lemma pass_acts f now (w : W) f' w' l :
  do_pass_token A f now w = Ok (f', w') -> f_lba f = Some l -> l + sync_of f < now -> w_tx w' <> None.
Proof.
  unfold do_pass_token. intros H Hl Hlt.
  step H as ?.
  step H as [f1 wait] eqn:Ew.
  destruct (wait_sync_over _ _ _ _ _ Ew Hl Hlt) as (-> & ->).
  step H as [do_gap att].
  step H as [[f2 w2] polled] eqn:Eg.
  destruct polled as [pa|].
  - assert (Ht2 : w_tx w2 <> None).
    { destruct do_gap; [|discriminate Eg].
      step Eg as [fa wa] eqn:Ea.
      destruct (transmit_gap_bk A now _ _ _ _ _ Eg) as (_ & (_ & wire & T & _)). rewrite T. discriminate. }
    apply trans_spec in H. destruct H as (s' & _ & _ & ->). exact Ht2.
  - step H as [w3 k] eqn:Ep.
    step H as r.
    step H as [f4 w4] eqn:E4.
    step H as f5 eqn:Em.
    injection H as <- <-.
    apply phy_send_tx in Ep. destruct Ep as (_ & (wire & T3) & _).
    assert (H4 : w_tx w4 = w_tx w3).
    { destruct (r_ns (f_ring (set_ring f2 r)) =? ts (set_ring f2 r)).
      - apply trans_spec in E4. destruct E4 as (s' & _ & _ & ->). reflexivity.
      - step E4 as [g2 a2].
        apply trans_spec in E4. destruct E4 as (s' & _ & _ & ->). reflexivity. }
    rewrite H4, T3. discriminate.
Qed.

Lemma use_acts f now (w : W) f' w' l :
  do_use_token A ops f now w = Ok (f', w') -> f_lba f = Some l -> l + sync_of f < now -> w_tx w = None ->
  w_tx w' <> None.
Proof.
  intros H Hl Hlt Hw.
  destruct (use_token_shape A ops now _ _ _ _ H Hw) as (f1 & w1 & f2 & wait & (T1 & R1 & L1 & P1 & Q1) & Ew & Hrest).
  assert (Hl1 : f_lba f1 = Some l) by congruence.
  assert (Hlt1 : l + sync_of f1 < now) by (unfold sync_of in *; rewrite Q1; exact Hlt).
  destruct (wait_sync_over _ _ _ _ _ Ew Hl1 Hlt1) as (-> & ->). destruct Hrest as (f3 & w3 & [|] & Hd).
  - destruct Hd as ((_ & wire & T & _) & -> & ->). rewrite T. discriminate.
  - destruct Hd as ((T3 & R3 & L3 & P3 & Q3) & f4 & w4 & (T4 & R4 & L4 & P4 & Q4) & Hp).
    refine (pass_acts _ _ _ _ _ l Hp _ _); [congruence|unfold sync_of in *; rewrite Q4, Q3; exact Hlt1].
Qed.

Lemma claim_acts f now (w : W) f' w' l st :
  do_claim_token A f now w = Ok (f', w') -> f_state f = ClaimToken st ->
  (forall a, st <> StepScanAwaitResponse a) ->
  f_lba f = Some l -> l + sync_of f < now ->
  w_tx w' <> None \/ kind_of (f_state f') <> KClaimToken \/ (gapdue f = true /\ gapdue f' = false).
Proof.
  unfold do_claim_token, assert_entry. intros H Es Hst Hl Hlt. rewrite Es in H.
  cbn [kind_of do_fn_entry state_kind_eqb bind get_claim_token_step] in H.
  assert (Htok : forall f1 wait, wait_synchronization_pause f now = Ok (f1, wait) ->
            (if wait then (f', w') = (f1, note A w TSyncWait) else txs A now f1 w f' w') -> w_tx w' <> None).
  { intros f1 wait Ew Hc. destruct (wait_sync_over _ _ _ _ _ Ew Hl Hlt) as (-> & ->).
    destruct Hc as (_ & wire & T & _). rewrite T. discriminate. }
  destruct st as [ | | |a0].
  - left. destruct (claim_send_shape A now _ _ _ _ _ H) as (f1 & wait & Ew & Hc). exact (Htok _ _ Ew Hc).
  - left. destruct (claim_send_shape A now _ _ _ _ _ H) as (f1 & wait & Ew & Hc). exact (Htok _ _ Ew Hc).
  - unfold do_claim_token_scan in H.
    step H as [f1 wait] eqn:Ew.
    destruct (wait_sync_over _ _ _ _ _ Ew Hl Hlt) as (-> & ->).
    destruct (f_gap f) as [rc|cur] eqn:Eg.
    + step H as [f2 w2] eqn:Et.
      injection H as <- <-. apply trans_spec in Et. destruct Et as (s' & Ht & -> & _). right. left.
      unfold transition_pass_token in Ht. step Ht as ?. injection Ht as <-.
      cbn. discriminate.
    + step H as [f2 w2] eqn:En.
      apply next_gap_poll_traced_spec in En. destruct En as (g & _ & -> & _).
      step H as [[f3 w3] polled] eqn:Etg.
      destruct (transmit_gap_bk A now _ _ _ _ _ Etg) as (_ & Hg).
      destruct polled as [a|].
      * step H as f4 eqn:Es4.
        injection H as <- <-. left. destruct Hg as (_ & wire & T & _). cbn. rewrite T. discriminate.
      * destruct Hg as (-> & ->). injection H as <- <-. right. right. unfold gapdue. rewrite Eg. split; [reflexivity|].
        cbn [f_gap set_gap]. unfold transmit_gap_poll_if_pending in Etg. cbn [f_gap set_gap] in Etg.
        destruct g as [rc|c2]; [reflexivity|]. exfalso.
        destruct (c2 =? _); [discriminate Etg|].
        step Etg as [w4 k].
        destruct (mark_tx _ now k); cbn [bind] in Etg; discriminate Etg.
  - exfalso. exact (Hst a0 eq_refl).
Qed.

Lemma handle_lost_token_false f now (w : W) f0 w0 l :
  handle_lost_token A f now w = Ok (f0, w0, false) -> f_lba f = Some l -> f0 = f /\ w0 = w.
Proof.
  unfold handle_lost_token, lba_get_or_insert. intros H Hl. rewrite Hl in H.
  step H as ?.
  match type of H with (if ?c then _ else _) = _ => destruct c end.
  - step H as [fy wy].
    destruct (do_claim_token A fy now wy) as [[fz wz]| |]; cbn [bind] in H; discriminate H.
  - injection H as <- <-. split; reflexivity.
Qed.

Lemma listen_acts f now (w : W) f' w' l src cc :
  do_listen_token A f now w = Ok (f', w') -> f_state f = ListenToken (Some src) cc ->
  f_lba f = Some l -> l + sync_of f < now ->
  w_tx w' <> None \/ kind_of (f_state f') = KClaimToken.
Proof.
  unfold do_listen_token. intros H Es Hl Hlt.
  step H as ?.
  step H as [[f0 w0] d] eqn:Eh.
  destruct d.
  { injection H as <- <-. right. destruct (handle_lost_token_claims A _ _ _ _ _ Eh) as [-> | ->]; reflexivity. }
  destruct (handle_lost_token_false _ _ _ _ _ _ Eh Hl) as (-> & ->).
  rewrite Es in H. cbn [get_listen_token bind] in H.
  step H as [f1 wait] eqn:Ew.
  destruct (wait_sync_over _ _ _ _ _ Ew Hl Hlt) as (-> & ->).
  step H as [w1 k] eqn:Ep.
  step H as [f2 w2] eqn:E2.
  step H as f3 eqn:Em.
  injection H as <- <-. left.
  apply phy_send_tx in Ep. destruct Ep as (_ & (wire & T) & _).
  assert (H2 : w_tx w2 = w_tx w1).
  { destruct (ready_for_ring (f_ring f)).
    - apply trans_spec in E2. destruct E2 as (s' & _ & _ & ->). reflexivity.
    - step E2 as [sr1 cc1].
      injection E2 as _ <-. reflexivity. }
  rewrite H2, T. discriminate.
Qed.

Lemma idle_acts f now (w : W) f' w' l src nps cc :
  do_active_idle A f now w = Ok (f', w') -> f_state f = ActiveIdle (Some src) nps cc ->
  f_lba f = Some l -> l + sync_of f < now ->
  w_tx w' <> None \/ kind_of (f_state f') = KClaimToken.
Proof.
  unfold do_active_idle. intros H Es Hl Hlt.
  step H as ?.
  step H as [[f0 w0] d] eqn:Eh.
  destruct d.
  { injection H as <- <-. right. destruct (handle_lost_token_claims A _ _ _ _ _ Eh) as [-> | ->]; reflexivity. }
  destruct (handle_lost_token_false _ _ _ _ _ _ Eh Hl) as (-> & ->).
  rewrite Es in H. cbn [get_active_idle bind] in H.
  step H as [f1 wait] eqn:Ew.
  destruct (wait_sync_over _ _ _ _ _ Ew Hl Hlt) as (-> & ->).
  step H as [w1 k] eqn:Ep.
  step H as f3 eqn:Em.
  injection H as <- <-. left.
  apply phy_send_tx in Ep. destruct Ep as (_ & (wire & T) & _). cbn. rewrite T. discriminate.
Qed.

Theorem gated_acts f now (w : W) f' w' l :
  C11Proofs.dispatch A ops f now w = Ok (f', w') -> gatedS (f_state f) = true ->
  f_lba f = Some l -> l + sync_of f < now -> w_tx w = None ->
  w_tx w' <> None \/ kind_of (f_state f') <> kind_of (f_state f) \/ gapdue f' <> gapdue f.
Proof.
  unfold C11Proofs.dispatch. intros H Hg Hl Hlt Hw.
  destruct (f_state f) as [ | |sr cc|sr nps cc|tk fa fcd|st|a1 tk fa|dg att|att|a0] eqn:Es; try discriminate Hg;
    cbn [kind_of poll_dispatch] in H.
  - destruct sr as [src|]; [|discriminate Hg].
    destruct (listen_acts _ _ _ _ _ _ _ _ H Es Hl Hlt) as [T|K]; [left; exact T|right; left; rewrite K; discriminate].
  - destruct sr as [src|]; [|discriminate Hg].
    destruct (idle_acts _ _ _ _ _ _ _ _ _ H Es Hl Hlt) as [T|K]; [left; exact T|right; left; rewrite K; discriminate].
  - left. exact (use_acts _ _ _ _ _ _ H Hl Hlt Hw).
  - assert (Hst : forall a, st <> StepScanAwaitResponse a) by (intros a ->; discriminate Hg).
    destruct (claim_acts _ _ _ _ _ _ _ H Es Hst Hl Hlt) as [T|[K|(G1 & G2)]];
      [left; exact T|right; left; exact K|right; right; rewrite G1, G2; discriminate].
  - left. exact (pass_acts _ _ _ _ _ _ H Hl Hlt).
Qed.

Lemma listen_none_quiet f now (w : W) f' w' cc :
  do_listen_token A f now w = Ok (f', w') -> f_state f = ListenToken None cc ->
  (forall l, f_lba f = Some l -> l <= now) ->
  0 <= sync_of f < token_lost_timeout (f_p f) ->
  length (w_rx w') = length (w_rx w) -> w_tx w' = None ->
  f_state f' = ListenToken None cc.
Proof.
  unfold do_listen_token. intros H Es Hnp Hst Hlen Hn.
  step H as ?.
  step H as [[f0 w0] d] eqn:Eh.
  destruct d.
  - exfalso. injection H as <- <-. unfold handle_lost_token in Eh.
    destruct (lba_get_or_insert f now) as [l0 fx] eqn:El.
    apply lba_get_or_insert_same in El. destruct El as ((Hpx & _ & _ & _ & Hsx & _) & Hlx & Hm).
    assert (Hl0 : l0 <= now) by (destruct (f_lba f) as [lf|] eqn:Elf; [subst l0; exact (Hnp lf eq_refl)|lia]).
    unfold inst_diff in Eh. destruct (i64_ok (now - l0)); cbn [bind] in Eh; try discriminate Eh.
    destruct (Z.leb_spec (token_lost_timeout (f_p fx)) (Z.abs (now - l0))) as [Hto|_]; [|discriminate Eh].
    step Eh as [f1 w1] eqn:Et.
    apply trans_spec in Et. destruct Et as (s1 & Ht & -> & ->).
    unfold transition_claim_token in Ht. step Ht as ?. injection Ht as <-.
    step Eh as [f2 w2] eqn:Ed.
    injection Eh as <- <-.
    unfold do_claim_token, assert_entry in Ed. cbn [f_state set_st kind_of do_fn_entry state_kind_eqb bind get_claim_token_step] in Ed.
    step Ed as [f3 wait] eqn:Ew.
    pose proof (wait_sync_val _ _ _ _ Ew) as Hb. cbn [f_lba set_st] in Hb. rewrite Hlx in Hb. cbn [gv] in Hb.
    unfold sync_of in Hb, Hst. cbn [f_p set_st] in Hb. rewrite Hpx in Hb, Hto.
    destruct wait.
    + symmetry in Hb. apply Z.leb_le in Hb. rewrite Z.abs_eq in Hto by lia. lia.
    + step Ed as [w3 k] eqn:Ep.
      step Ed as f4.
      step Ed as f5.
      injection Ed as _ <-. apply phy_send_tx in Ep. destruct Ep as (_ & (wire & T) & _). cbn in Hn. rewrite T in Hn. discriminate Hn.
  - pose proof (handle_lost_token_keeps A _ _ _ _ _ Eh) as Hs0.
    pose proof (handle_lost_token_nm A now _ _ _ _ _ Eh) as (S0 & _).
    rewrite Hs0, Es in H. cbn [get_listen_token bind] in H.
    unfold receive_all_telegrams in H.
    step H as [[s1 rest] r] eqn:Er.
    destruct s1 as [f1 w1]. injection H as <- <-. cbn [w_rx set_rx] in Hlen.
    destruct (receive_all_suffix _ _ _ _ _ _ _ Er) as [k Ek].
    pose proof (suffix_len A _ _ S0) as Hle.
    assert (Hlen0 : length rest = length (w_rx w0)) by (rewrite Ek, skipn_length in *; lia).
    pose proof (receive_all_len _ _ _ _ _ _ Er Hlen0) as E1. injection E1 as -> ->.
    cbn. rewrite Hs0. exact Es.
Qed.

(* a poll of a station that is online: the connectivity prologue, then the body *)

Lemma poll_body f now busy rxb (apps : list A) f' o apps' calls k :
  poll ops f now (mkPhyIn busy rxb) apps = Ok (f', o, apps', calls) -> Rep k f -> f_conn f = ConnOnline ->
  exists f0 (w0 w' : W),
    ((f_state f <> Offline /\ f0 = f) \/ (f_state f = Offline /\ f0 = set_st f (ListenToken None 0))) /\
    w_rx w0 = rxb /\ w_tx w0 = None /\ w_calls w0 = [] /\
    C11Proofs.body A ops f0 now busy w0 = Ok (f', w') /\
    o = mkPhyOut (w_tx w') (w_rx w') /\ apps' = w_apps w' /\ calls = w_calls w'.
Proof.
  intros E R Hc. apply (C11Proofs.poll_inv A ops) in E. destruct E as (w' & H & -> & -> & ->). cbn [tx_busy rx] in H.
  destruct (f_state f) as [ | |sr cc|sr nps cc|tk fa fcd|st|a1 tk fa|dg att|att|a0] eqn:Es.
  2:{ exfalso. pose proof (rep_st _ _ R) as St. rewrite Es in St. exact St. }
  1:{ unfold poll_inner in H. rewrite Hc, Es in H. cbn [kind_of online_entry_kind] in H.
      unfold trans, transition_listen_token, assert_kind in H. rewrite Es in H. cbn [kind_of may_transition_listen_token bind] in H.
      rewrite C11Proofs.body_eq in H.
      eexists. eexists. exists w'. split; [right; split; reflexivity|].
      split; [|split; [|split; [|split; [exact H|repeat split; reflexivity]]]]; reflexivity. }
  all: rewrite (C11Proofs.poll_inner_online A ops f now _ _ Hc ltac:(rewrite Es; reflexivity)) in H;
    exists f; eexists; exists w'; (split; [left; split; [discriminate|reflexivity]|]);
    (split; [|split; [|split; [|split; [exact H|repeat split; reflexivity]]]]); reflexivity.
Qed.

End Acts.
