(* Soundness of the reaction-time monitor Model/FdlPrompt.v (rule P01_reaction_after_slot_time), part 2:
   the transcript of the MODEL with the per-event flag "a status request waits for its reply", the
   invariant between the model run and the monitor state, and the induction.

   pmodel_events / pmodel_transcript mirror what ocaml/run_fdl.ml hands to `pmonitor`: the events of
   FdlOracleSound1.model_events, each paired with the flag the driver reads from the hook fingerprint of the
   observation of that event (`pending_of`: the private state is ListenToken{Some(..),..} or
   ActiveIdle{Some(..),..}) = a function of the model state after the event (psr_flag); PANIC / TIMEOUT
   markers carry `false`; an API call that panics repeats the last observation (`A <name> =`).

   Invariant PB ("prompt bookkeeping"; it holds in every station state, no class of histories is left out):
   - base: representation invariant of C05, parameters, view / flag / buffer length of the monitor are those
     of the station, pending_bytes <= buffered bytes;
   - last_bus_activity is unknown only in state Offline;
   - the monitor's predicted end of the last transmission is in the past or IS last_bus_activity, and
     last_bus_activity is in the past or IS that predicted end (so "tx still going on" of the monitor and of
     the station agree);
   - in every state but Offline, PassiveIdle and ListenToken without pending request ("synced"): the monitor's reference
     instant is not earlier than last_bus_activity, and unless the monitor expects a spurious growth of the
     buffer, pending_bytes covers the buffer.
   Offline and ListenToken None are exactly where the station's clock starts later than the monitor's (the first
   poll after going online records `now`; polls of an offline station do not count received bytes): they are
   not gated, and the station leaves them only by consuming a telegram or by transmitting - both seen by the
   monitor (FdlPromptSound1.listen_none_quiet); PassiveIdle does not occur under Rep. *)
From Coq Require Import Arith.
From PB Require Import Common Tables FdlTables Telegram Phy TokenRing Params Fdl FdlOracle FdlPrompt FdlProofs FdlStepProofs.
From PB Require Import C05Proofs C01Proofs FdlOracleSound1 FdlOracleSound2 FdlOracleSound3 FdlPromptSound1.
From PB Require C11Proofs FdlRingSound.

(* the flag of the driver: a status request waits for its reply *)
Definition psr_flag (f : fdl) : bool :=
  match f_state f with ListenToken (Some _) _ | ActiveIdle (Some _) _ _ => true | _ => false end.

Definition synced (s : state) : bool :=
  match s with Offline | PassiveIdle | ListenToken None _ => false | _ => true end.

Lemma gatedS_synced s : gatedS s = true -> synced s = true.
Proof. destruct s as [ | |[x|] cc|[x|] nps cc| | [ | | |a]| | | | ]; cbn; intros H; try discriminate H; reflexivity. Qed.

Lemma sync_char_lt_slot p : builder_valid p ->
  p_bits_to_time p sync_pause_bits + p_bits_to_time p prop_bits_per_byte < slot_time p.
Proof.
  intros B. destruct B as (_ & (Hmin & _) & _).
  unfold slot_time, p_bits_to_time, bits_to_time, sync_pause_bits, prop_bits_per_byte.
  assert (H100 : 100 <= p_slot_bits p) by (destruct (p_baud p); cbn in Hmin; lia).
  assert (Hr : 1 <= baud_to_rate (p_baud p) <= 12000000) by (destruct (p_baud p); cbn; lia).
  set (r := baud_to_rate (p_baud p)) in *.
  pose proof (div_add_bounds (33 * 1000000) (11 * 1000000) r ltac:(lia)) as (Hadd & _).
  assert (H1 : (33 * 1000000 + 11 * 1000000) / r + 1 = (33 * 1000000 + 11 * 1000000 + 1 * r) / r)
    by (rewrite Z.div_add by lia; reflexivity).
  assert (H2 : (33 * 1000000 + 11 * 1000000 + 1 * r) / r <= p_slot_bits p * 1000000 / r)
    by (apply Z.div_le_mono; nia).
  lia.
Qed.

Section ZP.
Variables (p : params) (q : pmon) (s : pstep) (pp : bool).

Definition z_now : Z := s_now s.
Definition z_grew : bool := Nat.ltb (q_left q) (length (s_rx s)).
Definition z_tx_end : option Z :=
  match s_tx s with
  | Some w => Some (z_now + bits_to_time (p_baud p) (prop_bits_per_byte * Zlen w))
  | None => None
  end.
Definition z_ongoing : bool := match q_txend q with Some e => z_now <=? e | None => false end.
Definition z_looks : bool := negb (s_busy s) && negb z_ongoing.
Definition z_spur_now : bool := q_spur q && z_looks && match s_rx s with [] => false | _ => true end.
Definition z_consumed : bool := negb (Nat.eqb (s_consumed s) 0).
Definition z_quiet : bool := z_looks && negb z_grew && negb z_spur_now.
Definition z_gated : bool :=
  state_kind_eqb (v_kind (q_view q)) KPassToken || state_kind_eqb (v_kind (q_view q)) KUseToken ||
  (state_kind_eqb (v_kind (q_view q)) KClaimToken && negb (v_scan_await (q_view q))) ||
  (kind_in (v_kind (q_view q)) [KListenToken; KActiveIdle] && q_pending q).
Definition z_acted : bool :=
  z_consumed || negb (state_kind_eqb (v_kind (s_view s)) (v_kind (q_view q))) ||
  match s_tx s with Some _ => true | None => false end ||
  match s_calls s with [] => false | _ => true end ||
  negb (Bool.eqb (v_gap_due (q_view q)) (v_gap_due (s_view s))).
Definition z_over : bool :=
  match q_ref q with
  | Some r => r + slot_time p - p_bits_to_time p prop_bits_per_byte <=? z_now
  | None => false
  end.
Definition z_happened : bool := z_grew || s_busy s || z_consumed || z_spur_now.
Definition z_ref1 : option Z :=
  if z_happened then Some (zmax_opt (q_ref q) z_now)
  else match q_ref q with Some r => Some r | None => Some z_now end.
Definition z_ref2 : option Z := match z_tx_end with Some e => Some (zmax_opt z_ref1 e) | None => z_ref1 end.
Definition z_txend : option Z := match z_tx_end with Some e => Some e | None => q_txend q end.
Definition z_spur : bool :=
  if z_consumed then Nat.ltb (s_consumed s) (length (s_rx s))
  else if z_looks then false else (q_spur q || z_grew).
Definition z_q' : pmon := mkPmon (s_view s) pp (length (s_rx s) - s_consumed s) z_ref2 z_txend z_spur.
Definition z_errs : list prule :=
  if z_gated && z_quiet && z_over && negb z_acted then [P01_reaction_after_slot_time] else [].

Lemma pmon_poll_eq : pmon_poll p q s pp = (z_q', z_errs).
Proof. reflexivity. Qed.

Lemma z_ref1_facts : exists r1, z_ref1 = Some r1 /\ (forall r, q_ref q = Some r -> r <= r1) /\ (z_happened = true -> z_now <= r1).
Proof.
  unfold z_ref1. destruct z_happened.
  - exists (zmax_opt (q_ref q) z_now). split; [reflexivity|]. split; [intros r ->; cbn; lia|intros _; destruct (q_ref q); cbn; lia].
  - destruct (q_ref q) as [r|].
    + exists r. split; [reflexivity|]. split; [intros r0 H; injection H as <-; lia|discriminate].
    + exists z_now. split; [reflexivity|]. split; [discriminate|discriminate].
Qed.

Lemma z_ref2_facts : exists r2, z_ref2 = Some r2 /\ (forall r1, z_ref1 = Some r1 -> r1 <= r2) /\ (forall e, z_tx_end = Some e -> e <= r2).
Proof.
  unfold z_ref2. destruct z_tx_end as [e|].
  - exists (zmax_opt z_ref1 e). split; [reflexivity|]. split; [intros r1 ->; cbn; lia|intros e0 H; injection H as <-; destruct z_ref1; cbn; lia].
  - destruct z_ref1_facts as (r1 & -> & _). exists r1. split; [reflexivity|]. split; [intros r0 H; injection H as <-; lia|discriminate].
Qed.

End ZP.

Section Model.
Variable A : Type.
Variable ops : app_ops A.
Variable p : params.

Fixpoint pmodel_events (f : fdl) (apps : list A) (buf : bytes) (ins : list minput) : list (event * bool) :=
  match ins with
  | [] => []
  | InApi a :: tl =>
      match api_result p a f with
      | Ok f' => (EApi a (view_of f'), psr_flag f') :: pmodel_events f' apps buf tl
      | _ => [(EApi a (view_of f), psr_flag f); (EPanic, false)]
      end
  | InPoll now busy nb :: tl =>
      match poll ops f now (mkPhyIn busy (buf ++ nb)) apps with
      | Ok (f', o, apps', calls) =>
          (EPoll (poll_event now busy (buf ++ nb) f' o calls), psr_flag f') :: pmodel_events f' apps' (rx_left o) tl
      | _ => [(EPanic, false)]
      end
  end.

Definition pmodel_transcript (apps : list A) (ins : list minput) : list (event * bool) :=
  match fdl_new p with
  | Ok f0 => (EApi ApiNew (view_of f0), psr_flag f0) :: pmodel_events f0 apps [] ins
  | _ => [(EApi ApiNew default_view, false); (EPanic, false)]
  end.

Lemma pmodel_events_fst ins : forall f apps buf,
  map fst (pmodel_events f apps buf ins) = model_events A ops p f apps buf ins.
Proof.
  induction ins as [|x ins IH]; intros f apps buf; [reflexivity|].
  destruct x as [a|now busy nb]; cbn [pmodel_events model_events].
  - destruct (api_result p a f); [cbn [map fst]; rewrite IH; reflexivity|reflexivity|reflexivity].
  - destruct (poll ops f now _ apps) as [[[[f' o] apps'] calls]| |]; [cbn [map fst]; rewrite IH; reflexivity|reflexivity|reflexivity].
Qed.

Lemma pmodel_transcript_fst apps ins : map fst (pmodel_transcript apps ins) = model_transcript A ops p apps ins.
Proof.
  unfold pmodel_transcript, model_transcript. destruct (fdl_new p); [cbn [map fst]; rewrite pmodel_events_fst; reflexivity|reflexivity|reflexivity].
Qed.

End Model.

(* what one poll of the model does, as far as the monitor needs it *)

(* last_bus_activity after check_for_bus_activity *)
Definition lba1 (f : fdl) (now : Z) (rxb : bytes) : option Z :=
  if Nat.ltb (f_pending f) (length rxb)
  then Some (match f_lba f with Some l => Z.max l now | None => now end)
  else f_lba f.

Section Facts.
Variable A : Type.
Variable ops : app_ops A.
Variable p : params.
Hypothesis Hbv : builder_valid p.

Lemma poll_facts f now busy rxb (apps : list A) f' o apps' calls k :
  poll ops f now (mkPhyIn busy rxb) apps = Ok (f', o, apps', calls) -> Rep k f -> f_p f = p ->
  (f_conn f = ConnOffline /\ f_state f = Offline /\ f' = f /\ tx o = None /\ rx_left o = rxb /\ calls = []) \/
  (f_conn f = ConnOnline /\ (busy = true \/ C11Proofs.predicted f now = true) /\
     tx o = None /\ rx_left o = rxb /\ calls = [] /\
     synced (f_state f') = synced (f_state f) /\ f_pending f' = f_pending f /\
     f_lba f' = Some (Z.max (gv now (f_lba f)) now)) \/
  (f_conn f = ConnOnline /\ busy = false /\ C11Proofs.predicted f now = false /\
     (length (rx_left o) = length rxb ->
        (length rxb <= f_pending f')%nat /\ (tx o = None -> lbs now (lba1 f now rxb) (f_lba f'))) /\
     (gatedS (f_state f) = true -> forall l, lba1 f now rxb = Some l -> l + p_bits_to_time p sync_pause_bits < now ->
        tx o <> None \/ kind_of (f_state f') <> kind_of (f_state f) \/ gapdue f' <> gapdue f) /\
     (synced (f_state f) = false -> length (rx_left o) = length rxb -> tx o = None -> synced (f_state f') = false)).
Proof.
  intros E R Hp. pose proof (rep_conn _ _ R) as C. destruct (f_conn f) eqn:Hc.
  - left. assert (Hs : f_state f = Offline) by (destruct (f_state f); cbn in C; try congruence; try contradiction; reflexivity).
    rewrite (poll_offline_noop A ops f now _ apps Hc Hs) in E. injection E as E1 E2 E3 E4. subst f' o calls. cbn. tauto.
  - exfalso. destruct (f_state f); cbn in C; try congruence; contradiction.
  - right.
    destruct (poll_body A ops _ _ _ _ _ _ _ _ _ k E R Hc) as (f0 & w0 & w' & Hf0 & Hrx0 & Htx0 & Hca0 & Hb & -> & -> & ->).
    cbn [tx rx_left].
    assert (F0 : f_lba f0 = f_lba f /\ f_pending f0 = f_pending f /\ f_p f0 = f_p f /\ f_gap f0 = f_gap f /\
                 synced (f_state f0) = synced (f_state f) /\ (f_state f <> Offline -> f0 = f) /\
                 (synced (f_state f) = false -> exists c, f_state f0 = ListenToken None c)).
    { destruct Hf0 as [(Hn & ->)|(Hs & ->)].
      - repeat split; try reflexivity. intros Hsy. destruct (f_state f) as [ | |[x|] c| | | | | | | ] eqn:Es; try discriminate Hsy.
        + contradiction Hn; reflexivity.
        + exfalso. pose proof (rep_st _ _ R) as St. rewrite Es in St. exact St.
        + exists c. reflexivity.
      - cbn. rewrite Hs. repeat split; try reflexivity; [intros Cn; contradiction Cn; reflexivity|]. intros _. exists 0. reflexivity. }
    destruct F0 as (L0 & P0 & Q0 & G0 & Sy0 & Hsame & Hlis).
    assert (Hpred : C11Proofs.predicted f0 now = C11Proofs.predicted f now) by (unfold C11Proofs.predicted; rewrite L0; reflexivity).
    unfold C11Proofs.body in Hb. rewrite Hpred in Hb.
    destruct (busy || C11Proofs.predicted f now) eqn:Eb.
    + left. injection Hb as <- <-. split; [reflexivity|]. split; [apply orb_prop; exact Eb|].
      destruct (mark_bus_activity_spec f0 now) as (ML & MP & MS & _).
      cbn [w_tx w_rx w_calls note]. split; [exact Htx0|]. split; [exact Hrx0|]. split; [exact Hca0|].
      split; [rewrite MS; exact Sy0|]. split; [congruence|]. rewrite ML, L0. reflexivity.
    + right. apply orb_false_iff in Eb. destruct Eb as (Hbusy & Hnp).
      split; [reflexivity|]. split; [exact Hbusy|]. split; [exact Hnp|].
      destruct (check_for_bus_activity A f0 now w0) as [f1 w1] eqn:Ec. apply C11Proofs.cfba_spec in Ec.
      destruct Ec as ((Q1 & _ & _ & G1 & S1 & _) & Htx1 & Hca1 & Hrx1 & _ & Hcase).
      assert (Hl1 : f_lba f1 = lba1 f now rxb /\ plb A f1 w1).
      { unfold lba1, plb. rewrite Hrx1, Hrx0 in *. rewrite P0, L0 in Hcase.
        destruct (Nat.ltb_spec (f_pending f) (length rxb)) as [Hlt|Hge].
        - destruct Hcase as (-> & ->). split; [reflexivity|lia].
        - subst f1. split; [exact L0|lia]. }
      destruct Hl1 as (Hl1 & Hplb1).
      assert (Hw1 : w_tx w1 = None) by congruence.
      pose proof (dispatch_nm A ops now _ _ _ _ Hb Hw1) as (_ & Hn).
      assert (Hpast : forall l, f_lba f1 = Some l -> l <= now).
      { intros l. rewrite Hl1. unfold lba1. unfold C11Proofs.predicted in Hnp.
        destruct (f_lba f) as [l0|].
        - apply Z.leb_gt in Hnp. destruct (Nat.ltb (f_pending f) (length rxb)); intros H; injection H as <-; lia.
        - destruct (Nat.ltb (f_pending f) (length rxb)); intros H; [injection H as <-; lia|discriminate H]. }
      split; [|split].
      * intros Hlen. rewrite <- Hrx0, <- Hrx1 in Hlen. destruct (Hn Hlen) as (Pn & _ & Ln).
        split; [specialize (Pn Hplb1); unfold plb in Pn; rewrite <- Hrx0, <- Hrx1, <- Hlen; exact Pn|].
        intros Hnt. rewrite <- Hl1. exact (Ln Hnt).
      * intros Hg l El Hlt.
        assert (Hne : f_state f <> Offline) by (intros Cn; rewrite Cn in Hg; discriminate Hg).
        specialize (Hsame Hne). subst f0.
        assert (Hlt1 : l + sync_of f1 < now) by (unfold sync_of; rewrite Q1, Hp; exact Hlt).
        rewrite <- Hl1 in El. rewrite <- S1 in Hg.
        destruct (gated_acts A ops _ _ _ _ _ _ Hb Hg El Hlt1 Hw1) as [T|[K|G]].
        -- left. exact T.
        -- right. left. rewrite <- S1. exact K.
        -- right. right. unfold gapdue in *. rewrite G1 in G. exact G.
      * intros Hsy Hlen Hnt. destruct (Hlis Hsy) as (c & Es0).
        unfold C11Proofs.dispatch in Hb. rewrite S1, Es0 in Hb. cbn [kind_of poll_dispatch] in Hb.
        assert (Es1 : f_state f1 = ListenToken None c) by congruence.
        rewrite <- Hrx0, <- Hrx1 in Hlen.
        assert (Hst : 0 <= sync_of f1 < token_lost_timeout (f_p f1)).
        { unfold sync_of. split; [apply sync_nonneg|]. rewrite Q1, Q0, Hp. exact (sync_lt_timeout p Hbv). }
        rewrite (listen_none_quiet A _ _ _ _ _ _ Hb Es1 Hpast Hst Hlen Hnt). reflexivity.
Qed.

End Facts.

Section Sound.
Variable A : Type.
Variable ops : app_ops A.
Variable p : params.
Hypothesis Happs : apps_total A ops.
Hypothesis Hbv : builder_valid p.

(* PB: the invariant between station and monitor described at the head of the file (not the library PB) *)
Record PB (f : fdl) (apps : list A) (buf : bytes) (tl : Z) (q : pmon) : Prop := mkPB {
  pb_rep : Rep (length apps) f;
  pb_p : f_p f = p;
  pb_view : q_view q = view_of f;
  pb_pend : q_pending q = psr_flag f;
  pb_left : q_left q = length buf;
  pb_cnt : (f_pending f <= length buf)%nat;
  pb_bytes : all_bytes buf;
  pb_tl : 0 <= tl;
  pb_none : f_lba f = None -> f_state f = Offline;
  pb_te : forall e, q_txend q = Some e -> e <= tl \/ f_lba f = Some e;
  pb_lt : forall l, f_lba f = Some l -> l <= tl \/ q_txend q = Some l;
  pb_sync : synced (f_state f) = true -> forall l, f_lba f = Some l ->
            exists r, q_ref q = Some r /\ l <= r /\ (q_spur q = false -> (length buf <= f_pending f)%nat)
}.

Lemma gated_eq f q : q_view q = view_of f -> q_pending q = psr_flag f -> z_gated q = gatedS (f_state f).
Proof.
  intros Hv Hpd. unfold z_gated. rewrite Hv, Hpd. unfold view_of, psr_flag. cbn [v_kind v_scan_await].
  destruct (f_state f) as [ | |[x|] cc|[x|] nps cc| | [ | | |a]| | | | ]; reflexivity.
Qed.

Lemma ongoing_pred f apps buf tl q s now :
  PB f apps buf tl q -> tl < now -> s_now s = now -> z_ongoing q s = C11Proofs.predicted f now.
Proof.
  intros HB Hlt Hn. unfold z_ongoing, C11Proofs.predicted, z_now. rewrite Hn.
  destruct (q_txend q) as [e|] eqn:Ee.
  - destruct (pb_te _ _ _ _ _ HB e Ee) as [H|H].
    + destruct (Z.leb_spec now e); [lia|]. destruct (f_lba f) as [l|] eqn:El; [|reflexivity].
      destruct (pb_lt _ _ _ _ _ HB l El) as [H2|H2]; [destruct (Z.leb_spec now l); [lia|reflexivity]|].
      rewrite Ee in H2. injection H2 as ->. destruct (Z.leb_spec now l); [lia|reflexivity].
    + rewrite H. reflexivity.
  - destruct (f_lba f) as [l|] eqn:El; [|reflexivity].
    destruct (pb_lt _ _ _ _ _ HB l El) as [H2|H2]; [destruct (Z.leb_spec now l); [lia|reflexivity]|congruence].
Qed.

Section PollStep.
Variables (f : fdl) (apps : list A) (buf : bytes) (tl : Z) (q : pmon) (now : Z) (busy : bool) (nb : bytes).
Variables (f' : fdl) (o : phy_out) (apps' : list A) (calls : list call).
Hypothesis HB : PB f apps buf tl q.
Hypothesis Hlt : tl < now.
Hypothesis Hnow : time_ok now.
Hypothesis Hnb : all_bytes nb.
Hypothesis E : poll ops f now (mkPhyIn busy (buf ++ nb)) apps = Ok (f', o, apps', calls).
Notation rxb := (buf ++ nb).
Notation s := (poll_event now busy rxb f' o calls).

Lemma ps_rx : all_bytes rxb.
Proof. apply all_bytes_app; [exact (pb_bytes _ _ _ _ _ HB)|exact Hnb]. Qed.

Lemma ps_rep : Rep (length apps') f'.
Proof.
  destruct (poll_rep_step A ops Happs f now (mkPhyIn busy rxb) apps (pb_rep _ _ _ _ _ HB) Hnow ps_rx) as (f'' & o'' & apps'' & c'' & E' & R' & L').
  rewrite E in E'. injection E' as <- <- <- <-. rewrite L'. exact R'.
Qed.

Definition ps_bk := poll_bk A ops now _ _ _ _ _ _ _ E.
Definition ps_facts := poll_facts A ops p Hbv _ _ _ _ _ _ _ _ _ _ E (pb_rep _ _ _ _ _ HB) (pb_p _ _ _ _ _ HB).

Lemma ps_left : (length (rx_left o) <= length rxb)%nat.
Proof. destruct ps_bk as ((k & ->) & _). cbn [rx]. rewrite skipn_length. lia. Qed.

Lemma ps_grew : z_grew q s = Nat.ltb (length buf) (length rxb).
Proof. unfold z_grew. rewrite (pb_left _ _ _ _ _ HB). reflexivity. Qed.

Lemma ps_consumed : z_consumed s = false <-> length (rx_left o) = length rxb.
Proof.
  pose proof ps_left. change (z_consumed s) with (negb (Nat.eqb (length rxb - length (rx_left o)) 0)).
  destruct (Nat.eqb_spec (length rxb - length (rx_left o)) 0); cbn; split; intros; try lia; try discriminate; reflexivity.
Qed.

Lemma ps_looks : z_looks q s = negb busy && negb (C11Proofs.predicted f now).
Proof. unfold z_looks. rewrite (ongoing_pred _ _ _ _ _ s now HB Hlt eq_refl). reflexivity. Qed.

Lemma ps_txend : z_txend p q s = match tx o with Some w => Some (now + dur p (length w)) | None => q_txend q end.
Proof. unfold z_txend, z_tx_end. cbn [poll_event s_tx]. destruct (tx o); reflexivity. Qed.

Lemma ps_le_now : C11Proofs.predicted f now = false -> tx o = None -> forall l', f_lba f' = Some l' -> l' <= now.
Proof.
  intros Hnp Etx l' El'. destruct ps_bk as (_ & _ & _ & Lk & _). rewrite Etx in Lk. unfold C11Proofs.predicted in Hnp.
  destruct Lk as [[L|[L|(_ & L)]]|((_ & _ & _ & L) & _)].
  - rewrite L in El'. rewrite El' in Hnp. apply Z.leb_gt in Hnp. lia.
  - rewrite L in El'. injection El' as <-. destruct (f_lba f) as [l|]; cbn [gv]; [apply Z.leb_gt in Hnp; lia|lia].
  - rewrite L in El'. injection El' as <-. destruct (f_lba f) as [l|]; cbn [gv]; [apply Z.leb_gt in Hnp; lia|lia].
  - destruct L as [L|L]; rewrite L in El'; [discriminate El'|injection El' as <-; lia].
Qed.

Lemma ps_spur_looked : z_looks q s = true -> z_spur q s = false ->
  length (rx_left o) = length rxb \/ length (rx_left o) = 0%nat.
Proof.
  intros Hlk Hsp. unfold z_spur in Hsp. destruct (z_consumed s) eqn:Ec.
  - right. apply Nat.ltb_ge in Hsp. cbn [poll_event s_consumed s_rx] in Hsp. pose proof ps_left. lia.
  - left. apply ps_consumed. exact Ec.
Qed.

(* when the monitor sees nothing happen, check_for_bus_activity marks nothing *)
Lemma ps_nomark : z_happened q s = false -> z_looks q s = true ->
  (q_spur q = false -> (length buf <= f_pending f)%nat) -> lba1 f now rxb = f_lba f.
Proof.
  intros Hh Hlk Hsp. unfold z_happened in Hh. rewrite !orb_false_iff in Hh. destruct Hh as (((Hg & _) & _) & Hsn).
  rewrite ps_grew in Hg. apply Nat.ltb_ge in Hg.
  unfold lba1. replace (Nat.ltb (f_pending f) (length rxb)) with false; [reflexivity|]. symmetry. apply Nat.ltb_ge.
  unfold z_spur_now in Hsn. rewrite Hlk in Hsn. cbn [poll_event s_rx] in Hsn.
  destruct (q_spur q); [|specialize (Hsp eq_refl); lia].
  destruct rxb; [cbn; lia|discriminate Hsn].
Qed.

Lemma ps_accepts : z_errs p q s = [].
Proof.
  destruct HB as [R Hp Hv Hpd Hl Hcnt Hb Htl Hnone Hte Hlt' Hsync].
  unfold z_errs. destruct (z_gated q && z_quiet q s && z_over p q s && negb (z_acted q s)) eqn:Ec; [exfalso|reflexivity].
  unfold z_quiet, z_acted in Ec. rewrite !andb_true_iff, !negb_true_iff, !orb_false_iff, !negb_false_iff in Ec.
  destruct Ec as (((Hg & (Hlk & Hng) & Hnsp) & Hover) & (((Hc1 & Hc2) & Hc3) & Hc4) & Hc5).
  rewrite (gated_eq f q Hv Hpd) in Hg.
  rewrite Hv in Hc2, Hc5. cbn [poll_event s_view s_tx view_of v_kind v_gap_due] in Hc2, Hc3, Hc5.
  assert (Etx : tx o = None) by (destruct (tx o); [discriminate Hc3|reflexivity]).
  assert (Hk : kind_of (f_state f') = kind_of (f_state f)) by (destruct (kind_of (f_state f')), (kind_of (f_state f)); try discriminate Hc2; reflexivity).
  assert (Hgd : gapdue f' = gapdue f) by (unfold gapdue; destruct (f_gap f'), (f_gap f); try discriminate Hc5; reflexivity).
  pose proof (gatedS_synced _ Hg) as Hsy.
  assert (Hne : f_state f <> Offline) by (intros Cn; rewrite Cn in Hg; discriminate Hg).
  destruct (f_lba f) as [l|] eqn:El; [|exact (Hne (Hnone eq_refl))].
  destruct (Hsync Hsy l eq_refl) as (r & Er & Hlr & Hsp).
  pose proof Hlk as Hlk'. rewrite ps_looks in Hlk. apply andb_true_iff in Hlk. destruct Hlk as (Hnb' & Hnpr). apply negb_true_iff in Hnb', Hnpr.
  destruct ps_facts as [(Hc & Hs & _)|[(_ & [Cb|Cp] & _)|(_ & _ & _ & _ & Hgate & _)]];
    [exact (Hne Hs)|congruence|congruence|].
  assert (Hl1 : lba1 f now rxb = Some l).
  { rewrite <- El. apply ps_nomark; [|exact Hlk'|exact Hsp].
    unfold z_happened. rewrite Hng, Hc1, Hnsp. cbn [poll_event s_busy]. rewrite Hnb'. reflexivity. }
  unfold z_over in Hover. rewrite Er in Hover. change (z_now s) with now in Hover. apply Z.leb_le in Hover.
  (* the timing argument: last_bus_activity l <= reference r (invariant), r + Tslot - 11 bit <= now (the rule
     fired), 33 bit + 11 bit < Tslot (builder-valid parameters): so the synchronisation pause after l is over *)
  assert (Hover_sync : l + p_bits_to_time p sync_pause_bits < now) by (pose proof (sync_char_lt_slot p Hbv); lia).
  destruct (Hgate Hg l Hl1 Hover_sync) as [T|[K|G]]; [exact (T Etx)|exact (K Hk)|exact (G Hgd)].
Qed.

Lemma ps_none : f_lba f' = None -> f_state f' = Offline.
Proof.
  destruct HB as [R Hp _ _ _ _ _ _ Hnone _ _ _]. destruct ps_bk as (_ & _ & _ & Lk & _).
  intros E1. destruct (tx o) as [wire|] eqn:Etx.
  { destruct Lk as (L & _). rewrite L in E1. discriminate E1. }
  destruct Lk as [[L|[L|(_ & L)]]|((S1 & _) & _)]; [|rewrite L in E1; discriminate E1|rewrite L in E1; discriminate E1|exact S1].
  rewrite E1 in L. symmetry in L. pose proof (Hnone L) as Hs.
  destruct ps_facts as [(_ & _ & -> & _)|[(_ & _ & _ & _ & _ & _ & _ & L1)|(Hc & _)]];
    [exact Hs|rewrite L1 in E1; discriminate E1|].
  destruct (poll_online_lba_some A ops now _ _ _ _ _ _ _ E Hc Hs L) as [C|(S1 & _)]; [contradiction|exact S1].
Qed.

Lemma ps_te e : z_txend p q s = Some e -> e <= now \/ f_lba f' = Some e.
Proof.
  destruct HB as [_ Hp _ _ _ _ _ _ _ Hte _ _]. destruct ps_bk as (_ & _ & _ & Lk & _).
  rewrite ps_txend. intros He.
  destruct (tx o) as [wire|] eqn:Etx.
  { injection He as <-. right. destruct Lk as (L & _). rewrite L, Hp. reflexivity. }
  destruct (Hte e He) as [H|H]; [left; lia|].
  destruct Lk as [[L|[L|(_ & L)]]|(_ & Hpast)].
  - right. congruence.
  - right. rewrite L, H. reflexivity.
  - rewrite L, H. cbn [gv]. destruct (Z.le_gt_cases now e); [right; f_equal; lia|left; lia].
  - left. specialize (Hpast e H). lia.
Qed.

Lemma ps_lt l' : f_lba f' = Some l' -> l' <= now \/ z_txend p q s = Some l'.
Proof.
  destruct HB as [_ Hp _ _ _ _ _ _ _ _ Hlt' _]. destruct ps_bk as (_ & _ & _ & Lk & _).
  rewrite ps_txend. intros El'.
  destruct (tx o) as [wire|] eqn:Etx.
  { right. destruct Lk as (L & _). rewrite L, Hp in El'. injection El' as <-. reflexivity. }
  destruct Lk as [[L|[L|(_ & L)]]|((_ & _ & _ & L) & _)].
  - rewrite L in El'. destruct (Hlt' l' El') as [H|H]; [left; lia|right; exact H].
  - rewrite L in El'. injection El' as <-. destruct (f_lba f) as [l|] eqn:El; cbn [gv]; [|left; lia].
    destruct (Hlt' l eq_refl) as [H|H]; [left; lia|right; exact H].
  - rewrite L in El'. injection El' as <-. destruct (f_lba f) as [l|] eqn:El; cbn [gv]; [|left; lia].
    destruct (Z.le_gt_cases l now); [left; lia|]. destruct (Hlt' l eq_refl) as [H0|H0]; [lia|right; rewrite H0; f_equal; lia].
  - destruct L as [L|L]; rewrite L in El'; [discriminate El'|injection El' as <-; left; lia].
Qed.

Lemma ps_sync : synced (f_state f') = true -> forall l', f_lba f' = Some l' ->
  exists r, z_ref2 p q s = Some r /\ l' <= r /\ (z_spur q s = false -> (length (rx_left o) <= f_pending f')%nat).
Proof.
  destruct HB as [R Hp _ _ _ _ _ _ Hnone _ _ Hsync]. destruct ps_bk as (_ & _ & _ & Lk & _).
  destruct (z_ref1_facts q s) as (r1 & Er1 & Hr1 & Hhap).
  destruct (z_ref2_facts p q s) as (r2 & Er2 & Hr12 & Hr2e). specialize (Hr12 r1 Er1).
  change (z_now s) with now in Hhap.
  intros Hsy' l' El'. exists r2. split; [exact Er2|].
  destruct ps_facts
    as [(Hc & Hs & -> & _)|[(Hc & Hearly & Etx & Erx & _ & Hsy & Hpd' & L1)|(Hc & Hnb' & Hnpr & Hnm & _ & Hlis)]].
  - rewrite Hs in Hsy'. discriminate Hsy'.
  - (* the poll ended at the check for an ongoing transmission *)
    rewrite Hsy in Hsy'.
    assert (Hne : f_state f <> Offline) by (intros Cn; rewrite Cn in Hsy'; discriminate Hsy').
    destruct (f_lba f) as [l|] eqn:El; [|exact (False_ind _ (Hne (Hnone eq_refl)))].
    destruct (Hsync Hsy' l eq_refl) as (r & Er & Hlr & Hsp). specialize (Hr1 r Er).
    rewrite L1 in El'. injection El' as <-. cbn [gv].
    assert (Hnl : z_looks q s = false).
    { rewrite ps_looks. destruct Hearly as [-> | ->]; [reflexivity|apply andb_false_r]. }
    split.
    + destruct Hearly as [Cb|Cp].
      * assert (Hh : z_happened q s = true) by (unfold z_happened; cbn [poll_event s_busy]; rewrite Cb; rewrite !orb_true_r; reflexivity).
        specialize (Hhap Hh). lia.
      * unfold C11Proofs.predicted in Cp. rewrite El in Cp. apply Z.leb_le in Cp. lia.
    + unfold z_spur. rewrite (proj2 ps_consumed) by (rewrite Erx; reflexivity). rewrite Hnl. intros Hs0.
      apply orb_false_iff in Hs0. destruct Hs0 as (Hs1 & Hs2). rewrite ps_grew in Hs2. apply Nat.ltb_ge in Hs2.
      specialize (Hsp Hs1). rewrite Erx, Hpd'. lia.
  - (* the poll looked at the receive buffer *)
    assert (Hlk : z_looks q s = true) by (rewrite ps_looks, Hnb', Hnpr; reflexivity).
    split.
    + destruct (tx o) as [wire|] eqn:Etx.
      { destruct Lk as (L & _). rewrite L, Hp in El'. injection El' as <-. apply Hr2e. unfold z_tx_end. cbn [poll_event s_tx]. rewrite Etx. reflexivity. }
      pose proof (ps_le_now Hnpr Etx l' El') as Hln.
      destruct (z_happened q s) eqn:Hh; [specialize (Hhap eq_refl); lia|].
      assert (Hc0 : length (rx_left o) = length rxb).
      { apply ps_consumed. unfold z_happened in Hh. rewrite !orb_false_iff in Hh. exact (proj2 (proj1 Hh)). }
      destruct (synced (f_state f)) eqn:Hsy.
      * assert (Hne : f_state f <> Offline) by (intros Cn; rewrite Cn in Hsy; discriminate Hsy).
        destruct (f_lba f) as [l|] eqn:El; [|exact (False_ind _ (Hne (Hnone eq_refl)))].
        destruct (Hsync eq_refl l eq_refl) as (r & Er & Hlr & Hsp). specialize (Hr1 r Er).
        destruct (Hnm Hc0) as (_ & Hlbs). specialize (Hlbs eq_refl).
        rewrite (ps_nomark Hh Hlk Hsp), El in Hlbs. apply lbs_some in Hlbs. rewrite Hlbs in El'. injection El' as <-. lia.
      * rewrite (Hlis eq_refl Hc0 eq_refl) in Hsy'. discriminate Hsy'.
    + intros Hs0. destruct (ps_spur_looked Hlk Hs0) as [Hc0|Hc0]; [|lia].
      destruct (Hnm Hc0) as (Hp0 & _). lia.
Qed.

Lemma ps_inv : PB f' apps' (rx_left o) now (z_q' p q s (psr_flag f')).
Proof.
  destruct ps_bk as ((k & Ek) & Pp & Qp & _). cbn [rx] in Ek, Pp.
  constructor.
  - exact ps_rep.
  - rewrite Qp. exact (pb_p _ _ _ _ _ HB).
  - reflexivity.
  - reflexivity.
  - cbn [z_q' q_left poll_event s_rx s_consumed]. pose proof ps_left. lia.
  - apply Pp. pose proof (pb_cnt _ _ _ _ _ HB). rewrite app_length. lia.
  - rewrite Ek. apply all_bytes_skipn. exact ps_rx.
  - destruct Hnow. lia.
  - exact ps_none.
  - exact ps_te.
  - exact ps_lt.
  - exact ps_sync.
Qed.

End PollStep.

Lemma pb_poll f apps buf tl q now busy nb f' o apps' calls :
  PB f apps buf tl q -> tl < now -> time_ok now -> all_bytes nb ->
  poll ops f now (mkPhyIn busy (buf ++ nb)) apps = Ok (f', o, apps', calls) ->
  let s := poll_event now busy (buf ++ nb) f' o calls in
  z_errs p q s = [] /\ PB f' apps' (rx_left o) now (z_q' p q s (psr_flag f')).
Proof. intros HB Hlt Hnow Hnb E. split; [exact (ps_accepts _ _ _ _ _ _ _ _ _ _ _ _ HB Hlt E)|exact (ps_inv _ _ _ _ _ _ _ _ _ _ _ _ HB Hlt Hnow Hnb E)]. Qed.

Definition pmon_after_api (a : api_call) (v : view) (pending : bool) (q : pmon) : pmon :=
  match a with
  | ApiOnline => mkPmon v pending (q_left q) (q_ref q) (q_txend q) (q_spur q)
  | ApiPassive => q
  | _ => pmon_reset v pending (q_left q)
  end.

Lemma pb_new f1 apps buf tl left : fdl_new p = Ok f1 -> all_bytes buf -> 0 <= tl -> left = length buf ->
  PB f1 apps buf tl (pmon_reset (view_of f1) (psr_flag f1) left).
Proof.
  intros E1 Hb Htl ->. destruct (fdl_new_rep (length apps) p Hbv) as (f0 & E0 & R0 & _). rewrite E1 in E0. injection E0 as <-.
  destruct (fdl_new_fields _ _ E1) as (S1 & _ & L1 & P1 & Q1).
  constructor; try assumption; try reflexivity.
  - rewrite P1. lia.
  - intros _. exact S1.
  - intros e C. discriminate C.
  - intros l C. rewrite L1 in C. discriminate C.
  - rewrite S1. intros C. discriminate C.
Qed.

Lemma pb_api a f apps buf tl q f' :
  PB f apps buf tl q -> api_result p a f = Ok f' ->
  PB f' apps buf tl (pmon_after_api a (view_of f') (psr_flag f') q).
Proof.
  intros HB E. pose proof HB as [R Hp Hv Hpd Hl Hcnt Hb Htl Hnone Hte Hlt' Hsync].
  destruct a; cbn [api_result pmon_after_api] in *.
  - apply pb_new; try assumption.
  - unfold set_online, set_state in E. injection E as <-.
    destruct (Rep_set_online _ f R) as (f1 & E1 & R1). unfold set_online, set_state in E1. injection E1 as <-.
    constructor; try assumption; reflexivity.
  - unfold set_offline, set_state in E. rewrite Hp in E. apply pb_new; try assumption.
  - discriminate E.
Qed.

Theorem prompt_sound_from : forall ins f apps buf tl q i,
  PB f apps buf tl q -> ins_ok tl ins ->
  pmonitor_from p i (Some q) (pmodel_events A ops p f apps buf ins) = [].
Proof.
  induction ins as [|x ins IH]; intros f apps buf tl q i HB Hok; [reflexivity|].
  destruct x as [a|now busy nb]; cbn [pmodel_events].
  - cbn [ins_ok] in Hok. destruct (api_result p a f) as [f'| |] eqn:Ea.
    + pose proof (pb_api _ _ _ _ _ _ _ HB Ea) as HB'.
      assert (Hq : pmonitor_from p i (Some q) ((EApi a (view_of f'), psr_flag f') :: pmodel_events A ops p f' apps buf ins) =
                   pmonitor_from p (S i) (Some (pmon_after_api a (view_of f') (psr_flag f') q)) (pmodel_events A ops p f' apps buf ins))
        by (destruct a; reflexivity).
      rewrite Hq. exact (IH _ _ _ _ _ _ HB' Hok).
    + destruct a; reflexivity.
    + destruct a; reflexivity.
  - cbn [ins_ok] in Hok. destruct Hok as (Htl & Hnow & Hnb & Hok).
    destruct (poll ops f now (mkPhyIn busy (buf ++ nb)) apps) as [[[[f' o] apps'] calls]| |] eqn:Ep; try reflexivity.
    destruct (pb_poll _ _ _ _ _ _ _ _ _ _ _ _ HB Htl Hnow Hnb Ep) as (He & HB').
    cbn [pmonitor_from]. rewrite pmon_poll_eq, He. cbn [map app]. exact (IH _ _ _ _ _ _ HB' Hok).
Qed.

Theorem prompt_sound_transcript (apps : list A) (ins : list minput) :
  ins_ok 0 ins -> pmonitor p (pmodel_transcript A ops p apps ins) = [].
Proof.
  intros Hok. unfold pmonitor. destruct (builder_validb p); [|reflexivity].
  unfold pmodel_transcript. destruct (fdl_new p) as [f0| |] eqn:E0; [|reflexivity|reflexivity].
  cbn [pmonitor_from].
  apply (prompt_sound_from ins f0 apps [] 0); [|exact Hok].
  apply pb_new; [exact E0|constructor|lia|reflexivity].
Qed.

End Sound.

(* for ALL parameters (pmonitor checks builder_validb itself) *)
Theorem prompt_monitor_sound (A : Type) (ops : app_ops A) (p : params) :
  apps_total A ops -> forall (apps : list A) (ins : list minput),
  ins_ok 0 ins -> pmonitor p (pmodel_transcript A ops p apps ins) = [].
Proof.
  intros Happs apps ins Hok. destruct (builder_validb p) eqn:Eb.
  - exact (prompt_sound_transcript A ops p Happs (FdlRingSound.builder_validb_valid p Eb) apps ins Hok).
  - unfold pmonitor. rewrite Eb. reflexivity.
Qed.

(* the statements in terms of pmon_poll (for Properties/C01.v) *)

Lemma prompt_poll_step (A : Type) (ops : app_ops A) (p : params) :
  apps_total A ops -> builder_valid p ->
  forall f apps buf tl q now busy nb f' o apps' calls,
  PB A p f apps buf tl q -> tl < now -> time_ok now -> all_bytes nb ->
  poll ops f now (mkPhyIn busy (buf ++ nb)) apps = Ok (f', o, apps', calls) ->
  snd (pmon_poll p q (poll_event now busy (buf ++ nb) f' o calls) (psr_flag f')) = [] /\
  PB A p f' apps' (rx_left o) now (fst (pmon_poll p q (poll_event now busy (buf ++ nb) f' o calls) (psr_flag f'))).
Proof.
  intros Happs Hbv f apps buf tl q now busy nb f' o apps' calls HB Hlt Hnow Hnb E.
  rewrite pmon_poll_eq. cbn [fst snd]. exact (pb_poll A ops p Happs Hbv _ _ _ _ _ _ _ _ _ _ _ _ HB Hlt Hnow Hnb E).
Qed.

Lemma prompt_invariant_init (A : Type) (p : params) : builder_valid p ->
  forall (apps : list A) f0, fdl_new p = Ok f0 -> PB A p f0 apps [] 0 (pmon_reset (view_of f0) (psr_flag f0) 0).
Proof. intros Hbv apps f0 E0. apply pb_new; [exact Hbv|exact E0|constructor|lia|reflexivity]. Qed.

(* (a) a model history (station 3, 19.2 kbit/s, no applications) that claims the token on a silent bus and starts the
   post-claim scan: polls while the own claim token is still on the wire, polls inside the synchronisation pause
   (the gated state ClaimToken, nothing happens, the monitor waits), then the next transmission - accepted. *)
Definition ex_prompt_params : params := mkParams 3 B19200 100 80000 1 16 1 11 None.
Definition ex_prompt_inputs : list minput :=
  [InApi ApiOnline; InPoll 834 false []; InPoll 70000 false []; InPoll 70100 false []; InPoll 71000 false [];
   InPoll 72700 false []; InPoll 72800 false []; InPoll 73000 false []; InPoll 75000 false []; InPoll 76000 false [];
   InPoll 78000 false []; InPoll 79000 false []; InPoll 82000 false []].

Definition poll_summary (e : event * bool) : option (Z * state_kind * bool) :=
  match fst e with
  | EPoll s => Some (s_now s, v_kind (s_view s), match s_tx s with Some _ => true | None => false end)
  | _ => None
  end.

Lemma prompt_example :
  builder_validb ex_prompt_params = true /\ ins_ok 0 ex_prompt_inputs /\
  pmonitor ex_prompt_params (pmodel_transcript unit unit_app_ops ex_prompt_params [] ex_prompt_inputs) = [] /\
  map poll_summary (pmodel_transcript unit unit_app_ops ex_prompt_params [] ex_prompt_inputs) =
    [None; None; Some (834, KListenToken, false);
     Some (70000, KClaimToken, true); Some (70100, KClaimToken, false); Some (71000, KClaimToken, false);
     Some (72700, KClaimToken, false); Some (72800, KClaimToken, false); Some (73000, KClaimToken, false);
     Some (75000, KClaimToken, true); Some (76000, KClaimToken, false); Some (78000, KClaimToken, false);
     Some (79000, KClaimToken, true); Some (82000, KClaimToken, false)].
Proof.
  split; [reflexivity|]. split.
  { cbn. unfold time_ok, all_bytes. repeat split; try lia; repeat constructor. }
  split; vm_compute; reflexivity.
Qed.

(* (b) the monitor is not trivially silent: a station that sits in PassToken on a silent bus for longer than a slot
   time without doing anything is reported *)
Definition ex_stuck_view : view := mkView ConnOnline true KPassToken 4 2 true [2; 3; 4] false false.
Definition ex_stuck_events : list (event * bool) :=
  [(EApi ApiNew ex_stuck_view, false);
   (EPoll (mkPStep 1000 false [] None 0 [] ex_stuck_view), false);
   (EPoll (mkPStep 7000 false [] None 0 [] ex_stuck_view), false)].

Lemma prompt_monitor_fires :
  pmonitor ex_prompt_params ex_stuck_events = [(2%nat, P01_reaction_after_slot_time)].
Proof. vm_compute. reflexivity. Qed.
