(* Proofs about the FDL station model (Model/Fdl.v): one-step facts used by Properties/C01 C05 C06
   C11 C12 C13 C15.  The explicit results of the small helpers and function-level lemmas first, then
   what a whole `poll` is made of (`poll_inner_inv`). *)
From PB Require Import Common Tables FdlTables Telegram Phy TokenRing Params Fdl.

(* take one step in a hypothesis `H : <monadic term> = Ok _` *)
Ltac ok_step H :=
  match type of H with
  | bind ?r _ = Ok _ =>
      let E := fresh "E" in destruct r eqn:E; cbn [bind] in H; [|discriminate H|discriminate H]
  | (if ?b then _ else _) = Ok _ => let E := fresh "E" in destruct b eqn:E
  | (let (_, _) := ?x in _) = Ok _ => let E := fresh "E" in destruct x eqn:E
  | Panic _ = Ok _ => discriminate H
  | OutOfFuel = Ok _ => discriminate H
  end.

Lemma bind_ok {X Y : Type} (r : res X) (k : X -> res Y) (y : Y) :
  bind r k = Ok y -> exists x, r = Ok x /\ k x = Ok y.
Proof. destruct r as [x| |]; cbn; [eauto|discriminate|discriminate]. Qed.

(* declarative GAP: strictly between TS and NS, cyclically; all addresses but TS when NS = TS *)
Definition in_gap (ts ns a : Z) : Prop :=
  (ts < ns -> ts < a < ns) /\ (ns <= ts -> ts < a \/ a < ns).

Lemma in_gapb_spec ts ns a : in_gapb ts ns a = true <-> in_gap ts ns a.
Proof.
  unfold in_gapb, in_gap.
  destruct (Z.ltb_spec ts ns) as [H|H].
  - rewrite andb_true_iff, !Z.ltb_lt. split; [intros [A B]; split; intros; lia|intros [A _]; lia].
  - rewrite orb_true_iff, !Z.ltb_lt. split; [intros A; split; intros; lia|intros [_ B]; apply B; lia].
Qed.

Lemma in_gap_not_self ts ns a : in_gap ts ns a -> a <> ts.
Proof. unfold in_gap. intros [A B] ->. destruct (Z.lt_ge_cases ts ns) as [H|H]; [specialize (A H)|specialize (B H)]; lia. Qed.

Lemma next_gap_poll_in_gap f cur a :
  next_gap_poll f cur = Ok (GapDoPoll a) ->
  in_gap (ts f) (r_ns (f_ring f)) a /\ a <> ts f /\
  (0 <= cur < p_hsa (f_p f) -> 0 <= a < p_hsa (f_p f)).
Proof.
  unfold next_gap_poll, u8_sub, u8_add. intros H.
  destruct (Z.leb_spec 0 (p_hsa (f_p f) - 1)) as [Eh|Eh]; cbn [bind] in H; [|discriminate H].
  destruct (Z.eqb_spec cur (p_hsa (f_p f) - 1)) as [E|E]; cbn [bind] in H.
  - destruct (in_gapb (ts f) (r_ns (f_ring f)) 0) eqn:Eg; [|discriminate H].
    injection H as <-. apply in_gapb_spec in Eg.
    split; [exact Eg|]. split; [exact (in_gap_not_self _ _ _ Eg)|]. intros Hc. lia.
  - destruct (Z.leb_spec (cur + 1) 255) as [E2|E2]; cbn [bind] in H; [|discriminate H].
    destruct (in_gapb (ts f) (r_ns (f_ring f)) (cur + 1)) eqn:Eg; [|discriminate H].
    injection H as <-. apply in_gapb_spec in Eg.
    split; [exact Eg|]. split; [exact (in_gap_not_self _ _ _ Eg)|]. intros Hc. lia.
Qed.

Lemma next_gap_poll_waiting f cur n :
  next_gap_poll f cur = Ok (GapWaiting n) -> n = 0.
Proof.
  unfold next_gap_poll. intros H.
  destruct (u8_sub (p_hsa (f_p f)) 1) as [h| |]; cbn [bind] in H; try discriminate H.
  destruct (if cur =? h then Ok 0 else u8_add cur 1) as [x| |]; cbn [bind] in H; try discriminate H.
  destruct (in_gapb (ts f) (r_ns (f_ring f)) x); [discriminate H|]. injection H as <-. reflexivity.
Qed.

(* totality for parameters the builder can produce (1 <= HSA <= 126) and cursors below HSA *)
Lemma next_gap_poll_total f cur :
  1 <= p_hsa (f_p f) <= 126 -> 0 <= cur < p_hsa (f_p f) ->
  exists g, next_gap_poll f cur = Ok g.
Proof.
  intros Hh Hc. unfold next_gap_poll, u8_sub, u8_add.
  destruct (Z.leb_spec 0 (p_hsa (f_p f) - 1)) as [_|A]; [|lia]. cbn [bind].
  destruct (Z.eqb_spec cur (p_hsa (f_p f) - 1)) as [E|E]; cbn [bind].
  - destruct (in_gapb (ts f) (r_ns (f_ring f)) 0); eexists; reflexivity.
  - destruct (Z.leb_spec (cur + 1) 255) as [_|A]; [|lia]. cbn [bind].
    destruct (in_gapb (ts f) (r_ns (f_ring f)) (cur + 1)); eexists; reflexivity.
Qed.

(* the debug_assert_ne! of transmit_gap_poll_if_pending cannot fire on a cursor produced by
   next_gap_poll (defect F1 is the negation of this statement on the unfixed tree) *)
Lemma gap_poll_never_self f cur a :
  next_gap_poll f cur = Ok (GapDoPoll a) -> (a =? ts f) = false.
Proof. intros H. apply Z.eqb_neq. exact (proj1 (proj2 (next_gap_poll_in_gap f cur a H))). Qed.

(* Concrete corner triples of the property text: successor at HSA-1 and at TS-1. *)
Example gap_corner_hsa_minus_1 :
  forall f, ts f = 7 -> r_ns (f_ring f) = 15 -> p_hsa (f_p f) = 16 -> next_gap_poll f 14 = Ok (GapWaiting 0).
Proof. intros f H1 H2 H3. unfold next_gap_poll, u8_sub, u8_add. rewrite H1, H2, H3. reflexivity. Qed.
Example gap_corner_ts_minus_1 :
  forall f, ts f = 7 -> r_ns (f_ring f) = 6 -> p_hsa (f_p f) = 16 -> next_gap_poll f 5 = Ok (GapWaiting 0).
Proof. intros f H1 H2 H3. unfold next_gap_poll, u8_sub, u8_add. rewrite H1, H2, H3. reflexivity. Qed.

(* What the small helpers return, as explicit terms: every later fact about an unchanged field
   is then a computation. *)

(* the instant `last_bus_activity.get_or_insert(now)` yields *)
Definition goi_val (f : fdl) (now : Z) : Z := match f_lba f with Some l => l | None => now end.

Lemma lba_get_or_insert_eq f now :
  lba_get_or_insert f now = (goi_val f now, set_lba f (Some (goi_val f now))).
Proof. destruct f as [p r c g s [l|] pe lt e na]; reflexivity. Qed.

Lemma mark_bus_activity_eq f now : mark_bus_activity f now = set_lba f (Some (Z.max (goi_val f now) now)).
Proof. unfold mark_bus_activity. rewrite lba_get_or_insert_eq. reflexivity. Qed.

Lemma inst_add_inv i d x : inst_add i d = Ok x -> x = i + d.
Proof. unfold inst_add. destruct (i64_ok _); [congruence|discriminate]. Qed.

Lemma wait_sync_inv f now f' b : wait_synchronization_pause f now = Ok (f', b) ->
  f' = set_lba f (Some (goi_val f now)) /\
  b = (now <=? goi_val f now + p_bits_to_time (f_p f) sync_pause_bits).
Proof.
  unfold wait_synchronization_pause. rewrite lba_get_or_insert_eq. intros H.
  apply bind_ok in H as (d & Ed & H). apply inst_add_inv in Ed as ->. injection H as <- <-. split; reflexivity.
Qed.

Lemma check_slot_inv f now f' b : check_slot_expired f now = Ok (f', b) ->
  f' = set_lba f (Some (goi_val f now)) /\ b = (goi_val f now + slot_time (f_p f) <? now).
Proof.
  unfold check_slot_expired. rewrite lba_get_or_insert_eq. intros H.
  apply bind_ok in H as (d & Ed & H). apply inst_add_inv in Ed as ->. injection H as <- <-. split; reflexivity.
Qed.

Lemma mark_tx_inv f now n f' : mark_tx f now n = Ok f' -> exists e, f' = set_lba f (Some e).
Proof.
  unfold mark_tx. destruct (_ <? _); [discriminate|]. destruct (_ <? _); [discriminate|]. intros H.
  apply bind_ok in H as (e & _ & H). injection H as <-. exists e. reflexivity.
Qed.

Section WithApps.
Variable A : Type.
Variable ops : app_ops A.
Notation W := (world A).

Lemma trans_inv f (w : W) t f' w' : trans A f w t = Ok (f', w') ->
  exists s', t (f_state f) = Ok s' /\ f' = set_st f s' /\ w' = note A w (TTrans (kind_of (f_state f)) (kind_of s')).
Proof. unfold trans. intros H. apply bind_ok in H as (s' & E & H). injection H as <- <-. eauto. Qed.

(* the same from a known state s: `t s` then computes *)
Lemma trans_from s f (w : W) t f' w' : f_state f = s -> trans A f w t = Ok (f', w') ->
  exists s', t s = Ok s' /\ f' = set_st f s' /\ w' = note A w (TTrans (kind_of s) (kind_of s')).
Proof. intros <-. apply trans_inv. Qed.

Lemma phy_send_inv (w : W) rq w' n : phy_send A w rq = Ok (w', n) ->
  exists wire e, transmit tx_buffer_size rq = Ok (wire, e) /\ w_tx w = None /\ n = length wire /\
                 w' = mkWorld (w_rx w) (Some wire) (w_apps w) (w_calls w) (w_trace w).
Proof.
  unfold phy_send, phy_transmit. intros H. apply bind_ok in H as ([wire e] & E & H). exists wire, e.
  destruct (w_tx w); [discriminate H|]. injection H as <- <-. repeat split; assumption || reflexivity.
Qed.

Lemma next_gap_poll_traced_inv f (w : W) cur f' w' : next_gap_poll_traced A f w cur = Ok (f', w') ->
  exists g, next_gap_poll f cur = Ok g /\ f' = set_gap f g /\
            w' = note A w (match g with GapWaiting _ => TGapEnd | GapDoPoll _ => TGapNext end).
Proof. unfold next_gap_poll_traced. intros H. apply bind_ok in H as (g & E & H). injection H as <- <-. eauto. Qed.

Lemma transmit_gap_poll_inv f now (w : W) f' w' polled :
  transmit_gap_poll_if_pending A f now w = Ok (f', w', polled) ->
  match polled with
  | Some a => f_gap f = GapDoPoll a /\ a <> ts f /\ w_tx w = None /\
              exists e wire, f' = set_lba f (Some e) /\
                             w' = mkWorld (w_rx w) (Some wire) (w_apps w) (w_calls w) (w_trace w)
  | None => (exists n, f_gap f = GapWaiting n) /\ w' = w /\ f' = f
  end.
Proof.
  unfold transmit_gap_poll_if_pending. destruct (f_gap f) as [n|cur].
  - intros H. injection H as <- <- <-. eauto.
  - destruct (Z.eqb_spec cur (ts f)) as [|Hne]; [discriminate|]. intros H.
    apply bind_ok in H as ([w1 n] & Ep & H). apply bind_ok in H as (f1 & Em & H). injection H as <- <- <-.
    apply phy_send_inv in Ep as (wire & _ & _ & Hn & _ & ->). apply mark_tx_inv in Em as (e & ->). eauto 8.
Qed.

Lemma handle_token_cases (f : fdl) (w : W) now sr nps cc da sa il f' w' :
  f_state f = ActiveIdle sr nps cc ->
  handle_telegram A now f w (TToken da sa) il = Ok (f', w') ->
  if sa =? ts f then have_token (f_state f') = false
  else if negb (da =? ts f) || negb il
  then f_state f' = ActiveIdle sr nps 0 /\ witness (f_ring f) sa da = Ok (f_ring f')
  else (sa = r_ps (f_ring f) \/ nps = Some sa -> f_state f' = UseToken now None false) /\
       (~ (sa = r_ps (f_ring f) \/ nps = Some sa) -> f_state f' = ActiveIdle sr (Some sa) 0 /\ f_ring f' = f_ring f).
Proof.
  intros Hst H. unfold handle_telegram in H. rewrite Hst in H.
  cbn [f_state kind_of state_kind_eqb negb get_active_idle bind] in H.
  assert (U : forall f0 (w0 : W), trans A f0 w0 (fun s => transition_use_token s now None) = Ok (f', w') ->
              kind_of (f_state f0) = KActiveIdle -> f_state f' = UseToken now None false).
  { intros f0 w0 E K. apply trans_inv in E as (s' & Et & -> & _). unfold transition_use_token, assert_kind in Et.
    rewrite K in Et. injection Et as <-. reflexivity. }
  destruct (sa =? ts f).
  - apply bind_ok in H as (cc' & _ & H). destruct (cc' =? _); [injection H as <- <-; reflexivity|].
    apply trans_inv in H as (s' & Ht & -> & _). cbn in Ht. injection Ht as <-. reflexivity.
  - cbv zeta in H. change (ts (set_st f _)) with (ts f) in H. change (f_ring (set_st f _)) with (f_ring f) in H.
    destruct (_ || _).
    + apply bind_ok in H as (r & Ew & H). injection H as <- <-. auto.
    + destruct (Z.eqb_spec sa (r_ps (f_ring f))) as [Eps|Eps]; [apply U in H; [tauto|reflexivity]|].
      destruct nps as [address|]; [destruct (Z.eqb_spec address sa) as [Ea|Ea]|].
      * apply bind_ok in H as (r & _ & H). apply U in H; [|reflexivity]. split; [auto|]. intros N. contradiction N. subst. auto.
      * injection H as <- <-. split; [intros [X|[= X]]; contradiction|auto].
      * injection H as <- <-. split; [intros [X|X]; [contradiction|discriminate X]|auto].
Qed.

Lemma handle_telegram_accept_iff (f : fdl) (w : world A) now sr nps cc sa f' w' :
  f_state f = ActiveIdle sr nps cc -> sa <> ts f ->
  handle_telegram A now f w (TToken (ts f) sa) true = Ok (f', w') ->
  (sa = r_ps (f_ring f) \/ nps = Some sa ->
     f_state f' = UseToken now None false) /\
  (~ (sa = r_ps (f_ring f) \/ nps = Some sa) ->
     f_state f' = ActiveIdle sr (Some sa) 0 /\ f_ring f' = f_ring f).
Proof.
  intros Hst Hsa H. apply (handle_token_cases _ _ _ _ _ _ _ _ _ _ _ Hst) in H.
  apply Z.eqb_neq in Hsa. rewrite Hsa, Z.eqb_refl in H. exact H.
Qed.

Lemma handle_telegram_own_address_never_accepts (f : fdl) (w : world A) now sr nps cc da is_last f' w' :
  f_state f = ActiveIdle sr nps cc ->
  handle_telegram A now f w (TToken da (ts f)) is_last = Ok (f', w') ->
  have_token (f_state f') = false.
Proof. intros Hst H. apply (handle_token_cases _ _ _ _ _ _ _ _ _ _ _ Hst) in H. rewrite Z.eqb_refl in H. exact H. Qed.

Lemma handle_telegram_not_last_only_witnessed (f : fdl) (w : world A) now sr nps cc da sa is_last f' w' :
  f_state f = ActiveIdle sr nps cc -> sa <> ts f -> (da <> ts f \/ is_last = false) ->
  handle_telegram A now f w (TToken da sa) is_last = Ok (f', w') ->
  f_state f' = ActiveIdle sr nps 0 /\ witness (f_ring f) sa da = Ok (f_ring f').
Proof.
  intros Hst Hsa Hc H. apply (handle_token_cases _ _ _ _ _ _ _ _ _ _ _ Hst) in H.
  apply Z.eqb_neq in Hsa. rewrite Hsa in H.
  replace (negb (da =? ts f) || negb is_last) with true in H; [exact H|].
  destruct Hc as [Hc| ->]; [apply Z.eqb_neq in Hc; rewrite Hc; reflexivity|symmetry; apply orb_true_r].
Qed.

Definition reply_ok (tsa addr : Z) (t : telegram) : Prop :=
  t = TShortConf \/
  exists h pdu st s, t = TData h pdu /\ h_fc h = FcResponse st s /\ h_sa h = addr /\ h_da h = tsa.

Lemma is_valid_response_spec f addr t : is_valid_response f addr t = true <-> reply_ok (ts f) addr t.
Proof.
  unfold is_valid_response, reply_ok. destruct t as [h pdu|da sa|].
  - split.
    + intros H. apply andb_true_iff in H. destruct H as [H Hfc]. apply andb_true_iff in H. destruct H as [Hs Hd].
      apply Z.eqb_eq in Hs. apply Z.eqb_eq in Hd. right.
      destruct (h_fc h) as [fb r|st s] eqn:Efc; [discriminate Hfc|].
      exists h, pdu, st, s. repeat split; assumption.
    + intros [H|[h' [pdu' [st [s [Ht [Hfc [Hs Hd]]]]]]]]; [discriminate H|].
      injection Ht as <- <-. rewrite Hfc, Hs, Hd, !Z.eqb_refl. reflexivity.
  - split; [discriminate|]. intros [H|[h' [pdu' [st [s [Ht _]]]]]]; discriminate.
  - split; [intros _; left; reflexivity|reflexivity].
Qed.

(* do_use_token = its head (everything up to and including the transition to PassToken), then
   do_pass_token in the same poll when the head made that transition. *)

Definition do_use_token_head (f : fdl) (now : Z) (w : world A) : res (fdl * world A) :=
  let* _ := assert_entry DoUseToken f in
  let* (token_time, _, _) := get_use_token (f_state f) in
  let* (f, w) :=
    (if negb (f_last_token_time f =? token_time) then
       let* e := inst_add (f_last_token_time f) (token_rotation_time (f_p f)) in
       match f_gap f with
       | GapDoPoll _ =>
           let* e := inst_sub_dur e (p_bits_to_time (f_p f) (p_slot_bits (f_p f) + gap_reserve_extra_bits)) in
           Ok (set_hold f token_time e, note A w TUseNewVisitGapReserve)
       | GapWaiting _ => Ok (set_hold f token_time e, note A w TUseNewVisit)
       end
     else Ok (f, w)) in
  let* (f, wait) := wait_synchronization_pause f now in
  if wait then Ok (f, note A w TSyncWait) else
  let* (_, _, fcd) := get_use_token (f_state f) in
  let* (f, w, done) :=
    (if now <? f_end_tht f then
       let* f := set_first_cycle_done f in
       apps_transmit_telegram A ops f now (note A w TUseLowPrio) false
     else if negb fcd then
       let* f := set_first_cycle_done f in
       apps_transmit_telegram A ops f now (note A w TUseHighPrioOnce) true
     else Ok (f, note A w TUseHoldOver, false)) in
  if done then Ok (f, w) else
  trans A f w (fun s => transition_pass_token s true first_attempt).

Definition is_pass_token (s : state) : bool := state_kind_eqb (kind_of s) KPassToken.

Lemma mark_tx_state f now n f' : mark_tx f now n = Ok f' -> f_state f' = f_state f.
Proof. intros H. apply mark_tx_inv in H as (e & ->). reflexivity. Qed.

(* The two computations inside do_use_token, under names: the deadline of a new visit, and the
   round of application calls (`fcd`: the guaranteed cycle of this visit is done). *)
Definition use_token_deadline (f : fdl) (token_time : Z) (w : W) : res (fdl * W) :=
  if negb (f_last_token_time f =? token_time) then
    let* e := inst_add (f_last_token_time f) (token_rotation_time (f_p f)) in
    match f_gap f with
    | GapDoPoll _ =>
        let* e := inst_sub_dur e (p_bits_to_time (f_p f) (p_slot_bits (f_p f) + gap_reserve_extra_bits)) in
        Ok (set_hold f token_time e, note A w TUseNewVisitGapReserve)
    | GapWaiting _ => Ok (set_hold f token_time e, note A w TUseNewVisit)
    end
  else Ok (f, w).

Definition use_token_ask (f : fdl) (now : Z) (w : W) (fcd : bool) : res (fdl * W * bool) :=
  if now <? f_end_tht f then
    let* f := set_first_cycle_done f in
    apps_transmit_telegram A ops f now (note A w TUseLowPrio) false
  else if negb fcd then
    let* f := set_first_cycle_done f in
    apps_transmit_telegram A ops f now (note A w TUseHighPrioOnce) true
  else Ok (f, note A w TUseHoldOver, false).

Lemma use_token_deadline_inv f tk (w : W) f1 w1 : use_token_deadline f tk w = Ok (f1, w1) ->
  exists a b tr, f1 = set_hold f a b /\ w1 = mkWorld (w_rx w) (w_tx w) (w_apps w) (w_calls w) tr.
Proof.
  unfold use_token_deadline. destruct (negb _).
  - intros H. apply bind_ok in H as (e & _ & H). destruct (f_gap f).
    + injection H as <- <-. do 3 eexists. split; reflexivity.
    + apply bind_ok in H as (e' & _ & H). injection H as <- <-. do 3 eexists. split; reflexivity.
  - intros H. injection H as <- <-. destruct f, w. do 3 eexists. split; reflexivity.
Qed.

Lemma app_transmit_inv f now (w : W) idx app hp f' w' d :
  app_transmit_telegram A ops f now w idx app hp = Ok (f', w', d) ->
  exists r, w_calls w' = w_calls w ++ [CallTransmit idx hp r] /\ w_rx w' = w_rx w /\
    match r with
    | None => d = false /\ f' = f /\ w_tx w' = w_tx w
    | Some (wire, _) => d = true /\ w_tx w = None /\ w_tx w' = Some wire /\
        exists s e, f' = set_lba (set_st f s) (Some e) /\ (s = f_state f \/ kind_of s = KAwaitDataResponse)
    end.
Proof.
  unfold app_transmit_telegram. intros H. apply bind_ok in H as ([app' r] & _ & H). exists r.
  destruct r as [[wire er]|]; [|injection H as <- <- <-; cbn; auto].
  apply bind_ok in H as (w1 & Ep & H). unfold phy_transmit in Ep. cbn [w_tx log_call set_app] in Ep.
  destruct (w_tx w); [discriminate|]. injection Ep as <-.
  apply bind_ok in H as ([f1 w2] & E1 & H). apply bind_ok in H as (f2 & Em & H). injection H as <- <- <-.
  apply mark_tx_inv in Em as (e & ->).
  destruct er as [addr|].
  - apply bind_ok in E1 as ([[tk fa] fcd] & _ & E1). apply trans_inv in E1 as (s' & Et & -> & ->).
    apply bind_ok in Et as (_ & _ & Et). injection Et as <-. cbn. eauto 10.
  - injection E1 as <- <-. cbn. repeat split. exists (f_state f), e. auto.
Qed.

Lemma schedule_next_inv f k f' c : schedule_next_application f k = Ok (f', c) ->
  exists tk fa fcd nx, f' = set_next_app (set_st f (UseToken tk fa fcd)) nx.
Proof.
  unfold schedule_next_application. intros H. apply bind_ok in H as ([[tk fa] fcd] & _ & H).
  destruct (Nat.eqb k 0); [discriminate|]. injection H as <- _. eauto.
Qed.

Lemma apps_transmit_loop_not_pass n : forall (f : fdl) now (w : world A) hp f' w' d,
  apps_transmit_loop A ops n f now w hp = Ok (f', w', d) ->
  is_pass_token (f_state f) = false -> is_pass_token (f_state f') = false.
Proof.
  induction n as [|n IH]; intros f now w hp f' w' d H Hk; cbn [apps_transmit_loop] in H.
  - injection H as <- _ _. exact Hk.
  - destruct (nth_error (w_apps w) (f_next_app f)) as [app|]; [|discriminate H].
    apply bind_ok in H as ([[f1 w1] d1] & Ea & H). apply app_transmit_inv in Ea as (r & _ & _ & Ea).
    destruct r as [[wire er]|].
    + destruct Ea as (-> & _ & _ & s & e & -> & Hs). injection H as <- _ _.
      destruct Hs as [-> | Hs]; [exact Hk|]. unfold is_pass_token. cbn. rewrite Hs. reflexivity.
    + destruct Ea as (-> & -> & _). apply bind_ok in H as ([f2 c] & Es & H).
      apply schedule_next_inv in Es as (tk & fa & fcd & nx & ->).
      destruct c; [injection H as <- _ _; reflexivity|]. exact (IH _ _ _ _ _ _ _ H eq_refl).
Qed.

Lemma use_token_ask_not_pass f now (w : W) fcd f' w' d : use_token_ask f now w fcd = Ok (f', w', d) ->
  kind_of (f_state f) = KUseToken -> is_pass_token (f_state f') = false.
Proof.
  unfold use_token_ask, set_first_cycle_done, apps_transmit_telegram. intros H Hk.
  assert (L : forall w0 hp, (let* f0 := (let* (tt_, fa, _) := get_use_token (f_state f) in Ok (set_st f (UseToken tt_ fa true))) in
                           apps_transmit_loop A ops (length (w_apps w0)) f0 now w0 hp) = Ok (f', w', d) ->
                          is_pass_token (f_state f') = false).
  { intros w0 hp L. apply bind_ok in L as (f0 & E0 & L). apply bind_ok in E0 as ([[tk fa] c] & _ & E0).
    injection E0 as <-. exact (apps_transmit_loop_not_pass _ _ _ _ _ _ _ _ L eq_refl). }
  destruct (now <? f_end_tht f); [exact (L _ _ H)|]. destruct (negb fcd); [exact (L _ _ H)|].
  injection H as <- _ _. unfold is_pass_token. rewrite Hk. reflexivity.
Qed.

Lemma do_use_token_split (f : fdl) now (w : world A) :
  do_use_token A ops f now w =
  let* (f1, w1) := do_use_token_head f now w in
  if is_pass_token (f_state f1) then do_pass_token A f1 now w1 else Ok (f1, w1).
Proof.
  unfold do_use_token, do_use_token_head, assert_entry.
  destruct (f_state f) as [ | | | |tk fa fcd| | | | | ] eqn:Es;
    cbn [kind_of do_fn_entry state_kind_eqb bind get_use_token]; try reflexivity.
  destruct (use_token_deadline f tk w) as [[f1 w1]| |] eqn:E1; unfold use_token_deadline in E1; rewrite E1;
    cbn [bind]; try reflexivity.
  apply (use_token_deadline_inv f tk w) in E1 as (a & b & tr & -> & _).
  destruct (wait_synchronization_pause (set_hold f a b) now) as [[f2 wait]| |] eqn:Ew; cbn [bind]; try reflexivity.
  apply wait_sync_inv in Ew as (-> & _).
  destruct wait; cbn [bind f_state set_lba set_hold]; rewrite Es; [reflexivity|]. cbn [get_use_token bind].
  match goal with |- bind ?x _ = _ => destruct x as [[[f3 w3] d]| |] eqn:E3 end; cbn [bind]; try reflexivity.
  destruct d; cbn [bind].
  - rewrite (use_token_ask_not_pass _ _ _ _ _ _ _ E3) by exact (f_equal kind_of Es). reflexivity.
  - unfold trans, transition_pass_token. destruct (assert_kind _ _); reflexivity.
Qed.

Lemma do_use_token_pass (f : fdl) now (w : W) f1 w1 :
  do_use_token_head f now w = Ok (f1, w1) -> is_pass_token (f_state f1) = true ->
  do_use_token A ops f now w = do_pass_token A f1 now w1.
Proof. intros H K. rewrite do_use_token_split, H. cbn [bind]. rewrite K. reflexivity. Qed.

Lemma do_pass_token_result f now (w : W) f' w' dg att :
  f_state f = PassToken dg att -> do_pass_token A f now w = Ok (f', w') ->
  exists r g s l txo tr,
    f' = set_lba (set_st (set_gap (set_ring f r) g) s) l /\ w' = mkWorld (w_rx w) txo (w_apps w) (w_calls w) tr /\
    ((r = f_ring f /\ g = f_gap f /\ s = PassToken dg att /\ txo = w_tx w) \/
     (goi_val f now + p_bits_to_time (f_p f) sync_pause_bits < now /\ w_tx w = None /\
      ((exists a, r = f_ring f /\ dg = true /\ g = GapDoPoll a /\ in_gap (ts f) (r_ns (f_ring f)) a /\ a <> ts f /\
                  s = AwaitStatusResponse a /\ txo <> None) \/
       (witness (f_ring f) (ts f) (r_ns (f_ring f)) = Ok r /\ txo = Some (encode_token (r_ns (f_ring f)) (ts f)) /\
        s = if r_ns r =? ts f then UseToken now None false else CheckTokenPass att)))).
Proof.
  intros Hst H. unfold do_pass_token, assert_entry in H. rewrite Hst in H.
  cbn [kind_of do_fn_entry state_kind_eqb bind] in H.
  apply bind_ok in H as ([f1 wait] & [-> ->]%wait_sync_inv & H).
  destruct (Z.leb_spec now (goi_val f now + p_bits_to_time (f_p f) sync_pause_bits)) as [_|Hgo].
  { injection H as <- <-. exists (f_ring f), (f_gap f), (PassToken dg att). do 3 eexists.
    split; [|split; [reflexivity|left; repeat split]]. rewrite <- Hst. destruct f; reflexivity. }
  cbn [f_state set_lba] in H. rewrite Hst in H. cbn [get_pass_token bind] in H.
  apply bind_ok in H as ([[f2 w2] polled] & E & H).
  (* the GAP turn moves the cursor and may send a request *)
  assert (E2 : exists g l txo tr, f2 = set_lba (set_gap f g) l /\ w2 = mkWorld (w_rx w) txo (w_apps w) (w_calls w) tr /\
                 match polled with
                 | Some a => dg = true /\ txo <> None /\ w_tx w = None /\ g = GapDoPoll a /\
                             in_gap (ts f) (r_ns (f_ring f)) a /\ a <> ts f
                 | None => txo = w_tx w
                 end).
  { destruct dg.
    2:{ injection E as <- <- <-. exists (f_gap f), (Some (goi_val f now)), (w_tx w), (w_trace w).
        split; [destruct f; reflexivity|]. split; [destruct w|]; reflexivity. }
    apply bind_ok in E as ([f3 w3] & E3 & E).
    assert (E3' : exists g tr, f3 = set_lba (set_gap f g) (Some (goi_val f now)) /\
                    w3 = mkWorld (w_rx w) (w_tx w) (w_apps w) (w_calls w) tr /\
                    forall c, g = GapDoPoll c -> in_gap (ts f) (r_ns (f_ring f)) c).
    { cbn [f_gap f_p set_lba] in E3. destruct (f_gap f) as [rc|cur]; [destruct (_ <? rc)|].
      - apply next_gap_poll_traced_inv in E3 as (g & En & -> & ->). do 2 eexists. do 2 (split; [reflexivity|]).
        intros c ->. apply (next_gap_poll_in_gap _ _ _ En).
      - apply bind_ok in E3 as (rc' & _ & [= <- <-]). do 2 eexists. do 2 (split; [reflexivity|]). discriminate.
      - apply next_gap_poll_traced_inv in E3 as (g & En & -> & ->). do 2 eexists. do 2 (split; [reflexivity|]).
        intros c ->. apply (next_gap_poll_in_gap _ _ _ En). }
    destruct E3' as (g & tr & -> & -> & Hin). apply transmit_gap_poll_inv in E. destruct polled as [pa|].
    - destruct E as (Eg & Hne & Hn & e & wire & -> & ->). cbn in Eg. subst g. eexists _, _, _, _.
      split; [reflexivity|]. split; [reflexivity|]. split; [reflexivity|]. split; [discriminate|]. split; [exact Hn|].
      split; [reflexivity|]. split; [exact (Hin _ eq_refl)|exact Hne].
    - destruct E as (_ & -> & ->). exists g. do 3 eexists. split; [reflexivity|]. split; reflexivity. }
  destruct E2 as (g & l & txo & tr & -> & -> & Hpol). destruct polled as [pa|].
  - destruct Hpol as (-> & Hne & Hn & -> & Hin & Hpa). apply trans_inv in H as (s' & Et & -> & ->).
    cbn in Et. rewrite Hst in Et. injection Et as <-.
    exists (f_ring f), (GapDoPoll pa). do 4 eexists. split; [reflexivity|]. split; [reflexivity|].
    right. split; [exact Hgo|]. split; [exact Hn|]. left. exists pa.
    do 3 (split; [reflexivity|]). split; [exact Hin|]. split; [exact Hpa|]. split; [reflexivity|exact Hne].
  - subst txo. apply bind_ok in H as ([w3 n] & (wire & e0 & [= <- _] & Hn & -> & ->)%phy_send_inv & H).
    apply bind_ok in H as (r & Ewit & H). apply bind_ok in H as ([f3 w4] & E3 & H).
    apply bind_ok in H as (f4 & (e & ->)%mark_tx_inv & [= <- <-]).
    cbn [f_ring set_ring set_lba set_gap f_state] in E3. change (ts (set_ring _ r)) with (ts f) in E3.
    assert (E3' : f3 = set_st (set_ring (set_lba (set_gap f g) l) r)
                         (if r_ns r =? ts f then UseToken now None false else CheckTokenPass att) /\
                  exists tr', w4 = mkWorld (w_rx w) (Some (encode_token (r_ns (f_ring f)) (ts f))) (w_apps w) (w_calls w) tr').
    { destruct (r_ns r =? ts f); [|rewrite Hst in E3; cbn [get_pass_token bind] in E3];
        apply trans_inv in E3 as (s' & Et & -> & ->); cbn in Et; rewrite Hst in Et; injection Et as <-;
        (split; [reflexivity|eexists; reflexivity]). }
    destruct E3' as (-> & tr' & ->). exists r, g. do 4 eexists.
    split; [reflexivity|]. split; [reflexivity|]. right. split; [exact Hgo|]. split; [exact Hn|]. right. repeat split. exact Ewit.
Qed.

Lemma do_pass_token_inv f now (w : W) f' w' : do_pass_token A f now w = Ok (f', w') ->
  (f_p f' = f_p f /\ f_last_token_time f' = f_last_token_time f /\ f_end_tht f' = f_end_tht f /\
   f_next_app f' = f_next_app f /\ f_conn f' = f_conn f) /\
  (w_calls w' = w_calls w /\ w_apps w' = w_apps w /\ w_rx w' = w_rx w) /\
  exists dg att, f_state f = PassToken dg att /\
    ((f_state f' = f_state f /\ w_tx w' = w_tx w) \/
     (goi_val f now + p_bits_to_time (f_p f) sync_pause_bits < now /\
      w_tx w = None /\ (exists wire, w_tx w' = Some wire) /\
      ((exists a, dg = true /\ f_state f' = AwaitStatusResponse a /\ f_gap f' = GapDoPoll a /\
                  in_gap (ts f) (r_ns (f_ring f)) a /\ a <> ts f) \/
       (exists tk, f_state f' = UseToken tk None false) \/ (exists att', f_state f' = CheckTokenPass att')))).
Proof.
  intros H. destruct (f_state f) as [ | | | | | | |dg att| | ] eqn:Es;
    try (unfold do_pass_token, assert_entry in H; rewrite Es in H; discriminate H).
  destruct (do_pass_token_result f now w f' w' dg att Es H) as (r & g & s & l & txo & tr & -> & -> & D).
  cbn. do 2 (split; [repeat split; reflexivity|]). exists dg, att. split; [reflexivity|].
  destruct D as [(_ & _ & -> & ->)|(Hgo & Hn & [(a & _ & -> & -> & Hin & Hne & -> & Htx)|(_ & -> & ->)])].
  - left. split; reflexivity.
  - right. repeat split; try assumption. { destruct txo; [eauto|contradiction Htx; reflexivity]. } left. exists a. do 3 (split; [reflexivity|]). split; assumption.
  - right. repeat split; try assumption; [eauto|]. right. destruct (r_ns r =? ts f); eauto.
Qed.

Lemma do_pass_token_frame (f : fdl) now (w : world A) f' w' :
  do_pass_token A f now w = Ok (f', w') ->
  w_calls w' = w_calls w /\ w_apps w' = w_apps w /\ w_rx w' = w_rx w.
Proof. intros H. apply do_pass_token_inv in H. tauto. Qed.

(* Hold-time rule, the "over" half: in UseToken, with the visit's deadline already computed, the
   synchronisation pause over, the hold time over and the guaranteed cycle done, no application is
   asked and the station goes on to pass the token in the same poll: the rest
   of the poll is do_pass_token from PassToken{do_gap, First} (a GAP request or the token goes out). *)
Lemma do_use_token_hold_over (f : fdl) (w : world A) now tk fa l :
  f_state f = UseToken tk fa true -> f_last_token_time f = tk -> f_lba f = Some l ->
  i64_ok (l + p_bits_to_time (f_p f) sync_pause_bits) = true ->
  l + p_bits_to_time (f_p f) sync_pause_bits < now ->
  f_end_tht f <= now ->
  exists w1, do_use_token A ops f now w = do_pass_token A (set_st f (PassToken true first_attempt)) now w1 /\
             w_calls w1 = w_calls w /\ w_tx w1 = w_tx w /\ w_apps w1 = w_apps w /\
             forall f' w', do_use_token A ops f now w = Ok (f', w') ->
                           w_calls w' = w_calls w /\ w_apps w' = w_apps w.
Proof.
  intros Hst Hlt Hl Hok Hsync Hend.
  assert (Hh : exists w1, do_use_token_head f now w = Ok (set_st f (PassToken true first_attempt), w1) /\
                          w_calls w1 = w_calls w /\ w_tx w1 = w_tx w /\ w_apps w1 = w_apps w).
  { unfold do_use_token_head, assert_entry. rewrite Hst. cbn [f_state kind_of do_fn_entry state_kind_eqb bind get_use_token].
    rewrite Hlt, Z.eqb_refl. cbn [negb bind].
    unfold wait_synchronization_pause, lba_get_or_insert. rewrite Hl. unfold inst_add. rewrite Hok. cbn [bind].
    destruct (Z.leb_spec now (l + p_bits_to_time (f_p f) sync_pause_bits)) as [C|_]; [lia|].
    rewrite Hst. cbn [get_use_token bind].
    destruct (Z.ltb_spec now (f_end_tht f)) as [C|_]; [lia|].
    cbn [negb bind]. unfold trans. rewrite Hst. cbn.
    eexists. split; [reflexivity|]. cbn. repeat split; reflexivity. }
  destruct Hh as [w1 [Hh [Hc [Ht Ha]]]].
  pose proof (do_use_token_pass _ _ _ _ _ Hh eq_refl) as Hd.
  exists w1. split; [exact Hd|]. split; [exact Hc|]. split; [exact Ht|]. split; [exact Ha|].
  intros f' w' H. rewrite Hd in H. apply do_pass_token_frame in H. destruct H as [-> [-> _]]. split; assumption.
Qed.

(* What a poll is made of: the connectivity prologue, which at most enters ListenToken or
   PassiveIdle; the guard against an ongoing (PHY busy) or predicted transmission; the bus activity
   check; then one do_* function, chosen by the state. *)

Definition dispatch (f : fdl) (now : Z) (w : W) : res (fdl * W) :=
  match poll_dispatch (kind_of (f_state f)) with
  | TgUnreachable => Panic SiteUnreachable
  | TgTodo => Panic SiteUnreachable
  | TgDo DoListenToken => do_listen_token A f now w
  | TgDo DoClaimToken => do_claim_token A f now w
  | TgDo DoUseToken => do_use_token A ops f now w
  | TgDo DoAwaitDataResponse => do_await_data_response A ops f now w
  | TgDo DoPassToken => do_pass_token A f now w
  | TgDo DoCheckTokenPass => do_check_token_pass A f now w
  | TgDo DoActiveIdle => do_active_idle A f now w
  | TgDo DoAwaitStatusResponse => do_await_status_response A f now w
  end.

Definition after_prologue (f : fdl) (w : W) (f2 : fdl) (w2 : W) : Prop :=
  (f2 = f /\ w2 = w) \/
  exists s', f2 = set_st f s' /\ w2 = note A w (TTrans (kind_of (f_state f)) (kind_of s')) /\
    ((f_conn f = ConnOnline /\ online_entry_kind (kind_of (f_state f)) = true /\ s' = ListenToken None 0) \/
     (f_conn f = ConnPassive /\ passive_entry_kind (kind_of (f_state f)) = true /\ s' = PassiveIdle)).

Lemma poll_inner_inv f now busy (w : W) f' w' : poll_inner ops f now busy w = Ok (f', w') ->
  (f_conn f = ConnOffline /\ f_state f = Offline /\ f' = f /\ w' = w) \/
  exists f2 w2, f_conn f <> ConnOffline /\ after_prologue f w f2 w2 /\
    if busy || match f_lba f2 with Some l => now <=? l | None => false end
    then f' = mark_bus_activity f2 now /\ w' = note A w2 (if busy then TOngoingPhy else TOngoingPredicted)
    else exists f3 w3, check_for_bus_activity A f2 now w2 = (f3, w3) /\ dispatch f3 now w3 = Ok (f', w').
Proof.
  unfold poll_inner. intros H. apply bind_ok in H as ([[f2 w2] off] & Ep & H).
  assert (P : forall (c : bool) (t : state -> res state) (s' : state), (forall s s0, t s = Ok s0 -> s0 = s') ->
            (if c then let* (f0, w0) := trans A f w t in Ok (f0, w0, false) else Ok (f, w, false)) = Ok (f2, w2, off) ->
            off = false /\ ((f2 = f /\ w2 = w) \/
              (c = true /\ f2 = set_st f s' /\ w2 = note A w (TTrans (kind_of (f_state f)) (kind_of s'))))).
  { intros [|] t s' Ht E; [|injection E as <- <- <-; auto].
    apply bind_ok in E as ([f0 w0] & Et & E). injection E as <- <- <-.
    apply trans_inv in Et as (s0 & Et & -> & ->). apply Ht in Et as ->. auto. }
  assert (T : forall (ok : state_kind -> bool) (s' s s0 : state), (let* _ := assert_kind ok s in Ok s') = Ok s0 -> s0 = s').
  { intros ok s' s s0 E. apply bind_ok in E as (_ & _ & E). congruence. }
  destruct (f_conn f) eqn:Ec.
  - destruct (f_state f); try discriminate Ep. injection Ep as <- <- <-. injection H as <- <-. auto.
  - right. exists f2, w2. split; [discriminate|].
    apply (P _ _ PassiveIdle (T _ _)) in Ep as (-> & Ep). split.
    { destruct Ep as [Ep|(Ek & -> & ->)]; [left; exact Ep|right; eauto 10]. }
    unfold check_for_ongoing_transmision in H. cbn [ongoing_uses_predicted_end andb] in H.
    destruct (busy || _); [injection H as <- <-; auto|].
    destruct (check_for_bus_activity A f2 now w2) as [f3 w3]. eauto.
  - right. exists f2, w2. split; [discriminate|].
    apply (P _ _ (ListenToken None 0) (T _ _)) in Ep as (-> & Ep). split.
    { destruct Ep as [Ep|(Ek & -> & ->)]; [left; exact Ep|right; eauto 10]. }
    unfold check_for_ongoing_transmision in H. cbn [ongoing_uses_predicted_end andb] in H.
    destruct (busy || _); [injection H as <- <-; auto|].
    destruct (check_for_bus_activity A f2 now w2) as [f3 w3]. eauto.
Qed.

Lemma prologue_no_tx (f : fdl) (w : world A) (t : state -> res state) f' w' :
  trans A f w t = Ok (f', w') -> w_tx w' = w_tx w.
Proof. intros H. apply trans_inv in H as (s' & _ & _ & ->). reflexivity. Qed.

Lemma poll_guarded_silent (f : fdl) now pin (apps : list A) f' o a c :
  tx_busy pin = true \/ (exists l, f_lba f = Some l /\ now <= l) ->
  poll ops f now pin apps = Ok (f', o, a, c) ->
  tx o = None /\ rx_left o = rx pin /\ c = [] /\ a = apps /\
  exists f2 w2, after_prologue f (mkWorld (rx pin) None apps [] []) f2 w2 /\ f_state f' = f_state f2.
Proof.
  unfold poll, poll_traced. intros G H. apply bind_ok in H as ([[[[f1 o1] a1] c1] t1] & H & E). injection E as <- <- <- <-.
  apply bind_ok in H as ([f3 w3] & H & E). injection E as <- <- <- <- _.
  apply poll_inner_inv in H as [(_ & _ & -> & ->)|(f2 & w2 & _ & P & H)].
  { cbn. do 4 (split; [reflexivity|]). exists f, (mkWorld (rx pin) None apps [] []). split; [left; auto|reflexivity]. }
  assert (L : f_lba f2 = f_lba f) by (destruct P as [(-> & _)|(s' & -> & _)]; reflexivity).
  replace (tx_busy pin || _) with true in H.
  - destruct H as (-> & ->). rewrite mark_bus_activity_eq.
    split; [|split; [|split; [|split; [|eauto]]]]; destruct P as [(_ & ->)|(s' & _ & -> & _)]; reflexivity.
  - destruct G as [-> |(l & El & Hl)]; [reflexivity|]. rewrite L, El. apply Z.leb_le in Hl. rewrite Hl. symmetry. apply orb_true_r.
Qed.

Lemma poll_busy_silent (f : fdl) now rxb (apps : list A) f' o a c :
  poll ops f now (mkPhyIn true rxb) apps = Ok (f', o, a, c) ->
  tx o = None /\ rx_left o = rxb /\ c = [] /\ a = apps.
Proof. intros H. apply poll_guarded_silent in H; [tauto|left; reflexivity]. Qed.

Lemma poll_predicted_silent (f : fdl) now busy rxb (apps : list A) l f' o a c :
  f_conn f = ConnOnline -> online_entry_kind (kind_of (f_state f)) = false ->
  f_lba f = Some l -> now <= l ->
  poll ops f now (mkPhyIn busy rxb) apps = Ok (f', o, a, c) ->
  tx o = None /\ rx_left o = rxb /\ c = [] /\ a = apps /\ f_state f' = f_state f.
Proof.
  intros Hc Hk Hl Hnow H. apply poll_guarded_silent in H as (T & R & C & E & f2 & w2 & P & S); [|eauto].
  do 4 (split; [assumption|]). rewrite S.
  destruct P as [(-> & _)|(s' & _ & _ & [(_ & K & _)|(K & _)])]; [reflexivity|congruence|congruence].
Qed.

Lemma poll_offline_noop (f : fdl) now pin (apps : list A) :
  f_conn f = ConnOffline -> f_state f = Offline ->
  poll ops f now pin apps = Ok (f, mkPhyOut None (rx pin), apps, []).
Proof.
  intros Hc Hs. unfold poll, poll_traced, poll_inner. rewrite Hc, Hs. reflexivity.
Qed.

(* a busy poll of an online station never panics, whatever its state (PassiveIdle is not reachable:
   set_passive is todo!()) *)
Lemma poll_busy_total (f : fdl) now rxb (apps : list A) :
  f_conn f = ConnOnline -> kind_of (f_state f) <> KPassiveIdle ->
  exists f', poll ops f now (mkPhyIn true rxb) apps = Ok (f', mkPhyOut None rxb, apps, []).
Proof.
  intros Hc Hk. unfold poll, poll_traced, poll_inner. rewrite Hc. cbn [tx_busy rx].
  destruct (f_state f) eqn:Es; cbn [kind_of online_entry_kind] in *; try contradiction;
    unfold trans, transition_listen_token, assert_kind; rewrite ?Es; cbn; eexists; reflexivity.
Qed.

Lemma bits_to_time_bounds b n : 0 <= n <= 100000 -> 0 <= bits_to_time b n <= 100000 * 1000000.
Proof.
  intros Hn. unfold bits_to_time.
  assert (Hr : 1 <= baud_to_rate b) by (destruct b; cbn; lia).
  split.
  - apply Z.div_pos; lia.
  - apply Z.div_le_upper_bound; [lia|].
    transitivity (1 * (100000 * 1000000)); [lia|]. apply Z.mul_le_mono_nonneg_r; lia.
Qed.

Definition time_ok (t : Z) : Prop := 0 <= t < 4611686018427387904.   (* [0, 2^62) *)

Lemma i64_ok_small a : -4611686018427387904 <= a <= 4611686018427387904 + 1000000000000 -> i64_ok a = true.
Proof. intros H. unfold i64_ok. apply andb_true_iff. split; apply Z.leb_le; lia. Qed.

Lemma do_claim_token_first (f : fdl) (w : world A) now l :
  f_state f = ClaimToken StepFirstToken -> f_lba f = Some l -> w_tx w = None ->
  time_ok l -> time_ok now -> l + p_bits_to_time (f_p f) sync_pause_bits < now ->
  exists f' w', do_claim_token A f now w = Ok (f', w') /\
    w_tx w' = Some (encode_token (ts f) (ts f)) /\ w_rx w' = w_rx w /\ w_calls w' = w_calls w /\
    w_apps w' = w_apps w /\ f_state f' = ClaimToken StepSecondToken /\
    f_gap f' = GapDoPoll (ts f) /\ ready_for_ring (f_ring f') = true.
Proof.
  intros Hs Hl Hw Tl Tn Hsync. unfold time_ok in *.
  pose proof (bits_to_time_bounds (p_baud (f_p f)) sync_pause_bits ltac:(vm_compute; split; discriminate)) as Hb.
  pose proof (bits_to_time_bounds (p_baud (f_p f)) (bits_per_byte * 3) ltac:(vm_compute; split; discriminate)) as Hb2.
  unfold do_claim_token, assert_entry. rewrite Hs. cbn [f_state kind_of do_fn_entry state_kind_eqb bind get_claim_token_step].
  unfold wait_synchronization_pause, lba_get_or_insert. rewrite Hl. unfold inst_add, p_bits_to_time in *.
  rewrite i64_ok_small by lia. cbn [bind].
  destruct (Z.leb_spec now (l + bits_to_time (p_baud (f_p f)) sync_pause_bits)) as [C|_]; [lia|].
  unfold phy_send, transmit. cbn [Nat.ltb Nat.leb tx_buffer_size bind].
  replace (Nat.ltb tx_buffer_size 3) with false by reflexivity. cbn [bind].
  unfold phy_transmit. rewrite Hw. cbn [bind].
  unfold set_claim_step. cbn [f_state set_ring]. rewrite Hs. cbn [get_claim_token_step bind].
  unfold mark_tx. cbn [length encode_token].
  change (Z.of_nat 3) with 3.
  replace (4294967295 <? 3) with false by reflexivity.
  replace (4294967295 <? bits_per_byte * 3) with false by reflexivity.
  unfold inst_add. cbn [f_p set_gap set_st set_ring].
  rewrite i64_ok_small by lia. cbn [bind].
  eexists. eexists. split; [reflexivity|]. cbn. repeat split; reflexivity.
Qed.

Lemma handle_lost_token_claims (f : fdl) (w : W) now l :
  kind_of (f_state f) = KListenToken \/ kind_of (f_state f) = KActiveIdle ->
  f_lba f = Some l -> w_tx w = None -> time_ok l -> time_ok now ->
  token_lost_timeout (f_p f) <= now - l -> l + p_bits_to_time (f_p f) sync_pause_bits < now ->
  exists f' w', handle_lost_token A f now w = Ok (f', w', true) /\
    w_tx w' = Some (encode_token (ts f) (ts f)) /\ w_rx w' = w_rx w /\ w_calls w' = w_calls w /\
    w_apps w' = w_apps w /\ f_state f' = ClaimToken StepSecondToken.
Proof.
  intros Hk Hl Hw Tl Tn Hto Hsync.
  pose proof (bits_to_time_bounds (p_baud (f_p f)) sync_pause_bits ltac:(vm_compute; split; discriminate)) as Hb.
  unfold p_bits_to_time in Hsync.
  unfold handle_lost_token, lba_get_or_insert, inst_diff. rewrite Hl.
  rewrite i64_ok_small by (unfold time_ok in *; lia). rewrite Z.abs_eq by lia. cbn [bind].
  destruct (Z.leb_spec (token_lost_timeout (f_p f)) (now - l)) as [_|C]; [|lia].
  unfold trans, transition_claim_token, assert_kind.
  replace (may_transition_claim_token (kind_of (f_state f))) with true by (destruct Hk as [-> | ->]; reflexivity).
  cbn [bind kind_of].
  destruct (do_claim_token_first (set_st f (ClaimToken StepFirstToken))
              (note A (note A w TLostTokenClaim) (TTrans (kind_of (f_state f)) KClaimToken)) now l)
    as (f' & w' & Hd & H); try reflexivity; try assumption.
  rewrite Hd. cbn [bind]. exists f', w'. split; [reflexivity|]. cbn in H. tauto.
Qed.

Lemma claim_progress (f : fdl) now rxb (apps : list A) l :
  f_conn f = ConnOnline ->
  (exists sr cc, f_state f = ListenToken sr cc) \/ (exists sr nps cc, f_state f = ActiveIdle sr nps cc) ->
  f_lba f = Some l -> time_ok l -> time_ok now ->
  (length rxb <= f_pending f)%nat ->                      (* nothing new in the receive buffer *)
  token_lost_timeout (f_p f) <= now - l ->                (* silence for the station's time-out *)
  l + p_bits_to_time (f_p f) sync_pause_bits < now ->     (* (implied by the former for slot_bits >= 6) *)
  exists f', poll ops f now (mkPhyIn false rxb) apps =
               Ok (f', mkPhyOut (Some (encode_token (ts f) (ts f))) rxb, apps, []) /\
             f_state f' = ClaimToken StepSecondToken.
Proof.
  intros Hc Hst Hl Tl Tn Hrx Hto Hsync.
  assert (Hlt : l < now).
  { pose proof (bits_to_time_bounds (p_baud (f_p f)) sync_pause_bits ltac:(vm_compute; split; discriminate)).
    unfold p_bits_to_time in Hsync. lia. }
  assert (Hk : kind_of (f_state f) = KListenToken \/ kind_of (f_state f) = KActiveIdle)
    by (destruct Hst as [(sr & cc & ->)|(sr & nps & cc & ->)]; auto).
  destruct (handle_lost_token_claims f (mkWorld rxb None apps [] []) now l Hk Hl eq_refl Tl Tn Hto Hsync)
    as (f' & w' & Hh & Htx & Hrx' & Hcalls & Happs & Hst').
  unfold poll, poll_traced, poll_inner. rewrite Hc. cbn [tx_busy rx].
  replace (online_entry_kind (kind_of (f_state f))) with false by (destruct Hk as [-> | ->]; reflexivity).
  cbn [bind]. unfold check_for_ongoing_transmision. rewrite Hl.
  destruct (Z.leb_spec now l) as [C|_]; [lia|]. rewrite andb_false_r. cbn [orb].
  unfold check_for_bus_activity. cbn [w_rx].
  destruct (Nat.ltb_spec (f_pending f) (length rxb)) as [C|_]; [lia|].
  exists f'. split; [|exact Hst'].
  destruct Hst as [(sr & cc & Hs)|(sr & nps & cc & Hs)]; rewrite Hs in *; cbn [kind_of poll_dispatch];
    unfold do_listen_token, do_active_idle, assert_entry; rewrite Hs; cbn [f_state kind_of do_fn_entry state_kind_eqb bind];
    rewrite Hh; cbn [bind]; rewrite Htx, Hrx', Hcalls, Happs; reflexivity.
Qed.

End WithApps.
