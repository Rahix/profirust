(* C11, the ring-view monitor (Model/FdlRing.v: rmonitor, ring_poll, rule P11_removal_passes_to_next) never rejects a
   transcript of the MODEL.  ring_poll keeps only the previous view, so the core is a one-step theorem over all
   station states (ring_step_sound) under r_ts (f_ring f) = ts f, a conjunct of Rep: r_ts is what
   update_next_previous searches from, p_address what the token telegram carries as SA.  The heart: clearing bit a
   of the LAS filters a out of the ascending list of active stations (las_ones_remove, for every length of the bit
   list), and the NS that remove_station computes is next_of over that list - the monitor's next_after_removal.
   The lift to transcripts is a direct induction over model_events (rmonitor_from_sound) with Rep, the parameters
   and "the PHY buffer holds bytes" as invariant; no hypothesis on the parameters, since rmonitor only runs for
   builder-valid ones and that is all Rep needs. *)
From Coq Require Import Arith.
From PB Require Import Common Tables FdlTables Telegram Phy TokenRing Params Fdl FdlOracle FdlRing FdlProofs FdlStepProofs.
From PB Require Import LasRep C02Proofs C05Proofs C11Proofs.
From PB Require Import FdlOracleSound1 FdlOracleSound2 FdlOracleSound3.

Lemma set_nth_beyond (l : list bool) : forall i v, (length l <= i)%nat -> set_nth l i v = l.
Proof.
  induction l as [|x t IH]; intros i v H; [destruct i; reflexivity|].
  destruct i as [|i]; cbn [length] in H; [lia|]. cbn [set_nth]. rewrite IH by lia. reflexivity.
Qed.

Lemma filter_all_true {X} (g : X -> bool) (l : list X) : (forall x, In x l -> g x = true) -> filter g l = l.
Proof.
  induction l as [|x t IH]; intros H; [reflexivity|]. cbn [filter].
  rewrite (H x (or_introl eq_refl)). rewrite IH; [reflexivity|]. intros y Hy. apply H. right. exact Hy.
Qed.

(* for every bit list (whatever its length) and every index a station address can be *)
Lemma las_ones_remove (las : list bool) (a : Z) : 0 <= a ->
  las_ones (set_nth las (Z.to_nat a) false) = remove_z a (las_ones las).
Proof.
  intros Ha. unfold remove_z. destruct (Z.lt_ge_cases a (Z.of_nat (length las))) as [Hlt|Hge].
  - apply ones_set_false. lia.
  - rewrite set_nth_beyond by lia. symmetry. apply filter_all_true.
    intros x Hx. apply In_las_ones, active_range in Hx. apply negb_true_iff, Z.eqb_neq. lia.
Qed.

Lemma remove_station_ns (r : ring) (a : Z) (r1 : ring) :
  remove_station r a = Ok r1 -> r_ns r1 = next_of (remove_z a (las_ones (r_las r))) (r_ts r).
Proof.
  unfold remove_station, las_set. intros H.
  destruct ((0 <=? a) && (a <? 128)) eqn:Er; cbn [bind] in H; [|discriminate H].
  apply andb_true_iff in Er. destruct Er as (H0 & _). apply Z.leb_le in H0.
  injection H as <-. unfold update_next_previous. cbn [r_ns r_las r_ts].
  rewrite las_ones_remove by exact H0. reflexivity.
Qed.

Section Step.
Variable A : Type.
Variable ops : app_ops A.

Theorem ring_step_sound (f : fdl) (now : Z) (busy : bool) (rxb : bytes) (apps : list A)
    (f' : fdl) (o : phy_out) (apps' : list A) (calls : list call) :
  r_ts (f_ring f) = ts f ->
  poll ops f now (mkPhyIn busy rxb) apps = Ok (f', o, apps', calls) ->
  ring_poll (ts f) (view_of f) (poll_event now busy rxb f' o calls) = [].
Proof.
  intros Hts E. unfold ring_poll. cbn [view_of v_kind v_ns v_active poll_event s_consumed s_tx].
  destruct (f_state f) as [ | |sr cc|sr nps cc|tk fa fcd|st|a1 tk fa|dg att0|att|a0] eqn:Es;
    cbn [kind_of state_kind_eqb andb]; try reflexivity.
  destruct (Nat.eqb _ 0); [|reflexivity].
  destruct (check_pass_poll A ops _ _ _ _ _ _ _ _ _ Es E) as (_ & _ & _ & Hc).
  destruct (slot_expired f now _).
  - destruct Hc as (_ & r1 & Hrm & [(Htx & _)|(r' & _ & _ & Htx & _)]); rewrite Htx; [reflexivity|].
    rewrite decode_one_token, Z.eqb_refl. cbn [andb].
    destruct (check_pass_removes att).
    + (* third attempt: NS is removed, the token goes to the successor in what is left *)
      rewrite (remove_station_ns _ _ _ Hrm), Hts. unfold next_after_removal. cbn [v_ns v_active].
      rewrite Z.eqb_refl. destruct (negb _); reflexivity.
    + (* first / second attempt: the retry goes to the unchanged NS *)
      subst r1. rewrite Z.eqb_refl. reflexivity.
  - destruct Hc as (Htx & _). rewrite Htx. reflexivity.
Qed.

Corollary ring_step_sound_rep (n : nat) (f : fdl) (now : Z) (busy : bool) (rxb : bytes) (apps : list A)
    (f' : fdl) (o : phy_out) (apps' : list A) (calls : list call) :
  Rep n f ->
  poll ops f now (mkPhyIn busy rxb) apps = Ok (f', o, apps', calls) ->
  ring_poll (ts f) (view_of f) (poll_event now busy rxb f' o calls) = [].
Proof. intros R. apply ring_step_sound. destruct (rep_ring _ _ R) as (_ & Ht & _). exact Ht. Qed.

End Step.

Lemma builder_validb_valid p : builder_validb p = true -> builder_valid p.
Proof.
  unfold builder_validb, builder_valid. intros H.
  repeat (apply andb_true_iff in H; destruct H as (H & ?)).
  repeat match goal with
         | H : (_ <=? _) = true |- _ => apply Z.leb_le in H
         | H : (_ <? _) = true |- _ => apply Z.ltb_lt in H
         end.
  repeat split; assumption.
Qed.

Section Transcripts.
Variable A : Type.
Variable ops : app_ops A.
Variable p : params.
Hypothesis Happs : apps_total A ops.
Hypothesis Hbv : builder_valid p.

Definition RJ (f : fdl) (apps : list A) (buf : bytes) : Prop :=
  Rep (length apps) f /\ f_p f = p /\ all_bytes buf.

Lemma rj_new f0 (apps : list A) buf : fdl_new p = Ok f0 -> all_bytes buf -> RJ f0 apps buf.
Proof.
  intros E Hb. destruct (fdl_new_rep (length apps) p Hbv) as (f1 & E1 & R1 & _ & _ & P1).
  rewrite E in E1. injection E1 as <-. split; [exact R1|]. split; [exact P1|exact Hb].
Qed.

Lemma rj_api a f (apps : list A) buf f' : RJ f apps buf -> api_result p a f = Ok f' -> RJ f' apps buf.
Proof.
  intros (R & Hp & Hb) E. destruct a; cbn [api_result] in E.
  - exact (rj_new _ _ _ E Hb).
  - destruct (Rep_set_online _ f R) as (f1 & E1 & R1). rewrite E in E1. injection E1 as <-.
    unfold set_online, set_state in E. injection E as <-. split; [exact R1|]. split; [exact Hp|exact Hb].
  - unfold set_offline, set_state in E. rewrite Hp in E. exact (rj_new _ _ _ E Hb).
  - discriminate E.
Qed.

Lemma rj_step f (apps : list A) now busy rxb f' o apps' calls :
  Rep (length apps) f -> f_p f = p -> time_ok now -> all_bytes rxb ->
  poll ops f now (mkPhyIn busy rxb) apps = Ok (f', o, apps', calls) ->
  RJ f' apps' (rx_left o).
Proof.
  intros R Hp Hnow Hrx E.
  destruct (poll_rep_step A ops Happs f now (mkPhyIn busy rxb) apps R Hnow Hrx) as (f'' & o'' & apps'' & c'' & E' & R' & L').
  rewrite E in E'. injection E' as <- <- <- <-.
  destruct (poll_bk A ops now _ _ _ _ _ _ _ E) as ((k & Ek) & _ & Pp & _). cbn [rx] in Ek.
  split; [rewrite L'; exact R'|]. split; [congruence|]. rewrite Ek. apply all_bytes_skipn. exact Hrx.
Qed.

Lemma rj_poll f (apps : list A) buf now busy nb f' o apps' calls :
  RJ f apps buf -> time_ok now -> all_bytes nb ->
  poll ops f now (mkPhyIn busy (buf ++ nb)) apps = Ok (f', o, apps', calls) ->
  RJ f' apps' (rx_left o).
Proof.
  intros (R & Hp & Hb) Hnow Hnb. apply rj_step; try assumption. unfold all_bytes in *. apply Forall_app. split; assumption.
Qed.

Theorem rmonitor_from_sound : forall ins f apps buf tl i,
  RJ f apps buf -> ins_ok tl ins ->
  rmonitor_from (p_address p) i (Some (view_of f)) (model_events A ops p f apps buf ins) = [].
Proof.
  induction ins as [|x ins IH]; intros f apps buf tl i HJ Hok; [reflexivity|].
  destruct x as [a|now busy nb]; cbn [model_events]; cbn [ins_ok] in Hok.
  - destruct (api_result p a f) as [f'| |] eqn:Ea; try reflexivity.
    cbn [rmonitor_from]. exact (IH _ _ _ _ _ (rj_api _ _ _ _ _ HJ Ea) Hok).
  - destruct Hok as (_ & Hnow & Hnb & Hok).
    destruct (poll ops f now (mkPhyIn busy (buf ++ nb)) apps) as [[[[f' o] apps'] calls]| |] eqn:Ep; try reflexivity.
    cbn [rmonitor_from]. cbn [poll_event s_view].
    change (mkPStep now busy (buf ++ nb) (tx o) (length (buf ++ nb) - length (rx_left o)) (map (conv_call (tx o)) calls) (view_of f'))
      with (poll_event now busy (buf ++ nb) f' o calls).
    assert (Hts : p_address p = ts f) by (destruct HJ as (_ & Hp & _); unfold ts; rewrite Hp; reflexivity).
    rewrite Hts, (ring_step_sound_rep A ops _ _ _ _ _ _ _ _ _ _ (proj1 HJ) Ep). cbn [map app].
    rewrite <- Hts. exact (IH _ _ _ _ _ (rj_poll _ _ _ _ _ _ _ _ _ _ HJ Hnow Hnb Ep) Hok).
Qed.

End Transcripts.

(* the monitor as the check runs it: for all parameters (it only looks at builder-valid ones) *)
Theorem ring_monitor_sound (A : Type) (ops : app_ops A) (p : params) :
  apps_total A ops ->
  forall (apps : list A) (ins : list minput), ins_ok 0 ins ->
  rmonitor p (model_transcript A ops p apps ins) = [].
Proof.
  intros Happs apps ins Hok. unfold rmonitor. destruct (builder_validb p) eqn:Eb; [|reflexivity].
  apply builder_validb_valid in Eb. unfold model_transcript.
  destruct (fdl_new p) as [f0| |] eqn:E0; try reflexivity.
  cbn [rmonitor_from].
  apply (rmonitor_from_sound A ops p Happs Eb ins f0 apps [] 0 1%nat); [|exact Hok].
  apply rj_new; [exact Eb|exact E0|constructor].
Qed.

(* Non-vacuity: station 7 with ring view {2, 7, 15} supervises its third pass to 15; the poll after the slot time
   removes 15 and transmits the token 7 -> 2 (the wrap-around).  The monitor accepts this event, rejects the same
   event with the token 7 -> 7 (the seeded remove_station without the wrap-around), and is silent on 7 -> 15 (the
   old NS: not judged). *)

Definition ex_ring_params : params := mkParams 7 B19200 100 80000 1 16 1 11 None.
Definition ex_ring_view : ring :=
  mkRing (set_nth (set_nth (set_nth (repeat false 128) 2 true) 7 true) 15 true) LasValid 7 15 2.
Definition ex_ring_station : fdl :=
  mkFdl ex_ring_params ex_ring_view ConnOnline (GapWaiting 0) (CheckTokenPass AttThird) (Some 0) 0 0 0 0.

Lemma ex_ring_station_rep : Rep 0 ex_ring_station.
Proof.
  constructor.
  - apply builder_validb_valid. vm_compute. reflexivity.
  - split; [reflexivity|]. split; [reflexivity|]. split; vm_compute; reflexivity.
  - reflexivity.
  - vm_compute. intuition discriminate.
  - exact I.
  - vm_compute. intuition discriminate.
  - vm_compute. intuition discriminate.
  - right. reflexivity.
Qed.

Lemma ring_example :
  builder_validb ex_ring_params = true /\ Rep 0 ex_ring_station /\
  kind_of (f_state ex_ring_station) = KCheckTokenPass /\
  v_active (view_of ex_ring_station) = [2; 7; 15] /\ v_ns (view_of ex_ring_station) = 15 /\
  match poll unit_app_ops ex_ring_station 100000 (mkPhyIn false []) [] with
  | Ok (f', o, _, calls) =>
      tx o = Some (encode_token 2 7) /\ f_state f' = CheckTokenPass AttFirst /\
      v_active (view_of f') = [2; 7] /\ v_ns (view_of f') = 2 /\
      ring_poll 7 (view_of ex_ring_station) (poll_event 100000 false [] f' o calls) = [] /\
      ring_poll 7 (view_of ex_ring_station)
        (mkPStep 100000 false [] (Some (encode_token 7 7)) 0 [] (view_of f')) = [P11_removal_passes_to_next] /\
      ring_poll 7 (view_of ex_ring_station)
        (mkPStep 100000 false [] (Some (encode_token 15 7)) 0 [] (view_of f')) = []
  | _ => False
  end.
Proof.
  split; [vm_compute; reflexivity|]. split; [exact ex_ring_station_rep|].
  vm_compute. repeat split; reflexivity.
Qed.
