(* More one-step facts about the FDL station model.  Each `do_*` function gets one lemma saying what
   it returns (`*_inv`, built on the explicit results of the helpers in FdlProofs.v); from these
   follow what the GAP branches transmit (C12), what do_listen_token can lead to (C11), when
   applications are asked (C13), and the synchronisation pause before every transmission (C01).

   The lemma to use for each function (explicit result or complete case list; the `*_same`, `*_spec`,
   `*_frame` lemmas are projections kept for the files that use them by name):
     lba_get_or_insert                  FdlProofs.lba_get_or_insert_eq   (goi_val f now: the instant it yields)
     mark_bus_activity, mark_rx         FdlProofs.mark_bus_activity_eq, mark_rx_max
     wait_synchronization_pause         FdlProofs.wait_sync_inv
     check_slot_expired                 FdlProofs.check_slot_inv
     mark_tx, trans, phy_send           FdlProofs.mark_tx_inv, trans_inv, phy_send_inv
     next_gap_poll_traced               FdlProofs.next_gap_poll_traced_inv
     transmit_gap_poll_if_pending       FdlProofs.transmit_gap_poll_inv
     await_gap_poll_response            await_gap_poll_response_inv      (frame only: await_gap_inv)
     handle_lost_token                  handle_lost_token_inv
     do_pass_token                      FdlProofs.do_pass_token_result
     do_listen_token, do_active_idle    do_listen_token_result, do_active_idle_result
     do_claim_token(_scan)              do_claim_token_inv, do_claim_token_scan_inv
     do_use_token                       FdlProofs.do_use_token_split, do_use_token_head_inv
     do_check_token_pass                do_check_token_pass_inv; C11Proofs.do_check_token_pass_waiting / _expired
     the receive loops                  receive_all_inv, receive_all_telegrams_inv; C11Proofs.receive_all_run
     poll_inner                         FdlProofs.poll_inner_inv; after the prologue: C11Proofs.body_inv *)
From PB Require Import Common Tables FdlTables Telegram Phy TokenRing Params Fdl FdlProofs DecodeSpec.

Section WithApps.
Variable A : Type.
Variable ops : app_ops A.
Notation W := (world A).

Definition same_but_lba (f f' : fdl) : Prop :=
  f_p f' = f_p f /\ f_ring f' = f_ring f /\ f_conn f' = f_conn f /\ f_gap f' = f_gap f /\
  f_state f' = f_state f /\ f_pending f' = f_pending f /\ f_last_token_time f' = f_last_token_time f /\
  f_end_tht f' = f_end_tht f /\ f_next_app f' = f_next_app f.

Lemma same_but_lba_refl f : same_but_lba f f.
Proof. unfold same_but_lba. repeat split; reflexivity. Qed.

Lemma same_but_lba_trans f g h : same_but_lba f g -> same_but_lba g h -> same_but_lba f h.
Proof. unfold same_but_lba. intuition congruence. Qed.

Lemma same_but_lba_set f l : same_but_lba f (set_lba f l).
Proof. unfold same_but_lba. repeat split; reflexivity. Qed.

Lemma goi_val_cases f now : match f_lba f with Some l0 => goi_val f now = l0 | None => goi_val f now = now end.
Proof. unfold goi_val. destruct (f_lba f); reflexivity. Qed.

Lemma lba_get_or_insert_same f now l f' : lba_get_or_insert f now = (l, f') ->
  same_but_lba f f' /\ f_lba f' = Some l /\ (match f_lba f with Some l0 => l = l0 | None => l = now end).
Proof.
  rewrite lba_get_or_insert_eq. intros H. injection H as <- <-.
  split; [apply same_but_lba_set|]. split; [reflexivity|apply goi_val_cases].
Qed.

Lemma wait_sync_same f now f' b : wait_synchronization_pause f now = Ok (f', b) ->
  same_but_lba f f' /\
  exists l, f_lba f' = Some l /\ (match f_lba f with Some l0 => l = l0 | None => l = now end) /\
            (b = false -> l + p_bits_to_time (f_p f) sync_pause_bits < now).
Proof.
  intros H. apply wait_sync_inv in H as (-> & ->). split; [apply same_but_lba_set|].
  exists (goi_val f now). split; [reflexivity|]. split; [apply goi_val_cases|apply Z.leb_gt].
Qed.

Lemma mark_tx_same f now n f' : mark_tx f now n = Ok f' -> same_but_lba f f'.
Proof. intros H. apply mark_tx_inv in H as (e & ->). apply same_but_lba_set. Qed.

Lemma check_slot_expired_same f now f' b : check_slot_expired f now = Ok (f', b) -> same_but_lba f f'.
Proof. intros H. apply check_slot_inv in H as (-> & _). apply same_but_lba_set. Qed.

Lemma phy_send_tx (w : W) rq w' n : phy_send A w rq = Ok (w', n) ->
  w_tx w = None /\ (exists wire, w_tx w' = Some wire) /\ w_calls w' = w_calls w /\ w_rx w' = w_rx w /\ w_apps w' = w_apps w.
Proof. intros H. apply phy_send_inv in H as (wire & _ & _ & Hn & _ & ->). cbn. eauto 6. Qed.

Lemma next_gap_poll_traced_spec f (w : W) cur f' w' : next_gap_poll_traced A f w cur = Ok (f', w') ->
  exists g, next_gap_poll f cur = Ok g /\ f' = set_gap f g /\ w_tx w' = w_tx w /\ w_calls w' = w_calls w.
Proof. intros H. apply next_gap_poll_traced_inv in H as (g & E & -> & ->). eauto. Qed.

Lemma trans_spec f (w : W) t f' w' : trans A f w t = Ok (f', w') ->
  exists s', t (f_state f) = Ok s' /\ f' = set_st f s' /\ w' = note A w (TTrans (kind_of (f_state f)) (kind_of s')).
Proof. exact (trans_inv A f w t f' w'). Qed.

Lemma pass_token_tail_state f now (w : W) f' w' :
  (let* (w1, n) := phy_send A w (TxToken (r_ns (f_ring f)) (ts f)) in
   let* r := witness (f_ring f) (ts f) (r_ns (f_ring f)) in
   let* (f1, w0) :=
     (if r_ns (f_ring (set_ring f r)) =? ts (set_ring f r)
      then trans A (set_ring f r) (note A w1 TPassTokenToSelf) (fun s : state => transition_use_token s now None)
      else let* (_, attempt) := get_pass_token (f_state (set_ring f r)) in
           trans A (set_ring f r) (note A w1 TPassToken) (fun s : state => transition_check_token_pass s attempt)) in
   let* f0 := mark_tx f1 now n in Ok (f0, w0)) = Ok (f', w') ->
  (exists tk, f_state f' = UseToken tk None false) \/ (exists att, f_state f' = CheckTokenPass att).
Proof.
  intros H. apply bind_ok in H as ([w1 n] & _ & H). apply bind_ok in H as (r & _ & H).
  apply bind_ok in H as ([f1 w0] & E & H). apply bind_ok in H as (f0 & Em & H). injection H as <- <-.
  apply mark_tx_inv in Em as (e & ->). destruct (_ =? _).
  - apply trans_inv in E as (s' & Ht & -> & _). apply bind_ok in Ht as (_ & _ & Ht). injection Ht as <-.
    left. eexists. reflexivity.
  - apply bind_ok in E as ([g att] & _ & E).
    apply trans_inv in E as (s' & Ht & -> & _). apply bind_ok in Ht as (_ & _ & Ht). injection Ht as <-.
    right. eexists. reflexivity.
Qed.

Lemma transmit_gap_poll_spec f now (w : W) f' w' polled :
  transmit_gap_poll_if_pending A f now w = Ok (f', w', polled) ->
  same_but_lba f f' /\
  match polled with
  | Some a => f_gap f = GapDoPoll a /\ a <> ts f /\ w_tx w = None /\ (exists wire, w_tx w' = Some wire)
  | None => (exists n, f_gap f = GapWaiting n) /\ w' = w /\ f' = f
  end.
Proof.
  intros H. apply transmit_gap_poll_inv in H. destruct polled as [a|].
  - destruct H as (Hg & Hne & Hn & e & wire & -> & ->). split; [apply same_but_lba_set|]. cbn. eauto 6.
  - destruct H as (Hg & -> & ->). split; [apply same_but_lba_refl|]. auto.
Qed.

Lemma do_pass_token_hold f now (w : W) f' w' :
  do_pass_token A f now w = Ok (f', w') ->
  f_p f' = f_p f /\ f_last_token_time f' = f_last_token_time f /\ f_end_tht f' = f_end_tht f /\
  f_next_app f' = f_next_app f /\ f_conn f' = f_conn f.
Proof. intros H. apply do_pass_token_inv in H. tauto. Qed.

(* the synchronisation pause: a step either hands nothing to the PHY, or it does and the
   station's last_bus_activity lies more than 33 bit times in the past *)

Definition lba_ok (f : fdl) (now : Z) : Prop :=
  exists l, f_lba f = Some l /\ l + p_bits_to_time (f_p f) sync_pause_bits < now.

Lemma sync_nonneg f : 0 <= p_bits_to_time (f_p f) sync_pause_bits.
Proof. unfold p_bits_to_time. apply (bits_to_time_bounds (p_baud (f_p f)) sync_pause_bits). vm_compute. split; discriminate. Qed.

Lemma lba_ok_goi f now : lba_ok f now <-> goi_val f now + p_bits_to_time (f_p f) sync_pause_bits < now.
Proof.
  unfold lba_ok, goi_val. pose proof (sync_nonneg f). destruct (f_lba f) as [l|]; split.
  - intros (l' & E & H'). injection E as <-. exact H'.
  - eauto.
  - intros (l' & E & _). discriminate.
  - lia.
Qed.

Definition sends (w w' : W) : Prop := w_tx w = None /\ w_tx w' <> None.

Definition transmits (f : fdl) (now : Z) (w w' : W) : Prop :=
  lba_ok f now /\ w_tx w = None /\ exists wire, w_tx w' = Some wire.

Lemma quiet_or_sync f now (w w' : W) : w_tx w' = w_tx w \/ transmits f now w w' -> sends w w' -> lba_ok f now.
Proof. intros [E|(L & _)] (Hn & Hs); [rewrite E in Hs; contradiction|exact L]. Qed.

Lemma do_pass_token_gap_poll f now (w : W) f' w' a :
  do_pass_token A f now w = Ok (f', w') ->
  f_state f' = AwaitStatusResponse a ->
  in_gap (ts f) (r_ns (f_ring f)) a /\ a <> ts f /\ f_gap f' = GapDoPoll a /\
  w_tx w = None /\ (exists wire, w_tx w' = Some wire) /\
  (exists att, f_state f = PassToken true att).
Proof.
  intros H Hst. apply do_pass_token_inv in H as (_ & _ & dg & att & Es & [(E & _)|(_ & Hn & Hw & H)]).
  - rewrite E, Es in Hst. discriminate.
  - destruct H as [(a' & -> & E & Hg & Hin & Hne)|[(tk & E)|(att' & E)]]; rewrite E in Hst; try discriminate.
    injection Hst as <-. eauto 10.
Qed.

Lemma mark_rx_max f now : mark_rx f now = set_lba (set_pending f 0) (Some (Z.max (goi_val f now) now)).
Proof. unfold mark_rx. rewrite mark_bus_activity_eq. reflexivity. Qed.

Lemma mark_rx_frame f now :
  f_p (mark_rx f now) = f_p f /\ f_ring (mark_rx f now) = f_ring f /\ f_gap (mark_rx f now) = f_gap f /\
  f_state (mark_rx f now) = f_state f /\ f_conn (mark_rx f now) = f_conn f /\
  f_end_tht (mark_rx f now) = f_end_tht f /\ f_next_app (mark_rx f now) = f_next_app f /\
  f_last_token_time (mark_rx f now) = f_last_token_time f.
Proof. rewrite mark_rx_max. repeat split; reflexivity. Qed.

Lemma receive_telegram_spec (buf : bytes) :
  receive_telegram (fun t : telegram => t) buf =
  Ok (match decode_spec buf with Reject => ([], None) | Accept t n => (skipn n buf, Some t) | NeedMore => (buf, None) end).
Proof. unfold receive_telegram. rewrite decode_is_spec. cbn [bind]. destruct (decode_spec buf); reflexivity. Qed.

(* await_gap_poll_response, completely.  No complete telegram buffered: the slot timer decides, and
   pending_bytes follows the buffer (F12).  A complete telegram: the answer of the polled station to
   this station, or anything else. *)
Lemma await_gap_poll_response_inv f now (w : W) pa f1 w1 r :
  await_gap_poll_response A f now w pa = Ok (f1, w1, r) ->
  exists tr,
  match decode_spec (w_rx w) with
  | Accept t n =>
      w1 = mkWorld (skipn n (w_rx w)) (w_tx w) (w_apps w) (w_calls w) tr /\
      if match t with
         | TData (mkHeader da sa _ _ (FcResponse _ _)) _ => (sa =? pa) && (da =? ts f)
         | _ => false
         end
      then r = GprStationResponded /\ exists rg, f1 = set_ring (mark_rx f now) rg
      else r = GprUnexpectedTelegram /\ f1 = mark_rx f now
  | d =>
      let rest := match d with Reject => [] | _ => w_rx w end in
      w1 = mkWorld rest (w_tx w) (w_apps w) (w_calls w) tr /\
      f1 = set_lba (set_pending f (Nat.min (f_pending f) (length rest))) (Some (goi_val f now)) /\
      r = if goi_val f now + slot_time (f_p f) <? now then GprNoResponse else GprWaiting
  end.
Proof.
  unfold await_gap_poll_response. intros H.
  destruct (pa =? ts f); [discriminate H|]. destruct (negb _); [discriminate H|].
  rewrite receive_telegram_spec in H. cbn [bind] in H.
  destruct (decode_spec (w_rx w)) as [ | |t n].
  1,2: destruct (Nat.ltb _ _); apply bind_ok in H as ([f2 b] & [-> ->]%check_slot_inv & H);
    cbn [sync_pending_bytes set_pending f_p f_lba goi_val] in H;
    destruct (_ <? now); injection H as <- <- <-; eexists; repeat split; reflexivity.
  rewrite mark_rx_max in *. change (ts (set_lba _ _)) with (ts f) in H.
  destruct t as [[da sa ds ss [fb rq|st status]] pdu|da sa|]; try (injection H as <- <- <-; eexists; repeat split; reflexivity).
  destruct ((sa =? pa) && (da =? ts f)); [|injection H as <- <- <-; eexists; repeat split; reflexivity].
  destruct (_ && _); [apply bind_ok in H as (rg & _ & [= <- <- <-])|injection H as <- <- <-];
    eexists; (split; [reflexivity|]); (split; [reflexivity|]); eexists; reflexivity.
Qed.

Lemma await_gap_inv f now (w : W) pa f' w' r : await_gap_poll_response A f now w pa = Ok (f', w', r) ->
  w_tx w' = w_tx w /\ w_calls w' = w_calls w /\
  exists rg k l, f' = mkFdl (f_p f) rg (f_conn f) (f_gap f) (f_state f) (Some l) k (f_last_token_time f)
                             (f_end_tht f) (f_next_app f) /\
    (r <> GprStationResponded -> rg = f_ring f) /\
    match r with GprWaiting | GprNoResponse => l = goi_val f now | _ => True end.
Proof.
  intros (tr & H)%await_gap_poll_response_inv. destruct (decode_spec (w_rx w)) as [ | |t n].
  1,2: destruct H as (-> & -> & ->); do 2 (split; [reflexivity|]); eexists _, _, _; (split; [reflexivity|]);
    (split; [intros _; reflexivity|destruct (_ <? _); reflexivity]).
  destruct H as (-> & H). rewrite mark_rx_max in H. do 2 (split; [reflexivity|]).
  destruct (match t with TData _ _ => _ | _ => false end); [destruct H as (-> & rg & ->)|destruct H as (-> & ->)];
    eexists _, _, _; (split; [reflexivity|]); (split; [|exact I]); [intros C; contradiction C|intros _]; reflexivity.
Qed.

Lemma await_gap_poll_response_frame f now (w : W) pa f' w' r :
  await_gap_poll_response A f now w pa = Ok (f', w', r) ->
  f_p f' = f_p f /\ f_gap f' = f_gap f /\ f_state f' = f_state f /\ w_tx w' = w_tx w /\ w_calls w' = w_calls w /\
  (r <> GprStationResponded -> f_ring f' = f_ring f).
Proof. intros H. apply await_gap_inv in H as (T & C & rg & k & l & -> & R & _). cbn. auto 8. Qed.

Lemma do_claim_token_scan_inv f now (w : W) f' w' : do_claim_token_scan A f now w = Ok (f', w') ->
  (w_tx w' = w_tx w /\ (f_state f' = f_state f \/ f_state f' = PassToken false AttFirst) /\ f_ring f' = f_ring f) \/
  (transmits f now w w' /\
   exists a, f_state f' = ClaimToken (StepScanAwaitResponse a) /\ f_gap f' = GapDoPoll a /\
             in_gap (ts f) (r_ns (f_ring f)) a /\ a <> ts f).
Proof.
  unfold do_claim_token_scan. intros H.
  apply bind_ok in H as ([f1 wait] & Ew & H). apply wait_sync_inv in Ew as (-> & ->).
  destruct (Z.leb_spec now (goi_val f now + p_bits_to_time (f_p f) sync_pause_bits)) as [_|Hgo].
  { injection H as <- <-. left. split; [reflexivity|split; [left|]; reflexivity]. }
  apply lba_ok_goi in Hgo. destruct (f_gap _) as [rc|cur].
  - apply bind_ok in H as ([f2 w2] & Et & H). injection H as <- <-.
    apply trans_inv in Et as (s' & Et & -> & ->). apply bind_ok in Et as (_ & _ & Et). injection Et as <-.
    left. split; [reflexivity|split; [right|]; reflexivity].
  - apply bind_ok in H as ([f2 w2] & En & H). apply next_gap_poll_traced_inv in En as (g & En & -> & ->).
    apply bind_ok in H as ([[f3 w3] polled] & Et & H). apply transmit_gap_poll_inv in Et.
    destruct polled as [a|].
    + destruct Et as (Eg & Hne & Hn & e & wire & -> & ->). cbn in Eg. subst g.
      apply bind_ok in H as (f4 & Es & H). injection H as <- <-.
      apply bind_ok in Es as (st & _ & Es). injection Es as <-.
      apply next_gap_poll_in_gap in En as (Hin & _).
      right. split; [split; [exact Hgo|split; [exact Hn|eexists; reflexivity]]|]. exists a. cbn. auto.
    + destruct Et as (_ & -> & ->). injection H as <- <-. left. split; [reflexivity|split; [left|]; reflexivity].
Qed.

Lemma do_claim_token_scan_gap_poll f now (w : W) f' w' a :
  do_claim_token_scan A f now w = Ok (f', w') ->
  f_state f = ClaimToken StepScan ->
  f_state f' = ClaimToken (StepScanAwaitResponse a) ->
  in_gap (ts f) (r_ns (f_ring f)) a /\ a <> ts f /\ f_gap f' = GapDoPoll a /\
  w_tx w = None /\ (exists wire, w_tx w' = Some wire).
Proof.
  intros H Es Hst. apply do_claim_token_scan_inv in H as [(_ & [E|E] & _)|((_ & Hn & Hw) & a' & E & H)];
    rewrite E, ?Es in Hst; try discriminate Hst.
  injection Hst as <-. tauto.
Qed.

Lemma do_claim_token_inv f now (w : W) f' w' : do_claim_token A f now w = Ok (f', w') ->
  exists step, f_state f = ClaimToken step /\
  ((w_tx w' = w_tx w /\
    (f_state f' = f_state f \/
     ((step = StepScan \/ exists a0, step = StepScanAwaitResponse a0) /\
      (f_state f' = PassToken false AttFirst \/ f_state f' = ClaimToken StepScan \/
       f_state f' = ActiveIdle None None 0))) /\
    (f_state f' = PassToken false AttFirst -> f_ring f' = f_ring f) /\
    (f_state f' = ActiveIdle None None 0 -> w_rx w <> [])) \/
   (transmits f now w w' /\
    exists s', f_state f' = ClaimToken s' /\
      forall a, s' = StepScanAwaitResponse a ->
                f_gap f' = GapDoPoll a /\ in_gap (ts f) (r_ns (f_ring f)) a /\ a <> ts f)).
Proof.
  unfold do_claim_token, assert_entry. intros H.
  destruct (f_state f) as [ | | | | |step| | | | ] eqn:Es; try discriminate H.
  cbn [kind_of do_fn_entry state_kind_eqb bind get_claim_token_step] in H. exists step. split; [reflexivity|].
  destruct step as [ | | |a0].
  1,2: apply bind_ok in H as ([f1 wait] & Ew & H); apply wait_sync_inv in Ew as (-> & ->);
       destruct (Z.leb_spec now (goi_val f now + p_bits_to_time (f_p f) sync_pause_bits)) as [_|Hgo];
       [injection H as <- <-; left; split; [reflexivity|split; [left; exact Es|split; intros C; cbn in C; rewrite Es in C; discriminate C]]|];
       apply lba_ok_goi in Hgo; apply bind_ok in H as ([w1 n] & Ep & H); apply phy_send_inv in Ep as (wire & _ & _ & Hn & _ & ->);
       apply bind_ok in H as (f2 & Ec & H); apply bind_ok in H as (f3 & Em & H); injection H as <- <-;
       apply mark_tx_inv in Em as (e & ->); apply bind_ok in Ec as (st & _ & Ec); injection Ec as <-;
       right; (split; [split; [exact Hgo|split; [exact Hn|eexists; reflexivity]]|]);
       eexists; split; [reflexivity|discriminate].
  - apply do_claim_token_scan_inv in H as [(T & [E|E] & R)|(T & a & E & H)].
    + left. split; [exact T|split; [left; rewrite E; exact Es|split; intros C; rewrite E, Es in C; discriminate C]].
    + left. split; [exact T|split; [right; auto|split; [intros _; exact R|intros C; rewrite E in C; discriminate C]]].
    + right. split; [exact T|]. exists (StepScanAwaitResponse a). split; [exact E|]. intros ? [= <-]. exact H.
  - apply bind_ok in H as ([[f1 w1] r] & Ea & H).
    pose proof Ea as (tr0 & Ea0)%await_gap_poll_response_inv.
    apply await_gap_inv in Ea as (T1 & _ & rg & k & l & -> & Hrg & Hl).
    destruct r.
    + injection H as <- <-. left. split; [exact T1|split; [left; exact Es|split; intros C; cbn in C; rewrite Es in C; discriminate C]].
    + apply bind_ok in H as (f2 & Ec & H). apply bind_ok in Ec as (st & _ & Ec). injection Ec as <-.
      rewrite Hrg in H by discriminate. subst l.
      apply do_claim_token_scan_inv in H as [(T & E & R)|((L & Hn & Hw) & a & E & H)].
      * left. split; [congruence|]. split; [right; split; [eauto|]; destruct E as [E|E]; rewrite E; auto|].
        split; [intros _; exact R|intros C; destruct E as [E|E]; rewrite E in C; discriminate C].
      * apply lba_ok_goi in L. right. split; [split; [apply lba_ok_goi; exact L|split; [congruence|exact Hw]]|].
        exists (StepScanAwaitResponse a). split; [exact E|]. intros ? [= <-]. exact H.
    + apply bind_ok in H as (f2 & Ec & H). injection H as <- <-.
      apply bind_ok in Ec as (st & _ & Ec). injection Ec as <-. left. split; [exact T1|]. split; [right; split; [eauto|auto]|].
      split; intros C; discriminate C.
    + apply trans_inv in H as (s' & Et & -> & ->). cbn in Et. rewrite Es in Et. injection Et as <-.
      left. split; [exact T1|]. split; [right; split; [eauto|auto]|]. split; [intros C; discriminate C|intros _ Hrx].
      rewrite Hrx in Ea0. destruct Ea0 as (_ & _ & Er). destruct (_ <? _); discriminate Er.
Qed.

(* C12 for the whole of do_claim_token: whenever it newly enters ScanAwaitResponse{a}, a is in the GAP *)
Lemma do_claim_token_gap_poll f now (w : W) f' w' a :
  do_claim_token A f now w = Ok (f', w') ->
  f_state f' = ClaimToken (StepScanAwaitResponse a) -> f_state f <> f_state f' ->
  in_gap (ts f) (r_ns (f_ring f)) a /\ a <> ts f /\ f_gap f' = GapDoPoll a /\ (exists wire, w_tx w' = Some wire).
Proof.
  intros H Hst Hne.
  apply do_claim_token_inv in H as (step & Es & [(_ & [E|(_ & [E|[E|E]])] & _)|((_ & _ & Hw) & s' & E & H)]);
    try (rewrite E in Hst; discriminate Hst).
  - symmetry in E. contradiction.
  - rewrite E in Hst. injection Hst as ->. destruct (H a eq_refl) as (Hg & Hin & Ha). auto.
Qed.

Lemma receive_all_inv {S R : Type} (P : S -> Prop) (cb : S -> telegram -> bool -> res (S * R)) :
  (forall s t l s' r, P s -> cb s t l = Ok (s', r) -> P s') ->
  forall fuel s buf s' rest r, P s -> receive_all cb fuel s buf = Ok (s', rest, r) -> P s'.
Proof.
  intros Hcb. induction fuel as [|fuel IH]; intros s buf s' rest r Hp H; [discriminate H|].
  cbn [receive_all] in H. apply bind_ok in H as (d & _ & H). destruct d as [ | |t n].
  - injection H as <- _ _. exact Hp.
  - injection H as <- _ _. exact Hp.
  - apply bind_ok in H as ([s1 r1] & E & H). apply (Hcb _ _ _ _ _ Hp) in E.
    destruct (Nat.eqb n (length buf)); [injection H as <- _ _; exact E|exact (IH _ _ _ _ _ E H)].
Qed.

Lemma receive_all_telegrams_inv cb (P : fdl * W -> Prop) f (w : W) f' w' :
  (forall s t il s' u, P s -> cb s t il = Ok (s', u) -> P s') -> P (f, w) ->
  receive_all_telegrams A cb f w = Ok (f', w') ->
  exists f1 w1 rest, P (f1, w1) /\ f' = sync_pending_bytes A f1 (set_rx A w1 rest) /\ w' = set_rx A w1 rest.
Proof.
  intros Hcb Hp H. unfold receive_all_telegrams in H. apply bind_ok in H as ([[[f1 w1] rest] r] & Er & H).
  injection H as <- <-. apply (receive_all_inv P cb Hcb _ _ _ _ _ _ Hp) in Er. eauto 6.
Qed.

Lemma conn_match_inv {T} (c : conn_state) (x y r : T) :
  match c with ConnOffline => x | _ => y end = r -> (c = ConnOffline /\ x = r) \/ (c <> ConnOffline /\ y = r).
Proof. destruct c; intros <-; [left|right|right]; split; congruence. Qed.

Lemma set_offline_inv f f0 : set_offline f = Ok f0 -> f_state f0 = Offline /\ f_conn f0 = ConnOffline /\ f_p f0 = f_p f.
Proof.
  unfold set_offline, set_state, fdl_new. destruct (negb _); [discriminate|]. destruct (negb _); [discriminate|].
  intros H. apply bind_ok in H as (r & _ & H). injection H as <-. auto.
Qed.

Lemma listen_token_telegram_inv now f (w : W) t il f' w' u :
  listen_token_telegram A now (f, w) t il = Ok (f', w', u) ->
  w_tx w' = w_tx w /\
  (f_state f' = f_state f \/ f_state f' = Offline \/
   exists sr cc sr' cc', f_state f = ListenToken sr cc /\ f_state f' = ListenToken sr' cc' /\
     (sr' = sr \/ exists src, sr' = Some src /\ il = true /\
        exists h pdu, t = TData h pdu /\ is_fdl_status_request h = true /\ h_da h = ts f /\ h_sa h = src)).
Proof.
  unfold listen_token_telegram. rewrite mark_rx_max. intros H.
  apply conn_match_inv in H as [(_ & H)|(_ & H)]; [injection H as <- <- _; auto|].
  unfold ts in *. cbn [f_state set_lba set_pending f_p] in H.
  assert (L : forall sr0 cc0, get_listen_token (f_state f) = Ok (sr0, cc0) -> f_state f = ListenToken sr0 cc0)
    by (intros sr0 cc0 E; destruct (f_state f); try discriminate E; injection E as -> ->; reflexivity).
  destruct (opt_eqb _ _).
  - apply bind_ok in H as ([sr cc] & Eg & H). apply L in Eg. apply bind_ok in H as (cc' & _ & H).
    destruct (cc' =? _).
    + injection H as <- <- _. split; [reflexivity|]. right. right. exists sr, cc, sr, cc'. auto.
    + apply bind_ok in H as (f0 & E0 & H). injection H as <- <- _. apply set_offline_inv in E0 as (E0 & _). auto.
  - destruct t as [h pdu|da sa|].
    + destruct (is_fdl_status_request h) eqn:Er; [destruct (Z.eqb_spec (h_da h) (p_address (f_p f))) as [Ed|]; [destruct il|]|];
        cbn [andb] in H; try (injection H as <- <- _; auto).
      apply bind_ok in H as ([sr cc] & Eg & H). apply L in Eg. injection H as <- <- _.
      split; [reflexivity|]. right. right. exists sr, cc, (Some (h_sa h)), cc. eauto 12.
    + apply bind_ok in H as (r & _ & H). injection H as <- <- _. auto.
    + injection H as <- <- _. auto.
Qed.

Definition listening (s : fdl * W) : Prop :=
  kind_of (f_state (fst s)) = KListenToken \/ kind_of (f_state (fst s)) = KOffline.

Lemma listen_token_telegram_listening now s t il s' u :
  listening s -> listen_token_telegram A now s t il = Ok (s', u) -> listening s'.
Proof.
  destruct s as [f w], s' as [f' w']. unfold listening. cbn [fst]. intros Hp H.
  apply listen_token_telegram_inv in H as (_ & [E|[E|(sr & cc & sr' & cc' & _ & E & _)]]); rewrite E; auto.
Qed.

Lemma listen_token_telegram_keeps now s t il s' u :
  listen_token_telegram A now s t il = Ok (s', u) -> w_tx (snd s') = w_tx (snd s).
Proof. destruct s as [f w], s' as [f' w']. intros H. apply listen_token_telegram_inv in H. tauto. Qed.

Lemma handle_telegram_inv now f (w : W) t il f' w' : handle_telegram A now f w t il = Ok (f', w') ->
  w_tx w' = w_tx w /\
  ((kind_of (f_state f) = KListenToken /\ f_state f' = f_state f) \/
   exists sr nps cc, f_state f = ActiveIdle sr nps cc /\
     (f_state f' = ListenToken None 0 \/ f_state f' = UseToken now None false \/
      exists sr' nps' cc', f_state f' = ActiveIdle sr' nps' cc' /\
        (sr' = sr \/ exists src, sr' = Some src /\ il = true /\
           exists h pdu, t = TData h pdu /\ is_fdl_status_request h = true /\ h_da h = ts f /\ h_sa h = src))).
Proof.
  unfold handle_telegram. intros H.
  destruct (f_state f) as [| |lsr lcc|sr nps cc| | | | | |] eqn:Es; try discriminate H.
  { injection H as <- <-. rewrite Es. auto. }
  cbn [kind_of state_kind_eqb negb] in H.
  assert (U : forall f0 (w0 : W), trans A f0 w0 (fun s => transition_use_token s now None) = Ok (f', w') ->
              w_tx w' = w_tx w0 /\ f_state f' = UseToken now None false).
  { intros f0 w0 E. apply trans_inv in E as (s' & Et & -> & ->). apply bind_ok in Et as (_ & _ & Et).
    injection Et as <-. auto. }
  split; [|right; exists sr, nps, cc; split; [reflexivity|]]; destruct t as [h pdu|da sa|].
  all: try (injection H as <- <-; rewrite ?Es; eauto 8; fail).
  all: cbn [get_active_idle bind] in H.
  - destruct (_ && _); injection H as <- <-; reflexivity.
  - destruct (sa =? ts f).
    + apply bind_ok in H as (cc' & _ & H). destruct (cc' =? _); [injection H as <- <-; reflexivity|].
      apply trans_inv in H as (s' & _ & _ & ->). reflexivity.
    + cbv zeta in H. destruct (_ || _); [apply bind_ok in H as (r & _ & H); injection H as <- <-; reflexivity|].
      destruct (sa =? _); [apply U in H as (-> & _); reflexivity|].
      destruct nps as [address|]; [destruct (address =? sa)|]; try (injection H as <- <-; reflexivity).
      apply bind_ok in H as (r & _ & H). apply U in H as (-> & _). reflexivity.
  - destruct (is_fdl_status_request h) eqn:Er; [destruct (Z.eqb_spec (h_da h) (ts f)) as [Ed|]; [destruct il|]|];
      cbn [andb] in H; injection H as <- <-; rewrite ?Es; right; right; do 3 eexists; (split; [reflexivity|]); auto.
    right. eauto 10.
  - destruct (sa =? ts f).
    + apply bind_ok in H as (cc' & _ & H). destruct (cc' =? _); [injection H as <- <-; right; right; do 3 eexists; (split; [reflexivity|auto])|].
      apply trans_inv in H as (s' & Et & -> & _). apply bind_ok in Et as (_ & _ & Et). injection Et as <-. auto.
    + cbv zeta in H. destruct (_ || _); [apply bind_ok in H as (r & _ & H); injection H as <- <-; right; right; do 3 eexists; (split; [reflexivity|auto])|].
      destruct (sa =? _); [apply U in H as (_ & ->); auto|].
      destruct nps as [address|]; [destruct (address =? sa)|]; try (injection H as <- <-; right; right; do 3 eexists; (split; [reflexivity|auto])).
      apply bind_ok in H as (r & _ & H). apply U in H as (_ & ->). auto.
Qed.

Lemma handle_lost_token_inv f now (w : W) f' w' d : handle_lost_token A f now w = Ok (f', w', d) ->
  if d then token_lost_timeout (f_p f) <= Z.abs (now - goi_val f now) /\
            do_claim_token A (set_st (set_lba f (Some (goi_val f now))) (ClaimToken StepFirstToken)) now
              (note A (note A w TLostTokenClaim) (TTrans (kind_of (f_state f)) KClaimToken)) = Ok (f', w') /\
            kind_of (f_state f') = KClaimToken /\ (w_tx w' = w_tx w \/ transmits f now w w')
  else Z.abs (now - goi_val f now) < token_lost_timeout (f_p f) /\ f' = set_lba f (Some (goi_val f now)) /\ w' = w.
Proof.
  unfold handle_lost_token. rewrite lba_get_or_insert_eq. intros H. apply bind_ok in H as (since & Ed & H).
  unfold inst_diff in Ed. destruct (i64_ok _); [|discriminate]. injection Ed as <-. cbn [f_p set_lba] in H.
  destruct (Z.leb_spec (token_lost_timeout (f_p f)) (Z.abs (now - goi_val f now))) as [Hto|Hto].
  - apply bind_ok in H as ([f1 w1] & Et & H). apply bind_ok in H as ([f2 w2] & Ec & H). injection H as <- <- <-.
    apply trans_inv in Et as (s' & Et & -> & ->). apply bind_ok in Et as (_ & _ & Et). injection Et as <-.
    split; [exact Hto|]. split; [exact Ec|].
    apply do_claim_token_inv in Ec as (step & Es & [(T & [E|([C|(a0 & C)] & _)] & _)|((L & Hn & Hw) & s' & E & _)]);
      injection Es as <-; try discriminate C.
    + rewrite E. auto.
    + rewrite E. apply lba_ok_goi in L. split; [reflexivity|right]. split; [apply lba_ok_goi; exact L|auto].
  - injection H as <- <- <-. auto.
Qed.

Lemma do_listen_token_result f now (w : W) f' w' sr cc :
  f_state f = ListenToken sr cc -> do_listen_token A f now w = Ok (f', w') ->
  handle_lost_token A f now w = Ok (f', w', true) \/
  (handle_lost_token A f now w = Ok (set_lba f (Some (goi_val f now)), w, false) /\
   match sr with
   | Some src =>
       if now <=? goi_val f now + p_bits_to_time (f_p f) sync_pause_bits then f' = set_lba f (Some (goi_val f now)) /\ w' = note A w TSyncWait
       else exists st w1 n e tr,
              phy_send A w (TxData (status_response_header src (ts f) st status_reply_status) []) = Ok (w1, n) /\
              f' = set_lba (set_st f (if ready_for_ring (f_ring f) then ActiveIdle None None 0 else ListenToken None cc)) (Some e) /\
              w' = mkWorld (w_rx w1) (w_tx w1) (w_apps w1) (w_calls w1) tr
   | None => receive_all_telegrams A (listen_token_telegram A now) (set_lba f (Some (goi_val f now))) w = Ok (f', w')
   end).
Proof.
  intros Hst H. unfold do_listen_token, assert_entry in H. rewrite Hst in H.
  cbn [kind_of do_fn_entry state_kind_eqb bind] in H.
  apply bind_ok in H as ([[f0 w0] d] & Eh & H). destruct d; [injection H as <- <-; left; exact Eh|].
  - pose proof Eh as (_ & -> & ->)%handle_lost_token_inv. right. split; [exact Eh|]. cbn [f_state set_lba] in H. rewrite Hst in H.
    cbn [get_listen_token bind] in H. destruct sr as [src|]; [|exact H].
    apply bind_ok in H as ([f1 wait] & [-> ->]%wait_sync_inv & H). cbn [f_p f_ring f_state set_lba goi_val f_lba] in H |- *.
    destruct (now <=? _); [injection H as <- <-; split; reflexivity|].
    apply bind_ok in H as ([w1 n] & Es & ([f2 w2] & E2 & (f3 & (e & ->)%mark_tx_inv & [= <- <-])%bind_ok)%bind_ok).
    exists (if ready_for_ring (f_ring f) && (src =? r_ps (f_ring f)) then listen_reply_ready else listen_reply_not_ready), w1, n, e.
    destruct (ready_for_ring (f_ring f)).
    + apply trans_inv in E2 as (s' & Et & -> & ->). cbn in Et. rewrite Hst in Et. injection Et as <-.
      eexists. split; [exact Es|split; reflexivity].
    + rewrite Hst in E2. injection E2 as <- <-. eexists. split; [exact Es|split; reflexivity].
Qed.

Lemma do_listen_token_inv f now (w : W) f' w' : do_listen_token A f now w = Ok (f', w') ->
  exists sr cc, f_state f = ListenToken sr cc /\
  ((token_lost_timeout (f_p f) <= Z.abs (now - goi_val f now) /\ kind_of (f_state f') = KClaimToken /\
    (w_tx w' = w_tx w \/ transmits f now w w')) \/
   match sr with
   | Some src => (w_tx w' = w_tx w /\ f_state f' = f_state f) \/
                 (transmits f now w w' /\ (f_state f' = ActiveIdle None None 0 \/ f_state f' = ListenToken None cc))
   | None => w_tx w' = w_tx w /\ (kind_of (f_state f') = KListenToken \/ kind_of (f_state f') = KOffline)
   end).
Proof.
  intros H. destruct (f_state f) as [ | |sr cc| | | | | | | ] eqn:Es;
    try (unfold do_listen_token, assert_entry in H; rewrite Es in H; discriminate H).
  exists sr, cc. split; [reflexivity|].
  destruct (do_listen_token_result f now w f' w' sr cc Es H) as [(Hto & _ & K)%handle_lost_token_inv|[_ Hr]];
    [left; exact (conj Hto K)|right; clear H; rename Hr into H].
  destruct sr as [src|].
  - destruct (Z.leb_spec now (goi_val f now + p_bits_to_time (f_p f) sync_pause_bits)) as [_|Hgo].
    + destruct H as [-> ->]. left. split; [reflexivity|exact Es].
    + destruct H as (st & w1 & n & e & tr & (wire & _ & _ & Hn & _ & ->)%phy_send_inv & -> & ->). right.
      split; [split; [apply lba_ok_goi, Hgo|split; [exact Hn|eexists; reflexivity]]|].
      destruct (ready_for_ring _); [left|right]; reflexivity.
  - apply (receive_all_telegrams_inv _ (fun s => w_tx (snd s) = w_tx w /\ listening s)) in H as (f1 & w1 & rest & (T & L) & -> & ->).
    + exact (conj T L).
    + intros [fa wa] t il [fb wb] u (T & L) E. split.
      * rewrite <- T. exact (listen_token_telegram_keeps _ _ _ _ _ _ E).
      * exact (listen_token_telegram_listening _ _ _ _ _ _ L E).
    + split; [reflexivity|left; cbn; rewrite Es; reflexivity].
Qed.

(* While merely listening the station never accepts a token: whatever is received, one poll step of
   do_listen_token leaves it listening (or offline after an address collision), takes it into the ring
   as ActiveIdle by answering a status request, or - only through its own silence time-out - makes it
   claim the token.  Nothing but a status reply or the claim token is ever transmitted. *)
Lemma do_listen_token_never_accepts f now (w : W) f' w' :
  do_listen_token A f now w = Ok (f', w') ->
  kind_of (f_state f') = KListenToken \/ kind_of (f_state f') = KOffline \/
  kind_of (f_state f') = KActiveIdle \/
  (kind_of (f_state f') = KClaimToken /\
   exists l, (f_lba f = Some l \/ (f_lba f = None /\ l = now)) /\ token_lost_timeout (f_p f) <= Z.abs (now - l)).
Proof.
  intros H. apply do_listen_token_inv in H as (sr & cc & Es & [(Hto & K & _)|H]).
  - right. right. right. split; [exact K|]. exists (goi_val f now). split; [|exact Hto].
    pose proof (goi_val_cases f now) as G. destruct (f_lba f); [left; rewrite G; reflexivity|auto].
  - destruct sr as [src|].
    + destruct H as [(_ & E)|(_ & [E|E])]; rewrite E, ?Es; auto.
    + destruct H as (_ & [K|K]); auto.
Qed.

Definition is_transmit_call (hp : bool) (c : call) : Prop := exists i r, c = CallTransmit i hp r.

(* When the head of do_use_token turns to passing the token, no application has sent anything: the
   calls of the poll so far are declines (transmit_telegram returned None), nothing was handed to the
   PHY, and apart from the hold-time bookkeeping, the application cursor and the state the station is
   as it was. *)
Definition is_decline (c : call) : Prop := exists i hp, c = CallTransmit i hp None.

Definition head_frame (f f1 : fdl) (w w1 : W) : Prop :=
  f_p f1 = f_p f /\ f_ring f1 = f_ring f /\ f_conn f1 = f_conn f /\ f_gap f1 = f_gap f /\
  f_pending f1 = f_pending f /\
  w_tx w1 = w_tx w /\ w_rx w1 = w_rx w /\ exists l, w_calls w1 = w_calls w ++ l /\ Forall is_decline l.

Lemma head_frame_calls f f1 (w w1 : W) l : f_p f1 = f_p f -> f_ring f1 = f_ring f -> f_conn f1 = f_conn f ->
  f_gap f1 = f_gap f -> f_pending f1 = f_pending f -> w_tx w1 = w_tx w -> w_rx w1 = w_rx w ->
  w_calls w1 = w_calls w ++ l -> Forall is_decline l -> head_frame f f1 w w1.
Proof. unfold head_frame. eauto 12. Qed.

Lemma head_frame_trans f f1 f2 w w1 w2 : head_frame f f1 w w1 -> head_frame f1 f2 w1 w2 -> head_frame f f2 w w2.
Proof.
  intros (A1 & A2 & A3 & A4 & A5 & A6 & A7 & l1 & A8 & A9) (B1 & B2 & B3 & B4 & B5 & B6 & B7 & l2 & B8 & B9).
  apply (head_frame_calls _ _ _ _ (l1 ++ l2)); try congruence.
  - rewrite B8, A8, app_assoc. reflexivity.
  - apply Forall_app. auto.
Qed.

Lemma apps_transmit_loop_inv n : forall f now (w : W) hp f' w' d,
  apps_transmit_loop A ops n f now w hp = Ok (f', w', d) ->
  f_end_tht f' = f_end_tht f /\
  (exists l, w_calls w' = w_calls w ++ l /\ Forall (is_transmit_call hp) l) /\
  (d = false -> head_frame f f' w w').
Proof.
  induction n as [|n IH]; intros f now w hp f' w' d H; cbn [apps_transmit_loop] in H.
  - injection H as <- <- <-. split; [reflexivity|]. split; [exists []|intros _; apply (head_frame_calls _ _ _ _ [])];
      rewrite ?app_nil_r; auto.
  - destruct (nth_error (w_apps w) (f_next_app f)) as [app|]; [|discriminate H].
    apply bind_ok in H as ([[f1 w1] d1] & Ea & H). apply app_transmit_inv in Ea as (r & C1 & R1 & Ea).
    assert (T : is_transmit_call hp (CallTransmit (f_next_app f) hp r)) by (eexists _, _; reflexivity).
    destruct r as [[wire er]|].
    + destruct Ea as (-> & _ & _ & s & e & -> & _). injection H as <- <- <-.
      split; [reflexivity|]. split; [eauto|discriminate].
    + destruct Ea as (-> & -> & T1). apply bind_ok in H as ([f2 c] & Es & H).
      apply schedule_next_inv in Es as (tk & fa & fcd & nx & ->).
      assert (F1 : forall tg nx, head_frame f (set_next_app (set_st f (UseToken tk fa fcd)) nx) w (note A w1 tg)).
      { intros. apply (head_frame_calls _ _ _ _ [CallTransmit (f_next_app f) hp None]); auto.
        constructor; [eexists _, _; reflexivity|constructor]. }
      destruct c.
      * injection H as <- <- <-. split; [reflexivity|]. split; [eauto|]. intros _. apply F1.
      * apply IH in H as (He & (l & Hl & Hf) & Hd). split; [exact He|]. split.
        -- exists (CallTransmit (f_next_app f) hp None :: l). rewrite Hl, C1, <- app_assoc. auto.
        -- intros Ed. exact (head_frame_trans _ _ _ _ _ _ (F1 TAppDecline nx) (Hd Ed)).
Qed.

Lemma use_token_ask_inv f now (w : W) fcd f' w' d : use_token_ask A ops f now w fcd = Ok (f', w', d) ->
  f_end_tht f' = f_end_tht f /\
  (exists hp l, w_calls w' = w_calls w ++ l /\ Forall (is_transmit_call hp) l /\
     (l <> [] -> if hp then fcd = false /\ f_end_tht f <= now else now < f_end_tht f)) /\
  (d = false -> head_frame f f' w w').
Proof.
  unfold use_token_ask, apps_transmit_telegram. intros H.
  assert (L : forall tg hp, (let* f0 := set_first_cycle_done f in
                             apps_transmit_loop A ops (length (w_apps (note A w tg))) f0 now (note A w tg) hp) = Ok (f', w', d) ->
            f_end_tht f' = f_end_tht f /\ (exists l, w_calls w' = w_calls w ++ l /\ Forall (is_transmit_call hp) l) /\
            (d = false -> head_frame f f' w w')).
  { intros tg hp E. apply bind_ok in E as (f0 & E0 & E). apply bind_ok in E0 as ([[tk fa] c] & _ & E0).
    injection E0 as <-. exact (apps_transmit_loop_inv _ _ _ _ _ _ _ _ E). }
  destruct (Z.ltb_spec now (f_end_tht f)) as [Hlt|Hge].
  - apply L in H as (He & (l & Hl) & Hd). split; [exact He|]. split; [exists false, l; tauto|exact Hd].
  - destruct fcd; cbn [negb] in H.
    + injection H as <- <- <-. split; [reflexivity|]. split.
      * exists false, []. rewrite app_nil_r. repeat split; [constructor|intros C; contradiction C; reflexivity].
      * intros _. apply (head_frame_calls _ _ _ _ []); rewrite ?app_nil_r; auto.
    + apply L in H as (He & (l & Hl) & Hd). split; [exact He|]. split; [exists true, l; tauto|exact Hd].
Qed.

Lemma use_token_head_cases f now (w : W) f' w' : do_use_token_head A ops f now w = Ok (f', w') ->
  exists tk fa fcd, f_state f = UseToken tk fa fcd /\
  ((f_state f' = f_state f /\ w_tx w' = w_tx w /\ w_calls w' = w_calls w) \/
   (lba_ok f now /\
    (exists hp l, w_calls w' = w_calls w ++ l /\ Forall (is_transmit_call hp) l /\
       (l <> [] -> if hp then fcd = false /\ f_end_tht f' <= now else now < f_end_tht f')) /\
    (is_pass_token (f_state f') = false \/
     (f_state f' = PassToken true first_attempt /\ head_frame f f' w w')))).
Proof.
  unfold do_use_token_head, assert_entry. intros H.
  destruct (f_state f) as [ | | | |tk fa fcd| | | | | ] eqn:Es; try discriminate H.
  exists tk, fa, fcd. split; [reflexivity|]. cbn [kind_of do_fn_entry state_kind_eqb bind get_use_token] in H.
  apply bind_ok in H as ([f1 w1] & E1 & H). apply (use_token_deadline_inv A f tk w) in E1 as (a & b & tr & -> & ->).
  apply bind_ok in H as ([f2 wait] & Ew & H). apply wait_sync_inv in Ew as (-> & Hgo).
  destruct wait; [injection H as <- <-; left; cbn; auto|]. symmetry in Hgo. apply Z.leb_gt in Hgo.
  right. split; [apply lba_ok_goi; exact Hgo|].
  cbn [f_state set_lba set_hold] in H. rewrite Es in H. cbn [get_use_token bind] in H.
  apply bind_ok in H as ([[f3 w3] d] & E3 & H).
  pose proof (use_token_ask_not_pass A ops _ _ _ _ _ _ _ E3 (f_equal kind_of Es)) as Np.
  apply (use_token_ask_inv _ _ _ fcd) in E3 as (He & R & Hd). cbn in He, R.
  destruct d.
  - injection H as <- <-. rewrite He. auto.
  - apply trans_inv in H as (s' & Et & -> & ->). apply bind_ok in Et as (_ & _ & Et). injection Et as <-.
    cbn [f_end_tht set_st]. rewrite He. split; [exact R|right]. split; [reflexivity|].
    destruct (Hd eq_refl) as (B1 & B2 & B3 & B4 & B5 & B6 & B7 & B8). cbn in B1, B2, B3, B4, B5, B6, B7, B8.
    unfold head_frame. cbn. auto 10.
Qed.

(* The hold-time rule, "only if" half: whenever do_use_token asks applications, either the time is
   still before the end of the hold time of this visit (low-priority round), or the hold time is over
   and this is the one guaranteed (high-priority) round of the visit. *)
Lemma do_use_token_head_hold_rule f now (w : W) f' w' :
  do_use_token_head A ops f now w = Ok (f', w') ->
  exists l hp, w_calls w' = w_calls w ++ l /\ Forall (is_transmit_call hp) l /\
    (l <> [] ->
     if hp then (exists tk fa, f_state f = UseToken tk fa false) /\ f_end_tht f' <= now
     else now < f_end_tht f').
Proof.
  intros H. apply use_token_head_cases in H as (tk & fa & fcd & Es & [(_ & _ & C)|(_ & (hp & l & C & F & R) & _)]).
  - exists [], false. rewrite app_nil_r. repeat split; [exact C|constructor|intros N; contradiction N; reflexivity].
  - exists l, hp. repeat split; [exact C|exact F|]. intros N. specialize (R N). destruct hp; [|exact R].
    destruct R as (-> & R). eauto.
Qed.

Lemma do_use_token_head_pass f now (w : W) f1 w1 :
  do_use_token_head A ops f now w = Ok (f1, w1) -> is_pass_token (f_state f1) = true ->
  f_state f1 = PassToken true first_attempt /\ kind_of (f_state f) = KUseToken /\ head_frame f f1 w w1.
Proof.
  intros H Hk. apply use_token_head_cases in H as (tk & fa & fcd & Es & [(E & _)|(_ & _ & [N|(E & F)])]).
  - rewrite E, Es in Hk. discriminate.
  - rewrite N in Hk. discriminate.
  - rewrite Es. auto.
Qed.

Lemma do_use_token_hold_rule f now (w : W) f' w' :
  do_use_token A ops f now w = Ok (f', w') ->
  exists l hp, w_calls w' = w_calls w ++ l /\ Forall (is_transmit_call hp) l /\
    (l <> [] ->
     if hp then (exists tk fa, f_state f = UseToken tk fa false) /\ f_end_tht f' <= now
     else now < f_end_tht f').
Proof.
  rewrite do_use_token_split. intros H. apply bind_ok in H as ([f1 w1] & Eh & H).
  apply do_use_token_head_hold_rule in Eh.
  destruct (is_pass_token (f_state f1)); [|injection H as <- <-; exact Eh].
  apply do_pass_token_inv in H as ((_ & _ & He & _) & (Hc & _) & _). rewrite Hc, He. exact Eh.
Qed.

(* "back-propagation": if the later state has a sufficiently old last_bus_activity, so had the earlier *)
Definition bp (f f' : fdl) (now : Z) : Prop := lba_ok f' now -> lba_ok f now.

Lemma bp_set_gap f g now : bp f (set_gap f g) now. Proof. unfold bp, lba_ok. cbn. tauto. Qed.

Lemma sends_after (w w1 w' : W) : w_tx w1 = w_tx w -> sends w w' -> sends w1 w'.
Proof. unfold sends. intros ->. tauto. Qed.

Lemma do_pass_token_sync f now (w : W) f' w' :
  do_pass_token A f now w = Ok (f', w') -> sends w w' -> lba_ok f now.
Proof.
  intros H. apply (quiet_or_sync f now).
  apply do_pass_token_inv in H as (_ & _ & dg & att & _ & [(_ & T)|(L & Hn & Hw & _)]); [left; exact T|right].
  split; [apply lba_ok_goi, L|auto].
Qed.

Lemma do_claim_token_scan_sync f now (w : W) f' w' :
  do_claim_token_scan A f now w = Ok (f', w') -> sends w w' -> lba_ok f now.
Proof. intros H. apply (quiet_or_sync f now). apply do_claim_token_scan_inv in H. tauto. Qed.

Lemma do_claim_token_sync f now (w : W) f' w' :
  do_claim_token A f now w = Ok (f', w') -> sends w w' -> lba_ok f now.
Proof. intros H. apply (quiet_or_sync f now). apply do_claim_token_inv in H as (step & _ & H). tauto. Qed.

Lemma do_listen_token_sync f now (w : W) f' w' :
  do_listen_token A f now w = Ok (f', w') -> sends w w' -> lba_ok f now.
Proof.
  intros H. apply (quiet_or_sync f now). apply do_listen_token_inv in H as (sr & cc & _ & [H|H]); [tauto|].
  destruct sr; tauto.
Qed.

Lemma do_active_idle_result f now (w : W) f' w' sr nps cc :
  f_state f = ActiveIdle sr nps cc -> do_active_idle A f now w = Ok (f', w') ->
  handle_lost_token A f now w = Ok (f', w', true) \/
  (handle_lost_token A f now w = Ok (set_lba f (Some (goi_val f now)), w, false) /\
   match sr with
   | Some src =>
       if now <=? goi_val f now + p_bits_to_time (f_p f) sync_pause_bits then f' = set_lba f (Some (goi_val f now)) /\ w' = note A w TSyncWait
       else exists w1 n e,
              phy_send A w (TxData (status_response_header src (ts f) active_idle_reply status_reply_status) []) = Ok (w1, n) /\
              f' = set_lba (set_st f (ActiveIdle None nps cc)) (Some e) /\ w' = note A w1 TAiReplyInRing
   | None => receive_all_telegrams A (active_idle_telegram A now) (set_lba f (Some (goi_val f now))) w = Ok (f', w')
   end).
Proof.
  intros Hst H. unfold do_active_idle, assert_entry in H. rewrite Hst in H.
  cbn [kind_of do_fn_entry state_kind_eqb bind] in H.
  apply bind_ok in H as ([[f0 w0] d] & Eh & H). destruct d; [injection H as <- <-; left; exact Eh|].
  - pose proof Eh as (_ & -> & ->)%handle_lost_token_inv. right. split; [exact Eh|]. cbn [f_state set_lba] in H. rewrite Hst in H.
    cbn [get_active_idle bind] in H. destruct sr as [src|]; [|exact H].
    apply bind_ok in H as ([f1 wait] & [-> ->]%wait_sync_inv & H). cbn [f_p set_lba goi_val f_lba] in H |- *.
    destruct (now <=? _); [injection H as <- <-; split; reflexivity|].
    apply bind_ok in H as ([w1 n] & Es & (f2 & (e & ->)%mark_tx_inv & [= <- <-])%bind_ok).
    exists w1, n, e. split; [exact Es|split; reflexivity].
Qed.

Lemma do_active_idle_inv f now (w : W) f' w' : do_active_idle A f now w = Ok (f', w') ->
  exists sr nps cc, f_state f = ActiveIdle sr nps cc /\
  ((token_lost_timeout (f_p f) <= Z.abs (now - goi_val f now) /\ kind_of (f_state f') = KClaimToken /\
    (w_tx w' = w_tx w \/ transmits f now w w')) \/
   (kind_of (f_state f') <> KClaimToken /\ (w_tx w' = w_tx w \/ (transmits f now w w' /\ sr <> None)))).
Proof.
  intros H. destruct (f_state f) as [ | | |sr nps cc| | | | | | ] eqn:Es;
    try (unfold do_active_idle, assert_entry in H; rewrite Es in H; discriminate H).
  exists sr, nps, cc. split; [reflexivity|].
  destruct (do_active_idle_result f now w f' w' sr nps cc Es H) as [(Hto & _ & K)%handle_lost_token_inv|[_ Hr]];
    [left; exact (conj Hto K)|right; clear H; rename Hr into H].
  destruct sr as [src|].
  - destruct (Z.leb_spec now (goi_val f now + p_bits_to_time (f_p f) sync_pause_bits)) as [_|Hgo].
    + destruct H as [-> ->]. cbn. rewrite Es. split; [discriminate|left; reflexivity].
    + destruct H as (w1 & n & e & (wire & _ & _ & Hn & _ & ->)%phy_send_inv & -> & ->).
      split; [discriminate|right]. split; [|discriminate].
      split; [apply lba_ok_goi, Hgo|split; [exact Hn|eexists; reflexivity]].
  - apply (receive_all_telegrams_inv _ (fun s => w_tx (snd s) = w_tx w /\ kind_of (f_state (fst s)) <> KClaimToken))
      in H as (f1 & w1 & rest & (T & K) & -> & ->).
    + split; [exact K|left; exact T].
    + intros [fa wa] t il [fb wb] u (T & _) E. unfold active_idle_telegram in E.
      apply bind_ok in E as ([fc wc] & E & E'). injection E' as <- <- _.
      apply handle_telegram_inv in E as (T' & [(Hk & E)|(sr & nps' & cc' & Hs & [E|[E|(? & ? & ? & E & _)]])]); cbn [fst snd] in *;
        (split; [congruence|]); rewrite E, ?Hk; discriminate.
    + cbn. rewrite Es. split; [reflexivity|discriminate].
Qed.

Lemma do_active_idle_sync f now (w : W) f' w' :
  do_active_idle A f now w = Ok (f', w') -> sends w w' -> lba_ok f now.
Proof.
  intros H. apply (quiet_or_sync f now). apply do_active_idle_inv in H as (sr & nps & cc & _ & H). tauto.
Qed.

Lemma do_use_token_sync f now (w : W) f' w' :
  do_use_token A ops f now w = Ok (f', w') -> sends w w' -> lba_ok f now.
Proof.
  rewrite do_use_token_split. intros H (Hn & Hs). apply bind_ok in H as ([f1 w1] & Eh & H).
  apply use_token_head_cases in Eh as (tk & fa & fcd & Es & [(E & T & _)|(L & _)]); [|exact L].
  unfold is_pass_token in H. rewrite E, Es in H. injection H as <- <-. congruence.
Qed.

Lemma do_await_data_response_sync f now (w : W) f' w' :
  do_await_data_response A ops f now w = Ok (f', w') -> sends w w' -> lba_ok f now.
Proof.
  unfold do_await_data_response, assert_entry. intros H Hs.
  destruct (f_state f) as [ | | | | | |addr tk fa| | | ] eqn:Es; try discriminate H.
  cbn [kind_of do_fn_entry state_kind_eqb bind get_await_data_response] in H.
  destruct (nth_error _ _) as [app|]; [|discriminate H].
  apply bind_ok in H as ([rest received] & _ & H). cbv zeta in H.
  assert (Q : w_tx w' = w_tx w -> lba_ok f now) by (destruct Hs as (Hn & Hs); congruence).
  destruct received as [t|].
  - apply Q. destruct (is_valid_response _ _ _).
    + apply bind_ok in H as (app' & _ & H). apply bind_ok in H as ([f1 w1] & Et & H).
      apply trans_inv in Et as (s' & _ & -> & ->). apply bind_ok in H as (f2 & _ & H). injection H as _ <-. reflexivity.
    + apply trans_inv in H as (s' & _ & _ & ->). reflexivity.
  - set (w0 := if Nat.ltb _ _ then _ else _) in H.
    assert (T0 : w_tx w0 = w_tx w) by (unfold w0; destruct (Nat.ltb _ _); reflexivity). clearbody w0.
    apply bind_ok in H as ([f1 expired] & Ec & H). apply check_slot_inv in Ec as (-> & _).
    destruct expired; [|apply Q; injection H as _ <-; exact T0].
    apply bind_ok in H as (app' & _ & H). apply bind_ok in H as ([f2 w2] & Et & H).
    apply trans_inv in Et as (s' & _ & -> & ->). apply bind_ok in H as (f3 & Ef & H).
    apply bind_ok in Ef as ([[tk' fa'] c] & _ & Ef). injection Ef as <-.
    apply do_use_token_sync in H; [|exact (sends_after w _ _ T0 Hs)].
    apply lba_ok_goi in H. apply lba_ok_goi. exact H.
Qed.

Lemma do_await_status_response_sync f now (w : W) f' w' :
  do_await_status_response A f now w = Ok (f', w') -> sends w w' -> lba_ok f now.
Proof.
  unfold do_await_status_response. intros H Hs.
  apply bind_ok in H as (_ & _ & H). apply bind_ok in H as (addr & _ & H).
  apply bind_ok in H as ([[f1 w1] r] & Ea & H). apply await_gap_inv in Ea as (T & _ & rg & k & l & -> & _ & Hl).
  assert (Q : w_tx w' = w_tx w1 -> lba_ok f now) by (destruct Hs as (Hn & Hs); congruence).
  destruct r.
  - apply Q. injection H as _ <-. reflexivity.
  - apply bind_ok in H as ([f2 w2] & Et & H). apply trans_inv in Et as (s' & _ & -> & ->).
    apply do_pass_token_sync in H; [|exact (sends_after w _ _ T Hs)]. subst l.
    apply lba_ok_goi in H. apply lba_ok_goi. exact H.
  - apply Q. apply trans_inv in H as (s' & _ & _ & ->). reflexivity.
  - apply Q. apply trans_inv in H as (s' & _ & _ & ->). reflexivity.
Qed.

Lemma check_token_pass_telegram_keeps now s t il s' u :
  check_token_pass_telegram A now s t il = Ok (s', u) -> w_tx (snd (fst s')) = w_tx (snd (fst s)).
Proof.
  destruct s as [[f w] fi], s' as [[f' w'] fi']. cbn [fst snd]. unfold check_token_pass_telegram. intros H.
  apply bind_ok in H as ([f1 w1] & E1 & H). apply bind_ok in H as ([f2 w2] & Eh & H). injection H as _ <- _ _.
  apply handle_telegram_inv in Eh as (-> & _).
  destruct fi; [apply trans_inv in E1 as (s' & _ & _ & ->)|injection E1 as _ <-]; reflexivity.
Qed.

Lemma do_check_token_pass_inv f now (w : W) f' w' : do_check_token_pass A f now w = Ok (f', w') ->
  exists att, f_state f = CheckTokenPass att /\
  if goi_val f now + slot_time (f_p f) <? now
  then exists r tg, (if check_pass_removes att then remove_station (f_ring f) (r_ns (f_ring f)) = Ok r else r = f_ring f) /\
         do_pass_token A (set_st (set_ring (set_lba f (Some (goi_val f now))) r) (PassToken false (check_pass_next att))) now
           (note A (note A w tg) (TTrans KCheckTokenPass KPassToken)) = Ok (f', w')
  else exists f2 w2 fi rest r,
         receive_all (check_token_pass_telegram A now) (receive_all_fuel (w_rx w)) (set_lba f (Some (goi_val f now)), w, true) (w_rx w) =
           Ok (f2, w2, fi, rest, r) /\
         w' = set_rx A (if fi : bool then note A w2 TCheckAwait else w2) rest /\ f' = sync_pending_bytes A f2 w'.
Proof.
  unfold do_check_token_pass, assert_entry. intros H.
  destruct (f_state f) as [ | | | | | | | |att| ] eqn:Es; try discriminate H. exists att. split; [reflexivity|].
  cbn [kind_of do_fn_entry state_kind_eqb bind] in H.
  apply bind_ok in H as ([f1 expired] & Ec & H). apply check_slot_inv in Ec as (-> & ->).
  destruct (_ <? now).
  - cbn [f_state f_ring set_lba] in H. rewrite Es in H. cbn [get_check_token_pass_attempt bind] in H.
    apply bind_ok in H as ([f2 w2] & E2 & H). apply bind_ok in H as ([f3 w3] & Et & H).
    assert (R : exists r tg, f2 = set_ring (set_lba f (Some (goi_val f now))) r /\ w2 = note A w tg /\
                  if check_pass_removes att then remove_station (f_ring f) (r_ns (f_ring f)) = Ok r else r = f_ring f).
    { destruct (check_pass_removes att); [apply bind_ok in E2 as (r & Er & E2)|]; injection E2 as <- <-;
        do 2 eexists; repeat split; try eassumption; reflexivity. }
    destruct R as (r & tg & -> & -> & Hr). apply trans_inv in Et as (s' & Et & -> & ->).
    cbn in Et. rewrite Es in Et. injection Et as <-. cbn [f_state set_ring set_lba] in H. rewrite Es in H.
    exists r, tg. split; [exact Hr|exact H].
  - apply bind_ok in H as ([[[[f2 w2] fi] rest] r] & Er & H). injection H as <- <-.
    exists f2, w2, fi, rest, r. repeat split. exact Er.
Qed.

(* what it hands to the PHY: only after the slot time, and then through do_pass_token *)
Lemma do_check_token_pass_tx f now (w : W) f' w' : do_check_token_pass A f now w = Ok (f', w') ->
  (goi_val f now + slot_time (f_p f) < now /\ (w_tx w' = w_tx w \/ transmits f now w w')) \/
  (now <= goi_val f now + slot_time (f_p f) /\ w_tx w' = w_tx w).
Proof.
  intros (att & Es & H)%do_check_token_pass_inv.
  destruct (Z.ltb_spec (goi_val f now + slot_time (f_p f)) now) as [Hexp|Hexp]; [left|right]; (split; [exact Hexp|]).
  - destruct H as (rg & tg & _ & H).
    apply do_pass_token_inv in H as (_ & _ & dg & att' & _ & [(_ & T')|(L & Hn & Hw & _)]); [left; exact T'|right].
    split; [apply lba_ok_goi, L|split; [exact Hn|exact Hw]].
  - destruct H as (f2 & w2 & fi & rest & r & Er & -> & _).
    apply (receive_all_inv (fun s : fdl * W * bool => w_tx (snd (fst s)) = w_tx w)) in Er; [| |reflexivity].
    + destruct fi; exact Er.
    + intros s t il s' u Hp E. rewrite (check_token_pass_telegram_keeps _ _ _ _ _ _ E). exact Hp.
Qed.

Lemma do_check_token_pass_sync f now (w : W) f' w' :
  do_check_token_pass A f now w = Ok (f', w') -> sends w w' -> lba_ok f now.
Proof. intros H. apply (quiet_or_sync f now). apply do_check_token_pass_tx in H. tauto. Qed.

Lemma dispatch_sync f now (w : W) f' w' : dispatch A ops f now w = Ok (f', w') -> sends w w' -> lba_ok f now.
Proof.
  unfold dispatch. destruct (poll_dispatch _) as [ | |[ | | | | | | | ]]; try discriminate.
  - apply do_listen_token_sync.
  - apply do_active_idle_sync.
  - apply do_claim_token_sync.
  - apply do_use_token_sync.
  - apply do_await_data_response_sync.
  - apply do_pass_token_sync.
  - apply do_await_status_response_sync.
  - apply do_check_token_pass_sync.
Qed.

Lemma poll_tx_inv f now pin (apps : list A) f' o a c wire :
  poll ops f now pin apps = Ok (f', o, a, c) -> tx o = Some wire ->
  lba_ok f now /\ exists f2 w2 w', after_prologue A f (mkWorld (rx pin) None apps [] []) f2 w2 /\
    dispatch A ops f2 now w2 = Ok (f', w') /\ sends w2 w'.
Proof.
  unfold poll, poll_traced. intros H Htx.
  apply bind_ok in H as ([[[[f1 o1] a1] c1] t1] & H & E). injection E as <- <- <- <-.
  apply bind_ok in H as ([f4 w4] & H & E). injection E as <- <- <- <- _. cbn [tx] in Htx.
  apply poll_inner_inv in H as [(_ & _ & _ & ->)|(f2 & w2 & _ & P & H)]; [discriminate Htx|].
  assert (P2 : w_tx w2 = None /\ goi_val f2 now = goi_val f now /\ f_p f2 = f_p f)
    by (destruct P as [(-> & ->)|(s' & -> & -> & _)]; auto).
  destruct P2 as (Hn & Hl & Hp).
  destruct (_ || _); [destruct H as (_ & ->); cbn in Htx; congruence|].
  destruct H as (f3 & w3 & Eb & H). unfold check_for_bus_activity in Eb.
  destruct (Nat.ltb _ _); injection Eb as <- <-.
  - (* activity marked in this poll: last_bus_activity >= now, nothing can be transmitted *)
    exfalso. apply dispatch_sync in H; [|split; [exact Hn|congruence]].
    apply lba_ok_goi in H. rewrite mark_bus_activity_eq in H. cbn in H. pose proof (sync_nonneg f2). lia.
  - assert (S : sends w2 w4) by (split; [exact Hn|congruence]).
    split; [|eauto 6]. apply (dispatch_sync _ _ _ _ _ H) in S. apply lba_ok_goi in S. apply lba_ok_goi. congruence.
Qed.

(* C01_sync_pause for a whole poll, whatever the state, the inputs and the applications *)
Lemma poll_tx_sync_pause f now pin (apps : list A) f' o a c wire :
  poll ops f now pin apps = Ok (f', o, a, c) -> tx o = Some wire -> lba_ok f now.
Proof. intros H Htx. exact (proj1 (poll_tx_inv _ _ _ _ _ _ _ _ _ H Htx)). Qed.

End WithApps.
