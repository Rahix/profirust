(* C12, the sweep-order / restart monitor (Model/FdlSweep.v: smonitor, sweep_poll, rules P12_sweep_order,
   P12_offline_forgets_ring) is silent on EVERY transcript of the MODEL; only apps_total is assumed (the monitor
   itself discards what an application transmitted).
   The monitor keeps k0 (state kind of the previous view) and `last` (address of the last own GAP request of the
   current polling phase); the invariant sweep_inv ties them to the station: k0 = kind_of (f_state f), and
   last = Some a -> f_gap f = GapDoPoll a /\ f_state f <> Offline.  One poll (sweep_core), from
   C12Proofs.poll_sweep_rel, poll_transmissions and poll_gap_state_frame:
   - a transmission that the monitor reads as the station's own GAP request (status request with SA = TS and no
     transmitting application call in this poll) is the request of exactly one GAP step, hence goes to
     gap_succ HSA cursor, and the new cursor is its address; no u8 overflow can hide in next_gap_poll when it returns;
   - a poll without such a transmission leaves a polling cursor where it was, or ends the polling phase (GapWaiting),
     or is the claim of the token (claim_tx, cursor := TS), or re-creates the station.
   The rule forgets `last` after a poll that ends Offline: the station re-creates itself INSIDE a poll (second address
   collision while listening: listen_token_telegram calls set_offline, the GAP cursor goes back to DoPoll{TS}) and no
   API event marks it; after set_online and an entry into the ring without a claim the first GAP request goes to
   TS+1, whatever `last` was (witness on the crate: corpus/fdl/sweep-recreated-in-poll.cases; as a model transcript:
   sweep_recreated_in_poll_accepted).
   P12_offline_forgets_ring: set_offline f = fdl_new (f_p f), and the view of a fresh station is fresh_view
   (C02Proofs.ring_new_ok). *)
From Coq Require Import Arith.
From PB Require Import Common Tables FdlTables Telegram Phy TokenRing Params Fdl FdlOracle FdlSweep FdlProofs FdlStepProofs.
From PB Require Import C02Proofs C05Proofs C12Proofs C13Proofs C15Proofs.
From PB Require Import FdlOracleSound1 FdlOracleSound3 FdlOracleSound6 C12OracleSound FdlRingSound.

(* when next_gap_poll returns a new cursor it is the cyclic successor below HSA - its u8 arithmetic either panics
   or is exact *)
Lemma next_gap_poll_succ f c a : next_gap_poll f c = Ok (GapDoPoll a) -> a = gap_succ (p_hsa (f_p f)) c.
Proof.
  unfold next_gap_poll, gap_succ, u8_sub, u8_add.
  destruct (0 <=? p_hsa (f_p f) - 1); cbn [bind]; [|discriminate].
  destruct (c =? p_hsa (f_p f) - 1); cbn [bind].
  - destruct (in_gapb _ _ 0); intros H; [injection H as <-; reflexivity|discriminate H].
  - destruct (c + 1 <=? 255); cbn [bind]; [|discriminate].
    destruct (in_gapb _ _ (c + 1)); intros H; [injection H as <-; reflexivity|discriminate H].
Qed.

Lemma own_gap_poll_y p s : own_gap_poll (p_address p) s = y_gap_poll p s.
Proof. unfold own_gap_poll, y_gap_poll, y_txt, y_ts. destruct (s_tx s); reflexivity. Qed.

Lemma fdl_new_fresh p f0 : fdl_new p = Ok f0 -> fresh_view (p_address p) (view_of f0) = true.
Proof.
  unfold fdl_new. destruct (negb (p_address p <=? 127)) eqn:E1; [discriminate|].
  destruct (negb (p_hsa p <=? 126)); [discriminate|].
  apply negb_false_iff, Z.leb_le in E1.
  destruct (Z_lt_le_dec (p_address p) 0) as [L|L]; [rewrite ring_new_panics by lia; discriminate|].
  destruct (ring_new_ok (p_address p)) as (r & Er & _ & _ & Hs & Hn & Hps & Ho); [lia|].
  rewrite Er. cbn [bind]. intros H. injection H as <-.
  unfold fresh_view, view_of. cbn [v_las_valid v_ns v_ps v_active f_ring]. rewrite Hs, Hn, Hps, Ho, Z.eqb_refl. reflexivity.
Qed.

Section Step.
Variable A : Type.
Variable ops : app_ops A.
Variable p : params.

(* a poll that ends in ListenToken leaves the GAP state as it was: it does not begin in a token-holding state that
   takes GAP steps *)
Lemma poll_to_listen_gap f now pin (apps : list A) f' o apps' calls :
  poll ops f now pin apps = Ok (f', o, apps', calls) -> kind_of (f_state f') = KListenToken -> f_gap f' = f_gap f.
Proof.
  intros E K'.
  destruct (poll_gap_state_frame A ops _ _ _ _ _ _ _ _ E) as [H|[(Ho & _)|[K|[(S & _)|(S & _)]]]]; [exact H| | | |]; exfalso.
  - destruct Ho as [(att & S)|Hu].
    + destruct (pass_token_performs_gap_step A ops _ _ _ _ _ _ _ _ _ E S) as
        [(_ & S' & _)|(_ & [(a & _ & S' & _)|(k & _ & _ & _ & [S'|S'])])]; rewrite S' in K'; try rewrite S in K'; discriminate K'.
    + destruct (poll_state_cases A ops _ _ _ _ _ _ _ _ E) as [(_ & _ & Hq)|(tk & _ & Hv & _)].
      * destruct Hq as [(S' & _)|(_ & s3 & Hpro & _ & Hsame)]; [rewrite S' in K'; discriminate K'|].
        assert (Hiv : in_visit (kind_of (f_state f)) = true) by (destruct Hu as [Hu|Hu]; rewrite Hu; reflexivity).
        destruct Hpro as [->|(C & _)]; [|rewrite C in Hiv; discriminate Hiv].
        rewrite (Hsame Hiv) in K'. destruct Hu as [Hu|Hu]; rewrite Hu in K'; discriminate K'.
      * destruct Hv as [(S' & _)|[(S' & _)|[(fa' & S')|[(a & fa' & S')|[Hpk|S']]]]];
          try (rewrite S' in K'; try (destruct Hu as [Hu|Hu]; rewrite Hu in K'); discriminate K').
        rewrite K' in Hpk. discriminate Hpk.
  - destruct (f_state f) as [ | | | | |st0| | | | ] eqn:Es; try discriminate K.
    destruct st0 as [ | | |a0].
    + rewrite (early_claim_poll A ops _ _ _ _ _ _ _ _ E (or_introl Es)) in K'. discriminate K'.
    + rewrite (early_claim_poll A ops _ _ _ _ _ _ _ _ E (or_intror Es)) in K'. discriminate K'.
    + destruct (claim_scan_step A ops _ _ _ _ _ _ _ _ E (or_introl Es)) as
        (_ & [(_ & [S'|[S'|[S'|(S' & _)]]])|(a & (_ & [S'|S']) & _)]); rewrite S' in K'; try rewrite Es in K'; discriminate K'.
    + destruct (claim_scan_step A ops _ _ _ _ _ _ _ _ E (or_intror (ex_intro _ a0 Es))) as
        (_ & [(_ & [S'|[S'|[S'|(S' & _)]]])|(a & (_ & [S'|S']) & _)]); rewrite S' in K'; try rewrite Es in K'; discriminate K'.
  - rewrite S in K'. discriminate K'.
  - rewrite S in K'. discriminate K'.
Qed.

Section OnePoll.
Variables (f f' : fdl) (now : Z) (busy : bool) (rxb : bytes) (apps apps' : list A) (o : phy_out) (calls : list call).
Hypothesis R : Rep (length apps) f.
Hypothesis Hp : f_p f = p.
Hypothesis E : poll ops f now (mkPhyIn busy rxb) apps = Ok (f', o, apps', calls).
Let s := poll_event now busy rxb f' o calls.

(* a transmission read as the station's own GAP request IS the GAP request of do_pass_token / do_claim_token: no
   application transmitted in this poll *)
Lemma own_gap_poll_tx a : own_gap_poll (p_address p) s = Some a ->
  tx o = Some (sr_wire a (ts f)) /\ app_sent calls = false /\ tx_gap f f' (sr_wire a (ts f)) /\
  forall da sa, sr_wire a (ts f) <> encode_token da sa.
Proof.
  unfold own_gap_poll. cbn [s poll_event s_tx s_calls]. destruct (tx o) as [wire|] eqn:Etx; [|discriminate].
  destruct (decode_one wire) as [t|] eqn:Hd; [|discriminate]. destruct t as [h pdu|da sa|]; try discriminate.
  destruct (is_fdl_status_request h && (h_sa h =? p_address p) && negb (app_sent (map (conv_call (Some wire)) calls))) eqn:Ec; [|discriminate].
  intros H. injection H as <-.
  apply andb_true_iff in Ec. destruct Ec as (Ec & Hns). apply andb_true_iff in Ec. destruct Ec as (Hsr & _).
  rewrite app_sent_conv in Hns. apply negb_true_iff in Hns.
  pose proof (Rep_ts _ _ R) as Hts.
  destruct (poll_transmissions A ops _ _ _ _ _ _ _ _ _ E Etx) as [(cs & i & hp & er & Hcs & _)|(_ & [Htok|[Hgap|Hrep]])].
  - rewrite Hcs, app_sent_last in Hns. discriminate Hns.
  - destruct Htok as (da & Hw & _). rewrite Hw, decode_one_token in Hd. discriminate Hd.
  - pose proof Hgap as (a & Hw & Hin & Hrng & _). specialize (Hrng (Rep_cursor_ok _ _ R)).
    assert (Hwf : wf_header (status_request_header a (ts f))) by (unfold wf_header, is_addr7; cbn; lia).
    assert (Hd' : decode_one (sr_wire a (ts f)) = Some (TData (status_request_header a (ts f)) []))
      by (unfold sr_wire; apply (decode_one_data _ [] Hwf); cbn; lia).
    rewrite Hw, Hd' in Hd. injection Hd as <- _. cbn [h_da status_request_header].
    rewrite <- Hw. split; [reflexivity|]. split; [exact Hns|]. split; [exact Hgap|].
    intros da sa C. rewrite <- Hw, C, decode_one_token in Hd'. discriminate Hd'.
  - exfalso. destruct Hrep as (src & st & Hw & Hrs).
    assert (Hsrc : 0 <= src < 128).
    { pose proof (rep_st _ _ R) as St. destruct Hrs as [(cc & Es & _)|(nps & cc & Es & _)]; rewrite Es in St; cbn in St; tauto. }
    assert (Hwf : wf_header (status_response_header src (ts f) st status_reply_status)) by (unfold wf_header, is_addr7; cbn; lia).
    rewrite Hw in Hd. unfold reply_wire in Hd. rewrite (decode_one_data _ [] Hwf) in Hd by (cbn; lia).
    injection Hd as <- _. discriminate Hsr.
Qed.

Lemma gap_tx_own a : tx o = Some (sr_wire a (ts f)) -> Forall no_send calls -> 0 <= a < 128 ->
  own_gap_poll (p_address p) s = Some a.
Proof.
  intros Htx Hns Ha. rewrite own_gap_poll_y. pose proof (Rep_ts _ _ R) as Hts.
  apply (L_poll p f f' now busy rxb o calls Hp a Htx Hns Ha). lia.
Qed.

Lemma claim_tx_true : tx o = Some (encode_token (ts f) (ts f)) ->
  kind_of (f_state f) = KListenToken \/ kind_of (f_state f) = KActiveIdle \/ kind_of (f_state f) = KClaimToken ->
  claim_tx (p_address p) (kind_of (f_state f)) s = true.
Proof.
  intros Htx Hk. unfold claim_tx. cbn [s poll_event s_tx]. unfold ts in *. rewrite Htx, decode_one_token, Hp, Z.eqb_refl.
  destruct Hk as [K|[K|K]]; rewrite K; reflexivity.
Qed.

Lemma tx_gap_kinds w : tx_gap f f' w ->
  kind_in (kind_of (f_state f)) [KPassToken; KUseToken; KAwaitDataResponse; KClaimToken] = true /\
  f_state f' <> Offline /\ kind_of (f_state f') <> KListenToken.
Proof.
  intros (a & _ & _ & _ & _ & _ & [(S' & Ho)|(S' & Ho)]); (split; [|rewrite S'; split; discriminate]).
  - destruct Ho as [(att & ->)|[-> | ->]]; reflexivity.
  - destruct Ho as [-> |(a0 & ->)]; reflexivity.
Qed.

Lemma sweep_core last :
  (forall a0, last = Some a0 -> f_gap f = GapDoPoll a0 /\ f_state f <> Offline) ->
  snd (sweep_poll p (kind_of (f_state f)) last s) = [] /\
  (forall a, fst (sweep_poll p (kind_of (f_state f)) last s) = Some a ->
     f_gap f' = GapDoPoll a /\ f_state f' <> Offline).
Proof.
  intros HL. pose proof (poll_sweep_rel A ops _ _ _ _ _ _ _ _ E) as Hsw. cbn [tx_busy rx] in Hsw.
  pose proof (bv_not_short_slot f (rep_p _ _ R)) as Hss.
  unfold sweep_poll. destruct (own_gap_poll (p_address p) s) as [a|] eqn:Eo.
  - (* the station's own GAP request *)
    destruct (own_gap_poll_tx a Eo) as (Htx & Hns & Hgap & Hd).
    destruct (tx_gap_kinds _ Hgap) as (Hkf & Hoff' & Hnl').
    pose proof Hgap as (a' & Hw & _ & _ & _ & Hg' & _). apply sr_wire_inj in Hw. subst a'.
    cbn [fst snd]. split.
    + destruct last as [a0|]; [|reflexivity]. destruct (HL a0 eq_refl) as (Hg0 & _).
      assert (Ha : a = gap_succ (p_hsa p) a0); [|rewrite <- Ha, Z.eqb_refl; reflexivity].
      rewrite <- Hp. rewrite Htx in Hsw.
      destruct Hsw as [Hr|[(a' & Ht & _ & Hstep & _)|[(da & Ht & _)|(Hq & _)]]].
      * exfalso. destruct Hr as [K|[K|[K|[K|[(Ht & _)|K]]]]]; try (rewrite K in Hkf; discriminate Hkf).
        -- apply Hoff', kind_offline, K.
        -- exact (Hnl' K).
        -- apply (Hd (ts f) (ts f)). congruence.
        -- exact (Hss K).
      * assert (Ht' : sr_wire a (ts f) = sr_wire a' (ts f)) by congruence. apply sr_wire_inj in Ht'. subst a'.
        unfold gap_visit_step in Hstep. rewrite Hg0 in Hstep. exact (next_gap_poll_succ _ _ _ Hstep).
      * exfalso. apply (Hd da (ts f)). congruence.
      * exfalso. destruct Hq as [Ht|[(wire & cs & i & hp & er & _ & Hcs)|[(src & st & _ & [K|K])|(da & _ & K)]]];
          try (rewrite K in Hkf; discriminate Hkf); [discriminate Ht|].
        rewrite Hcs, app_sent_last in Hns. discriminate Hns.
    + intros a1 H1. split; [|exact Hoff'].
      destruct (v_gap_due (s_view s)); [injection H1 as <-; exact Hg'|discriminate H1].
  - (* no GAP request of the station in this poll *)
    cbn [fst snd]. split; [reflexivity|]. intros a H1.
    destruct (v_gap_due (s_view s) && negb (claim_tx (p_address p) (kind_of (f_state f)) s) &&
              negb (state_kind_eqb (v_kind (s_view s)) KOffline)) eqn:Ec; [|discriminate H1].
    subst last. destruct (HL a eq_refl) as (Hg0 & Hnoff).
    apply andb_true_iff in Ec. destruct Ec as (Ec & Hk'). apply negb_true_iff in Hk'.
    assert (Hoff' : f_state f' <> Offline).
    { intros C. cbn [s poll_event s_view view_of v_kind] in Hk'. rewrite C in Hk'. discriminate Hk'. }
    split; [|exact Hoff'].
    apply andb_true_iff in Ec. destruct Ec as (Hdue & Hcl). apply negb_true_iff in Hcl.
    cbn [s poll_event s_view view_of v_gap_due] in Hdue.
    destruct Hsw as [Hr|[(a' & Ht & (l & Hl & Hf) & Hstep & _)|[(da & _ & _ & _ & _ & Hc)|(_ & Hc)]]].
    + destruct Hr as [K|[K|[K|[K|[(Ht & Hk & _)|K]]]]].
      * contradiction (Hnoff (kind_offline _ K)).
      * exfalso. pose proof (rep_st _ _ R) as St. destruct (f_state f); try discriminate K. exact St.
      * contradiction (Hoff' (kind_offline _ K)).
      * rewrite (poll_to_listen_gap _ _ _ _ _ _ _ _ E K). exact Hg0.
      * rewrite (claim_tx_true Ht Hk) in Hcl. discriminate Hcl.
      * contradiction (Hss K).
    + exfalso. cbn [app] in Hl. subst l.
      destruct (gap_visit_step_in_gap f a' Hstep) as (_ & Hrng). specialize (Hrng (Rep_cursor_ok _ _ R)).
      pose proof (Rep_ts _ _ R) as Hts.
      rewrite (gap_tx_own a' Ht Hf) in Eo by lia. discriminate Eo.
    + destruct Hc as [(_ & _ & (k & Hk))|(_ & Hg)]; [rewrite Hk in Hdue; discriminate Hdue|rewrite Hg; exact Hg0].
    + destruct Hc as [(Hg & _)|(_ & _ & _ & _ & (k & Hk) & _)]; [rewrite Hg; exact Hg0|rewrite Hk in Hdue; discriminate Hdue].
Qed.

End OnePoll.

End Step.

Lemma smonitor_from_api p i k0 last a v tl :
  (a = ApiOffline \/ a = ApiNew -> fresh_view (p_address p) v = true) ->
  smonitor_from p i k0 last (EApi a v :: tl) =
  smonitor_from p (S i) (v_kind v) (match a with ApiOffline | ApiNew => None | _ => last end) tl.
Proof.
  intros H. cbn [smonitor_from]. destruct a; try reflexivity; (rewrite H by tauto); destruct tl as [|[ | | | ] ?]; reflexivity.
Qed.

Definition sweep_inv (f : fdl) (k0 : state_kind) (last : option Z) : Prop :=
  k0 = kind_of (f_state f) /\ forall a0, last = Some a0 -> f_gap f = GapDoPoll a0 /\ f_state f <> Offline.

Section StepTheorems.
Variable A : Type.
Variable ops : app_ops A.
Variable p : params.
Hypothesis Happs : apps_total A ops.

Theorem sweep_step_sound f now busy rxb (apps : list A) f' o apps' calls k0 last :
  Rep (length apps) f -> f_p f = p -> time_ok now -> all_bytes rxb -> sweep_inv f k0 last ->
  poll ops f now (mkPhyIn busy rxb) apps = Ok (f', o, apps', calls) ->
  let s := poll_event now busy rxb f' o calls in
  snd (sweep_poll p k0 last s) = [] /\
  Rep (length apps') f' /\ f_p f' = p /\ sweep_inv f' (v_kind (s_view s)) (fst (sweep_poll p k0 last s)).
Proof.
  intros R Hp Hnow Hrx (-> & HL) E s.
  destruct (sweep_core A ops p f f' now busy rxb apps apps' o calls R Hp E last HL) as (H1 & H2). fold s in H1, H2.
  split; [exact H1|]. destruct (rj_step A ops p Happs _ _ _ _ _ _ _ _ _ R Hp Hnow Hrx E) as (R' & Hp' & _).
  split; [exact R'|]. split; [exact Hp'|]. split; [reflexivity|exact H2].
Qed.

End StepTheorems.

Section Transcripts.
Variable A : Type.
Variable ops : app_ops A.
Variable p : params.
Hypothesis Happs : apps_total A ops.
Hypothesis Hbv : builder_valid p.

Lemma sweep_inv_api a f f' last :
  api_result p a f = Ok f' -> sweep_inv f (kind_of (f_state f)) last ->
  sweep_inv f' (v_kind (view_of f')) (match a with ApiOffline | ApiNew => None | _ => last end) /\
  (a = ApiOffline \/ a = ApiNew -> fdl_new p = Ok f' \/ fdl_new (f_p f) = Ok f').
Proof.
  intros Ea (_ & HL). destruct a; cbn [api_result] in Ea.
  - split; [split; [reflexivity|discriminate]|]. intros _. left. exact Ea.
  - unfold set_online, set_state in Ea. injection Ea as <-. split; [|intros [C|C]; discriminate C].
    split; [reflexivity|]. exact HL.
  - split; [split; [reflexivity|discriminate]|]. intros _. right. exact Ea.
  - discriminate Ea.
Qed.

Theorem smonitor_from_sound : forall ins f apps buf tl i last,
  RJ A p f apps buf -> sweep_inv f (kind_of (f_state f)) last -> ins_ok tl ins ->
  smonitor_from p i (kind_of (f_state f)) last (model_events A ops p f apps buf ins) = [].
Proof.
  induction ins as [|x ins IH]; intros f apps buf tl i last HJ HI Hok; [reflexivity|].
  destruct x as [a|now busy nb]; cbn [model_events] in *; cbn [ins_ok] in Hok.
  - destruct (api_result p a f) as [f'| |] eqn:Ea.
    + destruct (sweep_inv_api a f f' last Ea HI) as (HI' & Hnew).
      rewrite smonitor_from_api.
      * exact (IH _ _ _ _ _ _ (rj_api A p Hbv _ _ _ _ _ HJ Ea) HI' Hok).
      * intros Ha. destruct HJ as (_ & Hp & _).
        destruct (Hnew Ha) as [En|En]; [|rewrite Hp in En]; exact (fdl_new_fresh _ _ En).
    + destruct a; reflexivity.
    + destruct a; reflexivity.
  - destruct Hok as (_ & Hnow & Hnb & Hok).
    destruct (poll ops f now (mkPhyIn busy (buf ++ nb)) apps) as [[[[f' o] apps'] calls]| |] eqn:Ep; try reflexivity.
    cbn [smonitor_from] in *.
    destruct HJ as (R & Hp & Hb).
    assert (Hrx : all_bytes (buf ++ nb)) by (unfold all_bytes in *; apply Forall_app; split; assumption).
    destruct (sweep_step_sound A ops p Happs f now busy (buf ++ nb) apps f' o apps' calls _ last R Hp Hnow Hrx HI Ep) as (H1 & _ & _ & HI').
    destruct (sweep_poll p (kind_of (f_state f)) last (poll_event now busy (buf ++ nb) f' o calls)) as [last' errs].
    cbn [fst snd] in H1, HI'. subst errs. cbn [map app].
    exact (IH _ _ _ _ _ _ (rj_poll A ops p Happs _ _ _ _ _ _ _ _ _ _ (conj R (conj Hp Hb)) Hnow Hnb Ep) HI' Hok).
Qed.

End Transcripts.

(* the monitor as the check runs it: for all parameters (it only looks at builder-valid ones), EVERY model transcript *)
Theorem sweep_monitor_sound (A : Type) (ops : app_ops A) (p : params) :
  apps_total A ops ->
  forall (apps : list A) (ins : list minput), ins_ok 0 ins ->
  smonitor p (model_transcript A ops p apps ins) = [].
Proof.
  intros Happs apps ins Hok. unfold smonitor. destruct (builder_validb p) eqn:Eb; [|reflexivity].
  apply builder_validb_valid in Eb. unfold model_transcript in *.
  destruct (fdl_new p) as [f0| |] eqn:E0; try reflexivity.
  rewrite smonitor_from_api by (intros _; exact (fdl_new_fresh _ _ E0)).
  assert (HI : sweep_inv f0 (kind_of (f_state f0)) None) by (split; [reflexivity|discriminate]).
  exact (smonitor_from_sound A ops p Happs Eb ins f0 apps [] 0 1%nat None
           (rj_new A p Eb _ _ _ E0 (Forall_nil _)) HI Hok).
Qed.

(* Non-vacuity (1): station 3 alone on the bus, HSA = 5 (GAP = {4, 0, 1, 2}), one poll every 2 ms: it claims the token, scans the
   GAP (4 0 1 2 in ClaimToken), and then polls 4, 0, 1, 2 in CONSECUTIVE token visits (AwaitStatusResponse), twice
   over; the monitor accepts the transcript. *)
Definition ex_sweep_params : params := mkParams 3 B19200 100 80000 1 5 1 11 None.
Definition ex_sweep_ins : list minput :=
  InApi ApiOnline :: map (fun k => InPoll (1000 + 2000 * Z.of_nat k) false []) (seq 0 120).
Definition ex_sweep_tr : list FdlOracle.event := model_transcript unit unit_app_ops ex_sweep_params [tt] ex_sweep_ins.
Definition gap_polls_in (k : state_kind) (ts : Z) (events : list FdlOracle.event) : list Z :=
  flat_map (fun e => match e with
                     | EPoll s => if state_kind_eqb (v_kind (s_view s)) k
                                  then match own_gap_poll ts s with Some a => [a] | None => [] end else []
                     | _ => []
                     end) events.

Lemma sweep_example_accepted :
  builder_validb ex_sweep_params = true /\
  gap_polls_in KClaimToken 3 ex_sweep_tr = [4; 0; 1; 2] /\
  gap_polls_in KAwaitStatusResponse 3 ex_sweep_tr = [4; 0; 1; 2; 4; 0; 1; 2] /\
  smonitor ex_sweep_params ex_sweep_tr = [].
Proof. vm_compute. repeat split; reflexivity. Qed.

(* (2) hand-made events: the same address polled twice in one polling phase (seeded change R5-C12-2: the cursor is
   thrown back), and a view with a valid LAS right after set_offline (R5-C12-1) *)
Definition ex_view_poll (a : Z) : view := mkView ConnOnline true KAwaitStatusResponse 3 3 true [3] true false.
Definition ex_gap_request (now a : Z) : FdlOracle.event :=
  EPoll (mkPStep now false [] (Some (sr_wire a 3)) 0 [] (ex_view_poll a)).
Definition ex_fresh : view := mkView ConnOffline false KOffline 3 3 false [3] true false.
Definition ex_stale : view := mkView ConnOffline false KOffline 3 3 true [3] true false.

Lemma sweep_example_rejected :
  smonitor ex_sweep_params [EApi ApiNew ex_fresh; ex_gap_request 1000 4; ex_gap_request 9000 0] = [] /\
  smonitor ex_sweep_params [EApi ApiNew ex_fresh; ex_gap_request 1000 4; ex_gap_request 9000 4] = [(2%nat, P12_sweep_order)] /\
  smonitor ex_sweep_params [EApi ApiNew ex_fresh; ex_gap_request 1000 4; ex_gap_request 9000 1] = [(2%nat, P12_sweep_order)] /\
  smonitor ex_sweep_params [EApi ApiNew ex_fresh; EApi ApiOnline ex_fresh; EApi ApiOffline ex_stale] = [(2%nat, P12_offline_forgets_ring)] /\
  smonitor ex_sweep_params [EApi ApiNew ex_fresh; EApi ApiOnline ex_fresh; EApi ApiOffline ex_fresh] = [].
Proof. vm_compute. repeat split; reflexivity. Qed.

(* (3) the station re-created inside a poll (see the head of this file), as a MODEL transcript.
   Station 3 (HSA 16) claims the token, polls 4 in its post-claim scan (`last` = 4), gives the token up on a foreign
   token telegram, hears its own address twice (ActiveIdle -> ListenToken), twice again: listen_token_telegram calls
   set_offline INSIDE the poll (event 8: the view goes Offline out of ListenToken, the cursor back to DoPoll{3}, no
   API event).  After set_online it hears two identical rotations 2 -> 5 -> 2, answers the status request of 2,
   receives the token from 2 and polls 4 = TS + 1 again.  Accepted.  The same history on the crate:
   corpus/fdl/sweep-recreated-in-poll.cases. *)
Definition ex_fp_params : params := mkParams 3 B19200 100 80000 1 16 1 11 None.
Definition ex_tk (da sa : Z) : bytes := [220; da; sa].
Definition ex_fp_ins : list minput :=
 [InApi ApiOnline; InPoll 1000 false []; InPoll 70000 false []; InPoll 75000 false []; InPoll 80000 false [];
  InPoll 84000 false (ex_tk 8 9);
  InPoll 85000 false (ex_tk 9 3 ++ ex_tk 9 3);
  InPoll 86000 false (ex_tk 9 3 ++ ex_tk 9 3);
  InApi ApiOnline;
  InPoll 87000 false [];
  InPoll 88000 false (ex_tk 5 2); InPoll 89000 false (ex_tk 2 5);
  InPoll 90000 false (ex_tk 5 2); InPoll 91000 false (ex_tk 2 5);
  InPoll 92000 false (ex_tk 5 2); InPoll 93000 false (ex_tk 2 5);
  InPoll 94000 false [16; 3; 2; 73; 78; 22];
  InPoll 97000 false [];
  InPoll 101000 false (ex_tk 3 2);
  InPoll 104000 false [];
  InPoll 107000 false []].
Definition ex_fp_tr : list FdlOracle.event := model_transcript unit unit_app_ops ex_fp_params [tt] ex_fp_ins.
(* the kinds of the views of the transcript, to show the in-poll re-creation *)
Definition view_kinds (events : list FdlOracle.event) : list state_kind :=
  flat_map (fun e => match e with EApi _ v => [v_kind v] | EPoll s => [v_kind (s_view s)] | _ => [] end) events.

Lemma sweep_recreated_in_poll_accepted :
  builder_validb ex_fp_params = true /\ ins_ok 0 ex_fp_ins /\
  gap_polls_in KClaimToken 3 ex_fp_tr = [4] /\ gap_polls_in KAwaitStatusResponse 3 ex_fp_tr = [4] /\
  firstn 3 (skipn 6 (view_kinds ex_fp_tr)) = [KActiveIdle; KListenToken; KOffline] /\
  smonitor ex_fp_params ex_fp_tr = [].
Proof.
  split; [vm_compute; reflexivity|]. split.
  { unfold ex_fp_ins, ex_tk, ins_ok, time_ok, all_bytes. repeat split; try lia; repeat constructor; unfold is_byte; lia. }
  vm_compute. repeat split; reflexivity.
Qed.
