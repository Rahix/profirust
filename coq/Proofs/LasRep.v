(* Representation lemmas: the `list bool` operations of Model/TokenRing.v (set_nth, fill_from,
   las_any, ones_from) against the membership predicate `active las a`, sorted address lists,
   and the find-based next_of / prev_of against the declarative cyclic neighbours. *)
From PB Require Import Common TokenRing LasOracle.
From Coq Require Import Sorted.

(* destructs every Z comparison of goal and hypotheses with its *_spec lemma *)
Ltac zb :=
  repeat match goal with
  | |- context [?a <? ?b] => destruct (Z.ltb_spec a b)
  | |- context [?a <=? ?b] => destruct (Z.leb_spec a b)
  | |- context [?a =? ?b] => destruct (Z.eqb_spec a b)
  | H : context [?a <? ?b] |- _ => destruct (Z.ltb_spec a b)
  | H : context [?a <=? ?b] |- _ => destruct (Z.leb_spec a b)
  | H : context [?a =? ?b] |- _ => destruct (Z.eqb_spec a b)
  end.

Lemma fill_from_length : forall l lo len v, length (fill_from l lo len v) = length l.
Proof.
  induction l as [|x t IH]; intros lo len v; simpl; auto.
  destruct lo; simpl; auto. destruct len; simpl; auto.
Qed.

Lemma nth_fill_in : forall l lo len v j,
  (lo <= j < lo + len)%nat -> (j < length l)%nat -> nth j (fill_from l lo len v) false = v.
Proof.
  induction l as [|x t IH]; intros lo len v j H1 H2; simpl in *; try lia.
  destruct lo as [|lo].
  - destruct len as [|len]; try lia. destruct j as [|j]; simpl; auto.
    apply IH; lia.
  - destruct j as [|j]; try lia. simpl. apply IH; lia.
Qed.

Lemma nth_fill_out : forall l lo len v j,
  ~ (lo <= j < lo + len)%nat -> nth j (fill_from l lo len v) false = nth j l false.
Proof.
  induction l as [|x t IH]; intros lo len v j H; simpl; auto.
  destruct lo as [|lo].
  - destruct len as [|len]; auto. destruct j as [|j]; try lia. simpl. apply IH. lia.
  - destruct j as [|j]; simpl; auto. apply IH. lia.
Qed.

Lemma set_nth_fill : forall l i v, set_nth l i v = fill_from l i 1 v.
Proof.
  induction l as [|x t IH]; intros [|i] v; simpl; auto.
  - destruct t; reflexivity.
  - f_equal. apply IH.
Qed.

Lemma set_nth_length : forall l i v, length (set_nth l i v) = length l.
Proof. intros. rewrite set_nth_fill. apply fill_from_length. Qed.

Lemma nth_set_nth_eq : forall l i v, (i < length l)%nat -> nth i (set_nth l i v) false = v.
Proof. intros. rewrite set_nth_fill. apply nth_fill_in; lia. Qed.

Lemma active_range : forall las a, active las a -> 0 <= a < Z.of_nat (length las).
Proof.
  unfold active, activeb. intros las a H. apply andb_true_iff in H. destruct H as [H1 H2].
  apply Z.leb_le in H1. split; auto.
  destruct (Nat.lt_ge_cases (Z.to_nat a) (length las)) as [L|L]; try lia.
  rewrite nth_overflow in H2 by lia. discriminate.
Qed.

Lemma activeb_fill : forall las lo hi v a,
  0 <= lo -> lo <= hi -> hi <= Z.of_nat (length las) ->
  activeb (fill_from las (Z.to_nat lo) (Z.to_nat (hi - lo)) v) a =
  if (lo <=? a) && (a <? hi) then v else activeb las a.
Proof.
  intros las lo hi v a H0 H1 H2. unfold activeb.
  destruct (Z.leb_spec 0 a); simpl.
  - destruct (Z.leb_spec lo a); destruct (Z.ltb_spec a hi); simpl;
      [rewrite nth_fill_in by lia|rewrite nth_fill_out by lia ..]; reflexivity.
  - destruct (Z.leb_spec lo a); [lia|reflexivity].
Qed.

Lemma activeb_set : forall las i v a,
  0 <= i < Z.of_nat (length las) ->
  activeb (set_nth las (Z.to_nat i) v) a = if a =? i then v else activeb las a.
Proof.
  intros las i v a Hi. rewrite set_nth_fill. replace 1%nat with (Z.to_nat (i + 1 - i)) by lia.
  rewrite activeb_fill by lia. zb; try lia; reflexivity.
Qed.

Lemma any_window : forall l lo n,
  existsb (fun b : bool => b) (firstn n (skipn lo l)) = true <->
  exists j, (lo <= j < lo + n)%nat /\ nth j l false = true.
Proof.
  induction l as [|x t IH]; intros lo n.
  - rewrite skipn_nil, firstn_nil. simpl. split; [discriminate|].
    intros [j [_ H]]. destruct j; discriminate.
  - destruct lo as [|lo].
    + simpl skipn. destruct n as [|n].
      * simpl. split; [discriminate|]. intros [j [H _]]. lia.
      * simpl firstn. simpl existsb. rewrite orb_true_iff.
        specialize (IH 0%nat n). simpl skipn in IH. rewrite IH. split.
        -- intros [H|[j [H1 H2]]]; [exists 0%nat; split; [lia|auto] | exists (S j); split; [lia|auto]].
        -- intros [[|j] [H1 H2]]; [left; auto | right; exists j; split; [lia|auto]].
    + simpl skipn. rewrite IH. split.
      * intros [j [H1 H2]]. exists (S j). split; [lia|auto].
      * intros [[|j] [H1 H2]]; [lia|]. exists j. split; [lia|auto].
Qed.

Lemma las_any_spec : forall las lo hi,
  0 <= lo -> lo <= hi -> hi <= 128 -> length las = 128%nat ->
  exists b, las_any las lo hi = Ok b /\ (b = true <-> exists x, lo <= x < hi /\ active las x).
Proof.
  intros las lo hi H0 H1 H2 HL. unfold las_any.
  destruct (Z.leb_spec 0 lo); destruct (Z.leb_spec lo hi); destruct (Z.leb_spec hi 128); try lia.
  simpl. eexists. split; [reflexivity|]. rewrite any_window. split.
  - intros [j [Hj Hn]]. exists (Z.of_nat j). split; [lia|].
    unfold active, activeb. rewrite Nat2Z.id, Hn. destruct (Z.leb_spec 0 (Z.of_nat j)); [reflexivity|lia].
  - intros [x [Hx Ha]]. exists (Z.to_nat x). split; [lia|].
    unfold active, activeb in Ha. apply andb_true_iff in Ha. tauto.
Qed.

Lemma In_ones_from : forall l i a,
  In a (ones_from l i) <-> exists k, a = i + Z.of_nat k /\ nth k l false = true.
Proof.
  induction l as [|b t IH]; intros i a; simpl.
  - split; [tauto|]. intros [[|k] [_ H]]; discriminate.
  - assert (T : In a (ones_from t (i + 1)) <->
                exists k, a = i + Z.of_nat (S k) /\ nth (S k) (b :: t) false = true).
    { rewrite IH. split; intros [k [E H]]; exists k; split; auto; lia. }
    destruct b; simpl In; rewrite T; split.
    + intros [E|[k H]]; [exists 0%nat; split; [lia|reflexivity]|exists (S k); exact H].
    + intros [[|k] H]; [left; lia|right; exists k; exact H].
    + intros [k H]. exists (S k). exact H.
    + intros [[|k] [E H]]; [discriminate|exists k; auto].
Qed.

Lemma In_las_ones : forall las a, In a (las_ones las) <-> active las a.
Proof.
  intros las a. unfold las_ones, active, activeb. rewrite In_ones_from, andb_true_iff, Z.leb_le. split.
  - intros [k [E H]]. replace a with (Z.of_nat k) by lia. rewrite Nat2Z.id. split; [lia|exact H].
  - intros [H1 H2]. exists (Z.to_nat a). split; [lia|exact H2].
Qed.

Lemma ones_from_sorted : forall l i, StronglySorted Z.lt (ones_from l i).
Proof.
  induction l as [|b t IH]; intros i; simpl.
  - constructor.
  - destruct b; [|apply IH]. constructor; [apply IH|].
    apply Forall_forall. intros x Hx. apply In_ones_from in Hx. destruct Hx as [k [-> _]]. lia.
Qed.

Lemma las_ones_sorted : forall las, StronglySorted Z.lt (las_ones las).
Proof. intros. apply ones_from_sorted. Qed.

Lemma sorted_ext : forall l1 l2 : list Z,
  StronglySorted Z.lt l1 -> StronglySorted Z.lt l2 -> (forall x, In x l1 <-> In x l2) -> l1 = l2.
Proof.
  induction l1 as [|a t IH]; intros l2 S1 S2 E.
  - destruct l2 as [|b u]; auto. exfalso. apply (proj2 (E b)). left; auto.
  - destruct l2 as [|b u].
    + exfalso. apply (proj1 (E a)). left; auto.
    + inversion S1 as [|? ? St Ft]; subst. inversion S2 as [|? ? Su Fu]; subst.
      rewrite Forall_forall in Ft, Fu.
      assert (a = b).
      { destruct (proj1 (E a) (or_introl eq_refl)) as [Q|Q]; auto.
        destruct (proj2 (E b) (or_introl eq_refl)) as [Q'|Q']; auto.
        apply Fu in Q. apply Ft in Q'. lia. }
      subst b. f_equal. apply IH; auto. intros x. split; intro Hx.
      * destruct (proj1 (E x) (or_intror Hx)) as [Q|Q]; auto. subst x. apply Ft in Hx. lia.
      * destruct (proj2 (E x) (or_intror Hx)) as [Q|Q]; auto. subst x. apply Fu in Hx. lia.
Qed.

Lemma sortedb_sorted : forall l, sortedb l = true -> StronglySorted Z.lt l.
Proof.
  induction l as [|a t IH]; intros H; [constructor|].
  destruct t as [|b u]; [constructor; constructor|].
  simpl in H. apply andb_true_iff in H. destruct H as [H1 H2]. apply Z.ltb_lt in H1.
  specialize (IH H2). constructor; auto.
  inversion IH as [|? ? Su Fu]; subst. constructor; auto.
  eapply Forall_impl; [|exact Fu]. simpl. intros; lia.
Qed.

Lemma sorted_filter : forall (f : Z -> bool) l, StronglySorted Z.lt l -> StronglySorted Z.lt (filter f l).
Proof.
  induction l as [|a t IH]; intros S; simpl; [constructor|].
  inversion S as [|? ? St Ft]; subst. destruct (f a); auto.
  constructor; auto. rewrite Forall_forall in *. intros x Hx. apply filter_In in Hx. apply Ft. tauto.
Qed.

Lemma In_insert_sorted : forall b l x, In x (insert_sorted b l) <-> x = b \/ In x l.
Proof.
  induction l as [|a t IH]; intros x; simpl.
  - intuition.
  - destruct (Z.ltb_spec b a); [simpl; intuition|].
    destruct (Z.eqb_spec b a); [subst; simpl; intuition|].
    simpl. rewrite IH. intuition.
Qed.

Lemma sorted_insert : forall b l, StronglySorted Z.lt l -> StronglySorted Z.lt (insert_sorted b l).
Proof.
  induction l as [|a t IH]; intros S; simpl.
  - constructor; constructor.
  - inversion S as [|? ? St Ft]; subst.
    destruct (Z.ltb_spec b a).
    + constructor; auto. constructor; auto. eapply Forall_impl; [|exact Ft]. simpl; intros; lia.
    + destruct (Z.eqb_spec b a); auto.
      constructor; auto. rewrite Forall_forall in *. intros x Hx.
      apply In_insert_sorted in Hx. destruct Hx as [Hx|Hx]; [lia|auto].
Qed.

Lemma existsb_eqb_In : forall x l, existsb (Z.eqb x) l = true <-> In x l.
Proof.
  intros x l. rewrite existsb_exists. split.
  - intros [y [H1 H2]]. apply Z.eqb_eq in H2. subst; auto.
  - intros H. exists x. split; auto. apply Z.eqb_refl.
Qed.

Lemma list_eqb_eq : forall a b, list_eqb a b = true <-> a = b.
Proof.
  induction a as [|x a IH]; intros [|y b]; simpl; split; intros H; try discriminate; auto.
  - apply andb_true_iff in H. destruct H as [H1 H2]. apply Z.eqb_eq in H1. apply IH in H2. congruence.
  - inversion H; subst. rewrite Z.eqb_refl. simpl. apply IH. reflexivity.
Qed.

Lemma find_sorted : forall (R : Z -> Z -> Prop) (f : Z -> bool) l n,
  StronglySorted R l -> find f l = Some n ->
  In n l /\ f n = true /\ forall a, In a l -> f a = true -> a = n \/ R n a.
Proof.
  induction l as [|x t IH]; intros n S H; simpl in H; [discriminate|].
  inversion S as [|? ? St Ft]; subst. rewrite Forall_forall in Ft.
  destruct (f x) eqn:Fx.
  - inversion H; subst. split; [left; auto|]. split; auto. intros a [E|Ha] _; auto.
  - destruct (IH n St H) as [I1 [I2 I3]]. split; [right; auto|]. split; auto.
    intros a [E|Ha] Q; [congruence|auto].
Qed.

Lemma sorted_app_last : forall (Rel : Z -> Z -> Prop) l a,
  StronglySorted Rel l -> Forall (fun x => Rel x a) l -> StronglySorted Rel (l ++ [a]).
Proof.
  induction l as [|x t IH]; intros a S F; simpl.
  - constructor; constructor.
  - inversion S as [|? ? St Ft]; subst. inversion F as [|? ? Fx Ft']; subst.
    constructor; auto. apply Forall_app. split; auto.
Qed.

Lemma sorted_rev : forall l, StronglySorted Z.lt l -> StronglySorted (fun x y => y < x) (rev l).
Proof.
  induction l as [|x t IH]; intros S; simpl; [constructor|].
  inversion S as [|? ? St Ft]; subst. apply sorted_app_last; auto.
  rewrite Forall_forall in *. intros y Hy. apply in_rev in Hy. apply Ft in Hy. lia.
Qed.

Lemma next_of_spec : forall l ts, StronglySorted Z.lt l -> cyc_next l ts (next_of l ts).
Proof.
  intros l ts S. unfold cyc_next, next_of. destruct l as [|x t]; [reflexivity|].
  destruct (find (fun a => ts <? a) (x :: t)) as [n|] eqn:F.
  - destruct (find_sorted _ _ _ _ S F) as [I1 [I2 I3]]. apply Z.ltb_lt in I2. split; auto.
    left. split; auto. intros a Ha Q. apply Z.ltb_lt in Q. destruct (I3 a Ha Q); lia.
  - split; [left; auto|]. right. split.
    + intros a Ha. pose proof (find_none _ _ F a Ha) as Q. simpl in Q. apply Z.ltb_ge in Q. exact Q.
    + inversion S as [|? ? St Ft]; subst. rewrite Forall_forall in Ft.
      intros a [E|Ha]; [lia|]. apply Ft in Ha. lia.
Qed.

Lemma prev_of_spec : forall l ts, StronglySorted Z.lt l -> cyc_prev l ts (prev_of l ts).
Proof.
  intros l ts S. unfold cyc_prev, prev_of. destruct l as [|x t]; [reflexivity|].
  pose proof (sorted_rev _ S) as SR.
  assert (NE : rev (x :: t) <> []) by (simpl; intro Q; apply app_eq_nil in Q; destruct Q; discriminate).
  destruct (find (fun a => a <? ts) (rev (x :: t))) as [p|] eqn:F.
  - destruct (find_sorted _ _ _ _ SR F) as [I1 [I2 I3]]. apply Z.ltb_lt in I2. split; [apply in_rev; auto|].
    left. split; auto. intros a Ha Q. apply in_rev in Ha. apply Z.ltb_lt in Q. destruct (I3 a Ha Q); lia.
  - destruct (rev (x :: t)) as [|p u] eqn:RV; [congruence|].
    assert (Hp : In p (x :: t)) by (apply in_rev; rewrite RV; left; auto).
    split; auto. right. split.
    + intros a Ha. apply in_rev in Ha. rewrite RV in Ha.
      pose proof (find_none _ _ F a Ha) as Q. simpl in Q. apply Z.ltb_ge in Q. exact Q.
    + inversion SR as [|? ? Su Fu]; subst. rewrite Forall_forall in Fu.
      intros a Ha. apply in_rev in Ha. rewrite RV in Ha. destruct Ha as [E|Ha]; [lia|]. apply Fu in Ha. lia.
Qed.

(* the declarative neighbours are unique: each of the two alternatives is instantiated at the other candidate *)
Lemma cyc_next_unique : forall l ts n n', cyc_next l ts n -> cyc_next l ts n' -> n = n'.
Proof.
  intros l ts n n'. unfold cyc_next. destruct l as [|x t]; [congruence|].
  intros [I [[A1 A2]|[A1 A2]]] [I' [[B1 B2]|[B1 B2]]];
    try specialize (A1 _ I'); try specialize (B1 _ I); specialize (A2 _ I'); specialize (B2 _ I); lia.
Qed.

Lemma cyc_prev_unique : forall l ts p p', cyc_prev l ts p -> cyc_prev l ts p' -> p = p'.
Proof.
  intros l ts p p'. unfold cyc_prev. destruct l as [|x t]; [congruence|].
  intros [I [[A1 A2]|[A1 A2]]] [I' [[B1 B2]|[B1 B2]]];
    try specialize (A1 _ I'); try specialize (B1 _ I); specialize (A2 _ I'); specialize (B2 _ I); lia.
Qed.

Lemma forallb_iff : forall (P : Z -> Prop) f l,
  (forall a, f a = true <-> P a) -> (forallb f l = true <-> forall a, In a l -> P a).
Proof. intros P f l H. rewrite forallb_forall. split; intros Q a Ha; apply H, Q, Ha. Qed.

Lemma cyc_nextb_spec : forall l ts n, cyc_nextb l ts n = true <-> cyc_next l ts n.
Proof.
  intros l ts n. unfold cyc_nextb, cyc_next. destruct l as [|x t]; [apply Z.eqb_eq|].
  rewrite andb_true_iff, existsb_eqb_In, orb_true_iff, !andb_true_iff, Z.ltb_lt,
    (forallb_iff (fun a => ts < a -> n <= a)), (forallb_iff (fun a => a <= ts)), (forallb_iff (fun a => n <= a));
    [reflexivity|intros a; try apply Z.leb_le ..].
  destruct (Z.ltb_spec ts a); simpl; rewrite ?Z.leb_le; intuition lia.
Qed.

Lemma cyc_prevb_spec : forall l ts p, cyc_prevb l ts p = true <-> cyc_prev l ts p.
Proof.
  intros l ts p. unfold cyc_prevb, cyc_prev. destruct l as [|x t]; [apply Z.eqb_eq|].
  rewrite andb_true_iff, existsb_eqb_In, orb_true_iff, !andb_true_iff, Z.ltb_lt,
    (forallb_iff (fun a => a < ts -> a <= p)), (forallb_iff (fun a => ts <= a)), (forallb_iff (fun a => a <= p));
    [reflexivity|intros a; try apply Z.leb_le ..].
  destruct (Z.ltb_spec a ts); simpl; rewrite ?Z.leb_le; intuition lia.
Qed.
