(* A global fact about the composed model (Model/Multi.v) on the concrete medium `ideal_medium rate`:
   the token hand-over between two stations of an N-station system.

   ideal_delivers_rest: when everything transmitted earlier has already been delivered to station ib by
     its previous poll (at tp), nobody has transmitted since the last transmission (w, by another station,
     at t0) and all bytes of w are complete at t1, then what the ideal medium hands to ib's poll at t1 is
     exactly the bytes of w that had not arrived at tp, transmitter idle.
   handover_step_partial: station ia has just transmitted the token telegram TS_b <- TS_a and supervises
     its pass (CheckTokenPass: NOT a token holder in its own view); station ib idles in the ring with ia's
     address as its predecessor; its receive buffer holds what had arrived of the telegram at its previous
     poll (possibly nothing); other stations may have polled since, nobody has transmitted.  Then the poll
     of ib at a time t1 at which the telegram is completely delivered returns, transmits nothing, leaves
     ib in UseToken t1 (token holder in its own view) and does not touch ia: after the step EXACTLY ONE of
     the two is a token holder.
   What is proved is this one global step.  Token uniqueness ("at most one station has have_token in
   every reachable state of the composed system") is NOT proved: it needs an invariant over all reachable
   states tying every station's view to the history on the medium (token in flight / held by exactly one /
   lost) through claims, GAP polls, replies, retries and removals; assumptions under which it holds at all
   (a medium that neither loses nor corrupts telegrams, a bound on the poll period relative to Tslot -
   otherwise ia retries or re-claims while ib holds: classes F20 (fixed) / F21 of DESIGN.md - and distinct
   addresses); and the timing argument that the claim time-outs (6 + 2 TS) Tslot elect one claimant. *)
From Coq Require Import Arith.
From PB Require Import Common Tables FdlTables Telegram Phy TokenRing Params Fdl FdlOracle FdlProofs FdlStepProofs.
From PB Require Import C05Proofs C01Proofs C11Proofs DecodeSpec.
From PB Require Import Multi MultiProofs ByteFacts.

Lemma last_poll_app h x i : last_poll (h ++ [x]) i = if Nat.eqb (h_who x) i then Some (h_now x) else last_poll h i.
Proof. unfold last_poll. rewrite fold_left_app. reflexivity. Qed.

Lemma map_mod_bytes (w : bytes) : all_bytes w -> map (fun b => b mod 256) w = w.
Proof.
  induction 1 as [|b l Hb _ IH]; [reflexivity|]. cbn [map]. rewrite IH. unfold is_byte in Hb. rewrite Z.mod_small by lia. reflexivity.
Qed.

Lemma skipn_firstn_nil {X} (l : list X) k : skipn (length l) (firstn k l) = [].
Proof. apply skipn_all2. rewrite firstn_length. lia. Qed.

Lemma last_poll_skip h i : Forall (fun x => h_who x <> i) h -> forall acc,
  fold_left (fun acc x => if Nat.eqb (h_who x) i then Some (h_now x) else acc) h acc = acc.
Proof.
  induction 1 as [|x l Hx _ IH]; intros acc; [reflexivity|]. cbn [fold_left].
  destruct (Nat.eqb_spec (h_who x) i) as [C|_]; [contradiction|]. apply IH.
Qed.

Lemma existsb_false {X} (g : X -> bool) l : (forall x, In x l -> g x = false) -> existsb g l = false.
Proof.
  induction l as [|x tl IH]; intros H; [reflexivity|]. cbn [existsb].
  rewrite (H x (or_introl eq_refl)), IH; [reflexivity|]. intros y Hy. apply H. right. exact Hy.
Qed.

Lemma ideal_delivers_rest rate (h0 h1 : history) (ia ib : nat) (t0 tp t1 : Z) (w : bytes) :
  ia <> ib -> all_bytes w ->
  last_poll (h0 ++ mkH ia t0 (Some w) :: h1) ib = Some tp ->
  Forall (fun x => h_tx x = None) h1 ->
  bytes_by rate t0 (length w) t1 = length w ->
  (forall x w', In x h0 -> h_who x <> ib -> h_tx x = Some w' -> bytes_by rate (h_now x) (length w') tp = length w') ->
  (forall x w', In x h0 -> h_who x = ib -> h_tx x = Some w' -> tx_end rate (h_now x) (length w') <= t1) ->
  ideal_medium rate (h0 ++ mkH ia t0 (Some w) :: h1) ib t1 = (skipn (bytes_by rate t0 (length w) tp) w, false).
Proof.
  intros Hne Hw Hlp Hh1 H1 Hdel Hidle. rewrite Forall_forall in Hh1. unfold ideal_medium. rewrite Hlp.
  rewrite flat_map_app, existsb_app. cbn [flat_map existsb h_tx h_who h_now].
  destruct (Nat.eqb_spec ia ib) as [C|_]; [contradiction|]. rewrite H1, firstn_all. cbn [andb orb].
  (* nothing new from h0 (all delivered by tp) nor from h1 (no transmissions); ib's transmitter is idle *)
  rewrite (flat_map_nil _ h0), (existsb_false _ h0), (flat_map_nil _ h1), (existsb_false _ h1).
  - cbn [app orb]. rewrite app_nil_r, map_mod_bytes; [reflexivity|].
    unfold all_bytes in *. rewrite <- (firstn_skipn (bytes_by rate t0 (length w) tp) w) in Hw. apply Forall_app in Hw. tauto.
  - intros x Hin. rewrite (Hh1 x Hin). reflexivity.
  - intros x Hin. rewrite (Hh1 x Hin). reflexivity.
  - intros x Hin. destruct (h_tx x) as [w0|] eqn:Ex; [|reflexivity]. destruct (Nat.eqb_spec (h_who x) ib) as [He|_]; [|reflexivity].
    cbn [andb]. apply Z.ltb_ge. exact (Hidle x w0 Hin He Ex).
  - intros x Hin. destruct (h_tx x) as [w0|] eqn:Ex; [|reflexivity]. destruct (Nat.eqb_spec (h_who x) ib) as [_|Hn]; [reflexivity|].
    rewrite (Hdel x w0 Hin Hn Ex). apply skipn_firstn_nil.
Qed.

Section Handover.
Variable A : Type.
Variable ops : app_ops A.
Hypothesis Happs : apps_total A ops.
Variable rate : Z.

Theorem handover_step_partial (s : sys A) (ia ib : nat) (sta stb : station A) (h0 h1 : history) (t0 tp t1 : Z)
    (nps : option Z) (cc : Z) (s' : sys A) (r : res unit) :
  let fa := st_f sta in let fb := st_f stb in
  ia <> ib -> nth_error (sys_st s) ia = Some sta -> nth_error (sys_st s) ib = Some stb ->
  (* the last transmission on the medium: ia's token telegram to ib, handed to its PHY at t0; since then
     stations have polled (h1) but nobody has transmitted *)
  sys_hist s = h0 ++ mkH ia t0 (Some (encode_token (ts fb) (ts fa))) :: h1 -> Forall (fun x => h_tx x = None) h1 ->
  kind_of (f_state fa) = KCheckTokenPass -> Rep (length (st_apps sta)) fa ->
  (* ib idles in the ring, ia is its registered predecessor, its receive buffer holds the bytes of the token
     telegram that had arrived at its previous poll (at tp; none if that was before the first byte) *)
  Rep (length (st_apps stb)) fb -> f_conn fb = ConnOnline -> f_state fb = ActiveIdle None nps cc ->
  r_ps (f_ring fb) = ts fa -> ts fa <> ts fb ->
  st_buf stb = firstn (bytes_by rate t0 3 tp) (encode_token (ts fb) (ts fa)) -> (f_pending fb < 3)%nat -> (forall l, f_lba fb = Some l -> l < t1) -> time_ok t1 ->
  (* the medium: earlier transmissions were completely delivered to ib by its previous poll (at tp), all
     three bytes of the token have arrived at t1, ib's own transmitter is idle at t1 *)
  last_poll (sys_hist s) ib = Some tp -> bytes_by rate t0 3 t1 = 3%nat ->
  (forall x w', In x h0 -> h_who x <> ib -> h_tx x = Some w' -> bytes_by rate (h_now x) (length w') tp = length w') ->
  (forall x w', In x h0 -> h_who x = ib -> h_tx x = Some w' -> tx_end rate (h_now x) (length w') <= t1) ->
  multi_step A ops (ideal_medium rate) s (ib, ActPoll t1) = (s', r) ->
  r = Ok tt /\
  nth_error (sys_st s') ia = Some sta /\ have_token (f_state (st_f sta)) = false /\
  exists stb', nth_error (sys_st s') ib = Some stb' /\
    f_state (st_f stb') = UseToken t1 None false /\ have_token (f_state (st_f stb')) = true /\
    st_buf stb' = [] /\ sys_hist s' = sys_hist s ++ [mkH ib t1 None] /\
    exists f0, In (SPoll t1 false (skipn (bytes_by rate t0 3 tp) (encode_token (ts fb) (ts fa))) (encode_token (ts fb) (ts fa)) fb f0 (mkPhyOut None []) []) (st_log stb').
Proof.
  intros fa fb Hne Ha Hb Hh Hq1 Hka Ra Rb Hc Hst Hps Hts Hbuf Hpend Hlba Ht1 Hlp H1 Hdel Hidle E.
  assert (Hba : is_byte (ts fa)) by (destruct (bv_ranges _ (rep_p _ _ Ra)) as (X & _); unfold ts, is_byte; lia).
  assert (Hbb : is_byte (ts fb)) by (destruct (bv_ranges _ (rep_p _ _ Rb)) as (X & _); unfold ts, is_byte; lia).
  assert (Hw : all_bytes (encode_token (ts fb) (ts fa))).
  { unfold encode_token. constructor; [unfold is_byte, SD4; lia|]. constructor; [exact Hbb|]. constructor; [exact Hba|constructor]. }
  rewrite Hh in Hlp.
  pose proof (ideal_delivers_rest rate h0 h1 ia ib t0 tp t1 _ Hne Hw Hlp Hq1 H1 Hdel Hidle) as Hm.
  unfold multi_step in E. rewrite Hb in E. unfold station_step in E. rewrite Hh, Hm, Hbuf in E.
  change (length (encode_token (ts fb) (ts fa))) with 3%nat in E. rewrite firstn_skipn in E.
  destruct (poll_rep_step A ops Happs fb t1 (mkPhyIn false (encode_token (ts fb) (ts fa))) (st_apps stb) Rb Ht1 Hw)
    as (f' & o & apps' & c & Ep & _ & _).
  fold fb in E. rewrite Ep in E. injection E as <- <-.
  assert (Hto : 0 < token_lost_timeout (f_p fb)) by (destruct (bv_timeouts _ (rep_p _ _ Rb)) as (_ & X); exact X).
  pose proof Ep as Ep'.
  apply (ai_single_poll A ops) with (nps := nps) (cc := cc) (t := TToken (ts fb) (ts fa)) in Ep'; try assumption; try reflexivity.
  destruct Ep' as [fm [g1 [w0 [w1 [Hsm [Hrm [Hpm [Hcm [Hh1 [Hs1 [Hr1 [Hp1 [Hc1 [Hl1 [Hpe1 [-> [-> ->]]]]]]]]]]]]]]]]].
  assert (Htsm : ts fm = ts fb) by (unfold ts; rewrite Hpm; reflexivity).
  rewrite <- Htsm in Hh1.
  destruct (handle_telegram_accept_iff A fm w0 t1 None nps cc (ts fa) g1 w1) as [Hacc _];
    [rewrite Hsm; exact Hst|rewrite Htsm; exact Hts|exact Hh1|].
  specialize (Hacc (or_introl (eq_sym (eq_trans (f_equal r_ps Hrm) Hps)))).
  split; [reflexivity|]. cbn [sys_st sys_hist].
  split; [rewrite (nth_error_replace_nth_neq _ _ _ _ (not_eq_sym Hne)); exact Ha|].
  split; [unfold have_token; fold fa; rewrite Hka; reflexivity|].
  eexists. split; [exact (nth_error_replace_nth_eq _ _ _ _ Hb)|]. cbn [st_f st_buf tx rx_left].
  rewrite Hs1, Hacc. repeat split; try reflexivity.
  - rewrite Hh. reflexivity.
  - exists f'. cbn [st_log]. apply in_or_app. right. left. reflexivity.
Qed.

End Handover.

(* non-vacuity: the two-station example run of Model/Multi.v reaches, after 163 polls, a state that
   satisfies every hypothesis of handover_step_partial - station 1 (index 0) passed the token to station
   2 (index 1) at t0 = 6440; index 1 polled at tp = 6480 and found the first byte; index 0 polled at 6520;
   the poll of index 1 at t1 = 6560 finds the telegram complete. *)

Definition delivered_b (rate : Z) (ib : nat) (tp : Z) (h0 : history) : bool :=
  forallb (fun x => match h_tx x with
                    | Some w' => Nat.eqb (h_who x) ib || Nat.eqb (bytes_by rate (h_now x) (length w') tp) (length w')
                    | None => true
                    end) h0.
Definition idle_b (rate : Z) (ib : nat) (t1 : Z) (h0 : history) : bool :=
  forallb (fun x => match h_tx x with
                    | Some w' => negb (Nat.eqb (h_who x) ib) || (tx_end rate (h_now x) (length w') <=? t1)
                    | None => true
                    end) h0.

Lemma delivered_b_sound rate ib tp h0 : delivered_b rate ib tp h0 = true ->
  forall x w', In x h0 -> h_who x <> ib -> h_tx x = Some w' -> bytes_by rate (h_now x) (length w') tp = length w'.
Proof.
  unfold delivered_b. rewrite forallb_forall. intros H x w' Hin Hne Ex. specialize (H x Hin). rewrite Ex in H.
  destruct (Nat.eqb_spec (h_who x) ib) as [C|_]; [contradiction|]. cbn [orb] in H. apply Nat.eqb_eq. exact H.
Qed.

Lemma idle_b_sound rate ib t1 h0 : idle_b rate ib t1 h0 = true ->
  forall x w', In x h0 -> h_who x = ib -> h_tx x = Some w' -> tx_end rate (h_now x) (length w') <= t1.
Proof.
  unfold idle_b. rewrite forallb_forall. intros H x w' Hin He Ex. specialize (H x Hin). rewrite Ex in H.
  destruct (Nat.eqb_spec (h_who x) ib) as [_|C]; [|contradiction]. cbn [negb orb] in H. apply Z.leb_le. exact H.
Qed.

Definition ex2_s163 : sys unit := fst (ex2_run 163).

Lemma ex2_handover_hypotheses :
  exists sta stb h0 h1,
    let fa := st_f sta in let fb := st_f stb in
    nth_error (sys_st ex2_s163) 0 = Some sta /\ nth_error (sys_st ex2_s163) 1 = Some stb /\
    sys_hist ex2_s163 = h0 ++ mkH 0 6440 (Some (encode_token (ts fb) (ts fa))) :: h1 /\
    Forall (fun x => h_tx x = None) h1 /\
    kind_of (f_state fa) = KCheckTokenPass /\ Rep (length (st_apps sta)) fa /\
    Rep (length (st_apps stb)) fb /\ f_conn fb = ConnOnline /\ f_state fb = ActiveIdle None None 0 /\
    r_ps (f_ring fb) = ts fa /\ ts fa <> ts fb /\
    st_buf stb = firstn (bytes_by 500000 6440 3 6480) (encode_token (ts fb) (ts fa)) /\ st_buf stb = [220] /\
    (f_pending fb < 3)%nat /\ (forall l, f_lba fb = Some l -> l < 6560) /\ time_ok 6560 /\
    last_poll (sys_hist ex2_s163) 1 = Some 6480 /\ bytes_by 500000 6440 3 6560 = 3%nat /\
    (forall x w', In x h0 -> h_who x <> 1%nat -> h_tx x = Some w' -> bytes_by 500000 (h_now x) (length w') 6480 = length w') /\
    (forall x w', In x h0 -> h_who x = 1%nat -> h_tx x = Some w' -> tx_end 500000 (h_now x) (length w') <= 6560).
Proof.
  destruct ex2_hypotheses as (Hv & _ & Ha & HM).
  assert (Hs : sched_time_ok (ex2_schedule 163)) by (apply (sched_ok_time_ok _ (fun _ => 0)), sched_okb_sound; vm_compute; reflexivity).
  destruct (multi_run_never_panics unit unit_app_ops (ideal_medium 500000) HM Ha ex2_cfg (ex2_schedule 163) Hv Hs)
    as (s0 & s' & E0 & E & HR).
  assert (Hs' : s' = ex2_s163) by (unfold ex2_s163, ex2_run; rewrite E0, E; reflexivity). subst s'.
  (* The run is evaluated once, to the fields the statement mentions.  The stations stay variables: their
     logs hold the state before and after each of the 163 calls, and terms of that size in a goal make
     every later step slow. *)
  eassert (Eo : (map (fun st => (st_f st, st_apps st, st_buf st)) (sys_st ex2_s163), sys_hist ex2_s163) = _)
    by (vm_compute; reflexivity).
  apply pair_equal_spec in Eo. destruct Eo as [Est Eh]. revert HR Est.
  destruct (sys_st ex2_s163) as [|sta [|stb [|]]]; cbn [map]; intros HR Est; try discriminate Est.
  pose proof (HR 0%nat _ eq_refl) as Ra. pose proof (HR 1%nat _ eq_refl) as Rb. clear HR.
  injection Est as Efa _ _ Efb _ Ebb.
  exists sta, stb, (firstn 160 (sys_hist ex2_s163)), (skipn 161 (sys_hist ex2_s163)). cbv zeta.
  split; [reflexivity|]. split; [reflexivity|].
  split; [rewrite Eh, Efa, Efb; reflexivity|]. split; [rewrite Eh; vm_compute; repeat constructor|].
  split; [rewrite Efa; reflexivity|]. split; [exact Ra|]. split; [exact Rb|]. clear Ra Rb.
  split; [rewrite Efb; reflexivity|]. split; [rewrite Efb; reflexivity|]. split; [rewrite Efa, Efb; reflexivity|].
  split; [rewrite Efa, Efb; discriminate|]. split; [rewrite Ebb, Efa, Efb; reflexivity|]. split; [exact Ebb|].
  split; [rewrite Efb; cbn; lia|]. split; [rewrite Efb; intros l Hl; injection Hl as <-; lia|].
  split; [unfold time_ok; lia|]. split; [rewrite Eh; reflexivity|]. split; [reflexivity|]. rewrite Eh. split.
  - apply delivered_b_sound. vm_compute. reflexivity.
  - apply idle_b_sound. vm_compute. reflexivity.
Qed.
