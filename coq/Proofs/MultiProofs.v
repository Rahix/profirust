(* The composed N-station model (Model/Multi.v): the single-station guarantees hold of every station of
   the composed system, for every medium (section variable M, an arbitrary function), every number of
   stations and every schedule: (a) multi_run_never_panics (C05); (b) every station's transcript is a
   single-station model transcript of admissible inputs (multi_run_station_transcripts, _inputs_ok);
   (c) FdlOracle.monitor (all its rules) is silent on every station (multi_monitors_silent); (d) the
   station-local halves of C01 / C13 / C06 per poll record and station history.  Idea: stations interact
   only through the medium's answers, so a per-station invariant kept by every step is an invariant of
   the system (multi_run_inv).  In Section Composed the `Hypothesis` lines HM, Happs, Hdata stand in
   mid-section and apply to everything after them. *)
From Coq Require Import Arith.
From PB Require Import Common Tables FdlTables Telegram Phy TokenRing Params Fdl FdlOracle FdlProofs FdlStepProofs.
From PB Require Import C05Proofs C01Proofs C06Proofs C13Proofs C15Proofs C13Visits.
From PB Require Import FdlOracleSound1 FdlOracleSound2 FdlOracleSound3 FdlOracleSound5 FdlOracleSound11 FdlOracleSoundAll.
From PB Require Import C11Liveness C12OracleSound C15Liveness.
From PB Require Import Multi.

Lemma nth_error_replace_nth_eq {X} (l : list X) : forall i x y,
  nth_error l i = Some y -> nth_error (replace_nth l i x) i = Some x.
Proof. induction l as [|h t IH]; intros [|i] x y H; cbn in *; try discriminate; [reflexivity|]. eapply IH; eassumption. Qed.

Lemma nth_error_replace_nth_neq {X} (l : list X) : forall i j x,
  i <> j -> nth_error (replace_nth l i x) j = nth_error l j.
Proof.
  induction l as [|h t IH]; intros [|i] [|j] x H; cbn; try reflexivity; try congruence.
  apply IH. congruence.
Qed.

(* the model's own copies of view_of / poll_event are the ones of the soundness proofs *)
Lemma mview_of_eq f : mview_of f = view_of f. Proof. reflexivity. Qed.
Lemma mpoll_event_eq now busy rxb f' o calls : mpoll_event now busy rxb f' o calls = poll_event now busy rxb f' o calls.
Proof. reflexivity. Qed.

Definition ins_of_rec (r : srec) : minput :=
  match r with
  | SApi a _ _ => InApi a
  | SPoll now busy nb _ _ _ _ _ => InPoll now busy nb
  | SPanicApi a _ => InApi a
  | SPanicPoll now busy nb => InPoll now busy nb
  end.
Definition station_inputs {A : Type} (st : station A) : list minput := map ins_of_rec (st_log st).

Definition medium_bytes (M : medium) : Prop := forall h i now, all_bytes (fst (M h i now)).

Definition poll_time_ok (it : sitem) : Prop := match snd it with ActPoll now => time_ok now | _ => True end.
Definition sched_time_ok (sc : schedule) : Prop := Forall poll_time_ok sc.

Definition set_last (last : nat -> Z) (i : nat) (now : Z) : nat -> Z := fun j => if Nat.eqb j i then now else last j.

(* per station: poll times in [0, 2^62), positive and strictly increasing.  No relation between the
   clocks of different stations is asked for. *)
Fixpoint sched_ok (last : nat -> Z) (sc : schedule) : Prop :=
  match sc with
  | [] => True
  | (i, ActPoll now) :: tl => last i < now /\ time_ok now /\ sched_ok (set_last last i now) tl
  | _ :: tl => sched_ok last tl
  end.

Lemma sched_ok_time_ok sc : forall last, sched_ok last sc -> sched_time_ok sc.
Proof.
  induction sc as [|[i a] tl IH]; intros last H; [constructor|]. destruct a as [| |now]; cbn [sched_ok] in H.
  - constructor; [exact I|eapply IH; eassumption].
  - constructor; [exact I|eapply IH; eassumption].
  - destruct H as (_ & Ht & H). constructor; [exact Ht|eapply IH; eassumption].
Qed.

(* the generic induction over a schedule: stations only interact through the medium's answers,
   so an invariant of single stations that every step preserves is an invariant of the system   *)

Section Generic.
Variable A : Type.
Variable ops : app_ops A.
Variable M : medium.
Variable X : Type.                                   (* what the invariant knows about the schedule so far *)
Variable upd : X -> sitem -> X.
Variable G : X -> sitem -> Prop.                      (* guard on the next item *)
Variable I : X -> nat -> station A -> Prop.           (* invariant while no call has panicked *)
Variable F : nat -> station A -> Prop.                (* what holds of every station at the end, panic or not *)

Fixpoint guards (x : X) (sc : schedule) : Prop :=
  match sc with [] => True | it :: tl => G x it /\ guards (upd x it) tl end.

Definition all_st (P : nat -> station A -> Prop) (s : sys A) : Prop :=
  forall i st, nth_error (sys_st s) i = Some st -> P i st.

Hypothesis HIF : forall x i st, I x i st -> F i st.
Hypothesis Hstep : forall x i a h st st' hr r, G x (i, a) -> I x i st ->
  station_step A ops M h i st a = (st', hr, r) -> F i st' /\ (r = Ok tt -> I (upd x (i, a)) i st').
Hypothesis Hframe : forall x i a j st, j <> i -> I x j st -> I (upd x (i, a)) j st.

Lemma multi_step_inv x s it s' r : G x it -> all_st (I x) s -> multi_step A ops M s it = (s', r) ->
  all_st F s' /\ (r = Ok tt -> all_st (I (upd x it)) s').
Proof.
  intros Hg Hi E. destruct it as [i a]. unfold multi_step in E.
  destruct (nth_error (sys_st s) i) as [st|] eqn:En.
  - destruct (station_step A ops M (sys_hist s) i st a) as [[st' hr] r0] eqn:Es. injection E as <- <-.
    destruct (Hstep _ _ _ _ _ _ _ _ Hg (Hi _ _ En) Es) as (Hf & Hok). split.
    + intros j stj Hj. cbn [sys_st] in Hj. destruct (Nat.eq_dec i j) as [<-|Hne].
      * rewrite (nth_error_replace_nth_eq _ _ _ _ En) in Hj. injection Hj as <-. exact Hf.
      * rewrite (nth_error_replace_nth_neq _ _ _ _ Hne) in Hj. eapply HIF. apply Hi. exact Hj.
    + intros Hr j stj Hj. cbn [sys_st] in Hj. destruct (Nat.eq_dec i j) as [<-|Hne].
      * rewrite (nth_error_replace_nth_eq _ _ _ _ En) in Hj. injection Hj as <-. exact (Hok Hr).
      * rewrite (nth_error_replace_nth_neq _ _ _ _ Hne) in Hj. apply Hframe; [congruence|]. apply Hi. exact Hj.
  - injection E as <- <-. split.
    + intros j stj Hj. eapply HIF. apply Hi. exact Hj.
    + intros _ j stj Hj. apply Hframe; [|apply Hi; exact Hj]. intros ->. rewrite En in Hj. discriminate Hj.
Qed.

Lemma multi_run_inv sc : forall x s s' r, guards x sc -> all_st (I x) s -> multi_run A ops M s sc = (s', r) ->
  all_st F s' /\ (r = Ok tt -> all_st (I (fold_left upd sc x)) s').
Proof.
  induction sc as [|it tl IH]; intros x s s' r Hg Hi E; cbn [multi_run guards fold_left] in *.
  - injection E as <- <-. split; [intros j stj Hj; eapply HIF; apply Hi; exact Hj|intros _; exact Hi].
  - destruct Hg as (Hg & Hgt). destruct (multi_step A ops M s it) as [s1 r1] eqn:E1.
    destruct (multi_step_inv _ _ _ _ _ Hg Hi E1) as (Hf1 & Hi1).
    destruct r1 as [[]| |].
    + eapply IH; [exact Hgt|exact (Hi1 eq_refl)|exact E].
    + injection E as <- <-. split; [exact Hf1|discriminate].
    + injection E as <- <-. split; [exact Hf1|discriminate].
Qed.

(* progress: if moreover every guarded step from the invariant returns, the run returns *)
Hypothesis Hprog : forall x i a h st st' hr r, G x (i, a) -> I x i st ->
  station_step A ops M h i st a = (st', hr, r) -> r = Ok tt.

Lemma multi_run_progress sc : forall x s s' r, guards x sc -> all_st (I x) s -> multi_run A ops M s sc = (s', r) ->
  r = Ok tt.
Proof.
  induction sc as [|it tl IH]; intros x s s' r Hg Hi E; cbn [multi_run guards] in *.
  - injection E as _ <-. reflexivity.
  - destruct Hg as (Hg & Hgt). destruct (multi_step A ops M s it) as [s1 r1] eqn:E1.
    destruct (multi_step_inv _ _ _ _ _ Hg Hi E1) as (_ & Hi1).
    assert (Hr1 : r1 = Ok tt).
    { destruct it as [i a]. unfold multi_step in E1. destruct (nth_error (sys_st s) i) as [st|] eqn:En.
      - destruct (station_step A ops M (sys_hist s) i st a) as [[st' hr] r0] eqn:Es. injection E1 as _ <-.
        eapply Hprog; [exact Hg|apply Hi; exact En|exact Es].
      - injection E1 as _ <-. reflexivity. }
    subst r1. eapply IH; [exact Hgt|exact (Hi1 eq_refl)|exact E].
Qed.

End Generic.

(* the same for invariants that need to know nothing of the schedule so far *)
Section Stateless.
Variable A : Type.
Variable ops : app_ops A.
Variable M : medium.
Variable G : sitem -> Prop.
Variable I : nat -> station A -> Prop.

Lemma guards_Forall sc : Forall G sc -> guards unit (fun _ _ => tt) (fun _ => G) tt sc.
Proof. induction 1; split; assumption. Qed.

Lemma multi_run_inv0 (F : nat -> station A -> Prop) :
  (forall i st, I i st -> F i st) ->
  (forall i a h st st' hr r, G (i, a) -> I i st -> station_step A ops M h i st a = (st', hr, r) ->
     F i st' /\ (r = Ok tt -> I i st')) ->
  forall sc s s' r, Forall G sc -> all_st A I s -> multi_run A ops M s sc = (s', r) ->
  all_st A F s' /\ (r = Ok tt -> all_st A I s').
Proof.
  intros HIF Hstep sc s s' r Hg Hi E.
  exact (multi_run_inv A ops M unit (fun _ _ => tt) (fun _ => G) (fun _ => I) F (fun _ => HIF) (fun _ => Hstep)
           (fun _ _ _ _ _ _ H => H) sc tt s s' r (guards_Forall sc Hg) Hi E).
Qed.

Lemma multi_run_total :
  (forall i a h st st' hr r, G (i, a) -> I i st -> station_step A ops M h i st a = (st', hr, r) -> r = Ok tt /\ I i st') ->
  forall sc s s' r, Forall G sc -> all_st A I s -> multi_run A ops M s sc = (s', r) -> r = Ok tt /\ all_st A I s'.
Proof.
  intros Hstep sc s s' r Hg Hi E.
  assert (Hstep' : forall i a h st st' hr r, G (i, a) -> I i st -> station_step A ops M h i st a = (st', hr, r) ->
            I i st' /\ (r = Ok tt -> I i st')).
  { intros i a h st st' hr r0 Hgi Hii Es. destruct (Hstep _ _ _ _ _ _ _ Hgi Hii Es) as (_ & H). split; [exact H|intros _; exact H]. }
  split; [|exact (proj1 (multi_run_inv0 I (fun _ _ H => H) Hstep' sc s s' r Hg Hi E))].
  exact (multi_run_progress A ops M unit (fun _ _ => tt) (fun _ => G) (fun _ => I) I (fun _ _ _ H => H) (fun _ => Hstep')
           (fun _ _ _ _ _ _ H => H) (fun _ i a h st st' hr r0 Hgi Hii Es => proj1 (Hstep i a h st st' hr r0 Hgi Hii Es))
           sc tt s s' r (guards_Forall sc Hg) Hi E).
Qed.

End Stateless.

Section Composed.
Variable A : Type.
Variable ops : app_ops A.
Variable M : medium.
Notation station := (station A).
Notation sys := (sys A).
Notation station_step := (station_step A ops M).
Notation multi_run := (multi_run A ops M).

(* the single-station model run along a list of inputs (the state model_events threads) *)

Fixpoint run_ins (p : params) (f : fdl) (apps : list A) (buf : bytes) (ins : list minput) : res (fdl * list A * bytes) :=
  match ins with
  | [] => Ok (f, apps, buf)
  | InApi a :: tl => let* f' := api_result p a f in run_ins p f' apps buf tl
  | InPoll now busy nb :: tl =>
      let* (f', o, apps', _) := poll ops f now (mkPhyIn busy (buf ++ nb)) apps in
      run_ins p f' apps' (rx_left o) tl
  end.

Lemma run_ins_app p i1 i2 : forall f apps buf f' apps' buf',
  run_ins p f apps buf i1 = Ok (f', apps', buf') ->
  run_ins p f apps buf (i1 ++ i2) = run_ins p f' apps' buf' i2.
Proof.
  induction i1 as [|x tl IH]; intros f apps buf f' apps' buf' H; cbn [run_ins app] in *.
  - injection H as <- <- <-. reflexivity.
  - destruct x as [a|now busy nb].
    + destruct (api_result p a f) as [f1| |]; cbn [bind] in *; try discriminate H. eapply IH; exact H.
    + destruct (poll ops f now _ apps) as [[[[f1 o1] apps1] c1]| |]; cbn [bind] in *; try discriminate H. eapply IH; exact H.
Qed.

Lemma model_events_app p i1 i2 : forall f apps buf f' apps' buf',
  run_ins p f apps buf i1 = Ok (f', apps', buf') ->
  model_events A ops p f apps buf (i1 ++ i2) = model_events A ops p f apps buf i1 ++ model_events A ops p f' apps' buf' i2.
Proof.
  induction i1 as [|x tl IH]; intros f apps buf f' apps' buf' H; cbn [run_ins app model_events] in *.
  - injection H as <- <- <-. reflexivity.
  - destruct x as [a|now busy nb].
    + destruct (api_result p a f) as [f1| |]; cbn [bind] in *; try discriminate H.
      cbn [app]. f_equal. eapply IH; exact H.
    + destruct (poll ops f now _ apps) as [[[[f1 o1] apps1] c1]| |]; cbn [bind] in *; try discriminate H.
      cbn [app]. f_equal. eapply IH; exact H.
Qed.

Definition StOk (st : station) : Prop :=
  fdl_new (st_p st) = Ok (st_f0 st) /\
  flat_map events_of_rec (st_log st) =
    model_events A ops (st_p st) (st_f0 st) (st_apps0 st) [] (station_inputs st).

Definition StLive (st : station) : Prop :=
  run_ins (st_p st) (st_f0 st) (st_apps0 st) [] (station_inputs st) = Ok (st_f st, st_apps st, st_buf st).

Definition rec_poll (r : srec) : Prop :=
  match r with
  | SPoll now busy _ rxb f f' o calls =>
      exists apps apps', poll ops f now (mkPhyIn busy rxb) apps = Ok (f', o, apps', calls)
  | _ => True
  end.

Definition same_id (st st' : station) : Prop :=
  st_p st' = st_p st /\ st_f0 st' = st_f0 st /\ st_apps0 st' = st_apps0 st.

Lemma station_step_id h i st a st' hr r : station_step h i st a = (st', hr, r) -> same_id st st'.
Proof.
  unfold Multi.station_step, log. destruct a as [| |now].
  - destruct (set_online (st_f st)); intros H; injection H as <- _ _; repeat split.
  - destruct (set_offline (st_f st)); intros H; injection H as <- _ _; repeat split.
  - destruct (M h i now) as [nb busy].
    destruct (poll ops (st_f st) now _ (st_apps st)) as [[[[f' o] apps'] calls]| |]; intros H; injection H as <- _ _; repeat split.
Qed.

Definition act_api (a : action) : option api_call :=
  match a with ActOnline => Some ApiOnline | ActOffline => Some ApiOffline | ActPoll _ => None end.

Lemma station_step_log h i st a st' hr r : station_step h i st a = (st', hr, r) ->
  exists rec, st_log st' = st_log st ++ [rec] /\
    match rec with
    | SApi c f f' =>
        act_api a = Some c /\ f = st_f st /\ api_result (st_p st) c f = Ok f' /\ r = Ok tt /\
        st_f st' = f' /\ st_apps st' = st_apps st /\ st_buf st' = st_buf st
    | SPoll now busy nb rxb f f' o calls =>
        a = ActPoll now /\ (nb, busy) = M h i now /\ rxb = st_buf st ++ nb /\ f = st_f st /\
        poll ops f now (mkPhyIn busy rxb) (st_apps st) = Ok (f', o, st_apps st', calls) /\ r = Ok tt /\
        st_f st' = f' /\ st_buf st' = rx_left o
    | SPanicApi c f =>
        act_api a = Some c /\ f = st_f st /\ (let* x := api_result (st_p st) c f in Ok tt) = r /\ r <> Ok tt
    | SPanicPoll now busy nb =>
        a = ActPoll now /\ (nb, busy) = M h i now /\
        (let* x := poll ops (st_f st) now (mkPhyIn busy (st_buf st ++ nb)) (st_apps st) in Ok tt) = r /\ r <> Ok tt
    end.
Proof.
  unfold Multi.station_step, log. destruct a as [| |now].
  - destruct (set_online (st_f st)) as [f'| |] eqn:E; intros H; injection H as <- <- <-; eexists; (split; [reflexivity|]);
      cbn [st_f st_apps st_buf act_api api_result bind]; rewrite ?E; repeat split; discriminate.
  - destruct (set_offline (st_f st)) as [f'| |] eqn:E; intros H; injection H as <- <- <-; eexists; (split; [reflexivity|]);
      cbn [st_f st_apps st_buf act_api api_result bind]; rewrite ?E; repeat split; discriminate.
  - destruct (M h i now) as [nb busy] eqn:Em.
    destruct (poll ops (st_f st) now _ (st_apps st)) as [[[[f' o] apps'] calls]| |] eqn:E; intros H; injection H as <- <- <-;
      eexists; (split; [reflexivity|]); cbn [st_f st_apps st_buf bind]; rewrite ?E; repeat split; (discriminate || (symmetry; exact Em)).
Qed.

Lemma station_step_transcript h i st a st' hr r :
  StOk st -> StLive st -> station_step h i st a = (st', hr, r) ->
  StOk st' /\ (r = Ok tt -> StLive st').
Proof.
  intros (Hn & He) Hl E. destruct (station_step_id _ _ _ _ _ _ _ E) as (Ip & If0 & Ia0).
  destruct (station_step_log _ _ _ _ _ _ _ E) as (rec & Elog & Hrec).
  unfold StOk, StLive, station_inputs in *. rewrite Ip, If0, Ia0, Elog, map_app, flat_map_app.
  rewrite (model_events_app _ _ _ _ _ _ _ _ _ Hl), (run_ins_app _ _ _ _ _ _ _ _ _ Hl), <- He. cbn [map flat_map app].
  destruct rec as [c f f'|now busy nb rxb f f' o calls|c f|now busy nb]; cbn [ins_of_rec events_of_rec model_events run_ins].
  - destruct Hrec as (_ & -> & Ea & _ & <- & -> & ->). rewrite Ea. repeat split. exact Hn.
  - destruct Hrec as (_ & _ & -> & -> & Ea & _ & <- & ->). rewrite Ea. repeat split. exact Hn.
  - destruct Hrec as (_ & -> & Ea & Hr). split; [|contradiction]. split; [exact Hn|]. f_equal.
    destruct (api_result (st_p st) c (st_f st)); [contradiction Hr; symmetry; exact Ea|reflexivity|reflexivity].
  - destruct Hrec as (_ & _ & Ea & Hr). split; [|contradiction]. split; [exact Hn|]. f_equal.
    destruct (poll ops (st_f st) now _ (st_apps st)) as [[[[f1 o1] a1] c1]| |]; [contradiction Hr; symmetry; exact Ea|reflexivity|reflexivity].
Qed.

Lemma multi_init_stations_spec cfg : forall l, multi_init_stations A cfg = Ok l ->
  forall i st, nth_error l i = Some st ->
  exists p apps, nth_error cfg i = Some (p, apps) /\ fdl_new p = Ok (st_f0 st) /\
    st = mkStation A p (st_f0 st) apps (st_f0 st) apps [] [].
Proof.
  induction cfg as [|[p apps] tl IH]; intros l H i st Hi; cbn [multi_init_stations] in H.
  - injection H as <-. destruct i; discriminate Hi.
  - destruct (fdl_new p) as [f0| |] eqn:En; cbn [bind] in H; try discriminate H.
    destruct (multi_init_stations A tl) as [r| |]; cbn [bind] in H; try discriminate H. injection H as <-.
    destruct i as [|i]; cbn [nth_error] in *.
    + injection Hi as <-. exists p, apps. cbn [st_f0]. repeat split. exact En.
    + exact (IH r eq_refl i st Hi).
Qed.

Lemma multi_init_spec cfg s0 : multi_init A cfg = Ok s0 ->
  forall i st, nth_error (sys_st s0) i = Some st ->
  exists p apps, nth_error cfg i = Some (p, apps) /\ fdl_new p = Ok (st_f0 st) /\
    st = mkStation A p (st_f0 st) apps (st_f0 st) apps [] [].
Proof.
  unfold multi_init. destruct (multi_init_stations A cfg) as [l| |] eqn:E; cbn [bind]; try discriminate.
  intros H. injection H as <-. exact (multi_init_stations_spec _ _ E).
Qed.

Definition from_cfg (cfg : list (params * list A)) (i : nat) (st : station) : Prop :=
  nth_error cfg i = Some (st_p st, st_apps0 st).

(* Names below: I_x = invariant of one station while no call has panicked, F_x = what holds of it at the end
   (panic or not), G_x = guard on the next schedule item; x = b (transcripts), t (poll times), a (no panic),
   h (histories).  The first argument of I_x is what multi_run_inv threads along the schedule (unit: nothing). *)
Definition I_b (cfg : list (params * list A)) (_ : unit) (i : nat) (st : station) : Prop :=
  StOk st /\ StLive st /\ from_cfg cfg i st /\ Forall rec_poll (st_log st).
Definition F_b (cfg : list (params * list A)) (i : nat) (st : station) : Prop :=
  StOk st /\ from_cfg cfg i st /\ Forall rec_poll (st_log st).

Lemma I_b_init cfg s0 : multi_init A cfg = Ok s0 -> all_st A (I_b cfg tt) s0.
Proof.
  intros H0 i st Hi. destruct (multi_init_spec _ _ H0 _ _ Hi) as (p & apps & Hc & Hn & ->).
  unfold I_b, StOk, StLive, from_cfg, station_inputs. cbn. repeat split; try assumption. constructor.
Qed.

Lemma I_b_step cfg x i a h st st' hr r : True -> I_b cfg x i st -> station_step h i st a = (st', hr, r) ->
  F_b cfg i st' /\ (r = Ok tt -> I_b cfg tt i st').
Proof.
  intros _ (Ho & Hl & Hc & Hp) E. destruct (station_step_transcript _ _ _ _ _ _ _ Ho Hl E) as (Ho' & Hl').
  destruct (station_step_id _ _ _ _ _ _ _ E) as (Ip & If0 & Ia0).
  assert (Hc' : from_cfg cfg i st') by (unfold from_cfg in *; rewrite Ip, Ia0; exact Hc).
  assert (Hp' : Forall rec_poll (st_log st')).
  { destruct (station_step_log _ _ _ _ _ _ _ E) as (rec & -> & Hrec). apply Forall_app. split; [exact Hp|]. constructor; [|constructor].
    destruct rec; try exact I. destruct Hrec as (_ & _ & _ & _ & Ea & _). exists (st_apps st), (st_apps st'). exact Ea. }
  split; [exact (conj Ho' (conj Hc' Hp'))|]. intros Hr. exact (conj Ho' (conj (Hl' Hr) (conj Hc' Hp'))).
Qed.

Theorem multi_run_station_transcripts cfg s0 sc s' r :
  multi_init A cfg = Ok s0 -> multi_run s0 sc = (s', r) ->
  forall i st, nth_error (sys_st s') i = Some st ->
  nth_error cfg i = Some (st_p st, st_apps0 st) /\
  transcript st = model_transcript A ops (st_p st) (st_apps0 st) (station_inputs st) /\
  Forall rec_poll (st_log st) /\
  fdl_new (st_p st) = Ok (st_f0 st).
Proof.
  intros H0 E i st Hi.
  destruct (multi_run_inv0 A ops M (fun _ => True) (I_b cfg tt) (F_b cfg)
              ltac:(intros j stj (Ho & _ & Hc & Hp); exact (conj Ho (conj Hc Hp))) (fun i a => I_b_step cfg tt i a)
              sc s0 s' r ltac:(apply Forall_forall; intros; exact I) (I_b_init _ _ H0) E) as (Hf & _).
  destruct (Hf _ _ Hi) as ((Hn & He) & Hc & Hp). split; [exact Hc|]. split; [|split; [exact Hp|exact Hn]].
  unfold transcript, model_transcript. rewrite Hn, He. reflexivity.
Qed.

Lemma multi_poll_record cfg s0 sc s' r :
  multi_init A cfg = Ok s0 -> multi_run s0 sc = (s', r) ->
  forall i st, nth_error (sys_st s') i = Some st ->
  forall now busy nb rxb f f' o calls, In (SPoll now busy nb rxb f f' o calls) (st_log st) ->
  exists apps apps', poll ops f now (mkPhyIn busy rxb) apps = Ok (f', o, apps', calls).
Proof.
  intros E0 E i st Hst now busy nb rxb f f' o calls Hin.
  destruct (multi_run_station_transcripts _ _ _ _ _ E0 E _ _ Hst) as (_ & _ & Hp & _).
  rewrite Forall_forall in Hp. exact (Hp _ Hin).
Qed.

Fixpoint last_now (tl : Z) (ins : list minput) : Z :=
  match ins with
  | [] => tl
  | InApi _ :: r => last_now tl r
  | InPoll now _ _ :: r => last_now now r
  end.

Lemma ins_ok_app i1 i2 : forall tl, ins_ok tl i1 -> ins_ok (last_now tl i1) i2 -> ins_ok tl (i1 ++ i2).
Proof.
  induction i1 as [|x r IH]; intros tl H1 H2; cbn [app ins_ok last_now] in *; [exact H2|].
  destruct x as [a|now busy nb]; [apply IH; assumption|].
  destruct H1 as (Ha & Hb & Hc & Hd). split; [exact Ha|split; [exact Hb|split; [exact Hc|apply IH; assumption]]].
Qed.

Lemma last_now_app i1 i2 : forall tl, last_now tl (i1 ++ i2) = last_now (last_now tl i1) i2.
Proof. induction i1 as [|x r IH]; intros tl; cbn [app last_now]; [reflexivity|]. destruct x; apply IH. Qed.

Definition upd_last (last : nat -> Z) (it : sitem) : nat -> Z :=
  match snd it with ActPoll now => set_last last (fst it) now | _ => last end.
Definition G_t (last : nat -> Z) (it : sitem) : Prop :=
  match snd it with ActPoll now => last (fst it) < now /\ time_ok now | _ => True end.
Definition I_t (last : nat -> Z) (i : nat) (st : station) : Prop :=
  ins_ok 0 (station_inputs st) /\ last_now 0 (station_inputs st) = last i.
Definition F_t (_ : nat) (st : station) : Prop := ins_ok 0 (station_inputs st).

Lemma sched_ok_guards sc : forall last, sched_ok last sc -> guards (nat -> Z) upd_last G_t last sc.
Proof.
  induction sc as [|[i a] tl IH]; intros last H; [exact I|]. cbn [guards]. destruct a as [| |now]; cbn [sched_ok] in H.
  - split; [exact I|apply IH; exact H].
  - split; [exact I|apply IH; exact H].
  - destruct H as (H1 & H2 & H3). split; [split; assumption|apply IH; exact H3].
Qed.

Hypothesis HM : medium_bytes M.

Lemma I_t_step last i a h st st' hr r : G_t last (i, a) -> I_t last i st -> station_step h i st a = (st', hr, r) ->
  F_t i st' /\ (r = Ok tt -> I_t (upd_last last (i, a)) i st').
Proof.
  intros Hg (Hok & Hl) E. destruct (station_step_log _ _ _ _ _ _ _ E) as (rec & Elog & Hrec).
  unfold I_t, F_t, station_inputs in *. rewrite Elog, map_app, last_now_app, Hl. cbn [map].
  assert (Hone : ins_ok (last i) [ins_of_rec rec] /\ last_now (last i) [ins_of_rec rec] = upd_last last (i, a) i).
  { assert (Hpoll : forall now busy nb, a = ActPoll now -> (nb, busy) = M h i now ->
      ins_ok (last i) [InPoll now busy nb] /\ last_now (last i) [InPoll now busy nb] = upd_last last (i, a) i).
    { intros now busy nb -> Em. destruct Hg as (H1 & H2). pose proof (HM h i now) as Hb. rewrite <- Em in Hb.
      unfold upd_last, set_last. cbn [fst snd ins_ok last_now]. rewrite Nat.eqb_refl. tauto. }
    destruct rec as [c f f'|now busy nb rxb f f' o calls|c f|now busy nb]; cbn [ins_of_rec].
    - destruct Hrec as (Ha & _). destruct a; try discriminate Ha; split; [exact I|reflexivity|exact I|reflexivity].
    - destruct Hrec as (Ha & Em & _). exact (Hpoll _ _ _ Ha Em).
    - destruct Hrec as (Ha & _). destruct a; try discriminate Ha; split; [exact I|reflexivity|exact I|reflexivity].
    - destruct Hrec as (Ha & Em & _). exact (Hpoll _ _ _ Ha Em). }
  destruct Hone as (H1 & H2). split.
  - apply ins_ok_app; [exact Hok|rewrite Hl; exact H1].
  - intros _. split; [apply ins_ok_app; [exact Hok|rewrite Hl; exact H1]|exact H2].
Qed.

Theorem multi_run_station_inputs_ok cfg s0 sc s' r :
  multi_init A cfg = Ok s0 -> sched_ok (fun _ => 0) sc -> multi_run s0 sc = (s', r) ->
  forall i st, nth_error (sys_st s') i = Some st -> ins_ok 0 (station_inputs st).
Proof.
  intros H0 Hs E i st Hi.
  destruct (multi_run_inv A ops M (nat -> Z) upd_last G_t I_t F_t
              ltac:(intros x j stj (Ho & _); exact Ho)
              ltac:(intros xx ii aa hh stt stt' hrr rr; apply I_t_step)
              ltac:(intros x j a k stk Hne (H1 & H2); split; [exact H1|];
                    unfold upd_last, set_last; cbn [fst snd]; destruct a; try exact H2;
                    destruct (Nat.eqb_spec k j); [contradiction|exact H2])
              sc (fun _ => 0) s0 s' r) as (Hf & _).
  - apply sched_ok_guards. exact Hs.
  - intros j stj Hj. destruct (multi_init_spec _ _ H0 _ _ Hj) as (p & apps & _ & _ & ->). split; cbn; [exact I|reflexivity].
  - exact E.
  - exact (Hf _ _ Hi).
Qed.

Hypothesis Happs : apps_total A ops.

Definition I_a (_ : unit) (_ : nat) (st : station) : Prop :=
  Rep (length (st_apps0 st)) (st_f st) /\ length (st_apps st) = length (st_apps0 st) /\
  all_bytes (st_buf st) /\ f_p (st_f st) = st_p st /\
  Forall (fun r => match r with
                   | SPoll _ _ _ _ f _ _ _ => Rep (length (st_apps0 st)) f /\ f_p f = st_p st
                   | SPanicApi _ _ | SPanicPoll _ _ _ => False
                   | _ => True
                   end) (st_log st).

Lemma I_a_step x i a h st st' hr r : poll_time_ok (i, a) -> I_a x i st -> station_step h i st a = (st', hr, r) ->
  r = Ok tt /\ I_a tt i st'.
Proof.
  intros Hg (HR & Hlen & Hb & Hp & Hlog) E. destruct (station_step_id _ _ _ _ _ _ _ E) as (Ip & If0 & Ia0).
  unfold I_a. rewrite Ip, Ia0. revert E. unfold Multi.station_step, log. destruct a as [| |now].
  - destruct (Rep_set_online _ _ HR) as (f' & Ea & HR'). rewrite Ea. intros E. injection E as <- _ <-. cbn [st_f st_apps st_buf st_log].
    split; [reflexivity|]. split; [exact HR'|split; [exact Hlen|split; [exact Hb|split]]].
    + unfold set_online, set_state in Ea. injection Ea as <-. exact Hp.
    + apply Forall_app. split; [exact Hlog|]. constructor; [exact I|constructor].
  - destruct (Rep_set_offline _ _ HR) as (f' & Ea & HR'). rewrite Ea. intros E. injection E as <- _ <-. cbn [st_f st_apps st_buf st_log].
    split; [reflexivity|]. split; [exact HR'|split; [exact Hlen|split; [exact Hb|split]]].
    + unfold set_offline, set_state in Ea. destruct (fdl_new_fields _ _ Ea) as (_ & _ & _ & _ & Hp'). rewrite Hp'. exact Hp.
    + apply Forall_app. split; [exact Hlog|]. constructor; [exact I|constructor].
  - destruct (M h i now) as [nb busy] eqn:Em.
    assert (Hnb : all_bytes nb) by (pose proof (HM h i now) as Hx; rewrite Em in Hx; exact Hx).
    assert (Hrx : all_bytes (st_buf st ++ nb)) by (apply Forall_app; split; assumption).
    rewrite <- Hlen in HR.
    destruct (poll_rep_step A ops Happs (st_f st) now (mkPhyIn busy (st_buf st ++ nb)) (st_apps st) HR Hg Hrx) as (f' & o & apps' & c & Ea & HR' & Hlen').
    rewrite Ea. intros E. injection E as <- _ <-. cbn [st_f st_apps st_buf st_log].
    destruct (poll_bk A ops now _ _ _ _ _ _ _ Ea) as ((k & Ek) & _ & Hp' & _). cbn [rx] in Ek.
    split; [reflexivity|]. split; [|split; [|split; [|split]]].
    + rewrite <- Hlen. exact HR'.
    + congruence.
    + rewrite Ek. apply all_bytes_skipn. exact Hrx.
    + congruence.
    + apply Forall_app. split; [exact Hlog|]. constructor; [|constructor]. rewrite <- Hlen. split; assumption.
Qed.

Definition cfg_valid (cfg : list (params * list A)) : Prop := Forall (fun pa => builder_valid (fst pa)) cfg.

Lemma multi_init_total cfg : cfg_valid cfg -> exists s0, multi_init A cfg = Ok s0 /\ all_st A (I_a tt) s0.
Proof.
  intros Hv. assert (H : exists l, multi_init_stations A cfg = Ok l /\ forall i st, nth_error l i = Some st -> I_a tt i st).
  { induction Hv as [|[p apps] tl Hp _ IH]; [exists []; split; [reflexivity|intros [|i] st Hi; discriminate Hi]|].
    destruct IH as (l & El & Hl). cbn [fst] in Hp. destruct (fdl_new_rep (length apps) p Hp) as (f0 & En & HR & _ & _ & Hp0).
    cbn [multi_init_stations]. rewrite En, El. cbn [bind]. eexists. split; [reflexivity|].
    intros [|i] st Hi; cbn [nth_error] in Hi; [|exact (Hl _ _ Hi)]. injection Hi as <-.
    unfold I_a. cbn [st_f st_apps st_apps0 st_buf st_p st_log]. split; [exact HR|split; [reflexivity|split; [constructor|split; [exact Hp0|constructor]]]]. }
  destruct H as (l & El & Hl). exists (mkSys A l []). unfold multi_init. rewrite El. split; [reflexivity|exact Hl].
Qed.

Lemma multi_run_I_a cfg s0 sc s' r : cfg_valid cfg -> sched_time_ok sc ->
  multi_init A cfg = Ok s0 -> multi_run s0 sc = (s', r) -> r = Ok tt /\ all_st A (I_a tt) s'.
Proof.
  intros Hv Hs E0 E. destruct (multi_init_total _ Hv) as (s0' & E0' & H0). rewrite E0 in E0'. injection E0' as <-.
  exact (multi_run_total A ops M poll_time_ok (I_a tt) (fun i a => I_a_step tt i a) sc s0 s' r Hs H0 E).
Qed.

(* (a) For every medium that delivers octets, every number of stations with parameters the builder can
   produce and any number of total applications each, every schedule whose poll times are in [0, 2^62)
   (not even monotone, as in C05_no_panic): the system can be created and the composed run returns -
   no station reaches a panic site or exhausts a loop bound - and every station satisfies the
   representation invariant Rep of C05 afterwards. *)
Theorem multi_run_never_panics cfg sc : cfg_valid cfg -> sched_time_ok sc ->
  exists s0 s', multi_init A cfg = Ok s0 /\ multi_run s0 sc = (s', Ok tt) /\
    forall i st, nth_error (sys_st s') i = Some st -> Rep (length (st_apps st)) (st_f st).
Proof.
  intros Hv Hs. destruct (multi_init_total _ Hv) as (s0 & E0 & _). exists s0.
  destruct (multi_run s0 sc) as [s' r] eqn:E. exists s'.
  destruct (multi_run_I_a _ _ _ _ _ Hv Hs E0 E) as (-> & Hi). split; [exact E0|]. split; [reflexivity|].
  intros i st Hst. destruct (Hi i st Hst) as (HR & Hlen & _). rewrite Hlen. exact HR.
Qed.

Lemma multi_run_records_rep cfg s0 sc s' r : cfg_valid cfg -> sched_time_ok sc ->
  multi_init A cfg = Ok s0 -> multi_run s0 sc = (s', r) ->
  forall i st, nth_error (sys_st s') i = Some st ->
  forall now busy nb rxb f f' o calls, In (SPoll now busy nb rxb f f' o calls) (st_log st) ->
  Rep (length (st_apps0 st)) f /\ f_p f = st_p st.
Proof.
  intros Hv Hs E0 E i st Hst now busy nb rxb f f' o calls Hin.
  destruct (multi_run_I_a _ _ _ _ _ Hv Hs E0 E) as (_ & Hi). destruct (Hi _ _ Hst) as (_ & _ & _ & _ & Hlog).
  rewrite Forall_forall in Hlog. exact (Hlog _ Hin).
Qed.

Lemma cfg_valid_nth cfg i p apps : cfg_valid cfg -> nth_error cfg i = Some (p, apps) -> builder_valid p.
Proof. intros Hv Hn. unfold cfg_valid in Hv. rewrite Forall_forall in Hv. exact (Hv _ (nth_error_In _ _ Hn)). Qed.

(* The lifting step: under cfg_valid, sched_ok and medium_bytes, what holds of every single-station model transcript of
   admissible inputs and builder-valid parameters holds of every station of the composed run. *)
Lemma multi_station_model cfg s0 sc s' r :
  cfg_valid cfg -> sched_ok (fun _ => 0) sc -> multi_init A cfg = Ok s0 -> multi_run s0 sc = (s', r) ->
  forall i st, nth_error (sys_st s') i = Some st ->
  builder_valid (st_p st) /\ ins_ok 0 (station_inputs st) /\
  transcript st = model_transcript A ops (st_p st) (st_apps0 st) (station_inputs st).
Proof.
  intros Hv Hs E0 E i st Hst. destruct (multi_run_station_transcripts _ _ _ _ _ E0 E _ _ Hst) as (Hc & Ht & _).
  split; [exact (cfg_valid_nth _ _ _ _ Hv Hc)|]. split; [exact (multi_run_station_inputs_ok _ _ _ _ _ E0 Hs E _ _ Hst)|exact Ht].
Qed.

(* C01 and C05 need nothing of the applications beyond totality *)
Theorem multi_monitors_c01_c05 cfg s0 sc s' r :
  cfg_valid cfg -> sched_ok (fun _ => 0) sc ->
  multi_init A cfg = Ok s0 -> multi_run s0 sc = (s', r) ->
  forall i st, nth_error (sys_st s') i = Some st ->
  forall k rl, In (k, rl) (monitor (st_p st) (length (st_apps0 st)) (transcript st)) ->
  rule_prop rl <> PC01 /\ rule_prop rl <> PC05.
Proof.
  intros Hv Hs E0 E i st Hst k rl Hin.
  destruct (multi_station_model _ _ _ _ _ Hv Hs E0 E _ _ Hst) as (Hbv & Hok & Ht). rewrite Ht in Hin. split.
  - exact (c01_oracle_sound A ops (st_p st) Happs Hbv _ _ Hok _ _ Hin).
  - exact (c05_oracle_sound A ops (st_p st) Happs Hbv _ _ Hok _ _ Hin).
Qed.

Hypothesis Hdata : app_sends_data A ops.

(* every rule except those of C12 (which need app_sends_requests for the status-reply rules) *)
Theorem multi_monitors_but_c12 cfg s0 sc s' r :
  cfg_valid cfg -> sched_ok (fun _ => 0) sc ->
  multi_init A cfg = Ok s0 -> multi_run s0 sc = (s', r) ->
  forall i st, nth_error (sys_st s') i = Some st ->
  forall k rl, In (k, rl) (monitor (st_p st) (length (st_apps0 st)) (transcript st)) -> rule_prop rl = PC12.
Proof.
  intros Hv Hs E0 E i st Hst k rl Hin.
  destruct (multi_station_model _ _ _ _ _ Hv Hs E0 E _ _ Hst) as (Hbv & Hok & Ht). rewrite Ht in Hin.
  pose proof (c01_oracle_sound A ops (st_p st) Happs Hbv _ _ Hok _ _ Hin) as H01.
  pose proof (c05_oracle_sound A ops (st_p st) Happs Hbv _ _ Hok _ _ Hin) as H05.
  pose proof (c06_oracle_sound A ops (st_p st) Happs Hbv Hdata _ _ Hok _ _ Hin) as H06.
  pose proof (c11_oracle_sound A ops (st_p st) Happs Hbv Hdata _ _ Hok _ _ Hin) as H11.
  pose proof (c13_oracle_sound A ops (st_p st) Happs Hbv Hdata _ _ Hok _ _ Hin) as H13.
  pose proof (c15_oracle_sound A ops (st_p st) Happs Hbv Hdata _ _ Hok _ _ Hin) as H15.
  destruct (rule_prop rl); try reflexivity; contradiction.
Qed.

(* (c) FdlOracle.monitor is silent: every rule of C01 C05 C06 C11 C12 C13 C15 *)
Theorem multi_monitors_silent cfg s0 sc s' r :
  app_sends_requests A ops ->
  cfg_valid cfg -> sched_ok (fun _ => 0) sc ->
  multi_init A cfg = Ok s0 -> multi_run s0 sc = (s', r) ->
  forall i st, nth_error (sys_st s') i = Some st ->
  monitor (st_p st) (length (st_apps0 st)) (transcript st) = [].
Proof.
  intros Hreq Hv Hs E0 E i st Hst.
  destruct (monitor (st_p st) (length (st_apps0 st)) (transcript st)) as [|[k rl] l] eqn:Em; [reflexivity|]. exfalso.
  assert (Hin : In (k, rl) (monitor (st_p st) (length (st_apps0 st)) (transcript st))) by (rewrite Em; left; reflexivity).
  pose proof (multi_monitors_but_c12 _ _ _ _ _ Hv Hs E0 E _ _ Hst _ _ Hin) as H12.
  destruct (multi_station_model _ _ _ _ _ Hv Hs E0 E _ _ Hst) as (Hbv & Hok & Ht). rewrite Ht in Hin.
  exact (c12_oracle_sound A ops (st_p st) Happs Hbv Hdata _ _ Hreq Hok _ _ Hin H12).
Qed.

End Composed.

(* (d) the station-local halves of C01 / C13 / C06 in the composed system.
   The one-step theorems of Properties/C01.v, C06.v, C13.v quantify over ALL station states; every poll
   record of every station of a composed run is such a step (rec_poll), so they hold of every poll of the
   composed system without any hypothesis; where a theorem needs parameters the builder can produce
   the hypotheses of (a) give them.  The history theorems of C13 (visits) hold of every station's history. *)

Section ComposedD.
Variable A : Type.
Variable ops : app_ops A.
Variable M : medium.
Notation station := (station A).
Notation multi_run := (multi_run A ops M).

(* No hypotheses (any medium, any parameters, any applications, any schedule, panicking or not): in every
   poll in which a station hands something to its PHY, its PHY had reported "not busy", and the station's
   last_bus_activity - the latest RX growth / received telegram / predicted end of its own transmission it
   has recorded - was known and more than the synchronisation pause of 33 bit times old. *)
Theorem multi_c01_sync_pause cfg s0 sc s' r :
  multi_init A cfg = Ok s0 -> multi_run s0 sc = (s', r) ->
  forall i st, nth_error (sys_st s') i = Some st ->
  forall now busy nb rxb f f' o calls wire,
  In (SPoll now busy nb rxb f f' o calls) (st_log st) -> tx o = Some wire ->
  busy = false /\ exists l, f_lba f = Some l /\ l + p_bits_to_time (f_p f) sync_pause_bits < now.
Proof.
  intros E0 E i st Hst now busy nb rxb f f' o calls wire Hin Htx.
  destruct (multi_poll_record A ops M _ _ _ _ _ E0 E _ _ Hst _ _ _ _ _ _ _ _ Hin) as (apps & apps' & Ep).
  split.
  - destruct (poll_bk A ops now _ _ _ _ _ _ _ Ep) as (_ & _ & _ & L & _). rewrite Htx in L. cbn [tx_busy] in L. tauto.
  - exact (poll_tx_sync_pause A ops _ _ _ _ _ _ _ _ _ Ep Htx).
Qed.

(* With the hypotheses of (a): the state before a transmitting poll is one of those of C01_who_may_transmit
   (`may_transmit`: token-holding state, PassToken, CheckTokenPass after a silent slot time, a pending status
   request addressed to the station, or the claim after the station's own silence time-out), with the
   station's configured parameters. *)
Theorem multi_c01_who_may_transmit cfg s0 sc s' r :
  medium_bytes M -> apps_total A ops -> cfg_valid A cfg -> sched_time_ok sc ->
  multi_init A cfg = Ok s0 -> multi_run s0 sc = (s', r) ->
  forall i st, nth_error (sys_st s') i = Some st ->
  forall now busy nb rxb f f' o calls wire,
  In (SPoll now busy nb rxb f f' o calls) (st_log st) -> tx o = Some wire ->
  f_p f = st_p st /\ may_transmit f now.
Proof.
  intros HM Ha Hv Hs E0 E i st Hst now busy nb rxb f f' o calls wire Hin Htx.
  destruct (multi_poll_record A ops M _ _ _ _ _ E0 E _ _ Hst _ _ _ _ _ _ _ _ Hin) as (apps & apps' & Ep).
  destruct (multi_run_records_rep A ops M HM Ha _ _ _ _ _ Hv Hs E0 E _ _ Hst _ _ _ _ _ _ _ _ Hin) as (HR & Hfp).
  split; [exact Hfp|]. destruct (bv_timeouts _ (rep_p _ _ HR)) as (H1 & H2).
  exact (poll_who A ops _ _ _ _ _ _ _ _ _ Ep Htx H1 H2).
Qed.

(* No hypotheses: the transmit callbacks of every poll of every station are of one priority class; if there
   are any, either now < end_token_hold_time (normal round) or the hold time is over, only high-priority
   telegrams are asked for and the visit had not had a round yet (C13_hold_rule_poll). *)
Theorem multi_c13_hold_rule cfg s0 sc s' r :
  multi_init A cfg = Ok s0 -> multi_run s0 sc = (s', r) ->
  forall i st, nth_error (sys_st s') i = Some st ->
  forall now busy nb rxb f f' o calls,
  In (SPoll now busy nb rxb f f' o calls) (st_log st) ->
  exists hp, Forall (prio_of hp) calls /\
    (asks calls ->
     if hp then (exists tk fa, f_state f = UseToken tk fa false) /\ f_end_tht f' <= now
     else now < f_end_tht f').
Proof.
  intros E0 E i st Hst now busy nb rxb f f' o calls Hin.
  destruct (multi_poll_record A ops M _ _ _ _ _ E0 E _ _ Hst _ _ _ _ _ _ _ _ Hin) as (apps & apps' & Ep).
  exact (poll_hold_rule A ops _ _ _ _ _ _ _ _ Ep).
Qed.

(* the history of a station in the sense of Proofs/C15Proofs.v / C13Visits.v, read off its log *)
Definition ev_of_rec (r : srec) : C15Proofs.event A :=
  match r with
  | SApi ApiOffline _ _ => C15Proofs.EvOffline A
  | SPoll now busy _ rxb _ _ _ _ => C15Proofs.EvPoll A now (mkPhyIn busy rxb)
  | _ => C15Proofs.EvOnline A
  end.
Definition hitems_of_rec (r : srec) : list hitem :=
  match r with
  | SApi ApiOffline _ _ => [HReset]
  | SPoll now _ _ _ _ f' _ calls => map HCall calls ++ [HEnd now f']
  | _ => []
  end.
Definition station_events (st : station) : list (C15Proofs.event A) := map ev_of_rec (st_log st).
Definition station_hitems (st : station) : list hitem := flat_map hitems_of_rec (st_log st).

Lemma run_snoc evs e : forall f apps f1 apps1 h1 f2 apps2 h2,
  C15Proofs.run A ops f apps evs = Ok (f1, apps1, h1) -> C15Proofs.step A ops f1 apps1 e = Ok (f2, apps2, h2) ->
  C15Proofs.run A ops f apps (evs ++ [e]) = Ok (f2, apps2, h1 ++ h2).
Proof.
  induction evs as [|x tl IH]; intros f apps f1 apps1 h1 f2 apps2 h2 H1 H2; cbn [C15Proofs.run app] in *.
  - injection H1 as <- <- <-. rewrite H2. cbn [bind]. rewrite app_nil_r. reflexivity.
  - destruct (C15Proofs.step A ops f apps x) as [[[fa appsa] ha]| |]; cbn [bind] in *; try discriminate H1.
    destruct (C15Proofs.run A ops fa appsa tl) as [[[fb appsb] hb]| |] eqn:Eb; cbn [bind] in *; try discriminate H1.
    injection H1 as <- <- <-. rewrite (IH _ _ _ _ _ _ _ _ Eb H2). cbn [bind]. rewrite app_assoc. reflexivity.
Qed.

Definition I_h (_ : unit) (_ : nat) (st : station) : Prop :=
  C15Proofs.run A ops (st_f0 st) (st_apps0 st) (station_events st) = Ok (st_f st, st_apps st, station_hitems st).

Lemma I_h_step x i a h st st' hr r : True -> I_h x i st -> station_step A ops M h i st a = (st', hr, r) ->
  True /\ (r = Ok tt -> I_h tt i st').
Proof.
  intros _ Hi E. split; [exact I|]. intros ->.
  destruct (station_step_id A ops M _ _ _ _ _ _ _ E) as (Ip & If0 & Ia0).
  destruct (station_step_log A ops M _ _ _ _ _ _ _ E) as (rec & Elog & Hrec).
  unfold I_h, station_events, station_hitems in *. rewrite If0, Ia0, Elog, map_app, flat_map_app. cbn [map flat_map]. rewrite app_nil_r.
  eapply run_snoc; [exact Hi|].
  destruct rec as [c f f'|now busy nb rxb f f' o calls|c f|now busy nb]; try (exfalso; apply Hrec; reflexivity).
  - destruct Hrec as (Ha & -> & Ea & _ & <- & -> & _).
    destruct a; try discriminate Ha; injection Ha as <-; cbn [api_result] in Ea; cbn [ev_of_rec hitems_of_rec C15Proofs.step]; rewrite Ea; reflexivity.
  - destruct Hrec as (_ & _ & -> & -> & Ea & _ & <- & _). cbn [ev_of_rec hitems_of_rec C15Proofs.step]. rewrite Ea. reflexivity.
Qed.

Lemma mono_weaken (evs : list (C15Proofs.event A)) : forall tl tl', tl' <= tl -> mono tl evs -> mono tl' evs.
Proof.
  induction evs as [|e r IH]; intros tl tl' Hle H; [exact I|].
  destruct e as [now pin| | |g]; cbn [mono] in *; try (eapply IH; eassumption).
  destruct H as (H1 & H2). split; [lia|exact H2].
Qed.

Lemma ins_ok_mono lg : forall tl, ins_ok tl (map ins_of_rec lg) -> mono tl (map ev_of_rec lg).
Proof.
  induction lg as [|x r IH]; intros tl H; [exact I|]. cbn [map].
  destruct x as [[] f f'|now busy nb rxb f f' o calls|[] f|now busy nb]; cbn [ins_of_rec ev_of_rec ins_ok mono] in *;
    try (apply IH; exact H).
  - destruct H as (H1 & _ & _ & H2). split; [exact H1|apply IH; exact H2].
  - destruct H as (H1 & _ & _ & H2). apply (mono_weaken _ now tl); [lia|]. apply IH. exact H2.
Qed.

(* With per-station increasing poll times and a medium that delivers octets: in a run that returned, the
   history of every station (callbacks, state after each poll, re-creations) is a `station_history` of
   Proofs/C13Visits.v - the hypothesis of C13_rotation_bound_stations about each station. *)
Theorem multi_c13_station_history cfg s0 sc s' :
  medium_bytes M -> sched_ok (fun _ => 0) sc ->
  multi_init A cfg = Ok s0 -> multi_run s0 sc = (s', Ok tt) ->
  forall i st, nth_error (sys_st s') i = Some st ->
  C15Proofs.run A ops (st_f0 st) (st_apps0 st) (station_events st) = Ok (st_f st, st_apps st, station_hitems st) /\
  station_history (st_p st) (station_hitems st).
Proof.
  intros HM Hs E0 E i st Hst.
  destruct (multi_run_station_transcripts A ops M _ _ _ _ _ E0 E _ _ Hst) as (_ & _ & _ & Hn).
  pose proof (multi_run_station_inputs_ok A ops M HM _ _ _ _ _ E0 Hs E _ _ Hst) as Hok.
  assert (H0 : all_st A (I_h tt) s0).
  { intros j stj Hj. destruct (multi_init_spec A _ _ E0 _ _ Hj) as (p & apps & _ & _ & ->). reflexivity. }
  destruct (multi_run_inv0 A ops M (fun _ => True) (I_h tt) (fun _ _ => True) ltac:(intros; exact I) (fun i a => I_h_step tt i a)
              sc s0 s' (Ok tt) ltac:(apply Forall_forall; intros; exact I) H0 E) as (_ & Hi).
  specialize (Hi eq_refl i st Hst). split; [exact Hi|].
  exists A, ops, (st_f0 st), (st_apps0 st), (station_events st), (st_f st), (st_apps st).
  split; [exact Hn|]. split; [apply ins_ok_mono; exact Hok|exact Hi].
Qed.

(* ... hence (C13_station_visits_ok, C13_visits_linked) every token visit of every station of the composed
   system obeys the hold rule: previous token time < token time; every round of application calls lies
   after the arrival and is either a normal round before the deadline or the single high-priority-only round
   after it; the deadline is one number per visit and <= previous token time + TTR; consecutive visits are
   linked (the next visit's previous token time is this visit's token time, or 0 after a re-creation). *)
Theorem multi_c13_visits_ok cfg s0 sc s' :
  medium_bytes M -> cfg_valid A cfg -> sched_ok (fun _ => 0) sc ->
  multi_init A cfg = Ok s0 -> multi_run s0 sc = (s', Ok tt) ->
  forall i st, nth_error (sys_st s') i = Some st ->
  Forall (sv_ok (token_rotation_time (st_p st))) (visits_of (station_hitems st)) /\
  linked (visits_of (station_hitems st)).
Proof.
  intros HM Hv Hs E0 E i st Hst.
  destruct (multi_c13_station_history _ _ _ _ HM Hs E0 E _ _ Hst) as (Hrun & _).
  destruct (multi_run_station_transcripts A ops M _ _ _ _ _ E0 E _ _ Hst) as (_ & _ & _ & Hn).
  destruct (multi_station_model A ops M HM _ _ _ _ _ Hv Hs E0 E _ _ Hst) as (Hbv & Hok & _).
  destruct (bv_ranges _ Hbv) as (_ & _ & (Hsl & _) & _). pose proof (ins_ok_mono _ _ Hok) as Hm. split.
  - exact (station_visits_ok A ops _ _ _ _ _ _ _ Hsl Hn Hm Hrun).
  - exact (visits_linked A ops _ _ _ _ _ _ _ Hsl Hn Hm Hrun).
Qed.

(* With the hypotheses of (a): a poll takes a station into ClaimToken only if no new receive bytes arrived
   in that poll and the station's last recorded bus activity is at least its own time-out
   (6 + 2 * TS) * Tslot old (C06_claim_needs_silence). *)
Theorem multi_c06_claim_needs_silence cfg s0 sc s' r :
  medium_bytes M -> apps_total A ops -> cfg_valid A cfg -> sched_time_ok sc ->
  multi_init A cfg = Ok s0 -> multi_run s0 sc = (s', r) ->
  forall i st, nth_error (sys_st s') i = Some st ->
  forall now busy nb rxb f f' o calls,
  In (SPoll now busy nb rxb f f' o calls) (st_log st) ->
  kind_of (f_state f) <> KClaimToken -> kind_of (f_state f') = KClaimToken ->
  (length rxb <= f_pending f)%nat /\
  exists l, f_lba f = Some l /\ l < now /\ token_lost_timeout (st_p st) <= now - l.
Proof.
  intros HM Ha Hv Hs E0 E i st Hst now busy nb rxb f f' o calls Hin Hk Hk'.
  destruct (multi_poll_record A ops M _ _ _ _ _ E0 E _ _ Hst _ _ _ _ _ _ _ _ Hin) as (apps & apps' & Ep).
  destruct (multi_run_records_rep A ops M HM Ha _ _ _ _ _ Hv Hs E0 E _ _ Hst _ _ _ _ _ _ _ _ Hin) as (HR & Hfp).
  destruct (bv_timeouts _ (rep_p _ _ HR)) as (_ & H2). rewrite <- Hfp.
  exact (claim_needs_silence A ops _ _ _ _ _ _ _ _ H2 Hk Ep Hk').
Qed.

(* No hypotheses: a station that holds the token and waits for an answer and finds a complete telegram that
   is not this answer - e.g. ANY token telegram of another station - gives the token up in that poll:
   ActiveIdle, nothing transmitted, no application called, ring view unchanged (C06_backoff). *)
Theorem multi_c06_backoff cfg s0 sc s' r :
  multi_init A cfg = Ok s0 -> multi_run s0 sc = (s', r) ->
  forall i st, nth_error (sys_st s') i = Some st ->
  forall now busy nb rxb f f' o calls t n,
  In (SPoll now busy nb rxb f f' o calls) (st_log st) ->
  unexpected_for f t -> busy = false -> C11Proofs.predicted f now = false ->
  DecodeSpec.decode_spec rxb = Accept t n ->
  f_state f' = ActiveIdle None None 0 /\ o = mkPhyOut None (skipn n rxb) /\ calls = [] /\ f_ring f' = f_ring f.
Proof.
  intros E0 E i st Hst now busy nb rxb f f' o calls t n Hin Hu Hb Hpr Hd.
  destruct (multi_poll_record A ops M _ _ _ _ _ E0 E _ _ Hst _ _ _ _ _ _ _ _ Hin) as (apps & apps' & Ep).
  destruct (backoff A ops f now (mkPhyIn busy rxb) apps t n f' o apps' calls Hu Hb Hpr Hd Ep) as (H1 & H2 & H3 & _ & H5 & _). tauto.
Qed.

End ComposedD.

(* the hypotheses are satisfiable: the concrete medium delivers octets; the example schedule of
   Model/Multi.v is admissible *)

Lemma ideal_medium_bytes rate : medium_bytes (ideal_medium rate).
Proof.
  intros h i now. unfold ideal_medium. cbn [fst]. unfold all_bytes. rewrite Forall_forall. intros b Hb.
  apply in_map_iff in Hb. destruct Hb as (x & <- & _). unfold is_byte. apply Z.mod_pos_bound. lia.
Qed.

Fixpoint sched_okb (last : nat -> Z) (sc : schedule) : bool :=
  match sc with
  | [] => true
  | (i, ActPoll now) :: tl =>
      (last i <? now) && (0 <=? now) && (now <? 4611686018427387904) && sched_okb (set_last last i now) tl
  | _ :: tl => sched_okb last tl
  end.

Lemma sched_okb_sound sc : forall last, sched_okb last sc = true -> sched_ok last sc.
Proof.
  induction sc as [|[i a] tl IH]; intros last H; [exact I|]. destruct a as [| |now]; cbn [sched_okb sched_ok] in *.
  - apply IH; exact H.
  - apply IH; exact H.
  - apply andb_prop in H. destruct H as (H & H4). apply andb_prop in H. destruct H as (H & H3).
    apply andb_prop in H. destruct H as (H1 & H2). unfold time_ok.
    split; [lia|]. split; [lia|]. apply IH; exact H4.
Qed.

Lemma ex2_hypotheses :
  cfg_valid unit ex2_cfg /\ sched_ok (fun _ => 0) (ex2_schedule 300) /\ apps_total unit unit_app_ops /\
  medium_bytes (ideal_medium 500000).
Proof.
  split; [|split; [|split]].
  - unfold cfg_valid, ex2_cfg. constructor; [|constructor; [|constructor]]; cbn [fst]; unfold builder_valid, builder_max_address, builder_min_ttr, builder_max_ttr, builder_min_gap, builder_max_gap, builder_max_hsa, builder_min_retry, builder_max_retry, builder_min_tsdr; cbn; lia.
  - apply sched_okb_sound. vm_compute. reflexivity.
  - exact unit_apps_total.
  - apply ideal_medium_bytes.
Qed.
