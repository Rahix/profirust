(* C13_rotation_bound: in a ring whose stations obey the hold rule (Model/Rotation.v) every station has the token
   back within TTR + N (C + O); by induction over the hops of one rotation (rotation_prefix). *)
From PB Require Import Rotation.

Lemma t_mono r : trace_wf r -> forall a b, (a <= b)%nat -> rt_t r a <= rt_t r b.
Proof.
  intros [_ W] a b H. induction H as [|b H IH]; [lia|].
  destruct (W b) as (E & Hh & Ho). lia.
Qed.

Lemma rotation_prefix r TTR C O : trace_wf r -> obeys_hold_rule r TTR C O -> 0 <= TTR -> 0 <= C -> 0 <= O ->
  forall v, (rt_n r <= v)%nat -> forall m, (m <= rt_n r)%nat ->
  rt_t r (v + m) <= rt_t r v + TTR + Z.of_nat m * (C + O).
Proof.
  intros W Hr HT HC HO v Hv m. induction m as [|m IH]; intros Hm.
  - rewrite Nat.add_0_r. lia.
  - replace (v + S m)%nat with (S (v + m)) by lia.
    destruct W as [Wn W]. destruct (W (v + m)%nat) as (E & Hh & Ho).
    destruct (Hr (v + m)%nat ltac:(lia)) as [Hhold Hover].
    (* the previous receipt of this station was not after visit v: the hold is counted from there *)
    assert (Hprev : rt_t r (v + m - rt_n r) <= rt_t r v).
    { apply (t_mono r (conj Wn W)). lia. }
    specialize (IH ltac:(lia)). rewrite E. rewrite Nat2Z.inj_succ. lia.
Qed.

Theorem rotation_bound r TTR C O : trace_wf r -> obeys_hold_rule r TTR C O -> 0 <= TTR -> 0 <= C -> 0 <= O ->
  forall v, (rt_n r <= v)%nat ->
  rt_t r (v + rt_n r) - rt_t r v <= TTR + Z.of_nat (rt_n r) * (C + O).
Proof.
  intros W Hr HT HC HO v Hv.
  pose proof (rotation_prefix r TTR C O W Hr HT HC HO v Hv (rt_n r) ltac:(lia)). lia.
Qed.

(* non-vacuity: a 3-station ring in which everybody holds the token for 10 and passes in 1 *)
Definition example_trace : rotation_trace :=
  mkTrace 3 (fun v => Z.of_nat v * 11) (fun _ => 10) (fun _ => 1).

Lemma example_trace_ok : trace_wf example_trace /\ obeys_hold_rule example_trace 100 10 1.
Proof.
  split.
  - split; [cbn; lia|]. intros v. cbn [example_trace rt_t rt_h rt_o]. rewrite Nat2Z.inj_succ. lia.
  - intros v Hv. cbn [example_trace rt_t rt_h rt_o rt_n] in *. lia.
Qed.
