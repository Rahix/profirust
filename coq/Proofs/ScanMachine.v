(* The sweep machine: what LiveList and DpScanner have in common, seen through the abstract
   transcript (cursor, done flag, station bits; events as Up / Re / Down).  All C18 oracle
   theorems are proved once about this machine; Proofs/C18Proofs.v shows that both models
   are simulated by it.  Convergence, the payloads told by the events and the ground-truth rule
   (Proofs/C18Truth.v) rest on one fact: what is known about an address is decided by the class
   of its last probe (linv_run, tinv_run). *)
From PB Require Import Common ScanBase ScanOracle ScanTruth.

Lemma setbit_negative a n : n < 0 -> Z.setbit a n = a.
Proof.
  intros H. rewrite Z.setbit_spec'. rewrite Z.pow_neg_r by lia. apply Z.lor_0_r.
Qed.

Lemma clearbit_negative a n : n < 0 -> Z.clearbit a n = a.
Proof.
  intros H. rewrite Z.clearbit_spec'. rewrite Z.pow_neg_r by lia. apply Z.ldiff_0_r.
Qed.

Lemma testbit_setbit k b a : 0 <= a -> Z.testbit (Z.setbit k b) a = (b =? a) || Z.testbit k a.
Proof.
  intros Ha. destruct (Z.ltb_spec b 0) as [Hb|Hb].
  - rewrite setbit_negative by lia. destruct (Z.eqb_spec b a) as [E|E]; [lia|reflexivity].
  - apply Z.setbit_eqb. lia.
Qed.

Lemma testbit_clearbit k b a : Z.testbit (Z.clearbit k b) a = Z.testbit k a && negb (b =? a).
Proof. apply Z.clearbit_eqb. Qed.

Lemma next_addr_range c : 0 <= c <= 125 -> 0 <= next_addr c <= 125.
Proof. intros H. unfold next_addr. destruct (Z.ltb_spec c 125) as [L|L]; lia. Qed.

Lemma next_addr_mod c : 0 <= c <= 125 -> next_addr c = (c + 1) mod 126.
Proof.
  intros H. unfold next_addr. destruct (Z.ltb_spec c 125) as [L|L].
  - rewrite Z.mod_small by lia. reflexivity.
  - assert (c = 125) by lia. subst c. reflexivity.
Qed.

Lemma addr_list_in n a : In a (addr_list n) <-> 0 <= a < Z.of_nat n.
Proof.
  unfold addr_list. rewrite in_map_iff. split.
  - intros [i [E I]]. apply in_seq in I. lia.
  - intros H. exists (Z.to_nat a). split; [lia|]. apply in_seq. lia.
Qed.

Lemma sweep_from_cons c n : 0 <= c <= 125 -> sweep_from c (S n) = c :: sweep_from (next_addr c) n.
Proof.
  intros H. unfold sweep_from. cbn [seq map]. rewrite Z.add_0_r, Z.mod_small by lia. f_equal.
  rewrite <- seq_shift, map_map. apply map_ext. intros i.
  rewrite (next_addr_mod c H), Zplus_mod_idemp_l. f_equal. lia.
Qed.

Lemma sweep_from_range c n : Forall (fun a => 0 <= a <= 125) (sweep_from c n).
Proof.
  unfold sweep_from. apply Forall_forall. intros a I. apply in_map_iff in I.
  destruct I as [i [E _]]. subst a. pose proof (Z.mod_pos_bound (c + Z.of_nat i) 126 ltac:(lia)). lia.
Qed.

(* 126 consecutive probes reach every address: a is probe number (a - c) mod 126 *)
Lemma sweep_from_covers c n a : 0 <= a <= 125 -> (sweep_len <= n)%nat -> In a (sweep_from c n).
Proof.
  intros Ha L. unfold sweep_len in L. pose proof (Z.mod_pos_bound (a - c) 126 ltac:(lia)) as B.
  apply in_map_iff. exists (Z.to_nat ((a - c) mod 126)). split; [|apply in_seq; lia].
  rewrite Z2Nat.id, Zplus_mod_idemp_r by lia. replace (c + (a - c)) with a by lia. apply Z.mod_small. lia.
Qed.

Lemma track_app (P : Type) (k : Z -> option P) (w1 w2 : list (apoll P)) :
  track k (w1 ++ w2) = track (track k w1) w2.
Proof. unfold track. apply fold_left_app. Qed.

Section OracleFacts.
  Variable P : Type.

  Lemma cursor_walk_closed_form (tr : list (apoll P)) : forall c dn,
    0 <= c <= 125 -> cursor_walk c dn tr = true ->
    probed tr = sweep_from (if dn then next_addr c else c) (length (probed tr)).
  Proof.
    induction tr as [|p r IH]; intros c dn Hc W; [reflexivity|].
    cbn [cursor_walk] in W. cbn [probed flat_map]. fold (probed r).
    destruct (ap_da p) as [a|] eqn:Dp; destruct dn; try discriminate W; cbn [opt_list app length].
    - apply andb_prop in W. destruct W as [W1 W]. apply andb_prop in W1. destruct W1 as [W1 _].
      apply Z.eqb_eq in W1. subst a. rewrite sweep_from_cons by exact Hc. f_equal.
      exact (IH c true Hc W).
    - exact (IH (next_addr c) false (next_addr_range c Hc) W).
  Qed.

  (* probes and advances alternate: every second poll is a probe *)
  Lemma cursor_walk_probes (tr : list (apoll P)) : forall c dn, cursor_walk c dn tr = true ->
    (length tr <= 2 * length (probed tr) + (if dn then 1 else 0))%nat.
  Proof.
    induction tr as [|p r IH]; intros c dn W; cbn [length]; [lia|].
    cbn [cursor_walk] in W. cbn [probed flat_map]. fold (probed r).
    destruct (ap_da p) as [a|]; destruct dn; try discriminate W; cbn [opt_list app length].
    - apply andb_prop in W. specialize (IH c true (proj2 W)). cbn iota in IH. lia.
    - specialize (IH (next_addr c) false W). cbn iota in IH. lia.
  Qed.

  Lemma walk_cover c dn (tr : list (apoll P)) :
    0 <= c <= 125 -> cursor_walk c dn tr = true -> (sweep_polls <= length tr)%nat ->
    forall a, 0 <= a <= 125 -> In a (probed tr).
  Proof.
    intros Hc W L a Ha. rewrite (cursor_walk_closed_form tr c dn Hc W). apply sweep_from_covers; [exact Ha|].
    pose proof (cursor_walk_probes tr c dn W). unfold sweep_polls, sweep_len in *. destruct dn; lia.
  Qed.

  Lemma fold_alt_none (evs : list (aev P)) : fold_left (alt_ev P) evs None = None.
  Proof. induction evs as [|e evs IH]; [reflexivity|exact IH]. Qed.

  (* one event: an accepted event about a flips (Up, Down) or confirms (Re) what is known of a;
     events about other addresses say nothing about a *)
  Lemma alt_ev_kinds a (e : aev P) k k1 rest : 0 <= a -> alt_ev P (Some k) e = Some k1 ->
    alt_from (Z.testbit k a) (ev_kinds a e ++ rest) = alt_from (Z.testbit k1 a) rest.
  Proof.
    intros Ha F. destruct e as [b q|b q|b]; cbn [alt_ev ev_kinds] in *;
      destruct (Z.testbit k b) eqn:B; inversion F; subst k1;
      rewrite ?testbit_setbit, ?testbit_clearbit by exact Ha;
      destruct (Z.eqb_spec b a) as [->|E]; cbn [app alt_from negb orb]; rewrite ?B, ?andb_true_r, ?andb_false_r; reflexivity.
  Qed.

  Lemma alt_events_from a (evs : list (aev P)) : 0 <= a -> forall k k' rest,
    fold_left (alt_ev P) evs (Some k) = Some k' ->
    alt_from (Z.testbit k a) (flat_map (ev_kinds a) evs ++ rest) = alt_from (Z.testbit k' a) rest.
  Proof.
    intros Ha. induction evs as [|e evs IH]; intros k k' rest F; cbn [fold_left flat_map app] in *.
    - injection F as F. subst k'. reflexivity.
    - destruct (alt_ev P (Some k) e) as [k1|] eqn:F1; [|rewrite fold_alt_none in F; discriminate F].
      rewrite <- app_assoc, (alt_ev_kinds a e k k1 _ Ha F1). exact (IH _ _ rest F).
  Qed.

  (* the per address reading of the alternation oracle: the events about address a strictly
     alternate (Up only when unknown, Down and Re only when known) and account for its
     membership from the first to the last state *)
  Lemma alt_walk_per_address a (tr : list (apoll P)) : 0 <= a -> forall k k',
    alt_walk false k tr = Some k' ->
    alt_from (Z.testbit k a) (kinds_of a tr) = Some (Z.testbit k' a).
  Proof.
    intros Ha. induction tr as [|p r IH]; intros k k' W; cbn [alt_walk kinds_of flat_map] in *.
    - injection W as W. subst k'. reflexivity.
    - match type of W with context [fold_left _ _ (Some ?x)] => replace x with k in W end.
      2:{ destruct (ap_da p); [|reflexivity]. destruct (ap_cls p); reflexivity. }
      destruct (fold_left (alt_ev P) (ap_evs p) (Some k)) as [k1|] eqn:F; [|discriminate W].
      destruct (Z.eqb_spec k1 (ap_bits p)) as [E|E]; [|discriminate W].
      fold (kinds_of a r). rewrite (alt_events_from a (ap_evs p) Ha k k1 (kinds_of a r) F).
      exact (IH k1 k' W).
  Qed.

  Lemma last_probe_not_probed a (w : list (apoll P)) : forall acc,
    ~ In a (probed w) -> last_probe a acc w = acc.
  Proof.
    induction w as [|p r IH]; intros acc NI; [reflexivity|].
    cbn [last_probe]. cbn [probed flat_map] in NI. fold (probed r) in NI.
    destruct (ap_da p) as [b|]; cbn [opt_list app] in NI.
    - destruct (Z.eqb_spec b a) as [E|E]; [exfalso; apply NI; left; exact E|].
      apply IH. intros I. apply NI. right. exact I.
    - apply IH. exact NI.
  Qed.

  Lemma last_probe_probed a (w : list (apoll P)) : forall acc,
    In a (probed w) ->
    exists p, In p w /\ ap_da p = Some a /\ last_probe a acc w = Some (ap_cls p).
  Proof.
    induction w as [|p r IH]; intros acc I; [contradiction|].
    cbn [last_probe]. cbn [probed flat_map] in I. fold (probed r) in I.
    destruct (in_dec Z.eq_dec a (probed r)) as [J|J].
    - destruct (IH (match ap_da p with
                    | Some b => if b =? a then Some (ap_cls p) else acc
                    | None => acc end) J) as [q [Q1 [Q2 Q3]]].
      exists q. split; [right; exact Q1|split; [exact Q2|exact Q3]].
    - apply in_app_or in I. destruct I as [I|I]; [|contradiction].
      destruct (ap_da p) as [b|] eqn:Dp; cbn [opt_list] in I; [|contradiction].
      destruct I as [I|[]]. subst b. rewrite Z.eqb_refl.
      exists p. split; [left; reflexivity|split; [exact Dp|]].
      apply last_probe_not_probed. exact J.
  Qed.

  Lemma window_set_other (w : list (apoll P)) : forall m0 n, 0 <= n -> ~ In n (probed w) ->
    Z.testbit (window_set m0 w) n = Z.testbit m0 n.
  Proof.
    induction w as [|p w IH]; intros m0 n Hn NI; [reflexivity|].
    cbn [window_set]. cbn [probed flat_map] in NI. fold (probed w) in NI.
    destruct (ap_da p) as [z|]; cbn [opt_list app] in NI.
    - assert (z <> n) by (intros E; apply NI; left; exact E).
      assert (~ In n (probed w)) by (intros I; apply NI; right; exact I).
      rewrite IH by assumption.
      destruct (ap_cls p); rewrite ?testbit_clearbit, ?testbit_setbit by exact Hn;
        destruct (Z.eqb_spec z n); try contradiction; cbn [negb orb]; rewrite ?andb_true_r; reflexivity.
    - apply IH; assumption.
  Qed.
End OracleFacts.

Section Machine.
  Variable P : Type.
  Variable peqb : P -> P -> bool.
  Hypothesis peqb_refl : forall p, peqb p p = true.
  Variable other_sets : bool.   (* an unexpected reply marks an unknown address (live list, O1) *)
  Variable requery : bool.      (* a valid reply of a known address is reported (scanner) *)

  Record ast : Type := mkA { a_cur : Z; a_dn : bool; a_bits : Z }.

  Definition spec_bits (m a : Z) (c : cls P) : Z :=
    match c with
    | CTimeout => if Z.testbit m a then Z.clearbit m a else m
    | CValid _ => if Z.testbit m a then m else Z.setbit m a
    | COther => if other_sets && negb (Z.testbit m a) then Z.setbit m a else m
    | CNone => m
    end.

  Definition spec_evs (m a : Z) (c : cls P) : list (aev P) :=
    match c with
    | CTimeout => if Z.testbit m a then [ADown a] else []
    | CValid p => if Z.testbit m a then (if requery then [ARe a p] else []) else [AUp a p]
    | _ => []
    end.

  Definition a_next (st : ast) (ce : Z -> cls P) : ast :=
    if a_dn st then mkA (next_addr (a_cur st)) false (a_bits st)
    else mkA (a_cur st) true (spec_bits (a_bits st) (a_cur st) (ce (a_cur st))).

  Definition a_obs (st : ast) (ce : Z -> cls P) : apoll P :=
    if a_dn st then mkAp None CNone [] (a_bits st)
    else mkAp (Some (a_cur st)) (ce (a_cur st)) (spec_evs (a_bits st) (a_cur st) (ce (a_cur st)))
              (spec_bits (a_bits st) (a_cur st) (ce (a_cur st))).

  Fixpoint a_final (st : ast) (h : list (Z -> cls P)) : ast :=
    match h with [] => st | ce :: h' => a_final (a_next st ce) h' end.
  Fixpoint a_trace (st : ast) (h : list (Z -> cls P)) : list (apoll P) :=
    match h with [] => [] | ce :: h' => a_obs st ce :: a_trace (a_next st ce) h' end.

  Definition cur_ok (st : ast) : Prop := 0 <= a_cur st <= 125.

  Lemma a_next_cur_ok st ce : cur_ok st -> cur_ok (a_next st ce).
  Proof.
    unfold cur_ok, a_next. intros H. destruct (a_dn st); cbn [a_cur]; [apply next_addr_range|]; exact H.
  Qed.

  Lemma a_final_cur_ok h : forall st, cur_ok st -> cur_ok (a_final st h).
  Proof.
    induction h as [|ce h IH]; intros st H; cbn [a_final]; [exact H|].
    apply IH. apply a_next_cur_ok. exact H.
  Qed.

  Lemma a_trace_length h : forall st, length (a_trace st h) = length h.
  Proof. induction h as [|ce h IH]; intros st; cbn [a_trace length]; [reflexivity|]. rewrite IH. reflexivity. Qed.

  Lemma a_trace_app h1 : forall st h2,
    a_trace st (h1 ++ h2) = a_trace st h1 ++ a_trace (a_final st h1) h2.
  Proof.
    induction h1 as [|ce h1 IH]; intros st h2; cbn [a_trace a_final app]; [reflexivity|].
    rewrite IH. reflexivity.
  Qed.

  Lemma a_final_app h1 : forall st h2, a_final st (h1 ++ h2) = a_final (a_final st h1) h2.
  Proof. induction h1 as [|ce h1 IH]; intros st h2; cbn [a_final app]; [reflexivity|]. apply IH. Qed.

  Lemma a_obs_bits st ce : ap_bits (a_obs st ce) = a_bits (a_next st ce).
  Proof. unfold a_obs, a_next. destruct (a_dn st); reflexivity. Qed.

  Lemma a_trace_firstn n : forall st h, firstn n (a_trace st h) = a_trace st (firstn n h).
  Proof.
    induction n as [|n IH]; intros st h; [reflexivity|].
    destruct h as [|ce h]; [reflexivity|]. cbn [a_trace firstn]. rewrite IH. reflexivity.
  Qed.

  Lemma a_trace_skipn n : forall st h,
    skipn n (a_trace st h) = a_trace (a_final st (firstn n h)) (skipn n h).
  Proof.
    induction n as [|n IH]; intros st h; [reflexivity|].
    destruct h as [|ce h]; [reflexivity|]. cbn [a_trace skipn firstn a_final]. apply IH.
  Qed.

  Lemma last_bits_trace d h st : h <> [] -> last_bits d (a_trace st h) = a_bits (a_final st h).
  Proof.
    destruct h as [|ce h] using rev_ind; [intros C; contradiction|]. intros _.
    rewrite a_trace_app, a_final_app. unfold last_bits. rewrite rev_app_distr. apply a_obs_bits.
  Qed.

  Lemma a_trace_forallb (A : Type) (g : A -> Z -> cls P) (f : apoll P -> bool) (Q : A -> Prop) :
    (forall st e, cur_ok st -> Q e -> f (a_obs st (g e)) = true) ->
    forall h st, cur_ok st -> Forall Q h -> forallb f (a_trace st (map g h)) = true.
  Proof.
    intros Hf. induction h as [|e h IH]; intros st H F; [reflexivity|].
    inversion F as [|? ? Fe Fh]; subst. cbn [map a_trace forallb].
    rewrite (Hf st e H Fe), (IH _ (a_next_cur_ok st (g e) H) Fh). reflexivity.
  Qed.

  Lemma a_cursor h : forall st, cur_ok st ->
    cursor_walk (a_cur st) (a_dn st) (a_trace st h) = true.
  Proof.
    induction h as [|ce h IH]; intros st H; cbn [a_trace cursor_walk]; [reflexivity|].
    pose proof (IH (a_next st ce) (a_next_cur_ok st ce H)) as IH'.
    unfold a_obs, a_next, cur_ok, addr_okb in *. destruct (a_dn st); cbn [ap_da a_cur a_dn] in *; [exact IH'|].
    rewrite Z.eqb_refl, IH'. destruct (Z.leb_spec 0 (a_cur st)), (Z.leb_spec (a_cur st) 125); lia.
  Qed.

  Lemma a_cover h st : cur_ok st -> (sweep_polls <= length h)%nat ->
    forall a, 0 <= a <= 125 -> In a (probed (a_trace st h)).
  Proof.
    intros H L. apply (walk_cover P (a_cur st) (a_dn st)); [exact H|apply a_cursor; exact H|].
    rewrite a_trace_length. exact L.
  Qed.

  Lemma probed_in_range st h a : cur_ok st -> In a (probed (a_trace st h)) -> 0 <= a <= 125.
  Proof.
    intros H I. rewrite (cursor_walk_closed_form P _ _ _ H (a_cursor h st H)) in I.
    pose proof (sweep_from_range (if a_dn st then next_addr (a_cur st) else a_cur st) (length (probed (a_trace st h)))) as F.
    rewrite Forall_forall in F. exact (F a I).
  Qed.

  (* the one poll in which the station set may change without an event: an unexpected reply
     from an unknown address *)
  Definition unknown_other (st : ast) (ce : Z -> cls P) : bool :=
    negb (a_dn st) && negb (Z.testbit (a_bits st) (a_cur st)) &&
    match ce (a_cur st) with COther => true | _ => false end.

  (* one poll of the alternation oracle; on such a poll `silent` must say what the application does *)
  Lemma a_alt_step silent st ce tr : (unknown_other st ce = true -> silent = other_sets) ->
    alt_walk silent (a_bits st) (a_obs st ce :: tr) = alt_walk silent (a_bits (a_next st ce)) tr.
  Proof.
    intros Hs. cbn [alt_walk]. rewrite <- a_obs_bits. unfold a_obs, unknown_other in *.
    destruct (a_dn st); cbn [ap_da ap_cls ap_evs ap_bits fold_left negb andb] in *; [rewrite Z.eqb_refl; reflexivity|].
    destruct (ce (a_cur st)) as [| |p|]; cbn [spec_evs spec_bits];
      destruct (Z.testbit (a_bits st) (a_cur st)) eqn:B;
      cbn [has_up existsb negb andb] in *; rewrite ?andb_false_r, ?andb_true_r.
    1-7: try destruct requery; cbn [fold_left alt_ev]; rewrite ?B, ?Z.eqb_refl; reflexivity.
    rewrite Hs by reflexivity. cbn [fold_left]. rewrite Z.eqb_refl. reflexivity.
  Qed.

  (* observation O1 built in: always holds *)
  Lemma a_alt_silent h : forall st,
    alt_walk other_sets (a_bits st) (a_trace st h) = Some (a_bits (a_final st h)).
  Proof.
    induction h as [|ce h IH]; intros st; cbn [a_trace a_final]; [reflexivity|].
    rewrite a_alt_step by reflexivity. apply IH.
  Qed.

  Lemma a_alt_strict h : forall st,
    other_sets = false \/ no_other (a_trace st h) = true ->
    alt_walk false (a_bits st) (a_trace st h) = Some (a_bits (a_final st h)).
  Proof.
    induction h as [|ce h IH]; intros st Hyp; cbn [a_trace a_final]; [reflexivity|].
    rewrite a_alt_step.
    - apply IH. destruct Hyp as [E|N]; [left; exact E|right].
      cbn [a_trace no_other forallb] in N. apply andb_prop in N. exact (proj2 N).
    - intros U. destruct Hyp as [E|N]; [symmetry; exact E|exfalso].
      cbn [a_trace no_other forallb] in N. unfold unknown_other, a_obs in *.
      destruct (a_dn st); [discriminate U|]. cbn [ap_cls] in N.
      destruct (ce (a_cur st)); try discriminate N; rewrite andb_false_r in U; discriminate U.
  Qed.

  Lemma a_alt_strict_ns h : forall st, cur_ok st ->
    no_silent (a_bits st) (a_trace st h) = true ->
    alt_walk false (a_bits st) (a_trace st h) = Some (a_bits (a_final st h)).
  Proof.
    induction h as [|ce h IH]; intros st H N; cbn [a_trace a_final]; [reflexivity|].
    cbn [a_trace no_silent] in N. apply andb_prop in N. destruct N as [N1 N2]. rewrite a_obs_bits in N2.
    rewrite a_alt_step; [exact (IH _ (a_next_cur_ok st ce H) N2)|].
    intros U. unfold unknown_other, a_obs in *. destruct (a_dn st); [discriminate U|].
    cbn [ap_da ap_cls ap_evs ap_bits negb andb] in *.
    destruct (ce (a_cur st)); try (rewrite andb_false_r in U; discriminate U).
    rewrite andb_true_r in U. apply negb_true_iff in U. cbn [spec_evs spec_bits has_up existsb] in N1.
    rewrite U in N1. destruct other_sets; [|reflexivity].
    cbn [andb negb orb] in N1. rewrite Z.setbit_eq in N1 by (unfold cur_ok in H; lia). discriminate N1.
  Qed.

  Lemma a_evs_match lenient h : forall st, evs_matchb peqb lenient (a_trace st h) = true.
  Proof.
    induction h as [|ce h IH]; intros st; cbn [a_trace evs_matchb forallb]; [reflexivity|].
    fold (evs_matchb peqb lenient (a_trace (a_next st ce) h)). rewrite IH, andb_true_r.
    unfold a_obs. destruct (a_dn st); cbn [ap_evs forallb]; [reflexivity|].
    unfold ev_matchb; cbn [ap_da ap_cls].
    destruct (ce (a_cur st)) as [| |p|]; cbn [spec_evs forallb]; try reflexivity.
    - destruct (Z.testbit (a_bits st) (a_cur st)); cbn [forallb]; [|reflexivity].
      rewrite Z.eqb_refl. reflexivity.
    - destruct (Z.testbit (a_bits st) (a_cur st)); [destruct requery|]; cbn [forallb];
        rewrite ?Z.eqb_refl, ?peqb_refl; reflexivity.
  Qed.

  Lemma spec_bits_other m c a (k : cls P) : 0 <= c -> c <> a ->
    Z.testbit (spec_bits m c k) a = Z.testbit m a.
  Proof.
    intros Hc Ne. destruct k as [| |q|]; cbn [spec_bits]; try reflexivity.
    - destruct (Z.testbit m c); [|reflexivity]. apply Z.clearbit_neq. exact Ne.
    - destruct (Z.testbit m c); [reflexivity|]. apply Z.setbit_neq; assumption.
    - destruct (other_sets && negb (Z.testbit m c)); [|reflexivity]. apply Z.setbit_neq; assumption.
  Qed.

  Lemma a_bits_outside h : forall st a, cur_ok st -> 125 < a ->
    Z.testbit (a_bits (a_final st h)) a = Z.testbit (a_bits st) a.
  Proof.
    induction h as [|ce h IH]; intros st a H Ha; cbn [a_final]; [reflexivity|].
    rewrite IH by (try apply a_next_cur_ok; assumption).
    unfold a_next, cur_ok in *. destruct (a_dn st); cbn [a_bits]; [reflexivity|]. apply spec_bits_other; lia.
  Qed.

  (* what the last probe of a seen so far tells about the bit of a *)
  Definition linv (a : Z) (acc : option (cls P)) (st : ast) : Prop :=
    match acc with
    | Some (CValid _) => Z.testbit (a_bits st) a = true
    | Some CTimeout => Z.testbit (a_bits st) a = false
    | _ => True
    end.

  Lemma linv_step a st ce acc : cur_ok st -> linv a acc st ->
    linv a (match ap_da (a_obs st ce) with
            | Some b => if b =? a then Some (ap_cls (a_obs st ce)) else acc
            | None => acc
            end) (a_next st ce).
  Proof.
    unfold cur_ok. intros H I. unfold a_obs, a_next.
    destruct (a_dn st); cbn [ap_da ap_cls]; [exact I|].
    destruct (Z.eqb_spec (a_cur st) a) as [E|E].
    - subst a. destruct (ce (a_cur st)) as [| |q|]; cbn [linv spec_bits a_bits]; try exact Logic.I.
      + destruct (Z.testbit (a_bits st) (a_cur st)) eqn:B; [apply Z.clearbit_eq|exact B].
      + destruct (Z.testbit (a_bits st) (a_cur st)) eqn:B; [exact B|apply Z.setbit_eq; lia].
    - unfold linv in *. cbn [a_bits]. rewrite spec_bits_other by (try lia; exact E). exact I.
  Qed.

  Lemma linv_run a h : forall st acc, cur_ok st -> linv a acc st ->
    linv a (last_probe a acc (a_trace st h)) (a_final st h).
  Proof.
    induction h as [|ce h IH]; intros st acc H I; [exact I|].
    cbn [a_trace a_final last_probe]. apply IH; [apply a_next_cur_ok; exact H|]. apply linv_step; assumption.
  Qed.

  (* C18_converges on the machine: after a window of at least one sweep that is explained
     by the fixed population m, the station bits of 0..125 are exactly m *)
  Lemma a_converges m h st : cur_ok st -> (sweep_polls <= length h)%nat ->
    consistent m (a_trace st h) = true ->
    forall a, 0 <= a <= 125 -> Z.testbit (a_bits (a_final st h)) a = m a.
  Proof.
    intros H L C a Ha.
    destruct (last_probe_probed P a (a_trace st h) None (a_cover h st H L a Ha)) as [p [Ip [Dp Lp]]].
    pose proof (linv_run a h st None H Logic.I) as R. rewrite Lp in R.
    unfold consistent in C. rewrite forallb_forall in C. specialize (C p Ip). rewrite Dp in C.
    destruct (ap_cls p); try discriminate C; cbn [linv] in R; rewrite R; [|symmetry; exact C].
    apply negb_true_iff in C. symmetry. exact C.
  Qed.

  Section Track.
    Hypothesis requery_on : requery = true.

    (* what the events have told about address a (k a), by the class of its last probe; an
       address that is not listed has no payload *)
    Definition tinv (a : Z) (acc : option (cls P)) (k : Z -> option P) (st : ast) : Prop :=
      (Z.testbit (a_bits st) a = false -> k a = None) /\
      match acc with
      | Some (CValid q) => k a = Some q
      | Some CTimeout => k a = None
      | _ => True
      end.

    Lemma tinv_step a st ce acc k : cur_ok st -> tinv a acc k st ->
      tinv a (match ap_da (a_obs st ce) with
              | Some b => if b =? a then Some (ap_cls (a_obs st ce)) else acc
              | None => acc
              end) (fold_left (track_ev P) (ap_evs (a_obs st ce)) k) (a_next st ce).
    Proof.
      unfold cur_ok. intros H [I1 I2]. unfold a_obs, a_next.
      destruct (a_dn st); cbn [ap_da ap_cls ap_evs fold_left]; [split; assumption|].
      assert (U : forall v, upd k (a_cur st) v a = if a_cur st =? a then v else k a).
      { intro v. unfold upd. rewrite (Z.eqb_sym a). reflexivity. }
      destruct (Z.eqb_spec (a_cur st) a) as [E|E].
      - subst a. unfold tinv. cbn [a_bits].
        destruct (ce (a_cur st)) as [| |q|]; cbn [spec_evs spec_bits];
          destruct (Z.testbit (a_bits st) (a_cur st)) eqn:B; rewrite ?requery_on;
          cbn [fold_left track_ev]; rewrite ?U, ?B, ?Z.clearbit_eq, ?Z.setbit_eq by lia; auto;
          try (split; [discriminate|reflexivity]).
        destruct other_sets; cbn [andb negb]; rewrite ?Z.setbit_eq, ?B by lia; split; auto; discriminate.
      - assert (K : fold_left (track_ev P) (spec_evs (a_bits st) (a_cur st) (ce (a_cur st))) k a = k a).
        { destruct (ce (a_cur st)) as [| |q|]; cbn [spec_evs]; try reflexivity;
            destruct (Z.testbit (a_bits st) (a_cur st)); try destruct requery; cbn [fold_left track_ev];
            rewrite ?U; reflexivity. }
        unfold tinv. cbn [a_bits]. rewrite K, spec_bits_other by (try lia; exact E). split; assumption.
    Qed.

    Lemma tinv_run a h : forall st acc k, cur_ok st -> tinv a acc k st ->
      tinv a (last_probe a acc (a_trace st h)) (track k (a_trace st h)) (a_final st h).
    Proof.
      induction h as [|ce h IH]; intros st acc k H I; [exact I|].
      cbn [a_trace a_final last_probe]. change (track k (a_obs st ce :: a_trace (a_next st ce) h))
        with (track (fold_left (track_ev P) (ap_evs (a_obs st ce)) k) (a_trace (a_next st ce) h)).
      apply IH; [apply a_next_cur_ok; exact H|]. apply tinv_step; assumption.
    Qed.

    Lemma tinv_final h k st : cur_ok st -> (forall a, tinv a None k st) ->
      forall a, tinv a None (track k (a_trace st h)) (a_final st h).
    Proof. intros H I a. split; [exact (proj1 (tinv_run a h st None k H (I a)))|exact Logic.I]. Qed.

    Hypothesis peqb_eq : forall p q, peqb p q = true -> p = q.

    Lemma a_track_converges m pay h k st : cur_ok st -> (forall a, tinv a None k st) -> (sweep_polls <= length h)%nat ->
      consistent m (a_trace st h) = true -> pay_consistent peqb pay (a_trace st h) = true ->
      forall a, 0 <= a <= 125 -> track k (a_trace st h) a = if m a then pay a else None.
    Proof.
      intros H I L C1 C2 a Ha.
      destruct (last_probe_probed P a (a_trace st h) None (a_cover h st H L a Ha)) as [p [Ip [Dp Lp]]].
      destruct (tinv_run a h st None k H (I a)) as [_ R]. rewrite Lp in R.
      unfold consistent, pay_consistent in *. rewrite forallb_forall in C1, C2.
      specialize (C1 p Ip). specialize (C2 p Ip). rewrite Dp in C1, C2.
      destruct (ap_cls p) as [| |q|]; try discriminate C1.
      - apply negb_true_iff in C1. rewrite C1. exact R.
      - rewrite C1, R. destruct (pay a) as [q'|]; [|discriminate C2]. rewrite (peqb_eq _ _ C2). reflexivity.
    Qed.
  End Track.

  (* the convergence oracle never
     raises a false alarm on a machine trace that starts with bits 126.. clear *)

  Definition hi_clear (st : ast) : Prop := forall a, 125 < a -> Z.testbit (a_bits st) a = false.

  Lemma a_hi_clear h st : cur_ok st -> hi_clear st -> hi_clear (a_final st h).
  Proof. intros H C a Ha. rewrite a_bits_outside by assumption. apply C. exact Ha. Qed.

  Lemma opt_peqb_refl (o : option P) : opt_peqb peqb o o = true.
  Proof. destruct o; [apply peqb_refl|reflexivity]. Qed.

  Lemma a_converge_check_ok payloads st0 h0 hw :
    cur_ok st0 -> hi_clear st0 ->
    (payloads = true -> requery = true /\ forall p q, peqb p q = true -> p = q) ->
    converge_check peqb payloads (a_trace st0 h0) (a_trace (a_final st0 h0) hw) <> Some false.
  Proof.
    intros H0 C0 Hp. set (st := a_final st0 h0).
    assert (H : cur_ok st) by (apply a_final_cur_ok; exact H0).
    assert (C : hi_clear st) by (apply a_hi_clear; assumption).
    unfold converge_check.
    set (w := a_trace st hw). set (m := window_set 0 w). set (pay := window_pay (fun _ => None) w).
    destruct (Nat.leb sweep_polls (length w) && consistent (Z.testbit m) w && pay_consistent peqb pay w) eqn:Cond;
      [|discriminate].
    apply andb_prop in Cond. destruct Cond as [Cond C2]. apply andb_prop in Cond. destruct Cond as [L C1].
    apply Nat.leb_le in L. unfold w in L. rewrite a_trace_length in L.
    assert (E1 : (last_bits 0 w =? m) = true).
    { apply Z.eqb_eq. unfold w. rewrite last_bits_trace.
      2:{ intros E. rewrite E in L. unfold sweep_polls in L. cbn [length] in L. lia. }
      apply Z.bits_inj'. intros n Hn. destruct (Z.le_gt_cases n 125) as [Le|Gt].
      - exact (a_converges (Z.testbit m) hw st H L C1 n (conj Hn Le)).
      - rewrite (a_hi_clear hw st H C n ltac:(lia)). symmetry. unfold m.
        rewrite window_set_other; [apply Z.testbit_0_l|exact Hn|].
        intros I. apply (probed_in_range st hw n H) in I. lia. }
    rewrite E1. cbn [andb]. destruct payloads; [|discriminate].
    destruct (Hp eq_refl) as [Rq Pe].
    assert (E2 : forallb (fun a => opt_peqb peqb (track (fun _ => None) (a_trace st0 h0 ++ w) a)
                                     (if Z.testbit m a then pay a else None)) (addr_list sweep_len) = true).
    { apply forallb_forall. intros a Ia. apply addr_list_in in Ia. unfold sweep_len in Ia.
      rewrite track_app. unfold w.
      rewrite (a_track_converges Rq Pe (Z.testbit m) pay hw _ st H); try assumption; [apply opt_peqb_refl| |lia].
      apply (tinv_final Rq h0 (fun _ => None) st0 H0). intro x. split; [reflexivity|exact I]. }
    rewrite E2. discriminate.
  Qed.

  Lemma a_converge_scan_ok payloads n st0 :
    cur_ok st0 -> hi_clear st0 ->
    (payloads = true -> requery = true /\ forall p q, peqb p q = true -> p = q) ->
    forall fuel h0 h1 acc, snd acc = 0%nat ->
    snd (converge_scan peqb payloads n fuel (a_trace st0 h0) (a_trace (a_final st0 h0) h1) acc) = 0%nat.
  Proof.
    intros H0 C0 Hp. induction fuel as [|fuel IH]; intros h0 h1 acc A; cbn [converge_scan]; [exact A|].
    destruct (Nat.ltb (length (a_trace (a_final st0 h0) h1)) n); [exact A|].
    rewrite (a_trace_firstn n), (a_trace_firstn sweep_polls), (a_trace_skipn sweep_polls).
    rewrite <- a_trace_app, <- a_final_app.
    apply IH.
    pose proof (a_converge_check_ok payloads st0 h0 (firstn n h1) H0 C0 Hp) as Ok_.
    destruct (converge_check peqb payloads (a_trace st0 h0) (a_trace (a_final st0 h0) (firstn n h1))) as [[|]|];
      [exact A|exfalso; apply Ok_; reflexivity|exact A].
  Qed.
End Machine.
