(* The baud rates and reply expectations of the crate's tables agree with the literal values of the standard
   (Model/StdRates.v). *)
From PB Require Import Common Tables StdRates.

Lemma all_baudrates_complete : forall b : baudrate, In b all_baudrates.
Proof. intros b; destruct b; vm_compute; tauto. Qed.

Lemma standard_baud_rates : forall b : baudrate, baud_to_rate b = std_rate b.
Proof. intros b; destruct b; reflexivity. Qed.

Lemma rates_standard_ok_true : rates_standard_ok = true.
Proof. reflexivity. Qed.

Lemma standard_expects_reply : forall r : req_type, req_expects_reply r = std_expects_reply r.
Proof. intros r; destruct r; reflexivity. Qed.
