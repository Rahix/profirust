(* C17 - Diagnostics are decoded correctly and block iteration is total.
   Theorem statements only; every proof is `exact <lemma of Proofs/C17Proofs.v>`.
   Model: Model/Diag.v (peripheral.rs handle_diagnostics_response, scan.rs parse_diag_response,
   diagnostics.rs ExtendedDiagnostics / ExtDiagBlockIter / ChannelError / ChannelDataType), of the
   code WITH the F5 fix (`blk_len0_guard = true` is regenerated from the source on every run).
   Vocabulary (Model/DiagOracle.v): wire_flags, cleared_bit, announced, decode_block, tiles,
   block_explicit, dtype_as_specified, error_as_specified, ext_wf/ext_ok, reply_accepted, c17_*_ok. *)
From PB Require Import Common Consts DiagTables Diag DiagOracle C17Proofs.

(* ---- header: ident, master address and every flag bit equal the wire bytes, except the always-one
   marker bit 10 (bit 2 of byte 1) which the code clears on purpose (DESIGN 4.0); PDUs shorter than
   6 bytes are rejected, nothing else is. *)
Theorem C17_header_faithful : forall pdu, all_bytes pdu ->
  ((length pdu < 6)%nat /\ parse_diag pdu = Ok None) \/
  ((6 <= length pdu)%nat /\ exists d, parse_diag pdu = Ok (Some d) /\
     d_ident d = 256 * nth 4 pdu 0 + nth 5 pdu 0 /\
     d_master d = (if nth 3 pdu 0 =? 255 then None else Some (nth 3 pdu 0)) /\
     (forall i, 0 <= i -> i <> cleared_bit -> Z.testbit (d_flags d) i = Z.testbit (wire_flags pdu) i) /\
     Z.testbit (d_flags d) cleared_bit = false /\
     d_flags d = nth 0 pdu 0 + 256 * Z.land (nth 1 pdu 0) 251 /\
     0 <= d_flags d < 65536).
Proof. exact header_faithful. Qed.
Print Assumptions C17_header_faithful.

(* the scanner (scan.rs) reports ident and master address of the same decoding *)
Theorem C17_scan_header : forall dsap ssap pdu r, all_bytes pdu -> scan_reply (RData dsap ssap pdu) = Ok r ->
  (r = None \/ (opt_eqb dsap SAP_MASTER_MS0 = true /\ opt_eqb ssap SAP_SLAVE_DIAGNOSIS = true /\ c17_scan_ok pdu r = true)).
Proof. exact scan_oracle. Qed.
Print Assumptions C17_scan_header.

(* ---- buffer: stored iff a buffer exists and the string fits; then exactly the string is visible and
   the rest of the buffer is untouched; otherwise nothing changes (the previous content stays). *)
Theorem C17_fill : forall e ext, ext_wf e ->
  exists e' ok, ext_fill e ext = Ok (e', ok) /\ ext_wf e' /\ ext_cap e' = ext_cap e /\
    ok = (Nat.ltb 0 (ext_cap e) && Nat.leb (length ext) (ext_cap e)) /\
    (ok = true -> ext_visible e' = Some ext /\
                  skipn (length ext) (e_buf e') = skipn (length ext) (e_buf e)) /\
    (ok = false -> e' = e).
Proof. exact fill_spec. Qed.
Print Assumptions C17_fill.

(* ---- iteration is total: for EVERY byte string no panic, and fuel |raw|+1 suffices (each yielded
   block advances the cursor by at least one byte, so at most |raw| blocks). *)
Theorem C17_iter_total : forall raw fuel, all_bytes raw -> (length raw < fuel)%nat ->
  exists bs, blocks raw fuel = Ok bs /\ (length bs <= length raw)%nat.
Proof. exact iter_total. Qed.
Print Assumptions C17_iter_total.

(* ---- the yielded blocks tile the buffer (see `tiles`): the first starts at 0, each next one where the
   previous ended, each at least one byte, inside the buffer, of exactly its announced length, decoded
   from exactly its bytes; after the last block the buffer ends or a malformed (reserved type, length 0)
   or truncated block starts - i.e. iteration stops at the FIRST such block and not before. *)
Theorem C17_blocks_tile : forall raw fuel bs, all_bytes raw -> blocks raw fuel = Ok bs -> tiles raw 0 bs.
Proof. exact blocks_tile. Qed.
Print Assumptions C17_blocks_tile.

(* `tiles` determines the block list: there is exactly one decomposition *)
Theorem C17_tiles_unique : forall raw bs1 bs2 off, tiles raw off bs1 -> tiles raw off bs2 -> bs1 = bs2.
Proof. exact tiles_unique. Qed.
Print Assumptions C17_tiles_unique.

Theorem C17_iter_fuel_irrelevant : forall raw f1 f2 bs1 bs2, all_bytes raw ->
  blocks raw f1 = Ok bs1 -> blocks raw f2 = Ok bs2 -> bs1 = bs2.
Proof. exact blocks_fuel_irrelevant. Qed.
Print Assumptions C17_iter_fuel_irrelevant.

(* ---- every yielded block, explicitly in terms of the buffer bytes at its offset *)
Theorem C17_block_decode : forall raw fuel bs b, all_bytes raw -> blocks raw fuel = Ok bs -> In b bs ->
  (l_off b + l_len b <= length raw)%nat /\ block_explicit raw b.
Proof. exact block_decode. Qed.
Print Assumptions C17_block_decode.

(* channel blocks, all 256 values of each byte (bytes 0 and 1 by an argument on their bits, the tables of byte 2
   by a complete sweep): module / channel numbers, input /
   output bits, data type and error code as specified; re-encoding returns byte 2 unless its type
   bits are 000 *)
Theorem C17_channel_decode : forall b0 b1 b2, is_byte b0 -> is_byte b1 -> is_byte b2 ->
  let c := decode_channel b0 b1 b2 in
  c_module c = b0 mod 64 /\ c_channel c = b1 mod 64 /\
  c_input c = Z.testbit b1 6 /\ c_output c = Z.testbit b1 7 /\
  dtype_as_specified (b2 / 32) (c_dtype c) /\
  error_as_specified (b2 mod 32) (c_error c) /\
  (32 <= b2 -> Z.lor (chan_error_to_byte2 (c_error c)) (chan_dtype_to_byte2 (c_dtype c)) = b2).
Proof. exact channel_decode. Qed.
Print Assumptions C17_channel_decode.

(* identifier blocks: the reported indices are exactly the set bits, bit k of byte j = module 8j+k *)
Theorem C17_ident_bits : forall d i,
  In i (ident_ones d) <->
  (i < 8 * length d)%nat /\ Z.testbit (nth (i / 8) d 0) (Z.of_nat (i mod 8)) = true.
Proof. exact ident_ones_spec. Qed.
Print Assumptions C17_ident_bits.

(* ---- container level: iterating an available container never panics and tiles its visible bytes;
   Debug formatting (which iterates) never panics, with or without buffer. *)
Theorem C17_container_iter : forall e, ext_ok e -> ext_available e = true ->
  exists bs, ext_blocks e = Ok bs /\ tiles (firstn (e_len e) (e_buf e)) 0 bs /\ (length bs <= e_len e)%nat.
Proof. exact ext_blocks_available. Qed.
Print Assumptions C17_container_iter.

Theorem C17_debug_total : forall e, ext_ok e -> ext_debug e = Ok tt.
Proof. exact ext_debug_total. Qed.
Print Assumptions C17_debug_total.

(* Observation kept explicit (not part of the property: no byte string is iterated): calling
   iter_diag_blocks().next() on a container WITHOUT buffer unwraps raw_diag_buffer() = None. *)
Theorem C17_container_without_buffer_panics : forall e, ext_available e = false -> ext_blocks e = Panic SiteUnwrap.
Proof. exact ext_blocks_unavailable. Qed.
Print Assumptions C17_container_without_buffer_panics.

(* ---- through a reply (handle_diagnostics_response with the debug log on): never panics; accepted iff
   data telegram 60 -> 62 with >= 6 bytes; header reported faithfully; ext diag stored iff EXT_DIAG
   (bit 3 of byte 0) and a buffer exists and the string fits, else the previous content stays;
   a rejected reply changes nothing.  (The model pins down the code as it is.  The executable oracle
   c17_reply_ok is deliberately weaker where the property text is silent: with EXT_DIAG clear it also
   accepts an implementation that records trailing ext bytes when they fit; this theorem shows that
   the oracle accepts the model.) *)
Theorem C17_via_dp : forall s r, ext_ok (p_ext s) -> reply_bytes r ->
  exists s' acc, diag_reply s r = Ok (s', acc) /\
    ext_ok (p_ext s') /\ ext_cap (p_ext s') = ext_cap (p_ext s) /\
    acc = reply_accepted r /\
    (acc = false -> s' = s) /\
    c17_reply_ok (ext_cap (p_ext s)) (p_diag s) (ext_visible (p_ext s)) r
                 (p_diag s') (ext_visible (p_ext s')) = true.
Proof. exact reply_spec. Qed.
Print Assumptions C17_via_dp.

(* any history of replies *)
Theorem C17_via_dp_history : forall rs s, ext_ok (p_ext s) -> Forall reply_bytes rs ->
  exists l, diag_replies s rs = Ok l /\ length l = length rs.
Proof. exact replies_total. Qed.
Print Assumptions C17_via_dp_history.

(* ---- the oracles that run on the implementation's outputs accept what the model computes *)
Theorem C17_oracle_header : forall pdu r, all_bytes pdu -> parse_diag pdu = Ok r -> c17_header_ok pdu r = true.
Proof. exact header_oracle. Qed.
Print Assumptions C17_oracle_header.

Theorem C17_oracle_tiles : forall raw fuel bs, all_bytes raw -> blocks raw fuel = Ok bs ->
  c17_tiles_ok raw (map l_blk bs) = true.
Proof. exact tiles_oracle. Qed.
Print Assumptions C17_oracle_tiles.

(* ---- F5: the same iterator WITHOUT the length-0 guard (the unfixed code) panics on 00, 40, and on a
   valid block followed by 00 *)
Theorem C17_F5_unfixed_code_panics :
  blocks_from_g false [0] 0 2 = Panic SiteIndex /\ blocks_from_g false [64] 0 2 = Panic SiteIndex /\
  blocks_from_g false [2; 3; 0] 0 4 = Panic SiteIndex.
Proof. exact f5_unfixed_panics. Qed.
Print Assumptions C17_F5_unfixed_code_panics.

(* ---- non-vacuity *)

(* the crate's own test vector: identifier block (bit 8 set), channel block, device block *)
Example C17_example_blocks :
  blocks [68; 0; 1; 0; 136; 65; 33; 4; 16; 32; 48] 12 =
  Ok [mkL 0 4 (BIdent [0; 1; 0]);
      mkL 4 3 (BChannel (mkChan 8 1 true false DtBit CeShortCircuit));
      mkL 7 4 (BDevice [16; 32; 48])] /\
  ident_ones [0; 1; 0] = [8%nat].
Proof. split; vm_compute; reflexivity. Qed.

(* malformed blocks end the iteration: reserved type, length 0, truncated *)
Example C17_example_malformed :
  blocks [2; 7; 192; 1] 5 = Ok [mkL 0 2 (BDevice [7])] /\
  blocks [2; 7; 0; 1] 5 = Ok [mkL 0 2 (BDevice [7])] /\
  blocks [2; 7; 72; 1] 5 = Ok [mkL 0 2 (BDevice [7])] /\
  blocks [2; 7; 136; 1] 5 = Ok [mkL 0 2 (BDevice [7])].
Proof. repeat split; vm_compute; reflexivity. Qed.

Example C17_example_header :
  parse_diag [8; 12; 0; 255; 18; 52; 2; 3] = Ok (Some (mkDiag 2056 4660 None)) /\
  parse_diag [8; 12; 0; 5; 18; 52] = Ok (Some (mkDiag 2056 4660 (Some 5))) /\
  parse_diag [8; 12; 0; 255; 18] = Ok None.
Proof. repeat split; vm_compute; reflexivity. Qed.

Example C17_example_reply :
  let s0 := pstate_init [238; 238; 238; 238] in
  ext_ok (p_ext s0) /\
  diag_reply s0 (RData (Some 62) (Some 60) [8; 12; 0; 255; 18; 52; 2; 3]) =
    Ok (mkP (Some (mkDiag 2056 4660 None)) (mkExt [2; 3; 238; 238] 2), true) /\
  (* too large for the 4-byte buffer: diagnostics updated, ext diag kept *)
  diag_reply (mkP (Some (mkDiag 2056 4660 None)) (mkExt [2; 3; 238; 238] 2))
             (RData (Some 62) (Some 60) [8; 4; 0; 255; 18; 52; 5; 1; 2; 3; 4]) =
    Ok (mkP (Some (mkDiag 8 4660 None)) (mkExt [2; 3; 238; 238] 2), true).
Proof.
  cbv zeta. split; [|split]; try (vm_compute; reflexivity).
  split; [vm_compute; lia|]. repeat constructor; unfold is_byte; lia.
Qed.
